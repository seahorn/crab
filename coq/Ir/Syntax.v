(* Syntax.v — the fragment of CrabIR used by the domain- and analysis-level models:
   variables, linear expressions / constraints (include/crab/types/linear_constraints.hpp
   in the canonical form the C++ keeps: terms sorted by variable index, no zero
   coefficient), operator names, and their concrete meaning over mathematical integers
   (the semantics the z_number domains claim). *)
From Coq Require Import ZArith List Bool Lia.
Import ListNotations.
Local Open Scope Z_scope.

Definition var := N.                      (* variable index (ikos::index_t) *)
Definition store := var -> Z.

Definition upd (s : store) (x : var) (v : Z) : store :=
  fun y => if N.eqb y x then v else s y.

Record linexp := mkLE { le_terms : list (Z * var); le_cst : Z }.

Inductive ckind := EQ | DISEQ | INEQ | STRICT.
Record lincst := mkLC { lc_kind : ckind; lc_exp : linexp }.   (* exp (kind) 0 *)

Fixpoint eval_terms (ts : list (Z * var)) (s : store) : Z :=
  match ts with
  | [] => 0
  | (c, v) :: r => c * s v + eval_terms r s
  end.
Definition eval_le (e : linexp) (s : store) : Z := eval_terms (le_terms e) s + le_cst e.

Definition sat (c : lincst) (s : store) : Prop :=
  match lc_kind c with
  | EQ => eval_le (lc_exp c) s = 0
  | DISEQ => eval_le (lc_exp c) s <> 0
  | INEQ => eval_le (lc_exp c) s <= 0
  | STRICT => eval_le (lc_exp c) s < 0
  end.

Definition satb (c : lincst) (s : store) : bool :=
  let v := eval_le (lc_exp c) s in
  match lc_kind c with
  | EQ => v =? 0 | DISEQ => negb (v =? 0) | INEQ => v <=? 0 | STRICT => v <? 0
  end.

Lemma satb_spec c s : satb c s = true <-> sat c s.
Proof.
  unfold satb, sat. destruct (lc_kind c).
  - apply Z.eqb_eq.
  - rewrite negb_true_iff. rewrite Z.eqb_neq. tauto.
  - apply Z.leb_le.
  - apply Z.ltb_lt.
Qed.

Definition ckind_eqb (a b : ckind) : bool :=
  match a, b with EQ, EQ | DISEQ, DISEQ | INEQ, INEQ | STRICT, STRICT => true | _, _ => false end.

Fixpoint terms_eqb (a b : list (Z * var)) : bool :=
  match a, b with
  | [], [] => true
  | (c, v) :: r, (c', v') :: r' => (c =? c') && N.eqb v v' && terms_eqb r r'
  | _, _ => false
  end.
(* linear_expression::equal and linear_constraint::equal (syntactic) *)
Definition le_eqb (a b : linexp) : bool := terms_eqb (le_terms a) (le_terms b) && (le_cst a =? le_cst b).
Definition lc_eqb (a b : lincst) : bool := ckind_eqb (lc_kind a) (lc_kind b) && le_eqb (lc_exp a) (lc_exp b).

Definition le_is_constant (e : linexp) : bool := match le_terms e with [] => true | _ => false end.
Definition le_neg (e : linexp) : linexp :=
  mkLE (map (fun p => (- fst p, snd p)) (le_terms e)) (- le_cst e).
Definition le_addc (e : linexp) (k : Z) : linexp := mkLE (le_terms e) (le_cst e + k).

(* linear_constraint::is_tautology / is_contradiction *)
Definition lc_is_tautology (c : lincst) : bool :=
  le_is_constant (lc_exp c) &&
  let k := le_cst (lc_exp c) in
  match lc_kind c with
  | DISEQ => negb (k =? 0) | EQ => k =? 0 | INEQ => k <=? 0 | STRICT => k <? 0
  end.
Definition lc_is_contradiction (c : lincst) : bool :=
  le_is_constant (lc_exp c) &&
  let k := le_cst (lc_exp c) in
  match lc_kind c with
  | DISEQ => k =? 0 | EQ => negb (k =? 0) | INEQ => 0 <? k | STRICT => 0 <=? k
  end.

Definition lc_true : lincst := mkLC EQ (mkLE [] 0).
Definition lc_false : lincst := mkLC DISEQ (mkLE [] 0).

(* linear_constraint<z_number>::negate *)
Definition lc_negate (c : lincst) : lincst :=
  if lc_is_tautology c then lc_false
  else if lc_is_contradiction c then lc_true
  else match lc_kind c with
       | INEQ => mkLC INEQ (le_neg (le_addc (lc_exp c) (-1)))     (* -(e - 1) <= 0 *)
       | STRICT => mkLC INEQ (le_neg (lc_exp c))
       | EQ => mkLC DISEQ (lc_exp c)
       | DISEQ => mkLC EQ (lc_exp c)
       end.

(* linear_expression::get_variable *)
Definition le_get_variable (e : linexp) : option var :=
  match le_terms e with
  | [(c, v)] => if (le_cst e =? 0) && (c =? 1) then Some v else None
  | _ => None
  end.

(* x - y in canonical form (terms sorted by index) *)
Definition le_var_minus_var (x y : var) : linexp :=
  if N.ltb x y then mkLE [(1, x); (-1, y)] 0
  else if N.ltb y x then mkLE [(-1, y); (1, x)] 0
  else mkLE [] 0.

Definition lc_vars (c : lincst) : list var := map snd (le_terms (lc_exp c)).

(* arithmetic and bitwise operators of CrabIR *)
Inductive arith_op := OpAdd | OpSub | OpMul | OpSDiv | OpUDiv | OpSRem | OpURem.
Inductive bit_op := OpAnd | OpOr | OpXor | OpShl | OpLShr | OpAShr.
Inductive cast_op := CTrunc | CSExt | CZExt.

(* Concrete meaning over Z.  [None]: no successor state (division by zero) or outside the
   fragment whose meaning over mathematical integers is unambiguous (unsigned operators on
   negative operands, negative shift amounts). *)
Definition arith_sem (op : arith_op) (a b : Z) : option Z :=
  match op with
  | OpAdd => Some (a + b) | OpSub => Some (a - b) | OpMul => Some (a * b)
  | OpSDiv => if b =? 0 then None else Some (Z.quot a b)
  | OpSRem => if b =? 0 then None else Some (Z.rem a b)
  | OpUDiv => if (0 <=? a) && (0 <? b) then Some (Z.quot a b) else None
  | OpURem => if (0 <=? a) && (0 <? b) then Some (Z.rem a b) else None
  end.

Definition bit_sem (op : bit_op) (a b : Z) : option Z :=
  match op with
  | OpAnd => Some (Z.land a b) | OpOr => Some (Z.lor a b) | OpXor => Some (Z.lxor a b)
  | OpShl => if 0 <=? b then Some (Z.shiftl a b) else None
  | OpAShr => if 0 <=? b then Some (Z.shiftr a b) else None
  | OpLShr => if (0 <=? b) && (0 <=? a) then Some (Z.shiftr a b) else None
  end.

Lemma eval_terms_neg ts s :
  eval_terms (map (fun p => (- fst p, snd p)) ts) s = - eval_terms ts s.
Proof. induction ts as [|[c v] r IH]; simpl; auto. rewrite IH. lia. Qed.

Lemma eval_le_neg e s : eval_le (le_neg e) s = - eval_le e s.
Proof. unfold eval_le, le_neg; simpl. rewrite eval_terms_neg. lia. Qed.

Lemma eval_le_addc e k s : eval_le (le_addc e k) s = eval_le e s + k.
Proof. unfold eval_le, le_addc; simpl. lia. Qed.

Lemma le_is_constant_eval e s : le_is_constant e = true -> eval_le e s = le_cst e.
Proof. unfold le_is_constant, eval_le. destruct (le_terms e); try discriminate. auto. Qed.

Lemma lc_is_tautology_sound c s : lc_is_tautology c = true -> sat c s.
Proof.
  unfold lc_is_tautology, sat. intros H. apply andb_true_iff in H. destruct H as [H1 H2].
  rewrite (le_is_constant_eval _ s H1). destruct (lc_kind c).
  - apply Z.eqb_eq; auto.
  - apply negb_true_iff in H2. apply Z.eqb_neq; auto.
  - apply Z.leb_le; auto.
  - apply Z.ltb_lt; auto.
Qed.

Lemma lc_is_contradiction_sound c s : lc_is_contradiction c = true -> ~ sat c s.
Proof.
  unfold lc_is_contradiction, sat. intros H. apply andb_true_iff in H. destruct H as [H1 H2].
  rewrite (le_is_constant_eval _ s H1). destruct (lc_kind c).
  - apply negb_true_iff in H2. apply Z.eqb_neq in H2. auto.
  - apply Z.eqb_eq in H2. auto.
  - apply Z.ltb_lt in H2. lia.
  - apply Z.leb_le in H2. lia.
Qed.

(* negation is the exact complement over the integers *)
Lemma lc_negate_spec c s : sat (lc_negate c) s <-> ~ sat c s.
Proof.
  unfold lc_negate.
  destruct (lc_is_tautology c) eqn:T.
  { pose proof (lc_is_tautology_sound c s T). split; intros X; [|contradiction].
    exfalso. apply X. reflexivity. }
  destruct (lc_is_contradiction c) eqn:C.
  { pose proof (lc_is_contradiction_sound c s C). split; intros X; auto. reflexivity. }
  unfold sat. destruct (lc_kind c); simpl.
  - tauto.
  - split; [tauto|]. intros H. destruct (Z.eq_dec (eval_le (lc_exp c) s) 0); tauto.
  - rewrite eval_le_neg, eval_le_addc. lia.
  - rewrite eval_le_neg. lia.
Qed.

Lemma eval_var_minus_var x y s : eval_le (le_var_minus_var x y) s = s x - s y.
Proof.
  unfold le_var_minus_var.
  destruct (N.ltb_spec x y); [unfold eval_le; cbn [eval_terms le_terms le_cst]; lia|].
  destruct (N.ltb_spec y x); [unfold eval_le; cbn [eval_terms le_terms le_cst]; lia|].
  assert (x = y) by lia. subst. unfold eval_le; cbn [eval_terms le_terms le_cst]. lia.
Qed.

Lemma upd_same s x v : upd s x v x = v.
Proof. unfold upd. rewrite N.eqb_refl. auto. Qed.
Lemma upd_other s x v y : y <> x -> upd s x v y = s y.
Proof. unfold upd. intros. destruct (N.eqb_spec y x); congruence. Qed.

Lemma eval_terms_ext ts s s' :
  (forall c v, In (c, v) ts -> s v = s' v) -> eval_terms ts s = eval_terms ts s'.
Proof.
  induction ts as [|[c v] r IH]; simpl; intros H; auto.
  rewrite (H c v) by auto. rewrite IH; auto. intros; eapply H; eauto.
Qed.
Lemma eval_le_ext e s s' :
  (forall c v, In (c, v) (le_terms e) -> s v = s' v) -> eval_le e s = eval_le e s'.
Proof. intros H. unfold eval_le. f_equal. apply eval_terms_ext, H. Qed.
Lemma eval_le_upd_notin e s x z :
  (forall c v, In (c, v) (le_terms e) -> v <> x) -> eval_le e (upd s x z) = eval_le e s.
Proof. intros H. apply eval_le_ext. intros c v I. apply upd_other. eapply H; eauto. Qed.
