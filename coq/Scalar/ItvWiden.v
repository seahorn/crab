(* ItvWiden.v — widening chains of intervals become stationary (property C05 at the scalar
   level): along x_{i+1} = x_i widen y_i with ARBITRARY y_i, at most 3 steps are not
   stationary with respect to the inclusion test (constructive statement). *)
From Coq Require Import ZArith Lia Bool List Arith.
From CrabV Require Import Base.ZInf Scalar.Itv Scalar.ItvSound.
Import ListNotations.

Definition wmeasure (a : itv) : nat :=
  if is_bot a then 3
  else (match lb a with MInf => 0 | _ => 1 end) + (match ub a with PInf => 0 | _ => 1 end).

Lemma imk_nonbot l u : ble l u = true -> imk l u = mkI l u.
Proof. intros H. unfold imk, bgt. rewrite H. reflexivity. Qed.

Lemma wmeasure_nonbot a : is_bot a = false -> wmeasure a <= 2.
Proof. unfold wmeasure. intros ->. destruct (lb a), (ub a); simpl; lia. Qed.

(* Each bound of [iwiden a b] is the bound of [a], or has jumped to infinity from a finite
   bound of [a]: either nothing moves or the measure drops. *)
Lemma iwiden_measure a b :
  (ileq (iwiden a b) a = true /\ wmeasure (iwiden a b) = wmeasure a) \/
  wmeasure (iwiden a b) < wmeasure a.
Proof.
  unfold iwiden. destruct (is_bot a) eqn:Ba.
  { destruct (is_bot b) eqn:Bb.
    - left. unfold ileq, wmeasure. rewrite Ba, Bb. auto.
    - right. pose proof (wmeasure_nonbot b Bb). unfold wmeasure at 2. rewrite Ba. lia. }
  destruct (is_bot b). { left. split; auto. apply ileq_refl. }
  set (l := if blt (lb b) (lb a) then MInf else lb a).
  set (u := if blt (ub a) (ub b) then PInf else ub a).
  assert (Hl : l = lb a \/ l = MInf /\ lb a <> MInf).
  { subst l. destruct (blt (lb b) (lb a)) eqn:E; auto. right. split; auto.
    intros L. rewrite L in E. destruct (lb b); discriminate. }
  assert (Hu : u = ub a \/ u = PInf /\ ub a <> PInf).
  { subst u. destruct (blt (ub a) (ub b)) eqn:E; auto. right. split; auto.
    intros U. rewrite U in E. destruct (ub b); discriminate. }
  assert (NB : ble l u = true).
  { apply is_bot_false_ble in Ba.
    destruct Hl as [->|[-> _]], Hu as [->|[-> _]]; auto; destruct (lb a); reflexivity. }
  rewrite (imk_nonbot _ _ NB). unfold wmeasure, is_bot, bgt. cbn [lb ub]. rewrite NB.
  apply is_bot_false_ble in Ba as ->. cbn [negb].
  destruct Hl as [->|[-> Hl]], Hu as [->|[-> Hu]].
  - left. split; auto. destruct a. apply ileq_refl.
  - right. destruct (ub a); try congruence; lia.
  - right. destruct (lb a); try congruence; lia.
  - right. destruct (lb a), (ub a); try congruence; lia.
Qed.

Lemma iwiden_step a b :
  ileq (iwiden a b) a = true \/ wmeasure (iwiden a b) < wmeasure a.
Proof. destruct (iwiden_measure a b) as [[H _]|H]; auto. Qed.

Lemma iwiden_measure_le a b : wmeasure (iwiden a b) <= wmeasure a.
Proof.
  destruct (iwiden_measure a b) as [[_ H]|H]; [rewrite H; apply Nat.le_refl|apply Nat.lt_le_incl, H].
Qed.

Section Chain.
  Variable x0 : itv.
  Variable ys : nat -> itv.
  Variable widen : itv -> itv -> itv.
  Hypothesis widen_step : forall a b, ileq (widen a b) a = true \/ wmeasure (widen a b) < wmeasure a.
  Hypothesis widen_le : forall a b, wmeasure (widen a b) <= wmeasure a.

  Fixpoint chain (i : nat) : itv :=
    match i with O => x0 | S j => widen (chain j) (ys j) end.

  Definition nonstationary (i : nat) : bool := negb (ileq (chain (S i)) (chain i)).

  Lemma chain_count k :
    length (filter nonstationary (seq 0 k)) + wmeasure (chain k) <= wmeasure x0.
  Proof.
    induction k as [|k IH]; [simpl; lia|].
    rewrite seq_S, filter_app, app_length. cbn [Nat.add filter].
    assert (C : chain (S k) = widen (chain k) (ys k)) by reflexivity.
    pose proof (widen_le (chain k) (ys k)) as LE. rewrite <- C in LE.
    unfold nonstationary at 2.
    destruct (widen_step (chain k) (ys k)) as [H|H]; rewrite <- C in H.
    - rewrite H. cbn [negb length]. lia.
    - destruct (ileq (chain (S k)) (chain k)); cbn [negb length]; lia.
  Qed.

  Theorem chain_stabilises k : length (filter nonstationary (seq 0 k)) <= 3.
  Proof.
    pose proof (chain_count k).
    assert (wmeasure x0 <= 3).
    { destruct (is_bot x0) eqn:B; [unfold wmeasure; rewrite B; lia|].
      pose proof (wmeasure_nonbot x0 B). lia. }
    lia.
  Qed.
End Chain.

Theorem iwiden_chain_stabilises x0 ys k :
  length (filter (nonstationary x0 ys iwiden) (seq 0 k)) <= 3.
Proof. apply chain_stabilises. apply iwiden_step. apply iwiden_measure_le. Qed.
