(* CongruenceSound.v — concretisation of congruences and soundness of every operation of
   Scalar/Congruence.v.  gamma (aZ+b) = { x | a divides x - b } (a = 0: the singleton b). *)
From Coq Require Import ZArith Lia Bool Znumtheory.
From CrabV Require Import Base.ZInf Scalar.Itv Scalar.ItvSound Scalar.Congruence.
Local Open Scope Z_scope.

Definition cgamma (c : cg) (x : Z) : Prop := cbot c = false /\ (ca c | x - cb c).

(* the representation invariant established by every constructor *)
Definition cwf (c : cg) : Prop :=
  0 <= ca c /\ (ca c <> 0 -> 0 <= cb c < ca c) /\ (cbot c = true -> ca c = 1 /\ cb c = 0).

Lemma div_congr a x m n : (a | m - n) -> ((a | x - m) <-> (a | x - n)).
Proof.
  intros H; split; intros H1.
  - replace (x - n) with ((x - m) + (m - n)) by ring. apply Z.divide_add_r; auto.
  - replace (x - m) with ((x - n) - (m - n)) by ring. apply Z.divide_sub_r; auto.
Qed.

Lemma div0_eq n : (0 | n) <-> n = 0.
Proof. split; intros H. destruct H as [k H]. lia. subst. apply Z.divide_0_r. Qed.

Lemma cgamma_bot x : ~ cgamma cg_bot x.
Proof. intros [H _]. discriminate. Qed.

Lemma cgamma_top x : cgamma cg_top x.
Proof. split; auto. apply Z.divide_1_l. Qed.

Lemma cgamma_const n x : cgamma (cg_const n) x <-> x = n.
Proof.
  unfold cgamma; simpl. rewrite div0_eq. split. intros [_ H]; lia. intros; split; auto; lia.
Qed.

Lemma cgamma_nonbot c v : cbot c = false -> (cgamma c v <-> (ca c | v - cb c)).
Proof. unfold cgamma. tauto. Qed.

Lemma cgamma_singleton c v : cbot c = false -> ca c = 0 -> (cgamma c v <-> v = cb c).
Proof. intros B E. rewrite (cgamma_nonbot c v B), E, div0_eq. lia. Qed.

Lemma cgamma_is_bot c x : cg_is_bot c = true -> ~ cgamma c x.
Proof. unfold cg_is_bot. intros H [H1 _]. congruence. Qed.

Lemma cgamma_is_top c x : cg_is_top c = true -> cgamma c x.
Proof.
  unfold cg_is_top, cgamma. intros H. apply andb_true_iff in H. destruct H as [H1 H2].
  apply negb_true_iff in H1. apply Z.eqb_eq in H2. rewrite H2. split; auto. apply Z.divide_1_l.
Qed.

Lemma cg_is_top_bot : cg_is_top cg_bot = false.
Proof. reflexivity. Qed.

(* the truncated remainder made non-negative is the mathematical modulo *)
Lemma rem_nonneg_mod a b : 0 < b ->
  (let m := Z.rem a b in if m <? 0 then m + b else m) = a mod b.
Proof.
  intros Hb. cbv zeta.
  pose proof (Z.quot_rem' a b) as Q.
  pose proof (Z.rem_bound_abs a b ltac:(lia)) as B.
  destruct (Z.ltb_spec (Z.rem a b) 0).
  - apply Z.mod_unique_pos with (q := Z.quot a b - 1); lia.
  - apply Z.mod_unique_pos with (q := Z.quot a b); lia.
Qed.

Lemma cg_mk_eq a b :
  cg_mk a b = mkC false (Z.abs a) (if Z.abs a =? 0 then b else b mod Z.abs a).
Proof.
  unfold cg_mk.
  replace (if a <? 0 then - a else a) with (Z.abs a) by (destruct (Z.ltb_spec a 0); lia).
  destruct (Z.eqb_spec (Z.abs a) 0) as [E|E]; [reflexivity|].
  f_equal. apply rem_nonneg_mod. lia.
Qed.

Lemma cgamma_mk a b x : cgamma (cg_mk a b) x <-> (a | x - b).
Proof.
  rewrite cg_mk_eq. unfold cgamma; simpl. rewrite <- (Z.divide_abs_l a).
  destruct (Z.eqb_spec (Z.abs a) 0) as [E|E]; [tauto|].
  rewrite (div_congr (Z.abs a) x (b mod Z.abs a) b); [tauto|].
  exists (- (b / Z.abs a)). pose proof (Z.div_mod b (Z.abs a) E). lia.
Qed.

Lemma cwf_bot : cwf cg_bot.
Proof. unfold cwf; simpl. repeat split; lia. Qed.
Lemma cwf_top : cwf cg_top.
Proof. unfold cwf; simpl. repeat split; try lia; discriminate. Qed.
Lemma cwf_const n : cwf (cg_const n).
Proof. unfold cwf; simpl. repeat split; try lia; discriminate. Qed.

Lemma cwf_mk a b : cwf (cg_mk a b).
Proof.
  rewrite cg_mk_eq. unfold cwf; simpl. split; [lia|]. split; [|discriminate].
  intros E. rewrite (proj2 (Z.eqb_neq _ _) E). apply Z.mod_pos_bound. lia.
Qed.

Lemma cgamma_mk_intro d r x b :
  (d | x - b) -> (d | b - r) -> cgamma (cg_mk d r) x.
Proof. intros H1 H2. apply cgamma_mk. apply (div_congr d x b r); auto. Qed.

Lemma cgamma_residue c : cbot c = false -> cgamma c (cb c).
Proof. intros H; split; auto. rewrite Z.sub_diag. apply Z.divide_0_r. Qed.

Lemma cgamma_step c x : cgamma c x -> cgamma c (x + ca c).
Proof.
  intros [H1 H2]; split; auto.
  replace (x + ca c - cb c) with ((x - cb c) + ca c) by ring.
  apply Z.divide_add_r; auto. apply Z.divide_refl.
Qed.

Lemma rem0_divide a b : b <> 0 -> (Z.rem a b =? 0) = true -> (b | a).
Proof. intros Hb H. apply Z.eqb_eq in H. apply Z.rem_divide; auto. Qed.

Lemma divide_rem0 a b : b <> 0 -> (b | a) -> (Z.rem a b =? 0) = true.
Proof. intros Hb H. apply Z.eqb_eq. apply Z.rem_divide; auto. Qed.

Lemma cg_leq_sound x y : cg_leq x y = true -> forall v, cgamma x v -> cgamma y v.
Proof.
  unfold cg_leq. intros H v [Hb Hv]. rewrite Hb in H.
  destruct (cbot y) eqn:Hy; [discriminate|].
  split; auto.
  destruct (Z.eqb_spec (ca y) 0) as [E|E].
  - apply andb_true_iff in H. destruct H as [H1 H2].
    apply Z.eqb_eq in H1, H2. rewrite E. rewrite H1 in Hv. rewrite <- H2. exact Hv.
  - apply andb_true_iff in H. destruct H as [H1 H2].
    apply rem0_divide in H1; auto. apply rem0_divide in H2; auto.
    apply (div_congr (ca y) v (cb x) (cb y)); auto.
    apply Z.divide_trans with (ca x); auto.
Qed.

Lemma cgamma_incl x z : cbot x = false -> (forall v, cgamma x v -> cgamma z v) ->
  cbot z = false /\ (ca z | ca x) /\ (ca z | cb x - cb z).
Proof.
  intros B H. destruct (H _ (cgamma_residue x B)) as [Bz H1].
  destruct (H _ (cgamma_step _ _ (cgamma_residue x B))) as [_ H2]. repeat split; auto.
  replace (ca x) with ((cb x + ca x - cb z) - (cb x - cb z)) by ring.
  apply Z.divide_sub_r; auto.
Qed.

Lemma cg_leq_complete x y : (forall v, cgamma x v -> cgamma y v) -> cg_leq x y = true.
Proof.
  unfold cg_leq. intros H.
  destruct (cbot x) eqn:Hx; auto.
  destruct (cgamma_incl x y Hx H) as (Hy & H3 & H1). rewrite Hy.
  destruct (Z.eqb_spec (ca y) 0) as [E|E].
  - rewrite E in *. apply div0_eq in H1, H3. apply andb_true_iff. split; apply Z.eqb_eq; lia.
  - apply andb_true_iff. split; apply divide_rem0; auto.
Qed.

Lemma cg_leq_refl x : cg_leq x x = true.
Proof. apply cg_leq_complete. auto. Qed.

Lemma cg_leq_bot_l x : cg_leq cg_bot x = true.
Proof. reflexivity. Qed.

Lemma cg_leq_top_r x : cg_leq x cg_top = true.
Proof. apply cg_leq_complete. intros; apply cgamma_top. Qed.

Lemma cg_eq_sound x y : cg_eq x y = true -> forall v, cgamma x v <-> cgamma y v.
Proof.
  unfold cg_eq, cgamma. intros H v.
  apply andb_true_iff in H. destruct H as [H H3]. apply andb_true_iff in H. destruct H as [H1 H2].
  apply eqb_prop in H1. apply Z.eqb_eq in H2, H3. rewrite H1, H2, H3. tauto.
Qed.

Lemma cg_eq_refl x : cg_eq x x = true.
Proof. unfold cg_eq. rewrite eqb_reflx, !Z.eqb_refl. reflexivity. Qed.

Lemma cg_singleton_spec x n : cg_singleton x = Some n -> forall v, cgamma x v <-> v = n.
Proof.
  unfold cg_singleton, cgamma. intros H v.
  destruct (cbot x); simpl in H; [discriminate|].
  destruct (Z.eqb_spec (ca x) 0) as [E|E]; [|discriminate].
  inversion H; subst. rewrite E, div0_eq. split. intros [_ ?]; lia. intros; split; auto; lia.
Qed.

(* the modulus gcd(a, a', |b - b'|) of a join divides both moduli and the distance of both
   residues to the new residue min(b, b'), and is the greatest such number *)
Lemma join_modulus a a' b b' :
  let d := Z.gcd a (Z.gcd a' (Z.abs (b - b'))) in
  (d | a) /\ (d | a') /\ (d | b - Z.min b b') /\ (d | b' - Z.min b b') /\
  (forall z, (z | a) -> (z | a') -> (z | b - b') -> (z | d)).
Proof.
  intros d.
  assert (D1 : (d | a)) by apply Z.gcd_divide_l.
  assert (D2 : (d | a')).
  { eapply Z.divide_trans; [apply Z.gcd_divide_r|apply Z.gcd_divide_l]. }
  assert (D3 : (d | b - b')).
  { apply Z.divide_abs_r. eapply Z.divide_trans; [apply Z.gcd_divide_r|apply Z.gcd_divide_r]. }
  repeat split; auto.
  - destruct (Z.min_spec b b') as [[_ ->]|[_ ->]]; [rewrite Z.sub_diag; apply Z.divide_0_r|auto].
  - destruct (Z.min_spec b b') as [[_ ->]|[_ ->]]; [|rewrite Z.sub_diag; apply Z.divide_0_r].
    replace (b' - b) with (- (b - b')) by ring. apply Z.divide_opp_r; auto.
  - intros z Z1 Z2 Z3. repeat apply Z.gcd_greatest; auto. apply Z.divide_abs_r; auto.
Qed.

Lemma cg_join_sound_l x y v : cgamma x v -> cgamma (cg_join x y) v.
Proof.
  unfold cg_join. intros [Hb Hv]. rewrite Hb.
  destruct (cbot y) eqn:Hy. split; auto.
  destruct (cg_is_top x || cg_is_top y). apply cgamma_top.
  destruct (join_modulus (ca x) (ca y) (cb x) (cb y)) as (D1 & _ & M1 & _).
  apply (cgamma_mk_intro _ _ v (cb x)); auto. apply Z.divide_trans with (ca x); auto.
Qed.

Lemma cg_join_sound_r x y v : cgamma y v -> cgamma (cg_join x y) v.
Proof.
  unfold cg_join. intros [Hb Hv].
  destruct (cbot x) eqn:Hx. split; auto. rewrite Hb.
  destruct (cg_is_top x || cg_is_top y). apply cgamma_top.
  destruct (join_modulus (ca x) (ca y) (cb x) (cb y)) as (_ & D2 & _ & M2 & _).
  apply (cgamma_mk_intro _ _ v (cb y)); auto. apply Z.divide_trans with (ca y); auto.
Qed.

Lemma cg_join_sound x y v : cgamma x v \/ cgamma y v -> cgamma (cg_join x y) v.
Proof. intros [H|H]; [apply cg_join_sound_l | apply cg_join_sound_r]; auto. Qed.

Lemma cg_widen_sound x y v : cgamma x v \/ cgamma y v -> cgamma (cg_widen x y) v.
Proof. apply cg_join_sound. Qed.

(* join is the least upper bound (the domain of congruences is a lattice and the C++
   join is exact): any congruence containing both operands contains the join *)
Lemma cg_join_least x y z :
  (forall v, cgamma x v -> cgamma z v) -> (forall v, cgamma y v -> cgamma z v) ->
  forall v, cgamma (cg_join x y) v -> cgamma z v.
Proof.
  intros Hx Hy v. unfold cg_join.
  destruct (cbot x) eqn:Bx; auto.
  destruct (cbot y) eqn:By; auto.
  destruct (cgamma_incl x z Bx Hx) as (Bz & Dx & X1), (cgamma_incl y z By Hy) as (_ & Dy & Y1).
  assert (Db : (ca z | cb x - cb y)).
  { replace (cb x - cb y) with ((cb x - cb z) - (cb y - cb z)) by ring. apply Z.divide_sub_r; auto. }
  destruct (cg_is_top x || cg_is_top y) eqn:T.
  - intros _. split; auto.
    assert (D1 : (ca z | 1)).
    { apply orb_true_iff in T. unfold cg_is_top in T. rewrite Bx, By in T. simpl in T.
      destruct T as [T|T]; apply Z.eqb_eq in T; rewrite T in *; auto. }
    eapply Z.divide_trans; [exact D1|]. apply Z.divide_1_l.
  - intros H. apply cgamma_mk in H. split; auto.
    destruct (join_modulus (ca x) (ca y) (cb x) (cb y)) as (_ & _ & M1 & _ & G).
    specialize (G (ca z) Dx Dy Db).
    apply (div_congr (ca z) v (cb x) (cb z)); auto.
    apply (div_congr (ca z) v (Z.min (cb x) (cb y)) (cb x)).
    + replace (Z.min (cb x) (cb y) - cb x) with (- (cb x - Z.min (cb x) (cb y))) by ring.
      apply Z.divide_opp_r. eapply Z.divide_trans; eauto.
    + eapply Z.divide_trans; eauto.
Qed.

Lemma egcd_inv a a' fuel : forall x r s t g s',
  (a' | s * a - x) -> (a' | t * a - r) ->
  (forall d, (d | x) -> (d | r) -> (d | a) /\ (d | a')) ->
  egcd fuel x r s t = Some (g, s') ->
  (a' | s' * a - g) /\ (g | a) /\ (g | a').
Proof.
  induction fuel as [|f IH]; intros x r s t g s' H1 H2 H3 H; simpl in H; [discriminate|].
  destruct (Z.eqb_spec r 0) as [E|E].
  - inversion H; subst. split; auto.
    apply H3. apply Z.divide_refl. apply Z.divide_0_r.
  - apply IH in H; auto.
    + replace ((s - Z.quot x r * t) * a - (x - Z.quot x r * r))
        with ((s * a - x) - Z.quot x r * (t * a - r)) by ring.
      apply Z.divide_sub_r; auto. apply Z.divide_mul_r; auto.
    + intros d D1 D2. apply H3; auto.
      replace x with ((x - Z.quot x r * r) + Z.quot x r * r) by ring.
      apply Z.divide_add_r; auto. apply Z.divide_mul_r; auto.
Qed.

Lemma egcd_run a a' fuel g s :
  egcd fuel a a' 1 0 = Some (g, s) -> (a' | s * a - g) /\ (g | a) /\ (g | a').
Proof.
  apply egcd_inv; auto.
  - replace (1 * a - a) with 0 by ring. apply Z.divide_0_r.
  - replace (0 * a - a') with (- a') by ring. apply Z.divide_opp_r, Z.divide_refl.
Qed.

(* the fuel given to the Euclidean loop is always enough: the remainder is more than
   halved every two iterations *)
Lemma rem_halves r r1 : r1 <> 0 -> Z.abs r1 < Z.abs r -> 2 * Z.abs (Z.rem r r1) < Z.abs r.
Proof.
  intros N L. rewrite <- Z.rem_abs; auto.
  pose proof (Z.quot_rem' (Z.abs r) (Z.abs r1)) as Q.
  pose proof (Z.rem_bound_pos (Z.abs r) (Z.abs r1) ltac:(lia) ltac:(lia)) as B.
  assert (1 <= Z.quot (Z.abs r) (Z.abs r1)).
  { apply Z.quot_le_lower_bound; lia. }
  nia.
Qed.

Lemma egcd_fuel_enough n : 0 <= n -> forall fuel x r s t,
  Z.abs r < 2 ^ n -> (2 * Z.to_nat n + 1 <= fuel)%nat -> egcd fuel x r s t <> None.
Proof.
  intros Hn. pattern n. apply natlike_ind; auto; clear n Hn.
  - intros fuel x r s t Hr Hf. destruct fuel as [|f]; [lia|]. simpl.
    assert (r = 0) by (simpl in Hr; lia). subst. simpl. discriminate.
  - intros n Hn IH fuel x r s t Hr Hf.
    rewrite Z2Nat.inj_succ in Hf; auto.
    destruct fuel as [|f]; [lia|]. simpl.
    destruct (Z.eqb_spec r 0) as [E|E]; [discriminate|].
    destruct f as [|f]; [lia|]. simpl.
    replace (x - Z.quot x r * r) with (Z.rem x r) by (pose proof (Z.quot_rem' x r); lia).
    destruct (Z.eqb_spec (Z.rem x r) 0) as [E1|E1]; [discriminate|].
    apply IH; [|lia].
    replace (r - Z.quot r (Z.rem x r) * Z.rem x r) with (Z.rem r (Z.rem x r))
      by (pose proof (Z.quot_rem' r (Z.rem x r)); lia).
    pose proof (Z.rem_bound_abs x r E) as B.
    pose proof (rem_halves r (Z.rem x r) E1 B).
    rewrite Z.pow_succ_r in Hr; auto. lia.
Qed.

Lemma egcd_total a a' : egcd (egcd_fuel a a') a a' 1 0 <> None.
Proof.
  apply (egcd_fuel_enough (Z.log2 (Z.abs a') + 1)).
  - pose proof (Z.log2_nonneg (Z.abs a')). lia.
  - destruct (Z.eq_dec a' 0) as [->|N]. simpl. lia.
    apply Z.log2_spec. lia.
  - unfold egcd_fuel.
    pose proof (Z.log2_nonneg (Z.abs a')). pose proof (Z.log2_nonneg (Z.abs a)). lia.
Qed.

Lemma cg_meet_exact x y v : cgamma (cg_meet x y) v <-> (cgamma x v /\ cgamma y v).
Proof.
  assert (BOT : forall P : Prop, ~ P -> (cgamma cg_bot v <-> P)).
  { intros P N. split; [intros H; destruct (cgamma_bot _ H)|tauto]. }
  unfold cg_meet.
  destruct (cbot x) eqn:Bx; simpl. { apply BOT. intros [[H _] _]. congruence. }
  destruct (cbot y) eqn:By; simpl. { apply BOT. intros [_ [H _]]. congruence. }
  destruct (Z.eqb_spec (ca x) 0) as [Ex|Ex]; destruct (Z.eqb_spec (ca y) 0) as [Ey|Ey]; simpl.
  - rewrite (cgamma_singleton y v By Ey).
    destruct (Z.eqb_spec (cb x) (cb y)); [|apply BOT]; rewrite (cgamma_singleton x v Bx Ex); lia.
  - rewrite (cgamma_nonbot y v By).
    destruct (Z.rem (cb x - cb y) (ca y) =? 0) eqn:R.
    + apply rem0_divide in R; auto. rewrite (cgamma_singleton x v Bx Ex).
      split; [intros ->; auto|tauto].
    + apply BOT. rewrite (cgamma_singleton x v Bx Ex). intros [-> D].
      rewrite divide_rem0 in R; auto; discriminate.
  - rewrite (cgamma_nonbot x v Bx).
    destruct (Z.rem (cb y - cb x) (ca x) =? 0) eqn:R.
    + apply rem0_divide in R; auto. rewrite (cgamma_singleton y v By Ey).
      split; [intros ->; auto|tauto].
    + apply BOT. rewrite (cgamma_singleton y v By Ey). intros [D ->].
      rewrite divide_rem0 in R; auto; discriminate.
  - rewrite (cgamma_nonbot x v Bx), (cgamma_nonbot y v By).
    pose proof (egcd_total (ca x) (ca y)) as F.
    destruct (egcd _ (ca x) (ca y) 1 0) as [[g s]|] eqn:EG; [clear F|congruence].
    apply egcd_run in EG. destruct EG as [[m Hm] [G2 G3]].
    assert (Gnz : g <> 0). { intros ->. apply div0_eq in G2. auto. }
    destruct (Z.rem (cb y - cb x) g =? 0) eqn:R.
    + apply rem0_divide in R; auto. destruct R as [k Hk]. rewrite Hk, Z.quot_mul; auto.
      rewrite cgamma_mk.
      (* the new residue is cb x modulo ca x and cb y modulo ca y *)
      set (b := cb x + ca x * (s * k)).
      assert (Dx : (ca x | b - cb x)) by (exists (s * k); subst b; ring).
      assert (Dy : (ca y | b - cb y)) by (exists (m * k); subst b; nia).
      rewrite <- (div_congr (ca x) v b (cb x) Dx), <- (div_congr (ca y) v b (cb y) Dy).
      split.
      * intros H. split; (eapply Z.divide_trans; [|exact H]);
          [apply Z.divide_lcm_l|apply Z.divide_lcm_r].
      * intros [H1 H2]. apply Z.lcm_least; auto.
    + apply BOT. intros [Hx Hy]. rewrite divide_rem0 in R; auto; [discriminate|].
      replace (cb y - cb x) with ((v - cb x) - (v - cb y)) by ring.
      apply Z.divide_sub_r; [apply Z.divide_trans with (ca x)|apply Z.divide_trans with (ca y)]; auto.
Qed.

Lemma cg_narrow_sound x y v : cgamma x v -> cgamma y v -> cgamma (cg_narrow x y) v.
Proof. unfold cg_narrow. destruct (cg_is_top x); auto. Qed.

Lemma cg_narrow_below x y v : cgamma (cg_narrow x y) v -> cgamma x v.
Proof.
  unfold cg_narrow. destruct (cg_is_top x) eqn:T; auto. intros _. apply cgamma_is_top; auto.
Qed.

Ltac bot_top x y Bx By :=
  rewrite Bx, By; simpl;
  try (destruct (cg_is_top x || cg_is_top y); [apply cgamma_top|]).

Lemma cg_add_sound x y u v : cgamma x u -> cgamma y v -> cgamma (cg_add x y) (u + v).
Proof.
  unfold cg_add. intros [Bx Hx] [By Hy]. bot_top x y Bx By.
  apply cgamma_mk.
  replace (u + v - (cb x + cb y)) with ((u - cb x) + (v - cb y)) by ring.
  apply Z.divide_add_r.
  - eapply Z.divide_trans; [apply Z.gcd_divide_l|]; auto.
  - eapply Z.divide_trans; [apply Z.gcd_divide_r|]; auto.
Qed.

Lemma cg_sub_sound x y u v : cgamma x u -> cgamma y v -> cgamma (cg_sub x y) (u - v).
Proof.
  unfold cg_sub. intros [Bx Hx] [By Hy]. bot_top x y Bx By.
  apply cgamma_mk.
  replace (u - v - (cb x - cb y)) with ((u - cb x) - (v - cb y)) by ring.
  apply Z.divide_sub_r.
  - eapply Z.divide_trans; [apply Z.gcd_divide_l|]; auto.
  - eapply Z.divide_trans; [apply Z.gcd_divide_r|]; auto.
Qed.

Lemma cg_neg_sound x u : cgamma x u -> cgamma (cg_neg x) (- u).
Proof.
  unfold cg_neg. intros [Bx Hx]. rewrite Bx. simpl.
  destruct (cg_is_top x) eqn:T. apply cgamma_is_top; auto.
  apply cgamma_mk.
  replace (- u - (- cb x + ca x)) with (- (u - cb x) - ca x) by ring.
  apply Z.divide_sub_r. apply Z.divide_opp_r; auto. apply Z.divide_refl.
Qed.

Lemma cg_mul_sound x y u v : cgamma x u -> cgamma y v -> cgamma (cg_mul x y) (u * v).
Proof.
  unfold cg_mul. intros [Bx Hx] [By Hy]. rewrite Bx, By. simpl.
  match goal with |- context [if ?c then cg_top else _] => destruct c end. apply cgamma_top.
  apply cgamma_mk.
  destruct Hx as [k Hk]. destruct Hy as [k' Hk'].
  set (d := Z.gcd _ _).
  assert (D1 : (d | ca x * ca y)) by apply Z.gcd_divide_l.
  assert (D2 : (d | ca x * cb y)).
  { eapply Z.divide_trans; [apply Z.gcd_divide_r|]. apply Z.gcd_divide_l. }
  assert (D3 : (d | ca y * cb x)).
  { eapply Z.divide_trans; [apply Z.gcd_divide_r|]. apply Z.gcd_divide_r. }
  replace (u * v - cb x * cb y)
    with (k * k' * (ca x * ca y) + k * (ca x * cb y) + k' * (ca y * cb x)) by nia.
  apply Z.divide_add_r; [apply Z.divide_add_r|]; apply Z.divide_mul_r; auto.
Qed.

Lemma cgamma_ca0 x u : (ca x =? 0) = true -> cgamma x u -> u = cb x.
Proof. intros E [B G]. apply (cgamma_singleton x u B); [apply Z.eqb_eq, E|split; auto]. Qed.

(* cg_is_zero (n = 0) and cg_all_ones (n = -1) *)
Lemma cg_is_const x n u :
  negb (cbot x) && (ca x =? 0) && (cb x =? n) = true -> cgamma x u -> u = n.
Proof.
  intros H G. apply andb_true_iff in H. destruct H as [H H2]. apply andb_true_iff in H.
  destruct H as [_ H1]. apply Z.eqb_eq in H2. rewrite <- H2. apply cgamma_ca0; auto.
Qed.

Lemma both_singletons x y u v :
  (ca x =? 0) && (ca y =? 0) = true -> cgamma x u -> cgamma y v -> u = cb x /\ v = cb y.
Proof.
  intros S Gx Gy. apply andb_true_iff in S. destruct S. split; apply cgamma_ca0; auto.
Qed.

Lemma cg_eq_const0 y v : cg_eq y (cg_const 0) = true -> cgamma y v -> v = 0.
Proof. intros H G. apply (cg_eq_sound _ _ H) in G. apply cgamma_const in G. auto. Qed.

Lemma cg_div_sound x y u v :
  cgamma x u -> cgamma y v -> v <> 0 -> cgamma (cg_div x y) (Z.quot u v).
Proof.
  unfold cg_div. intros Gx Gy Hv.
  pose proof Gx as [Bx Hx]. pose proof Gy as [By Hy]. rewrite Bx, By. simpl.
  destruct (cg_eq y (cg_const 0)) eqn:E0.
  { exfalso. apply Hv. eapply cg_eq_const0; eauto. }
  destruct (cg_is_top x || cg_is_top y). apply cgamma_top.
  destruct (Z.eqb_spec (ca y) 0) as [Ey|Ey]; [|apply cgamma_top].
  apply (cgamma_singleton y v By Ey) in Gy. subst v.
  destruct (Z.eqb_spec (ca x) 0) as [Ex|Ex].
  { apply (cgamma_singleton x u Bx Ex) in Gx. subst u. apply cgamma_const. reflexivity. }
  destruct (Z.rem (ca x) (cb y) =? 0) eqn:R1; simpl; [|apply cgamma_top].
  destruct (Z.rem (cb x) (cb y) =? 0) eqn:R2; simpl; [|apply cgamma_top].
  apply rem0_divide in R1, R2; auto.
  destruct R1 as [p Hp]. destruct R2 as [q Hq]. destruct Hx as [k Hk].
  apply cgamma_mk. rewrite Hp, Hq. rewrite !Z.quot_mul; auto.
  replace u with ((k * p + q) * cb y) by nia. rewrite Z.quot_mul; auto.
  exists k. ring.
Qed.

Lemma cg_rem_sound x y u v :
  cgamma x u -> cgamma y v -> v <> 0 -> cgamma (cg_rem x y) (Z.rem u v).
Proof.
  unfold cg_rem. intros Gx Gy Hv.
  pose proof Gx as [Bx Hx]. pose proof Gy as [By Hy]. rewrite Bx, By. simpl.
  destruct (cg_eq y (cg_const 0)) eqn:E0.
  { exfalso. apply Hv. eapply cg_eq_const0; eauto. }
  destruct (cg_is_top x || cg_is_top y). apply cgamma_top.
  destruct ((ca x =? 0) && (ca y =? 0)) eqn:S.
  - destruct (both_singletons _ _ _ _ S Gx Gy) as [-> ->]. apply cgamma_const. reflexivity.
  - apply cgamma_mk.
    set (d := Z.gcd _ _).
    assert (D1 : (d | ca x)) by apply Z.gcd_divide_l.
    assert (D2 : (d | ca y)).
    { eapply Z.divide_trans; [apply Z.gcd_divide_r|]. apply Z.gcd_divide_l. }
    assert (D3 : (d | cb y)).
    { eapply Z.divide_trans; [apply Z.gcd_divide_r|]. apply Z.gcd_divide_r. }
    assert (Dv : (d | v)).
    { replace v with ((v - cb y) + cb y) by ring. apply Z.divide_add_r; auto.
      apply Z.divide_trans with (ca y); auto. }
    pose proof (Z.quot_rem' u v) as Q.
    replace (Z.rem u v - cb x) with ((u - cb x) - v * Z.quot u v) by lia.
    apply Z.divide_sub_r. apply Z.divide_trans with (ca x); auto. apply Z.divide_mul_l; auto.
Qed.

Lemma cg_udiv_sound x y (w : Z) : cgamma (cg_udiv x y) w.
Proof. apply cgamma_top. Qed.
Lemma cg_urem_sound x y (w : Z) : cgamma (cg_urem x y) w.
Proof. apply cgamma_top. Qed.

Lemma cg_and_sound x y u v : cgamma x u -> cgamma y v -> cgamma (cg_and x y) (Z.land u v).
Proof.
  unfold cg_and. intros Gx Gy.
  pose proof Gx as [Bx Hx]. pose proof Gy as [By Hy]. bot_top x y Bx By.
  destruct (cg_is_zero x) eqn:Zx; simpl.
  { rewrite (cg_is_const _ 0 _ Zx Gx). rewrite Z.land_0_l. apply cgamma_const; auto. }
  destruct (cg_is_zero y) eqn:Zy; simpl.
  { rewrite (cg_is_const _ 0 _ Zy Gy). rewrite Z.land_0_r. apply cgamma_const; auto. }
  destruct (cg_all_ones x) eqn:Ox.
  { rewrite (cg_is_const _ (-1) _ Ox Gx). rewrite Z.land_m1_l. auto. }
  destruct (cg_all_ones y) eqn:Oy.
  { rewrite (cg_is_const _ (-1) _ Oy Gy). rewrite Z.land_m1_r. auto. }
  destruct ((ca x =? 0) && (ca y =? 0)) eqn:S; [|apply cgamma_top].
  destruct (both_singletons _ _ _ _ S Gx Gy) as [-> ->]. apply cgamma_const; auto.
Qed.

Lemma cg_or_sound x y u v : cgamma x u -> cgamma y v -> cgamma (cg_or x y) (Z.lor u v).
Proof.
  unfold cg_or. intros Gx Gy.
  pose proof Gx as [Bx Hx]. pose proof Gy as [By Hy]. bot_top x y Bx By.
  destruct (cg_all_ones x) eqn:Ox; simpl.
  { rewrite (cg_is_const _ (-1) _ Ox Gx). rewrite Z.lor_m1_l. apply cgamma_const; auto. }
  destruct (cg_all_ones y) eqn:Oy; simpl.
  { rewrite (cg_is_const _ (-1) _ Oy Gy). rewrite Z.lor_m1_r. apply cgamma_const; auto. }
  destruct (cg_is_zero x) eqn:Zx.
  { rewrite (cg_is_const _ 0 _ Zx Gx). rewrite Z.lor_0_l. auto. }
  destruct (cg_is_zero y) eqn:Zy.
  { rewrite (cg_is_const _ 0 _ Zy Gy). rewrite Z.lor_0_r. auto. }
  destruct ((ca x =? 0) && (ca y =? 0)) eqn:S; [|apply cgamma_top].
  destruct (both_singletons _ _ _ _ S Gx Gy) as [-> ->]. apply cgamma_const; auto.
Qed.

Lemma cg_xor_sound x y u v : cgamma x u -> cgamma y v -> cgamma (cg_xor x y) (Z.lxor u v).
Proof.
  unfold cg_xor. intros Gx Gy.
  pose proof Gx as [Bx Hx]. pose proof Gy as [By Hy]. bot_top x y Bx By.
  destruct (cg_is_zero x) eqn:Zx.
  { rewrite (cg_is_const _ 0 _ Zx Gx). rewrite Z.lxor_0_l. auto. }
  destruct (cg_is_zero y) eqn:Zy.
  { rewrite (cg_is_const _ 0 _ Zy Gy). rewrite Z.lxor_0_r. auto. }
  destruct ((ca x =? 0) && (ca y =? 0)) eqn:S; [|apply cgamma_top].
  destruct (both_singletons _ _ _ _ S Gx Gy) as [-> ->]. apply cgamma_const; auto.
Qed.

Lemma pow_sub1_divide q j : 0 <= j -> (q - 1 | q ^ j - 1).
Proof.
  intros Hj. pattern j. apply natlike_ind; auto.
  - simpl. apply Z.divide_0_r.
  - intros n Hn IH. rewrite Z.pow_succ_r; auto.
    replace (q * q ^ n - 1) with (q * (q ^ n - 1) + (q - 1)) by ring.
    apply Z.divide_add_r. apply Z.divide_mul_r; auto. apply Z.divide_refl.
Qed.

(* shift amounts are non-negative; the amount operand satisfies the invariant [cwf]
   (remainder in [0,a)), which every constructor establishes *)
Lemma cg_shl_sound x y u k :
  cwf y -> cgamma x u -> cgamma y k -> 0 <= k -> cgamma (cg_shl x y) (Z.shiftl u k).
Proof.
  unfold cg_shl. intros Wy Gx Gy Hk.
  pose proof Gx as [Bx Hx]. pose proof Gy as [By Hy]. bot_top x y Bx By.
  rewrite Z.shiftl_mul_pow2; auto.
  destruct (Z.eqb_spec (ca y) 0) as [Ey|Ey].
  - apply (cgamma_singleton y k By Ey) in Gy. subst k.
    destruct (Z.ltb_spec (cb y) 0); [lia|].
    apply cgamma_mk. unfold pow2. rewrite Z.abs_eq; auto.
    replace (u * 2 ^ cb y - cb x * 2 ^ cb y) with ((u - cb x) * 2 ^ cb y) by ring.
    apply Z.mul_divide_mono_r; auto.
  - destruct Wy as [W1 [W2 _]]. specialize (W2 Ey).
    apply cgamma_mk. unfold pow2. rewrite (Z.abs_eq (cb y)), (Z.abs_eq (ca y)); try lia.
    destruct Hy as [j Hj].
    assert (Hj0 : 0 <= j) by nia.
    replace k with (ca y * j + cb y) by lia.
    rewrite Z.pow_add_r by (try apply Z.mul_nonneg_nonneg; lia). rewrite Z.pow_mul_r by lia.
    set (q := 2 ^ ca y). set (p := 2 ^ cb y).
    replace (u * (q ^ j * p) - cb x * p) with ((u * q ^ j - cb x) * p) by ring.
    apply Z.mul_divide_mono_r.
    replace (u * q ^ j - cb x) with ((u - cb x) * q ^ j + cb x * (q ^ j - 1)) by ring.
    apply Z.divide_add_r.
    + apply Z.divide_mul_l. eapply Z.divide_trans; [apply Z.gcd_divide_l|]; auto.
    + eapply Z.divide_trans; [apply Z.gcd_divide_r|].
      apply Z.mul_divide_mono_l. apply pow_sub1_divide; auto.
Qed.

(* both shifts right compute on singletons through the interval operator *)
Lemma cg_shr_via_sound (f : itv -> itv -> itv) x y u k r :
  gamma (f (iconst u) (iconst k)) r ->
  cgamma x u -> cgamma y k -> 0 <= k -> cgamma (cg_shr_via f x y) r.
Proof.
  unfold cg_shr_via. intros F Gx Gy Hk.
  pose proof Gx as [Bx Hx]. pose proof Gy as [By Hy]. bot_top x y Bx By.
  destruct ((ca y =? 0) && (cb y <? 0)) eqn:N.
  { exfalso. apply andb_true_iff in N. destruct N as [N1 N2].
    apply (cgamma_ca0 _ _ N1) in Gy. apply Z.ltb_lt in N2. lia. }
  destruct (cg_singleton x) as [n|] eqn:Sx; [|apply cgamma_top].
  destruct (cg_singleton y) as [m|] eqn:Sy; [|apply cgamma_top].
  apply (cg_singleton_spec _ _ Sx) in Gx. apply (cg_singleton_spec _ _ Sy) in Gy. subst.
  destruct (isingleton _) as [r'|] eqn:Sr; [|apply cgamma_top].
  apply cgamma_const. apply (isingleton_spec _ _ Sr), F.
Qed.

Lemma cg_ashr_sound x y u k :
  cgamma x u -> cgamma y k -> 0 <= k -> cgamma (cg_ashr x y) (Z.shiftr u k).
Proof.
  intros Gx Gy Hk. apply (cg_shr_via_sound iashr x y u k); auto.
  apply iashr_sound; auto; apply gamma_iconst; auto.
Qed.

(* logical shift right: as for intervals, the result is constrained only when the
   shifted value is non-negative (then it coincides with the arithmetic shift) *)
Lemma cg_lshr_sound x y u k :
  cgamma x u -> cgamma y k -> 0 <= k ->
  forall r, (0 <= u -> r = Z.shiftr u k) -> cgamma (cg_lshr x y) r.
Proof.
  intros Gx Gy Hk r Hr. apply (cg_shr_via_sound ilshr x y u k); auto.
  apply (ilshr_sound (iconst u) (iconst k) u k); auto; apply gamma_iconst; auto.
Qed.

Lemma cwf_join x y : cwf x -> cwf y -> cwf (cg_join x y).
Proof.
  unfold cg_join. intros Wx Wy.
  destruct (cbot x); auto. destruct (cbot y); auto.
  destruct (cg_is_top x || cg_is_top y). apply cwf_top. apply cwf_mk.
Qed.

Lemma cwf_meet x y : cwf x -> cwf y -> cwf (cg_meet x y).
Proof.
  unfold cg_meet. intros Wx Wy.
  destruct (cbot x || cbot y). apply cwf_bot.
  destruct ((ca x =? 0) && (ca y =? 0)). destruct (cb x =? cb y); auto using cwf_bot.
  destruct (ca x =? 0). destruct (Z.rem _ _ =? 0); auto using cwf_bot.
  destruct (ca y =? 0). destruct (Z.rem _ _ =? 0); auto using cwf_bot.
  destruct (egcd _ _ _ _ _) as [[g s]|]; [|apply cwf_top].
  destruct (Z.rem _ _ =? 0); auto using cwf_bot, cwf_mk.
Qed.

Lemma cwf_add x y : cwf (cg_add x y).
Proof.
  unfold cg_add. destruct (cbot x || cbot y). apply cwf_bot.
  destruct (cg_is_top x || cg_is_top y). apply cwf_top. apply cwf_mk.
Qed.
Lemma cwf_sub x y : cwf (cg_sub x y).
Proof.
  unfold cg_sub. destruct (cbot x || cbot y). apply cwf_bot.
  destruct (cg_is_top x || cg_is_top y). apply cwf_top. apply cwf_mk.
Qed.
Lemma cwf_mul x y : cwf (cg_mul x y).
Proof.
  unfold cg_mul. destruct (cbot x || cbot y). apply cwf_bot.
  match goal with |- context [if ?c then cg_top else _] => destruct c end.
  apply cwf_top. apply cwf_mk.
Qed.
Lemma cwf_neg x : cwf x -> cwf (cg_neg x).
Proof. unfold cg_neg. intros W. destruct (cbot x || cg_is_top x); auto. apply cwf_mk. Qed.
Lemma cwf_div x y : cwf (cg_div x y).
Proof.
  unfold cg_div. destruct (cbot x || cbot y). apply cwf_bot.
  destruct (cg_eq y (cg_const 0)). apply cwf_bot.
  destruct (cg_is_top x || cg_is_top y). apply cwf_top.
  destruct (ca y =? 0); [|apply cwf_top].
  destruct (ca x =? 0). apply cwf_const.
  destruct (_ && _); auto using cwf_top, cwf_mk.
Qed.
Lemma cwf_rem x y : cwf (cg_rem x y).
Proof.
  unfold cg_rem. destruct (cbot x || cbot y). apply cwf_bot.
  destruct (cg_eq y (cg_const 0)). apply cwf_bot.
  destruct (cg_is_top x || cg_is_top y). apply cwf_top.
  destruct (_ && _); auto using cwf_const, cwf_mk.
Qed.
Lemma cwf_shl x y : cwf (cg_shl x y).
Proof.
  unfold cg_shl. destruct (cbot x || cbot y). apply cwf_bot.
  destruct (cg_is_top x || cg_is_top y). apply cwf_top.
  destruct (ca y =? 0); [|apply cwf_mk].
  destruct (cb y <? 0); auto using cwf_bot, cwf_mk.
Qed.

(* non-vacuity: 4 is in both 2Z+0 and 3Z+1 and in their meet 6Z+4 (the code before
   fixes/scalars2-1 answered 6Z+1) *)
Example cg_meet_example :
  cg_meet (cg_mk 2 0) (cg_mk 3 1) = cg_mk 6 4 /\ cgamma (cg_mk 2 0) 4 /\ cgamma (cg_mk 3 1) 4
  /\ cgamma (cg_meet (cg_mk 2 0) (cg_mk 3 1)) 4.
Proof.
  split. vm_compute. reflexivity.
  split; [|split].
  - split. reflexivity. exists 2. reflexivity.
  - split. reflexivity. exists 1. reflexivity.
  - split. reflexivity. exists 0. reflexivity.
Qed.
Example cg_div_example : cgamma (cg_mk 4 1) (-3) /\ cg_div (cg_mk 4 1) (cg_const 2) = cg_top.
Proof. split. split. reflexivity. exists (-1). reflexivity. vm_compute. reflexivity. Qed.
