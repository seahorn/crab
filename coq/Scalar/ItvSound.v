(* ItvSound.v — soundness of every operator of the interval model (Itv.v) with respect
   to mathematical integers.  The arithmetic operators are sound because the operations on
   bounds are monotone (Base/ZInf.v). *)
From Coq Require Import ZArith Lia Bool List.
From CrabV Require Import Base.ZInf Scalar.Itv.
Local Open Scope Z_scope.

Definition gamma (i : itv) (x : Z) : Prop :=
  ble (lb i) (Fin x) = true /\ ble (Fin x) (ub i) = true.

(* Representation invariant of values built through the public API. *)
Definition wf (i : itv) : Prop :=
  i = ibot \/ (lb i <> PInf /\ ub i <> MInf /\ ble (lb i) (ub i) = true).

Lemma gamma_bot x : ~ gamma ibot x.
Proof. unfold gamma, ibot; simpl. rewrite !Z.leb_le. lia. Qed.

Lemma gamma_top x : gamma itop x.
Proof. unfold gamma, itop; simpl; auto. Qed.

Lemma gamma_not_bot i x : gamma i x -> is_bot i = false.
Proof.
  unfold gamma, is_bot, bgt. intros [H1 H2].
  rewrite (ble_trans _ _ _ H1 H2). reflexivity.
Qed.

Lemma is_bot_gamma_empty i x : is_bot i = true -> ~ gamma i x.
Proof. intros H G. apply gamma_not_bot in G. congruence. Qed.

Lemma gamma_imk l u x :
  gamma (imk l u) x <-> (ble l (Fin x) = true /\ ble (Fin x) u = true).
Proof.
  unfold imk, bgt. destruct (ble l u) eqn:E; simpl.
  - unfold gamma; simpl; tauto.
  - split.
    + intros G. elim (gamma_bot _ G).
    + intros [H1 H2]. rewrite (ble_trans _ _ _ H1 H2) in E. discriminate.
Qed.

Lemma gamma_imk_elim l u x :
  gamma (imk l u) x -> (ble l (Fin x) = true /\ ble (Fin x) u = true).
Proof. apply gamma_imk. Qed.

Lemma gamma_iconst n x : gamma (iconst n) x <-> x = n.
Proof. unfold gamma, iconst; simpl. rewrite !Z.leb_le. lia. Qed.

Lemma wf_bot : wf ibot. Proof. left; auto. Qed.
Lemma wf_top : wf itop. Proof. right; simpl; repeat split; congruence. Qed.
Lemma wf_iconst n : wf (iconst n).
Proof. right; simpl; repeat split; try congruence. apply Z.leb_refl. Qed.

Lemma wf_imk l u : l <> PInf -> u <> MInf -> wf (imk l u).
Proof.
  intros. unfold imk, bgt. destruct (ble l u) eqn:E; simpl.
  - right; simpl; auto.
  - left; auto.
Qed.

Lemma wf_nonbot i : wf i -> is_bot i = false ->
  lb i <> PInf /\ ub i <> MInf /\ ble (lb i) (ub i) = true.
Proof.
  intros [->|H] Hb; auto. unfold is_bot, ibot, bgt in Hb; simpl in Hb. discriminate.
Qed.

Lemma is_bot_false_ble i : is_bot i = false -> ble (lb i) (ub i) = true.
Proof. unfold is_bot, bgt. destruct (ble (lb i) (ub i)); simpl; congruence. Qed.

Lemma wf_inhabited i : wf i -> is_bot i = false -> exists x, gamma i x.
Proof.
  intros W B. destruct (wf_nonbot _ W B) as (H1 & H2 & H3).
  unfold gamma. destruct (lb i) as [| l |] eqn:EL, (ub i) as [| u |] eqn:EU;
    try congruence; simpl in *; try discriminate.
  - exists u. simpl. rewrite Z.leb_refl; auto.
  - exists 0. auto.
  - exists l. rewrite H3, Z.leb_refl; auto.
  - exists l. rewrite Z.leb_refl; auto.
Qed.

Lemma is_top_gamma i x : wf i -> is_top i = true -> gamma i x.
Proof.
  unfold is_top, gamma. intros [->|(W1 & W2 & _)] T; [discriminate|].
  destruct (lb i), (ub i); try discriminate; try congruence. auto.
Qed.

Lemma ileq_sound a b : ileq a b = true -> forall x, gamma a x -> gamma b x.
Proof.
  unfold ileq. intros H x G. rewrite (gamma_not_bot _ _ G) in H.
  destruct (is_bot b); try discriminate.
  apply andb_true_iff in H. destruct H as [H1 H2]. destruct G as [G1 G2].
  split; eauto using ble_trans.
Qed.

(* [bwit S p]: the bound p is attained by the set S (finite case) or S is unbounded in
   that direction (infinite case). *)
Definition bwit (S : Z -> Prop) (p : bound) : Prop :=
  match p with
  | Fin v => S v
  | MInf => forall M, exists z, S z /\ z < M
  | PInf => forall M, exists z, S z /\ M < z
  end.

(* an interval whose bounds are witnessed in a non-empty S is below every interval
   that contains S *)
Lemma tight_from_wit (S : Z -> Prop) r i :
  (exists z, S z) -> bwit S (lb r) -> bwit S (ub r) ->
  (forall z, S z -> gamma i z) -> ileq r i = true.
Proof.
  intros [z0 S0] WL WU H. unfold ileq. destruct (is_bot r); auto.
  rewrite (gamma_not_bot _ _ (H _ S0)).
  apply andb_true_iff. split.
  - destruct (lb r) as [| v |]; simpl in WL.
    + destruct (lb i) as [| l |] eqn:EL; auto.
      * destruct (WL l) as (z & Sz & Hz). destruct (H _ Sz) as [G _]. rewrite EL in G.
        apply ble_fin in G. lia.
      * destruct (H _ S0) as [G _]. rewrite EL in G. discriminate.
    + apply (H _ WL).
    + destruct (lb i); auto.
  - destruct (ub r) as [| v |]; simpl in WU.
    + destruct (ub i); auto.
    + apply (H _ WU).
    + destruct (ub i) as [| u |] eqn:EU; auto.
      * destruct (H _ S0) as [_ G]. rewrite EU in G. discriminate.
      * destruct (WU u) as (z & Sz & Hz). destruct (H _ Sz) as [_ G]. rewrite EU in G.
        apply ble_fin in G. lia.
Qed.

Lemma wf_bwit a : wf a -> is_bot a = false ->
  bwit (gamma a) (lb a) /\ bwit (gamma a) (ub a).
Proof.
  intros W B. destruct (wf_nonbot _ W B) as (H1 & H2 & H3).
  destruct (wf_inhabited _ W B) as [x0 [G1 G2]].
  unfold gamma. split.
  - destruct (lb a) as [| l |] eqn:EL; simpl; try congruence.
    + intros M. exists (Z.min x0 M - 1). repeat split; try lia.
      eapply ble_trans; [|exact G2]. apply ble_fin. lia.
    + split; auto. apply Z.leb_refl.
  - destruct (ub a) as [| u |] eqn:EU; simpl; try congruence.
    + split; auto. apply Z.leb_refl.
    + intros M. exists (Z.max x0 M + 1). repeat split; try lia.
      eapply ble_trans; [exact G1|]. apply ble_fin. lia.
Qed.

Lemma ileq_complete a b : wf a -> (forall x, gamma a x -> gamma b x) -> ileq a b = true.
Proof.
  intros W H. destruct (is_bot a) eqn:EA; [unfold ileq; rewrite EA; reflexivity|].
  destruct (wf_bwit _ W EA). apply (tight_from_wit (gamma a)); auto using wf_inhabited.
Qed.

Lemma ileq_refl a : ileq a a = true.
Proof. unfold ileq. destruct (is_bot a); auto. rewrite !ble_refl. auto. Qed.

Lemma ileq_bot_l a : ileq ibot a = true.
Proof. reflexivity. Qed.

Lemma ileq_top_r a : wf a -> ileq a itop = true.
Proof. intros. apply ileq_complete; auto. intros; apply gamma_top. Qed.

Lemma ijoin_sound_l a b x : gamma a x -> gamma (ijoin a b) x.
Proof.
  intros G. unfold ijoin. rewrite (gamma_not_bot _ _ G).
  destruct (is_bot b); auto. apply gamma_imk. destruct G.
  split; [apply bmin_or|apply bmax_or]; left; assumption.
Qed.

Lemma ijoin_sound_r a b x : gamma b x -> gamma (ijoin a b) x.
Proof.
  intros G. unfold ijoin. destruct (is_bot a); auto. rewrite (gamma_not_bot _ _ G).
  apply gamma_imk. destruct G.
  split; [apply bmin_or|apply bmax_or]; right; assumption.
Qed.

Lemma imeet_exact a b x : gamma (imeet a b) x <-> (gamma a x /\ gamma b x).
Proof.
  unfold imeet. destruct (is_bot a || is_bot b) eqn:E.
  - split; [intros G; elim (gamma_bot _ G)|]. intros [Ga Gb].
    rewrite (gamma_not_bot _ _ Ga), (gamma_not_bot _ _ Gb) in E. discriminate.
  - rewrite gamma_imk, bmax_le_iff, bmin_ge_iff. unfold gamma. tauto.
Qed.

Lemma iwiden_thr_sound gp gn a b :
  (forall v, ble (gp v) v = true) -> (forall v, ble v (gn v) = true) ->
  forall x, gamma a x \/ gamma b x -> gamma (iwiden_thr gp gn a b) x.
Proof.
  intros Hp Hn x G. unfold iwiden_thr.
  destruct (is_bot a) eqn:EA.
  { destruct G as [G|G]; auto. apply gamma_not_bot in G. congruence. }
  destruct (is_bot b) eqn:EB.
  { destruct G as [G|G]; auto. apply gamma_not_bot in G. congruence. }
  apply gamma_imk. unfold blt, bge. split.
  - destruct (ble (lb a) (lb b)) eqn:E; cbn [negb].
    + destruct G as [[G _]|[G _]]; auto. eapply ble_trans; eauto.
    + destruct G as [[G _]|[G _]]; eapply ble_trans; try apply Hp; auto.
      eapply ble_trans; [|exact G]. apply ble_false_flip; auto.
  - destruct (ble (ub b) (ub a)) eqn:E; cbn [negb].
    + destruct G as [[_ G]|[_ G]]; auto. eapply ble_trans; eauto.
    + destruct G as [[_ G]|[_ G]]; (eapply ble_trans; [|apply Hn]); auto.
      eapply ble_trans; [exact G|]. apply ble_false_flip; auto.
Qed.

Lemma iwiden_sound a b x : gamma a x \/ gamma b x -> gamma (iwiden a b) x.
Proof.
  intros G.
  assert (E : iwiden a b = iwiden_thr (fun _ => MInf) (fun _ => PInf) a b) by reflexivity.
  rewrite E. apply iwiden_thr_sound; auto. intros v; destruct v; auto.
Qed.

(* narrowing: if b <= a then gamma b ⊆ gamma (a && b); in fact for all operands the
   result contains the intersection, and it contains gamma b whenever b ⊆ a. *)
Lemma inarrow_sound a b x : gamma a x -> gamma b x -> gamma (inarrow a b) x.
Proof.
  intros Ga Gb. unfold inarrow.
  rewrite (gamma_not_bot _ _ Ga), (gamma_not_bot _ _ Gb). simpl.
  apply gamma_imk. destruct Ga as [A1 A2], Gb as [B1 B2]. split.
  - destruct (negb (b_is_finite (lb a)) && b_is_finite (lb b)); auto.
  - destruct (negb (b_is_finite (ub a)) && b_is_finite (ub b)); auto.
Qed.

Lemma inarrow_decreasing_pair a b :
  ileq b a = true -> forall x, gamma b x -> gamma (inarrow a b) x.
Proof. intros H x G. apply inarrow_sound; auto. eapply ileq_sound; eauto. Qed.

Lemma imem_spec a n : imem a n = true <-> gamma a n.
Proof.
  unfold imem, gamma. destruct (is_bot a) eqn:E.
  - split; try discriminate. intros G. apply (gamma_not_bot a n) in G. congruence.
  - rewrite andb_true_iff. tauto.
Qed.

Lemma isingleton_spec a n : isingleton a = Some n -> forall x, gamma a x <-> x = n.
Proof.
  unfold isingleton. destruct (negb (is_bot a) && beqb (lb a) (ub a)) eqn:E; try discriminate.
  apply andb_true_iff in E. destruct E as [_ E]. apply beqb_eq in E.
  destruct (lb a) eqn:EL; try discriminate. intros H; inversion H; subst.
  intros x. unfold gamma. rewrite <- E, EL. simpl. rewrite !Z.leb_le. lia.
Qed.

Lemma isingleton_gamma a n : isingleton a = Some n -> gamma a n.
Proof. intros H. apply (isingleton_spec _ _ H). auto. Qed.

Lemma is_bot_iconst q : is_bot (iconst q) = false.
Proof. unfold is_bot, iconst, bgt; simpl. rewrite Z.leb_refl. reflexivity. Qed.
Lemma isingleton_iconst q : isingleton (iconst q) = Some q.
Proof. unfold isingleton. rewrite is_bot_iconst. simpl. rewrite Z.eqb_refl. reflexivity. Qed.

Lemma ieq_sound a b : ieq a b = true -> forall x, gamma a x <-> gamma b x.
Proof.
  unfold ieq. destruct (is_bot a) eqn:EA.
  - intros EB x. split; intros G; apply gamma_not_bot in G; congruence.
  - intros H x. apply andb_true_iff in H. destruct H as [H1 H2].
    apply beqb_eq in H1, H2. unfold gamma. rewrite H1, H2. tauto.
Qed.

Lemma ilower_half_sound a x y : gamma a x -> y <= x -> gamma (ilower_half a) y.
Proof.
  intros [G1 G2] H. apply gamma_imk. split; auto.
  eapply ble_trans; [|exact G2]. apply ble_fin, H.
Qed.

Lemma iupper_half_sound a x y : gamma a x -> x <= y -> gamma (iupper_half a) y.
Proof.
  intros [G1 G2] H. apply gamma_imk. split.
  - eapply ble_trans; [exact G1|]. apply ble_fin, H.
  - reflexivity.
Qed.

Lemma itrim_sound i j x c : gamma i x -> isingleton j = Some c -> x <> c -> gamma (itrim i j) x.
Proof.
  intros G S N. unfold itrim. rewrite S. destruct G as [G1 G2].
  destruct (beqb (lb i) (Fin c)) eqn:E1.
  - apply beqb_eq in E1. apply gamma_imk. split; auto. rewrite E1 in G1.
    apply ble_fin. apply ble_fin in G1. lia.
  - destruct (beqb (ub i) (Fin c)) eqn:E2.
    + apply beqb_eq in E2. apply gamma_imk. split; auto. rewrite E2 in G2.
      apply ble_fin. apply ble_fin in G2. lia.
    + split; auto.
Qed.

Lemma iadd_sound a b x y : gamma a x -> gamma b y -> gamma (iadd a b) (x + y).
Proof.
  intros Ga Gb. unfold iadd. rewrite (gamma_not_bot _ _ Ga), (gamma_not_bot _ _ Gb).
  apply gamma_imk. destruct Ga, Gb. split; [apply badd_le|apply badd_ge]; assumption.
Qed.

Lemma ineg_sound a x : gamma a x -> gamma (ineg a) (- x).
Proof.
  intros Ga. unfold ineg. rewrite (gamma_not_bot _ _ Ga).
  apply gamma_imk. change (Fin (- x)) with (bneg (Fin x)). rewrite !ble_bneg.
  destruct Ga. split; assumption.
Qed.

Lemma isub_sound a b x y : gamma a x -> gamma b y -> gamma (isub a b) (x - y).
Proof.
  intros Ga Gb. unfold isub. rewrite (gamma_not_bot _ _ Ga), (gamma_not_bot _ _ Gb).
  apply gamma_imk. destruct Ga, Gb. unfold bsub, Z.sub.
  split; [apply badd_le|apply badd_ge]; try assumption;
    change (Fin (- y)) with (bneg (Fin y)); rewrite ble_bneg; assumption.
Qed.

(* x*y is monotone or antitone in each argument, so it lies between the corner products:
   first vary x with y fixed, then vary y at each corner *)
Lemma imul_sound a b x y : gamma a x -> gamma b y -> gamma (imul a b) (x * y).
Proof.
  intros Ga Gb. unfold imul. rewrite (gamma_not_bot _ _ Ga), (gamma_not_bot _ _ Gb).
  apply gamma_imk. destruct Ga as [A1 A2], Gb as [B1 B2].
  destruct (bmul_between (Fin y) _ _ x A1 A2) as [X1 X2].
  rewrite !(bmul_comm (Fin y)), bmul_fin in X1, X2.
  destruct (bmul_between (lb a) _ _ y B1 B2), (bmul_between (ub a) _ _ y B1 B2).
  split; [eapply corners_min|eapply corners_max]; eassumption.
Qed.

Lemma not_mem_zero_sign b y :
  gamma b y -> imem b 0 = false ->
  y <> 0 /\ (ble (Fin 1) (lb b) = true \/ ble (ub b) (Fin (-1)) = true).
Proof.
  intros G M. split.
  - intros ->. apply imem_spec in G. congruence.
  - unfold imem in M. rewrite (gamma_not_bot _ _ G) in M.
    apply andb_false_iff in M. destruct M as [M|M]; [left|right].
    + destruct (lb b); try discriminate; auto. apply ble_fin. apply Z.leb_gt in M. lia.
    + destruct (ub b); try discriminate; auto. apply ble_fin. apply Z.leb_gt in M. lia.
Qed.

(* as for multiplication: vary the dividend, then the divisor at each corner *)
Lemma idiv_corners_sound a b x y :
  gamma a x -> gamma b y -> imem b 0 = false -> gamma (idiv_corners a b) (Z.quot x y).
Proof.
  intros Ga Gb M. destruct (not_mem_zero_sign _ _ Gb M) as [Hy HS].
  unfold idiv_corners. apply gamma_imk. destruct Ga as [A1 A2], Gb as [B1 B2].
  destruct (bdiv_between_num _ _ x y Hy A1 A2).
  destruct (bdiv_between_den (lb a) _ _ y B1 B2 HS), (bdiv_between_den (ub a) _ _ y B1 B2 HS).
  split; [eapply corners_min|eapply corners_max]; eassumption.
Qed.

Lemma gamma_below a x c : gamma a x -> x <= c -> gamma (imk (lb a) (Fin c)) x.
Proof. intros [G _] H. apply gamma_imk. split; [exact G|apply ble_fin, H]. Qed.
Lemma gamma_above a x c : gamma a x -> c <= x -> gamma (imk (Fin c) (ub a)) x.
Proof. intros [_ G] H. apply gamma_imk. split; [apply ble_fin, H|exact G]. Qed.

Lemma idiv_f_sound fuel : forall a b x y,
  gamma a x -> gamma b y -> y <> 0 -> gamma (idiv_f fuel a b) (Z.quot x y).
Proof.
  induction fuel as [|f IH]; intros a b x y Ga Gb Hy; [apply gamma_top|].
  cbn [idiv_f]. rewrite (gamma_not_bot _ _ Ga), (gamma_not_bot _ _ Gb). cbn [orb].
  set (generic := if imem b 0 then _ else _).
  assert (GEN : gamma generic (Z.quot x y)).
  { subst generic. destruct (imem b 0) eqn:M0.
    - destruct (Z.lt_total y 0) as [Hn|[?|Hp]]; [|lia|].
      + apply ijoin_sound_l, IH; auto. apply gamma_below; auto. lia.
      + apply ijoin_sound_r, IH; auto. apply gamma_above; auto. lia.
    - destruct (imem a 0) eqn:MA; [|apply idiv_corners_sound; auto].
      destruct (Z.lt_total x 0) as [Hn|[->|Hp]].
      + apply ijoin_sound_l, ijoin_sound_l, IH; auto. apply gamma_below; auto. lia.
      + apply ijoin_sound_r. rewrite Z.quot_0_l by auto. apply gamma_iconst. auto.
      + apply ijoin_sound_l, ijoin_sound_r, IH; auto. apply gamma_above; auto. lia. }
  destruct (isingleton b) as [c|] eqn:S; auto.
  assert (y = c) by (apply (isingleton_spec _ _ S); auto). subst c.
  destruct (Z.eqb_spec y 1) as [->|_].
  { rewrite Z.quot_1_r. auto. }
  destruct Ga as [A1 A2].
  destruct (Z.ltb_spec 0 y).
  { apply gamma_imk. rewrite <- (bdiv_fin x y Hy). split; apply bdiv_mono_l; auto. }
  destruct (Z.ltb_spec y 0); auto.
  apply gamma_imk. rewrite <- (bdiv_fin x y Hy). split; apply bdiv_anti_l; auto.
Qed.

Theorem idiv_sound a b x y :
  gamma a x -> gamma b y -> y <> 0 -> gamma (idiv a b) (Z.quot x y).
Proof. apply idiv_f_sound. Qed.

(* srem, urem, and, or, xor answer exactly on two singletons and fall back on a generic
   answer otherwise *)
Lemma singletons_case (P : itv -> Prop) a b x y (f : Z -> Z -> itv) (g : itv) :
  gamma a x -> gamma b y -> P g -> P (f x y) ->
  P match isingleton a, isingleton b with Some l, Some r => f l r | _, _ => g end.
Proof.
  intros Ga Gb Hg Hf.
  destruct (isingleton a) as [d|] eqn:SA; auto. destruct (isingleton b) as [c|] eqn:SB; auto.
  rewrite <- (proj1 (isingleton_spec _ _ SA x) Ga), <- (proj1 (isingleton_spec _ _ SB y) Gb).
  exact Hf.
Qed.

Lemma zabs_eq x : zabs x = Z.abs x.
Proof. unfold zabs. destruct (Z.ltb_spec x 0); lia. Qed.
Lemma zmax_eq x y : zmax x y = Z.max x y.
Proof. unfold zmax. destruct (Z.leb_spec x y); lia. Qed.

Lemma rem_range x y : y <> 0 ->
  Z.abs (Z.rem x y) < Z.abs y /\ (0 <= x -> 0 <= Z.rem x y) /\ (x <= 0 -> Z.rem x y <= 0).
Proof.
  intros Hy. pose proof (Z.rem_bound_abs x y Hy). pose proof (Z.rem_sign_mul x y Hy).
  split; auto.
  destruct (Z.eq_dec x 0) as [->|Nx]; [rewrite Z.rem_0_l by auto; lia|].
  split; intros; nia.
Qed.

Lemma isrem_sound a b x y :
  gamma a x -> gamma b y -> y <> 0 -> gamma (isrem a b) (Z.rem x y).
Proof.
  intros Ga Gb Hy. unfold isrem.
  rewrite (gamma_not_bot _ _ Ga), (gamma_not_bot _ _ Gb).
  apply (singletons_case (fun i => gamma i (Z.rem x y)) a b x y); auto.
  2:{ rewrite (proj2 (Z.eqb_neq y 0) Hy). apply gamma_iconst; auto. }
  destruct Gb as [B1 B2]. destruct (lb b) as [| xl |]; try apply gamma_top.
  destruct (ub b) as [| xu |]; try apply gamma_top.
  apply ble_fin in B1, B2. cbv zeta.
  destruct (rem_range x y Hy) as (R1 & R2 & R3).
  assert (M : Z.abs y <= zmax (zabs xl) (zabs xu)).
  { rewrite zmax_eq, !zabs_eq. lia. }
  apply Z.abs_lt in R1. assert (K : 0 < Z.abs y) by lia.
  generalize dependent (Z.abs y). generalize (zmax (zabs xl) (zabs xu)). intros m k R1 M K.
  destruct (Z.eqb_spec m 0); [lia|].
  destruct Ga as [A1 A2]. unfold blt, bgt, bge.
  destruct (ble (Fin 0) (lb a)) eqn:E0; cbn [negb].
  - apply (ble_trans _ _ _ E0), ble_fin in A1.
    apply gamma_imk. rewrite !ble_fin. lia.
  - destruct (ble (ub a) (Fin 0)) eqn:E1; cbn [negb]; apply gamma_imk; rewrite !ble_fin.
    + apply (ble_trans _ _ _ A2), ble_fin in E1. lia.
    + lia.
Qed.

(* Unsigned remainder: operands are re-read as non-negative numbers of some bit width; a
   negative dividend may therefore stand for any non-negative number.  The divisor must
   be read as itself (the code answers top whenever it may be negative). *)
Lemma iurem_sound a b x x' y :
  gamma a x -> gamma b y -> 0 < y -> 0 <= x' -> (x' = x \/ x < 0) ->
  gamma (iurem a b) (Z.rem x' y).
Proof.
  intros Ga Gb Hy Hx' HX. unfold iurem.
  rewrite (gamma_not_bot _ _ Ga), (gamma_not_bot _ _ Gb).
  pose proof (Z.rem_bound_pos x' y Hx' Hy) as RB.
  apply (singletons_case (fun i => gamma i (Z.rem x' y)) a b x y); auto.
  - destruct Gb as [B1 B2]. destruct (lb b) as [| xl |]; try apply gamma_top.
    destruct (ub b) as [| xu |]; try apply gamma_top.
    apply ble_fin in B1, B2.
    destruct (blt (Fin xl) (Fin 0) || blt (Fin xu) (Fin 0)); [apply gamma_top|].
    destruct (Z.eqb_spec xu 0); [lia|].
    apply gamma_imk. rewrite !ble_fin. lia.
  - destruct (Z.ltb_spec y 0); [lia|]. destruct (Z.eqb_spec y 0); [lia|].
    destruct (Z.ltb_spec x 0).
    + apply gamma_imk. rewrite !ble_fin. lia.
    + destruct HX; [subst|lia]. apply gamma_iconst; auto.
Qed.

Lemma iudiv_sound a b x y z : gamma a x -> gamma b y -> gamma (iudiv a b) z.
Proof.
  intros Ga Gb. unfold iudiv. rewrite (gamma_not_bot _ _ Ga), (gamma_not_bot _ _ Gb).
  apply gamma_top.
Qed.

(* the concrete bitwise operators are those of Z (infinite two's complement) *)
Lemma land_le_l x y : 0 <= x -> 0 <= Z.land x y <= x.
Proof.
  intros Hx. apply Z.ldiff_le; auto.
  apply Z.bits_inj'. intros n Hn.
  rewrite Z.ldiff_spec, Z.land_spec, Z.bits_0.
  destruct (Z.testbit x n), (Z.testbit y n); auto.
Qed.

Lemma nonneg_operands a b x y :
  gamma a x -> gamma b y -> bge (lb a) (Fin 0) && bge (lb b) (Fin 0) = true -> 0 <= x /\ 0 <= y.
Proof.
  intros [A _] [B _] E. apply andb_true_iff in E. destruct E as [E1 E2].
  split; apply ble_fin; [exact (ble_trans _ _ _ E1 A)|exact (ble_trans _ _ _ E2 B)].
Qed.

Lemma iand_sound a b x y : gamma a x -> gamma b y -> gamma (iand a b) (Z.land x y).
Proof.
  intros Ga Gb. unfold iand.
  rewrite (gamma_not_bot _ _ Ga), (gamma_not_bot _ _ Gb).
  apply (singletons_case (fun i => gamma i (Z.land x y)) a b x y); auto;
    [|apply gamma_iconst; auto].
  destruct (bge (lb a) (Fin 0) && bge (lb b) (Fin 0)) eqn:E; [|apply gamma_top].
  destruct (nonneg_operands _ _ _ _ Ga Gb E) as [X0 Y0].
  destruct (land_le_l x y X0) as [L1 L2].
  assert (L3 : Z.land x y <= y). { rewrite Z.land_comm. apply land_le_l; auto. }
  destruct Ga as [_ A2], Gb as [_ B2].
  apply gamma_imk. split; [apply ble_fin, L1|].
  apply bmin_glb; (eapply ble_trans; [|eassumption]); apply ble_fin; assumption.
Qed.

Lemma fill_ones_ge n : 0 <= n -> n <= fill_ones n.
Proof.
  intros H. unfold fill_ones. destruct (Z.leb_spec n 0); [lia|].
  rewrite Z.ones_equiv. pose proof (Z.log2_spec n ltac:(lia)).
  replace (Z.log2 n + 1) with (Z.succ (Z.log2 n)) by lia. lia.
Qed.

Lemma fill_ones_mono m n : 0 <= m <= n -> fill_ones m <= fill_ones n.
Proof.
  intros H. unfold fill_ones. destruct (Z.leb_spec m 0), (Z.leb_spec n 0); try lia.
  - rewrite Z.ones_equiv. assert (0 < 2 ^ (Z.log2 n + 1)). { apply Z.pow_pos_nonneg; try lia. pose proof (Z.log2_nonneg n); lia. } lia.
  - rewrite !Z.ones_equiv. assert (Z.log2 m <= Z.log2 n) by (apply Z.log2_le_mono; lia).
    assert (2 ^ (Z.log2 m + 1) <= 2 ^ (Z.log2 n + 1)).
    { apply Z.pow_le_mono_r; try lia. } lia.
Qed.

Lemma bits_below_fill_ones v m :
  0 <= v -> 0 < m -> Z.log2 v <= Z.log2 m -> v <= fill_ones m.
Proof.
  intros Hv Hm HL. destruct (Z.eq_dec v 0) as [->|Nz].
  - pose proof (fill_ones_ge m ltac:(lia)). lia.
  - unfold fill_ones. replace (m <=? 0) with false by (symmetry; apply Z.leb_gt; lia).
    rewrite Z.ones_equiv. pose proof (Z.log2_spec v ltac:(lia)) as [_ S].
    assert (2 ^ Z.succ (Z.log2 v) <= 2 ^ (Z.log2 m + 1)).
    { apply Z.pow_le_mono_r; lia. } lia.
Qed.

Lemma ior_generic_sound a b x y (op : Z -> Z -> Z) :
  (forall p q, 0 <= p -> 0 <= q -> 0 <= op p q /\ Z.log2 (op p q) <= Z.max (Z.log2 p) (Z.log2 q)) ->
  op 0 0 = 0 ->
  gamma a x -> gamma b y ->
  gamma (if bge (lb a) (Fin 0) && bge (lb b) (Fin 0) then
      match ub a, ub b with
      | Fin l, Fin r => imk (Fin 0) (Fin (fill_ones (if r <? l then l else r)))
      | _, _ => imk (Fin 0) PInf
      end
    else itop) (op x y).
Proof.
  intros Hop Hop0 Ga Gb.
  destruct (bge (lb a) (Fin 0) && bge (lb b) (Fin 0)) eqn:E; [|apply gamma_top].
  destruct (nonneg_operands _ _ _ _ Ga Gb E) as [X0 Y0]. destruct (Hop x y X0 Y0) as [O1 O2].
  assert (PI : gamma (imk (Fin 0) PInf) (op x y)).
  { apply gamma_imk. split; auto. apply ble_fin, O1. }
  destruct Ga as [_ A2], Gb as [_ B2].
  destruct (ub a) as [| l |]; auto. destruct (ub b) as [| r |]; auto.
  apply ble_fin in A2, B2.
  apply gamma_imk. split; apply ble_fin; [exact O1|].
  set (m := if r <? l then l else r).
  assert (Hm : l <= m /\ r <= m) by (subst m; destruct (Z.ltb_spec r l); lia).
  destruct (Z.eq_dec m 0) as [M0|M0].
  { assert (x = 0 /\ y = 0) as [-> ->] by lia. rewrite Hop0, M0. reflexivity. }
  apply bits_below_fill_ones; [exact O1|lia|].
  assert (Z.log2 x <= Z.log2 m) by (apply Z.log2_le_mono; lia).
  assert (Z.log2 y <= Z.log2 m) by (apply Z.log2_le_mono; lia). lia.
Qed.

Lemma ior_sound a b x y : gamma a x -> gamma b y -> gamma (ior a b) (Z.lor x y).
Proof.
  intros Ga Gb. unfold ior.
  rewrite (gamma_not_bot _ _ Ga), (gamma_not_bot _ _ Gb).
  apply (singletons_case (fun i => gamma i (Z.lor x y)) a b x y); auto;
    [|apply gamma_iconst; auto].
  apply (ior_generic_sound a b x y Z.lor); auto.
  intros p q Hp Hq. split; [apply Z.lor_nonneg; auto|apply Z.eq_le_incl, Z.log2_lor; auto].
Qed.

Lemma ixor_sound a b x y : gamma a x -> gamma b y -> gamma (ixor a b) (Z.lxor x y).
Proof.
  intros Ga Gb. unfold ixor, ior.
  rewrite (gamma_not_bot _ _ Ga), (gamma_not_bot _ _ Gb).
  assert (Hop : forall p q, 0 <= p -> 0 <= q ->
            0 <= Z.lxor p q /\ Z.log2 (Z.lxor p q) <= Z.max (Z.log2 p) (Z.log2 q)).
  { intros p q Hp Hq. split; [apply Z.lxor_nonneg; tauto|apply Z.log2_lxor; auto]. }
  pose proof (ior_generic_sound a b x y Z.lxor Hop eq_refl Ga Gb) as GEN.
  destruct (isingleton a) as [d|] eqn:SA; [|exact GEN].
  destruct (isingleton b) as [c|] eqn:SB; [|exact GEN].
  rewrite <- (proj1 (isingleton_spec _ _ SA x) Ga), <- (proj1 (isingleton_spec _ _ SB y) Gb).
  apply gamma_iconst; auto.
Qed.

(* the shift operators answer top unless the amount is a non-negative singleton *)
Lemma shift_amount (P : itv -> Prop) b k (f : Z -> itv) :
  gamma b k -> 0 <= k -> P itop -> P (f k) ->
  P match isingleton b with Some c => if c <? 0 then itop else f c | None => itop end.
Proof.
  intros Gb Hk Ht Hf. destruct (isingleton b) as [c|] eqn:SB; auto.
  rewrite <- (proj1 (isingleton_spec _ _ SB k) Gb). destruct (Z.ltb_spec k 0); [lia|exact Hf].
Qed.

Lemma ishl_sound a b x k : gamma a x -> gamma b k -> 0 <= k -> gamma (ishl a b) (Z.shiftl x k).
Proof.
  intros Ga Gb Hk. unfold ishl.
  rewrite (gamma_not_bot _ _ Ga), (gamma_not_bot _ _ Gb).
  apply (shift_amount (fun i => gamma i (Z.shiftl x k)) b k); auto using gamma_top.
  destruct (k <=? 128); [|apply gamma_top].
  rewrite Z.shiftl_mul_pow2 by auto. apply imul_sound; auto. apply gamma_iconst; auto.
Qed.

Lemma shiftr_mono l x k : 0 <= k -> l <= x -> Z.shiftr l k <= Z.shiftr x k.
Proof.
  intros. rewrite !Z.shiftr_div_pow2 by auto. apply Z.div_le_mono; auto.
  apply Z.pow_pos_nonneg; lia.
Qed.

Lemma iashr_sound a b x k : gamma a x -> gamma b k -> 0 <= k -> gamma (iashr a b) (Z.shiftr x k).
Proof.
  intros Ga Gb Hk. unfold iashr.
  rewrite (gamma_not_bot _ _ Ga), (gamma_not_bot _ _ Gb).
  apply (shift_amount (fun i => gamma i (Z.shiftr x k)) b k); auto using gamma_top.
  destruct (k <=? 128); [|apply gamma_top].
  apply gamma_imk. destruct Ga as [A1 A2]. split.
  - destruct (lb a); try discriminate; auto. apply ble_fin, shiftr_mono, ble_fin; auto.
  - destruct (ub a); try discriminate; auto. apply ble_fin, shiftr_mono, ble_fin; auto.
Qed.

Lemma shiftr_nn_eq l k : 0 <= l -> 0 <= k -> shiftr_nn l k = Z.shiftr l k.
Proof.
  intros. unfold shiftr_nn. destruct (Z.ltb_spec (Z.log2 l) k); auto.
  symmetry. apply Z.shiftr_eq_0; auto.
Qed.

(* logical shift right of a non-negative number (for negative numbers the result depends
   on the bit width and the code answers top) *)
Lemma ilshr_sound a b x k :
  gamma a x -> gamma b k -> 0 <= k -> forall r, (0 <= x -> r = Z.shiftr x k) -> gamma (ilshr a b) r.
Proof.
  intros Ga Gb Hk r Hr. unfold ilshr.
  rewrite (gamma_not_bot _ _ Ga), (gamma_not_bot _ _ Gb).
  apply (shift_amount (fun i => gamma i r) b k); auto using gamma_top.
  destruct Ga as [A1 A2].
  destruct (lb a) as [| l |]; try apply gamma_top.
  destruct (ub a) as [| u |]; try apply gamma_top.
  destruct (Z.leb_spec 0 l); [|apply gamma_top]. apply ble_fin in A1, A2.
  rewrite Hr by lia. apply gamma_imk. rewrite !shiftr_nn_eq, !ble_fin by lia.
  split; apply shiftr_mono; auto.
Qed.
