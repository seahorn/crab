(* ConstantSound.v — concretisation of the constant (flat) domain and soundness of every
   operation of Constant.v. *)
From Coq Require Import ZArith Lia Bool.
From CrabV Require Import Scalar.Constant.
Local Open Scope Z_scope.

Definition ctgamma (c : cst) (x : Z) : Prop :=
  match c with CBot => False | CTop => True | CVal n => x = n end.

Lemma ctgamma_bot x : ~ ctgamma CBot x.
Proof. simpl; auto. Qed.
Lemma ctgamma_top x : ctgamma CTop x.
Proof. simpl; auto. Qed.
Lemma ctgamma_const n x : ctgamma (CVal n) x <-> x = n.
Proof. simpl; tauto. Qed.

Lemma ct_is_bot_spec c : ct_is_bot c = true <-> (forall x, ~ ctgamma c x).
Proof.
  destruct c; simpl; split; intros H; auto; try discriminate.
  - exfalso. apply (H 0). auto.
  - exfalso. apply (H n). auto.
Qed.
Lemma ct_is_top_spec c : ct_is_top c = true <-> (forall x, ctgamma c x).
Proof.
  destruct c; simpl; split; intros H; auto; try discriminate.
  - destruct (H 0).
  - pose proof (H n). pose proof (H (n + 1)). lia.
Qed.

Lemma ct_leq_sound a b : ct_leq a b = true -> forall x, ctgamma a x -> ctgamma b x.
Proof.
  destruct a, b; simpl; intros H x; try discriminate; auto; try contradiction.
  apply Z.eqb_eq in H. lia.
Qed.

Lemma ct_leq_complete a b : (forall x, ctgamma a x -> ctgamma b x) -> ct_leq a b = true.
Proof.
  destruct a, b; simpl; intros H; auto.
  - destruct (H 0 I).
  - pose proof (H n I). pose proof (H (n + 1) I). lia.
  - destruct (H n eq_refl).
  - apply Z.eqb_eq. apply (H n). auto.
Qed.

Lemma ct_leq_refl a : ct_leq a a = true.
Proof. apply ct_leq_complete; auto. Qed.

Lemma ct_eq_spec a b : ct_eq a b = true <-> a = b.
Proof.
  destruct a, b; simpl; split; intros H; try discriminate; auto.
  - apply Z.eqb_eq in H. congruence.
  - inversion H. apply Z.eqb_refl.
Qed.

Lemma ct_join_sound a b x : ctgamma a x \/ ctgamma b x -> ctgamma (ct_join a b) x.
Proof.
  unfold ct_join. destruct a, b; simpl; intros [H|H]; auto; try contradiction;
    destruct (Z.eqb_spec n n0); simpl; auto; lia.
Qed.

Lemma ct_join_least a b c :
  ct_leq a c = true -> ct_leq b c = true -> ct_leq (ct_join a b) c = true.
Proof.
  unfold ct_join, ct_leq. destruct a, b, c; simpl; intros H1 H2; try discriminate; auto;
    destruct (Z.eqb_spec n n0); simpl; auto; apply Z.eqb_eq in H1, H2; lia.
Qed.

Lemma ct_meet_exact a b x : ctgamma (ct_meet a b) x <-> (ctgamma a x /\ ctgamma b x).
Proof.
  unfold ct_meet. destruct a, b; simpl; try tauto.
  destruct (Z.eqb_spec n n0); simpl; lia.
Qed.

Lemma ct_widen_sound a b x : ctgamma a x \/ ctgamma b x -> ctgamma (ct_widen a b) x.
Proof. apply ct_join_sound. Qed.
Lemma ct_narrow_sound a b x : ctgamma a x -> ctgamma b x -> ctgamma (ct_narrow a b) x.
Proof. intros. apply ct_meet_exact; auto. Qed.

Lemma ct_lift_sound f a b x y : ctgamma a x -> ctgamma b y -> ctgamma (ct_lift f a b) (f x y).
Proof. destruct a, b; simpl; intros; auto; try contradiction. congruence. Qed.

Lemma ct_add_sound a b x y : ctgamma a x -> ctgamma b y -> ctgamma (ct_add a b) (x + y).
Proof. apply ct_lift_sound. Qed.
Lemma ct_sub_sound a b x y : ctgamma a x -> ctgamma b y -> ctgamma (ct_sub a b) (x - y).
Proof. apply ct_lift_sound. Qed.
Lemma ct_mul_sound a b x y : ctgamma a x -> ctgamma b y -> ctgamma (ct_mul a b) (x * y).
Proof. apply ct_lift_sound. Qed.

Lemma ct_div_zero_spec b y : ct_div_zero b = true -> ctgamma b y -> y = 0.
Proof. destruct b as [| |[| |]]; simpl; intros; try discriminate; auto. Qed.

(* the four divisions answer bottom on the divisor 0 and [f] otherwise *)
Lemma ct_div_guard b y (f : cst) r :
  ctgamma b y -> y <> 0 -> ctgamma f r -> ctgamma (if ct_div_zero b then CBot else f) r.
Proof.
  intros Hb Hy Hf. destruct (ct_div_zero b) eqn:E; auto.
  elim Hy. eapply ct_div_zero_spec; eauto.
Qed.

Lemma ct_sdiv_sound a b x y :
  ctgamma a x -> ctgamma b y -> y <> 0 -> ctgamma (ct_sdiv a b) (Z.quot x y).
Proof. intros. apply ct_div_guard with y; auto. apply ct_lift_sound; auto. Qed.

Lemma ct_srem_sound a b x y :
  ctgamma a x -> ctgamma b y -> y <> 0 -> ctgamma (ct_srem a b) (Z.rem x y).
Proof. intros. apply ct_div_guard with y; auto. apply ct_lift_sound; auto. Qed.

Lemma ct_udiv_sound a b x y (r : Z) :
  ctgamma a x -> ctgamma b y -> y <> 0 -> ctgamma (ct_udiv a b) r.
Proof. intros. apply ct_div_guard with y; simpl; auto. Qed.

Lemma ct_urem_sound a b x y (r : Z) :
  ctgamma a x -> ctgamma b y -> y <> 0 -> ctgamma (ct_urem a b) r.
Proof. intros. apply ct_div_guard with y; simpl; auto. Qed.

Lemma ct_and_sound a b x y : ctgamma a x -> ctgamma b y -> ctgamma (ct_and a b) (Z.land x y).
Proof. apply ct_lift_sound. Qed.
Lemma ct_or_sound a b x y : ctgamma a x -> ctgamma b y -> ctgamma (ct_or a b) (Z.lor x y).
Proof. apply ct_lift_sound. Qed.
Lemma ct_xor_sound a b x y : ctgamma a x -> ctgamma b y -> ctgamma (ct_xor a b) (Z.lxor x y).
Proof. apply ct_lift_sound. Qed.

Lemma shiftr_safe_eq x k : 0 <= k -> shiftr_safe x k = Z.shiftr x k.
Proof.
  intros Hk. unfold shiftr_safe.
  destruct (Z.ltb_spec (Z.log2 (Z.abs x) + 1) k) as [H|H]; auto.
  rewrite Z.shiftr_div_pow2; auto.
  assert (B : Z.abs x < 2 ^ k).
  { destruct (Z.eq_dec x 0) as [->|N]. simpl. apply Z.pow_pos_nonneg; lia.
    pose proof (Z.log2_spec (Z.abs x) ltac:(lia)) as [_ L].
    eapply Z.lt_le_trans; [exact L|]. apply Z.pow_le_mono_r; lia. }
  destruct (Z.ltb_spec x 0).
  - apply Z.div_unique with (r := x + 2 ^ k); lia.
  - symmetry. apply Z.div_small. lia.
Qed.

Lemma ct_shl_sound a b x k :
  ctgamma a x -> ctgamma b k -> 0 <= k -> ctgamma (ct_shl a b) (Z.shiftl x k).
Proof.
  destruct a, b; simpl; intros; auto; try contradiction. subst.
  destruct (Z.leb_spec 0 n0); simpl; auto. rewrite Z.shiftl_mul_pow2; auto.
Qed.

Lemma ct_ashr_sound a b x k :
  ctgamma a x -> ctgamma b k -> 0 <= k -> ctgamma (ct_ashr a b) (Z.shiftr x k).
Proof.
  destruct a, b; simpl; intros; auto; try contradiction. subst.
  destruct (Z.leb_spec 0 n0); simpl; auto. rewrite shiftr_safe_eq; auto.
Qed.

Lemma ct_lshr_sound a b x k :
  ctgamma a x -> ctgamma b k -> 0 <= k ->
  forall r, (0 <= x -> r = Z.shiftr x k) -> ctgamma (ct_lshr a b) r.
Proof.
  destruct a, b; simpl; intros Ha Hb Hk r Hr; auto; try contradiction. subst.
  destruct (Z.leb_spec 0 n); simpl; auto.
  destruct (Z.leb_spec 0 n0); simpl; auto. rewrite shiftr_safe_eq; auto.
Qed.

Example ct_sdiv_example : ctgamma (ct_sdiv (CVal (-7)) (CVal 2)) (-3) /\ ct_sdiv CTop (CVal 0) = CBot.
Proof. split; reflexivity. Qed.
