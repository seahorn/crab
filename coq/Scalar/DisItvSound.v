(* DisItvSound.v — concretisation of disjunctive intervals (finite unions of intervals) and
   soundness of every operation of DisItv.v. *)
From Coq Require Import ZArith Lia Bool List.
From CrabV Require Import Base.ZInf Scalar.Itv Scalar.ItvSound Scalar.DisItv.
Import ListNotations.
Local Open Scope Z_scope.

Definition lgamma (l : list itv) (x : Z) : Prop := exists i, In i l /\ gamma i x.

Definition dgamma (d : di) (x : Z) : Prop :=
  match d with DBot => False | DTop => True | DFin l => lgamma l x end.

Lemma dgamma_bot x : ~ dgamma DBot x.
Proof. simpl; auto. Qed.
Lemma dgamma_top x : dgamma DTop x.
Proof. simpl; auto. Qed.

(* lists produced by normalize(): non-empty intervals with non-decreasing bounds *)
Fixpoint sorted2 (l : list itv) : Prop :=
  match l with
  | [] => True
  | a :: r => is_bot a = false /\
              match r with
              | [] => True
              | b :: _ => ble (lb a) (lb b) = true /\ ble (ub a) (ub b) = true
              end /\ sorted2 r
  end.

(* representation invariant of the FINITE state (one interval: anything) *)
Definition dwf (d : di) : Prop :=
  match d with DFin (a :: b :: r) => sorted2 (a :: b :: r) | _ => True end.

Lemma lgamma_nil x : ~ lgamma [] x.
Proof. intros [i [H _]]. destruct H. Qed.
Lemma lgamma_cons a l x : lgamma (a :: l) x <-> (gamma a x \/ lgamma l x).
Proof.
  unfold lgamma; split.
  - intros [i [[H|H] G]]; [subst; auto | right; eauto].
  - intros [G|[i [H G]]]; [exists a | exists i]; simpl; auto.
Qed.
Lemma lgamma_app l1 l2 x : lgamma (l1 ++ l2) x <-> (lgamma l1 x \/ lgamma l2 x).
Proof.
  unfold lgamma; split.
  - intros [i [H G]]. apply in_app_or in H. destruct H; [left | right]; eauto.
  - intros [[i [H G]]|[i [H G]]]; exists i; split; auto; apply in_or_app; auto.
Qed.
Lemma lgamma_rev l x : lgamma (rev l) x <-> lgamma l x.
Proof. unfold lgamma; split; intros [i [H G]]; exists i; split; auto; apply in_rev; auto.
  rewrite rev_involutive; auto. Qed.
Lemma lgamma_incl l1 l2 x : incl l1 l2 -> lgamma l1 x -> lgamma l2 x.
Proof. intros I [i [H G]]. exists i; auto. Qed.

Lemma ijoin_hull a z x :
  is_bot a = false -> is_bot z = false ->
  ble (lb a) (Fin x) = true -> ble (Fin x) (ub z) = true -> gamma (ijoin a z) x.
Proof.
  intros Ba Bz H1 H2. unfold ijoin. rewrite Ba, Bz. apply gamma_imk.
  split; [apply bmin_or; left|apply bmax_or; right]; assumption.
Qed.

Lemma last_cons_indep : forall (r : list itv) b d d', last (b :: r) d = last (b :: r) d'.
Proof. induction r as [|c r IH]; intros; [reflexivity|]. apply (IH c d d'). Qed.

Lemma sorted2_bounds : forall r a i,
  sorted2 (a :: r) -> In i (a :: r) ->
  ble (lb a) (lb i) = true /\ ble (ub i) (ub (last (a :: r) a)) = true /\
  is_bot (last (a :: r) a) = false.
Proof.
  induction r as [|b r IH]; intros a i S H.
  - destruct H as [H|[]]. subst. simpl. repeat split; try apply ble_refl. apply S.
  - destruct S as (Ba & (L & U) & S').
    destruct H as [H|H].
    + subst. destruct (IH b b S' (or_introl eq_refl)) as (_ & U' & B').
      change (last (i :: b :: r) i) with (last (b :: r) i).
      rewrite (last_cons_indep r b i b).
      repeat split; auto. apply ble_refl. eapply ble_trans; eauto.
    + destruct (IH b i S' H) as (L' & U' & B').
      change (last (a :: b :: r) a) with (last (b :: r) a).
      rewrite (last_cons_indep r b a b).
      repeat split; auto. eapply ble_trans; eauto.
Qed.

Lemma approx_sound l x : dwf (DFin l) -> lgamma l x -> gamma (approx_list l) x.
Proof.
  destruct l as [|a [|b r]]; intros S G.
  - elim (lgamma_nil _ G).
  - destruct G as [i [[H|[]] G]]. subst. auto.
  - destruct G as [i [H G]].
    destruct (sorted2_bounds (b :: r) a i S H) as (L & U & B).
    destruct G as [G1 G2].
    change (approx_list (a :: b :: r)) with (ijoin a (last (a :: b :: r) a)).
    apply ijoin_hull; auto. apply S.
    eapply ble_trans; eauto. eapply ble_trans; eauto.
Qed.

Fixpoint lbs (l : list itv) : Prop :=
  match l with
  | [] => True
  | a :: r => (forall i, In i r -> ble (lb a) (lb i) = true) /\ lbs r
  end.

Lemma insert_lb_in x l i : In i (insert_lb x l) <-> (i = x \/ In i l).
Proof.
  induction l as [|y r IH]; simpl. { split; intros [H|[]]; auto. }
  destruct (lb_lt y x); simpl. { rewrite IH. split; intros [H|[H|H]]; auto. }
  split; (intros [H|H]; [left; symmetry; exact H|right; exact H]).
Qed.
Lemma sort_lb_in l i : In i (sort_lb l) <-> In i l.
Proof. induction l; simpl. tauto. rewrite insert_lb_in, IHl. intuition. Qed.
Lemma insert_lb_length x l : length (insert_lb x l) = S (length l).
Proof. induction l as [|y r IH]; simpl; auto. destruct (lb_lt y x); simpl; auto. Qed.
Lemma sort_lb_length l : length (sort_lb l) = length l.
Proof. induction l; simpl; auto. rewrite insert_lb_length; auto. Qed.

Lemma lb_lt_false a b : lb_lt a b = false -> ble (lb b) (lb a) = true.
Proof.
  unfold lb_lt. intros H. apply andb_false_iff in H. destruct H as [H|H].
  - apply ble_false_flip; auto.
  - apply negb_false_iff in H. apply beqb_eq in H. rewrite H. apply ble_refl.
Qed.
Lemma lb_lt_true a b : lb_lt a b = true -> ble (lb a) (lb b) = true.
Proof. unfold lb_lt. intros H. apply andb_true_iff in H. tauto. Qed.

Lemma insert_lb_sorted x l : lbs l -> lbs (insert_lb x l).
Proof.
  induction l as [|y r IH]; simpl; intros S. { split; [intros i []|exact I]. }
  destruct S as [S1 S2]. destruct (lb_lt y x) eqn:E; simpl.
  - split; auto. intros i H. apply insert_lb_in in H. destruct H as [->|H]; auto.
    apply lb_lt_true; auto.
  - apply lb_lt_false in E. split; [|split; auto].
    intros i [->|H]; auto. eapply ble_trans; eauto.
Qed.
Lemma sort_lb_sorted l : lbs (sort_lb l).
Proof. induction l; simpl; auto. apply insert_lb_sorted; auto. Qed.

Fixpoint count_bot (l : list itv) : nat :=
  match l with [] => O | a :: r => (if is_bot a then 1 else 0) + count_bot r end.
Lemma count_bot_le l : (count_bot l <= length l)%nat.
Proof. induction l; simpl; auto. destruct (is_bot a); simpl; lia. Qed.
Lemma count_bot_all l i : count_bot l = length l -> In i l -> is_bot i = true.
Proof.
  induction l as [|a r IH]; simpl; intros E H. destruct H.
  pose proof (count_bot_le r). destruct (is_bot a) eqn:B; simpl in E; [|lia].
  destruct H as [->|H]; auto.
Qed.

(* reversed result vectors: every interval is non-empty and dominated (in both bounds) by
   the ones pushed after it *)
Fixpoint rs (res : list itv) : Prop :=
  match res with
  | [] => True
  | q :: r => is_bot q = false /\
              (forall p, In p r -> ble (lb p) (lb q) = true /\ ble (ub p) (ub q) = true) /\ rs r
  end.

Lemma sorted2_snoc l q :
  sorted2 l -> is_bot q = false ->
  (forall p, In p l -> ble (lb p) (lb q) = true /\ ble (ub p) (ub q) = true) ->
  sorted2 (l ++ [q]).
Proof.
  induction l as [|a r IH]; simpl; intros S B H. auto.
  destruct S as (Ba & Adj & S'). split; auto. split.
  - destruct r as [|b r']; simpl. apply H; auto. auto.
  - apply IH; auto.
Qed.

Lemma rs_sorted2 res : rs res -> sorted2 (rev res).
Proof.
  induction res as [|q r IH]; simpl; intros R. auto.
  destruct R as (B & D & R'). apply sorted2_snoc; auto.
  intros p H. apply D. apply in_rev; auto.
Qed.

Lemma hull_ordered a b :
  is_bot b = false -> ble (bmin (lb a) (lb b)) (bmax (ub a) (ub b)) = true.
Proof.
  intros B. eapply ble_trans; [apply bmin_le_r|]. eapply ble_trans; [|apply bmax_ge_r].
  apply is_bot_false_ble; auto.
Qed.

Lemma ijoin_nonbot a b : is_bot b = false -> is_bot (ijoin a b) = false.
Proof.
  intros B. unfold ijoin. destruct (is_bot a); auto. rewrite B.
  unfold imk, is_bot, bgt. rewrite (hull_ordered a b B). simpl. rewrite (hull_ordered a b B).
  reflexivity.
Qed.

Lemma ijoin_bounds a b :
  is_bot a = false -> is_bot b = false ->
  lb (ijoin a b) = bmin (lb a) (lb b) /\ ub (ijoin a b) = bmax (ub a) (ub b).
Proof.
  intros A B. unfold ijoin, imk, bgt. rewrite A, B, (hull_ordered a b B). auto.
Qed.

Lemma no_overlap_ub p i :
  is_bot p = false -> is_bot i = false -> ble (lb p) (lb i) = true -> overlap p i = false ->
  ble (ub p) (ub i) = true.
Proof.
  intros Bp Bi L O. unfold overlap in O. apply negb_false_iff in O.
  unfold imeet in O. rewrite Bp, Bi in O. simpl in O.
  destruct (ble (ub p) (ub i)) eqn:U; auto. exfalso.
  unfold bmax in O. rewrite L in O. unfold bmin in O. rewrite U in O.
  unfold imk, bgt in O. rewrite (is_bot_false_ble _ Bi) in O. simpl in O.
  unfold is_bot, bgt in O. simpl in O. rewrite (is_bot_false_ble _ Bi) in O. discriminate.
Qed.

(* the result vector once the caller of merge_back has pushed the merged interval, or
   skipped it *)
Definition pushed (m : list itv * itv * itv * bool) : list itv :=
  let '(res1, intv1, _, sk) := m in if sk then res1 else intv1 :: res1.

Lemma merge_back_sound : forall res intv prev x,
  lgamma res x \/ gamma intv x -> lgamma (pushed (merge_back res intv prev)) x.
Proof.
  induction res as [|p r IH]; intros intv prev x G; simpl.
  - apply lgamma_cons. tauto.
  - destruct (overlap p intv || are_consecutive p intv).
    + apply IH. rewrite lgamma_cons in G.
      destruct G as [[G|G]|G]; auto using ijoin_sound_l, ijoin_sound_r.
    + destruct (ileq intv p) eqn:LE; simpl; rewrite !lgamma_cons in *; [|tauto].
      destruct G as [G|G]; auto. left. apply (ileq_sound _ _ LE), G.
Qed.

Lemma merge_back_shape : forall res intv prev,
  let '(res1, _, prev1, sk) := merge_back res intv prev in
  incl res1 res /\ (sk = true -> In prev1 res1).
Proof.
  induction res as [|p r IH]; intros intv prev; simpl.
  - split; [apply incl_refl|discriminate].
  - destruct (overlap p intv || are_consecutive p intv).
    + specialize (IH (ijoin p intv) p). destruct (merge_back r _ _) as [[[res1 ?] prev1] sk].
      destruct IH; auto using incl_tl.
    + destruct (ileq intv p); (split; [apply incl_refl|]); [left; auto|discriminate].
Qed.

Lemma merge_back_rs : forall res intv prev,
  rs res -> is_bot intv = false -> (forall p, In p res -> ble (lb p) (lb intv) = true) ->
  rs (pushed (merge_back res intv prev)) /\
  (forall p, In p (pushed (merge_back res intv prev)) -> ble (lb p) (lb intv) = true).
Proof.
  induction res as [|p r IH]; intros intv prev R Bi L; simpl.
  - split; [simpl; intuition|]. intros p [<-|[]]. apply ble_refl.
  - destruct R as (Bp & D & R').
    pose proof (L p (or_introl eq_refl)) as Lp.
    destruct (overlap p intv || are_consecutive p intv) eqn:OC.
    + destruct (ijoin_bounds p intv Bp Bi) as [EL _].
      destruct (IH (ijoin p intv) p R' (ijoin_nonbot p intv Bi)) as [R1 L1].
      { intros q Hq. rewrite EL. apply bmin_glb. apply D; auto. apply L; right; auto. }
      split; auto. intros q Hq. eapply ble_trans; [apply L1, Hq|]. rewrite EL. apply bmin_le_r.
    + apply orb_false_iff in OC. destruct OC as [O _].
      destruct (ileq intv p); [split; [simpl; auto|exact L]|].
      pose proof (no_overlap_ub p intv Bp Bi Lp O) as Up.
      split; [|intros q [<-|Hq]; auto; apply ble_refl].
      split; [exact Bi|]. split; [|simpl; auto].
      intros q Hq. split; [apply L, Hq|]. destruct Hq as [<-|Hq]; auto.
      eapply ble_trans; [apply D, Hq|exact Up].
Qed.

Lemma ieq_itop i : ieq itop i = true -> is_top i = true.
Proof.
  unfold ieq, is_top. simpl. intros H. apply andb_true_iff in H. destruct H as [H1 H2].
  destruct (lb i), (ub i); simpl in *; try discriminate; auto.
Qed.

Lemma norm_loop_bottoms : forall l res prev b out b',
  norm_loop l res prev b = Some (out, b') -> b' = (b + count_bot l)%nat.
Proof.
  induction l as [|i tl IH]; simpl; intros res prev b out b' H.
  - inversion H. lia.
  - destruct (is_bot i). { apply IH in H. lia. }
    destruct (is_top i); [discriminate|].
    destruct (ieq prev i). { apply IH in H. lia. }
    destruct (if is_top prev then _ else _) as [[[res1 i1] p1] sk].
    destruct sk; [|destruct (is_top i1); [discriminate|]]; apply IH in H; lia.
Qed.

Lemma norm_loop_spec : forall l res prev b out b',
  norm_loop l res prev b = Some (out, b') ->
  lbs l -> rs res -> ((prev = itop /\ res = []) \/ In prev res) ->
  (forall p, In p res -> is_top p = false) ->
  (forall p i, In p res -> In i l -> ble (lb p) (lb i) = true) ->
  sorted2 out /\ (forall x, lgamma l x \/ lgamma res x -> lgamma out x).
Proof.
  induction l as [|intv tl IH]; intros res prev b out b' H S R P NT O; simpl in H.
  - inversion H; subst. split; [apply rs_sorted2; auto|].
    intros x [G|G]. elim (lgamma_nil _ G). apply lgamma_rev; auto.
  - destruct S as [S1 S2].
    assert (O' : forall p i, In p res -> In i tl -> ble (lb p) (lb i) = true).
    { intros p i Hp Hi. apply O; auto. right; auto. }
    destruct (is_bot intv) eqn:Bi.
    { destruct (IH _ _ _ _ _ H) as [H1 H2]; auto. split; auto.
      intros x [G|G]; apply H2; auto. apply lgamma_cons in G. destruct G as [G|G]; auto.
      elim (is_bot_gamma_empty _ _ Bi G). }
    destruct (is_top intv) eqn:Ti; [discriminate|].
    destruct (ieq prev intv) eqn:Eq.
    { destruct (IH _ _ _ _ _ H) as [H1 H2]; auto. split; auto.
      intros x [G|G]; apply H2; auto. apply lgamma_cons in G. destruct G as [G|G]; auto.
      right. destruct P as [[-> _]|P].
      - apply ieq_itop in Eq. congruence.
      - exists prev. split; auto. apply (ieq_sound _ _ Eq); auto. }
    (* while prev is top the result vector is empty, where merge_back does nothing *)
    assert (MB : (if is_top prev then (res, intv, prev, false) else merge_back res intv prev)
                 = merge_back res intv prev).
    { destruct (is_top prev) eqn:TP; auto.
      destruct P as [[-> ->]|P]; [reflexivity|rewrite (NT _ P) in TP; discriminate]. }
    rewrite MB in H. clear MB.
    pose proof (merge_back_sound res intv prev) as Snd.
    pose proof (merge_back_shape res intv prev) as Sh.
    destruct (merge_back_rs res intv prev R Bi) as [R1 L1].
    { intros p Hp. apply O; auto. left; auto. }
    destruct (merge_back res intv prev) as [[[res1 intv1] prev1] sk].
    destruct Sh as [I1 Pr]. simpl in Snd, R1, L1.
    assert (O1 : forall p i, In p (if sk then res1 else intv1 :: res1) -> In i tl ->
                             ble (lb p) (lb i) = true).
    { intros p i Hp Hi. eapply ble_trans; [apply L1, Hp|apply S1, Hi]. }
    assert (NT1 : forall p, In p res1 -> is_top p = false) by (intros p Hp; apply NT, I1, Hp).
    assert (G1 : forall x, lgamma (intv :: tl) x \/ lgamma res x ->
                           lgamma tl x \/ lgamma (if sk then res1 else intv1 :: res1) x).
    { intros x G. rewrite lgamma_cons in G. destruct G as [[G|G]|G]; auto. }
    destruct sk.
    + destruct (IH _ _ _ _ _ H S2 R1 (or_intror (Pr eq_refl)) NT1 O1) as [H1 H2]. auto.
    + destruct (is_top intv1) eqn:T1; [discriminate|].
      destruct (IH _ _ _ _ _ H S2 R1 (or_intror (or_introl eq_refl))) as [H1 H2]; auto.
      intros p [<-|Hp]; auto.
Qed.

Lemma normalize_spec l res isbot :
  normalize l = (res, isbot) ->
  dwf (DFin res) /\
  (forall x, lgamma l x -> isbot = false /\ (res = [] \/ lgamma res x)).
Proof.
  unfold normalize. destruct l as [|a [|b r]].
  - intros H; inversion H; subst. split; simpl; auto.
  - intros H; inversion H; subst. split; simpl; auto.
  - set (l := a :: b :: r).
    destruct (norm_loop (sort_lb l) [] itop 0) as [[out bt]|] eqn:N.
    + intros H. injection H as <- <-.
      pose proof (norm_loop_bottoms _ _ _ _ _ _ N) as N3.
      apply norm_loop_spec in N.
      * destruct N as (N1 & N2). split.
        { destruct out as [|c [|d t]]; simpl; auto. }
        intros x [i [Hi G]].
        assert (G' : lgamma (sort_lb l) x) by (exists i; split; auto; apply sort_lb_in; auto).
        split; [|right; apply N2; auto].
        apply Nat.eqb_neq. intros E.
        assert (E' : count_bot (sort_lb l) = length (sort_lb l)).
        { rewrite sort_lb_length. transitivity bt. rewrite N3; reflexivity. exact E. }
        apply (is_bot_gamma_empty i x); auto.
        apply (count_bot_all (sort_lb l)); auto. apply sort_lb_in; auto.
      * apply sort_lb_sorted.
      * exact I.
      * left; auto.
      * intros p [].
      * intros p i [].
    + intros H; inversion H; subst. split; simpl; auto.
Qed.

Lemma di_of_list_sound l x : lgamma l x -> dgamma (di_of_list l) x.
Proof.
  intros G. unfold di_of_list. destruct (normalize l) as [res isbot] eqn:N.
  destruct (normalize_spec _ _ _ N) as [S H]. destruct (H x G) as [-> [->|G']]. simpl; auto.
  destruct res as [|c t]. elim (lgamma_nil _ G').
  destruct (Nat.leb _ _); simpl; auto.
  exists (approx_list (c :: t)). split; [left; auto|]. apply approx_sound; auto.
Qed.

Lemma di_of_list_wf l : dwf (di_of_list l).
Proof.
  unfold di_of_list. destruct (normalize l) as [res isbot] eqn:N.
  destruct (normalize_spec _ _ _ N) as [S _]. destruct isbot; [exact I|].
  destruct res as [|c t]; [exact I|]. destruct (Nat.leb _ _); [exact I|exact S].
Qed.

Lemma di_of_itv_sound i x : gamma i x -> dgamma (di_of_itv i) x.
Proof.
  intros G. unfold di_of_itv. destruct (is_top i); simpl; auto.
  rewrite (gamma_not_bot _ _ G). exists i; simpl; auto.
Qed.
Lemma di_of_itv_exact i x : wf i -> dgamma (di_of_itv i) x -> gamma i x.
Proof.
  intros W. unfold di_of_itv. destruct (is_top i) eqn:T.
  - intros _. apply is_top_gamma; auto.
  - destruct (is_bot i); simpl. tauto. intros [j [[<-|[]] G]]; auto.
Qed.
Lemma di_of_itv_wf i : dwf (di_of_itv i).
Proof. unfold di_of_itv. destruct (is_top i); simpl; auto. destruct (is_bot i); simpl; auto. Qed.

Lemma di_approx_sound d x : dwf d -> dgamma d x -> gamma (di_approx d) x.
Proof.
  destruct d as [| |l]; simpl; intros W G. contradiction. apply gamma_top.
  apply approx_sound; auto.
Qed.

Lemma di_singleton_sound d n x : dwf d -> di_singleton d = Some n -> dgamma d x -> x = n.
Proof.
  unfold di_singleton. intros W S G. apply (isingleton_spec _ _ S). apply di_approx_sound; auto.
Qed.

Lemma leq_skip_spec a l2 :
  match leq_skip a l2 with
  | [] => True
  | b :: r => ileq a b = true /\ incl (b :: r) l2
  end.
Proof.
  induction l2 as [|b r IH]; simpl; auto.
  destruct (ileq a b) eqn:E. split; auto. apply incl_refl.
  destruct (leq_skip a r) as [|c t]; auto. destruct IH as [H1 H2]. split; auto.
  apply incl_tl; auto.
Qed.

Lemma leq_loop_sound : forall l1 l2, leq_loop l1 l2 = true -> forall x, lgamma l1 x -> lgamma l2 x.
Proof.
  induction l1 as [|a r IH]; intros l2 H x G. elim (lgamma_nil _ G).
  simpl in H. pose proof (leq_skip_spec a l2) as K.
  destruct (leq_skip a l2) as [|b t]; [discriminate|]. destruct K as [K1 K2].
  apply lgamma_cons in G. destruct G as [G|G].
  - exists b. split. apply K2; left; auto. apply (ileq_sound _ _ K1); auto.
  - apply (lgamma_incl (b :: t)); auto.
Qed.

Lemma di_leq_sound a b : di_leq a b = true -> forall x, dgamma a x -> dgamma b x.
Proof.
  destruct a as [| |l1], b as [| |l2]; simpl; intros H x G; try discriminate; auto; try contradiction.
  eapply leq_loop_sound; eauto.
Qed.

Lemma leq_skip_suffix a r : forall pre, exists pre', leq_skip a (pre ++ a :: r) = pre' ++ a :: r.
Proof.
  induction pre as [|b p IH]; simpl.
  - rewrite ileq_refl. exists []. reflexivity.
  - destruct (ileq a b). exists (b :: p). reflexivity. exact IH.
Qed.

Lemma leq_loop_suffix : forall l pre, leq_loop l (pre ++ l) = true.
Proof.
  induction l as [|a r IH]; intros pre; simpl; auto.
  destruct (leq_skip_suffix a r pre) as [pre' E]. rewrite E.
  destruct (pre' ++ a :: r) as [|c t] eqn:E2.
  - destruct pre'; discriminate.
  - rewrite <- E2. replace (pre' ++ a :: r) with ((pre' ++ [a]) ++ r). apply IH.
    rewrite <- app_assoc. reflexivity.
Qed.

Lemma di_leq_refl a : di_leq a a = true.
Proof. destruct a as [| |l]; simpl; auto. apply (leq_loop_suffix l []). Qed.

Lemma list_eq_sound : forall l1 l2, list_eq l1 l2 = true -> forall x, lgamma l1 x <-> lgamma l2 x.
Proof.
  induction l1 as [|a r IH]; destruct l2 as [|b t]; simpl; intros H x; try discriminate. tauto.
  apply andb_true_iff in H. destruct H as [H1 H2].
  rewrite !lgamma_cons, (ieq_sound _ _ H1 x), (IH _ H2 x). tauto.
Qed.

Lemma di_eq_sound a b : di_eq a b = true -> forall x, dgamma a x <-> dgamma b x.
Proof.
  destruct a as [| |l1], b as [| |l2]; simpl; intros H x; try discriminate; try tauto.
  apply list_eq_sound; auto.
Qed.

Lemma collect_spec : forall l acc,
  match collect l acc with
  | None => True
  | Some res => forall x, lgamma l x \/ lgamma acc x -> lgamma res x
  end.
Proof.
  induction l as [|i r IH]; intros acc; simpl.
  - intros x [G|G]. elim (lgamma_nil _ G). apply lgamma_rev; auto.
  - destruct (is_bot i) eqn:B.
    + specialize (IH acc). destruct (collect r acc); auto. intros x [G|G]; apply IH; auto.
      apply lgamma_cons in G. destruct G as [G|G]; auto. elim (is_bot_gamma_empty _ _ B G).
    + destruct (is_top i); auto.
      specialize (IH (i :: acc)). destruct (collect r (i :: acc)); auto.
      intros x G. apply IH. rewrite lgamma_cons in *. tauto.
Qed.

Lemma di_collect_sound l x : lgamma l x -> dgamma (di_collect l) x.
Proof.
  intros G. unfold di_collect. pose proof (collect_spec l []) as K.
  destruct (collect l []) as [res|]; simpl; auto.
  assert (G' : lgamma res x) by (apply K; auto).
  destruct res. elim (lgamma_nil _ G'). apply di_of_list_sound; auto.
Qed.

Lemma di_collect_wf l : dwf (di_collect l).
Proof.
  unfold di_collect. destruct (collect l []) as [[|a r]|]; simpl; auto. apply di_of_list_wf.
Qed.

Lemma pairwise_in (f : itv -> itv -> itv) l1 l2 a b :
  In a l1 -> In b l2 -> In (f a b) (pairwise f l1 l2).
Proof.
  intros Ha Hb. unfold pairwise. apply in_flat_map. exists a. split; auto.
  apply in_map_iff. exists b; auto.
Qed.

Lemma di_binop_sound op sc x y u v r :
  (forall a b, gamma a u -> gamma b v -> gamma (op a b) r) ->
  dgamma x u -> dgamma y v -> dgamma (di_binop op sc x y) r.
Proof.
  intros F Gx Gy.
  destruct x as [| |l1], y as [| |l2]; simpl in *; auto; try contradiction.
  - destruct sc; simpl; auto. apply di_collect_sound.
    destruct Gy as [b [Hb Gb]]. exists (op itop b). split.
    apply in_map_iff. exists b; auto. apply F; auto. apply gamma_top.
  - destruct sc; simpl; auto. apply di_collect_sound.
    destruct Gx as [a [Ha Ga]]. exists (op a itop). split.
    apply in_map_iff. exists a; auto. apply F; auto. apply gamma_top.
  - apply di_collect_sound.
    destruct Gx as [a [Ha Ga]]. destruct Gy as [b [Hb Gb]].
    exists (op a b). split. apply pairwise_in; auto. apply F; auto.
Qed.

Lemma di_unop_sound op x u r :
  (forall a, gamma a u -> gamma (op a) r) -> dgamma x u -> dgamma (di_unop op x) r.
Proof.
  intros F G. destruct x as [| |l]; simpl in *; auto.
  apply di_collect_sound. destruct G as [a [Ha Ga]]. exists (op a). split; auto.
  apply in_map_iff. exists a; auto.
Qed.

Lemma di_binop_wf op sc x y : dwf (di_binop op sc x y).
Proof.
  destruct x as [| |l1], y as [| |l2]; simpl; auto; try destruct sc; simpl; auto;
    apply di_collect_wf.
Qed.
Lemma di_unop_wf op x : dwf (di_unop op x).
Proof. destruct x; simpl; auto. apply di_collect_wf. Qed.

Lemma di_add_sound x y u v : dgamma x u -> dgamma y v -> dgamma (di_add x y) (u + v).
Proof. intros. apply (di_binop_sound iadd true x y u v); auto using iadd_sound. Qed.
Lemma di_sub_sound x y u v : dgamma x u -> dgamma y v -> dgamma (di_sub x y) (u - v).
Proof. intros. apply (di_binop_sound isub true x y u v); auto using isub_sound. Qed.
Lemma di_mul_sound x y u v : dgamma x u -> dgamma y v -> dgamma (di_mul x y) (u * v).
Proof. intros. apply (di_binop_sound imul true x y u v); auto using imul_sound. Qed.
Lemma di_div_sound x y u v : dgamma x u -> dgamma y v -> v <> 0 -> dgamma (di_div x y) (Z.quot u v).
Proof. intros. apply (di_binop_sound idiv false x y u v); auto using idiv_sound. Qed.
Lemma di_srem_sound x y u v : dgamma x u -> dgamma y v -> v <> 0 -> dgamma (di_srem x y) (Z.rem u v).
Proof. intros. apply (di_binop_sound isrem false x y u v); auto using isrem_sound. Qed.
Lemma di_udiv_sound x y u v (r : Z) : dgamma x u -> dgamma y v -> dgamma (di_udiv x y) r.
Proof. intros. apply (di_binop_sound iudiv false x y u v); eauto using iudiv_sound. Qed.
Lemma di_urem_sound x y u u' v :
  dgamma x u -> dgamma y v -> 0 < v -> 0 <= u' -> (u' = u \/ u < 0) -> dgamma (di_urem x y) (Z.rem u' v).
Proof. intros. apply (di_binop_sound iurem false x y u v); eauto using iurem_sound. Qed.
Lemma di_and_sound x y u v : dgamma x u -> dgamma y v -> dgamma (di_and x y) (Z.land u v).
Proof. intros. apply (di_binop_sound iand false x y u v); auto using iand_sound. Qed.
Lemma di_or_sound x y u v : dgamma x u -> dgamma y v -> dgamma (di_or x y) (Z.lor u v).
Proof. intros. apply (di_binop_sound ior false x y u v); auto using ior_sound. Qed.
Lemma di_xor_sound x y u v : dgamma x u -> dgamma y v -> dgamma (di_xor x y) (Z.lxor u v).
Proof. intros. apply (di_binop_sound ixor false x y u v); auto using ixor_sound. Qed.
Lemma di_shl_sound x y u k : dgamma x u -> dgamma y k -> 0 <= k -> dgamma (di_shl x y) (Z.shiftl u k).
Proof. intros. apply (di_binop_sound ishl false x y u k); auto using ishl_sound. Qed.
Lemma di_ashr_sound x y u k : dgamma x u -> dgamma y k -> 0 <= k -> dgamma (di_ashr x y) (Z.shiftr u k).
Proof. intros. apply (di_binop_sound iashr false x y u k); auto using iashr_sound. Qed.
Lemma di_lshr_sound x y u k :
  dgamma x u -> dgamma y k -> 0 <= k -> forall r, (0 <= u -> r = Z.shiftr u k) -> dgamma (di_lshr x y) r.
Proof. intros. apply (di_binop_sound ilshr false x y u k); eauto using ilshr_sound. Qed.
Lemma di_neg_sound x u : dgamma x u -> dgamma (di_neg x) (- u).
Proof. intros. apply (di_unop_sound ineg x u); auto using ineg_sound. Qed.
Lemma di_lower_half_sound x u w : dgamma x u -> w <= u -> dgamma (di_lower_half x) w.
Proof. intros. apply (di_unop_sound ilower_half x u); eauto using ilower_half_sound. Qed.
Lemma di_upper_half_sound x u w : dgamma x u -> u <= w -> dgamma (di_upper_half x) w.
Proof. intros. apply (di_unop_sound iupper_half x u); eauto using iupper_half_sound. Qed.

Lemma join_loop_nil_l l2 res : join_loop [] l2 res = Some (res, [], l2).
Proof. destruct l2; reflexivity. Qed.
Lemma join_loop_nil_r a r1 res : join_loop (a :: r1) [] res = Some (res, a :: r1, []).
Proof. reflexivity. Qed.
Lemma join_loop_eq a r1 b r2 res :
  join_loop (a :: r1) (b :: r2) res =
  if is_top a || is_top b then None
  else if is_bot a then join_loop r1 (b :: r2) res
  else if is_bot b then join_loop (a :: r1) r2 res
  else if ieq a b then join_loop r1 r2 (a :: res)
  else if ileq a b then join_loop r1 r2 (b :: res)
  else if ileq b a then join_loop r1 r2 (a :: res)
  else if overlap a b || are_consecutive a b then join_loop r1 r2 (ijoin a b :: res)
  else if is_on_left a b then join_loop r1 (b :: r2) (a :: res)
  else join_loop (a :: r1) r2 (b :: res).
Proof. reflexivity. Qed.

Definition join_loop_post (l1 l2 res : list itv) (o : option (list itv * list itv * list itv)) : Prop :=
  match o with
  | None => True
  | Some (res', r1, r2) =>
    forall x, lgamma l1 x \/ lgamma l2 x \/ lgamma res x ->
              lgamma res' x \/ lgamma r1 x \/ lgamma r2 x
  end.

Lemma join_loop_post_weaken l1 l2 res l1' l2' res' o :
  (forall x, lgamma l1 x \/ lgamma l2 x \/ lgamma res x ->
             lgamma l1' x \/ lgamma l2' x \/ lgamma res' x) ->
  join_loop_post l1' l2' res' o -> join_loop_post l1 l2 res o.
Proof.
  unfold join_loop_post. destruct o as [[[r a] b]|]; auto.
Qed.

Lemma join_loop_spec : forall l1 l2 res, join_loop_post l1 l2 res (join_loop l1 l2 res).
Proof.
  induction l1 as [|a r1 IH1]; intros l2.
  - intros res. rewrite join_loop_nil_l. simpl. tauto.
  - induction l2 as [|b r2 IH2]; intros res.
    + rewrite join_loop_nil_r. simpl. tauto.
    + rewrite join_loop_eq.
      destruct (is_top a || is_top b). exact I.
      destruct (is_bot a) eqn:Ba.
      { eapply join_loop_post_weaken; [|apply IH1]. intros x. rewrite (lgamma_cons a).
        intros [[G|G]|G]; auto. elim (is_bot_gamma_empty _ _ Ba G). }
      destruct (is_bot b) eqn:Bb.
      { eapply join_loop_post_weaken; [|apply IH2]. intros x. rewrite (lgamma_cons b).
        intros [G|[[G|G]|G]]; auto. elim (is_bot_gamma_empty _ _ Bb G). }
      (* the heads a and b move to the result, as they are or joined; the tails stay *)
      assert (K : forall l1' l2' c,
                (forall x, gamma a x -> lgamma l1' x \/ lgamma l2' x \/ gamma c x) ->
                (forall x, gamma b x -> lgamma l1' x \/ lgamma l2' x \/ gamma c x) ->
                incl r1 l1' -> incl r2 l2' ->
                forall o, join_loop_post l1' l2' (c :: res) o ->
                          join_loop_post (a :: r1) (b :: r2) res o).
      { intros l1' l2' c Ha Hb I1 I2 o. apply join_loop_post_weaken.
        intros x. rewrite !lgamma_cons.
        intros [[G|G]|[[G|G]|G]]; eauto using lgamma_incl;
          [destruct (Ha x G) as [|[|]]|destruct (Hb x G) as [|[|]]]; auto. }
      pose proof (incl_refl r1). pose proof (incl_refl r2).
      destruct (ieq a b) eqn:E.
      { apply (K r1 r2 a); auto. intros x G. apply (ieq_sound _ _ E x) in G. auto. }
      destruct (ileq a b) eqn:L1.
      { apply (K r1 r2 b); auto. intros x G. apply (ileq_sound _ _ L1 x) in G. auto. }
      destruct (ileq b a) eqn:L2.
      { apply (K r1 r2 a); auto. intros x G. apply (ileq_sound _ _ L2 x) in G. auto. }
      destruct (overlap a b || are_consecutive a b).
      { apply (K r1 r2 (ijoin a b)); auto using ijoin_sound_l, ijoin_sound_r. }
      destruct (is_on_left a b).
      { apply (K r1 (b :: r2) a); auto using incl_tl. intros x G. right. left. exists b. simpl; auto. }
      apply (K (a :: r1) r2 b); auto using incl_tl. intros x G. left. exists a. simpl; auto.
Qed.

Lemma join_rest_sound : forall rest res x,
  lgamma rest x \/ lgamma res x -> lgamma (join_rest rest res) x.
Proof.
  induction rest as [|i tl IH]; intros res x G; simpl.
  - destruct G as [G|G]; auto. elim (lgamma_nil _ G).
  - pose proof (merge_back_sound res i i x) as S.
    destruct (merge_back res i i) as [[[res1 i1] p1] sk]. simpl in S.
    rewrite lgamma_cons in G. destruct sk; apply IH; tauto.
Qed.

Lemma di_join_sound a b x : dgamma a x \/ dgamma b x -> dgamma (di_join a b) x.
Proof.
  destruct a as [| |l1], b as [| |l2]; simpl; try tauto.
  intros G. pose proof (join_loop_spec l1 l2 []) as K.
  destruct (join_loop l1 l2 []) as [[[res r1] r2]|]; simpl; auto.
  assert (G' : lgamma (rev (join_rest r2 (join_rest r1 res))) x).
  { apply lgamma_rev. apply join_rest_sound. simpl in K.
    destruct (K x) as [G'|[G'|G']]; try tauto.
    - right. apply join_rest_sound; auto.
    - right. apply join_rest_sound; auto. }
  destruct (rev (join_rest r2 (join_rest r1 res))) as [|y [|z t]] eqn:E.
  - elim (lgamma_nil _ G').
  - destruct (is_top y); simpl; auto; try (apply di_of_list_sound; auto).
  - apply di_of_list_sound; auto.
Qed.

Lemma di_join_sound_l a b x : dgamma a x -> dgamma (di_join a b) x.
Proof. intros; apply di_join_sound; auto. Qed.
Lemma di_join_sound_r a b x : dgamma b x -> dgamma (di_join a b) x.
Proof. intros; apply di_join_sound; auto. Qed.

Lemma di_join_wf a b : dwf a -> dwf b -> dwf (di_join a b).
Proof.
  destruct a as [| |l1], b as [| |l2]; simpl; auto.
  intros _ _. destruct (join_loop l1 l2 []) as [[[res r1] r2]|]; simpl; auto.
  destruct (rev _) as [|y [|z t]]; simpl; auto.
  destruct (is_top y); simpl; auto; try apply di_of_list_wf. apply di_of_list_wf.
Qed.

Lemma di_meet_sound a b x : dgamma a x -> dgamma b x -> dgamma (di_meet a b) x.
Proof.
  destruct a as [| |l1], b as [| |l2]; simpl; try tauto.
  intros [i [Hi Gi]] [j [Hj Gj]].
  assert (G : lgamma (filter (fun i => negb (is_bot i)) (pairwise imeet l1 l2)) x).
  { exists (imeet i j). assert (Gm : gamma (imeet i j) x) by (apply imeet_exact; auto).
    split; auto. apply filter_In. split. apply pairwise_in; auto.
    rewrite (gamma_not_bot _ _ Gm). reflexivity. }
  destruct (filter _ _) as [|y t]. elim (lgamma_nil _ G). apply di_of_list_sound; auto.
Qed.

Lemma di_meet_wf a b : dwf a -> dwf b -> dwf (di_meet a b).
Proof.
  destruct a as [| |l1], b as [| |l2]; simpl; auto.
  intros _ _. destruct (filter _ _); simpl; auto. apply di_of_list_wf.
Qed.

Lemma di_narrow_sound a b x : dgamma a x -> dgamma b x -> dgamma (di_narrow a b) x.
Proof. apply di_meet_sound. Qed.

Lemma in_first_mid_last (l : list itv) a r i :
  l = a :: r -> In i l -> i = a \/ i = last l a \/ In i (middle l).
Proof.
  intros -> [H|H]; auto. right.
  unfold middle. simpl tl.
  destruct r as [|b t]. destruct H.
  rewrite (app_removelast_last a (l := b :: t)) in H by discriminate.
  apply in_app_or in H. destruct H as [H|[H|[]]]; auto.
Qed.

Lemma di_widen_sound a b x : dwf a -> dwf b -> dgamma a x \/ dgamma b x -> dgamma (di_widen a b) x.
Proof.
  destruct a as [| |l1], b as [| |l2]; simpl; try tauto.
  intros W1 W2 G.
  (* when one of the lists is a singleton the hulls are widened *)
  assert (A : gamma (iwiden (approx_list l1) (approx_list l2)) x).
  { apply iwiden_sound.
    destruct G as [G|G]; [left|right]; apply approx_sound; auto. }
  destruct l1 as [|a0 [|a1 r1]], l2 as [|b0 [|b1 r2]]; try exact I;
    try (apply di_of_itv_sound, A).
  clear A. apply di_of_list_sound.
  set (l1 := a0 :: a1 :: r1) in *. set (l2 := b0 :: b1 :: r2) in *.
  rewrite lgamma_cons, !lgamma_app, lgamma_cons.
  destruct G as [[i [Hi G]]|[i [Hi G]]].
  - destruct (in_first_mid_last l1 a0 (a1 :: r1) i eq_refl Hi) as [->|[->|M]].
    + left. apply iwiden_sound; auto.
    + right. right. right. left. apply iwiden_sound; auto.
    + right. left. exists i; auto.
  - destruct (in_first_mid_last l2 b0 (b1 :: r2) i eq_refl Hi) as [->|[->|M]].
    + left. apply iwiden_sound; auto.
    + right. right. right. left. apply iwiden_sound; auto.
    + right. right. left. exists i; auto.
Qed.

Lemma di_widen_wf a b : dwf a -> dwf b -> dwf (di_widen a b).
Proof.
  destruct a as [| |l1], b as [| |l2]; simpl; auto. intros _ _.
  destruct l1 as [|a0 [|a1 r1]], l2 as [|b0 [|b1 r2]]; simpl; auto;
    try apply di_of_itv_wf; try apply di_of_list_wf.
Qed.

Lemma di_trim_sound x y c v :
  di_singleton y = Some c -> dgamma x v -> v <> c -> dgamma (di_trim x y) v.
Proof.
  intros S G N. unfold di_trim. rewrite S.
  destruct x as [| |l]; simpl in G; simpl di_is_bot; cbv iota.
  - contradiction.
  - destruct (Z_lt_le_dec v c).
    + apply di_join_sound_l, di_join_sound_r, di_of_itv_sound.
      apply (ilower_half_sound (iconst (c - 1)) (c - 1)). apply gamma_iconst; auto. lia.
    + apply di_join_sound_r, di_of_itv_sound.
      apply (iupper_half_sound (iconst (c + 1)) (c + 1)). apply gamma_iconst; auto. lia.
  - set (step := fun (res : di) (i : itv) => _).
    assert (K : forall l res, (dgamma res v \/ lgamma l v) -> dgamma (fold_left step l res) v).
    { clear G l. induction l as [|i tl IH]; intros res G; simpl.
      - destruct G as [G|G]; auto. elim (lgamma_nil _ G).
      - apply IH. rewrite lgamma_cons in G.
        destruct G as [G|[G|G]]; auto; left; unfold step.
        + destruct (negb (ileq (iconst c) i)). apply di_join_sound_l; auto.
          destruct (beqb (lb i) (Fin c)). apply di_join_sound_l; auto.
          destruct (beqb (ub i) (Fin c)). apply di_join_sound_l; auto.
          apply di_join_sound_l, di_join_sound_l; auto.
        + destruct (negb (ileq (iconst c) i)).
          { apply di_join_sound_r, di_of_itv_sound; auto. }
          destruct G as [G1 G2].
          assert (Lo : v < c -> gamma (imk (lb i) (Fin (c - 1))) v).
          { intros. apply gamma_imk. split; auto. apply Z.leb_le. lia. }
          assert (Hi : c < v -> gamma (imk (Fin (c + 1)) (ub i)) v).
          { intros. apply gamma_imk. split; auto. apply Z.leb_le. lia. }
          destruct (beqb (lb i) (Fin c)) eqn:E1.
          { apply beqb_eq in E1. rewrite E1 in G1. bsimp.
            apply di_join_sound_r, di_of_itv_sound, Hi. lia. }
          destruct (beqb (ub i) (Fin c)) eqn:E2.
          { apply beqb_eq in E2. rewrite E2 in G2. bsimp.
            apply di_join_sound_r, di_of_itv_sound, Lo. lia. }
          destruct (Z_lt_le_dec v c).
          * apply di_join_sound_l, di_join_sound_r, di_of_itv_sound, Lo; auto.
          * apply di_join_sound_r, di_of_itv_sound, Hi. lia. }
    apply K. right; auto.
Qed.

(* non-vacuity: the widening of fixes/scalars2-7 (the code before it answered [1,+oo]) *)
Example di_widen_example :
  let a := di_join (di_of_itv (imk MInf (Fin (-1)))) (di_of_itv (imk (Fin 1) PInf)) in
  let b := di_join (di_of_itv (imk MInf (Fin 5))) (di_of_itv (imk (Fin 8) (Fin 9))) in
  dgamma a (-1) /\ di_widen a b = DTop.
Proof.
  split.
  - apply di_join_sound_l, di_of_itv_sound. apply gamma_imk. split; reflexivity.
  - vm_compute. reflexivity.
Qed.
