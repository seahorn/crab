(* ItvCongruenceSound.v — the reduced product interval x congruence: the reduction keeps
   exactly the common elements, every operation is sound. *)
From Coq Require Import ZArith Lia Bool Znumtheory.
From CrabV Require Import Base.ZInf Scalar.Itv Scalar.ItvSound Scalar.Congruence
  Scalar.CongruenceSound Scalar.ItvCongruence.
Local Open Scope Z_scope.

Definition icgamma (p : ic) (x : Z) : Prop := gamma (ifst p) x /\ cgamma (isnd p) x.

Lemma icgamma_bot x : ~ icgamma ic_bot x.
Proof. intros [H _]. apply (gamma_bot _ H). Qed.
Lemma icgamma_top x : icgamma ic_top x.
Proof. split. apply gamma_top. apply cgamma_top. Qed.
Lemma icgamma_const n x : icgamma (ic_const n) x <-> x = n.
Proof.
  unfold icgamma, ic_const; simpl. rewrite gamma_iconst, cgamma_const. tauto.
Qed.

Lemma ic_is_bot_sound p x : ic_is_bot p = true -> ~ icgamma p x.
Proof.
  unfold ic_is_bot. intros H [G1 G2]. apply orb_true_iff in H. destruct H as [H|H].
  - apply (is_bot_gamma_empty _ _ H G1).
  - apply (cgamma_is_bot _ _ H G2).
Qed.

Lemma ic_is_top_sound p x : wf (ifst p) -> ic_is_top p = true -> icgamma p x.
Proof.
  unfold ic_is_top. intros W H. apply andb_true_iff in H. destruct H as [H1 H2].
  split; [apply is_top_gamma|apply cgamma_is_top]; auto.
Qed.

Lemma ic_mod_eq a b : 0 < b -> ic_mod a b = a mod b.
Proof. apply rem_nonneg_mod. Qed.

Lemma ic_abs_eq x : ic_abs x = Z.abs x.
Proof. unfold ic_abs. destruct (Z.ltb_spec x 0); lia. Qed.

Lemma mod_congr a m n : 0 < a -> (a | m - n) -> m mod a = n mod a.
Proof.
  intros Ha [k Hk]. replace m with (n + k * a) by lia. apply Z.mod_add. lia.
Qed.

Lemma mod_divide_sub a m : 0 < a -> (a | m - m mod a).
Proof.
  intros Ha. exists (m / a). pose proof (Z.div_mod m a ltac:(lia)). lia.
Qed.

Section RL.
  Variables (c : cg).
  Hypothesis Hc : ca c <> 0.
  Let a := Z.abs (ca c).

  Lemma R_eq l : ic_R c l = l + (cb c - l) mod a.
  Proof. unfold ic_R. rewrite ic_abs_eq, ic_mod_eq; auto. lia. Qed.
  Lemma L_eq u : ic_L c u = u - (u - cb c) mod a.
  Proof. unfold ic_L. rewrite ic_abs_eq, ic_mod_eq; auto. lia. Qed.

  Lemma R_ge l : l <= ic_R c l.
  Proof. rewrite R_eq. pose proof (Z.mod_pos_bound (cb c - l) a ltac:(lia)). lia. Qed.
  Lemma L_le u : ic_L c u <= u.
  Proof. rewrite L_eq. pose proof (Z.mod_pos_bound (u - cb c) a ltac:(lia)). lia. Qed.

  Lemma R_in l : (ca c | ic_R c l - cb c).
  Proof.
    rewrite R_eq. apply Z.divide_abs_l. fold a.
    replace (l + (cb c - l) mod a - cb c) with (- ((cb c - l) - (cb c - l) mod a)) by lia.
    apply Z.divide_opp_r. apply mod_divide_sub. lia.
  Qed.
  Lemma L_in u : (ca c | ic_L c u - cb c).
  Proof.
    rewrite L_eq. apply Z.divide_abs_l. fold a.
    replace (u - (u - cb c) mod a - cb c) with ((u - cb c) - (u - cb c) mod a) by lia.
    apply mod_divide_sub. lia.
  Qed.

  Lemma R_least l x : l <= x -> (ca c | x - cb c) -> ic_R c l <= x.
  Proof.
    intros Hl Hx. rewrite R_eq.
    assert (E : (cb c - l) mod a = (x - l) mod a).
    { apply mod_congr. lia. apply Z.divide_abs_l.
      replace (cb c - l - (x - l)) with (- (x - cb c)) by ring. apply Z.divide_opp_r; auto. }
    rewrite E. pose proof (Z.mod_le (x - l) a ltac:(lia) ltac:(lia)). lia.
  Qed.
  Lemma L_greatest u x : x <= u -> (ca c | x - cb c) -> x <= ic_L c u.
  Proof.
    intros Hu Hx. rewrite L_eq.
    assert (E : (u - cb c) mod a = (u - x) mod a).
    { apply mod_congr. lia. apply Z.divide_abs_l.
      replace (u - cb c - (u - x)) with (x - cb c) by ring. auto. }
    rewrite E. pose proof (Z.mod_le (u - x) a ltac:(lia) ltac:(lia)). lia.
  Qed.
End RL.

Lemma ic_reduce_sound i c x : gamma i x -> cgamma c x -> icgamma (ic_reduce i c) x.
Proof.
  intros Gi Gc. unfold ic_reduce.
  rewrite (gamma_not_bot _ _ Gi). pose proof Gc as [Bc Dc]. unfold cg_is_bot. rewrite Bc. simpl.
  destruct (cg_is_top c) eqn:T.
  { destruct (isingleton i) as [n|] eqn:S.
    - split; simpl; auto. apply cgamma_const. apply (isingleton_spec _ _ S); auto.
    - split; auto. }
  destruct (Z.eqb_spec (ca c) 0) as [E|E].
  { rewrite E in Dc. apply div0_eq in Dc. assert (x = cb c) by lia. subst x.
    rewrite (ileq_complete (iconst (cb c)) i).
    - split; simpl; auto. apply gamma_iconst; auto.
    - apply wf_iconst.
    - intros y Hy. apply gamma_iconst in Hy. subst. auto. }
  destruct Gi as [G1 G2].
  destruct (lb i) as [|l|] eqn:EL, (ub i) as [|u|] eqn:EU; simpl in G1, G2; try discriminate;
    bsimp.
  - split; simpl; [|split; auto]. apply gamma_imk; simpl; split; auto.
    apply Z.leb_le. apply L_greatest; auto.
  - split; simpl; [|split; auto]. unfold gamma; rewrite EL, EU; auto.
  - pose proof (R_least c E l x G1 Dc). pose proof (L_greatest c E u x G2 Dc).
    destruct (Z.ltb_spec (ic_L c u) (ic_R c l)); [lia|].
    destruct (Z.eqb_spec (ic_R c l) (ic_L c u)) as [E2|E2].
    + assert (x = ic_R c l) by lia. subst x.
      split; simpl. apply gamma_iconst; auto. apply cgamma_const; auto.
    + split; simpl; [|split; auto]. apply gamma_imk; simpl; split; apply Z.leb_le; auto.
  - split; simpl; [|split; auto]. apply gamma_imk; simpl; split; auto.
    apply Z.leb_le. apply R_least; auto.
Qed.

Lemma ic_reduce_below i c x : icgamma (ic_reduce i c) x -> gamma i x /\ cgamma c x.
Proof.
  destruct (is_bot i || cg_is_bot c) eqn:B.
  { assert (E : ic_reduce i c = ic_bot) by (unfold ic_reduce; rewrite B; reflexivity).
    rewrite E. intros H. elim (icgamma_bot _ H). }
  unfold ic_reduce. rewrite B. cbv zeta.
  apply orb_false_iff in B. destruct B as [Bi Bc]. unfold cg_is_bot in Bc.
  destruct (cg_is_top c) eqn:T.
  { destruct (isingleton i) as [n|] eqn:S; intros [G1 G2]; simpl in *; split; auto;
      apply cgamma_is_top; auto. }
  destruct (Z.eqb_spec (ca c) 0) as [E|E].
  { destruct (ileq (iconst (cb c)) i) eqn:LE.
    - intros [G1 G2]; simpl in *. split; auto. apply (ileq_sound _ _ LE); auto.
    - intros H. elim (icgamma_bot _ H). }
  assert (Hin : forall v, (ca c | v - cb c) -> cgamma c v) by (intros; split; auto).
  assert (NB : ble (lb i) (ub i) = true) by (apply is_bot_false_ble; auto).
  destruct (lb i) as [|l|] eqn:EL, (ub i) as [|u|] eqn:EU; try (simpl in NB; discriminate NB).
  - intros [G1 G2]; simpl in *. split; auto.
  - intros [G1 G2]; simpl in *. split; auto. apply gamma_imk_elim in G1. destruct G1 as [_ G1].
    bsimp. unfold gamma. rewrite EL, EU; simpl. split; auto. apply Z.leb_le.
    pose proof (L_le c E u). lia.
  - intros [G1 G2]; simpl in *. split; auto.
  - pose proof (R_ge c E l). pose proof (L_le c E u).
    destruct (Z.ltb_spec (ic_L c u) (ic_R c l)). intros H'; elim (icgamma_bot _ H').
    destruct (Z.eqb_spec (ic_R c l) (ic_L c u)) as [E2|E2].
    + intros [G1 G2]; simpl in *. apply gamma_iconst in G1. subst x. split.
      * unfold gamma. rewrite EL, EU; simpl. split; apply Z.leb_le; lia.
      * apply Hin. apply R_in; auto.
    + intros [G1 G2]; simpl in *. split; auto. apply gamma_imk_elim in G1. destruct G1 as [G1 G3].
      bsimp. unfold gamma. rewrite EL, EU; simpl. split; apply Z.leb_le; lia.
  - intros [G1 G2]; simpl in *. split; auto. apply gamma_imk_elim in G1. destruct G1 as [G1 _].
    bsimp. unfold gamma. rewrite EL, EU; simpl. split; auto. apply Z.leb_le.
    pose proof (R_ge c E l). lia.
  - intros [G1 G2]; simpl in *. split; auto.
Qed.

Lemma ic_reduce_exact i c x : icgamma (ic_reduce i c) x <-> (gamma i x /\ cgamma c x).
Proof. split. apply ic_reduce_below. intros [H1 H2]. apply ic_reduce_sound; auto. Qed.

Lemma ic_of_itv_exact i x : icgamma (ic_of_itv i) x <-> gamma i x.
Proof. unfold ic_of_itv. rewrite ic_reduce_exact. pose proof (cgamma_top x). tauto. Qed.
Lemma ic_of_cg_exact c x : icgamma (ic_of_cg c) x <-> cgamma c x.
Proof. unfold ic_of_cg. rewrite ic_reduce_exact. pose proof (gamma_top x). tauto. Qed.

Lemma ic_reduce_cwf i c : cwf c -> cwf (isnd (ic_reduce i c)).
Proof.
  intros W. unfold ic_reduce.
  destruct (is_bot i || cg_is_bot c); cbv zeta.
  - simpl. apply cwf_bot.
  - destruct (cg_is_top c). destruct (isingleton i); simpl; auto using cwf_const.
    destruct (ca c =? 0). destruct (ileq _ _); simpl; auto using cwf_bot.
    destruct (lb i), (ub i); simpl; auto.
    destruct (_ <? _); simpl; auto using cwf_bot.
    destruct (_ =? _); simpl; auto using cwf_const.
Qed.

Lemma ic_lift_sound f g p q r :
  gamma (f (ifst p) (ifst q)) r -> cgamma (g (isnd p) (isnd q)) r -> icgamma (ic_lift f g p q) r.
Proof. apply ic_reduce_sound. Qed.

Lemma ic_add_sound p q x y : icgamma p x -> icgamma q y -> icgamma (ic_add p q) (x + y).
Proof. intros [] []. apply ic_lift_sound; [apply iadd_sound|apply cg_add_sound]; auto. Qed.
Lemma ic_sub_sound p q x y : icgamma p x -> icgamma q y -> icgamma (ic_sub p q) (x - y).
Proof. intros [] []. apply ic_lift_sound; [apply isub_sound|apply cg_sub_sound]; auto. Qed.
Lemma ic_mul_sound p q x y : icgamma p x -> icgamma q y -> icgamma (ic_mul p q) (x * y).
Proof. intros [] []. apply ic_lift_sound; [apply imul_sound|apply cg_mul_sound]; auto. Qed.
Lemma ic_div_sound p q x y :
  icgamma p x -> icgamma q y -> y <> 0 -> icgamma (ic_div p q) (Z.quot x y).
Proof. intros [] [] ?. apply ic_lift_sound; [apply idiv_sound|apply cg_div_sound]; auto. Qed.
Lemma ic_srem_sound p q x y :
  icgamma p x -> icgamma q y -> y <> 0 -> icgamma (ic_srem p q) (Z.rem x y).
Proof. intros [] [] ?. apply ic_lift_sound; [apply isrem_sound|apply cg_rem_sound]; auto. Qed.
Lemma ic_udiv_sound p q x y (r : Z) : icgamma p x -> icgamma q y -> icgamma (ic_udiv p q) r.
Proof. intros [] []. apply ic_lift_sound; [eapply iudiv_sound; eauto|apply cg_udiv_sound]. Qed.
Lemma ic_urem_sound p q x x' y :
  icgamma p x -> icgamma q y -> 0 < y -> 0 <= x' -> (x' = x \/ x < 0) ->
  icgamma (ic_urem p q) (Z.rem x' y).
Proof.
  intros [] [] ? ? ?. apply ic_lift_sound; [eapply iurem_sound; eauto|apply cg_urem_sound].
Qed.
Lemma ic_and_sound p q x y : icgamma p x -> icgamma q y -> icgamma (ic_and p q) (Z.land x y).
Proof. intros [] []. apply ic_lift_sound; [apply iand_sound|apply cg_and_sound]; auto. Qed.
Lemma ic_or_sound p q x y : icgamma p x -> icgamma q y -> icgamma (ic_or p q) (Z.lor x y).
Proof. intros [] []. apply ic_lift_sound; [apply ior_sound|apply cg_or_sound]; auto. Qed.
Lemma ic_xor_sound p q x y : icgamma p x -> icgamma q y -> icgamma (ic_xor p q) (Z.lxor x y).
Proof. intros [] []. apply ic_lift_sound; [apply ixor_sound|apply cg_xor_sound]; auto. Qed.
Lemma ic_shl_sound p q x k :
  cwf (isnd q) -> icgamma p x -> icgamma q k -> 0 <= k -> icgamma (ic_shl p q) (Z.shiftl x k).
Proof. intros ? [] [] ?. apply ic_lift_sound; [apply ishl_sound|apply cg_shl_sound]; auto. Qed.
Lemma ic_ashr_sound p q x k :
  icgamma p x -> icgamma q k -> 0 <= k -> icgamma (ic_ashr p q) (Z.shiftr x k).
Proof. intros [] [] ?. apply ic_lift_sound; [apply iashr_sound|apply cg_ashr_sound]; auto. Qed.
Lemma ic_lshr_sound p q x k :
  icgamma p x -> icgamma q k -> 0 <= k ->
  forall r, (0 <= x -> r = Z.shiftr x k) -> icgamma (ic_lshr p q) r.
Proof.
  intros [] [] ? r ?. apply ic_lift_sound; [eapply ilshr_sound|eapply cg_lshr_sound]; eauto.
Qed.
Lemma ic_cast_sound p (r : Z) : icgamma (ic_cast p) r.
Proof. apply icgamma_top. Qed.

Lemma ic_join_sound p q x : icgamma p x \/ icgamma q x -> icgamma (ic_join p q) x.
Proof.
  intros [[]|[]]; apply ic_lift_sound; auto using ijoin_sound_l, cg_join_sound_l,
    ijoin_sound_r, cg_join_sound_r.
Qed.
Lemma ic_meet_sound p q x : icgamma p x -> icgamma q x -> icgamma (ic_meet p q) x.
Proof. intros [] []. apply ic_lift_sound; [apply imeet_exact|apply cg_meet_exact]; auto. Qed.

(* non-vacuity: [1,10] with 4Z+3 reduces to [3,7] *)
Example ic_reduce_example :
  ic_reduce (imk (Fin 1) (Fin 10)) (cg_mk 4 3) = mkIC (imk (Fin 3) (Fin 7)) (cg_mk 4 3)
  /\ icgamma (ic_reduce (imk (Fin 1) (Fin 10)) (cg_mk 4 3)) 7.
Proof.
  split. vm_compute. reflexivity.
  apply ic_reduce_sound. apply gamma_imk. split; reflexivity.
  apply cgamma_mk. exists 1. reflexivity.
Qed.
