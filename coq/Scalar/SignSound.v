(* SignSound.v — concretisation of signs and soundness of every operation of Sign.v. *)
From Coq Require Import ZArith Lia Bool.
From CrabV Require Import Base.ZInf Scalar.Itv Scalar.ItvSound Scalar.Sign.
Local Open Scope Z_scope.

Definition sgamma (s : sign) (x : Z) : Prop :=
  match s with
  | SBot => False
  | SLtz => x < 0
  | SGtz => 0 < x
  | SEqz => x = 0
  | SNez => x <> 0
  | SGez => 0 <= x
  | SLez => x <= 0
  | STop => True
  end.

Lemma sgamma_bot x : ~ sgamma sg_bot x.
Proof. simpl; auto. Qed.
Lemma sgamma_top x : sgamma sg_top x.
Proof. simpl; auto. Qed.

(* A sign is a set of classes "negative, zero, positive" ([Lt], [Eq], [Gt]: how the number
   compares with 0).  The lattice operations are set operations on these tables, which is
   checked by evaluation; their soundness statements follow. *)
Definition smem (s : sign) (c : comparison) : bool :=
  match s, c with
  | STop, _ | SLtz, Lt | SGtz, Gt | SEqz, Eq
  | SNez, (Lt | Gt) | SGez, (Eq | Gt) | SLez, (Lt | Eq) => true
  | _, _ => false
  end.

Lemma sgamma_smem s x : sgamma s x <-> smem s (x ?= 0) = true.
Proof.
  destruct s; simpl; destruct (Z.compare_spec x 0); split; intros; try lia; try discriminate; auto.
Qed.

Lemma sg_leq_smem a b : sg_leq a b = true <-> forall c, smem a c = true -> smem b c = true.
Proof.
  assert (E : sg_leq a b = implb (smem a Lt) (smem b Lt) && implb (smem a Eq) (smem b Eq)
                           && implb (smem a Gt) (smem b Gt)) by (destruct a, b; reflexivity).
  rewrite E, !andb_true_iff, !implb_true_iff. split.
  - intros [[H1 H2] H3] []; assumption.
  - intros H. repeat split; apply H.
Qed.

Lemma sg_join_smem a b c : smem (sg_join a b) c = smem a c || smem b c.
Proof. destruct a, b, c; reflexivity. Qed.
Lemma sg_meet_smem a b c : smem (sg_meet a b) c = smem a c && smem b c.
Proof. destruct a, b, c; reflexivity. Qed.

Lemma sg_is_bot_spec s : sg_is_bot s = true <-> (forall x, ~ sgamma s x).
Proof.
  split.
  - destruct s; simpl; try discriminate; auto.
  - intros H. destruct s; simpl; auto; exfalso.
    + apply (H (-1)); simpl; lia.
    + apply (H 1); simpl; lia.
    + apply (H 0); simpl; lia.
    + apply (H 1); simpl; lia.
    + apply (H 0); simpl; lia.
    + apply (H 0); simpl; lia.
    + apply (H 0); simpl; auto.
Qed.

Lemma sg_is_top_sound s x : sg_is_top s = true -> sgamma s x.
Proof. destruct s; simpl; try discriminate; auto. Qed.

Lemma sg_const_sound c : sgamma (sg_const c) c.
Proof.
  unfold sg_const. destruct (Z.eqb_spec c 0). simpl; auto.
  destruct (Z.ltb_spec c 0); simpl; lia.
Qed.

Lemma sg_eq_spec a b : sg_eq a b = true <-> a = b.
Proof.
  split; [|intros ->; destruct b; reflexivity].
  destruct a, b; simpl; intros; try discriminate; reflexivity.
Qed.

Lemma sg_leq_sound a b : sg_leq a b = true -> forall x, sgamma a x -> sgamma b x.
Proof. intros H x. rewrite !sgamma_smem. apply sg_leq_smem, H. Qed.

Lemma sg_leq_complete a b : (forall x, sgamma a x -> sgamma b x) -> sg_leq a b = true.
Proof.
  intros H. apply sg_leq_smem.
  intros []; [specialize (H 0)|specialize (H (-1))|specialize (H 1)];
    rewrite !sgamma_smem in H; exact H.
Qed.

Lemma sg_leq_refl a : sg_leq a a = true.
Proof. apply sg_leq_smem. auto. Qed.

Lemma sg_join_sound a b x : sgamma a x \/ sgamma b x -> sgamma (sg_join a b) x.
Proof. rewrite !sgamma_smem, sg_join_smem. apply orb_true_iff. Qed.

Lemma sg_join_least a b c :
  sg_leq a c = true -> sg_leq b c = true -> sg_leq (sg_join a b) c = true.
Proof.
  rewrite !sg_leq_smem. intros Ha Hb k. rewrite sg_join_smem. intros H.
  apply orb_true_iff in H. destruct H; auto.
Qed.

Lemma sg_meet_exact a b x : sgamma (sg_meet a b) x <-> (sgamma a x /\ sgamma b x).
Proof. rewrite !sgamma_smem, sg_meet_smem. apply andb_true_iff. Qed.

Lemma sg_add_sound a b x y : sgamma a x -> sgamma b y -> sgamma (sg_add a b) (x + y).
Proof. destruct a, b; simpl; intros; trivial; lia. Qed.

Lemma sg_sub_sound a b x y : sgamma a x -> sgamma b y -> sgamma (sg_sub a b) (x - y).
Proof. destruct a, b; simpl; intros; trivial; lia. Qed.

Lemma sg_mul_sound a b x y : sgamma a x -> sgamma b y -> sgamma (sg_mul a b) (x * y).
Proof. destruct a, b; simpl; intros; trivial; nia. Qed.

Lemma quot_sign x y : y <> 0 ->
  (0 <= x -> 0 < y -> 0 <= Z.quot x y) /\ (x <= 0 -> 0 < y -> Z.quot x y <= 0) /\
  (0 <= x -> y < 0 -> Z.quot x y <= 0) /\ (x <= 0 -> y < 0 -> 0 <= Z.quot x y).
Proof.
  intros Hy. repeat split; intros.
  - apply Z.quot_pos; lia.
  - replace x with (- (- x)) by lia. rewrite Z.quot_opp_l; auto.
    pose proof (Z.quot_pos (- x) y). lia.
  - replace y with (- (- y)) by lia. rewrite Z.quot_opp_r; try lia.
    pose proof (Z.quot_pos x (- y)). lia.
  - replace x with (- (- x)) by lia. replace y with (- (- y)) by lia.
    rewrite Z.quot_opp_opp; try lia. apply Z.quot_pos; lia.
Qed.

Lemma sg_div_sound a b x y :
  sgamma a x -> sgamma b y -> y <> 0 -> sgamma (sg_div a b) (Z.quot x y).
Proof.
  intros Ha Hb Hy. destruct (quot_sign x y Hy) as (Q1 & Q2 & Q3 & Q4).
  destruct a, b; simpl in *; auto; try lia; subst; rewrite ?Z.quot_0_l; auto.
Qed.

(* UDiv, SRem, URem: any result is allowed once both operands are inhabited *)
Lemma sg_default_sound a b x y (r : Z) : sgamma a x -> sgamma b y -> sgamma (sg_default a b) r.
Proof. destruct a, b; simpl; auto. Qed.

Lemma sg_and_sound a b x y : sgamma a x -> sgamma b y -> sgamma (sg_and a b) (Z.land x y).
Proof.
  destruct a, b; simpl; intros; auto; subst; rewrite ?Z.land_0_l, ?Z.land_0_r; auto.
Qed.

(* or, xor: 0 is neutral on both sides *)
Lemma sg_or_neutral (op : Z -> Z -> Z) a b x y :
  (forall v, op 0 v = v) -> (forall v, op v 0 = v) ->
  sgamma a x -> sgamma b y -> sgamma (sg_or a b) (op x y).
Proof. intros L R. destruct a, b; simpl; intros; auto; subst; rewrite ?L, ?R; auto. Qed.

Lemma sg_or_sound a b x y : sgamma a x -> sgamma b y -> sgamma (sg_or a b) (Z.lor x y).
Proof. apply sg_or_neutral. apply Z.lor_0_l. apply Z.lor_0_r. Qed.

Lemma sg_xor_sound a b x y : sgamma a x -> sgamma b y -> sgamma (sg_xor a b) (Z.lxor x y).
Proof. apply sg_or_neutral. apply Z.lxor_0_l. apply Z.lxor_0_r. Qed.

(* shl, ashr: shifting 0 gives 0, shifting by 0 changes nothing *)
Lemma sg_shift_sound (op : Z -> Z -> Z) a b x k :
  (forall v, op 0 v = 0) -> (forall v, op v 0 = v) ->
  sgamma a x -> sgamma b k -> sgamma (sg_shift a b) (op x k).
Proof. intros L R. destruct a, b; simpl; intros; auto; subst; rewrite ?L, ?R; auto. Qed.

Lemma sg_shl_sound a b x k : sgamma a x -> sgamma b k -> sgamma (sg_shift a b) (Z.shiftl x k).
Proof. apply sg_shift_sound. apply Z.shiftl_0_l. apply Z.shiftl_0_r. Qed.

Lemma sg_ashr_sound a b x k : sgamma a x -> sgamma b k -> sgamma (sg_shift a b) (Z.shiftr x k).
Proof. apply sg_shift_sound. apply Z.shiftr_0_l. apply Z.shiftr_0_r. Qed.

(* logical shift right: the concrete result r is the value itself when the amount is 0
   and the arithmetic shift when the value is non-negative (true for every bit width) *)
Lemma sg_lshr_sound a b x k r :
  sgamma a x -> sgamma b k -> (k = 0 -> r = x) -> (0 <= x -> r = Z.shiftr x k) ->
  sgamma (sg_shift a b) r.
Proof.
  destruct a, b; simpl; intros Ha Hb H0 H1; auto; subst;
    try (rewrite H0 by reflexivity; auto; fail);
    try (rewrite H1 by lia; rewrite ?Z.shiftr_0_l; auto; fail).
Qed.

Lemma sg_from_itv_sound i x : gamma i x -> sgamma (sg_from_itv i) x.
Proof.
  intros G. unfold sg_from_itv. rewrite (gamma_not_bot _ _ G).
  destruct (is_top i). simpl; auto.
  assert (K : forall l u, ileq i (imk l u) = true ->
                ble l (Fin x) = true /\ ble (Fin x) u = true).
  { intros l u E. apply gamma_imk, (ileq_sound _ _ E), G. }
  destruct (ileq i (imk (Fin 0) (Fin 0))) eqn:E1. { destruct (K _ _ E1). bsimp. simpl. lia. }
  destruct (ileq i (imk MInf (Fin (-1)))) eqn:E2. { destruct (K _ _ E2). bsimp. simpl. lia. }
  destruct (ileq i (imk MInf (Fin 0))) eqn:E3. { destruct (K _ _ E3). bsimp. simpl. lia. }
  destruct (ileq i (imk (Fin 1) PInf)) eqn:E4. { destruct (K _ _ E4). bsimp. simpl. lia. }
  destruct (ileq i (imk (Fin 0) PInf)) eqn:E5. { destruct (K _ _ E5). bsimp. simpl. lia. }
  simpl; auto.
Qed.

Lemma sg_to_itv_sound s x : sgamma s x -> gamma (sg_to_itv s) x.
Proof.
  destruct s; simpl; intros H; try contradiction; try apply gamma_top;
    try (apply gamma_iconst; auto; fail);
    apply gamma_imk; simpl; split; auto; apply Z.leb_le; lia.
Qed.

(* non-vacuity: 1 / 5 = 0 lies in the quotient of two positive signs (the code before
   fixes/scalars2-5 answered "positive") *)
Example sg_div_example : sgamma SGtz 1 /\ sgamma SGtz 5 /\ sg_div SGtz SGtz = SGez
                         /\ sgamma (sg_div SGtz SGtz) (Z.quot 1 5).
Proof. simpl. repeat split; try lia. vm_compute. discriminate. Qed.
