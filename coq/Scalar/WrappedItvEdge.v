(* WrappedItvEdge.v — the corner cases that Scalar/WrappedItvSound.v leaves out:
     Trunc(bits_to_keep) with bits_to_keep = bitwidth   (trunc_sound has bits_to_keep < bitwidth)
     Shl by the amount 0                                (shl_sound has amounts 1..63)
   Shl(k) calls Trunc(bitwidth - k), so the second one is the first one in disguise.

   Before the repair fixes/wrapint-10.diff Trunc(w) of a w-bit interval went through
   ashr(wrapint(w, w)): for w = 64 a shift of an uint64_t by 64 bits (undefined behaviour,
   [None] in the model: see [trunc_unrepaired_64] below), for w < 64 a correct but imprecise
   answer (top for every interval across the north pole).  The repaired Trunc returns *this when
   bits_to_keep >= bitwidth, and the model Scalar/WrappedItv.v follows it.

   Also here: the hypotheses of the theorems on ZExt / SExt ([is_top i = false]) and on
   LShr / AShr ([wn kk < 64]) cannot be dropped ([zext_top_error], [sext_top_error],
   [lshr_amount_64_error], [ashr_amount_64_error]); the second one is implied by the bitwidth
   when it is at most 6 ([lshr_sound_w6], [ashr_sound_w6], and [shl_sound_w6] for the bound on the
   amount of Shl). *)
From Coq Require Import ZArith Lia Bool List.
From CrabV Require Import Num.Wrapint Num.WrapintSound Scalar.WrappedItv Scalar.WrappedItvSound.
Import ListNotations.
Local Open Scope Z_scope.

Lemma trunc_all_bits w i : iwf w i -> (is_bottom i = true \/ is_top i = true \/ range_nt w i) ->
  wi_trunc i w = Some i.
Proof.
  intros _ [B|[T|(B & T & Hs & _)]]; unfold wi_trunc.
  - rewrite B. reflexivity.
  - rewrite T, orb_true_r. reflexivity.
  - unfold is_bottom. rewrite B, T. cbn [orb].
    assert (get_bitwidth (wstart i) = w) as -> by apply Hs.
    rewrite Z.leb_refl. reflexivity.
Qed.

Lemma wkeep_lower_all_bits w v : wfw w v -> wkeep_lower v w = Some v.
Proof. intros [_ E]. unfold wkeep_lower. rewrite E, Z.leb_refl. reflexivity. Qed.

(* Trunc for every bits_to_keep in 1..bitwidth (bitwidth 64 included) *)
Theorem trunc_full w i k v : iwf w i -> gamma w i v -> 1 <= k <= w ->
  exists q r, wi_trunc i k = Some q /\ iwf k q /\ wkeep_lower v k = Some r /\ gamma k q r.
Proof.
  intros Wi G Hk. destruct (Z.eq_dec k w) as [->|NE].
  - exists i, v. split.
    + apply trunc_all_bits; [exact Wi|].
      destruct (is_bottom i) eqn:B; [left; reflexivity|].
      destruct (is_top i) eqn:T; [right; left; reflexivity|].
      right; right. apply range_nt_of; assumption.
    + split; [exact Wi|]. split; [apply wkeep_lower_all_bits; apply G|exact G].
  - apply (trunc_sound w); [exact Wi|exact G|lia].
Qed.

(* the statement C13_wv_trunc_statement of Props/Properties_C13.v, verbatim *)
Theorem trunc_statement_holds :
  forall w i k v, iwf w i -> gamma w i v -> 1 <= k <= w -> k < 64 ->
  exists q r, wi_trunc i k = Some q /\ wkeep_lower v k = Some r /\ gamma k q r.
Proof.
  intros w i k v Wi G Hk _. destruct (trunc_full w i k v Wi G Hk) as (q & r & E & _ & K & Gq).
  exists q, r. split; [exact E|]. split; [exact K|exact Gq].
Qed.

Lemma shl_k_zero w a kk v : iwf w a -> gamma w a v -> wfw w kk -> wn kk = 0 ->
  exists q r, wi_shl_k a (wn kk) = Some q /\ iwf w q /\ wshl v kk = Some r /\ gamma w q r.
Proof.
  intros Wa Ga Hk K0. pose proof Ga as [Hv _]. destruct (wshl_val w v kk Hv Hk ltac:(lia)) as (r & Er & Hr & Vr).
  unfold wi_shl_k. destruct (gamma_cases w a v Wa Ga) as (-> & [Ta|(Ta & R)]); rewrite Ta; [exact (top_result w _ a r Ta Er Hr)|].
  pose proof R as (B & _ & Hs & He).
  pose proof (wfw_range _ _ Hs) as [Hw Rs]. pose proof (wfw_range _ _ He) as [_ Re].
  pose proof (wfw_range _ _ Hv) as [_ Rv].
  assert (get_bitwidth (wstart a) = w) as -> by apply Hs.
  destruct (Z.leb_spec w (wn kk)) as [KW|_]; [lia|].
  replace (w - wn kk) with w by lia.
  rewrite (trunc_all_bits w a Wa (or_intror (or_intror R))). cbn [obind]. rewrite Ta. cbn [negb].
  rewrite (wmk_amount w kk Hk).
  destruct (wshl_val w _ kk Hs Hk ltac:(lia)) as (lo & -> & Hlo & Vlo).
  destruct (wshl_val w _ kk He Hk ltac:(lia)) as (hi & -> & Hhi & Vhi).
  apply (result w _ _ r); [apply iwf_mk; assumption|exact Er|].
  apply gamma_mk; try assumption. rewrite Vr, Vlo, Vhi, K0. rewrite Z.pow_0_r, !Z.mul_1_r.
  rewrite (Z.mod_small (wn v)), (Z.mod_small (wn (wstart a))), (Z.mod_small (wn (wend a))) by assumption.
  exact (gamma_range w a v R Ga).
Qed.

Lemma shl_zero w a x v kk : iwf w a -> iwf w x -> gamma w a v -> gamma w x kk -> wn kk = 0 ->
  exists q r, wi_shl a x = Some q /\ iwf w q /\ wshl v kk = Some r /\ gamma w q r.
Proof.
  intros Wa Wx Ga Gx K. apply (shift_sound w wi_shl_k wshl); try assumption.
  apply shl_k_zero; try assumption. apply Gx.
Qed.

(* the statement C13_wv_shl_statement of Props/Properties_C13.v, verbatim *)
Theorem shl_full :
  forall w a x v kk, iwf w a -> iwf w x -> gamma w a v -> gamma w x kk -> 0 <= wn kk < 64 ->
  exists q r, wi_shl a x = Some q /\ iwf w q /\ wshl v kk = Some r /\ gamma w q r.
Proof.
  intros w a x v kk Wa Wx Ga Gx K. destruct (Z.eq_dec (wn kk) 0) as [K0|NE].
  - apply shl_zero; assumption.
  - apply shl_sound; try assumption. lia.
Qed.

(* Shl by 0 is the identity on intervals that are neither top nor bottom (it was top for
   the intervals across the north pole, and undefined at bitwidth 64) *)
Lemma shl_k_zero_exact w a : range_nt w a -> wi_shl_k a 0 = Some (wi_mk (wstart a) (wend a)).
Proof.
  intros R. pose proof R as (B & T & Hs & He).
  pose proof (wfw_range _ _ Hs) as [Hw Rs]. pose proof (wfw_range _ _ He) as [_ Re].
  unfold wi_shl_k, is_bottom. rewrite B, T.
  assert (get_bitwidth (wstart a) = w) as -> by apply Hs.
  destruct (Z.leb_spec w 0) as [KW|_]; [lia|]. rewrite Z.sub_0_r.
  rewrite (trunc_all_bits w a (or_intror (or_intror (conj B (conj Hs He)))) (or_intror (or_intror R))).
  cbn [obind]. rewrite T. cbn [negb].
  destruct (wmk_val_small 0 w Hw ltac:(pose proof (pow2_pos w); lia)) as [Hz Vz].
  destruct (wshl_val w _ _ Hs Hz ltac:(lia)) as (lo & Elo & Hlo & Vlo).
  destruct (wshl_val w _ _ He Hz ltac:(lia)) as (hi & Ehi & Hhi & Vhi).
  rewrite Elo, Ehi. cbn [obind]. rewrite Vz, Z.pow_0_r, Z.mul_1_r, Z.mod_small in Vlo, Vhi by assumption.
  f_equal. f_equal; apply (wfw_eq w); assumption.
Qed.

(* Trunc as it was (no test of bits_to_keep against the bitwidth) *)
Definition wi_trunc_unrepaired (i : witv) (bits_to_keep : Z) : option witv :=
  if is_bottom i || is_top i then Some i
  else
    let w := get_bitwidth (wstart i) in
    let k := wmk bits_to_keep w in
    do us <- washr (wstart i) k;
    do ue <- washr (wend i) k;
    if weq us ue then
      do ls <- wkeep_lower (wstart i) bits_to_keep;
      do le <- wkeep_lower (wend i) bits_to_keep;
      if wle ls le then Some (wi_mk ls le) else Some wi_top
    else
      let y := wpreinc us in
      if weq y ue then
        do ls <- wkeep_lower (wstart i) bits_to_keep;
        do le <- wkeep_lower (wend i) bits_to_keep;
        if negb (wle ls le) then Some (wi_mk ls le) else Some wi_top
      else Some wi_top.

(* the two functions agree on every strict truncation *)
Lemma trunc_unrepaired_eq i k : k < get_bitwidth (wstart i) -> wi_trunc_unrepaired i k = wi_trunc i k.
Proof.
  intros H. unfold wi_trunc_unrepaired, wi_trunc.
  destruct (Z.leb_spec (get_bitwidth (wstart i)) k) as [L|_]; [lia|]. reflexivity.
Qed.

(* [5,9] of bitwidth 64: ashr by 64 bits *)
Example trunc_unrepaired_64 :
  wi_trunc_unrepaired (wi_mk (wmk 5 64) (wmk 9 64)) 64 = None /\
  wi_trunc (wi_mk (wmk 5 64) (wmk 9 64)) 64 = Some (wi_mk (wmk 5 64) (wmk 9 64)).
Proof. split; vm_compute; reflexivity. Qed.
(* [100,200] of bitwidth 8 (across the north pole 127 -> 128): top *)
Example trunc_unrepaired_8 :
  wi_trunc_unrepaired (wi_mk (wmk 100 8) (wmk 200 8)) 8 = Some wi_top /\
  wi_trunc (wi_mk (wmk 100 8) (wmk 200 8)) 8 = Some (wi_mk (wmk 100 8) (wmk 200 8)).
Proof. split; vm_compute; reflexivity. Qed.

(* the hypotheses of shl_full and trunc_full are satisfiable at the corner *)
Example shl_full_nonvacuous :
  let a := wi_mk (wmk 5 64) (wmk 9 64) in let x := wi_single (wmk 0 64) in
  iwf 64 a /\ iwf 64 x /\ gamma 64 a (wmk 7 64) /\ gamma 64 x (wmk 0 64) /\
  wi_shl a x = Some a /\ wshl (wmk 7 64) (wmk 0 64) = Some (wmk 7 64).
Proof.
  cbv zeta. repeat split; try (vm_compute; reflexivity); try (vm_compute; discriminate);
  right; right; repeat split; try (vm_compute; reflexivity); vm_compute; discriminate.
Qed.

(* unsigned_split / signed_split call get_bitwidth before they look at is_top: CRAB_ERROR.
   (wrapped_interval_domain::apply tests is_top before it calls ZExt / SExt, so this is not
   reachable from the abstract domain.) *)
Lemma zext_top_error i k : is_bottom i = false -> is_top i = true -> wi_zext i k = None.
Proof. intros B T. unfold wi_zext, unsigned_split, wi_bitwidth. rewrite B, T. reflexivity. Qed.
Lemma sext_top_error i k : is_bottom i = false -> is_top i = true -> wi_sext i k = None.
Proof. intros B T. unfold wi_sext, signed_split, wi_bitwidth. rewrite B, T. reflexivity. Qed.

(* amounts of 64 or more (a w-bit number, w >= 7) shift an uint64_t by 64 bits or more *)
Lemma lshr_amount_64_error w a x kk : range_nt w a -> iwf w x -> is_singleton x = true ->
  gamma w x kk -> 64 <= wn kk -> wn (wstart a) <= wn (wend a) -> wi_lshr a x = None.
Proof.
  intros R Wx S Gx K L. pose proof R as (B & T & Hs & He).
  unfold wi_lshr, is_bottom. rewrite B, S. rewrite <- (single_member w x kk Wx S Gx).
  unfold wi_lshr_k, is_bottom, get_uint64_t. rewrite B, T. rewrite (cross_unsigned_limit_val w a R). cbn [obind].
  destruct (Z.leb_spec (wn (wstart a)) (wn (wend a))) as [_|L']; [|lia]. cbn [negb].
  assert (get_bitwidth (wstart a) = w) as -> by apply Hs. rewrite (wmk_amount w kk (proj1 Gx)).
  unfold wlshr. destruct (Z.ltb_spec (wn kk) 64) as [K'|_]; [lia|]. reflexivity.
Qed.
Lemma ashr_amount_64_error w a x kk : range_nt w a -> iwf w x -> is_singleton x = true ->
  gamma w x kk -> 64 <= wn kk -> cross_north w a = false -> wi_ashr a x = None.
Proof.
  intros R Wx S Gx K L. pose proof R as (B & T & Hs & He).
  unfold wi_ashr, is_bottom. rewrite B, S. rewrite <- (single_member w x kk Wx S Gx).
  unfold wi_ashr_k, is_bottom, get_uint64_t. rewrite B, T. rewrite (cross_signed_limit_val w a R). cbn [obind].
  rewrite L. cbn [negb].
  assert (get_bitwidth (wstart a) = w) as -> by apply Hs. rewrite (wmk_amount w kk (proj1 Gx)).
  unfold washr. destruct (Z.ltb_spec (wn kk) 64) as [K'|_]; [lia|]. reflexivity.
Qed.
Example lshr_amount_64_witness :
  let a := wi_mk (wmk 3 8) (wmk 5 8) in let x := wi_single (wmk 100 8) in
  gamma 8 a (wmk 4 8) /\ gamma 8 x (wmk 100 8) /\ wi_lshr a x = None /\ wi_ashr a x = None.
Proof. cbv zeta. repeat split; vm_compute; try reflexivity; discriminate. Qed.

(* a w-bit amount is below 64 when w <= 6 *)
Lemma small_width_amount w kk : w <= 6 -> wfw w kk -> wn kk < 64.
Proof.
  intros Hw Hk. pose proof (wfw_range _ _ Hk) as [W R].
  assert (2 ^ w <= 2 ^ 6) by (apply Z.pow_le_mono_r; lia). change (2 ^ 6) with 64 in *. lia.
Qed.
Theorem lshr_sound_w6 w a x v kk : w <= 6 -> iwf w a -> iwf w x -> gamma w a v -> gamma w x kk ->
  exists q r, wi_lshr a x = Some q /\ iwf w q /\ wlshr v kk = Some r /\ gamma w q r.
Proof. intros Hw Wa Wx Ga Gx. apply lshr_sound; try assumption. apply (small_width_amount w); [exact Hw|apply Gx]. Qed.
Theorem ashr_sound_w6 w a x v kk : w <= 6 -> iwf w a -> iwf w x -> gamma w a v -> gamma w x kk ->
  exists q r, wi_ashr a x = Some q /\ iwf w q /\ washr v kk = Some r /\ gamma w q r.
Proof. intros Hw Wa Wx Ga Gx. apply ashr_sound; try assumption. apply (small_width_amount w); [exact Hw|apply Gx]. Qed.
Theorem shl_sound_w6 w a x v kk : w <= 6 -> iwf w a -> iwf w x -> gamma w a v -> gamma w x kk ->
  exists q r, wi_shl a x = Some q /\ iwf w q /\ wshl v kk = Some r /\ gamma w q r.
Proof.
  intros Hw Wa Wx Ga Gx. apply shl_full; try assumption.
  pose proof (wfw_range _ _ (proj1 Gx)) as [_ R]. split; [lia|]. apply (small_width_amount w); [exact Hw|apply Gx].
Qed.
