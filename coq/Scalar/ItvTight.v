(* ItvTight.v — well-formedness is preserved by + - unary- join meet, and + - unary- * join
   meet return the smallest interval containing all concrete results (property C08, second
   sentence). *)
From Coq Require Import ZArith Lia Bool List.
From CrabV Require Import Base.ZInf Scalar.Itv Scalar.ItvSound.
Local Open Scope Z_scope.

Lemma bwit_mono (S T : Z -> Prop) p : (forall z, S z -> T z) -> bwit S p -> bwit T p.
Proof.
  intros H. destruct p; simpl; auto; intros W M; destruct (W M) as (z & Sz & Hz); eauto.
Qed.

Section Binary.
  Variables A B : Z -> Prop.
  Hypothesis neA : exists x, A x.
  Hypothesis neB : exists y, B y.

  Lemma bwit_add p q : badd_err p q = false -> bwit A p -> bwit B q ->
    bwit (fun z => exists x y, A x /\ B y /\ z = x + y) (badd p q).
  Proof.
    destruct neA as [x0 Ax0], neB as [y0 By0].
    destruct p as [| a |], q as [| b |]; simpl; try discriminate; intros _ WA WB.
    - intros M. destruct (WA (M - y0)) as (x & Ax & Hx). exists (x + y0). split; [eauto|lia].
    - intros M. destruct (WA (M - b)) as (x & Ax & Hx). exists (x + b). split; [eauto|lia].
    - intros M. destruct (WB (M - a)) as (y & Byy & Hy). exists (a + y). split; [eauto|lia].
    - eauto.
    - intros M. destruct (WB (M - a)) as (y & Byy & Hy). exists (a + y). split; [eauto|lia].
    - intros M. destruct (WA (M - b)) as (x & Ax & Hx). exists (x + b). split; [eauto|lia].
    - intros M. destruct (WA (M - y0)) as (x & Ax & Hx). exists (x + y0). split; [eauto|lia].
  Qed.

  Lemma bwit_mul p q : bwit A p -> bwit B q ->
    bwit (fun z => exists x y, A x /\ B y /\ z = x * y) (bmul p q).
  Proof.
    destruct neA as [x0 Ax0], neB as [y0 By0].
    intros WA WB.
    destruct p as [| a |], q as [| b |];
      try (destruct a as [| a | a]); try (destruct b as [| b | b]); simpl in *;
      try (exists x0, 0; repeat split; auto; lia);
      try (exists 0, y0; repeat split; auto; lia);
      try (eexists _, _; repeat split; eauto; fail);
      intros M.
    (* -oo * -oo *)
    - destruct (WA (- Z.abs M - 1)) as (x & Ax & Hx), (WB (- Z.abs M - 1)) as (y & Byy & Hy).
      exists (x * y); split; [eauto|nia].
    (* -oo * pos, -oo * neg *)
    - destruct (WA (- Z.abs M - 1)) as (x & Ax & Hx). exists (x * Z.pos b); split; [eauto|nia].
    - destruct (WA (- Z.abs M - 1)) as (x & Ax & Hx). exists (x * Z.neg b); split; [eauto|nia].
    (* -oo * +oo *)
    - destruct (WA (- Z.abs M - 1)) as (x & Ax & Hx), (WB (Z.abs M + 1)) as (y & Byy & Hy).
      exists (x * y); split; [eauto|nia].
    (* pos * -oo, neg * -oo *)
    - destruct (WB (- Z.abs M - 1)) as (y & Byy & Hy). exists (Z.pos a * y); split; [eauto|nia].
    - destruct (WB (- Z.abs M - 1)) as (y & Byy & Hy). exists (Z.neg a * y); split; [eauto|nia].
    (* pos * +oo, neg * +oo *)
    - destruct (WB (Z.abs M + 1)) as (y & Byy & Hy). exists (Z.pos a * y); split; [eauto|nia].
    - destruct (WB (Z.abs M + 1)) as (y & Byy & Hy). exists (Z.neg a * y); split; [eauto|nia].
    (* +oo * -oo *)
    - destruct (WA (Z.abs M + 1)) as (x & Ax & Hx), (WB (- Z.abs M - 1)) as (y & Byy & Hy).
      exists (x * y); split; [eauto|nia].
    (* +oo * pos, +oo * neg *)
    - destruct (WA (Z.abs M + 1)) as (x & Ax & Hx). exists (x * Z.pos b); split; [eauto|nia].
    - destruct (WA (Z.abs M + 1)) as (x & Ax & Hx). exists (x * Z.neg b); split; [eauto|nia].
    (* +oo * +oo *)
    - destruct (WA (Z.abs M + 1)) as (x & Ax & Hx), (WB (Z.abs M + 1)) as (y & Byy & Hy).
      exists (x * y); split; [eauto|nia].
  Qed.
End Binary.

Lemma bwit_neg_l (A : Z -> Prop) p : bwit A p -> bwit (fun z => exists x, A x /\ z = - x) (bneg p).
Proof.
  destruct p as [| a |]; simpl; intros W.
  - intros M. destruct (W (- M)) as (x & Ax & Hx). exists (- x). split; [eauto|lia].
  - eauto.
  - intros M. destruct (W (- M)) as (x & Ax & Hx). exists (- x). split; [eauto|lia].
Qed.

Lemma bwit_sub (A B : Z -> Prop) p q :
  (exists x, A x) -> (exists y, B y) -> bsub_err p q = false -> bwit A p -> bwit B q ->
  bwit (fun z => exists x y, A x /\ B y /\ z = x - y) (bsub p q).
Proof.
  intros neA [y0 By0] E WA WB.
  apply (bwit_mono (fun z => exists x y', A x /\ (exists y, B y /\ y' = - y) /\ z = x + y')).
  - intros z (x & y' & Ax & (y & Byy & ->) & ->). exists x, y. auto.
  - apply bwit_add; eauto using bwit_neg_l.
Qed.

Ltac wf_nb a :=
  match goal with
  | W : wf a, E : is_bot a = false |- _ =>
      let H1 := fresh "Hl" in let H2 := fresh "Hu" in let H3 := fresh "Hle" in
      destruct (wf_nonbot _ W E) as (H1 & H2 & H3)
  end.

Lemma wf_ijoin a b : wf a -> wf b -> wf (ijoin a b).
Proof.
  intros Wa Wb. unfold ijoin. destruct (is_bot a) eqn:EA; auto. destruct (is_bot b) eqn:EB; auto.
  wf_nb a. wf_nb b. apply wf_imk; [apply bmin_ind|apply bmax_ind]; auto.
Qed.

Lemma wf_imeet a b : wf a -> wf b -> wf (imeet a b).
Proof.
  intros Wa Wb. unfold imeet. destruct (is_bot a) eqn:EA; [apply wf_bot|].
  destruct (is_bot b) eqn:EB; [apply wf_bot|]. cbn [orb].
  wf_nb a. wf_nb b. apply wf_imk; [apply bmax_ind|apply bmin_ind]; auto.
Qed.

Lemma wf_iadd a b : wf a -> wf b -> wf (iadd a b).
Proof.
  intros Wa Wb. unfold iadd. destruct (is_bot a) eqn:EA; [apply wf_bot|].
  destruct (is_bot b) eqn:EB; [apply wf_bot|]. cbn [orb].
  wf_nb a. wf_nb b. apply wf_imk.
  - destruct (lb a), (lb b); simpl; congruence.
  - destruct (ub a), (ub b); simpl; congruence.
Qed.

Lemma wf_isub a b : wf a -> wf b -> wf (isub a b).
Proof.
  intros Wa Wb. unfold isub. destruct (is_bot a) eqn:EA; [apply wf_bot|].
  destruct (is_bot b) eqn:EB; [apply wf_bot|]. cbn [orb].
  wf_nb a. wf_nb b. apply wf_imk.
  - destruct (lb a), (ub b); simpl; congruence.
  - destruct (ub a), (lb b); simpl; congruence.
Qed.

Lemma wf_ineg a : wf a -> wf (ineg a).
Proof.
  intros Wa. unfold ineg. destruct (is_bot a) eqn:EA; [apply wf_bot|].
  wf_nb a. apply wf_imk.
  - destruct (ub a); simpl; congruence.
  - destruct (lb a); simpl; congruence.
Qed.

(* the C++ never reaches its "-oo + +oo" CRAB_ERROR from well-formed operands *)
Lemma iadd_no_error a b : wf a -> wf b -> is_bot a = false -> is_bot b = false ->
  badd_err (lb a) (lb b) = false /\ badd_err (ub a) (ub b) = false.
Proof.
  intros Wa Wb EA EB. wf_nb a. wf_nb b. split.
  - destruct (lb a), (lb b); try reflexivity; congruence.
  - destruct (ub a), (ub b); try reflexivity; congruence.
Qed.

Lemma isub_no_error a b : wf a -> wf b -> is_bot a = false -> is_bot b = false ->
  bsub_err (lb a) (ub b) = false /\ bsub_err (ub a) (lb b) = false.
Proof.
  intros Wa Wb EA EB. wf_nb a. wf_nb b. split.
  - destruct (lb a), (ub b); try reflexivity; congruence.
  - destruct (ub a), (lb b); try reflexivity; congruence.
Qed.

Lemma imk_tight (S : Z -> Prop) l u i :
  (exists z, S z) -> bwit S l -> bwit S u -> (forall z, S z -> gamma i z) ->
  ileq (imk l u) i = true.
Proof.
  intros. unfold imk. destruct (bgt l u); [reflexivity|]. apply (tight_from_wit S); auto.
Qed.

(* a binary operator that returns [imk l u] with l and u witnessed in the set of concrete
   results is tight *)
Lemma binop_tight (f : Z -> Z -> Z) a b l u i :
  wf a -> wf b -> is_bot a = false -> is_bot b = false ->
  let S := fun z => exists x y, gamma a x /\ gamma b y /\ z = f x y in
  bwit S l -> bwit S u ->
  (forall x y, gamma a x -> gamma b y -> gamma i (f x y)) -> ileq (imk l u) i = true.
Proof.
  intros Wa Wb EA EB S WL WU H.
  destruct (wf_inhabited _ Wa EA) as [x0 Gx], (wf_inhabited _ Wb EB) as [y0 Gy].
  apply (imk_tight S); auto.
  - exists (f x0 y0), x0, y0. auto.
  - intros z (x & y & Gx' & Gy' & ->). auto.
Qed.

Theorem iadd_tight a b i : wf a -> wf b ->
  (forall x y, gamma a x -> gamma b y -> gamma i (x + y)) -> ileq (iadd a b) i = true.
Proof.
  intros Wa Wb H. unfold iadd. destruct (is_bot a) eqn:EA; auto. destruct (is_bot b) eqn:EB; auto.
  destruct (wf_bwit _ Wa EA), (wf_bwit _ Wb EB), (iadd_no_error a b Wa Wb EA EB).
  apply (binop_tight Z.add a b); auto; apply bwit_add; eauto using wf_inhabited.
Qed.

Theorem isub_tight a b i : wf a -> wf b ->
  (forall x y, gamma a x -> gamma b y -> gamma i (x - y)) -> ileq (isub a b) i = true.
Proof.
  intros Wa Wb H. unfold isub. destruct (is_bot a) eqn:EA; auto. destruct (is_bot b) eqn:EB; auto.
  destruct (wf_bwit _ Wa EA), (wf_bwit _ Wb EB), (isub_no_error a b Wa Wb EA EB).
  apply (binop_tight Z.sub a b); auto; apply bwit_sub; eauto using wf_inhabited.
Qed.

Theorem ineg_tight a i : wf a ->
  (forall x, gamma a x -> gamma i (- x)) -> ileq (ineg a) i = true.
Proof.
  intros Wa H. unfold ineg. destruct (is_bot a) eqn:EA; auto.
  destruct (wf_inhabited _ Wa EA) as [x0 Gx], (wf_bwit _ Wa EA).
  apply (imk_tight (fun z => exists x, gamma a x /\ z = - x)); auto using bwit_neg_l.
  - exists (- x0), x0. auto.
  - intros z (x & Gx' & ->). auto.
Qed.

Theorem imul_tight a b i : wf a -> wf b ->
  (forall x y, gamma a x -> gamma b y -> gamma i (x * y)) -> ileq (imul a b) i = true.
Proof.
  intros Wa Wb H. unfold imul. destruct (is_bot a) eqn:EA; auto. destruct (is_bot b) eqn:EB; auto.
  destruct (wf_bwit _ Wa EA), (wf_bwit _ Wb EB).
  apply (binop_tight Z.mul a b); auto; unfold bmin4, bmax4;
    repeat first [apply bmin_ind | apply bmax_ind]; apply bwit_mul; eauto using wf_inhabited.
Qed.

Theorem ijoin_tight a b i : wf a -> wf b ->
  (forall x, gamma a x \/ gamma b x -> gamma i x) -> ileq (ijoin a b) i = true.
Proof.
  intros Wa Wb H. unfold ijoin.
  destruct (is_bot a) eqn:EA.
  { apply ileq_complete; auto. }
  destruct (is_bot b) eqn:EB.
  { apply ileq_complete; auto. }
  destruct (wf_inhabited _ Wa EA) as [x0 Gx], (wf_bwit _ Wa EA), (wf_bwit _ Wb EB).
  apply (imk_tight (fun z => gamma a z \/ gamma b z)); eauto.
  - apply bmin_ind; [apply (bwit_mono (gamma a))|apply (bwit_mono (gamma b))]; auto.
  - apply bmax_ind; [apply (bwit_mono (gamma a))|apply (bwit_mono (gamma b))]; auto.
Qed.

Theorem imeet_tight a b i : wf a -> wf b ->
  (forall x, gamma a x -> gamma b x -> gamma i x) -> ileq (imeet a b) i = true.
Proof.
  intros Wa Wb H. apply ileq_complete.
  - apply wf_imeet; auto.
  - intros x G. apply imeet_exact in G. destruct G; auto.
Qed.

(* non-vacuity: a zero-crossing and a half-infinite operand *)
Example tight_example :
  wf (mkI (Fin (-2)) (Fin 3)) /\ wf (mkI MInf (Fin 4)) /\
  imul (mkI (Fin (-2)) (Fin 3)) (mkI MInf (Fin 4)) = mkI MInf PInf /\
  imul (mkI (Fin 2) (Fin 3)) (mkI MInf (Fin 4)) = mkI MInf (Fin 12).
Proof.
  repeat split; try (right; simpl; repeat split; congruence).
Qed.
