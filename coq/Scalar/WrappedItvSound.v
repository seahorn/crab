(* WrappedItvSound.v — membership soundness of the wrapped-interval model
   (Scalar/WrappedItv.v) with respect to the wrapint operations (Num/Wrapint.v):
   every bit-vector result of operands drawn from the argument intervals lies in the
   result interval, including across the north and south poles, top and bottom.

     wfw w x      : x is a well-formed wrapint of bitwidth w
     iwf w i      : i is an interval of bitwidth w (bottom, the canonical top, or bounds of
                    bitwidth w)
     gamma w i x  : the w-bit number x is a member of i  (wi_at, the model of at())
     range_nt w i : i is neither bottom nor top
     rel w o p    : the distance from o to p, clockwise
     cut w c d    : d follows c; the circle cut open between them has d first and c last
     extends w S res r : r is well formed and contains res and the numbers in S

   Membership only depends on distances, so the lemmas about two intervals (order, join,
   meet) measure every point from the start of one of them, and the order test itself is a
   chain of distances ([leq_rel]).  The arithmetic operators cut their operands at the poles
   first; both poles are cuts, and what the limits, the splits and the half lines need is
   proved once for a cut (Section Cut).  [sfree] pieces do not cross the south pole
   (1..1 -> 0..0), [hemi] pieces cross neither pole, and on those the unsigned (signed)
   order of the members is the order of the integers.  The loops that join the results of the
   pieces (operator*, SDiv, UDiv, ZExt, SExt) are instances of [loop_extends]. *)
From Coq Require Import ZArith Lia Bool List.
From CrabV Require Import Num.Wrapint Num.WrapintSound Scalar.WrappedItv.
Import ListNotations.
Local Open Scope Z_scope.

Definition inr (M s e x : Z) : Prop := (x - s) mod M <= (e - s) mod M.

Lemma msub_cases M a b : 0 <= a < M -> 0 <= b < M ->
  ((a - b) mod M = a - b /\ b <= a) \/ ((a - b) mod M = a - b + M /\ a < b).
Proof.
  intros Ha Hb. destruct (Z_le_gt_dec b a).
  - left. split; [apply Z.mod_small; lia|lia].
  - right. split; [|lia]. symmetry. apply (Z.mod_unique (a - b) M (-1)); lia.
Qed.

(* membership in the wrapped interval [s,e] by comparisons of the representatives *)
Definition inb (s e p : Z) : bool :=
  if s <=? e then (s <=? p) && (p <=? e) else (s <=? p) || (p <=? e).

Lemma inb_spec M s e p : 0 <= s < M -> 0 <= e < M -> 0 <= p < M ->
  ((p - s) mod M <=? (e - s) mod M) = inb s e p.
Proof.
  intros Hs He Hp. unfold inb.
  destruct (msub_cases M p s Hp Hs) as [[-> ?]|[-> ?]];
  destruct (msub_cases M e s He Hs) as [[-> ?]|[-> ?]];
  destruct (Z.leb_spec s e); destruct (Z.leb_spec s p); destruct (Z.leb_spec p e); simpl;
  try lia; (apply Z.leb_le || apply Z.leb_gt); lia.
Qed.

(* membership only depends on the distances: every point can be measured from any origin o *)
Lemma inb_rot M o s e p : 0 < M ->
  inb ((s - o) mod M) ((e - o) mod M) ((p - o) mod M) = ((p - s) mod M <=? (e - s) mod M).
Proof.
  intros HM. rewrite <- (inb_spec M) by (apply Z.mod_pos_bound; exact HM).
  rewrite <- !Zminus_mod. f_equal; f_equal; lia.
Qed.

Lemma inb_0 e p : 0 <= e -> 0 <= p -> inb 0 e p = (p <=? e).
Proof.
  intros He Hp. unfold inb. rewrite (proj2 (Z.leb_le 0 e) He), (proj2 (Z.leb_le 0 p) Hp). reflexivity.
Qed.

Lemma inb_le s e p : s <= p <= e -> inb s e p = true.
Proof. intros H. unfold inb. rewrite !(proj2 (Z.leb_le _ _)) by lia. reflexivity. Qed.

(* [dec_all]: case analysis on every integer comparison ([<=?], [<?], [=?]) that occurs in the goal
   or in a hypothesis.  In each case the comparisons are replaced by their truth values and the case
   is closed by [discriminate] (a hypothesis has become false = true), by [reflexivity] (the goal has
   become an identity between booleans) or by [lia] (the case is contradictory).  It closes a goal
   that is a boolean combination of comparisons between integer variables and follows, case by
   case, from hypotheses of the same kind and from linear facts; where linear arithmetic is left
   in the surviving cases, the call is [dec_all; lia]. *)
Ltac dec_cmp a b :=
  let P := fresh "P" in
  destruct (Z.leb_spec a b) as [P|P];
  [rewrite ?(proj2 (Z.leb_le a b) P) in * | rewrite ?(proj2 (Z.leb_gt a b) P) in *].
Ltac dec_lt a b :=
  let P := fresh "P" in
  destruct (Z.ltb_spec a b) as [P|P];
  [rewrite ?(proj2 (Z.ltb_lt a b) P) in * | rewrite ?(proj2 (Z.ltb_ge a b) P) in *].
Ltac dec_eq a b :=
  let P := fresh "P" in
  destruct (Z.eqb_spec a b) as [P|P];
  [rewrite ?(proj2 (Z.eqb_eq a b) P) in * | rewrite ?(proj2 (Z.eqb_neq a b) P) in *].
Ltac dec_step :=
  match goal with
  | H : context [?a <=? ?b] |- _ => dec_cmp a b
  | |- context [?a <=? ?b] => dec_cmp a b
  | H : context [?a <? ?b] |- _ => dec_lt a b
  | |- context [?a <? ?b] => dec_lt a b
  | H : context [?a =? ?b] |- _ => dec_eq a b
  | |- context [?a =? ?b] => dec_eq a b
  end; cbn [andb orb negb] in *; try discriminate; try reflexivity; try (exfalso; lia).
Ltac dec_all := cbn [andb orb negb] in *; repeat dec_step.

Lemma mod_eq_small M a b : 0 < M -> a mod M = b mod M -> - M < a - b < M -> a = b.
Proof.
  intros HM E R.
  pose proof (Z.div_mod a M ltac:(lia)) as Da. pose proof (Z.div_mod b M ltac:(lia)) as Db.
  assert (a - b = M * (a / M - b / M)) as D by lia.
  assert (a / M - b / M = 0) by nia. lia.
Qed.

Lemma msub_inj M o a b : 0 <= a < M -> 0 <= b < M -> (a - o) mod M = (b - o) mod M -> a = b.
Proof. intros Ha Hb E. apply (mod_eq_small M) in E; lia. Qed.

(* the distance from s to e is M - 1: e is the predecessor of s *)
Lemma top_Z M s e : 0 <= s < M -> 0 <= e < M ->
  ((e - s) mod M =? M - 1) = (s =? e + 1) || ((s =? 0) && (e =? M - 1)).
Proof. intros Hs He. destruct (msub_cases M e s He Hs) as [[-> ?]|[-> ?]]; dec_all. Qed.

Definition wfw (w : Z) (x : wrapint) : Prop := wf x /\ ww x = w.

Lemma wfw_range w x : wfw w x -> 1 <= w <= 64 /\ 0 <= wn x < 2 ^ w.
Proof. intros [[H1 H2] <-]. auto. Qed.

Lemma wfw_eq w a b : wfw w a -> wfw w b -> wn a = wn b -> a = b.
Proof. intros [_ Ea] [_ Eb]. apply wrapint_eq. congruence. Qed.

(* the specifications of Num/WrapintSound.v for operands of bitwidth w *)
Lemma binop_val (op : wrapint -> wrapint -> wrapint) (f : Z -> Z -> Z) :
  (forall a b, wf a -> wf b -> ww a = ww b ->
     wf (op a b) /\ ww (op a b) = ww a /\ to_Z (op a b) = wrap (ww a) (f (to_Z a) (to_Z b))) ->
  forall w a b, wfw w a -> wfw w b -> wfw w (op a b) /\ wn (op a b) = f (wn a) (wn b) mod 2 ^ w.
Proof.
  intros S w a b [Wa Ea] [Wb Eb]. destruct (S a b Wa Wb (eq_trans Ea (eq_sym Eb))) as (A & B & C).
  rewrite Ea in B, C. split; [split; assumption|exact C].
Qed.
Definition wsub_val := binop_val wsub Z.sub wsub_spec.
Definition wadd_val := binop_val wadd Z.add wadd_spec.
Definition wmul_val := binop_val wmul Z.mul wmul_spec.

Lemma unop_val (op : wrapint -> wrapint) (f : Z -> Z) :
  (forall a, wf a -> wf (op a) /\ ww (op a) = ww a /\ to_Z (op a) = wrap (ww a) (f (to_Z a))) ->
  forall w a, wfw w a -> wfw w (op a) /\ wn (op a) = f (wn a) mod 2 ^ w.
Proof.
  intros S w a [Wa Ea]. destruct (S a Wa) as (A & B & C). rewrite Ea in B, C. split; [split; assumption|exact C].
Qed.
Definition wneg_val := unop_val wneg Z.opp wneg_spec.
Definition wpreinc_val := unop_val wpreinc (fun z => z + 1) wpreinc_spec.
Definition wpredec_val := unop_val wpredec (fun z => z - 1) wpredec_spec.

Lemma const_val w c z : wf c /\ ww c = w /\ to_Z c = z -> wfw w c /\ wn c = z.
Proof. intros (A & B & C). split; [split; assumption|exact C]. Qed.
Definition umax_val w (H : 1 <= w <= 64) := const_val w _ _ (get_unsigned_max_spec w H).
Definition umin_val w (H : 1 <= w <= 64) := const_val w _ _ (get_unsigned_min_spec w H).
Definition smax_val w (H : 1 <= w <= 64) := const_val w _ _ (get_signed_max_spec w H).
Definition smin_val w (H : 1 <= w <= 64) := const_val w _ _ (get_signed_min_spec w H).

(* an interval of bitwidth w: bottom, top (the canonical [0,7] of bitwidth 3 or any interval
   with end - start = 2^width - 1), or two bounds of bitwidth w *)
Definition iwf (w : Z) (i : witv) : Prop :=
  wbot i = true \/ is_top i = true \/ (wbot i = false /\ wfw w (wstart i) /\ wfw w (wend i)).

Definition gamma (w : Z) (i : witv) (x : wrapint) : Prop := wfw w x /\ wi_at i x = true.

(* neither bottom nor top: the bounds are w-bit numbers *)
Definition range_nt (w : Z) (i : witv) : Prop :=
  wbot i = false /\ is_top i = false /\ wfw w (wstart i) /\ wfw w (wend i).

Lemma is_top_wi_top : is_top wi_top = true.
Proof. reflexivity. Qed.

Lemma range_nt_of w i : iwf w i -> is_bottom i = false -> is_top i = false -> range_nt w i.
Proof.
  unfold is_bottom. intros [B|[T|(B & H)]] NB NT; [congruence|congruence|]. split; [exact B|]. split; [exact NT|exact H].
Qed.

Lemma range_nt_mk w s e : wfw w s -> wfw w e -> is_top (wi_mk s e) = false -> range_nt w (wi_mk s e).
Proof. intros. split; [reflexivity|]. split; [assumption|]. split; assumption. Qed.

Lemma iwf_mk w s e : wfw w s -> wfw w e -> iwf w (wi_mk s e).
Proof. intros. right. right. simpl. auto. Qed.
Lemma iwf_of_top w i : is_top i = true -> iwf w i.
Proof. intros T. right. left. exact T. Qed.
Lemma iwf_top w : iwf w wi_top.
Proof. apply iwf_of_top. reflexivity. Qed.
Lemma iwf_bottom w : iwf w wi_bottom.
Proof. left. reflexivity. Qed.

Lemma is_top_range w i : wbot i = false -> wfw w (wstart i) -> wfw w (wend i) ->
  is_top i = ((wn (wend i) - wn (wstart i)) mod 2 ^ w =? 2 ^ w - 1).
Proof.
  intros B Hs He. unfold is_top. rewrite B. simpl.
  destruct (wsub_val w _ _ He Hs) as [_ V]. unfold weq. rewrite V.
  unfold get_bitwidth. destruct Hs as [Ws Es]. rewrite Es.
  destruct (umax_val w) as [_ U]; [rewrite <- Es; apply Ws|]. rewrite U. reflexivity.
Qed.

Lemma at_top i x : is_bottom i = false -> is_top i = true -> wi_at i x = true.
Proof. intros B T. unfold wi_at. rewrite B, T. reflexivity. Qed.
Lemma at_bot i x : is_bottom i = true -> wi_at i x = false.
Proof. intros B. unfold wi_at. rewrite B. reflexivity. Qed.

Lemma top_not_bot i : is_top i = true -> is_bottom i = false.
Proof. unfold is_top, is_bottom. destruct (wbot i); simpl; congruence. Qed.

Lemma gamma_bot w i v : is_bottom i = true -> ~ gamma w i v.
Proof. intros B [_ H]. rewrite at_bot in H by exact B. discriminate. Qed.

Lemma gamma_top w i v : is_top i = true -> wfw w v -> gamma w i v.
Proof. intros T H. split; [exact H|]. apply at_top; [apply top_not_bot|]; exact T. Qed.

(* an interval with a member is top or has two bounds *)
Lemma gamma_cases w i v : iwf w i -> gamma w i v ->
  is_bottom i = false /\ (is_top i = true \/ is_top i = false /\ range_nt w i).
Proof.
  intros W G. destruct (is_bottom i) eqn:B; [elim (gamma_bot w i v B G)|]. split; [reflexivity|].
  destruct (is_top i) eqn:T; [left; reflexivity|right]. split; [reflexivity|apply range_nt_of; assumption].
Qed.

(* the distance from o to p, clockwise *)
Definition rel (w : Z) (o p : wrapint) : Z := (wn p - wn o) mod 2 ^ w.

Lemma rel_range w o p : 1 <= w <= 64 -> 0 <= rel w o p < 2 ^ w.
Proof. intros. apply Z.mod_pos_bound, pow2_pos. lia. Qed.
Lemma rel_self w o : rel w o o = 0.
Proof. unfold rel. rewrite Z.sub_diag. apply Zmod_0_l. Qed.

Lemma weq_rel w o a b : wfw w a -> wfw w b -> weq a b = (rel w o a =? rel w o b).
Proof.
  intros Ha Hb. pose proof (wfw_range _ _ Ha) as [_ Ra]. pose proof (wfw_range _ _ Hb) as [_ Rb].
  unfold weq, rel. destruct (Z.eqb_spec (wn a) (wn b)) as [->|N]; [symmetry; apply Z.eqb_refl|].
  symmetry. apply Z.eqb_neq. intros E. apply N. exact (msub_inj _ _ _ _ Ra Rb E).
Qed.

Lemma is_top_rel w o i : wbot i = false -> wfw w (wstart i) -> wfw w (wend i) ->
  is_top i = (rel w o (wstart i) =? rel w o (wend i) + 1) ||
             ((rel w o (wstart i) =? 0) && (rel w o (wend i) =? 2 ^ w - 1)).
Proof.
  intros B Hs He. pose proof (wfw_range _ _ Hs) as [Hw _]. rewrite (is_top_range w) by assumption.
  replace ((wn (wend i) - wn (wstart i)) mod 2 ^ w) with ((rel w o (wend i) - rel w o (wstart i)) mod 2 ^ w)
    by (unfold rel; rewrite <- Zminus_mod; f_equal; lia).
  apply top_Z; apply rel_range; exact Hw.
Qed.

Lemma at_range w i x : range_nt w i -> wfw w x ->
  wi_at i x = ((wn x - wn (wstart i)) mod 2 ^ w <=? (wn (wend i) - wn (wstart i)) mod 2 ^ w).
Proof.
  intros (B & T & Hs & He) Hx. unfold wi_at, is_bottom. rewrite B, T.
  destruct (wsub_val w _ _ Hx Hs) as [_ V1]. destruct (wsub_val w _ _ He Hs) as [_ V2].
  unfold wle. rewrite V1, V2. reflexivity.
Qed.

Lemma at_rel w o i x : range_nt w i -> wfw w x ->
  wi_at i x = inb (rel w o (wstart i)) (rel w o (wend i)) (rel w o x).
Proof.
  intros R Hx. rewrite (at_range w i x R Hx). symmetry. apply inb_rot, pow2_pos.
  destruct (wfw_range _ _ Hx). lia.
Qed.

Lemma at_inb w i x : range_nt w i -> wfw w x -> wi_at i x = inb (wn (wstart i)) (wn (wend i)) (wn x).
Proof.
  intros R Hx. rewrite (at_range w i x R Hx). destruct R as (_ & _ & Hs & He).
  apply inb_spec; eapply wfw_range; eassumption.
Qed.

Lemma gamma_mk w s e v : wfw w s -> wfw w e -> wfw w v ->
  (wn v - wn s) mod 2 ^ w <= (wn e - wn s) mod 2 ^ w -> gamma w (wi_mk s e) v.
Proof.
  intros Hs He Hv H. split; [exact Hv|].
  destruct (is_top (wi_mk s e)) eqn:T; [apply at_top; [reflexivity|exact T]|].
  rewrite (at_range w) by (try apply range_nt_mk; assumption). apply Z.leb_le. exact H.
Qed.

Lemma gamma_range w i v : range_nt w i -> gamma w i v ->
  (wn v - wn (wstart i)) mod 2 ^ w <= (wn (wend i) - wn (wstart i)) mod 2 ^ w.
Proof. intros R [Hv G]. rewrite (at_range w) in G by assumption. apply Z.leb_le. exact G. Qed.

Lemma gamma_mk_rel w o s e v : wfw w s -> wfw w e -> wfw w v ->
  inb (rel w o s) (rel w o e) (rel w o v) = true -> gamma w (wi_mk s e) v.
Proof.
  intros Hs He Hv H. apply gamma_mk; try assumption. apply Z.leb_le. rewrite <- H. symmetry.
  apply inb_rot, pow2_pos. destruct (wfw_range _ _ Hv). lia.
Qed.

Lemma gamma_mk_inb w s e v : wfw w s -> wfw w e -> wfw w v ->
  inb (wn s) (wn e) (wn v) = true -> gamma w (wi_mk s e) v.
Proof.
  intros Hs He Hv H. apply gamma_mk; try assumption. apply Z.leb_le. rewrite <- H.
  apply inb_spec; eapply wfw_range; eassumption.
Qed.

Lemma gamma_inb w i v : range_nt w i -> gamma w i v -> inb (wn (wstart i)) (wn (wend i)) (wn v) = true.
Proof. intros R [Hv G]. rewrite (at_inb w) in G by assumption. exact G. Qed.

Lemma leq_false_l a x : wi_leq a x = false -> is_top x = false /\ is_bottom a = false.
Proof.
  unfold wi_leq. destruct (is_top x); [discriminate|]. destruct (is_bottom a); [discriminate|]. auto.
Qed.

Lemma not_leq_ranges w a x : iwf w a -> iwf w x -> wi_leq a x = false -> wi_leq x a = false ->
  range_nt w a /\ range_nt w x.
Proof.
  intros Wa Wx L1 L2. destruct (leq_false_l _ _ L1) as [Tx Ba]. destruct (leq_false_l _ _ L2) as [Ta Bx].
  split; apply range_nt_of; assumption.
Qed.

(* The proofs about two intervals a and x measure every point from one origin o, the start
   of one of the intervals: that interval becomes [0,l] and no longer wraps around.
   [rel_vars] makes the distances from o variables. *)
Ltac rel_vars w o Hw :=
  rewrite ?rel_self in *;
  repeat match goal with
  | |- context [rel w o ?p] =>
    let r := fresh "r" in pose proof (rel_range w o p Hw); set (r := rel w o p) in *; clearbody r
  | _ : context [rel w o ?p] |- _ =>
    let r := fresh "r" in pose proof (rel_range w o p Hw); set (r := rel w o p) in *; clearbody r
  end;
  rewrite ?inb_0 in * by lia; unfold inb in *.

(* a <= x: going clockwise from the start of x one meets the start of a, the end of a and the
   end of x, in this order (a may be top) *)
Lemma leq_rel w o a x : wbot a = false -> wfw w (wstart a) -> wfw w (wend a) -> range_nt w x ->
  wi_leq a x = inb (rel w o (wstart x)) (rel w o (wend a)) (rel w o (wstart a)) &&
               inb (rel w o (wstart x)) (rel w o (wend x)) (rel w o (wend a)).
Proof.
  intros Ba Hs He Rx. pose proof Rx as (Bx & Tx & Hxs & Hxe). pose proof (wfw_range _ _ Hs) as [Hw _].
  unfold rel. rewrite !inb_rot by (apply pow2_pos; lia).
  fold (rel w (wstart x) (wstart a)) (rel w (wstart x) (wend a)) (rel w (wstart x) (wend x)).
  unfold wi_leq, is_bottom. rewrite Ba, Bx, Tx. cbn [orb]. rewrite (is_top_rel w (wstart x)) in Tx by assumption.
  destruct (is_top a) eqn:Ta.
  - rewrite (is_top_rel w (wstart x)) in Ta by assumption. rel_vars w (wstart x) Hw. clear Rx Hs He Hxs Hxe. dec_all.
  - pose proof (conj Ba (conj Ta (conj Hs He))) as Ra.
    rewrite !(at_rel w (wstart x)), !(weq_rel w (wstart x)) by assumption.
    rel_vars w (wstart x) Hw. clear Ra Rx Hs He Hxs Hxe Ta Tx. dec_all.
Qed.

Lemma leq_rel_nt w o a x : range_nt w a -> range_nt w x ->
  wi_leq a x = inb (rel w o (wstart x)) (rel w o (wend a)) (rel w o (wstart a)) &&
               inb (rel w o (wstart x)) (rel w o (wend x)) (rel w o (wend a)).
Proof. intros (B & _ & Hs & He). apply leq_rel; assumption. Qed.

(* [rotate] rewrites every order test ([leq_rel_nt]) and membership test ([at_rel]) on intervals that
   are neither bottom nor top into comparisons of distances from o, then calls [rel_vars].  What is
   left speaks of integer variables in [0, 2^w) only and [dec_all] closes it; the [clear]s between the
   two only drop the hypotheses about wrapints, which are of no use any more. *)
Ltac rotate w o Hw := rewrite ?(leq_rel_nt w o), ?(at_rel w o) in * by assumption; rel_vars w o Hw.

Lemma leq_sound w a x v : iwf w a -> iwf w x -> wi_leq a x = true -> gamma w a v -> gamma w x v.
Proof.
  intros Wa Wx L [Hv G].
  destruct (is_top x) eqn:Tx; [apply gamma_top; assumption|].
  destruct (is_bottom a) eqn:Ba; [rewrite at_bot in G by exact Ba; discriminate|].
  destruct (is_bottom x) eqn:Bx; [unfold wi_leq in L; rewrite Tx, Ba, Bx in L; discriminate|].
  destruct (is_top a) eqn:Ta; [unfold wi_leq in L; rewrite Tx, Ba, Bx, Ta in L; discriminate|].
  pose proof (range_nt_of w a Wa Ba Ta) as Ra. pose proof (range_nt_of w x Wx Bx Tx) as Rx.
  split; [exact Hv|]. pose proof (wfw_range _ _ Hv) as [Hw _]. clear Wa Wx Tx Ba Bx Ta.
  rotate w (wstart x) Hw. clear Ra Rx Hv. dec_all.
Qed.

Lemma join_sound w a x v : iwf w a -> iwf w x -> gamma w a v \/ gamma w x v -> gamma w (wi_join a x) v.
Proof.
  intros Wa Wx G. unfold wi_join.
  destruct (wi_leq a x) eqn:L1.
  { destruct G as [G|G]; [exact (leq_sound w a x v Wa Wx L1 G)|exact G]. }
  destruct (wi_leq x a) eqn:L2.
  { destruct G as [G|G]; [exact G|exact (leq_sound w x a v Wx Wa L2 G)]. }
  destruct (not_leq_ranges w a x Wa Wx L1 L2) as (Ra & Rx).
  pose proof Ra as (_ & _ & Hs & He). pose proof Rx as (_ & _ & Hxs & Hxe).
  assert (wfw w v) as Hv by (destruct G as [[H _]|[H _]]; exact H).
  pose proof (wfw_range _ _ Hv) as [Hw _].
  assert (wi_at a v || wi_at x v = true) as G'.
  { apply orb_true_iff. destruct G as [G|G]; [left|right]; apply G. }
  clear G Wa Wx.
  match goal with |- context [if wlt ?p ?q || ?r then _ else _] => generalize (wlt p q || r) end.
  intros gapc.
  repeat match goal with
  | |- context [if ?c then _ else _] => let E := fresh "E" in destruct c eqn:E
  end; try (apply gamma_top; [reflexivity|exact Hv]);
  (apply (gamma_mk_rel w (wstart a)); [assumption|assumption|assumption|]);
  rotate w (wstart a) Hw; clear Ra Rx Hs He Hxs Hxe Hv; dec_all.
Qed.

Lemma iwf_join w a x : iwf w a -> iwf w x -> iwf w (wi_join a x).
Proof.
  intros Wa Wx. unfold wi_join.
  destruct (wi_leq a x) eqn:L1; [exact Wx|].
  destruct (wi_leq x a) eqn:L2; [exact Wa|].
  destruct (not_leq_ranges w a x Wa Wx L1 L2) as ((_ & _ & Hs & He) & (_ & _ & Hxs & Hxe)).
  repeat match goal with
  | |- context [if ?c then _ else _] => destruct c
  end; try apply iwf_top; apply iwf_mk; assumption.
Qed.

Lemma leq_bot_l a x : is_bottom a = true -> wi_leq a x = true.
Proof. intros B. unfold wi_leq. rewrite B, orb_true_r. reflexivity. Qed.

Lemma meet_sound w a x v : iwf w a -> iwf w x -> gamma w a v -> gamma w x v -> gamma w (wi_meet a x) v.
Proof.
  intros Wa Wx Ga Gx. unfold wi_meet.
  destruct (wi_leq a x) eqn:L1; [exact Ga|].
  destruct (wi_leq x a) eqn:L2; [exact Gx|].
  destruct (not_leq_ranges w a x Wa Wx L1 L2) as (Ra & Rx).
  pose proof Ra as (_ & _ & Hs & He). pose proof Rx as (_ & _ & Hxs & Hxe).
  pose proof Ga as [Hv Ia]. pose proof Gx as [_ Ix]. pose proof (wfw_range _ _ Hv) as [Hw _].
  clear Wa Wx.
  match goal with |- context [if wlt ?p ?q || ?r then _ else _] => generalize (wlt p q || r) end.
  intros gapc.
  repeat match goal with
  | |- context [if ?c then _ else _] => let E := fresh "E" in destruct c eqn:E
  end; try assumption; try (apply (gamma_mk_rel w (wstart a)); [assumption|assumption|assumption|]);
  clear Ga Gx; rotate w (wstart a) Hw; clear Ra Rx Hs He Hxs Hxe Hv; dec_all.
Qed.

Lemma iwf_meet w a x : iwf w a -> iwf w x -> iwf w (wi_meet a x).
Proof.
  intros Wa Wx. unfold wi_meet.
  destruct (wi_leq a x) eqn:L1; [exact Wa|].
  destruct (wi_leq x a) eqn:L2; [exact Wx|].
  destruct (not_leq_ranges w a x Wa Wx L1 L2) as ((_ & _ & Hs & He) & (_ & _ & Hxs & Hxe)).
  repeat match goal with
  | |- context [if ?c then _ else _] => destruct c
  end; try assumption; try apply iwf_bottom; apply iwf_mk; assumption.
Qed.

Lemma eq_sound w a x v : iwf w a -> iwf w x -> wi_eq a x = true -> (gamma w a v <-> gamma w x v).
Proof.
  intros Wa Wx E. unfold wi_eq in E. apply andb_true_iff in E. destruct E as [E1 E2].
  split; intros G; [exact (leq_sound w a x v Wa Wx E1 G)|exact (leq_sound w x a v Wx Wa E2 G)].
Qed.

Lemma madd_cases M a b : 0 <= a < M -> 0 <= b < M ->
  ((a + b) mod M = a + b /\ a + b < M) \/ ((a + b) mod M = a + b - M /\ M <= a + b).
Proof.
  intros Ha Hb. destruct (Z_lt_ge_dec (a + b) M).
  - left. split; [apply Z.mod_small; lia|lia].
  - right. split; [|lia]. symmetry. apply (Z.mod_unique (a + b) M 1); lia.
Qed.

(* the overflow test of operator+ / operator-: x_sz + sz + 1 <= x_sz (mod M) is false exactly
   when the two lengths add up to less than M - 1 *)
Lemma no_overflow_Z M la lx : 1 < M -> 0 <= la < M -> 0 <= lx < M ->
  (((lx + la) mod M + 1 mod M) mod M <=? lx) = false -> lx + la + 1 < M.
Proof.
  intros HM Ha Hx H. apply Z.leb_gt in H.
  rewrite (Z.mod_small 1 M) in H by lia.
  destruct (madd_cases M lx la Hx Ha) as [[E1 ?]|[E1 ?]]; rewrite E1 in H.
  - destruct (Z.eq_dec (lx + la + 1) M) as [EQ|NE]; [|lia].
    rewrite EQ, Z.mod_same in H by lia. lia.
  - rewrite Z.mod_small in H by lia. lia.
Qed.

Lemma dist_end_Z M s e v : 0 < M -> (v - s) mod M <= (e - s) mod M ->
  (e - v) mod M = (e - s) mod M - (v - s) mod M.
Proof.
  intros HM H.
  pose proof (Z.mod_pos_bound (v - s) M HM). pose proof (Z.mod_pos_bound (e - s) M HM).
  replace (e - v) with ((e - s) - (v - s)) by lia. rewrite Zminus_mod. apply Z.mod_small. lia.
Qed.

Lemma pow2_gt1 w : 1 <= w -> 1 < 2 ^ w.
Proof. intros. change 1 with (2 ^ 0) at 1. apply Z.pow_lt_mono_r; lia. Qed.

Lemma wmk_wfw n w : 1 <= w <= 64 -> 0 <= n < 2 ^ 64 -> wfw w (wmk n w) /\ wn (wmk n w) = n mod 2 ^ w.
Proof. intros H Hn. apply const_val, wmk_spec; assumption. Qed.

(* operator+ and operator- differ only in the bounds [res] returned when the sum of the
   lengths does not overflow *)
Definition addsub (a x res : witv) : witv :=
  if is_bottom a || is_bottom x then wi_bottom
  else if is_top a || is_top x then wi_top
  else
    let x_sz := wsub (wend x) (wstart x) in
    let sz := wsub (wend a) (wstart a) in
    if wle (wadd (wadd x_sz sz) (wmk 1 (get_bitwidth x_sz))) x_sz then wi_top else res.

(* The result r of the concrete operation lies in [rs,re] when, measured from rs, r is at the
   distance of v from the start of a plus some dy bounded by the length of x, and re at the sum
   of the two lengths. *)
Lemma addsub_sound w a x v y rs re r dy : iwf w a -> iwf w x -> gamma w a v -> gamma w x y -> wfw w r ->
  (range_nt w a -> range_nt w x ->
   wfw w rs /\ wfw w re /\ 0 <= dy <= rel w (wstart x) (wend x) /\
   rel w rs r = (rel w (wstart a) v + dy) mod 2 ^ w /\
   rel w rs re = (rel w (wstart a) (wend a) + rel w (wstart x) (wend x)) mod 2 ^ w) ->
  gamma w (addsub a x (wi_mk rs re)) r.
Proof.
  intros Wa Wx Ga Gx Hr K. unfold addsub.
  destruct (gamma_cases w a v Wa Ga) as (-> & Ca). destruct (gamma_cases w x y Wx Gx) as (-> & Cx). cbn [orb].
  destruct Ca as [->|(-> & Ra)]; [apply gamma_top; [reflexivity|exact Hr]|].
  destruct Cx as [->|(-> & Rx)]; [apply gamma_top; [reflexivity|exact Hr]|]. cbn [orb].
  pose proof Ra as (_ & _ & Hs & He). pose proof Rx as (_ & _ & Hxs & Hxe).
  pose proof (wfw_range _ _ Hs) as [Hw _]. pose proof (pow2_gt1 w ltac:(lia)) as M1.
  destruct (wsub_val w _ _ Hxe Hxs) as [Hxsz Vxsz]. destruct (wsub_val w _ _ He Hs) as [Hsz Vsz].
  assert (get_bitwidth (wsub (wend x) (wstart x)) = w) as -> by apply Hxsz.
  destruct (wmk_wfw 1 w Hw) as [Hone Vone]; [split; [lia|reflexivity]|].
  destruct (wadd_val w _ _ Hxsz Hsz) as [H1 V1]. destruct (wadd_val w _ _ H1 Hone) as [_ V2].
  unfold wle. rewrite V2, V1, Vone, Vxsz, Vsz. fold (rel w (wstart x) (wend x)) (rel w (wstart a) (wend a)).
  pose proof (rel_range w (wstart x) (wend x) Hw). pose proof (rel_range w (wstart a) (wend a) Hw).
  destruct (_ <=? _) eqn:OV; [apply gamma_top; [reflexivity|exact Hr]|].
  apply no_overflow_Z in OV; [|lia|assumption|assumption].
  destruct (K Ra Rx) as (Hrs & Hre & Rdy & E1 & E2).
  pose proof (gamma_range w a v Ra Ga) as Gv. fold (rel w (wstart a) v) (rel w (wstart a) (wend a)) in Gv.
  pose proof (rel_range w (wstart a) v Hw).
  apply gamma_mk; try assumption. fold (rel w rs r) (rel w rs re). rewrite E1, E2, !Z.mod_small by lia. lia.
Qed.

Lemma iwf_addsub w a x res : iwf w a -> iwf w x -> (range_nt w a -> range_nt w x -> iwf w res) ->
  iwf w (addsub a x res).
Proof.
  intros Wa Wx K. unfold addsub.
  destruct (is_bottom a) eqn:Ba; [apply iwf_bottom|]. destruct (is_bottom x) eqn:Bx; [apply iwf_bottom|].
  destruct (is_top a) eqn:Ta; [apply iwf_top|]. destruct (is_top x) eqn:Tx; [apply iwf_top|]. cbn [orb].
  destruct (wle _ _); [apply iwf_top|]. apply K; apply range_nt_of; assumption.
Qed.

Lemma add_sound w a x v y : iwf w a -> iwf w x -> gamma w a v -> gamma w x y ->
  gamma w (wi_add a x) (wadd v y).
Proof.
  intros Wa Wx Ga Gx. destruct (wadd_val w v y (proj1 Ga) (proj1 Gx)) as [Hr Vr].
  apply (addsub_sound w a x v y _ _ _ (rel w (wstart x) y)); try assumption.
  intros (_ & _ & Hs & He) Rx. pose proof Rx as (_ & _ & Hxs & Hxe). pose proof (wfw_range _ _ Hr) as [Hw _].
  destruct (wadd_val w _ _ Hs Hxs) as [Hrs Vrs]. destruct (wadd_val w _ _ He Hxe) as [Hre Vre].
  split; [exact Hrs|]. split; [exact Hre|].
  split; [split; [apply rel_range, Hw|exact (gamma_range w x y Rx Gx)]|].
  unfold rel. rewrite Vr, Vrs, Vre. split; rewrite <- Zminus_mod, <- Zplus_mod; f_equal; lia.
Qed.

Lemma sub_sound w a x v y : iwf w a -> iwf w x -> gamma w a v -> gamma w x y ->
  gamma w (wi_sub a x) (wsub v y).
Proof.
  intros Wa Wx Ga Gx. destruct (wsub_val w v y (proj1 Ga) (proj1 Gx)) as [Hr Vr].
  apply (addsub_sound w a x v y _ _ _ (rel w y (wend x))); try assumption.
  intros (_ & _ & Hs & He) Rx. pose proof Rx as (_ & _ & Hxs & Hxe). pose proof (wfw_range _ _ Hr) as [Hw _].
  destruct (wsub_val w _ _ Hs Hxe) as [Hrs Vrs]. destruct (wsub_val w _ _ He Hxs) as [Hre Vre].
  split; [exact Hrs|]. split; [exact Hre|].
  split.
  - pose proof (gamma_range w x y Rx Gx) as Gy. unfold rel.
    rewrite (dist_end_Z _ _ _ _ (pow2_pos w ltac:(lia)) Gy). pose proof (rel_range w (wstart x) y Hw). unfold rel in *. lia.
  - unfold rel. rewrite Vr, Vrs, Vre. split; rewrite <- Zminus_mod, <- Zplus_mod; f_equal; lia.
Qed.

Lemma neg_sound w a v : iwf w a -> gamma w a v -> gamma w (wi_neg a) (wneg v).
Proof.
  intros Wa Ga. destruct (wneg_val w v (proj1 Ga)) as [Hr Vr]. unfold wi_neg.
  destruct (gamma_cases w a v Wa Ga) as (-> & [->|(-> & Ra)]); [apply gamma_top; [reflexivity|exact Hr]|].
  pose proof Ra as (_ & _ & Hs & He). pose proof (wfw_range _ _ Hs) as [Hw _].
  destruct (wneg_val w _ He) as [Hrs Vrs]. destruct (wneg_val w _ Hs) as [Hre Vre].
  apply gamma_mk; [exact Hrs|exact Hre|exact Hr|]. rewrite Vr, Vrs, Vre. cbv beta.
  pose proof (gamma_range w a v Ra Ga) as Gv. pose proof (dist_end_Z _ _ _ _ (pow2_pos w ltac:(lia)) Gv) as D.
  pose proof (rel_range w (wstart a) v Hw) as Rv. unfold rel in Rv.
  rewrite <- !Zminus_mod. replace (- wn v - - wn (wend a)) with (wn (wend a) - wn v) by lia.
  replace (- wn (wstart a) - - wn (wend a)) with (wn (wend a) - wn (wstart a)) by lia. lia.
Qed.

Lemma iwf_add w a x : iwf w a -> iwf w x -> iwf w (wi_add a x).
Proof.
  intros Wa Wx. apply (iwf_addsub w a x); try assumption.
  intros (_ & _ & Hs & He) (_ & _ & Hxs & Hxe). apply iwf_mk; apply wadd_val; assumption.
Qed.
Lemma iwf_sub w a x : iwf w a -> iwf w x -> iwf w (wi_sub a x).
Proof.
  intros Wa Wx. apply (iwf_addsub w a x); try assumption.
  intros (_ & _ & Hs & He) (_ & _ & Hxs & Hxe). apply iwf_mk; apply wsub_val; assumption.
Qed.
Lemma iwf_neg w a : iwf w a -> iwf w (wi_neg a).
Proof.
  intros Wa. unfold wi_neg.
  destruct (is_bottom a) eqn:Ba; [apply iwf_bottom|]. destruct (is_top a) eqn:Ta; [apply iwf_top|].
  destruct (range_nt_of w a Wa Ba Ta) as (_ & _ & Hs & He). apply iwf_mk; apply wneg_val; assumption.
Qed.

Lemma widen_sound w a x r v : iwf w a -> iwf w x -> wi_widen a x = Some r ->
  gamma w a v \/ gamma w x v -> gamma w r v.
Proof.
  intros Wa Wx R G. unfold wi_widen in R.
  assert (wfw w v) as Hv by (destruct G as [[H _]|[H _]]; exact H).
  destruct (is_bottom a) eqn:Ba.
  { inversion R; subst r. destruct G as [G|G]; [elim (gamma_bot w a v Ba G)|exact G]. }
  destruct (is_bottom x) eqn:Bx.
  { inversion R; subst r. destruct G as [G|G]; [exact G|elim (gamma_bot w x v Bx G)]. }
  destruct (is_top a || is_top x) eqn:TT.
  { inversion R; subst r. apply gamma_top; [reflexivity|exact Hv]. }
  apply orb_false_iff in TT. destruct TT as [Ta Tx].
  destruct (wi_leq x a) eqn:L.
  { inversion R; subst r. destruct G as [G|G]; [exact G|exact (leq_sound w x a v Wx Wa L G)]. }
  destruct (range_nt_of w a Wa Ba Ta) as (_ & _ & Hs & He). destruct (range_nt_of w x Wx Bx Tx) as (_ & _ & Hxs & Hxe).
  pose proof (wfw_range _ _ Hs) as [Hw _].
  assert (get_bitwidth (wstart x) = w) as BW by apply Hxs. rewrite BW in R.
  match type of R with obind ?m _ = _ => destruct m as [mx|] end; [|discriminate]. cbn [obind] in R.
  pose proof (join_sound w a x v Wa Wx G) as GJ. pose proof (iwf_join w a x Wa Wx) as WJ.
  assert (wfw w (wmk 8 w)) as K8 by (apply wmk_wfw; [exact Hw|split; [lia|reflexivity]]).
  assert (wfw w (wmk 7 w)) as K7 by (apply wmk_wfw; [exact Hw|split; [lia|reflexivity]]).
  destruct (wge _ _); [inversion R; subst r; apply gamma_top; [reflexivity|exact Hv]|].
  destruct (wi_eq (wi_join a x) (wi_mk (wstart a) (wend x))).
  { inversion R; subst r. apply join_sound; [exact WJ| |left; exact GJ].
    apply iwf_mk; [exact Hs|].
    apply wadd_val; [|exact K7]. apply wsub_val; apply wmul_val; assumption. }
  destruct (wi_eq (wi_join a x) (wi_mk (wstart x) (wend a))).
  { inversion R; subst r. apply join_sound; [exact WJ| |left; exact GJ].
    apply iwf_mk; [|exact He].
    apply wsub_val; [|exact K7]. apply wsub_val; apply wmul_val; assumption. }
  destruct (wi_at x (wstart a) && wi_at x (wend a)).
  { inversion R; subst r. apply join_sound; [exact WJ| |left; exact GJ].
    apply iwf_mk; [exact Hxs|]. apply wadd_val; [exact Hxs|].
    apply wadd_val; [|exact K7]. apply wsub_val; apply wmul_val; assumption. }
  inversion R; subst r. apply gamma_top; [reflexivity|exact Hv].
Qed.

Lemma default_sound w a x v y r : gamma w a v -> gamma w x y -> wfw w r ->
  gamma w (default_implementation a x) r.
Proof.
  intros Ga Gx Hr. unfold default_implementation.
  destruct (is_bottom a) eqn:Ba; [elim (gamma_bot w a v Ba Ga)|].
  destruct (is_bottom x) eqn:Bx; [elim (gamma_bot w x y Bx Gx)|].
  apply gamma_top; [reflexivity|exact Hr].
Qed.

Lemma singleton_sound w n : wfw w n -> gamma w (wi_single n) n.
Proof.
  intros H. apply gamma_mk; try exact H. rewrite Z.sub_diag. lia.
Qed.

Lemma gamma_single w n v : wfw w n -> gamma w (wi_single n) v -> is_top (wi_single n) = false -> v = n.
Proof.
  intros Hn G T. pose proof (gamma_range w _ v (range_nt_mk w n n Hn Hn T) G) as R. simpl in R.
  destruct G as [Hv _]. pose proof (wfw_range _ _ Hn) as [Hw Rn]. pose proof (wfw_range _ _ Hv) as [_ Rv].
  rewrite Z.sub_diag, Zmod_0_l in R. apply (wfw_eq w); try assumption.
  destruct (msub_cases (2 ^ w) (wn v) (wn n) Rv Rn) as [[E ?]|[E ?]]; rewrite E in R; lia.
Qed.

(* mk_winterval: the number (modulo 2^w) is a member *)
Lemma mk_winterval1_sound n w r : mk_winterval1 n w = Some r ->
  forall x, of_z n w = Some x -> gamma w r x.
Proof.
  unfold mk_winterval1. intros R x X. pose proof (of_z_spec n w) as S. rewrite X in S.
  destruct S as (Hw & Hn & Wx & Ex & Vx).
  assert (fits_wrapint n w = true) as F by (apply fits_wrapint_spec; lia). rewrite F, X in R.
  cbn [obind] in R. inversion R; subst r. apply singleton_sound. split; assumption.
Qed.

(* is_top by comparisons of the representatives *)
Lemma is_top_cmp w i : wbot i = false -> wfw w (wstart i) -> wfw w (wend i) ->
  is_top i = (wn (wstart i) =? wn (wend i) + 1) || ((wn (wstart i) =? 0) && (wn (wend i) =? 2 ^ w - 1)).
Proof.
  intros B Hs He. rewrite (is_top_range w) by assumption. apply top_Z; eapply wfw_range; eassumption.
Qed.

Lemma bitwidth_range w i : range_nt w i -> wi_bitwidth i = Some w.
Proof.
  intros (B & T & Hs & He). unfold wi_bitwidth, is_bottom. rewrite B, T.
  f_equal. apply Hs.
Qed.

Lemma half_pow w : 1 <= w -> 2 ^ w = 2 * 2 ^ (w - 1) /\ 0 < 2 ^ (w - 1).
Proof. intros. split; [apply pow2_split; lia|apply pow2_pos; lia]. Qed.

(* an interval whose start comes before its end, seen from o, lies between them *)
Lemma flat_bounds w o i v : range_nt w i -> rel w o (wstart i) <= rel w o (wend i) -> gamma w i v ->
  rel w o (wstart i) <= rel w o v <= rel w o (wend i).
Proof.
  intros R L [Hv G]. rewrite (at_rel w o) in G by assumption. unfold inb in G.
  rewrite (proj2 (Z.leb_le _ _) L) in G. apply andb_true_iff in G. rewrite !Z.leb_le in G. exact G.
Qed.

(* The circle cut open between c and its successor d: the position of a number is its distance
   from d, and c has the last position.  The south pole is the cut between the unsigned maximum
   and 0, where the position of x is wn x; the north pole is the cut between the signed maximum
   and the signed minimum, where it is to_sZ x + 2^(w-1). *)
Definition cut (w : Z) (c d : wrapint) : Prop := wfw w c /\ wfw w d /\ rel w d c = 2 ^ w - 1.

Section Cut.
  Variables (w : Z) (c d : wrapint).
  Hypothesis K : cut w c d.

  (* the test "includes the limit [c,d]" of the splits *)
  Lemma cut_leq i : range_nt w i ->
    wi_leq (wi_mk c d) i = negb (rel w d (wstart i) <=? rel w d (wend i)).
  Proof.
    destruct K as (Hc & Hd & Hcd). intros R. pose proof (wfw_range _ _ Hc) as [Hw _]. pose proof (pow2_gt1 w ltac:(lia)).
    rewrite (leq_rel w d) by (reflexivity || assumption). cbn [wi_mk wstart wend].
    rewrite rel_self, Hcd. generalize (rel_range w d (wstart i) Hw) (rel_range w d (wend i) Hw).
    generalize (rel w d (wstart i)) (rel w d (wend i)). clear R. intros s e Rs Re. unfold inb. dec_all.
  Qed.

  (* an interval that goes through the cut falls into two pieces *)
  Lemma cut_pieces i : range_nt w i -> rel w d (wend i) < rel w d (wstart i) ->
    is_top (wi_mk (wstart i) c) = false /\ is_top (wi_mk d (wend i)) = false /\
    gamma w i c /\ gamma w i d /\
    forall v, gamma w i v -> gamma w (wi_mk (wstart i) c) v \/ gamma w (wi_mk d (wend i)) v.
  Proof.
    destruct K as (Hc & Hd & Hcd). intros R L. pose proof R as (_ & _ & Hs & He). pose proof (wfw_range _ _ Hc) as [Hw _].
    pose proof (rel_range w d (wstart i) Hw). pose proof (rel_range w d (wend i) Hw).
    rewrite !(is_top_rel w d) by (reflexivity || assumption). cbn [wi_mk wstart wend]. rewrite rel_self, Hcd.
    split; [dec_all|]. split; [dec_all|].
    assert (forall v, wfw w v -> rel w d (wstart i) <= rel w d v \/ rel w d v <= rel w d (wend i) -> gamma w i v) as I.
    { intros v Hv D. split; [exact Hv|]. rewrite (at_rel w d) by assumption. unfold inb.
      rewrite (proj2 (Z.leb_gt _ _) L). apply orb_true_iff. rewrite !Z.leb_le. exact D. }
    split; [apply I; [exact Hc|lia]|]. split; [apply I; [exact Hd|rewrite rel_self; lia]|].
    intros v [Hv G]. pose proof (rel_range w d v Hw). rewrite (at_rel w d) in G by assumption. unfold inb in G.
    rewrite (proj2 (Z.leb_gt _ _) L) in G. apply orb_true_iff in G. rewrite !Z.leb_le in G.
    destruct G as [G|G]; [left|right]; apply (gamma_mk_rel w d); try assumption; rewrite ?rel_self, ?Hcd;
      apply inb_le; lia.
  Qed.

  (* the half lines: the numbers before a member, and those after *)
  Lemma cut_half i v u : range_nt w i -> gamma w i v -> wfw w u ->
    (rel w d u <= rel w d v -> gamma w (if wi_at i c then wi_top else wi_mk d (wend i)) u) /\
    (rel w d v <= rel w d u -> gamma w (if wi_at i d then wi_top else wi_mk (wstart i) c) u).
  Proof.
    destruct K as (Hc & Hd & Hcd). intros R [Hv G] Hu. pose proof R as (_ & _ & Hs & He).
    pose proof (wfw_range _ _ Hc) as [Hw _]. rewrite !(at_rel w d) in * by assumption. rewrite rel_self, Hcd.
    pose proof (rel_range w d (wstart i) Hw). pose proof (rel_range w d (wend i) Hw).
    pose proof (rel_range w d v Hw). pose proof (rel_range w d u Hw).
    split; intros L; (match goal with |- context [if ?b then _ else _] => destruct b eqn:A end;
      [apply gamma_top; [reflexivity|exact Hu]|]);
      (apply (gamma_mk_rel w d); try assumption); rewrite ?rel_self, ?Hcd; apply inb_le;
      unfold inb in A, G; dec_all; lia.
  Qed.
End Cut.

Lemma to_sZ_val w x : wfw w x -> to_sZ x = if wn x <? 2 ^ (w - 1) then wn x else wn x - 2 ^ w.
Proof. intros [_ E]. unfold to_sZ, signed_of. rewrite E. reflexivity. Qed.

Lemma rel_umin w x : wfw w x -> rel w (get_unsigned_min w) x = wn x.
Proof.
  intros Hx. pose proof (wfw_range _ _ Hx) as [Hw Rx]. destruct (umin_val w Hw) as [_ V].
  unfold rel. rewrite V, Z.sub_0_r. apply Z.mod_small. exact Rx.
Qed.
Lemma rel_smin w x : wfw w x -> rel w (get_signed_min w) x = to_sZ x + 2 ^ (w - 1).
Proof.
  intros Hx. pose proof (wfw_range _ _ Hx) as [Hw Rx]. destruct (smin_val w Hw) as [_ V].
  destruct (half_pow w ltac:(lia)) as [M2 HP]. unfold rel. rewrite V, (to_sZ_val w x Hx).
  destruct (Z.ltb_spec (wn x) (2 ^ (w - 1))).
  - symmetry. apply (Z.mod_unique _ _ (-1)); lia.
  - symmetry. apply (Z.mod_unique _ _ 0); lia.
Qed.

Lemma south_cut w : 1 <= w <= 64 -> cut w (get_unsigned_max w) (get_unsigned_min w).
Proof.
  intros Hw. destruct (umax_val w Hw) as [H V]. split; [exact H|]. split; [apply (umin_val w Hw)|].
  rewrite (rel_umin w _ H). exact V.
Qed.
Lemma north_cut w : 1 <= w <= 64 -> cut w (get_signed_max w) (get_signed_min w).
Proof.
  intros Hw. destruct (smax_val w Hw) as [H V]. split; [exact H|]. split; [apply (smin_val w Hw)|].
  destruct (half_pow w ltac:(lia)) as [M2 HP].
  rewrite (rel_smin w _ H), (to_sZ_val w _ H), V. destruct (Z.ltb_spec (2 ^ (w - 1) - 1) (2 ^ (w - 1))); lia.
Qed.

(* the south pole 2^w - 1 -> 0 is included exactly in the intervals that wrap around *)
Lemma leq_ulimit w i : range_nt w i ->
  wi_leq (unsigned_limit w) i = negb (wn (wstart i) <=? wn (wend i)).
Proof.
  intros R. pose proof R as (_ & _ & Hs & He). pose proof (wfw_range _ _ Hs) as [Hw _].
  unfold unsigned_limit. rewrite (cut_leq w _ _ (south_cut w Hw) i R), !rel_umin by assumption. reflexivity.
Qed.

(* the north pole 2^(w-1) - 1 -> 2^(w-1) *)
Definition cross_north (w : Z) (i : witv) : bool :=
  let s := wn (wstart i) in let e := wn (wend i) in let H := 2 ^ (w - 1) in
  if s <=? e then (s <=? H - 1) && (H <=? e) else (s <=? H - 1) || (H <=? e).

Lemma cross_north_rel w i : wfw w (wstart i) -> wfw w (wend i) ->
  cross_north w i = negb (rel w (get_signed_min w) (wstart i) <=? rel w (get_signed_min w) (wend i)).
Proof.
  intros Hs He. pose proof (wfw_range _ _ Hs) as [Hw Rs]. pose proof (wfw_range _ _ He) as [_ Re].
  destruct (half_pow w ltac:(lia)) as [M2 HP].
  rewrite !rel_smin, (to_sZ_val w _ Hs), (to_sZ_val w _ He) by assumption. unfold cross_north. cbv zeta.
  destruct (Z.ltb_spec (wn (wstart i)) (2 ^ (w - 1))), (Z.ltb_spec (wn (wend i)) (2 ^ (w - 1))); dec_all.
Qed.

Lemma leq_slimit w i : range_nt w i -> wi_leq (signed_limit w) i = cross_north w i.
Proof.
  intros R. pose proof R as (_ & _ & Hs & He). pose proof (wfw_range _ _ Hs) as [Hw _].
  rewrite (cross_north_rel w) by assumption. exact (cut_leq w _ _ (north_cut w Hw) i R).
Qed.

(* members of an interval that does not cross the north pole, in the signed order *)
Lemma signed_bounds w a v : range_nt w a -> cross_north w a = false -> gamma w a v ->
  to_sZ (wstart a) <= to_sZ v <= to_sZ (wend a).
Proof.
  intros R CN G. pose proof R as (_ & _ & Hs & He). rewrite (cross_north_rel w) in CN by assumption.
  apply negb_false_iff, Z.leb_le in CN. pose proof (flat_bounds w _ a v R CN G) as B.
  rewrite !rel_smin in B by (assumption || apply G). lia.
Qed.

Lemma unsigned_split_range w i : range_nt w i ->
  unsigned_split i = Some (if wn (wstart i) <=? wn (wend i) then [i]
                           else [wi_mk (wstart i) (get_unsigned_max w); wi_mk (get_unsigned_min w) (wend i)]).
Proof.
  intros R. unfold unsigned_split, is_bottom. rewrite (proj1 R), (bitwidth_range w i R). cbn [obind].
  rewrite (leq_ulimit w i R). destruct (_ <=? _); reflexivity.
Qed.

Lemma signed_split_range w i : range_nt w i ->
  signed_split i = Some (if cross_north w i
                         then [wi_mk (wstart i) (get_signed_max w); wi_mk (get_signed_min w) (wend i)]
                         else [i]).
Proof.
  intros R. unfold signed_split, is_bottom. rewrite (proj1 R), (bitwidth_range w i R). cbn [obind].
  rewrite (leq_slimit w i R). destruct (cross_north w i); reflexivity.
Qed.

Lemma cross_unsigned_limit_val w i : range_nt w i ->
  cross_unsigned_limit i = Some (negb (wn (wstart i) <=? wn (wend i))).
Proof.
  intros R. unfold cross_unsigned_limit. rewrite (bitwidth_range w i R). cbn [obind].
  rewrite (leq_ulimit w i R). reflexivity.
Qed.
Lemma cross_signed_limit_val w i : range_nt w i -> cross_signed_limit i = Some (cross_north w i).
Proof.
  intros R. unfold cross_signed_limit. rewrite (bitwidth_range w i R). cbn [obind].
  rewrite (leq_slimit w i R). reflexivity.
Qed.

(* a piece that crosses neither pole *)
Definition hemi (w : Z) (p : witv) : Prop :=
  wbot p = false /\ wfw w (wstart p) /\ wfw w (wend p) /\
  wn (wstart p) <= wn (wend p) /\ (wn (wend p) < 2 ^ (w - 1) \/ 2 ^ (w - 1) <= wn (wstart p)).
(* a piece that does not cross the south pole *)
Definition sfree (w : Z) (p : witv) : Prop :=
  wbot p = false /\ wfw w (wstart p) /\ wfw w (wend p) /\ wn (wstart p) <= wn (wend p).

Lemma hemi_sfree w p : hemi w p -> sfree w p.
Proof. intros (A & B & C & D & _). split; [exact A|]. split; [exact B|]. split; [exact C|exact D]. Qed.

Lemma sfree_mk w s e : wfw w s -> wfw w e -> wn s <= wn e -> sfree w (wi_mk s e).
Proof. intros. split; [reflexivity|]. auto. Qed.

Lemma sfree_north w p : sfree w p -> cross_north w p = false -> hemi w p.
Proof.
  intros (B & Hs & He & L) C. split; [exact B|]. split; [exact Hs|]. split; [exact He|]. split; [exact L|].
  unfold cross_north in C. dec_all; lia.
Qed.

Definition inp (v : Z) (p : witv) : bool := inb (wn (wstart p)) (wn (wend p)) v.

Lemma sfree_not_top w p : sfree w p -> wn (wstart p) <> 0 \/ wn (wend p) <> 2 ^ w - 1 -> is_top p = false.
Proof.
  intros (B & Hs & He & L) N. rewrite (is_top_cmp w) by assumption. dec_all.
Qed.

Lemma hemi_gamma w p v : hemi w p -> wfw w v -> inp (wn v) p = true -> gamma w p v.
Proof.
  intros (B & Hs & He & _) Hv I. split; [exact Hv|].
  destruct (is_top p) eqn:T; [apply at_top; [exact B|exact T]|].
  rewrite (at_inb w p v (conj B (conj T (conj Hs He))) Hv). exact I.
Qed.

(* members of a piece that does not cross the south pole, as integers *)
Lemma gamma_mk_le w s e v : wfw w s -> wfw w e -> wfw w v -> wn s <= wn v <= wn e -> gamma w (wi_mk s e) v.
Proof.
  intros Hs He Hv L. apply gamma_mk_inb; try assumption. unfold inb. dec_all; lia.
Qed.

Lemma sfree_bounds w a v : sfree w a -> gamma w a v -> wn (wstart a) <= wn v <= wn (wend a).
Proof.
  intros (B & Hs & He & L) G. pose proof (wfw_range _ _ (proj1 G)) as [Hw Rv].
  destruct (is_top a) eqn:T.
  - rewrite (is_top_cmp w) in T by assumption. dec_all; lia.
  - pose proof (gamma_inb w a v (conj B (conj T (conj Hs He))) G) as I. unfold inb in I. dec_all; lia.
Qed.

(* unsigned_split: the pieces do not cross the south pole, cover the interval, and cross the
   north pole only if the interval does *)
Lemma unsigned_split_spec w i : range_nt w i ->
  exists l, unsigned_split i = Some l /\
    Forall (fun p => sfree w p /\ is_top p = false /\ (cross_north w i = false -> cross_north w p = false)) l /\
    (forall v, gamma w i v -> Exists (fun p => gamma w p v) l).
Proof.
  intros R. pose proof R as (B & T & Hs & He). rewrite (unsigned_split_range w i R).
  eexists; split; [reflexivity|].
  destruct (Z.leb_spec (wn (wstart i)) (wn (wend i))) as [L|L].
  - split; [|intros v G; left; exact G]. constructor; [|constructor]. split; [exact (conj B (conj Hs (conj He L)))|auto].
  - pose proof (wfw_range _ _ Hs) as [Hw Rs]. pose proof (wfw_range _ _ He) as [_ Re].
    destruct (umax_val w Hw) as [Hmax Vmax]. destruct (umin_val w Hw) as [Hmin Vmin].
    destruct (cut_pieces w _ _ (south_cut w Hw) i R) as (T1 & T2 & Gc & Gd & C).
    { rewrite !rel_umin by assumption. exact L. }
    split; [|intros v G; destruct (C v G); [left|right; left]; assumption].
    assert (forall x, gamma w i x -> cross_north w i = false ->
              rel w (get_signed_min w) (wstart i) <= rel w (get_signed_min w) x <= rel w (get_signed_min w) (wend i)) as N.
    { intros x G CN. rewrite (cross_north_rel w) in CN by assumption.
      apply negb_false_iff, Z.leb_le in CN. exact (flat_bounds w _ i x R CN G). }
    constructor; [|constructor; [|constructor]]; (split; [apply sfree_mk; try assumption; lia|]);
      (split; [assumption|]); intros CN; rewrite (cross_north_rel w) by assumption;
      apply negb_false_iff, Z.leb_le; [apply (N _ Gc CN)|apply (N _ Gd CN)].
Qed.

Lemma signed_split_spec w i : range_nt w i ->
  exists l, signed_split i = Some l /\ Forall (fun p => range_nt w p /\ cross_north w p = false) l /\
            (forall v, gamma w i v -> Exists (fun p => gamma w p v) l).
Proof.
  intros R. pose proof R as (B & T & Hs & He). rewrite (signed_split_range w i R).
  eexists; split; [reflexivity|].
  destruct (cross_north w i) eqn:CN.
  - pose proof (wfw_range _ _ Hs) as [Hw _].
    destruct (north_cut w Hw) as (Hmax & Hmin & Hcd).
    rewrite (cross_north_rel w) in CN by assumption. apply negb_true_iff, Z.leb_gt in CN.
    destruct (cut_pieces w _ _ (north_cut w Hw) i R CN) as (T1 & T2 & _ & _ & C).
    split; [|intros v G; destruct (C v G); [left|right; left]; assumption].
    constructor; [|constructor; [|constructor]]; (split; [apply range_nt_mk; assumption|]);
      rewrite (cross_north_rel w) by assumption; cbn [wi_mk wstart wend]; apply negb_false_iff, Z.leb_le.
    + rewrite Hcd. pose proof (rel_range w (get_signed_min w) (wstart i) Hw). lia.
    + rewrite rel_self. apply rel_range. exact Hw.
  - split; [constructor; [split; assumption|constructor]|]. intros v G. left. exact G.
Qed.

Lemma sus_split_spec w i : range_nt w i ->
  exists l, signed_and_unsigned_split i = Some l /\ Forall (hemi w) l /\
            (forall v, gamma w i v -> Exists (fun p => gamma w p v) l).
Proof.
  intros R. destruct (signed_split_spec w i R) as (ls & Es & Fs & Cs).
  unfold signed_and_unsigned_split. rewrite Es. cbn [obind].
  enough (exists l, split_all unsigned_split ls = Some l /\ Forall (hemi w) l /\
            (forall v, Exists (fun p => gamma w p v) ls -> Exists (fun p => gamma w p v) l)) as (l & El & Hl & Cl)
    by (exists l; auto).
  clear Es Cs. induction Fs as [|p ls [Rp Np] _ (lr & Er & Hr & Cr)]; cbn [split_all].
  - exists []. split; [reflexivity|]. split; [constructor|auto].
  - destruct (unsigned_split_spec w p Rp) as (lp & Ep & Hp & Cp). rewrite Ep, Er. cbn [obind].
    exists (lp ++ lr). split; [reflexivity|]. split.
    + apply Forall_app. split; [|exact Hr]. eapply Forall_impl; [|exact Hp].
      intros q (Fq & _ & Nq). apply sfree_north; auto.
    + intros v E. apply Exists_app. inversion E; subst; [left; apply Cp; assumption|right; apply Cr; assumption].
Qed.

Lemma interval_mod_Z M lo hi p : 0 < M -> lo <= p <= hi -> hi - lo < M ->
  (p mod M - lo mod M) mod M <= (hi mod M - lo mod M) mod M.
Proof.
  intros HM Hp Hd. rewrite <- !Zminus_mod. rewrite !Z.mod_small by lia. lia.
Qed.

(* products of two numbers taken from sign-definite ranges *)
Lemma mul_pp a v b c y d : 0 <= a <= v -> v <= b -> 0 <= c <= y -> y <= d -> a * c <= v * y <= b * d.
Proof. intros. split; apply Z.mul_le_mono_nonneg; lia. Qed.
Lemma mul_nn a v b c y d : a <= v -> v <= b <= 0 -> c <= y -> y <= d <= 0 -> b * d <= v * y <= a * c.
Proof.
  intros. rewrite <- (Z.mul_opp_opp b d), <- (Z.mul_opp_opp v y), <- (Z.mul_opp_opp a c). apply mul_pp; lia.
Qed.
Lemma mul_np a v b c y d : a <= v -> v <= b <= 0 -> 0 <= c <= y -> y <= d -> a * d <= v * y <= b * c.
Proof.
  intros. pose proof (mul_pp (- b) (- v) (- a) c y d ltac:(lia) ltac:(lia) ltac:(lia) ltac:(lia)) as P.
  rewrite !Z.mul_opp_l in P. lia.
Qed.

Lemma unsigned_mul_sound w a x v y : sfree w a -> sfree w x -> gamma w a v -> gamma w x y ->
  gamma w (unsigned_mul a x) (wmul v y).
Proof.
  intros Fa Fx Ga Gx. pose proof (sfree_bounds w a v Fa Ga) as Bv. pose proof (sfree_bounds w x y Fx Gx) as By.
  destruct Fa as (Ba & Hs & He & La). destruct Fx as (Bx & Hxs & Hxe & Lx).
  destruct (wmul_val w v y (proj1 Ga) (proj1 Gx)) as [Hr Vr].
  pose proof (wfw_range _ _ Hs) as [Hw Rs]. pose proof (wfw_range _ _ Hxs) as [_ Rxs].
  unfold unsigned_mul, get_unsigned_bignum.
  assert (get_bitwidth (wstart a) = w) as -> by apply Hs.
  destruct (umax_val w Hw) as [_ ->].
  destruct (Z.ltb_spec (wn (wend a) * wn (wend x) - wn (wstart a) * wn (wstart x)) (2 ^ w - 1)) as [C|C];
    [|apply gamma_top; [reflexivity|exact Hr]].
  destruct (wmul_val w _ _ Hs Hxs) as [Hrs Vrs]. destruct (wmul_val w _ _ He Hxe) as [Hre Vre].
  apply gamma_mk; [exact Hrs|exact Hre|exact Hr|]. rewrite Vr, Vrs, Vre.
  apply interval_mod_Z; [apply pow2_pos; lia|apply mul_pp; lia|lia].
Qed.

Lemma msb_val w x : wfw w x -> msb x = (2 ^ (w - 1) <=? wn x).
Proof. intros [W E]. rewrite msb_spec by exact W. rewrite E. reflexivity. Qed.

(* the product of the signed readings represents the product *)
Lemma wmul_signed w a b : wfw w a -> wfw w b ->
  wfw w (wmul a b) /\ wn (wmul a b) = (to_sZ a * to_sZ b) mod 2 ^ w.
Proof.
  intros Ha Hb. destruct (wmul_val w a b Ha Hb) as [H V]. split; [exact H|]. rewrite V.
  destruct Ha as [Wa Ea]. destruct Hb as [Wb Eb].
  pose proof (to_sZ_wrap a Wa) as A. pose proof (to_sZ_wrap b Wb) as B. unfold wrap, to_Z in A, B.
  rewrite Ea in A. rewrite Eb in B. rewrite (Zmult_mod (to_sZ a)), A, B. reflexivity.
Qed.

Lemma signed_prod_sound w p1 p2 q1 q2 v y :
  wfw w p1 -> wfw w p2 -> wfw w q1 -> wfw w q2 -> wfw w v -> wfw w y ->
  to_sZ p1 * to_sZ p2 <= to_sZ v * to_sZ y <= to_sZ q1 * to_sZ q2 ->
  to_sZ q1 * to_sZ q2 - to_sZ p1 * to_sZ p2 < 2 ^ w - 1 ->
  gamma w (wi_mk (wmul p1 p2) (wmul q1 q2)) (wmul v y).
Proof.
  intros Hp1 Hp2 Hq1 Hq2 Hv Hy B D.
  destruct (wmul_signed w _ _ Hp1 Hp2) as [Hp Vp]. destruct (wmul_signed w _ _ Hq1 Hq2) as [Hq Vq].
  destruct (wmul_signed w _ _ Hv Hy) as [Hr Vr]. pose proof (wfw_range _ _ Hv) as [Hw _].
  apply gamma_mk; try assumption. rewrite Vp, Vq, Vr.
  apply interval_mod_Z; [apply pow2_pos; lia|exact B|lia].
Qed.

(* a piece whose bounds have the same sign: the signed order of its members is the unsigned one *)
Lemma same_sign_bounds w a v : sfree w a -> gamma w a v -> msb (wstart a) = msb (wend a) ->
  to_sZ (wstart a) <= to_sZ v <= to_sZ (wend a) /\
  (if msb (wstart a) then to_sZ (wend a) < 0 else 0 <= to_sZ (wstart a)).
Proof.
  intros F G E. pose proof (sfree_bounds w a v F G) as Bv. destruct F as (_ & Hs & He & _).
  pose proof (wfw_range _ _ Hs) as [Hw Rs]. pose proof (wfw_range _ _ He) as [_ Re].
  rewrite (msb_val w _ Hs), (msb_val w _ He) in *.
  rewrite (to_sZ_val w _ Hs), (to_sZ_val w _ He), (to_sZ_val w _ (proj1 G)).
  destruct (half_pow w ltac:(lia)) as [M2 HP]. dec_all; lia.
Qed.

Lemma signed_mul_sound w a x v y : sfree w a -> sfree w x -> gamma w a v -> gamma w x y ->
  gamma w (signed_mul a x) (wmul v y).
Proof.
  intros Fa Fx Ga Gx. pose proof (unsigned_mul_sound w a x v y Fa Fx Ga Gx) as US.
  pose proof (same_sign_bounds w a v Fa Ga) as Sa. pose proof (same_sign_bounds w x y Fx Gx) as Sx.
  destruct Fa as (_ & Hs & He & _). destruct Fx as (_ & Hxs & Hxe & _).
  pose proof Ga as [Hv _]. pose proof Gx as [Hy _].
  destruct (wmul_val w v y Hv Hy) as [Hr _]. pose proof (wfw_range _ _ Hs) as [Hw _].
  unfold signed_mul.
  rewrite !get_signed_bignum_spec by (apply Hs || apply He || apply Hxs || apply Hxe).
  unfold get_unsigned_bignum. assert (get_bitwidth (wstart a) = w) as -> by apply Hs.
  destruct (umax_val w Hw) as [_ ->].
  destruct (msb (wstart a)), (msb (wend a)), (msb (wstart x)), (msb (wend x)); cbn [eqb andb orb negb];
    try exact US; try (apply gamma_top; [reflexivity|exact Hr]);
    destruct (Sa eq_refl) as [Ba Na]; destruct (Sx eq_refl) as [Bx Nx];
    (match goal with |- context [if ?c then _ else _] => destruct c eqn:OV end;
       [apply Z.ltb_lt in OV|apply gamma_top; [reflexivity|exact Hr]]);
    apply signed_prod_sound; try assumption.
  - apply mul_nn; lia.
  - apply mul_np; lia.
  - rewrite (Z.mul_comm (to_sZ (wend a))), (Z.mul_comm (to_sZ v)), (Z.mul_comm (to_sZ (wstart a))).
    apply mul_np; lia.
Qed.

Lemma iwf_unsigned_mul w a x : sfree w a -> sfree w x -> iwf w (unsigned_mul a x).
Proof.
  intros (_ & Hs & He & _) (_ & Hxs & Hxe & _). unfold unsigned_mul.
  destruct (_ <? _); [|apply iwf_top]. apply iwf_mk; apply wmul_val; assumption.
Qed.

Lemma iwf_signed_mul w a x : sfree w a -> sfree w x -> iwf w (signed_mul a x).
Proof.
  intros Fa Fx. pose proof (iwf_unsigned_mul w a x Fa Fx) as U.
  destruct Fa as (_ & Hs & He & _). destruct Fx as (_ & Hxs & Hxe & _). unfold signed_mul.
  repeat match goal with
  | |- context [if ?c then _ else _] => destruct c
  end; try exact U; try apply iwf_top; apply iwf_mk; apply wmul_val; assumption.
Qed.

(* exact_meet is only exact when the operands do not overlap partially (its last two
   non-empty cases are unreachable and a partial overlap falls through to the empty list):
   the configurations produced by the multiplication are "one is top", "equal" and "each
   contains both bounds of the other" *)
Definition meet_cfg (a x : witv) : Prop :=
  is_top a = true \/ is_top x = true \/ wi_eq a x = true \/
  (wi_at x (wstart a) && wi_at x (wend a) && wi_at a (wstart x) && wi_at a (wend x) = true).

Lemma exact_meet_sound w a x r : iwf w a -> iwf w x -> meet_cfg a x -> gamma w a r -> gamma w x r ->
  Exists (fun p => gamma w p r) (exact_meet a x).
Proof.
  intros Wa Wx Cfg Ga Gx. unfold exact_meet.
  destruct (is_bottom a) eqn:Ba; [elim (gamma_bot w a r Ba Ga)|].
  destruct (is_bottom x) eqn:Bx; [elim (gamma_bot w x r Bx Gx)|]. cbn [orb].
  destruct (wi_eq a x || is_top a) eqn:C0; [left; exact Gx|].
  apply orb_false_iff in C0. destruct C0 as [NE Ta].
  destruct (is_top x) eqn:Tx; [left; exact Ga|].
  destruct Cfg as [C|[C|[C|C]]]; try congruence. rewrite C.
  pose proof (range_nt_of w a Wa Ba Ta) as Ra. pose proof (range_nt_of w x Wx Bx Tx) as Rx.
  pose proof Ra as (_ & _ & Hs & He). pose proof Rx as (_ & _ & Hxs & Hxe).
  destruct Ga as [Hr Ia]. destruct Gx as [_ Ix]. pose proof (wfw_range _ _ Hr) as [Hw _].
  assert (inb (rel w (wstart a) (wstart a)) (rel w (wstart a) (wend x)) (rel w (wstart a) r) ||
          inb (rel w (wstart a) (wstart x)) (rel w (wstart a) (wend a)) (rel w (wstart a) r) = true) as D.
  { clear NE Wa Wx. rotate w (wstart a) Hw. clear Ra Rx Hs He Hxs Hxe Hr. dec_all. }
  apply orb_true_iff in D. destruct D as [D|D]; [left|right; left]; apply (gamma_mk_rel w (wstart a)); assumption.
Qed.

Lemma mod_diff_eq M a b d k : 0 < M -> 0 <= d < M -> a - b = d + k * M ->
  (a mod M - b mod M) mod M = d.
Proof.
  intros HM Hd E. rewrite <- Zminus_mod, E, Z.mod_add by lia. apply Z.mod_small. exact Hd.
Qed.

Lemma at_start i : is_bottom i = false -> wfw (ww (wstart i)) (wstart i) -> wfw (ww (wstart i)) (wend i) ->
  wi_at i (wstart i) = true.
Proof.
  intros B Hs He. destruct (is_top i) eqn:T; [apply at_top; assumption|].
  rewrite (at_range _ i _ (conj B (conj T (conj Hs He))) Hs).
  apply Z.leb_le. rewrite Z.sub_diag, Z.mod_0_l.
  - apply Z.mod_pos_bound. apply pow2_pos. destruct Hs as [[? _] _]. lia.
  - apply Z.pow_nonzero; [lia|]. destruct Hs as [[? _] _]. lia.
Qed.

Lemma leq_refl w a : iwf w a -> is_bottom a = false -> wi_leq a a = true.
Proof.
  intros W B. unfold wi_leq. destruct (is_top a) eqn:T; [reflexivity|]. rewrite B. cbn [orb].
  unfold weq. rewrite !Z.eqb_refl. reflexivity.
Qed.

Lemma eq_refl_itv w a : iwf w a -> is_bottom a = false -> wi_eq a a = true.
Proof. intros W B. unfold wi_eq. rewrite (leq_refl w a W B). reflexivity. Qed.

(* The products of a negative range [s,e] and a non-negative one [xs,xe] whose unsigned
   overflow test passes: xe is xs or xs + 1.  In the second case, measured from s * xs, the
   four products come in the order s * xs, e * xs, s * xe, e * xe. *)
Lemma mixed_sign_cfg w s e xs xe A B U1 U2 :
  wfw w A -> wfw w B -> wfw w U1 -> wfw w U2 ->
  wn A = (s * xe) mod 2 ^ w -> wn B = (e * xs) mod 2 ^ w ->
  wn U1 = (s * xs) mod 2 ^ w -> wn U2 = (e * xe) mod 2 ^ w ->
  2 ^ (w - 1) <= s <= e -> e < 2 ^ w -> 0 <= xs <= xe -> xe < 2 ^ (w - 1) ->
  e * xe - s * xs < 2 ^ w - 1 ->
  meet_cfg (wi_mk A B) (wi_mk U1 U2).
Proof.
  intros HA HB H1 H2 VA VB V1 V2 Rs Re Rx Rxe DU.
  pose proof (wfw_range _ _ HA) as [Hw _]. destruct (half_pow w ltac:(lia)) as [M2 HP].
  assert (xe = xs \/ xe = xs + 1) as [->| ->] by nia.
  - rewrite (wfw_eq w A U1), (wfw_eq w B U2) by congruence.
    right. right. left. apply (eq_refl_itv w); [apply iwf_mk; assumption|reflexivity].
  - assert (exists d, d = (e - s) * xs /\ 0 <= d < s /\ d + e < 2 ^ w - 1) as (d & Ed & Rd & Rde)
      by (eexists; split; [reflexivity|nia]).
    assert (rel w U1 A = s) as RA by (unfold rel; rewrite VA, V1; apply (mod_diff_eq _ _ _ _ 0); lia).
    assert (rel w U1 B = d) as RB by (unfold rel; rewrite VB, V1; apply (mod_diff_eq _ _ _ _ 0); lia).
    assert (rel w U1 U2 = d + e) as RU by (unfold rel; rewrite V2, V1; apply (mod_diff_eq _ _ _ _ 0); lia).
    right. right. right. cbn [wi_mk wstart wend]. rewrite !andb_true_iff.
    repeat split; apply (gamma_mk_rel w U1); try assumption; rewrite ?rel_self, ?RA, ?RB, ?RU;
      unfold inb; dec_all.
Qed.

Lemma cfg_swap w p q : wfw w p -> wfw w q -> meet_cfg (wi_mk q p) (wi_mk p q).
Proof.
  intros Hp Hq. right. right. right. cbn [wi_mk wstart wend].
  pose proof (wfw_range _ _ Hp) as [Hw Rp]. pose proof (rel_range w q p Hw).
  rewrite !andb_true_iff. repeat split; apply (gamma_mk_rel w q); try assumption; rewrite ?rel_self;
    unfold inb; dec_all.
Qed.

Lemma mul_cfg w a x : sfree w a -> sfree w x -> meet_cfg (signed_mul a x) (unsigned_mul a x).
Proof.
  intros Fa Fx. pose proof (iwf_unsigned_mul w a x Fa Fx) as WU.
  destruct Fa as (Ba & Hs & He & La). destruct Fx as (Bx & Hxs & Hxe & Lx).
  pose proof (wfw_range _ _ Hs) as [Hw Rs]. pose proof (wfw_range _ _ He) as [_ Re].
  pose proof (wfw_range _ _ Hxs) as [_ Rxs]. pose proof (wfw_range _ _ Hxe) as [_ Rxe].
  destruct (half_pow w ltac:(lia)) as [M2 HP].
  destruct (is_top (unsigned_mul a x)) eqn:TU; [right; left; exact TU|].
  (* the unsigned product is not top: its overflow test passed *)
  assert (unsigned_mul a x = wi_mk (wmul (wstart a) (wstart x)) (wmul (wend a) (wend x)) /\
          wn (wend a) * wn (wend x) - wn (wstart a) * wn (wstart x) < 2 ^ w - 1) as [EU DU].
  { unfold unsigned_mul, get_unsigned_bignum in *. assert (get_bitwidth (wstart a) = w) as E by apply Hs.
    rewrite E in *. destruct (umax_val w Hw) as [_ UM]. rewrite UM in *.
    destruct (Z.ltb_spec (wn (wend a) * wn (wend x) - wn (wstart a) * wn (wstart x)) (2 ^ w - 1));
      [split; [reflexivity|assumption]|discriminate TU]. }
  destruct (wmul_val w _ _ Hs Hxs) as [Hss Vss]. destruct (wmul_val w _ _ He Hxe) as [Hee Vee].
  destruct (wmul_val w _ _ Hs Hxe) as [Hse Vse]. destruct (wmul_val w _ _ He Hxs) as [Hes Ves].
  unfold signed_mul. rewrite (msb_val w _ Hs), (msb_val w _ He), (msb_val w _ Hxs), (msb_val w _ Hxe).
  destruct (Z.leb_spec (2 ^ (w - 1)) (wn (wstart a))), (Z.leb_spec (2 ^ (w - 1)) (wn (wend a))),
           (Z.leb_spec (2 ^ (w - 1)) (wn (wstart x))), (Z.leb_spec (2 ^ (w - 1)) (wn (wend x)));
    cbn [eqb andb orb negb]; try (left; reflexivity); try lia;
    try (match goal with |- context [if ?c then _ else _] => destruct c end; [|left; reflexivity]);
    rewrite EU in *.
  - (* both negative: the bounds are swapped *)
    apply (cfg_swap w); assumption.
  - (* a negative, x non-negative *)
    apply (mixed_sign_cfg w (wn (wstart a)) (wn (wend a)) (wn (wstart x)) (wn (wend x))); assumption || lia.
  - rewrite Z.mul_comm in Vss, Vee, Vse, Ves.
    apply (mixed_sign_cfg w (wn (wstart x)) (wn (wend x)) (wn (wstart a)) (wn (wend a))); assumption || lia.
  - (* both non-negative: signed_mul is unsigned_mul *)
    right. right. left. apply (eq_refl_itv w); [exact WU|reflexivity].
Qed.

Lemma iwf_exact_meet w a x : iwf w a -> iwf w x -> Forall (iwf w) (exact_meet a x).
Proof.
  intros Wa Wx. unfold exact_meet.
  destruct (is_bottom a) eqn:Ba; [constructor|]. destruct (is_bottom x) eqn:Bx; [constructor|]. cbn [orb].
  destruct (wi_eq a x || is_top a) eqn:C0; [constructor; [exact Wx|constructor]|].
  apply orb_false_iff in C0. destruct C0 as [_ Ta].
  destruct (is_top x) eqn:Tx; [constructor; [exact Wa|constructor]|].
  destruct (range_nt_of w a Wa Ba Ta) as (_ & _ & Hs & He). destruct (range_nt_of w x Wx Bx Tx) as (_ & _ & Hxs & Hxe).
  repeat match goal with
  | |- context [if ?c then _ else _] => destruct c
  end; repeat (apply Forall_cons || apply Forall_nil); try assumption; apply iwf_mk; assumption.
Qed.

Lemma sfree_not_bot w p : sfree w p -> is_bottom p = false.
Proof. intros (B & _). exact B. Qed.

Lemma reduced_sound w a x v y : sfree w a -> sfree w x -> gamma w a v -> gamma w x y ->
  Exists (fun p => gamma w p (wmul v y)) (reduced_signed_unsigned_mul a x).
Proof.
  intros Fa Fx Ga Gx. unfold reduced_signed_unsigned_mul.
  rewrite (sfree_not_bot w a Fa), (sfree_not_bot w x Fx). cbn [orb].
  apply (exact_meet_sound w).
  - apply iwf_signed_mul; assumption.
  - apply iwf_unsigned_mul; assumption.
  - apply (mul_cfg w); assumption.
  - apply signed_mul_sound; assumption.
  - apply unsigned_mul_sound; assumption.
Qed.

Lemma iwf_reduced w a x : sfree w a -> sfree w x -> Forall (iwf w) (reduced_signed_unsigned_mul a x).
Proof.
  intros Fa Fx. unfold reduced_signed_unsigned_mul.
  destruct (is_bottom a || is_bottom x); [constructor|].
  apply iwf_exact_meet; [apply iwf_signed_mul|apply iwf_unsigned_mul]; assumption.
Qed.

Definition extends (w : Z) (S : wrapint -> Prop) (res r : witv) : Prop :=
  iwf w r /\ forall t, gamma w res t \/ S t -> gamma w r t.

Lemma extends_join w res p : iwf w res -> iwf w p -> extends w (gamma w p) res (wi_join res p).
Proof. intros Wr Wp. split; [apply iwf_join; assumption|]. intros t G. apply join_sound; assumption. Qed.

Lemma extends_sub w (S S' : wrapint -> Prop) res r : extends w S res r -> (forall t, S' t -> S t) ->
  extends w S' res r.
Proof. intros [W M] I. split; [exact W|]. intros t [G|G]; apply M; [left; exact G|right; apply I, G]. Qed.

(* The loops of the operators: res := step x res for every x of a list.  If the step at x
   adds the numbers [S x], the loop adds those of every element. *)
Section Loop.
  Variables (w : Z) (A : Type) (P : A -> Prop) (S : A -> wrapint -> Prop).
  Variables (step : A -> witv -> option witv) (loop : list A -> witv -> option witv).
  Hypothesis loop_nil : forall res, loop [] res = Some res.
  Hypothesis loop_cons : forall x l res, loop (x :: l) res = (do r <- step x res; loop l r).
  Hypothesis step_ok : forall x, P x -> forall res, iwf w res ->
    exists r, step x res = Some r /\ extends w (S x) res r.

  Lemma loop_extends l : Forall P l -> forall res, iwf w res ->
    exists r, loop l res = Some r /\ extends w (fun t => exists x, In x l /\ S x t) res r.
  Proof.
    induction 1 as [|x l Px F IH]; intros res Wr.
    - exists res. split; [apply loop_nil|]. split; [exact Wr|]. intros t [G|(x & [] & _)]. exact G.
    - destruct (step_ok x Px res Wr) as (r1 & E1 & W1 & M1). destruct (IH r1 W1) as (r2 & E2 & W2 & M2).
      exists r2. split; [rewrite loop_cons, E1; exact E2|]. split; [exact W2|].
      intros t [G|(x' & [<-|I] & G)]; apply M2; [left; apply M1; left; exact G|left; apply M1; right; exact G|].
      right. exists x'. split; [exact I|exact G].
  Qed.
End Loop.

(* operator*: the products of the members of the pieces *)
Lemma mul_loops w cuts x_cuts : Forall (sfree w) cuts -> Forall (sfree w) x_cuts ->
  exists r,
    Some (fold_left (fun res c =>
            fold_left (fun res xc => join_all res (reduced_signed_unsigned_mul c xc)) x_cuts res)
          cuts wi_bottom) = Some r /\
    extends w (fun t => exists c, In c cuts /\ exists xc, In xc x_cuts /\
                 exists p, In p (reduced_signed_unsigned_mul c xc) /\ gamma w p t) wi_bottom r.
Proof.
  intros Fc Fx.
  refine (loop_extends w _ (sfree w) _ (fun c res => Some (fold_left _ x_cuts res))
            (fun l res => Some (fold_left _ l res)) (fun _ => eq_refl) (fun _ _ _ => eq_refl) _ cuts Fc
            wi_bottom (iwf_bottom w)).
  intros c Pc.
  refine (loop_extends w _ (sfree w) _ (fun xc res => Some (join_all res _))
            (fun l res => Some (fold_left _ l res)) (fun _ => eq_refl) (fun _ _ _ => eq_refl) _ x_cuts Fx).
  intros xc Px.
  refine (loop_extends w _ (iwf w) (gamma w) (fun p res => Some (wi_join res p))
            (fun l res => Some (join_all res l)) (fun _ => eq_refl) (fun _ _ _ => eq_refl) _ _
            (iwf_reduced w c xc Pc Px)).
  intros p Wp res Wr. eexists. split; [reflexivity|apply extends_join; assumption].
Qed.
Lemma hemi_forall_sfree w l : Forall (hemi w) l -> Forall (sfree w) l.
Proof. intros F. eapply Forall_impl; [|exact F]. intros p. apply hemi_sfree. Qed.

Theorem mul_sound w a x v y : iwf w a -> iwf w x -> gamma w a v -> gamma w x y ->
  exists r, wi_mul a x = Some r /\ iwf w r /\ gamma w r (wmul v y).
Proof.
  intros Wa Wx Ga Gx. unfold wi_mul. destruct (wmul_val w v y (proj1 Ga) (proj1 Gx)) as [Hr _].
  destruct (gamma_cases w a v Wa Ga) as (-> & Ca). destruct (gamma_cases w x y Wx Gx) as (-> & Cx). cbn [orb].
  assert (exists r, Some wi_top = Some r /\ iwf w r /\ gamma w r (wmul v y)) as Top.
  { exists wi_top. split; [reflexivity|]. split; [apply iwf_top|apply gamma_top; [reflexivity|exact Hr]]. }
  destruct Ca as [->|(-> & Ra)]; [exact Top|]. destruct Cx as [->|(-> & Rx)]; [exact Top|]. cbn [orb].
  destruct (sus_split_spec w a Ra) as (cuts & -> & Hc & Cc). destruct (sus_split_spec w x Rx) as (x_cuts & -> & Hx & Cx).
  cbn [obind].
  destruct (mul_loops w cuts x_cuts (hemi_forall_sfree w _ Hc) (hemi_forall_sfree w _ Hx)) as (r & E & W & M).
  exists r. split; [exact E|]. split; [exact W|]. apply M. right.
  destruct (proj1 (Exists_exists _ _) (Cc v Ga)) as (c & Ic & Gc).
  destruct (proj1 (Exists_exists _ _) (Cx y Gx)) as (xc & Ixc & Gxc).
  pose proof (proj1 (Forall_forall _ _) Hc c Ic) as Fc. pose proof (proj1 (Forall_forall _ _) Hx xc Ixc) as Fxc.
  destruct (proj1 (Exists_exists _ _) (reduced_sound w c xc v y (hemi_sfree w c Fc) (hemi_sfree w xc Fxc) Gc Gxc))
    as (p & Ip & Gp).
  exists c. split; [exact Ic|]. exists xc. split; [exact Ixc|]. exists p. split; assumption.
Qed.

Lemma wmk_val_small n w : 1 <= w <= 64 -> 0 <= n < 2 ^ w -> wfw w (wmk n w) /\ wn (wmk n w) = n.
Proof.
  intros Hw Hn. pose proof (pow2_le_64 w ltac:(lia)).
  destruct (wmk_wfw n w Hw ltac:(lia)) as [A B]. split; [exact A|]. rewrite B. apply Z.mod_small. exact Hn.
Qed.

Lemma wmk_minus_one w : 1 <= w <= 64 -> wfw w (wmk (two64 - 1) w) /\ wn (wmk (two64 - 1) w) = 2 ^ w - 1.
Proof.
  intros Hw. destruct (wmk_wfw (two64 - 1) w Hw) as [A B]; [vm_compute; split; [discriminate|reflexivity]|].
  split; [exact A|]. rewrite B. rewrite two64_eq.
  replace 64 with (w + (64 - w)) by lia. rewrite Z.pow_add_r by lia.
  pose proof (pow2_pos w ltac:(lia)). pose proof (pow2_pos (64 - w) ltac:(lia)).
  replace (2 ^ w * 2 ^ (64 - w) - 1) with ((2 ^ w - 1) + (2 ^ (64 - w) - 1) * 2 ^ w) by ring.
  rewrite Z.mod_add by lia. apply Z.mod_small. lia.
Qed.

(* trim_zero on a piece that does not cross the south pole *)
Lemma trim_zero_spec w i : sfree w i ->
  Forall (fun d => sfree w d /\ 1 <= wn (wstart d) /\
                   (wn (wend i) < 2 ^ (w - 1) -> wn (wend d) < 2 ^ (w - 1)) /\
                   (2 ^ (w - 1) <= wn (wstart i) -> 2 ^ (w - 1) <= wn (wstart d))) (trim_zero i) /\
  (forall y, gamma w i y -> wn y <> 0 -> Exists (fun d => gamma w d y) (trim_zero i)).
Proof.
  intros F. pose proof F as (B & Hs & He & L).
  pose proof (wfw_range _ _ Hs) as [Hw Rs]. pose proof (wfw_range _ _ He) as [_ Re].
  destruct (half_pow w ltac:(lia)) as [M2 HP].
  unfold trim_zero. assert (get_bitwidth (wstart i) = w) as -> by apply Hs.
  destruct (wmk_val_small 0 w Hw ltac:(lia)) as [Hz Vz].
  destruct (wmk_val_small 1 w Hw ltac:(lia)) as [H1 V1].
  destruct (wmk_minus_one w Hw) as [Hm Vm].
  unfold is_bottom. rewrite B. cbn [negb andb].
  destruct (wi_eq i (wi_single (wmk 0 w))) eqn:EQ; cbn [negb].
  { split; [constructor|]. intros y G NZ. exfalso.
    assert (iwf w i) as Wi by (right; right; auto).
    apply (eq_sound w i _ y Wi (iwf_mk w _ _ Hz Hz) EQ) in G.
    destruct (is_top (wi_single (wmk 0 w))) eqn:T.
    - rewrite (is_top_cmp w) in T by (try reflexivity; assumption). cbn [wi_single wstart wend] in T.
      rewrite Vz in T. dec_all.
    - apply (gamma_single w _ y Hz G) in T. subst y. lia. }
  unfold weq. rewrite Vz.
  destruct (Z.eqb_spec (wn (wstart i)) 0) as [S0|S0].
  { split.
    - constructor; [|constructor]. cbn [wi_mk wstart wend]. rewrite V1.
      split; [|split; [lia|split; [auto|lia]]].
      split; [reflexivity|]. cbn [wi_mk wstart wend]. split; [exact H1|]. split; [exact He|]. rewrite V1.
      (* the interval is not [0,0], so its end is at least 1 *)
      destruct (Z.eq_dec (wn (wend i)) 0) as [E0|E0]; [|lia].
      exfalso. assert (wi_eq i (wi_single (wmk 0 w)) = true); [|congruence].
      unfold wi_eq.
      assert (wstart i = wmk 0 w) as Es by (apply (wfw_eq w); try assumption; lia).
      assert (wend i = wmk 0 w) as Ee by (apply (wfw_eq w); try assumption; lia).
      destruct i as [s e b]. cbn in B, Es, Ee. subst. apply (eq_refl_itv w); [apply iwf_mk; assumption|reflexivity].
    - intros y G NZ. left. pose proof (sfree_bounds w i y F G) as By.
      apply gamma_mk_le; [exact H1|exact He|apply G|]. rewrite V1. pose proof (wfw_range _ _ (proj1 G)). lia. }
  destruct (Z.eqb_spec (wn (wend i)) 0) as [E0|E0]; [lia|].
  assert (is_top i = false) as Ti by (rewrite (is_top_cmp w) by assumption; dec_all).
  rewrite (at_inb w i _ (conj B (conj Ti (conj Hs He))) Hz). rewrite Vz. unfold inb.
  destruct (Z.leb_spec (wn (wstart i)) (wn (wend i))); [|lia].
  destruct (Z.leb_spec (wn (wstart i)) 0); [lia|]. cbn [andb].
  split.
  - constructor; [|constructor]. split; [exact F|]. split; [lia|]. auto.
  - intros y G _. left. exact G.
Qed.

Lemma wudiv_val w a b : wfw w a -> wfw w b -> wn b <> 0 ->
  exists r, wudiv a b = Some r /\ wfw w r /\ wn r = wn a / wn b.
Proof.
  intros [Wa Ea] [Wb Eb] NZ. pose proof (wudiv_spec a b Wa Wb (eq_trans Ea (eq_sym Eb))) as S.
  destruct (wudiv a b) as [r|]; [|elim NZ; exact S].
  destruct S as (_ & Wr & Er & Vr). exists r. split; [reflexivity|]. split; [split; [exact Wr|congruence]|exact Vr].
Qed.

Lemma div_mono s v e ds y de : 0 <= s <= v -> v <= e -> 1 <= ds <= y -> y <= de ->
  s / de <= v / y <= e / ds.
Proof.
  intros H1 H2 H3 H4. split.
  - apply Z.le_trans with (v / de); [apply Z.div_le_mono; lia|apply Z.div_le_compat_l; lia].
  - apply Z.le_trans with (e / y); [apply Z.div_le_mono; lia|apply Z.div_le_compat_l; lia].
Qed.

(* divisor pieces: no zero, not across the south pole *)
Definition divisor (w : Z) (d : witv) : Prop := sfree w d /\ 1 <= wn (wstart d).

Lemma unsigned_div_sound w c d : sfree w c -> divisor w d ->
  exists q, unsigned_div c d = Some q /\ iwf w q /\
            forall v y, gamma w c v -> gamma w d y ->
                        exists r, wudiv v y = Some r /\ gamma w q r.
Proof.
  intros Fc [Fd D1]. pose proof Fc as (Bc & Hs & He & Lc). pose proof Fd as (Bd & Hds & Hde & Ld).
  unfold unsigned_div.
  destruct (wudiv_val w _ _ Hs Hde ltac:(lia)) as (lo & E1 & Hlo & Vlo).
  destruct (wudiv_val w _ _ He Hds ltac:(lia)) as (hi & E2 & Hhi & Vhi).
  rewrite E1, E2. cbn [obind]. eexists. split; [reflexivity|]. split; [apply iwf_mk; assumption|].
  intros v y Gv Gy. pose proof (sfree_bounds w c v Fc Gv) as Bv. pose proof (sfree_bounds w d y Fd Gy) as By.
  destruct (wudiv_val w v y (proj1 Gv) (proj1 Gy) ltac:(lia)) as (r & E & Hr & Vr).
  exists r. split; [exact E|]. apply gamma_mk_le; try assumption.
  rewrite Vlo, Vhi, Vr. pose proof (wfw_range _ _ Hs) as [_ Rs]. apply div_mono; lia.
Qed.

(* the conclusion of the theorems about operators that can fail *)
Lemma result w (o : option wrapint) q r : iwf w q -> o = Some r -> gamma w q r ->
  exists q' r', Some q = Some q' /\ iwf w q' /\ o = Some r' /\ gamma w q' r'.
Proof. intros. exists q, r. auto. Qed.

Lemma top_result w (o : option wrapint) q r : is_top q = true -> o = Some r -> wfw w r ->
  exists q' r', Some q = Some q' /\ iwf w q' /\ o = Some r' /\ gamma w q' r'.
Proof. intros T E H. apply (result w o q r); [apply iwf_of_top, T|exact E|apply gamma_top; assumption]. Qed.

(* the nested loops of SDiv / UDiv: cuts of the dividend, cuts of the divisor, trimmed divisors *)
Section DivFold.
  Variable w : Z.
  Variable dv : witv -> witv -> option witv.
  Variable cop : wrapint -> wrapint -> option wrapint.
  Variable P PD : witv -> Prop.
  Hypothesis dv_sound : forall c d, P c -> PD d ->
    exists q, dv c d = Some q /\ iwf w q /\
              forall v y, gamma w c v -> gamma w d y -> exists r, cop v y = Some r /\ gamma w q r.
  Hypothesis trim_ok : forall xc, P xc ->
    Forall PD (trim_zero xc) /\
    (forall y, gamma w xc y -> wn y <> 0 -> Exists (fun d => gamma w d y) (trim_zero xc)).

  (* the quotients of the members of c by the non-zero members of xc *)
  Definition quotients (c xc : witv) (t : wrapint) : Prop :=
    exists v y, gamma w c v /\ gamma w xc y /\ wn y <> 0 /\ cop v y = Some t.

  Lemma div_xcuts_spec c xcuts : P c -> Forall P xcuts -> forall res, iwf w res ->
    exists r, div_xcuts dv c xcuts res = Some r /\
              extends w (fun t => exists xc, In xc xcuts /\ quotients c xc t) res r.
  Proof.
    intros Pc. apply (loop_extends w _ P (quotients c) (fun xc => div_divisors dv c (trim_zero xc)));
      [reflexivity|reflexivity|].
    intros xc Px res Wr. destruct (trim_ok xc Px) as [T1 T2].
    destruct (loop_extends w _ PD (fun d t => exists v y, gamma w c v /\ gamma w d y /\ cop v y = Some t)
                (fun d res => do q <- dv c d; Some (wi_join res q)) (div_divisors dv c)) with (l := trim_zero xc) (res := res)
      as (r & E & X); try assumption.
    - reflexivity.
    - intros d l res'. cbn [div_divisors]. destruct (dv c d); reflexivity.
    - intros d Pd res' Wr'. destruct (dv_sound c d Pc Pd) as (q & -> & Wq & Sq). eexists. split; [reflexivity|].
      apply (extends_sub w (gamma w q)); [apply extends_join; assumption|].
      intros t (v & y & Gv & Gy & E). destruct (Sq v y Gv Gy) as (r & Er & Gr). congruence.
    - exists r. split; [exact E|]. apply (extends_sub w _ _ _ _ X).
      intros t (v & y & Gv & Gy & NZ & Et).
      destruct (proj1 (Exists_exists _ _) (T2 y Gy NZ)) as (d & Id & Gd).
      exists d. split; [exact Id|]. exists v, y. auto.
  Qed.

  Variable split : witv -> option (list witv).
  Hypothesis split_ok : forall i, range_nt w i ->
    exists l, split i = Some l /\ Forall P l /\ (forall v, gamma w i v -> Exists (fun p => gamma w p v) l).
  Variable val : wrapint -> wrapint -> Z.
  Hypothesis cop_val : forall v y, wfw w v -> wfw w y -> wn y <> 0 ->
    exists r, cop v y = Some r /\ wfw w r /\ wn r = val v y.

  (* the common shape of SDiv and UDiv *)
  Lemma div_sound a x v y : iwf w a -> iwf w x -> gamma w a v -> gamma w x y -> wn y <> 0 ->
    exists q r,
      (if is_bottom a || is_bottom x then Some wi_bottom
       else if is_top a || is_top x then Some wi_top
       else do cuts <- split a; do x_cuts <- split x; div_cuts dv cuts x_cuts wi_bottom) = Some q /\
      iwf w q /\ cop v y = Some r /\ gamma w q r.
  Proof.
    intros Wa Wx Ga Gx NZ. destruct (cop_val v y (proj1 Ga) (proj1 Gx) NZ) as (r & Er & Hr & _).
    destruct (gamma_cases w a v Wa Ga) as (-> & Ca). destruct (gamma_cases w x y Wx Gx) as (-> & Cx). cbn [orb].
    pose proof (top_result w _ wi_top r eq_refl Er Hr) as Top.
    destruct Ca as [->|(-> & Ra)]; [exact Top|]. destruct Cx as [->|(-> & Rx)]; [exact Top|]. cbn [orb].
    destruct (split_ok a Ra) as (cuts & -> & Fc & Cc). destruct (split_ok x Rx) as (x_cuts & -> & Fx & Cx).
    cbn [obind].
    destruct (loop_extends w _ P (fun c t => exists xc, In xc x_cuts /\ quotients c xc t)
                (fun c => div_xcuts dv c x_cuts) (fun l => div_cuts dv l x_cuts)) with (l := cuts) (res := wi_bottom)
      as (q & Eq & Wq & Mq); try reflexivity; try assumption.
    - intros c Pc. apply div_xcuts_spec; assumption.
    - apply iwf_bottom.
    - rewrite Eq. apply (result w _ _ r); [exact Wq|exact Er|]. apply Mq. right.
      destruct (proj1 (Exists_exists _ _) (Cc v Ga)) as (c & Ic & Gc).
      destruct (proj1 (Exists_exists _ _) (Cx y Gx)) as (xc & Ixc & Gxc).
      exists c. split; [exact Ic|]. exists xc. split; [exact Ixc|]. exists v, y. auto.
  Qed.
End DivFold.
Theorem udiv_sound w a x v y : iwf w a -> iwf w x -> gamma w a v -> gamma w x y -> wn y <> 0 ->
  exists q r, wi_udiv a x = Some q /\ iwf w q /\ wudiv v y = Some r /\ gamma w q r.
Proof.
  refine (div_sound w unsigned_div wudiv (sfree w) (divisor w) (unsigned_div_sound w)
            (fun xc F => let (T1, T2) := trim_zero_spec w xc F in
                         conj (Forall_impl _ (fun d H => conj (proj1 H) (proj1 (proj2 H))) T1) T2)
            unsigned_split _ _ (wudiv_val w) a x v y).
  intros i R. destruct (unsigned_split_spec w i R) as (l & E & F & C). exists l. split; [exact E|].
  split; [|exact C]. eapply Forall_impl; [|exact F]. intros p H. apply H.
Qed.

Lemma wsdiv_val w a b : wfw w a -> wfw w b -> wn b <> 0 ->
  exists r, wsdiv a b = Some r /\ wfw w r /\ wn r = Z.quot (to_sZ a) (to_sZ b) mod 2 ^ w.
Proof.
  intros [Wa Ea] [Wb Eb] NZ. pose proof (wsdiv_spec a b Wa Wb (eq_trans Ea (eq_sym Eb))) as S.
  destruct (wsdiv a b) as [r|]; [|elim NZ; exact S].
  destruct S as (_ & Wr & Er & Vr). exists r. split; [reflexivity|]. split; [split; [exact Wr|congruence]|].
  unfold to_Z, wrap in Vr. rewrite Vr, Ea. reflexivity.
Qed.

(* The truncating quotient on sign-definite ranges ([na], [nb]: the range is negative): it is
   monotone in each argument, which way depends on the signs, and the sign of the quotients
   is that of the ranges. *)
Lemma quot_range (na nb : bool) a1 a a2 b1 b b2 : a1 <= a <= a2 -> b1 <= b <= b2 ->
  (if na then a2 < 0 else 0 <= a1) -> (if nb then b2 < 0 else 0 < b1) ->
  Z.quot (if nb then a2 else a1) (if na then b1 else b2) <= Z.quot a b <=
    Z.quot (if nb then a1 else a2) (if na then b2 else b1) /\
  (if eqb na nb then 0 <= Z.quot (if nb then a2 else a1) (if na then b1 else b2)
   else Z.quot (if nb then a1 else a2) (if na then b2 else b1) <= 0).
Proof.
  assert (forall x1 x x2 y1 y y2, 0 <= x1 <= x -> x <= x2 -> 0 < y1 <= y -> y <= y2 ->
            Z.quot x1 y2 <= Z.quot x y <= Z.quot x2 y1 /\ 0 <= Z.quot x1 y2) as PP.
  { intros x1 x x2 y1 y y2 ? ? ? ?. rewrite !Z.quot_div_nonneg by lia. split; [split|apply Z.div_pos; lia].
    - apply Z.le_trans with (x / y2); [apply Z.div_le_mono; lia|apply Z.div_le_compat_l; lia].
    - apply Z.le_trans with (x2 / y); [apply Z.div_le_mono; lia|apply Z.div_le_compat_l; lia]. }
  intros Ra Rb Sa Sb. destruct na, nb; cbn [eqb].
  - rewrite <- (Z.quot_opp_opp a2 b1), <- (Z.quot_opp_opp a b), <- (Z.quot_opp_opp a1 b2) by lia. apply PP; lia.
  - pose proof (PP (- a2) (- a) (- a1) b1 b b2 ltac:(lia) ltac:(lia) ltac:(lia) ltac:(lia)) as Q.
    rewrite !Z.quot_opp_l in Q by lia. lia.
  - pose proof (PP a1 a a2 (- b2) (- b) (- b1) ltac:(lia) ltac:(lia) ltac:(lia) ltac:(lia)) as Q.
    rewrite !Z.quot_opp_r in Q by lia. lia.
  - apply PP; lia.
Qed.

Lemma quot_abs_le a b : b <> 0 -> Z.abs (Z.quot a b) <= Z.abs a.
Proof.
  intros Hb. rewrite <- Z.quot_abs by lia. apply Z.quot_le_upper_bound; [lia|]. nia.
Qed.

Definition sdivisor (w : Z) (d : witv) : Prop := hemi w d /\ 1 <= wn (wstart d).

(* signed values of the members of a piece within one hemisphere *)
Lemma hemi_signed w c v : hemi w c -> gamma w c v ->
  to_sZ (wstart c) <= to_sZ v <= to_sZ (wend c) /\
  (if msb (wstart c) then to_sZ (wend c) < 0 else 0 <= to_sZ (wstart c)).
Proof.
  intros Hc G. apply (same_sign_bounds w); [apply hemi_sfree; exact Hc|exact G|].
  destruct Hc as (_ & Hs & He & L & HM). rewrite (msb_val w _ Hs), (msb_val w _ He). dec_all; lia.
Qed.

Lemma hemi_start w c : hemi w c -> gamma w c (wstart c).
Proof.
  intros (B & Hs & He & _). split; [exact Hs|]. apply at_start; [exact B| |]; rewrite (proj2 Hs); assumption.
Qed.

(* two quotients of bounds that enclose the quotients of the members and have the same sign *)
Lemma signed_quot_sound w p1 p2 q1 q2 lo hi v y :
  wsdiv p1 p2 = Some lo -> wsdiv q1 q2 = Some hi ->
  wfw w p1 -> wfw w p2 -> wfw w q1 -> wfw w q2 -> wfw w v -> wfw w y ->
  wn p2 <> 0 -> wn q2 <> 0 -> wn y <> 0 ->
  Z.quot (to_sZ p1) (to_sZ p2) <= Z.quot (to_sZ v) (to_sZ y) <= Z.quot (to_sZ q1) (to_sZ q2) ->
  0 <= Z.quot (to_sZ p1) (to_sZ p2) \/ Z.quot (to_sZ q1) (to_sZ q2) <= 0 ->
  exists r, wsdiv v y = Some r /\ gamma w (wi_mk lo hi) r.
Proof.
  intros El Eh Hp1 Hp2 Hq1 Hq2 Hv Hy N1 N2 N B Sg.
  destruct (wsdiv_val w _ _ Hp1 Hp2 N1) as (lo' & El' & Hlo & Vlo).
  destruct (wsdiv_val w _ _ Hq1 Hq2 N2) as (hi' & Eh' & Hhi & Vhi).
  destruct (wsdiv_val w v y Hv Hy N) as (r & Er & Hr & Vr).
  rewrite El in El'. rewrite Eh in Eh'. inversion El'; inversion Eh'; subst lo' hi'.
  exists r. split; [exact Er|]. apply gamma_mk; try assumption. rewrite Vr, Vlo, Vhi.
  pose proof (wfw_range _ _ Hv) as [Hw _]. destruct (half_pow w ltac:(lia)) as [M2 HP].
  pose proof (to_sZ_range _ (proj1 Hp1)) as R1. pose proof (to_sZ_range _ (proj1 Hq1)) as R2.
  rewrite (proj2 Hp1) in R1. rewrite (proj2 Hq1) in R2.
  assert (to_sZ p2 <> 0) as Z1 by (rewrite to_sZ_zero by apply Hp2; exact N1).
  assert (to_sZ q2 <> 0) as Z2 by (rewrite to_sZ_zero by apply Hq2; exact N2).
  pose proof (quot_abs_le (to_sZ p1) (to_sZ p2) Z1). pose proof (quot_abs_le (to_sZ q1) (to_sZ q2) Z2).
  apply interval_mod_Z; [lia|exact B|lia].
Qed.

Lemma signed_div_sound w c d : hemi w c -> sdivisor w d ->
  exists q, signed_div c d = Some q /\ iwf w q /\
            forall v y, gamma w c v -> gamma w d y ->
                        exists r, wsdiv v y = Some r /\ gamma w q r.
Proof.
  intros Hc [Hd D1]. pose proof Hc as (_ & Hs & He & _). pose proof Hd as (_ & Hds & Hde & Ld & _).
  assert (forall y, gamma w d y -> wn y <> 0) as NZ.
  { intros y Gy. pose proof (sfree_bounds w d y (hemi_sfree w d Hd) Gy). lia. }
  pose proof (NZ _ (hemi_start w d Hd)) as N1. assert (wn (wend d) <> 0) as N2 by lia.
  destruct (wsdiv_val w _ _ Hs Hds N1) as (qss & Ess & Hss & _).
  destruct (wsdiv_val w _ _ Hs Hde N2) as (qse & Ese & Hse & _).
  destruct (wsdiv_val w _ _ He Hds N1) as (qes & Ees & Hes & _).
  destruct (wsdiv_val w _ _ He Hde N2) as (qee & Eee & Hee & _).
  pose proof (proj2 (hemi_signed w c _ Hc (hemi_start w c Hc))) as Nc.
  assert (if msb (wstart d) then to_sZ (wend d) < 0 else 0 < to_sZ (wstart d)) as Nd.
  { pose proof (proj2 (hemi_signed w d _ Hd (hemi_start w d Hd))) as Nd.
    pose proof (to_sZ_zero _ (proj1 Hds)) as Z0. unfold to_Z in Z0. destruct (msb (wstart d)); lia. }
  pose proof (fun v y (Gv : gamma w c v) (Gy : gamma w d y) =>
                quot_range _ _ _ _ _ _ _ _ (proj1 (hemi_signed w c v Hc Gv)) (proj1 (hemi_signed w d y Hd Gy)) Nc Nd) as QR.
  unfold signed_div. rewrite Ess, Ese, Ees, Eee. cbn [obind].
  destruct (msb (wstart c)), (msb (wstart d)); cbn [eqb] in *;
  match goal with |- context [if negb ?g then _ else _] => destruct g end; cbn [negb];
  try (eexists; split; [reflexivity|]; split; [apply iwf_top|];
       intros v y Gv Gy; destruct (wsdiv_val w v y (proj1 Gv) (proj1 Gy) (NZ y Gy)) as (r & Er & Hr & _);
       exists r; split; [exact Er|apply gamma_top; [reflexivity|exact Hr]]);
  (eexists; split; [reflexivity|]; split; [apply iwf_mk; assumption|]); intros v y Gv Gy;
  destruct (QR v y Gv Gy) as [B Sg]; (eapply signed_quot_sound; [eassumption|eassumption|..]); auto; apply Gv || apply Gy.
Qed.

Lemma trim_zero_hemi w xc : hemi w xc ->
  Forall (sdivisor w) (trim_zero xc) /\
  (forall y, gamma w xc y -> wn y <> 0 -> Exists (fun d => gamma w d y) (trim_zero xc)).
Proof.
  intros Hx. destruct (trim_zero_spec w xc (hemi_sfree w xc Hx)) as [T1 T2]. split; [|exact T2].
  eapply Forall_impl; [|exact T1]. intros d ((B & Hs & He & L) & D1 & K1 & K2).
  destruct Hx as (_ & _ & _ & _ & HM).
  split; [|exact D1]. split; [exact B|]. split; [exact Hs|]. split; [exact He|]. split; [exact L|].
  destruct HM as [HM|HM]; [left; auto|right; auto].
Qed.

Theorem sdiv_sound w a x v y : iwf w a -> iwf w x -> gamma w a v -> gamma w x y -> wn y <> 0 ->
  exists q r, wi_sdiv a x = Some q /\ iwf w q /\ wsdiv v y = Some r /\ gamma w q r.
Proof.
  exact (div_sound w signed_div wsdiv (hemi w) (sdivisor w) (signed_div_sound w) (trim_zero_hemi w)
           signed_and_unsigned_split (sus_split_spec w) _ (wsdiv_val w) a x v y).
Qed.

Lemma wlshr_val w a k : wfw w a -> wfw w k -> wn k < 64 ->
  exists r, wlshr a k = Some r /\ wfw w r /\ wn r = wn a / 2 ^ wn k.
Proof.
  intros [Wa Ea] [Wk Ek] K. destruct (wlshr_spec a k Wa Wk (eq_trans Ea (eq_sym Ek)) K) as (r & E & Wr & Er & Vr).
  exists r. split; [exact E|]. split; [split; [exact Wr|congruence]|exact Vr].
Qed.
Lemma washr_val w a k : wfw w a -> wfw w k -> wn k < 64 ->
  exists r, washr a k = Some r /\ wfw w r /\ wn r = (to_sZ a / 2 ^ wn k) mod 2 ^ w.
Proof.
  intros [Wa Ea] [Wk Ek] K. destruct (washr_spec a k Wa Wk (eq_trans Ea (eq_sym Ek)) K) as (r & E & Wr & Er & Vr).
  exists r. split; [exact E|]. split; [split; [exact Wr|congruence]|]. unfold to_Z, wrap in Vr. rewrite Vr, Ea. reflexivity.
Qed.
Lemma wshl_val w a k : wfw w a -> wfw w k -> wn k < 64 ->
  exists r, wshl a k = Some r /\ wfw w r /\ wn r = (wn a * 2 ^ wn k) mod 2 ^ w.
Proof.
  intros [Wa Ea] [Wk Ek] K. destruct (wshl_spec a k Wa Wk (eq_trans Ea (eq_sym Ek)) K) as (r & E & Wr & Er & Vr).
  exists r. split; [exact E|]. split; [split; [exact Wr|congruence]|]. unfold to_Z, wrap in Vr. rewrite Vr, Ea. reflexivity.
Qed.

(* the shift amount of the interval operators: the value of a w-bit number *)
Lemma wmk_amount w k : wfw w k -> wmk (wn k) w = k.
Proof.
  intros Hk. pose proof (wfw_range _ _ Hk) as [Hw Rk]. destruct (wmk_val_small (wn k) w Hw Rk) as [[_ E] V].
  apply wrapint_eq; [rewrite E; symmetry; apply Hk|exact V].
Qed.

Lemma lshr_k_sound w a kk v : iwf w a -> gamma w a v -> wfw w kk -> wn kk < 64 ->
  exists q r, wi_lshr_k a (wn kk) = Some q /\ iwf w q /\ wlshr v kk = Some r /\ gamma w q r.
Proof.
  intros Wa Ga Hk K. destruct (wlshr_val w v kk (proj1 Ga) Hk K) as (r & Er & Hr & Vr).
  unfold wi_lshr_k. destruct (gamma_cases w a v Wa Ga) as (-> & [Ta|(-> & R)]); [rewrite Ta; exact (top_result w _ a r Ta Er Hr)|].
  pose proof R as (B & _ & Hs & He). rewrite (cross_unsigned_limit_val w a R). cbn [obind].
  destruct (Z.leb_spec (wn (wstart a)) (wn (wend a))) as [L|L]; cbn [negb]; [|exact (top_result w _ wi_top r eq_refl Er Hr)].
  assert (get_bitwidth (wstart a) = w) as -> by apply Hs. rewrite (wmk_amount w kk Hk).
  destruct (wlshr_val w _ kk Hs Hk K) as (lo & -> & Hlo & Vlo). destruct (wlshr_val w _ kk He Hk K) as (hi & -> & Hhi & Vhi).
  apply (result w _ _ r); [apply iwf_mk; assumption|exact Er|]. apply gamma_mk_le; try assumption. rewrite Vlo, Vhi, Vr.
  pose proof (sfree_bounds w a v (conj B (conj Hs (conj He L))) Ga) as Bv.
  pose proof (wfw_range _ _ Hk) as [_ Rk]. pose proof (pow2_pos (wn kk) ltac:(lia)).
  split; apply Z.div_le_mono; lia.
Qed.

Lemma ashr_k_sound w a kk v : iwf w a -> gamma w a v -> wfw w kk -> wn kk < 64 ->
  exists q r, wi_ashr_k a (wn kk) = Some q /\ iwf w q /\ washr v kk = Some r /\ gamma w q r.
Proof.
  intros Wa Ga Hk K. destruct (washr_val w v kk (proj1 Ga) Hk K) as (r & Er & Hr & Vr).
  unfold wi_ashr_k. destruct (gamma_cases w a v Wa Ga) as (-> & [Ta|(-> & R)]); [rewrite Ta; exact (top_result w _ a r Ta Er Hr)|].
  pose proof R as (B & _ & Hs & He). rewrite (cross_signed_limit_val w a R). cbn [obind].
  destruct (cross_north w a) eqn:CN; cbn [negb]; [exact (top_result w _ wi_top r eq_refl Er Hr)|].
  assert (get_bitwidth (wstart a) = w) as -> by apply Hs. rewrite (wmk_amount w kk Hk).
  destruct (washr_val w _ kk Hs Hk K) as (lo & -> & Hlo & Vlo). destruct (washr_val w _ kk He Hk K) as (hi & -> & Hhi & Vhi).
  apply (result w _ _ r); [apply iwf_mk; assumption|exact Er|]. apply gamma_mk; try assumption. rewrite Vlo, Vhi, Vr.
  pose proof (signed_bounds w a v R CN Ga) as Bv.
  pose proof (wfw_range _ _ Hk) as [Hw Rk]. pose proof (pow2_pos (wn kk) ltac:(lia)) as PK.
  pose proof (to_sZ_range _ (proj1 Hs)) as R1. pose proof (to_sZ_range _ (proj1 He)) as R2.
  destruct Hs as [_ Es]. destruct He as [_ Ee]. rewrite Es in R1. rewrite Ee in R2.
  destruct (half_pow w ltac:(lia)) as [M2 HP].
  apply interval_mod_Z; [lia|split; apply Z.div_le_mono; lia|].
  assert (- 2 ^ (w - 1) <= to_sZ (wstart a) / 2 ^ wn kk) by (apply Z.div_le_lower_bound; nia).
  assert (to_sZ (wend a) / 2 ^ wn kk < 2 ^ (w - 1)) by (apply Z.div_lt_upper_bound; nia).
  lia.
Qed.

Lemma single_member w x kk : iwf w x -> is_singleton x = true -> gamma w x kk -> kk = wstart x.
Proof.
  intros Wx S G. unfold is_singleton in S. apply andb_true_iff in S. destruct S as [S E].
  apply andb_true_iff in S. destruct S as [B T]. apply negb_true_iff in B, T.
  destruct (range_nt_of w x Wx B T) as (B' & _ & Hs & He).
  assert (wend x = wstart x) as EE by (apply (wfw_eq w); try assumption; symmetry; apply Z.eqb_eq, E).
  assert (x = wi_single (wstart x)) as X.
  { destruct x as [s e b]. cbn in *. subst. reflexivity. }
  rewrite X in G, T. apply (gamma_single w _ kk Hs G T).
Qed.

(* Shl, LShr, AShr by an interval: a singleton amount goes to the operator with a constant
   amount, every other amount to top *)
Lemma shift_sound w (opk : witv -> Z -> option witv) (cop : wrapint -> wrapint -> option wrapint) a x v kk :
  iwf w x -> gamma w a v -> gamma w x kk ->
  (exists q r, opk a (wn kk) = Some q /\ iwf w q /\ cop v kk = Some r /\ gamma w q r) ->
  exists q r, (if is_bottom a then Some a
               else if is_singleton x then opk a (get_uint64_t (wstart x)) else Some wi_top) = Some q /\
              iwf w q /\ cop v kk = Some r /\ gamma w q r.
Proof.
  intros Wx Ga Gx (q & r & E & Wq & Er & Gr).
  destruct (is_bottom a) eqn:Ba; [elim (gamma_bot w a v Ba Ga)|].
  destruct (is_singleton x) eqn:S.
  - rewrite <- (single_member w x kk Wx S Gx). exists q, r. auto.
  - exact (top_result w _ wi_top r eq_refl Er (proj1 Gr)).
Qed.

Theorem lshr_sound w a x v kk : iwf w a -> iwf w x -> gamma w a v -> gamma w x kk -> wn kk < 64 ->
  exists q r, wi_lshr a x = Some q /\ iwf w q /\ wlshr v kk = Some r /\ gamma w q r.
Proof.
  intros Wa Wx Ga Gx K. apply (shift_sound w wi_lshr_k wlshr); try assumption.
  apply lshr_k_sound; try assumption. apply Gx.
Qed.

Theorem ashr_sound w a x v kk : iwf w a -> iwf w x -> gamma w a v -> gamma w x kk -> wn kk < 64 ->
  exists q r, wi_ashr a x = Some q /\ iwf w q /\ washr v kk = Some r /\ gamma w q r.
Proof.
  intros Wa Wx Ga Gx K. apply (shift_sound w wi_ashr_k washr); try assumption.
  apply ashr_k_sound; try assumption. apply Gx.
Qed.

Lemma wkeep_lower_val w a k : wfw w a -> 1 <= k < w ->
  exists r, wkeep_lower a k = Some r /\ wfw k r /\ wn r = wn a mod 2 ^ k.
Proof.
  intros [Wa Ea] Hk. pose proof (wkeep_lower_spec a k Wa ltac:(lia)) as S.
  destruct (wkeep_lower a k) as [r|]; [|lia].
  destruct S as (Wr & [[L _]|(_ & Er & Vr)]); [lia|].
  exists r. split; [reflexivity|]. split; [split; assumption|exact Vr].
Qed.

(* the signed reading split into a block number and the low bits *)
Lemma signed_blocks w k x : wfw w x -> 1 <= k < w ->
  let L := 2 ^ k in
  to_sZ x = (to_sZ x / L) * L + wn x mod L /\
  - 2 ^ (w - 1 - k) <= to_sZ x / L < 2 ^ (w - 1 - k).
Proof.
  intros Hx Hk L. pose proof (wfw_range _ _ Hx) as [Hw Rx].
  pose proof (to_sZ_range x (proj1 Hx)) as R. destruct Hx as [Wx Ex]. rewrite Ex in R.
  assert (0 < L) as HL by (apply pow2_pos; lia).
  assert (2 ^ (w - 1) = 2 ^ (w - 1 - k) * L) as E1.
  { unfold L. rewrite <- Z.pow_add_r by lia. f_equal. lia. }
  assert (2 ^ w = 2 * 2 ^ (w - 1 - k) * L) as E2 by (rewrite (pow2_split w) by lia; lia).
  assert (to_sZ x mod L = wn x mod L) as EM.
  { unfold to_sZ, signed_of. rewrite Ex. destruct (_ <? _); [reflexivity|].
    rewrite E2. replace (wn x - 2 * 2 ^ (w - 1 - k) * L) with (wn x + (- (2 * 2 ^ (w - 1 - k))) * L) by ring.
    apply Z.mod_add. lia. }
  split.
  - rewrite <- EM. rewrite Z.mul_comm. apply Z.div_mod. lia.
  - split; [apply Z.div_le_lower_bound; [lia|]; nia|apply Z.div_lt_upper_bound; [lia|]; nia].
Qed.

(* Trunc either returns top or the distance between the bounds is below 2^k and the low
   bits of the bounds delimit the low bits of the members *)
Lemma trunc_range w i k : range_nt w i -> 1 <= k < w ->
  exists q, wi_trunc i k = Some q /\
    (q = wi_top \/
     exists ls le, q = wi_mk ls le /\ wfw k ls /\ wfw k le /\
       wn ls = wn (wstart i) mod 2 ^ k /\ wn le = wn (wend i) mod 2 ^ k /\
       (wn (wend i) - wn (wstart i)) mod 2 ^ w < 2 ^ k /\
       (wn (wend i) - wn (wstart i)) mod 2 ^ w = (wn le - wn ls) mod 2 ^ k).
Proof.
  intros R Hk. pose proof R as (B & T & Hs & He).
  pose proof (wfw_range _ _ Hs) as [Hw Rs]. pose proof (wfw_range _ _ He) as [_ Re].
  unfold wi_trunc, is_bottom. rewrite B, T. cbn [orb].
  assert (get_bitwidth (wstart i) = w) as -> by apply Hs.
  destruct (Z.leb_spec w k) as [KW|_]; [lia|].
  assert (0 < 2 ^ k) as HL by (apply pow2_pos; lia).
  assert (2 ^ k < 2 ^ w) as LM by (apply Z.pow_lt_mono_r; lia).
  destruct (wmk_val_small k w Hw) as [Hkk Vkk].
  { split; [lia|]. apply Z.lt_trans with (2 ^ k); [apply Z.pow_gt_lin_r; lia|exact LM]. }
  assert (wn (wmk k w) < 64) as K64 by lia.
  destruct (washr_val w _ _ Hs Hkk K64) as (us & Eus & Hus & Vus).
  destruct (washr_val w _ _ He Hkk K64) as (ue & Eue & Hue & Vue).
  rewrite Eus, Eue. cbn [obind]. rewrite Vkk in Vus, Vue.
  destruct (wkeep_lower_val w _ k Hs Hk) as (ls & Els & Hls & Vls).
  destruct (wkeep_lower_val w _ k He Hk) as (le & Ele & Hle & Vle).
  destruct (signed_blocks w k _ Hs Hk) as [Ds Bs]. destruct (signed_blocks w k _ He Hk) as [De Be].
  cbv zeta in *.
  set (Fs := to_sZ (wstart i) / 2 ^ k) in *. set (Fe := to_sZ (wend i) / 2 ^ k) in *.
  assert (2 ^ w = 2 * 2 ^ (w - 1 - k) * 2 ^ k) as E2.
  { rewrite (pow2_split w) by lia. replace (w - 1) with (w - 1 - k + k) at 1 by lia.
    rewrite Z.pow_add_r by lia. ring. }
  assert (0 < 2 ^ (w - 1 - k)) as HB by (apply pow2_pos; lia).
  assert (2 <= 2 ^ k) as L2 by (change 2 with (2 ^ 1) at 1; apply Z.pow_le_mono_r; lia).
  pose proof (Z.mod_pos_bound (wn (wstart i)) (2 ^ k) HL) as Rls.
  pose proof (Z.mod_pos_bound (wn (wend i)) (2 ^ k) HL) as Rle.
  (* the distance between the bounds, through the signed readings *)
  assert ((wn (wend i) - wn (wstart i)) mod 2 ^ w = (to_sZ (wend i) - to_sZ (wstart i)) mod 2 ^ w) as DS.
  { pose proof (to_sZ_wrap _ (proj1 Hs)) as W1. pose proof (to_sZ_wrap _ (proj1 He)) as W2.
    unfold wrap, to_Z in W1, W2. destruct Hs as [_ Es]. destruct He as [_ Ee]. rewrite Es in W1. rewrite Ee in W2.
    rewrite (Zminus_mod (to_sZ (wend i)) (to_sZ (wstart i))), W1, W2. reflexivity. }
  unfold weq.
  destruct (Z.eqb_spec (wn us) (wn ue)) as [EQ|NE].
  - (* same block *)
    rewrite Els, Ele. cbn [obind]. rewrite Vus, Vue in EQ.
    assert (Fs = Fe) as FE by (apply (mod_eq_small (2 ^ w)); [lia|exact EQ|nia]).
    unfold wle. destruct (Z.leb_spec (wn ls) (wn le)) as [LL|LL].
    + eexists. split; [reflexivity|]. right. exists ls, le. split; [reflexivity|].
      split; [exact Hls|]. split; [exact Hle|]. split; [exact Vls|]. split; [exact Vle|].
      assert (to_sZ (wend i) - to_sZ (wstart i) = wn le - wn ls) as DD by (rewrite Vls, Vle; nia).
      rewrite DS, DD. rewrite !Z.mod_small by lia. lia.
    + eexists. split; [reflexivity|]. left. reflexivity.
  - (* next block *)
    destruct (wpreinc_val w us Hus) as [_ Vy]. cbv beta in Vy.
    destruct (Z.eqb_spec (wn (wpreinc us)) (wn ue)) as [EQ|NE2].
    + rewrite Els, Ele. cbn [obind]. rewrite Vy, Vus, Vue in EQ. rewrite Zplus_mod_idemp_l in EQ.
      assert (Fs + 1 = Fe) as FE by (apply (mod_eq_small (2 ^ w)); [lia|exact EQ|nia]).
      unfold wle. destruct (Z.leb_spec (wn ls) (wn le)) as [LL|LL]; cbn [negb].
      * eexists. split; [reflexivity|]. left. reflexivity.
      * eexists. split; [reflexivity|]. right. exists ls, le. split; [reflexivity|].
        split; [exact Hls|]. split; [exact Hle|]. split; [exact Vls|]. split; [exact Vle|].
        assert (to_sZ (wend i) - to_sZ (wstart i) = 2 ^ k + wn le - wn ls) as DD by (rewrite Vls, Vle; nia).
        rewrite DS, DD. rewrite (Z.mod_small (2 ^ k + wn le - wn ls)) by lia.
        split; [lia|]. apply (Z.mod_unique (wn le - wn ls) (2 ^ k) (-1)); lia.
    + eexists. split; [reflexivity|]. left. reflexivity.
Qed.

Theorem trunc_sound w i k v : iwf w i -> gamma w i v -> 1 <= k < w ->
  exists q r, wi_trunc i k = Some q /\ iwf k q /\ wkeep_lower v k = Some r /\ gamma k q r.
Proof.
  intros Wi G Hk. destruct (wkeep_lower_val w v k (proj1 G) Hk) as (r & Er & Hr & Vr).
  destruct (gamma_cases w i v Wi G) as (Bi & [Ti|(Ti & R)]).
  { unfold wi_trunc. rewrite Bi, Ti. exact (top_result k _ i r Ti Er Hr). }
  pose proof R as (B & _ & Hs & He).
  destruct (trunc_range w i k R Hk) as (q & -> & [->|(ls & le & -> & Hls & Hle & Vls & Vle & DL & DE)]);
    [exact (top_result k _ wi_top r eq_refl Er Hr)|].
  apply (result k _ _ r); [apply iwf_mk; assumption|exact Er|].
  apply gamma_mk; try assumption. rewrite Vr, Vls, Vle in *.
  pose proof (gamma_range w i v R G) as Gv.
  pose proof (wfw_range _ _ Hs) as [Hw Rs].
  assert (0 < 2 ^ k) as HL by (apply pow2_pos; lia).
  pose proof (Z.mod_pos_bound (wn v - wn (wstart i)) (2 ^ w) ltac:(apply pow2_pos; lia)) as Rd.
  rewrite <- DE.
  replace ((wn v mod 2 ^ k - wn (wstart i) mod 2 ^ k) mod 2 ^ k)
    with ((wn v - wn (wstart i)) mod 2 ^ w) ; [exact Gv|].
  rewrite <- Zminus_mod. rewrite <- (mod_mod_pow2 (wn v - wn (wstart i)) k w) by lia.
  symmetry. apply Z.mod_small. lia.
Qed.

Lemma shl_k_sound w a kk v : iwf w a -> gamma w a v -> wfw w kk -> 1 <= wn kk < 64 ->
  exists q r, wi_shl_k a (wn kk) = Some q /\ iwf w q /\ wshl v kk = Some r /\ gamma w q r.
Proof.
  intros Wa Ga Hk K. pose proof Ga as [Hv _]. destruct (wshl_val w v kk Hv Hk ltac:(lia)) as (r & Er & Hr & Vr).
  unfold wi_shl_k. destruct (gamma_cases w a v Wa Ga) as (-> & [Ta|(-> & R)]); [rewrite Ta; exact (top_result w _ a r Ta Er Hr)|].
  pose proof R as (B & _ & Hs & He).
  pose proof (wfw_range _ _ Hs) as [Hw Rs].
  assert (get_bitwidth (wstart a) = w) as -> by apply Hs.
  assert (0 < 2 ^ w) as HM by (apply pow2_pos; lia).
  destruct (Z.leb_spec w (wn kk)) as [KW|KW].
  - (* everything is shifted out *)
    destruct (wmk_val_small 0 w Hw ltac:(lia)) as [Hz Vz].
    apply (result w _ _ r); [apply iwf_mk; assumption|exact Er|].
    assert (r = wmk 0 w) as ->; [|apply singleton_sound; exact Hz].
    apply (wfw_eq w); try assumption. rewrite Vr, Vz. replace (wn kk) with (w + (wn kk - w)) by lia. rewrite Z.pow_add_r by lia.
    replace (wn v * (2 ^ w * 2 ^ (wn kk - w))) with (wn v * 2 ^ (wn kk - w) * 2 ^ w) by ring.
    apply Z.mod_mul. lia.
  - destruct (trunc_range w a (w - wn kk) R ltac:(lia)) as (y & Ey & Cy). rewrite Ey. cbn [obind].
    destruct (is_top y) eqn:Ty; cbn [negb].
    { exact (top_result w _ wi_top r eq_refl Er Hr). }
    destruct Cy as [->|(ls & le & _ & _ & _ & _ & _ & DL & _)]; [discriminate|].
    rewrite (wmk_amount w kk Hk).
    destruct (wshl_val w _ kk Hs Hk ltac:(lia)) as (lo & -> & Hlo & Vlo).
    destruct (wshl_val w _ kk He Hk ltac:(lia)) as (hi & -> & Hhi & Vhi).
    apply (result w _ _ r); [apply iwf_mk; assumption|exact Er|].
    apply gamma_mk; try assumption. rewrite Vr, Vlo, Vhi.
    pose proof (gamma_range w a v R Ga) as Gv.
    pose proof (Z.mod_pos_bound (wn v - wn (wstart a)) (2 ^ w) HM) as Rd.
    pose proof (Z.mod_pos_bound (wn (wend a) - wn (wstart a)) (2 ^ w) HM) as RD.
    assert (0 < 2 ^ wn kk) as HK by (apply pow2_pos; lia).
    assert (2 ^ w = 2 ^ (w - wn kk) * 2 ^ wn kk) as EM by (rewrite <- Z.pow_add_r by lia; f_equal; lia).
    assert (forall p, ((p * 2 ^ wn kk) mod 2 ^ w - (wn (wstart a) * 2 ^ wn kk) mod 2 ^ w) mod 2 ^ w =
                      ((p - wn (wstart a)) mod 2 ^ w * 2 ^ wn kk) mod 2 ^ w) as X.
    { intros p. rewrite <- Zminus_mod, <- Z.mul_sub_distr_r, Zmult_mod_idemp_l. reflexivity. }
    rewrite !X.
    set (d := (wn v - wn (wstart a)) mod 2 ^ w) in *. set (D := (wn (wend a) - wn (wstart a)) mod 2 ^ w) in *.
    rewrite (Z.mod_small (d * 2 ^ wn kk)), (Z.mod_small (D * 2 ^ wn kk)) by nia. nia.
Qed.

Theorem shl_sound w a x v kk : iwf w a -> iwf w x -> gamma w a v -> gamma w x kk -> 1 <= wn kk < 64 ->
  exists q r, wi_shl a x = Some q /\ iwf w q /\ wshl v kk = Some r /\ gamma w q r.
Proof.
  intros Wa Wx Ga Gx K. apply (shift_sound w wi_shl_k wshl); try assumption.
  apply shl_k_sound; try assumption. apply Gx.
Qed.

Lemma wzext_val w a k : wfw w a -> 0 <= k -> w + k <= 64 ->
  exists r, wzext a k = Some r /\ wfw (w + k) r /\ wn r = wn a.
Proof.
  intros [Wa Ea] Hk L. pose proof (wzext_spec a k Wa Hk) as S. rewrite Ea in S.
  destruct (wzext a k) as [r|]; [|lia]. destruct S as (_ & Wr & Er & Vr).
  exists r. split; [reflexivity|]. split; [split; assumption|exact Vr].
Qed.
Lemma wsext_val w a k : wfw w a -> 0 <= k -> w + k <= 64 ->
  exists r, wsext a k = Some r /\ wfw (w + k) r /\ wn r = to_sZ a mod 2 ^ (w + k).
Proof.
  intros [Wa Ea] Hk L. pose proof (wsext_spec a k Wa Hk) as S. rewrite Ea in S.
  destruct (wsext a k) as [r|]; [|lia]. destruct S as (_ & Wr & Er & Vr).
  exists r. split; [reflexivity|]. split; [split; assumption|exact Vr].
Qed.

(* ZExt / SExt: the pieces of a split are extended one by one *)
Section ExtFold.
  Variable w k : Z.
  Variable ext : wrapint -> Z -> option wrapint.
  Variable P : witv -> Prop.
  Hypothesis piece_sound : forall p, P p ->
    is_bottom p = false /\ is_top p = false /\
    exists lo hi, ext (wstart p) k = Some lo /\ ext (wend p) k = Some hi /\
                  wfw (w + k) lo /\ wfw (w + k) hi /\
                  forall v, gamma w p v -> exists r, ext v k = Some r /\ gamma (w + k) (wi_mk lo hi) r.
  Variable split : witv -> option (list witv).
  Hypothesis split_ok : forall i, range_nt w i ->
    exists l, split i = Some l /\ Forall P l /\ (forall v, gamma w i v -> Exists (fun p => gamma w p v) l).

  Lemma ext_sound i v : iwf w i -> is_top i = false -> gamma w i v ->
    exists q r, (do l <- split i; ext_pieces ext k l wi_bottom) = Some q /\ iwf (w + k) q /\
                ext v k = Some r /\ gamma (w + k) q r.
  Proof.
    intros Wi Ti G. destruct (is_bottom i) eqn:Bi; [elim (gamma_bot w i v Bi G)|].
    destruct (split_ok i (range_nt_of w i Wi Bi Ti)) as (l & -> & Fl & Cl). cbn [obind].
    destruct (loop_extends (w + k) _ P (fun p t => exists u, gamma w p u /\ ext u k = Some t)
                (fun p res => if is_bottom p || is_top p then Some res
                              else do a <- ext (wstart p) k; do b <- ext (wend p) k; Some (wi_join res (wi_mk a b)))
                (ext_pieces ext k)) with (l := l) (res := wi_bottom) as (q & Eq & Wq & Mq);
      [reflexivity| | |exact Fl|apply iwf_bottom|].
    - intros p l' res. cbn [ext_pieces]. destruct (is_bottom p || is_top p); [reflexivity|].
      destruct (ext (wstart p) k); [|reflexivity]. destruct (ext (wend p) k); reflexivity.
    - intros p Pp res Wr. destruct (piece_sound p Pp) as (-> & -> & lo & hi & -> & -> & Hlo & Hhi & S).
      eexists. split; [reflexivity|].
      apply (extends_sub _ (gamma (w + k) (wi_mk lo hi))); [apply extends_join; [exact Wr|apply iwf_mk; assumption]|].
      intros t (u & Gu & E). destruct (S u Gu) as (r & Er & Gr). congruence.
    - destruct (proj1 (Exists_exists _ _) (Cl v G)) as (p & Ip & Gp).
      destruct (piece_sound p (proj1 (Forall_forall _ _) Fl p Ip)) as (_ & _ & lo & hi & _ & _ & _ & _ & S).
      destruct (S v Gp) as (r & Er & _). exists q, r. split; [exact Eq|]. split; [exact Wq|]. split; [exact Er|].
      apply Mq. right. exists p. split; [exact Ip|]. exists v. split; assumption.
  Qed.
End ExtFold.

Theorem zext_sound w i k v : iwf w i -> is_top i = false -> gamma w i v -> 0 <= k -> w + k <= 64 ->
  exists q r, wi_zext i k = Some q /\ iwf (w + k) q /\ wzext v k = Some r /\ gamma (w + k) q r.
Proof.
  intros Wi Ti G Hk L.
  apply (ext_sound w k wzext (fun p => sfree w p /\ is_top p = false) ) with (split := unsigned_split); try assumption.
  - intros p (Fp & Tp). pose proof Fp as (Bp & Hs & He & Lp).
    split; [exact Bp|]. split; [exact Tp|].
    destruct (wzext_val w _ k Hs Hk L) as (lo & Elo & Hlo & Vlo).
    destruct (wzext_val w _ k He Hk L) as (hi & Ehi & Hhi & Vhi).
    exists lo, hi. split; [exact Elo|]. split; [exact Ehi|]. split; [exact Hlo|]. split; [exact Hhi|].
    intros u Gu. destruct (wzext_val w u k (proj1 Gu) Hk L) as (r & Er & Hr & Vr).
    exists r. split; [exact Er|]. apply gamma_mk_le; try assumption. rewrite Vlo, Vhi, Vr.
    apply (sfree_bounds w p u Fp Gu).
  - intros j R. destruct (unsigned_split_spec w j R) as (l & E & F & C). exists l. split; [exact E|].
    split; [|exact C]. eapply Forall_impl; [|exact F]. intros p (Fp & Tp & _). split; assumption.
Qed.

Theorem sext_sound w i k v : iwf w i -> is_top i = false -> gamma w i v -> 0 <= k -> w + k <= 64 ->
  exists q r, wi_sext i k = Some q /\ iwf (w + k) q /\ wsext v k = Some r /\ gamma (w + k) q r.
Proof.
  intros Wi Ti G Hk L.
  apply (ext_sound w k wsext (fun p => range_nt w p /\ cross_north w p = false)) with (split := signed_split);
    try assumption; [|apply signed_split_spec].
  intros p [Rp Cp]. pose proof Rp as (Bp & Tp & Hs & He).
  split; [exact Bp|]. split; [exact Tp|].
  destruct (wsext_val w _ k Hs Hk L) as (lo & Elo & Hlo & Vlo).
  destruct (wsext_val w _ k He Hk L) as (hi & Ehi & Hhi & Vhi).
  exists lo, hi. split; [exact Elo|]. split; [exact Ehi|]. split; [exact Hlo|]. split; [exact Hhi|].
  intros u Gu. destruct (wsext_val w u k (proj1 Gu) Hk L) as (r & Er & Hr & Vr).
  exists r. split; [exact Er|]. apply gamma_mk; try assumption. rewrite Vlo, Vhi, Vr.
  pose proof (signed_bounds w p u Rp Cp Gu) as Bu.
  pose proof (to_sZ_range _ (proj1 Hs)) as R1. pose proof (to_sZ_range _ (proj1 He)) as R2.
  pose proof (wfw_range _ _ Hs) as [Hw _].
  destruct Hs as [_ Es]. destruct He as [_ Ee]. rewrite Es in R1. rewrite Ee in R2.
  destruct (half_pow w ltac:(lia)) as [M2 HP].
  assert (2 ^ w <= 2 ^ (w + k)) by (apply Z.pow_le_mono_r; lia).
  apply interval_mod_Z; [apply pow2_pos; lia|exact Bu|lia].
Qed.

(* to_interval: the signed readings of the members lie between the bounds *)
Theorem to_interval_sound w i v : iwf w i -> gamma w i v ->
  match wi_to_interval i with
  | Some IVBot => False
  | Some IVTop => True
  | Some (IVRange l u) => l <= to_sZ v <= u
  | None => False
  end.
Proof.
  intros Wi G. unfold wi_to_interval.
  destruct (is_bottom i) eqn:Bi; [exact (gamma_bot w i v Bi G)|].
  destruct (is_top i) eqn:Ti; [exact I|].
  pose proof (range_nt_of w i Wi Bi Ti) as R. pose proof R as (_ & _ & Hs & He).
  rewrite (cross_signed_limit_val w i R). cbn [obind].
  destruct (cross_north w i) eqn:CN; [exact I|].
  rewrite !get_signed_bignum_spec by (apply Hs || apply He).
  exact (signed_bounds w i v R CN G).
Qed.

(* lower_half_line / upper_half_line: every number below (above) a member is a member of the
   result, in the signed order or in the unsigned one *)
Definition reading (is_signed : bool) (x : wrapint) : Z := if is_signed then to_sZ x else wn x.

Theorem half_line_sound w i v u sg : iwf w i -> gamma w i v -> wfw w u ->
  (reading sg u <= reading sg v -> gamma w (wi_lower_half_line i sg) u) /\
  (reading sg v <= reading sg u -> gamma w (wi_upper_half_line i sg) u).
Proof.
  intros Wi G Hu. unfold wi_lower_half_line, wi_upper_half_line.
  destruct (is_top i) eqn:Ti; [split; intros _; apply gamma_top; assumption|].
  destruct (is_bottom i) eqn:Bi; [elim (gamma_bot w i v Bi G)|]. cbn [orb].
  pose proof (range_nt_of w i Wi Bi Ti) as R. pose proof R as (_ & _ & Hs & _).
  pose proof (wfw_range _ _ Hs) as [Hw _]. pose proof G as [Hv _].
  assert (get_bitwidth (wstart i) = w) as -> by apply Hs.
  destruct sg; cbn [reading];
    [destruct (cut_half w _ _ (north_cut w Hw) i v u R G Hu) as [Lo Up]
    |destruct (cut_half w _ _ (south_cut w Hw) i v u R G Hu) as [Lo Up]];
    (split; intros L; [apply Lo|apply Up]); rewrite ?rel_smin, ?rel_umin by assumption; lia.
Qed.

Lemma rel_inj w o a b : wfw w a -> wfw w b -> rel w o a = rel w o b -> a = b.
Proof.
  intros Ha Hb E. apply (wfw_eq w); try assumption.
  apply (msub_inj (2 ^ w) (wn o)); try (eapply wfw_range; eassumption). exact E.
Qed.

Lemma rel_shift w o k p d : wn p = (wn k + d) mod 2 ^ w -> 0 <= rel w o k + d < 2 ^ w ->
  rel w o p = rel w o k + d.
Proof.
  intros V R. unfold rel in *. rewrite V, Zminus_mod_idemp_l, Z.add_sub_swap, <- Zplus_mod_idemp_l.
  apply Z.mod_small. exact R.
Qed.

(* trim_interval: removing a singleton bound keeps every other member *)
Theorem trim_interval_sound w i j v c : iwf w i -> iwf w j -> gamma w i v -> gamma w j c -> v <> c ->
  gamma w (wi_trim_interval i j) v.
Proof.
  intros Wi Wj G Gc NE. unfold wi_trim_interval.
  destruct (is_bottom i) eqn:Bi; [exact G|]. destruct (is_top i) eqn:Ti; [exact G|].
  destruct (is_singleton j) eqn:Sj; cbn [negb]; [|exact G].
  pose proof (single_member w j c Wj Sj Gc) as EC. subst c.
  pose proof (range_nt_of w i Wi Bi Ti) as R. pose proof R as (B & _ & Hs & He).
  pose proof G as [Hv Iv]. pose proof Gc as [Hk _]. pose proof (wfw_range _ _ Hs) as [Hw _].
  pose proof (pow2_gt1 w ltac:(lia)) as M1.
  assert (rel w (wstart i) v <> rel w (wstart i) (wstart j)) as NE'
    by (intros E; exact (NE (rel_inj w _ _ _ Hv Hk E))).
  destruct (wpreinc_val w _ Hk) as [Hp Vp]. destruct (wpredec_val w _ Hk) as [Hd Vd].
  pose proof (rel_shift w (wstart i) _ _ 1 Vp) as RP. pose proof (rel_shift w (wstart i) _ _ (-1) Vd) as RD.
  unfold is_singleton. rewrite Bi, Ti, !(weq_rel w (wstart i)) by assumption. cbn [negb andb].
  rewrite (at_rel w (wstart i)) in Iv by assumption.
  repeat match goal with |- context [if ?c then _ else _] => destruct c eqn:? end; try exact G;
    try (apply (gamma_mk_rel w (wstart i)); try assumption);
    rel_vars w (wstart i) Hw; dec_all.
Qed.

(* membership in [s,e]: going clockwise from s, v is met before e *)
Theorem gamma_mk_iff w s e v : wfw w s -> wfw w e -> wfw w v ->
  (gamma w (wi_mk s e) v <-> (wn v - wn s) mod 2 ^ w <= (wn e - wn s) mod 2 ^ w).
Proof.
  intros Hs He Hv. split; [|apply gamma_mk; assumption].
  intros G. destruct (is_top (wi_mk s e)) eqn:T.
  - rewrite (is_top_range w) in T by (try reflexivity; assumption). cbn [wi_mk wstart wend] in T.
    apply Z.eqb_eq in T. rewrite T. pose proof (wfw_range _ _ Hs) as [Hw _].
    pose proof (Z.mod_pos_bound (wn v - wn s) (2 ^ w) ltac:(apply pow2_pos; lia)). lia.
  - exact (gamma_range w (wi_mk s e) v (range_nt_mk w s e Hs He T) G).
Qed.

Theorem gamma_bottom_empty w v : ~ gamma w wi_bottom v.
Proof. apply gamma_bot. reflexivity. Qed.
Theorem gamma_top_all w v : wfw w v -> gamma w wi_top v.
Proof. apply gamma_top. reflexivity. Qed.

(* non-vacuity: an interval across the south pole, one across the north pole *)
Example gamma_example_south : gamma 8 (wi_mk (mkW 250 8) (mkW 5 8)) (mkW 2 8).
Proof. split; [split; [split; simpl; lia|reflexivity]|reflexivity]. Qed.
Example gamma_example_north : gamma 8 (wi_mk (mkW 120 8) (mkW 130 8)) (mkW 128 8).
Proof. split; [split; [split; simpl; lia|reflexivity]|reflexivity]. Qed.
Example iwf_example : iwf 8 (wi_mk (mkW 250 8) (mkW 5 8)).
Proof. apply iwf_mk; split; try reflexivity; split; simpl; lia. Qed.
Example mul_example :
  wi_mul (wi_mk (mkW 0 8) (mkW 2 8)) (wi_mk (mkW 128 8) (mkW 255 8)) = Some wi_top.
Proof. vm_compute. reflexivity. Qed.
Example udiv_example :
  exists q, wi_udiv (wi_mk (mkW 200 8) (mkW 100 8)) (wi_mk (mkW 1 8) (mkW 10 8)) = Some q /\
            wi_at q (mkW 255 8) = true /\ wi_at q (mkW 0 8) = true.
Proof. eexists. split; [vm_compute; reflexivity|]. split; reflexivity. Qed.
Example widen_example :
  wi_widen (wi_mk (mkW 3 8) (mkW 5 8)) (wi_mk (mkW 5 8) (mkW 3 8)) = Some wi_top.
Proof. vm_compute. reflexivity. Qed.

(* mk_winterval(lb, ub, width): every number of the range, modulo 2^w, is a member *)
Theorem mk_winterval2_sound lb ub w r : mk_winterval2 lb ub w = Some r ->
  forall z x, lb <= z <= ub -> of_z z w = Some x -> gamma w r x.
Proof.
  unfold mk_winterval2. intros R z x Hz X.
  pose proof (of_z_spec z w) as S. rewrite X in S. destruct S as (Hw & Fz & Wx & Ex & Vx).
  assert (wfw w x) as Hx by (split; assumption).
  destruct (fits_wrapint lb w) eqn:F1; cbn [negb] in R;
    [|inversion R; subst r; apply gamma_top; [reflexivity|exact Hx]].
  destruct (fits_wrapint ub w) eqn:F2; cbn [negb] in R;
    [|inversion R; subst r; apply gamma_top; [reflexivity|exact Hx]].
  apply fits_wrapint_spec in F1, F2.
  assert (valid_width w = true) as V by (apply valid_width_spec; exact Hw). rewrite V in R. cbn [negb] in R.
  destruct (umax_val w Hw) as [_ UM]. unfold get_unsigned_bignum in R. rewrite UM in R.
  destruct (Z.leb_spec (2 ^ w - 1) (ub - lb)) as [Wd|Nw];
    [inversion R; subst r; apply gamma_top; [reflexivity|exact Hx]|].
  pose proof (of_z_spec lb w) as Sl. pose proof (of_z_spec ub w) as Su.
  destruct (of_z lb w) as [l|]; [|exfalso; apply Sl; lia].
  destruct (of_z ub w) as [u|]; [|exfalso; apply Su; lia].
  cbn [obind] in R. inversion R; subst r.
  destruct Sl as (_ & _ & Wl & El & Vl). destruct Su as (_ & _ & Wu & Eu & Vu).
  apply gamma_mk; [split; assumption|split; assumption|exact Hx|].
  unfold to_Z, wrap in *. rewrite Vx, Vl, Vu.
  apply interval_mod_Z; [apply pow2_pos; lia|exact Hz|lia].
Qed.
