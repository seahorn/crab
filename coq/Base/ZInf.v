(* ZInf.v — model of ikos::bound<z_number> (include/crab/domains/interval_impl.hpp).

   C++ representation: (_is_infinite, _n) with _n = +1 / -1 for +oo / -oo.
   Model: three constructors.  Every function below mirrors the C++ member of the
   same name decision by decision; the two CRAB_ERROR cases (-oo + +oo and division
   by a zero bound) are made explicit by [badd_err] / [bdiv_err] and the functions
   return a junk value there.  Well-formed intervals never reach the first one
   ([iadd_no_error], [isub_no_error] in Scalar/ItvTight.v); nothing is stated about
   [bdiv_err] (the interval division only divides by the bounds of a divisor that does
   not contain 0). *)
From Coq Require Import ZArith Lia Bool.
Local Open Scope Z_scope.

Inductive bound : Type := MInf | Fin (z : Z) | PInf.

Definition b_is_finite (x : bound) : bool :=
  match x with Fin _ => true | _ => false end.

(* bound::operator<= *)
Definition ble (x y : bound) : bool :=
  match x, y with
  | MInf, _ => true
  | Fin _, MInf => false
  | Fin a, Fin b => a <=? b
  | Fin _, PInf => true
  | PInf, PInf => true
  | PInf, _ => false
  end.

Arguments ble !x !y /.

(* bound::operator>= *)
Definition bge (x y : bound) : bool := ble y x.
(* operator< is !operator>= ; operator> is !operator<= *)
Definition blt (x y : bound) : bool := negb (bge x y).
Definition bgt (x y : bound) : bool := negb (ble x y).

Definition beqb (x y : bound) : bool :=
  match x, y with
  | MInf, MInf => true
  | PInf, PInf => true
  | Fin a, Fin b => a =? b
  | _, _ => false
  end.

(* bound::min(x,y) = (x <= y) ? x : y ;  max(x,y) = (x <= y) ? y : x *)
Definition bmin (x y : bound) : bound := if ble x y then x else y.
Definition bmax (x y : bound) : bound := if ble x y then y else x.
Definition bmin4 (x y z t : bound) := bmin x (bmin y (bmin z t)).
Definition bmax4 (x y z t : bound) := bmax x (bmax y (bmax z t)).

Definition bneg (x : bound) : bound :=
  match x with MInf => PInf | PInf => MInf | Fin a => Fin (- a) end.

(* the C++ aborts on -oo + +oo *)
Definition badd_err (x y : bound) : bool :=
  match x, y with
  | MInf, PInf | PInf, MInf => true
  | _, _ => false
  end.

Definition badd (x y : bound) : bound :=
  match x, y with
  | Fin a, Fin b => Fin (a + b)
  | Fin _, _ => y
  | _, Fin _ => x
  | _, _ => x            (* same infinity (or the error case) *)
  end.

Definition bsub (x y : bound) : bound := badd x (bneg y).
Definition bsub_err (x y : bound) : bool := badd_err x (bneg y).

(* sign of the C++ field _n *)
Definition bsgn (x : bound) : Z :=
  match x with MInf => -1 | PInf => 1 | Fin a => a end.

Definition binf_of_sign (s : Z) : bound := if 0 <? s then PInf else MInf.

(* bound::operator*: if (x._n == 0) return x; else if (_n == 0) return *this;
   else bound(_is_infinite || x._is_infinite, _n * x._n) *)
Definition bmul (x y : bound) : bound :=
  match x, y with
  | _, Fin 0 => Fin 0
  | Fin 0, _ => Fin 0
  | Fin a, Fin b => Fin (a * b)
  | _, _ => binf_of_sign (bsgn x * bsgn y)
  end.

Definition bdiv_err (x y : bound) : bool :=
  match y with Fin 0 => true | _ => false end.

(* bound::operator/ ; z_number::operator/ is truncating (mpz_tdiv_q) = Z.quot *)
Definition bdiv (x y : bound) : bound :=
  match x, y with
  | _, Fin 0 => Fin 0                                   (* CRAB_ERROR *)
  | Fin a, Fin b => Fin (Z.quot a b)
  | Fin a, _ => Fin 0                                   (* finite / infinite *)
  | _, Fin b => if 0 <? b then x else bneg x
  | _, _ => binf_of_sign (bsgn x * bsgn y)
  end.

Definition ble_z_l (l : bound) (x : Z) : Prop := ble l (Fin x) = true.
Definition ble_z_r (x : Z) (u : bound) : Prop := ble (Fin x) u = true.

Lemma ble_refl x : ble x x = true.
Proof. destruct x; simpl; auto; apply Z.leb_refl. Qed.

Lemma ble_trans x y z : ble x y = true -> ble y z = true -> ble x z = true.
Proof.
  destruct x, y, z; simpl; intros; try discriminate; auto.
  apply Z.leb_le. apply Z.leb_le in H, H0. lia.
Qed.

Lemma ble_total x y : ble x y = true \/ ble y x = true.
Proof.
  destruct x, y; simpl; auto.
  destruct (Z.leb_spec z z0); auto. right. apply Z.leb_le. lia.
Qed.

Lemma ble_antisym x y : ble x y = true -> ble y x = true -> x = y.
Proof.
  destruct x, y; simpl; intros; try discriminate; auto.
  apply Z.leb_le in H, H0. f_equal. lia.
Qed.

Lemma ble_false_flip x y : ble x y = false -> ble y x = true.
Proof. destruct (ble_total x y); congruence. Qed.

Lemma beqb_eq x y : beqb x y = true <-> x = y.
Proof.
  destruct x, y; simpl; split; intros; try discriminate; auto.
  - apply Z.eqb_eq in H. congruence.
  - inversion H. apply Z.eqb_refl.
Qed.

Lemma bmin_le_l x y : ble (bmin x y) x = true.
Proof. unfold bmin. destruct (ble x y) eqn:E. apply ble_refl. apply ble_false_flip; auto. Qed.
Lemma bmin_le_r x y : ble (bmin x y) y = true.
Proof. unfold bmin. destruct (ble x y) eqn:E; auto. apply ble_refl. Qed.
Lemma bmax_ge_l x y : ble x (bmax x y) = true.
Proof. unfold bmax. destruct (ble x y) eqn:E; auto. apply ble_refl. Qed.
Lemma bmax_ge_r x y : ble y (bmax x y) = true.
Proof. unfold bmax. destruct (ble x y) eqn:E. apply ble_refl. apply ble_false_flip; auto. Qed.

Lemma bmin_glb x y z : ble z x = true -> ble z y = true -> ble z (bmin x y) = true.
Proof. unfold bmin. destruct (ble x y); auto. Qed.
Lemma bmax_lub x y z : ble x z = true -> ble y z = true -> ble (bmax x y) z = true.
Proof. unfold bmax. destruct (ble x y); auto. Qed.

Lemma bmin_ge_iff x y z : ble z (bmin x y) = true <-> ble z x = true /\ ble z y = true.
Proof.
  split; [intros H|intros []; apply bmin_glb; assumption].
  split; (eapply ble_trans; [exact H|]); [apply bmin_le_l|apply bmin_le_r].
Qed.
Lemma bmax_le_iff x y z : ble (bmax x y) z = true <-> ble x z = true /\ ble y z = true.
Proof.
  split; [intros H|intros []; apply bmax_lub; assumption].
  split; (eapply ble_trans; [|exact H]); [apply bmax_ge_l|apply bmax_ge_r].
Qed.

(* bmin and bmax return one of their arguments *)
Lemma bmin_ind (P : bound -> Prop) x y : P x -> P y -> P (bmin x y).
Proof. unfold bmin. destruct (ble x y); auto. Qed.
Lemma bmax_ind (P : bound -> Prop) x y : P x -> P y -> P (bmax x y).
Proof. unfold bmax. destruct (ble x y); auto. Qed.

Lemma bneg_involutive x : bneg (bneg x) = x.
Proof. destruct x; simpl; auto. f_equal. lia. Qed.

Lemma ble_bneg x y : ble (bneg x) (bneg y) = ble y x.
Proof.
  destruct x, y; simpl; auto.
  destruct (Z.leb_spec (-z) (-z0)), (Z.leb_spec z0 z); auto; lia.
Qed.

Lemma ble_PInf_r x : ble x PInf = false -> False.
Proof. destruct x; simpl; discriminate. Qed.

Lemma ble_fin a b : ble (Fin a) (Fin b) = true <-> a <= b.
Proof. apply Z.leb_le. Qed.

Lemma bmin_or p q r : (ble p r = true \/ ble q r = true) -> ble (bmin p q) r = true.
Proof.
  intros [H|H]; (eapply ble_trans; [|exact H]); [apply bmin_le_l|apply bmin_le_r].
Qed.
Lemma bmax_or p q r : (ble r p = true \/ ble r q = true) -> ble r (bmax p q) = true.
Proof.
  intros [H|H]; (eapply ble_trans; [exact H|]); [apply bmax_ge_l|apply bmax_ge_r].
Qed.

Lemma bmin4_le_l a b c d : ble (bmin4 a b c d) (bmin a b) = true.
Proof.
  apply bmin_glb; [apply bmin_le_l|]. eapply ble_trans; [apply bmin_le_r|apply bmin_le_l].
Qed.
Lemma bmin4_le_r a b c d : ble (bmin4 a b c d) (bmin c d) = true.
Proof. eapply ble_trans; [apply bmin_le_r|apply bmin_le_r]. Qed.
Lemma bmax4_ge_l a b c d : ble (bmax a b) (bmax4 a b c d) = true.
Proof.
  apply bmax_lub; [apply bmax_ge_l|]. eapply ble_trans; [apply bmax_ge_l|apply bmax_ge_r].
Qed.
Lemma bmax4_ge_r a b c d : ble (bmax c d) (bmax4 a b c d) = true.
Proof. eapply ble_trans; [apply bmax_ge_r|apply bmax_ge_r]. Qed.

(* The interval operators take the least and the greatest of the four corner values
   op(l,l') op(l,u') op(u,l') op(u,u').  If v lies between two intermediate values pl, pu
   (one operand moved to a bound), each of which lies between two corners, then v lies
   between the extreme corners. *)
Lemma corners_min ll lu ul uu pl pu v :
  ble (bmin pl pu) v = true -> ble (bmin ll lu) pl = true -> ble (bmin ul uu) pu = true ->
  ble (bmin4 ll lu ul uu) v = true.
Proof.
  intros X L U. eapply ble_trans; [|exact X].
  apply bmin_glb; (eapply ble_trans; [|eassumption]); [apply bmin4_le_l|apply bmin4_le_r].
Qed.
Lemma corners_max ll lu ul uu pl pu v :
  ble v (bmax pl pu) = true -> ble pl (bmax ll lu) = true -> ble pu (bmax ul uu) = true ->
  ble v (bmax4 ll lu ul uu) = true.
Proof.
  intros X L U. eapply ble_trans; [exact X|].
  apply bmax_lub; (eapply ble_trans; [eassumption|]); [apply bmax4_ge_l|apply bmax4_ge_r].
Qed.

Lemma badd_le l1 l2 x y :
  ble l1 (Fin x) = true -> ble l2 (Fin y) = true -> ble (badd l1 l2) (Fin (x + y)) = true.
Proof.
  destruct l1, l2; try discriminate; try reflexivity. simpl badd. rewrite !ble_fin. lia.
Qed.
Lemma badd_ge u1 u2 x y :
  ble (Fin x) u1 = true -> ble (Fin y) u2 = true -> ble (Fin (x + y)) (badd u1 u2) = true.
Proof.
  destruct u1, u2; try discriminate; try reflexivity. simpl badd. rewrite !ble_fin. lia.
Qed.

Lemma bmul_fin a b : bmul (Fin a) (Fin b) = Fin (a * b).
Proof. destruct a, b; reflexivity. Qed.

Lemma bmul_comm x y : bmul x y = bmul y x.
Proof.
  destruct x as [|a|], y as [|b|]; try reflexivity; try (destruct a; reflexivity);
    try (destruct b; reflexivity).
  rewrite !bmul_fin, Z.mul_comm. reflexivity.
Qed.

Lemma bmul_bneg_l c p : bmul (bneg c) p = bneg (bmul c p).
Proof. destruct c as [|[]|], p as [|[]|]; reflexivity. Qed.

(* the convention 0 * oo = 0 of bmul is what makes this hold at c = 0 *)
Lemma bmul_mono_r c p q :
  ble (Fin 0) c = true -> ble p q = true -> ble (bmul c p) (bmul c q) = true.
Proof.
  intros Hc H. destruct c as [|[|k|k]|]; try discriminate.
  - destruct p as [|[]|], q as [|[]|]; reflexivity.
  - destruct p as [|a|], q as [|b|]; try discriminate; try reflexivity.
    + rewrite !bmul_fin. apply ble_fin. apply ble_fin in H. apply Z.mul_le_mono_nonneg_l; lia.
    + destruct a; reflexivity.
  - destruct p as [|[]|], q as [|[]|]; try discriminate; reflexivity.
Qed.

Lemma bmul_anti_r c p q :
  ble c (Fin 0) = true -> ble p q = true -> ble (bmul c q) (bmul c p) = true.
Proof.
  intros Hc H. rewrite <- (bneg_involutive c), !(bmul_bneg_l (bneg c)), ble_bneg.
  apply bmul_mono_r; auto. rewrite <- Hc. apply (ble_bneg (Fin 0) c).
Qed.

Lemma bmul_between (c lo hi : bound) (y : Z) :
  ble lo (Fin y) = true -> ble (Fin y) hi = true ->
  ble (bmin (bmul c lo) (bmul c hi)) (bmul c (Fin y)) = true /\
  ble (bmul c (Fin y)) (bmax (bmul c lo) (bmul c hi)) = true.
Proof.
  intros H1 H2. destruct (ble_total (Fin 0) c) as [Hc|Hc].
  - split; [apply bmin_or; left|apply bmax_or; right]; apply bmul_mono_r; auto.
  - split; [apply bmin_or; right|apply bmax_or; left]; apply bmul_anti_r; auto.
Qed.

Lemma bdiv_fin a b : b <> 0 -> bdiv (Fin a) (Fin b) = Fin (Z.quot a b).
Proof. destruct b; [contradiction| |]; reflexivity. Qed.

Lemma bdiv_bneg_l c d : bdiv (bneg c) d = bneg (bdiv c d).
Proof.
  destruct c as [|a|], d as [|[|b|b]|]; try reflexivity;
    simpl; f_equal; apply Z.quot_opp_l; discriminate.
Qed.
Lemma bdiv_bneg_r c d : bdiv c (bneg d) = bneg (bdiv c d).
Proof.
  destruct c as [|a|], d as [|[|b|b]|]; try reflexivity;
    simpl; f_equal; rewrite <- Z.quot_opp_r by discriminate; reflexivity.
Qed.

(* in the dividend *)
Lemma bdiv_mono_l p q d :
  0 < d -> ble p q = true -> ble (bdiv p (Fin d)) (bdiv q (Fin d)) = true.
Proof.
  intros Hd H. destruct d as [|d|d]; try discriminate Hd.
  destruct p, q; try discriminate; try reflexivity.
  apply ble_fin, Z.quot_le_mono; [reflexivity|apply ble_fin, H].
Qed.
Lemma bdiv_anti_l p q d :
  d < 0 -> ble p q = true -> ble (bdiv q (Fin d)) (bdiv p (Fin d)) = true.
Proof.
  intros Hd H. replace (Fin d) with (bneg (Fin (- d))) by (simpl; f_equal; lia).
  rewrite !bdiv_bneg_r, ble_bneg. apply bdiv_mono_l; auto. lia.
Qed.

(* in the divisor, over a range that does not contain 0: the quotient of a non-negative
   bound shrinks towards 0 as a positive divisor grows *)
Lemma bdiv_anti_r_pos c p q :
  ble (Fin 0) c = true -> ble (Fin 1) p = true -> ble p q = true ->
  ble (bdiv c q) (bdiv c p) = true.
Proof.
  intros Hc Hp H.
  destruct p as [|[|l|l]|]; try discriminate Hp;
    destruct q as [|[|h|h]|]; try discriminate H;
    destruct c as [|a|]; try discriminate Hc; try reflexivity;
    apply ble_fin; apply ble_fin in Hc.
  - apply Z.quot_le_compat_l; [exact Hc|]. split; [reflexivity|apply ble_fin, H].
  - apply Z.quot_pos; [exact Hc|reflexivity].
Qed.

Lemma bdiv_anti_r c p q :
  ble (Fin 0) c = true -> ble (Fin 1) p = true \/ ble q (Fin (-1)) = true -> ble p q = true ->
  ble (bdiv c q) (bdiv c p) = true.
Proof.
  intros Hc [S|S] H. { apply bdiv_anti_r_pos; assumption. }
  rewrite <- (bneg_involutive p), <- (bneg_involutive q), !(bdiv_bneg_r c (bneg _)), ble_bneg.
  apply bdiv_anti_r_pos; [exact Hc| |].
  - rewrite <- S. apply (ble_bneg (Fin (-1)) q).
  - rewrite ble_bneg. exact H.
Qed.

Lemma bdiv_mono_r c p q :
  ble c (Fin 0) = true -> ble (Fin 1) p = true \/ ble q (Fin (-1)) = true -> ble p q = true ->
  ble (bdiv c p) (bdiv c q) = true.
Proof.
  intros Hc S H. rewrite <- (bneg_involutive c), !(bdiv_bneg_l (bneg c)), ble_bneg.
  apply bdiv_anti_r; auto. rewrite <- Hc. apply (ble_bneg (Fin 0) c).
Qed.

Lemma bdiv_between_num (lo hi : bound) (x y : Z) :
  y <> 0 -> ble lo (Fin x) = true -> ble (Fin x) hi = true ->
  ble (bmin (bdiv lo (Fin y)) (bdiv hi (Fin y))) (Fin (Z.quot x y)) = true /\
  ble (Fin (Z.quot x y)) (bmax (bdiv lo (Fin y)) (bdiv hi (Fin y))) = true.
Proof.
  intros Hy H1 H2. rewrite <- (bdiv_fin x y Hy). destruct (Z.lt_total y 0) as [N|[E|P]].
  - split; [apply bmin_or; right|apply bmax_or; left]; apply bdiv_anti_l; auto.
  - contradiction.
  - split; [apply bmin_or; left|apply bmax_or; right]; apply bdiv_mono_l; auto.
Qed.

Lemma bdiv_between_den (c lo hi : bound) (y : Z) :
  ble lo (Fin y) = true -> ble (Fin y) hi = true ->
  ble (Fin 1) lo = true \/ ble hi (Fin (-1)) = true ->
  ble (bmin (bdiv c lo) (bdiv c hi)) (bdiv c (Fin y)) = true /\
  ble (bdiv c (Fin y)) (bmax (bdiv c lo) (bdiv c hi)) = true.
Proof.
  intros H1 H2 S.
  assert (S1 : ble (Fin 1) lo = true \/ ble (Fin y) (Fin (-1)) = true).
  { destruct S as [S|S]; [left|right]; eauto using ble_trans. }
  assert (S2 : ble (Fin 1) (Fin y) = true \/ ble hi (Fin (-1)) = true).
  { destruct S as [S|S]; [left|right]; eauto using ble_trans. }
  destruct (ble_total (Fin 0) c) as [Hc|Hc].
  - split; [apply bmin_or; right|apply bmax_or; left]; apply bdiv_anti_r; auto.
  - split; [apply bmin_or; left|apply bmax_or; right]; apply bdiv_mono_r; auto.
Qed.

Ltac bsimp :=
  repeat match goal with
  | H : ble (Fin _) (Fin _) = _ |- _ => simpl in H
  | H : ble PInf (Fin _) = _ |- _ => simpl in H
  | H : ble PInf MInf = _ |- _ => simpl in H
  | H : ble (Fin _) MInf = _ |- _ => simpl in H
  | H : ble MInf _ = false |- _ => simpl in H
  | H : ble _ PInf = false |- _ => destruct (ble_PInf_r _ H)
  | H : (_ <=? _) = true |- _ => apply Z.leb_le in H
  | H : (_ <=? _) = false |- _ => apply Z.leb_gt in H
  | H : (_ <? _) = true |- _ => apply Z.ltb_lt in H
  | H : (_ <? _) = false |- _ => apply Z.ltb_ge in H
  | H : (_ =? _) = true |- _ => apply Z.eqb_eq in H
  | H : (_ =? _) = false |- _ => apply Z.eqb_neq in H
  | H : false = true |- _ => discriminate H
  | H : true = false |- _ => discriminate H
  end.
