(* WtoThresholds.v — mirror of crab::wto_thresholds (fixpoint/thresholds.hpp): the widening
   thresholds that interleaved_fwd_fixpoint_iterator::initialize_thresholds collects, one set
   per cycle of the weak topological ordering, when max_thresholds > 0.

   * extract_bounds: an `assume` whose constraint is  c*x + k' <= 0  or  c*x + k' < 0  with exactly
     one term gives, with k = -k' and the truncating division of z_number,
       c > 0: the upper bound  k/c  (k/c - 1 if strict);  c < 0: the lower bound  k/c  (k/c + 1).
     Nothing else gives a bound (asserts, selects, equalities, disequalities, several terms).
   * get_thresholds(block, T): scans the statements in order, collecting lower bounds and upper
     bounds in two vectors; then adds  lb - 1  for every lower bound, then  ub + 1  for every
     upper bound (thresholds::add: Fix/Thresholds.v, with its size limit and its merging of
     consecutive values).
   * visit(cycle): a fresh set {-oo, 0, +oo} of capacity max_thresholds; the head's block, then the
     blocks of the head's predecessors other than the head itself, in prev_blocks order (also
     the sources of the back edges, and predecessors outside the ordering); the set is stored
     for the head; then the nested components are visited with the head on top of the stack.
   * visit(vertex): nothing outside cycles; otherwise the block's constants are added to the set
     of the innermost enclosing head only.  A nested cycle contributes nothing to the outer one.
   * extrapolate(head, ...) looks the head up in the map: [wto_thr]. *)
From Coq Require Import ZArith NArith List Bool Arith Lia.
From CrabV Require Import Base.ZInf Ir.Syntax Dom.ItvDomain Ir.Cfg Fix.Wto Fix.Thresholds Fix.ThresholdsSound.
Import ListNotations.

Inductive bkind := BLower | BUpper.

Definition extract_bounds (c : lincst) : option (bkind * Z) :=
  let strict := match lc_kind c with STRICT => true | _ => false end in
  match lc_kind c with
  | INEQ | STRICT =>
    match le_terms (lc_exp c) with
    | [(coeff, _)] =>
      let k := (- le_cst (lc_exp c))%Z in
      if (0 <? coeff)%Z then Some (BUpper, if strict then (Z.quot k coeff - 1)%Z else Z.quot k coeff)
      else if (coeff <? 0)%Z then Some (BLower, if strict then (Z.quot k coeff + 1)%Z else Z.quot k coeff)
      else None
    | _ => None
    end
  | _ => None
  end.

(* lb_bounds, ub_bounds of get_thresholds, in statement order *)
Fixpoint block_bounds (b : block) : list Z * list Z :=
  match b with
  | [] => ([], [])
  | s :: r =>
    let '(lbs, ubs) := block_bounds r in
    match s with
    | SAssume c =>
      match extract_bounds c with
      | Some (BLower, n) => (n :: lbs, ubs)
      | Some (BUpper, n) => (lbs, n :: ubs)
      | None => (lbs, ubs)
      end
    | _ => (lbs, ubs)
    end
  end.

Definition add_all (size : N) (t : thr) (vs : list Z) : thr :=
  fold_left (fun t v => thr_add size t (Fin v)) vs t.

Definition get_thresholds (size : N) (b : block) (t : thr) : thr :=
  let '(lbs, ubs) := block_bounds b in
  add_all size (add_all size t (map (fun n => (n - 1)%Z) lbs)) (map (fun n => (n + 1)%Z) ubs).

(* std::unordered_map<label, thresholds>: insert does not overwrite *)
Definition tmap := list (nat * thr).
Fixpoint tm_find (m : tmap) (h : nat) : option thr :=
  match m with
  | [] => None
  | (k, t) :: r => if Nat.eqb k h then Some t else tm_find r h
  end.
Fixpoint tm_update (m : tmap) (h : nat) (f : thr -> thr) : tmap :=
  match m with
  | [] => []
  | (k, t) :: r => if Nat.eqb k h then (k, f t) :: r else (k, t) :: tm_update r h f
  end.
Definition tm_insert (m : tmap) (h : nat) (t : thr) : tmap :=
  match tm_find m h with Some _ => m | None => m ++ [(h, t)] end.

Section Visit.
  Variable size : N.                       (* max_thresholds *)
  Variable blk : nat -> block.             (* m_cfg.get_node *)
  Variable preds : nat -> list nat.        (* prev_blocks, in the C++ order *)

  Definition head_thresholds (h : nat) : thr :=
    fold_left (fun t q => if Nat.eqb q h then t else get_thresholds size (blk q) t) (preds h)
              (get_thresholds size (blk h) thr_init).

  (* cur = top of m_stack *)
  Fixpoint wt_visit (c : comp) (cur : option nat) (m : tmap) {struct c} : tmap :=
    match c with
    | Vertex n =>
      match cur with
      | None => m
      | Some h => tm_update m h (get_thresholds size (blk n))
      end
    | Cycle h body =>
      (fix vb (l : list comp) (m : tmap) : tmap :=
         match l with
         | [] => m
         | c' :: r => vb r (wt_visit c' (Some h) m)
         end) body (tm_insert m h (head_thresholds h))
    end.

  Fixpoint wt_visit_all (w : list comp) (cur : option nat) (m : tmap) : tmap :=
    match w with
    | [] => m
    | c :: r => wt_visit_all r cur (wt_visit c cur m)
    end.

  (* m_wto.accept(&wto_thresholds); get_thresholds_map() *)
  Definition wto_thr_map (w : wto) : tmap := wt_visit_all w None [].
End Visit.

(* the set that extrapolate uses at a head (CRAB_ERROR if absent: never for a head of w) *)
Definition tm_get (m : tmap) (h : nat) : thr :=
  match tm_find m h with Some t => t | None => thr_init end.
Definition wto_thr (size : N) (blk : nat -> block) (preds : nat -> list nat) (w : wto) (h : nat) : thr :=
  tm_get (wto_thr_map size blk preds w) h.

(* every collected set has the shape  -oo :: finite... ++ [+oo]  (what the termination of
   widening with thresholds needs) *)
Definition tm_wf (m : tmap) : Prop := Forall (fun kt => wf_thr (snd kt)) m.

Lemma add_all_wf size vs : forall t, wf_thr t -> wf_thr (add_all size t vs).
Proof.
  unfold add_all. induction vs as [|v r IH]; cbn [fold_left]; intros t W; [exact W|].
  apply IH. apply thr_add_wf; [exact W|reflexivity].
Qed.

Lemma get_thresholds_wf size b t : wf_thr t -> wf_thr (get_thresholds size b t).
Proof.
  intros W. unfold get_thresholds. destruct (block_bounds b) as [lbs ubs].
  apply add_all_wf, add_all_wf, W.
Qed.

Lemma head_thresholds_wf size blk preds h : wf_thr (head_thresholds size blk preds h).
Proof.
  unfold head_thresholds.
  assert (G : forall l t, wf_thr t ->
            wf_thr (fold_left (fun t q => if Nat.eqb q h then t else get_thresholds size (blk q) t) l t)).
  { induction l as [|q r IH]; cbn [fold_left]; intros t W; [exact W|].
    apply IH. destruct (Nat.eqb q h); [exact W|apply get_thresholds_wf, W]. }
  apply G. apply get_thresholds_wf. exact wf_thr_init.
Qed.

Lemma tm_wf_nil : tm_wf [].
Proof. constructor. Qed.

Lemma tm_wf_find m h t : tm_wf m -> tm_find m h = Some t -> wf_thr t.
Proof.
  induction 1 as [|[k t0] r W _ IH]; cbn [tm_find]; [discriminate|].
  destruct (Nat.eqb k h); [|exact IH]. intros E; inversion E; subst. exact W.
Qed.

Lemma tm_insert_wf m h t : tm_wf m -> wf_thr t -> tm_wf (tm_insert m h t).
Proof.
  intros M W. unfold tm_insert. destruct (tm_find m h); [exact M|].
  apply Forall_app. split; [exact M|]. constructor; [exact W|constructor].
Qed.

Lemma tm_update_wf m h f : tm_wf m -> (forall t, wf_thr t -> wf_thr (f t)) -> tm_wf (tm_update m h f).
Proof.
  intros M F. induction M as [|[k t] r W M IH]; cbn [tm_update]; [constructor|].
  destruct (Nat.eqb k h); constructor; auto. apply F. exact W.
Qed.

Section VisitWf.
  Variable size : N.
  Variable blk : nat -> block.
  Variable preds : nat -> list nat.

  Lemma wt_visit_wf : forall c cur m, tm_wf m -> tm_wf (wt_visit size blk preds c cur m).
  Proof.
    fix IH 1. intros [n|h body] cur m M; cbn [wt_visit].
    - destruct cur as [h|]; [|exact M]. apply tm_update_wf; [exact M|].
      intros t. apply get_thresholds_wf.
    - assert (M0 : tm_wf (tm_insert m h (head_thresholds size blk preds h)))
        by (apply tm_insert_wf; [exact M|apply head_thresholds_wf]).
      revert M0. generalize (tm_insert m h (head_thresholds size blk preds h)).
      induction body as [|c' r IHb]; intros m0 M0; [exact M0|].
      apply IHb. apply IH. exact M0.
  Qed.

  Lemma wt_visit_all_wf w : forall cur m, tm_wf m -> tm_wf (wt_visit_all size blk preds w cur m).
  Proof.
    induction w as [|c r IH]; cbn [wt_visit_all]; intros cur m M; [exact M|].
    apply IH. apply wt_visit_wf. exact M.
  Qed.

  (* no hypothesis on the program, the ordering or the size limit *)
  Theorem wto_thr_wf w h : wf_thr (wto_thr size blk preds w h).
  Proof.
    unfold wto_thr, tm_get.
    destruct (tm_find _ h) as [t|] eqn:F; [|exact wf_thr_init].
    apply (tm_wf_find _ _ _ (wt_visit_all_wf w None [] tm_wf_nil) F).
  Qed.
End VisitWf.

(* example:
     b0: i := 0    b1 (head)    b2: assume i <= 9; i := i + 1    b3: assume i >= 10
   the cycle of b1 collects 10 (= 9 + 1, from b2, a predecessor of the head and a member of the
   cycle); b3 is outside the cycle *)
Example wto_thr_example :
  let i := 0%N in
  let blk := fun n => nth n [ [SAssign i (mkLE [] 0)];
                             [];
                             [SAssume (mkLC INEQ (mkLE [(1%Z, i)] (-9))); SArith OpAdd i i (OCst 1)];
                             [SAssume (mkLC INEQ (mkLE [((-1)%Z, i)] 10))] ] [] in
  let preds := fun n => match n with 1 => [0; 2] | 2 => [1] | 3 => [1] | _ => [] end in
  let w := [Vertex 0; Cycle 1 [Vertex 2]; Vertex 3] in
  wto_thr 10 blk preds w 1 = [MInf; Fin 0; Fin 10; PInf] /\
  wto_thr 3 blk preds w 1 = [MInf; Fin 0; PInf] /\
  wto_thr 10 blk preds w 3 = thr_init.
Proof. cbv zeta. split; [|split]; vm_compute; reflexivity. Qed.
