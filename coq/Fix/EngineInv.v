(* EngineInv.v — the visit of a cycle by the fixpoint engine (Fix/Engine.v) written with
   named parts, and table invariants: a property of the entries of the pre and post tables,
   given block by block, that the block transformer, the inflow of a block and the
   extrapolation and refinement of a cycle head preserve, holds of every table the engine
   produces.  Instances: the entries stay below any solution of the flow equations
   (Fix/EngineBelow.v); the entries satisfy a representation invariant (Fix/EngineTerm.v). *)
From Coq Require Import List Bool Arith.
From CrabV Require Import Fix.Wto Fix.WtoCheck Fix.Engine.
Import ListNotations.

Section EngineInv.
  Variable A : Type.
  Variable OP : aops A.
  Variable analyze : nat -> A -> A.
  Variable preds : nat -> list nat.
  Variable nest : nat -> list nat.
  Variable entry : nat.
  Variable delay descending : nat.
  Variable use_asm : bool.
  Variable asm : nat -> option A.
  Variable init : A.

  Notation visit := (visit A OP analyze preds nest entry delay descending use_asm asm init).
  Notation visit_all := (visit_all A OP analyze preds nest entry delay descending use_asm asm init).
  Notation inc_loop := (inc_loop A OP analyze preds delay use_asm asm).
  Notation dec_loop := (dec_loop A OP analyze preds descending use_asm asm).
  Notation strengthen := (strengthen A OP use_asm asm).
  Notation head_inflow := (head_inflow A OP preds use_asm asm).

  Definition cyc_st0 (st : est A) : est A := mkE A (e_pre A st) (e_post A st) false.
  Definition cyc_epre (h : nat) : option A := if Nat.eqb h entry then Some init else None.
  Definition cyc_pre0 (st : est A) (h : nat) : A :=
    strengthen h (if Nat.eqb h entry then init
                  else fold_left (fun acc p => if deeper (nest p) (nest h) then acc
                                               else o_join A OP acc (e_post A st p)) (preds h) (o_bot A OP)).
  Definition cyc_core (fuel : nat) (vbody : est A -> option (est A)) (h : nat) (ep : option A)
             (pre0 : A) (st0 : est A) : option (est A) :=
    match inc_loop vbody h ep fuel 1 pre0 st0 with
    | None => None
    | Some (p, st') =>
      if Nat.eqb descending 0 then Some st' else dec_loop vbody h ep fuel 1 p st'
    end.

  Lemma visit_cycle_eq fuel h body st :
    visit fuel (Cycle h body) st =
    if e_skip A st && negb (e_skip A st && comp_member entry (Cycle h body)) then Some st
    else cyc_core fuel (visit_all fuel body) h (cyc_epre h) (cyc_pre0 st h) (cyc_st0 st).
  Proof. reflexivity. Qed.

  (* [Ppre n], [Ppost n]: the property of the two entries of block n; [Pin n]: the property of
     a value that is about to be strengthened and stored as the pre entry of n *)
  Variables Ppre Ppost Pin : nat -> A -> Prop.

  Record preserved : Prop := {
    post_ok : forall n a, Ppre n a -> Ppost n (analyze n a);
    in_bot : forall n, Pin n (o_bot A OP);
    in_init : Pin entry init;
    in_join : forall n a b, Pin n a -> Pin n b -> Pin n (o_join A OP a b);
    in_post : forall n p a, In p (preds n) -> Ppost p a -> Pin n a;
    in_pre : forall n a, Pin n a -> Ppre n (strengthen n a);
    extrapolate_ok : forall h i a b, Ppre h a -> Ppre h b -> Ppre h (extrapolate A OP delay h i a b);
    refine_ok : forall h i a b, Ppre h a -> Ppre h b -> Ppre h (refine A OP i a b)
  }.
  Hypothesis OK : preserved.

  Definition TInv (st : est A) : Prop :=
    (forall n, Ppre n (e_pre A st n)) /\ (forall n, Ppost n (e_post A st n)).

  Lemma tset_ok (P : nat -> A -> Prop) (t : nat -> A) n v :
    (forall m, P m (t m)) -> P n v -> forall m, P m (tset A t n v m).
  Proof. intros T V m. unfold tset. destruct (Nat.eqb_spec m n); subst; auto. Qed.

  (* a join of posts of predecessors of n, some of them possibly left out *)
  Lemma fold_join_in n (post : nat -> A) (out : nat -> bool) : (forall p, Ppost p (post p)) ->
    forall ps a0, incl ps (preds n) -> Pin n a0 ->
    Pin n (fold_left (fun acc p => if out p then acc else o_join A OP acc (post p)) ps a0).
  Proof.
    intros P. induction ps as [|p r IH]; cbn [fold_left]; intros a0 I H; [exact H|].
    apply IH; [intros q J; apply I; right; exact J|].
    destruct (out p); [exact H|]. apply (in_join OK); [exact H|].
    apply (in_post OK) with p; [apply I; left; reflexivity|apply P].
  Qed.

  Lemma set_head_ok h pre st : TInv st -> Ppre h pre ->
    TInv (mkE A (tset A (e_pre A st) h pre) (tset A (e_post A st) h (analyze h pre)) (e_skip A st)).
  Proof. intros [P Q] I. split; cbn [e_pre e_post]; apply tset_ok; auto. apply (post_ok OK), I. Qed.

  Lemma set_post_ok h pre st : TInv st -> Ppre h pre ->
    TInv (mkE A (e_pre A st) (tset A (e_post A st) h (analyze h pre)) (e_skip A st)).
  Proof. intros [P Q] I. split; cbn [e_pre e_post]; [exact P|apply tset_ok; auto]. apply (post_ok OK), I. Qed.

  Lemma set_pre_ok h pre st : TInv st -> Ppre h pre ->
    TInv (mkE A (tset A (e_pre A st) h pre) (e_post A st) (e_skip A st)).
  Proof. intros [P Q] I. split; cbn [e_pre e_post]; [apply tset_ok; auto|exact Q]. Qed.

  Lemma visit_vertex_inv n st : TInv st ->
    TInv (visit_vertex A OP analyze preds entry use_asm asm init n st).
  Proof.
    intros T. unfold visit_vertex.
    destruct (if e_skip A st && Nat.eqb n entry then false else e_skip A st); [exact T|].
    apply set_head_ok; [exact T|]. apply (in_pre OK).
    apply (fold_join_in n (e_post A st) (fun _ => false) (proj2 T)); [apply incl_refl|].
    destruct (Nat.eqb_spec n entry) as [->|_]; [exact (in_init OK)|apply (in_bot OK)].
  Qed.

  Lemma cyc_epre_in h ip : cyc_epre h = Some ip -> Pin h ip.
  Proof.
    unfold cyc_epre. destruct (Nat.eqb_spec h entry) as [->|_]; [|discriminate].
    intros E. inversion E. subst. exact (in_init OK).
  Qed.

  Lemma cyc_pre0_ok st h : TInv st -> Ppre h (cyc_pre0 st h).
  Proof.
    intros [_ Q]. unfold cyc_pre0. apply (in_pre OK).
    destruct (Nat.eqb_spec h entry) as [->|_]; [exact (in_init OK)|].
    apply (fold_join_in h (e_post A st) (fun p => deeper (nest p) (nest h)) Q);
      [apply incl_refl|apply (in_bot OK)].
  Qed.

  Section Cycle.
    Variable vbody : est A -> option (est A).
    Hypothesis vbody_inv : forall st st', TInv st -> vbody st = Some st' -> TInv st'.
    Variable h : nat.
    Variable ep : option A.
    Hypothesis ep_in : forall ip, ep = Some ip -> Pin h ip.

    Lemma head_inflow_ok st : TInv st -> Ppre h (head_inflow h ep st).
    Proof.
      intros [_ Q]. unfold Engine.head_inflow. apply (in_pre OK).
      assert (J : Pin h (join_posts A OP (e_post A st) (preds h))).
      { apply (fold_join_in h (e_post A st) (fun _ => false) Q); [apply incl_refl|apply (in_bot OK)]. }
      destruct ep as [ip|]; [|exact J]. apply (in_join OK); [exact J|apply ep_in; reflexivity].
    Qed.

    Lemma inc_loop_inv : forall f i pre st pre' st',
      Ppre h pre -> TInv st -> inc_loop vbody h ep f i pre st = Some (pre', st') ->
      Ppre h pre' /\ TInv st'.
    Proof.
      induction f as [|f IH]; intros i pre st pre' st' I HS H; [discriminate H|].
      cbn [Engine.inc_loop] in H.
      destruct (vbody _) as [st2|] eqn:E; [|discriminate H].
      pose proof (vbody_inv _ _ (set_head_ok h pre st HS I) E) as S2.
      pose proof (head_inflow_ok st2 S2) as NP.
      destruct (o_leq A OP _ pre).
      - inversion H; subst pre' st'. split; [exact NP|apply set_pre_ok; assumption].
      - apply (IH _ _ _ _ _ (extrapolate_ok OK h i _ _ I NP) S2 H).
    Qed.

    Lemma dec_loop_inv : forall f i pre st st',
      Ppre h pre -> TInv st -> dec_loop vbody h ep f i pre st = Some st' -> TInv st'.
    Proof.
      induction f as [|f IH]; intros i pre st st' I HS H; [discriminate H|].
      cbn [Engine.dec_loop] in H.
      destruct (vbody _) as [st2|] eqn:E; [|discriminate H].
      pose proof (vbody_inv _ _ (set_post_ok h pre st HS I) E) as S2.
      pose proof (head_inflow_ok st2 S2) as NP.
      destruct (o_leq A OP pre _); [inversion H; subst; exact S2|].
      destruct (descending <? i); [inversion H; subst; exact S2|].
      pose proof (refine_ok OK h i _ _ I NP) as RI.
      apply (IH _ _ _ _ RI) in H; [exact H|apply set_pre_ok; assumption].
    Qed.

    Lemma cyc_core_inv fuel pre0 st st' : Ppre h pre0 -> TInv st ->
      cyc_core fuel vbody h ep pre0 st = Some st' -> TInv st'.
    Proof.
      intros I HS H. unfold cyc_core in H.
      destruct (inc_loop _ _ _ _ _ _ _) as [[pre st1]|] eqn:EI; [|discriminate H].
      destruct (inc_loop_inv _ _ _ _ _ _ I HS EI) as [I1 S1].
      destruct (Nat.eqb descending 0); [inversion H; subst; exact S1|].
      exact (dec_loop_inv _ _ _ _ _ I1 S1 H).
    Qed.
  End Cycle.

  Lemma visit_all_inv_F fuel body :
    Forall (fun c => forall st st', TInv st -> visit fuel c st = Some st' -> TInv st') body ->
    forall st st', TInv st -> visit_all fuel body st = Some st' -> TInv st'.
  Proof.
    induction 1 as [|c l Hc Hl IH]; intros st st' HS H; cbn [Engine.visit_all] in H.
    - inversion H; subst; exact HS.
    - destruct (visit fuel c st) as [s1|] eqn:E; [|discriminate H].
      apply (IH s1); [exact (Hc _ _ HS E)|exact H].
  Qed.

  Theorem visit_inv fuel : forall c st st', TInv st -> visit fuel c st = Some st' -> TInv st'.
  Proof.
    induction c as [n|h body F] using comp_ind'; intros st st' HS H.
    - inversion H; subst. apply visit_vertex_inv, HS.
    - rewrite visit_cycle_eq in H.
      destruct (e_skip A st && negb _); [inversion H; subst; exact HS|].
      apply (cyc_core_inv _ (visit_all_inv_F fuel body F) h _ (cyc_epre_in h) fuel _ _ _
                          (cyc_pre0_ok st h HS)) in H; [exact H|exact HS].
  Qed.

  Theorem visit_all_inv fuel w : forall st st', TInv st -> visit_all fuel w st = Some st' -> TInv st'.
  Proof. apply visit_all_inv_F, Forall_forall. intros c _. apply visit_inv. Qed.

  Theorem run_inv fuel w e :
    (forall n, Ppre n (o_bot A OP)) -> (forall n, Ppost n (o_bot A OP)) -> Ppre entry init ->
    run A OP analyze preds nest entry delay descending use_asm asm init fuel w = Some e -> TInv e.
  Proof.
    intros B1 B2 BI. unfold run. apply visit_all_inv.
    split; cbn [e_pre e_post]; [apply tset_ok; assumption|exact B2].
  Qed.
End EngineInv.

Arguments set_head_ok {A OP analyze preds entry delay use_asm asm init Ppre Ppost Pin} OK.
Arguments set_post_ok {A OP analyze preds entry delay use_asm asm init Ppre Ppost Pin} OK.
Arguments set_pre_ok {A Ppre Ppost}.
Arguments head_inflow_ok {A OP analyze preds entry delay use_asm asm init Ppre Ppost Pin} OK.
Arguments inc_loop_inv {A OP analyze preds entry delay use_asm asm init Ppre Ppost Pin} OK.
Arguments cyc_pre0_ok {A OP analyze preds nest entry delay use_asm asm init Ppre Ppost Pin} OK.
Arguments cyc_epre_in {A OP analyze preds entry delay use_asm asm init Ppre Ppost Pin} OK.
Arguments visit_inv {A OP analyze preds nest entry delay descending use_asm asm init Ppre Ppost Pin} OK.
Arguments visit_all_inv {A OP analyze preds nest entry delay descending use_asm asm init Ppre Ppost Pin} OK.
Arguments run_inv {A OP analyze preds nest entry delay descending use_asm asm init Ppre Ppost Pin} OK.
