(* EngineBelow.v — with join as widening and meet as narrowing, every value the engine ever
   writes into its tables stays below any solution of the flow equations (no state is
   invented): the "<=" half of property C06 for the engine model, for all CFGs, WTOs,
   parameters and fuel.  Generic in a preorder [le] on abstract values. *)
From Coq Require Import List Bool Arith.
From CrabV Require Import Fix.Wto Fix.Engine Fix.EngineInv.
Import ListNotations.

Section Below.
  Variable A : Type.
  Variable OP : aops A.
  Variable le : A -> A -> Prop.
  Hypothesis le_refl : forall a, le a a.
  Hypothesis le_trans : forall a b c, le a b -> le b c -> le a c.
  Hypothesis bot_le : forall a, le (o_bot A OP) a.
  Hypothesis join_lub : forall a b c, le a c -> le b c -> le (o_join A OP a b) c.
  Hypothesis meet_l : forall a b, le (o_meet A OP a b) a.
  Hypothesis meet_mono : forall a a' b, le a a' -> le (o_meet A OP a b) (o_meet A OP a' b).
  Hypothesis widen_is_join : forall n a b, o_widen A OP n a b = o_join A OP a b.
  Hypothesis narrow_is_meet : forall a b, o_narrow A OP a b = o_meet A OP a b.

  Variable analyze : nat -> A -> A.
  Hypothesis analyze_mono : forall n a b, le a b -> le (analyze n a) (analyze n b).
  Variable preds : nat -> list nat.
  Variable nest : nat -> list nat.
  Variable entry : nat.
  Variable delay descending : nat.
  Variable use_asm : bool.
  Variable asm : nat -> option A.
  Variable fuel : nat.
  Variable init : A.

  (* a solution of the equations *)
  Variables Lpre Lpost : nat -> A.
  Hypothesis sol_post : forall n, le (analyze n (Lpre n)) (Lpost n).
  Hypothesis sol_pre : forall n p, In p (preds n) ->
    le (strengthen A OP use_asm asm n (Lpost p)) (Lpre n).
  Hypothesis sol_init : le (strengthen A OP use_asm asm entry init) (Lpre entry).
  (* the table entry of the start block holds the raw initial value until it is visited *)
  Hypothesis init_below : le init (Lpre entry).
  (* strengthening commutes with joins up to the order (true for set-like meets) *)
  Hypothesis strengthen_join : forall n a b c,
    le (strengthen A OP use_asm asm n a) c -> le (strengthen A OP use_asm asm n b) c ->
    le (strengthen A OP use_asm asm n (o_join A OP a b)) c.
  Hypothesis strengthen_bot : forall n c, le (strengthen A OP use_asm asm n (o_bot A OP)) c.

  Definition Below (st : est A) : Prop :=
    (forall n, le (e_post A st n) (Lpost n)) /\
    (forall n, le (e_pre A st n) (Lpre n)).

  Lemma strengthen_le n a : le (strengthen A OP use_asm asm n a) a.
  Proof. unfold strengthen. destruct use_asm; auto. destruct (asm n); auto. Qed.

  Lemma strengthen_mono n a b : le a b -> le (strengthen A OP use_asm asm n a) (strengthen A OP use_asm asm n b).
  Proof. intros H. unfold strengthen. destruct use_asm; auto. destruct (asm n); auto. Qed.

  Definition opt_below (r : option (est A)) : Prop :=
    match r with Some st => Below st | None => True end.

  (* the analysis starts at a loop head or outside the loops.  No theorem needs this condition
     (the initial value flows into the entry block wherever it is); the executable tests and the
     examples of property C06 mention it *)
  Definition head_ok (c : comp) (h : nat) : bool := negb (comp_member entry c) || Nat.eqb h entry.
  Fixpoint entry_ok_c (c : comp) : bool :=
    match c with
    | Vertex _ => true
    | Cycle h body =>
      head_ok c h &&
      (fix all (l : list comp) : bool := match l with [] => true | c' :: r => entry_ok_c c' && all r end) body
    end.
  Fixpoint entry_ok (w : list comp) : bool :=
    match w with [] => true | c :: r => entry_ok_c c && entry_ok r end.

  (* being below the solution is a table invariant (Fix/EngineInv.v): [Pin n a] says that a,
     once strengthened, is below Lpre n *)
  Lemma below_preserved :
    preserved A OP analyze preds entry delay use_asm asm init
      (fun n a => le a (Lpre n)) (fun n a => le a (Lpost n))
      (fun n a => le (strengthen A OP use_asm asm n a) (Lpre n)).
  Proof.
    constructor; auto.
    - intros n a H. eapply le_trans; [apply analyze_mono, H|apply sol_post].
    - intros n p a I H. eapply le_trans; [apply strengthen_mono, H|apply sol_pre, I].
    - intros h i a b Ha Hb. unfold extrapolate.
      destruct (i <=? delay); [|rewrite widen_is_join]; apply join_lub; assumption.
    - intros h i a b Ha _. unfold refine.
      destruct (Nat.eqb i 1); [|rewrite narrow_is_meet]; (eapply le_trans; [apply meet_l|exact Ha]).
  Qed.

  (* every table entry of the engine's result is below the solution *)
  Theorem run_below w :
    match run A OP analyze preds nest entry delay descending use_asm asm init fuel w with
    | Some e => (forall n, le (e_pre A e n) (Lpre n)) /\ (forall n, le (e_post A e n) (Lpost n))
    | None => True
    end.
  Proof.
    destruct (run _ _ _ _ _ _ _ _ _ _ _ _ _) as [e|] eqn:R; [|exact I].
    apply (run_inv below_preserved fuel w e) in R; auto.
  Qed.
End Below.
