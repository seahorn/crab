(* EngineCheck.v — a verified checker for invariant tables (any abstract domain, any
   CFG): if the tables are inductive (each block's post is above the transformer of its
   pre, each pre is above the strengthened join of the predecessors' posts and, at the
   analysis entry, of the initial value) then they over-approximate every concrete
   execution.  Used (i) to validate the engine model's result ([inductive_ok] on its
   tables) and (ii) on the invariants exported by the C++ analyzer itself. *)
From Coq Require Import List Bool Arith.
From CrabV Require Import Fix.Engine.
Import ListNotations.

Section Check.
  Variable A : Type.
  Variable State : Type.
  Variable gamma : A -> State -> Prop.
  Variable OP : aops A.
  Hypothesis join_l : forall a b s, gamma a s -> gamma (o_join A OP a b) s.
  Hypothesis join_r : forall a b s, gamma b s -> gamma (o_join A OP a b) s.
  Hypothesis meet_s : forall a b s, gamma a s -> gamma b s -> gamma (o_meet A OP a b) s.
  Hypothesis leq_s : forall a b s, o_leq A OP a b = true -> gamma a s -> gamma b s.

  Variable analyze : nat -> A -> A.
  Variable bstep : nat -> State -> State -> Prop.       (* concrete semantics of a block *)
  Hypothesis analyze_s : forall n a s s', gamma a s -> bstep n s s' -> gamma (analyze n a) s'.

  Variable preds : nat -> list nat.
  Variable entry : nat.
  Variable use_asm : bool.
  Variable asm : nat -> option A.
  Variable Init : State -> Prop.
  Variable init : A.
  Hypothesis init_s : forall s, Init s -> gamma init s.

  Definition asm_holds (n : nat) (s : State) : Prop :=
    if use_asm then match asm n with Some a => gamma a s | None => True end else True.

  (* collecting semantics *)
  Inductive RPre : nat -> State -> Prop :=
  | RP_init s : Init s -> asm_holds entry s -> RPre entry s
  | RP_edge n p s : In p (preds n) -> RPost p s -> asm_holds n s -> RPre n s
  with RPost : nat -> State -> Prop :=
  | RPo n s s' : RPre n s -> bstep n s s' -> RPost n s'.

  Scheme RPre_mut := Induction for RPre Sort Prop
    with RPost_mut := Induction for RPost Sort Prop.
  Combined Scheme R_mutind from RPre_mut, RPost_mut.

  Variable nodes : list nat.                 (* all blocks of the CFG *)
  Hypothesis nodes_closed : In entry nodes /\ forall n p, In p (preds n) -> In n nodes.
  Variables pre post : nat -> A.

  Definition inflow_chk (n : nat) : A :=
    let v := join_posts A OP post (preds n) in
    let v := if Nat.eqb n entry then o_join A OP v init else v in
    strengthen A OP use_asm asm n v.

  Definition inductive_ok : bool :=
    forallb (fun n => o_leq A OP (analyze n (pre n)) (post n) && o_leq A OP (inflow_chk n) (pre n)) nodes.

  Lemma join_posts_from_sound (post0 : nat -> A) ps s : forall a0,
    (gamma a0 s \/ exists p, In p ps /\ gamma (post0 p) s) ->
    gamma (join_posts_from A OP post0 ps a0) s.
  Proof.
    unfold join_posts_from. induction ps as [|q r IH]; cbn [fold_left]; intros a0 H.
    - destruct H as [H|[p [[] _]]]. exact H.
    - apply IH. destruct H as [H|[p [[<-|I] G]]].
      + left. apply join_l. exact H.
      + left. apply join_r. exact G.
      + right. exists p. split; assumption.
  Qed.

  Lemma join_posts_sound p ps s : In p ps -> gamma (post p) s -> gamma (join_posts A OP post ps) s.
  Proof. intros I G. apply join_posts_from_sound. right. exists p. split; assumption. Qed.

  Lemma strengthen_sound n v s : gamma v s -> asm_holds n s ->
    gamma (strengthen A OP use_asm asm n v) s.
  Proof.
    unfold strengthen, asm_holds. destruct use_asm; auto. destruct (asm n); auto.
  Qed.

  Theorem inductive_sound : inductive_ok = true ->
    (forall n s, RPre n s -> In n nodes /\ gamma (pre n) s) /\
    (forall n s, RPost n s -> In n nodes /\ gamma (post n) s).
  Proof.
    intros OK. unfold inductive_ok in OK. rewrite forallb_forall in OK.
    destruct nodes_closed as [NE NC].
    apply (R_mutind (fun n s _ => In n nodes /\ gamma (pre n) s)
                    (fun n s _ => In n nodes /\ gamma (post n) s)).
    - intros s I AH. split; auto. specialize (OK _ NE). apply andb_true_iff in OK.
      destruct OK as [_ L]. eapply leq_s; [exact L|].
      unfold inflow_chk. rewrite Nat.eqb_refl. apply strengthen_sound; auto.
    - intros n p s I R [IP G] AH.
      assert (INn : In n nodes) by (eapply NC; eauto).
      split; auto. specialize (OK _ INn). apply andb_true_iff in OK. destruct OK as [_ L].
      eapply leq_s; [exact L|]. unfold inflow_chk. apply strengthen_sound; auto.
      destruct (Nat.eqb n entry); [apply join_l|]; eapply join_posts_sound; eauto.
    - intros n s s' R [INn G] B. split; auto. specialize (OK _ INn). apply andb_true_iff in OK.
      destruct OK as [L _]. eapply leq_s; [exact L|]. eapply analyze_s; eauto.
  Qed.
End Check.
