(* EngineRel.v — tools for the soundness proof of the fixpoint engine (Fix/EngineSound.v):
   (1) order facts about weak topological orderings with distinct nodes: an ordering
       condition [lok] on a list of components restricts to its sub-lists and to the body
       of a cycle, and forbids edges from a later sibling to an earlier one;
   (2) the collecting semantics RELATIVE to a node set C: what reaches the nodes of C when
       the states leaving the nodes outside C are given by [Ext];
   (3) decomposition (Bekic): the semantics relative to C, restricted to C' ⊆ C, is
       included in the semantics relative to C' whose external inputs are the relative
       posts of C \ C';
   (4) the global collecting semantics of Fix/EngineCheck.v is included in the semantics
       relative to any successor-closed node set containing the entry, whatever [Ext]. *)
From Coq Require Import List Bool Arith Lia.
From CrabV Require Import Fix.Wto Fix.WtoCheck Fix.WtoSound Fix.Engine Fix.EngineBelow Fix.EngineCheck.
Import ListNotations.

Lemma nodup_app_disj : forall (a b : list nat) x, NoDup (a ++ b) -> In x a -> In x b -> False.
Proof.
  induction a as [|y a IH]; intros b x ND Ha Hb; [destruct Ha|].
  cbn [app] in ND. inversion ND as [|? ? Hn ND']; subst.
  destruct Ha as [->|Ha].
  - apply Hn. apply in_or_app. right. exact Hb.
  - exact (IH b x ND' Ha Hb).
Qed.
Lemma nodup_app_r : forall (a b : list nat), NoDup (a ++ b) -> NoDup b.
Proof.
  induction a as [|y a IH]; intros b ND; [exact ND|].
  cbn [app] in ND. inversion ND; subst. apply IH. assumption.
Qed.
Lemma nodup_app_left : forall (a b : list nat), NoDup (a ++ b) -> NoDup a.
Proof.
  induction a as [|y a IH]; intros b ND; [constructor|].
  cbn [app] in ND. inversion ND as [|? ? Hn ND']; subst. constructor.
  - intros H. apply Hn. apply in_or_app. left. exact H.
  - apply (IH b). exact ND'.
Qed.

Lemma before_in : forall l u v, before l u v -> In u l /\ In v l.
Proof.
  intros l u v [l1 [l2 [l3 ->]]]. split.
  - apply in_or_app. right. left. reflexivity.
  - apply in_or_app. right. right. apply in_or_app. right. left. reflexivity.
Qed.
Lemma before_cons : forall a l u v, before l u v -> before (a :: l) u v.
Proof. intros a l u v [l1 [l2 [l3 ->]]]. exists (a :: l1), l2, l3. reflexivity. Qed.
Lemma before_app_cases : forall x y u v, before (x ++ y) u v ->
  before x u v \/ (In u x /\ In v y) \/ before y u v.
Proof.
  induction x as [|a x IH]; intros y u v H.
  - right. right. exact H.
  - destruct H as [l1 [l2 [l3 E]]]. destruct l1 as [|b l1]; cbn [app] in E; inversion E as [[E1 E2]]; subst.
    + assert (Hv : In v (x ++ y)).
      { rewrite E2. apply in_or_app. right. left. reflexivity. }
      apply in_app_or in Hv. destruct Hv as [Hv|Hv].
      * left. apply in_split in Hv. destruct Hv as [m1 [m2 ->]]. exists [], m1, m2. reflexivity.
      * right. left. split; [left; reflexivity|exact Hv].
    + destruct (IH y u v) as [H|[[H1 H2]|H]].
      * exists l1, l2, l3. exact E2.
      * left. apply before_cons, H.
      * right. left. split; [right; exact H1|exact H2].
      * right. right. exact H.
Qed.

Lemma encl_c_in : forall c h u, encl_c c h u -> In h (cnodes c) /\ In u (cnodes c).
Proof.
  intros c h u H. induction H as [h b u Hu|h' b c h u Hc _ [IH1 IH2]].
  - split; [rewrite cnodes_cycle; left; reflexivity|exact Hu].
  - rewrite cnodes_cycle. split; right; apply in_flat; exists c; split; assumption.
Qed.
Lemma encl_in : forall w h u, encl w h u -> In h (flat w) /\ In u (flat w).
Proof.
  intros w h u [c [Hc H]]. apply encl_c_in in H. destruct H as [H1 H2].
  split; apply in_flat; exists c; split; assumption.
Qed.
Lemma encl_app_cases : forall a b h u, encl (a ++ b) h u -> encl a h u \/ encl b h u.
Proof.
  intros a b h u [c [Hc H]]. apply in_app_or in Hc.
  destruct Hc as [Hc|Hc]; [left|right]; exists c; split; assumption.
Qed.

Lemma comp_member_cycle : forall x h body,
  comp_member x (Cycle h body) = Nat.eqb h x || existsb (comp_member x) body.
Proof. reflexivity. Qed.
Lemma comp_member_In : forall x c, comp_member x c = true <-> In x (cnodes c).
Proof.
  intros x c. induction c as [n|h b IH] using comp_ind'.
  - cbn [comp_member cnodes In]. rewrite Nat.eqb_eq. tauto.
  - rewrite comp_member_cycle, cnodes_cycle, orb_true_iff, Nat.eqb_eq, existsb_exists.
    cbn [In]. rewrite in_flat. rewrite Forall_forall in IH.
    split; (intros [H|[c [Hc H]]]; [left; exact H|right; exists c; split; [exact Hc|apply IH; assumption]]).
Qed.

Lemma entry_ok_c_cycle : forall e h body,
  entry_ok_c e (Cycle h body) = head_ok e (Cycle h body) h && forallb (entry_ok_c e) body.
Proof. reflexivity. Qed.
Lemma entry_ok_forallb : forall e w, entry_ok e w = forallb (entry_ok_c e) w.
Proof.
  intros e. induction w as [|c r IH]; [reflexivity|]. cbn [entry_ok forallb]. rewrite IH. reflexivity.
Qed.
Lemma entry_ok_c_notin : forall e c, ~ In e (cnodes c) -> entry_ok_c e c = true.
Proof.
  intros e c. induction c as [n|h body IH] using comp_ind'; intros N; [reflexivity|].
  rewrite entry_ok_c_cycle. apply andb_true_iff. split.
  - unfold head_ok. destruct (comp_member e (Cycle h body)) eqn:M; [|reflexivity].
    exfalso. apply N. apply comp_member_In. exact M.
  - apply forallb_forall. intros c Hc. rewrite Forall_forall in IH. apply (IH c Hc).
    intros X. apply N. rewrite cnodes_cycle. right. apply in_flat. exists c. split; assumption.
Qed.
Lemma entry_ok_list_notin : forall e l, ~ In e (flat l) -> entry_ok e l = true.
Proof.
  intros e l N. rewrite entry_ok_forallb. apply forallb_forall. intros c Hc.
  apply entry_ok_c_notin. intros X. apply N. apply in_flat. exists c. split; assumption.
Qed.
(* an ordering that begins with the entry (as a vertex or as the head of a cycle) *)
Definition starts_with (e : nat) (w : list comp) : Prop :=
  exists c r, w = c :: r /\ (c = Vertex e \/ exists body, c = Cycle e body).
Lemma starts_with_hd : forall e w, hd_error (flat w) = Some e <-> starts_with e w.
Proof.
  intros e w. split.
  - intros H. destruct w as [|c r]; [discriminate|]. exists c, r. split; [reflexivity|].
    destruct c as [n|h body].
    + cbn in H. inversion H. left. reflexivity.
    + cbn [flat] in H. rewrite cnodes_cycle in H. cbn in H. inversion H. right. exists body. reflexivity.
  - intros [c [r [-> [->|[body ->]]]]]; reflexivity.
Qed.
Lemma starts_with_in : forall e w, starts_with e w -> In e (flat w).
Proof.
  intros e w H. apply starts_with_hd in H. destruct (flat w) as [|x l]; [discriminate|].
  inversion H. left. reflexivity.
Qed.
Lemma starts_with_entry_ok : forall e w, NoDup (flat w) -> starts_with e w -> entry_ok e w = true.
Proof.
  intros e w ND [c [r [-> SH]]]. cbn [entry_ok flat] in *. apply andb_true_iff. split.
  - destruct SH as [->|[body ->]]; [reflexivity|].
    rewrite entry_ok_c_cycle. apply andb_true_iff. split.
    + unfold head_ok. rewrite Nat.eqb_refl. apply orb_true_r.
    + rewrite <- entry_ok_forallb. apply entry_ok_list_notin.
      rewrite cnodes_cycle in ND. apply nodup_app_left in ND. inversion ND. assumption.
  - apply entry_ok_list_notin. intros X.
    apply (nodup_app_disj _ _ e ND); [|exact X].
    destruct SH as [->|[body ->]]; [left; reflexivity|rewrite cnodes_cycle; left; reflexivity].
Qed.

Section Order.
  Variable preds : nat -> list nat.

  (* every edge between two nodes of the list respects the ordering *)
  Definition eok (l : list comp) : Prop :=
    forall p n, In p (flat l) -> In n (flat l) -> In p (preds n) -> lok l p n.

  (* an ordered pair of a concatenation lies in the first part, in the second, or goes from the
     first to the second *)
  Lemma lok_app_cases : forall a b p n, lok (a ++ b) p n ->
    (lok a p n /\ In p (flat a) /\ In n (flat a)) \/ (In p (flat a) /\ In n (flat b)) \/
    (lok b p n /\ In p (flat b) /\ In n (flat b)).
  Proof.
    intros a b p n [L|L].
    - rewrite flat_app in L. apply before_app_cases in L. destruct L as [L|[L|L]].
      + left. split; [left; exact L|exact (before_in _ _ _ L)].
      + right. left. exact L.
      + right. right. split; [left; exact L|exact (before_in _ _ _ L)].
    - apply encl_app_cases in L.
      destruct L as [L|L]; [left|right; right]; (split; [right; exact L|]);
        apply encl_in in L; destruct L as [L1 L2]; split; assumption.
  Qed.

  Lemma lok_app_back : forall a b p n, NoDup (flat (a ++ b)) ->
    In p (flat b) -> In n (flat a) -> lok (a ++ b) p n -> False.
  Proof.
    intros a b p n ND Hp Hn L. rewrite flat_app in ND.
    destruct (lok_app_cases a b p n L) as [(_ & X & _)|[(X & _)|(_ & _ & X)]].
    - exact (nodup_app_disj _ _ _ ND X Hp).
    - exact (nodup_app_disj _ _ _ ND X Hp).
    - exact (nodup_app_disj _ _ _ ND Hn X).
  Qed.
  Lemma lok_app_left : forall a b p n, NoDup (flat (a ++ b)) ->
    In p (flat a) -> In n (flat a) -> lok (a ++ b) p n -> lok a p n.
  Proof.
    intros a b p n ND Hp Hn L. rewrite flat_app in ND.
    destruct (lok_app_cases a b p n L) as [(X & _)|[(_ & X)|(_ & _ & X)]]; [exact X| |];
      destruct (nodup_app_disj _ _ _ ND Hn X).
  Qed.
  Lemma lok_app_right : forall a b p n, NoDup (flat (a ++ b)) ->
    In p (flat b) -> In n (flat b) -> lok (a ++ b) p n -> lok b p n.
  Proof.
    intros a b p n ND Hp Hn L. rewrite flat_app in ND.
    destruct (lok_app_cases a b p n L) as [(_ & X & _)|[(X & _)|(X & _)]]; [| |exact X];
      destruct (nodup_app_disj _ _ _ ND X Hp).
  Qed.

  Lemma eok_app : forall a b, NoDup (flat (a ++ b)) -> eok (a ++ b) ->
    eok a /\ eok b /\ (forall p n, In p (flat b) -> In n (flat a) -> ~ In p (preds n)).
  Proof.
    intros a b ND E.
    assert (IA : forall x, In x (flat a) -> In x (flat (a ++ b))).
    { intros x X. rewrite flat_app. apply in_or_app. left. exact X. }
    assert (IB : forall x, In x (flat b) -> In x (flat (a ++ b))).
    { intros x X. rewrite flat_app. apply in_or_app. right. exact X. }
    split; [|split]; intros p n Hp Hn He.
    - exact (lok_app_left a b p n ND Hp Hn (E p n (IA p Hp) (IA n Hn) He)).
    - exact (lok_app_right a b p n ND Hp Hn (E p n (IB p Hp) (IB n Hn) He)).
    - exact (lok_app_back a b p n ND Hp Hn (E p n (IB p Hp) (IA n Hn) He)).
  Qed.
  Lemma eok_cons : forall c r, NoDup (flat (c :: r)) -> eok (c :: r) ->
    eok [c] /\ eok r /\ (forall p n, In p (flat r) -> In n (cnodes c) -> ~ In p (preds n)).
  Proof.
    intros c r ND E. destruct (eok_app [c] r ND E) as [E1 [E2 E3]].
    split; [exact E1|split; [exact E2|]]. intros p n Hp Hn. apply E3; [exact Hp|].
    rewrite flat_single. exact Hn.
  Qed.

  Lemma eok_cycle : forall h body, NoDup (h :: flat body) -> eok [Cycle h body] -> eok body.
  Proof.
    intros h body ND E p n Hp Hn He.
    inversion ND as [|? ? Hh ND']; subst.
    assert (L : lok [Cycle h body] p n).
    { apply E; [rewrite flat_single, cnodes_cycle; right; exact Hp
               |rewrite flat_single, cnodes_cycle; right; exact Hn|exact He]. }
    destruct L as [L|L].
    - left. rewrite flat_single, cnodes_cycle in L. change (h :: flat body) with ([h] ++ flat body) in L.
      apply before_app_cases in L. destruct L as [L|[[L _]|L]].
      + exfalso. apply before_in in L. destruct L as [[<-|[]] _]. exact (Hh Hp).
      + exfalso. destruct L as [<-|[]]. exact (Hh Hp).
      + exact L.
    - right. destruct L as [c [[<-|[]] L]]. inversion L; subst.
      + exfalso. exact (Hh Hn).
      + exists c. split; assumption.
  Qed.
  Lemma eok_vertex : forall n, eok [Vertex n] -> ~ In n (preds n).
  Proof.
    intros n E He.
    assert (L : lok [Vertex n] n n).
    { apply E; [left; reflexivity|left; reflexivity|exact He]. }
    destruct L as [L|L].
    - destruct L as [l1 [l2 [l3 L]]]. cbn in L.
      destruct l1 as [|a l1]; cbn [app] in L; inversion L as [[L1 L2]].
      + destruct l2; discriminate.
      + destruct l1; discriminate.
    - destruct L as [c [[<-|[]] L]]. inversion L.
  Qed.

  (* the first top-level component that contains a given node *)
  Lemma entry_split_any : forall entry w, In entry (flat w) ->
    exists w1 c w2, w = w1 ++ c :: w2 /\ ~ In entry (flat w1) /\ In entry (cnodes c).
  Proof.
    intros entry. induction w as [|c r IH]; intros Hin; [destruct Hin|].
    destruct (in_dec Nat.eq_dec entry (cnodes c)) as [Hc|Hc].
    - exists [], c, r. split; [reflexivity|]. split; [intros []|exact Hc].
    - cbn [flat] in Hin. apply in_app_or in Hin. destruct Hin as [Hin|Hin]; [contradiction|].
      destruct (IH Hin) as [w1 [c' [w2 [E [N1 N2]]]]].
      exists (c :: w1), c', w2. split; [rewrite E; reflexivity|]. split; [|exact N2].
      cbn [flat]. intros H. apply in_app_or in H. destruct H as [H|H]; contradiction.
  Qed.

  (* when [entry_ok] holds the entry occurs at top level: as a vertex or as the head of a cycle *)
  Lemma entry_split : forall entry w, entry_ok entry w = true -> In entry (flat w) ->
    exists w1 c w2, w = w1 ++ c :: w2 /\ ~ In entry (flat w1) /\
                    (c = Vertex entry \/ exists body, c = Cycle entry body).
  Proof.
    intros entry w OK Hin. destruct (entry_split_any entry w Hin) as [w1 [c [w2 [E [N1 Hc]]]]].
    exists w1, c, w2. split; [exact E|]. split; [exact N1|].
    rewrite entry_ok_forallb, E, forallb_app in OK. apply andb_true_iff in OK. destruct OK as [_ OK].
    cbn [forallb] in OK. apply andb_true_iff in OK. destruct OK as [O1 _].
    destruct c as [n|h body].
    - left. destruct Hc as [->|[]]. reflexivity.
    - right. exists body. cbn [entry_ok_c] in O1. apply andb_true_iff in O1. destruct O1 as [O1 _].
      unfold head_ok in O1. apply (proj2 (comp_member_In entry (Cycle h body))) in Hc.
      rewrite Hc in O1. cbn [negb orb] in O1. apply Nat.eqb_eq in O1. subst h. reflexivity.
  Qed.
End Order.

Section Rel.
  Variable A : Type.
  Variable State : Type.
  Variable gamma : A -> State -> Prop.
  Variable bstep : nat -> State -> State -> Prop.
  Variable preds : nat -> list nat.
  Variable entry : nat.
  Variable use_asm : bool.
  Variable asm : nat -> option A.
  Variable Init : State -> Prop.

  Notation asm_holds := (asm_holds A State gamma use_asm asm).
  Notation RPre := (RPre A State gamma bstep preds entry use_asm asm Init).
  Notation RPost := (RPost A State gamma bstep preds entry use_asm asm Init).

  (* states entering / leaving the nodes of C, given the states [Ext p] leaving each node p
     outside C *)
  Inductive RRpre (C : list nat) (Ext : nat -> State -> Prop) : nat -> State -> Prop :=
  | RR_init s : In entry C -> Init s -> asm_holds entry s -> RRpre C Ext entry s
  | RR_out n p s : In n C -> In p (preds n) -> ~ In p C -> Ext p s -> asm_holds n s -> RRpre C Ext n s
  | RR_in n p s : In n C -> In p (preds n) -> In p C -> RRpost C Ext p s -> asm_holds n s -> RRpre C Ext n s
  with RRpost (C : list nat) (Ext : nat -> State -> Prop) : nat -> State -> Prop :=
  | RR_step n s s' : RRpre C Ext n s -> bstep n s s' -> RRpost C Ext n s'.

  Scheme RRpre_min := Minimality for RRpre Sort Prop
    with RRpost_min := Minimality for RRpost Sort Prop.
  Combined Scheme RR_mutind from RRpre_min, RRpost_min.

  Lemma RRpre_in C Ext n s : RRpre C Ext n s -> In n C.
  Proof. intros H. destruct H; assumption. Qed.
  Lemma RRpost_in C Ext n s : RRpost C Ext n s -> In n C.
  Proof. intros H. destruct H as [n s s' H _]. exact (RRpre_in _ _ _ _ H). Qed.

  Lemma RR_decomp C C' (E E' : nat -> State -> Prop) :
    (forall x, In x C' -> In x C) ->
    (forall m p s, In m C' -> In p (preds m) -> In p C -> ~ In p C' -> RRpost C E p s -> E' p s) ->
    (forall m p s, In m C' -> In p (preds m) -> ~ In p C -> E p s -> E' p s) ->
    (forall n s, RRpre C E n s -> In n C' -> RRpre C' E' n s) /\
    (forall n s, RRpost C E n s -> In n C' -> RRpost C' E' n s).
  Proof.
    intros SUB H2 H3.
    assert (G : (forall n s, RRpre C E n s -> RRpre C E n s /\ (In n C' -> RRpre C' E' n s)) /\
                (forall n s, RRpost C E n s -> RRpost C E n s /\ (In n C' -> RRpost C' E' n s))).
    { apply (RR_mutind C E (fun n s => RRpre C E n s /\ (In n C' -> RRpre C' E' n s))
                           (fun n s => RRpost C E n s /\ (In n C' -> RRpost C' E' n s))).
      - intros s I1 I2 I3. split; [apply RR_init; assumption|].
        intros I4. apply RR_init; assumption.
      - intros n p s I1 I2 I3 I4 I5. split; [eapply RR_out; eauto|].
        intros I6. refine (RR_out C' E' n p s I6 I2 _ _ I5).
        + intros X. apply I3. apply SUB. exact X.
        + apply (H3 n p s); assumption.
      - intros n p s I1 I2 I3 _ [Q1 Q2] I5. split; [eapply RR_in; eauto|].
        intros I6. destruct (in_dec Nat.eq_dec p C') as [D|D].
        + exact (RR_in C' E' n p s I6 I2 D (Q2 D) I5).
        + refine (RR_out C' E' n p s I6 I2 D _ I5). apply (H2 n p s); assumption.
      - intros n s s' _ [P1 P2] B. split; [eapply RR_step; eauto|].
        intros I. apply RR_step with s; auto. }
    destruct G as [G1 G2]. split; intros n s R; [apply (G1 n s R)|apply (G2 n s R)].
  Qed.

  Lemma RR_mono C (E E' : nat -> State -> Prop) :
    (forall m p s, In m C -> In p (preds m) -> ~ In p C -> E p s -> E' p s) ->
    (forall n s, RRpre C E n s -> RRpre C E' n s) /\ (forall n s, RRpost C E n s -> RRpost C E' n s).
  Proof.
    intros H.
    destruct (RR_decomp C C E E' (fun x I => I)) as [G1 G2].
    - intros m p s _ _ I N. contradiction.
    - exact H.
    - split; intros n s R; [apply G1|apply G2]; auto;
        [exact (RRpre_in _ _ _ _ R)|exact (RRpost_in _ _ _ _ R)].
  Qed.

  (* the global semantics is included in the semantics relative to a successor-closed node set *)
  Lemma R_global_rel C (E : nat -> State -> Prop) :
    In entry C -> (forall n p, In p (preds n) -> In p C -> In n C) ->
    (forall n s, RPre n s -> RRpre C E n s) /\ (forall n s, RPost n s -> RRpost C E n s).
  Proof.
    intros IE CL.
    apply (R_mutind A State gamma bstep preds entry use_asm asm Init
             (fun n s _ => RRpre C E n s) (fun n s _ => RRpost C E n s)).
    - intros s I AH. apply RR_init; assumption.
    - intros n p s I _ R AH. pose proof (RRpost_in _ _ _ _ R) as IP.
      apply RR_in with p; auto. apply (CL n p); assumption.
    - intros n s s' _ R B. apply RR_step with s; assumption.
  Qed.
End Rel.
