(* ThresholdsSound.v — get_prev(v) <= v <= get_next(v) for every threshold set built by
   add() from the initial {-oo, 0, +oo}. *)
From Coq Require Import ZArith NArith List Bool Lia.
From CrabV Require Import Base.ZInf Fix.Thresholds.
Import ListNotations.
Local Open Scope Z_scope.

(* shape invariant: first element -oo, last element +oo *)
Definition wf_thr (t : thr) : Prop := exists mid, t = MInf :: mid ++ [PInf].

Lemma wf_thr_init : wf_thr thr_init.
Proof. exists [Fin 0]. reflexivity. Qed.

Lemma split_le_app v t : fst (split_le v t) ++ snd (split_le v t) = t.
Proof.
  induction t as [|h r IH]; simpl; auto.
  destruct (ble h v); simpl; auto. destruct (split_le v r); simpl in *. f_equal. auto.
Qed.

Lemma split_le_snd_head v t u r : snd (split_le v t) = u :: r -> ble u v = false.
Proof.
  induction t as [|h t' IH]; simpl; try discriminate.
  destruct (ble h v) eqn:E.
  - destruct (split_le v t'); simpl in *. auto.
  - simpl. intros H; inversion H; subst; auto.
Qed.

Lemma split_le_snd_nil v t : snd (split_le v t) = [] -> forall x, In x t -> ble x v = true.
Proof.
  induction t as [|h t' IH]; simpl; [tauto|].
  destruct (ble h v) eqn:E.
  - destruct (split_le v t') eqn:S; simpl in *. intros H x [<-|I]; auto.
  - simpl. discriminate.
Qed.

Lemma wf_in_minf t : wf_thr t -> In MInf t.
Proof. intros [mid ->]. left; reflexivity. Qed.
Lemma wf_in_pinf t : wf_thr t -> In PInf t.
Proof. intros [mid ->]. right. apply in_or_app. right. left. reflexivity. Qed.

Lemma thr_next_ge t v : wf_thr t -> ble v (thr_next t v) = true.
Proof.
  intros W. unfold thr_next. destruct v as [| z |]; [reflexivity| |reflexivity].
  destruct (snd (split_le (Fin z) t)) as [|u r] eqn:S.
  - pose proof (split_le_snd_nil _ _ S PInf (wf_in_pinf t W)) as X. discriminate X.
  - apply split_le_snd_head in S. apply ble_false_flip; auto.
Qed.

Lemma split_lt_fst_lt v t x : In x (fst (split_lt v t)) -> blt x v = true.
Proof.
  induction t as [|h t' IH]; simpl; [tauto|].
  destruct (blt h v) eqn:E.
  - destruct (split_lt v t'); simpl in *. intros [<-|I]; auto.
  - simpl. tauto.
Qed.

Lemma thr_prev_le t v : wf_thr t -> ble (thr_prev t v) v = true.
Proof.
  intros W. unfold thr_prev. destruct v as [| z |]; [reflexivity| |].
  - destruct (rev (fst (split_lt (Fin z) t))) as [|p r] eqn:R.
    + destruct W as [mid ->]. reflexivity.
    + assert (I : In p (fst (split_lt (Fin z) t))) by (apply in_rev; rewrite R; left; auto).
      apply split_lt_fst_lt in I. unfold blt, bge in I. apply negb_true_iff in I.
      apply ble_false_flip; auto.
  - destruct (match rev _ with [] => _ | p :: _ => p end); reflexivity.
Qed.

(* get_prev and get_next answer with elements of the set *)
Lemma split_lt_fst_in v t x : In x (fst (split_lt v t)) -> In x t.
Proof.
  induction t as [|h r IH]; cbn [split_lt]; [auto|].
  destruct (blt h v); [|intros []].
  destruct (split_lt v r) as [p q]. cbn [fst] in *. intros [->|I]; [left; reflexivity|right; auto].
Qed.

Lemma thr_prev_in t v : wf_thr t -> In (thr_prev t v) t.
Proof.
  intros W. unfold thr_prev.
  assert (X : In (match rev (fst (split_lt v t)) with p :: _ => p | [] => hd MInf t end) t).
  { destruct (rev (fst (split_lt v t))) as [|p r] eqn:R.
    - destruct W as [mid ->]. left; reflexivity.
    - apply (split_lt_fst_in v). apply in_rev. rewrite R. left; reflexivity. }
  destruct v; [apply wf_in_minf, W|exact X|exact X].
Qed.

Lemma thr_next_in t v : wf_thr t -> In (thr_next t v) t.
Proof.
  intros W. unfold thr_next.
  assert (X : In (match snd (split_le v t) with u :: _ => u | [] => last t PInf end) t).
  { destruct (snd (split_le v t)) as [|u r] eqn:R.
    - destruct W as [mid ->]. rewrite app_comm_cons, last_last. right. apply in_or_app. right. left; reflexivity.
    - rewrite <- (split_le_app v t). apply in_or_app. right. rewrite R. left; reflexivity. }
  destruct v; [exact X|exact X|apply wf_in_pinf, W].
Qed.

(* add preserves the shape *)
Lemma split_le_head_minf v mid :
  exists le', fst (split_le v (MInf :: mid ++ [PInf])) = MInf :: le'.
Proof. simpl. destruct (split_le v (mid ++ [PInf])); simpl. eauto. Qed.

Lemma last_app_PInf (l : thr) : l <> [] -> (exists l', l = l' ++ [PInf]) -> last l MInf = PInf.
Proof. intros _ [l' ->]. apply last_last. Qed.

Lemma thr_add_wf size t v : wf_thr t -> b_is_finite v = true -> wf_thr (thr_add size t v).
Proof.
  intros W F. unfold thr_add.
  destruct (negb _); auto. destruct (thr_mem v t); auto.
  destruct W as [mid ->].
  destruct (split_le v (MInf :: mid ++ [PInf])) as [le gt] eqn:S.
  pose proof (split_le_app v (MInf :: mid ++ [PInf])) as APP. rewrite S in APP. simpl fst in APP. simpl snd in APP.
  destruct (split_le_head_minf v mid) as [le' HL]. rewrite S in HL. simpl in HL. subst le.
  (* gt is non-empty and ends with +oo *)
  assert (GT : exists g', gt = g' ++ [PInf]).
  { assert (NE : gt <> []).
    { intros ->. pose proof (split_le_snd_nil v (MInf :: mid ++ [PInf])) as X. rewrite S in X.
      assert (I : In PInf (MInf :: mid ++ [PInf])) by (right; apply in_or_app; right; left; auto).
      specialize (X eq_refl PInf I). destruct v; simpl in *; discriminate. }
    destruct (exists_last NE) as (g' & a & ->).
    rewrite app_comm_cons, app_assoc in APP.
    apply app_inj_tail in APP. destruct APP as [_ ->]. eauto. }
  destruct GT as [g' ->].
  assert (R1 : wf_thr ((MInf :: le') ++ v :: g' ++ [PInf])).
  { exists (le' ++ v :: g'). simpl. f_equal. rewrite <- app_assoc. reflexivity. }
  destruct (bgt v (Fin 0)).
  - destruct (rev (MInf :: le')) as [|prev [|p2 pr]] eqn:RV; auto.
    destruct (beqb (badd prev (Fin 1)) v); auto.
    (* replace the last element of le (which is not its first) by v *)
    unfold replace_last. rewrite RV.
    assert (E : MInf :: le' = rev (p2 :: pr) ++ [prev]).
    { rewrite <- (rev_involutive (MInf :: le')), RV. reflexivity. }
    destruct (rev (p2 :: pr)) as [|q qs] eqn:RQ.
    { exfalso. apply (f_equal (@length _)) in RQ. rewrite rev_length in RQ. simpl in RQ. lia. }
    simpl in E. inversion E; subst.
    exists (qs ++ v :: g'). simpl. f_equal. rewrite <- !app_assoc. reflexivity.
  - destruct (blt v (Fin 0)); auto.
    destruct (g' ++ [PInf]) as [|u r] eqn:GE; [destruct g'; discriminate|].
    destruct (beqb (bsub u (Fin 1)) v) eqn:BE; [|exact R1].
    (* u is replaced by v; u is finite, hence not the final +oo *)
    destruct g' as [|g0 gr].
    + simpl in GE. inversion GE; subst. apply beqb_eq in BE. destruct v; simpl in *; discriminate.
    + simpl in GE. inversion GE; subst.
      exists (le' ++ v :: gr). simpl. f_equal. rewrite <- app_assoc. reflexivity.
Qed.
