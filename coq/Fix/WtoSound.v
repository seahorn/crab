(* Fix/WtoSound.v — Bourdoncle's algorithm as implemented iteratively in wto.hpp (model
   Fix/Wto.v) produces a well-formed weak topological ordering: invariants of the
   iterative state (visit stack with cursors, dfn table, vertex stack, loop_nodes),
   for all graphs, entries and successor orders.  The only hypothesis is that the fuel of
   the model was not exhausted ([build g e = Some w]); Fix/WtoTotal.v shows that this never
   happens. *)
From Coq Require Import List Arith Bool Lia.
From CrabV Require Import Fix.Wto Fix.WtoCheck.
Import ListNotations.

Ltac lsimp := repeat first [rewrite <- app_assoc | progress cbn [app]]; try reflexivity.

Definition lok (w : wto) (u v : nat) : Prop := before (flat w) u v \/ encl w v u.
Definition chead (c : comp) : nat := match c with Vertex n => n | Cycle h _ => h end.

Lemma before_app_l : forall a b u v, before a u v -> before (a ++ b) u v.
Proof.
  intros a b u v [l1 [l2 [l3 H]]]. exists l1, l2, (l3 ++ b). rewrite H. lsimp.
Qed.
Lemma before_app_r : forall a b u v, before b u v -> before (a ++ b) u v.
Proof.
  intros a b u v [l1 [l2 [l3 H]]]. exists (a ++ l1), l2, l3. rewrite H. lsimp.
Qed.
Lemma before_cross : forall a b u v, In u a -> In v b -> before (a ++ b) u v.
Proof.
  intros a b u v Hu Hv. apply in_split in Hu. destruct Hu as [a1 [a2 ->]].
  apply in_split in Hv. destruct Hv as [b1 [b2 ->]].
  exists a1, (a2 ++ b1), b2. lsimp.
Qed.
Lemma encl_app_l : forall a b h u, encl a h u -> encl (a ++ b) h u.
Proof. intros a b h u [c [H1 H2]]. exists c. split; [apply in_or_app; left; exact H1|exact H2]. Qed.
Lemma encl_app_r : forall a b h u, encl b h u -> encl (a ++ b) h u.
Proof. intros a b h u [c [H1 H2]]. exists c. split; [apply in_or_app; right; exact H1|exact H2]. Qed.
Lemma lok_app_l : forall a b u v, lok a u v -> lok (a ++ b) u v.
Proof.
  intros a b u v [H|H]; [left; rewrite flat_app; apply before_app_l, H|right; apply encl_app_l, H].
Qed.
Lemma lok_app_r : forall a b u v, lok b u v -> lok (a ++ b) u v.
Proof.
  intros a b u v [H|H]; [left; rewrite flat_app; apply before_app_r, H|right; apply encl_app_r, H].
Qed.
Lemma lok_cross : forall a b u v, In u (flat a) -> In v (flat b) -> lok (a ++ b) u v.
Proof. intros a b u v Hu Hv. left. rewrite flat_app. apply before_cross; assumption. Qed.
Lemma flat_single : forall c, flat [c] = cnodes c.
Proof. intros c. cbn [flat]. apply app_nil_r. Qed.
Lemma lok_cycle_body : forall h body u v, lok body u v -> lok [Cycle h body] u v.
Proof.
  intros h body u v [H|[c [H1 H2]]].
  - left. rewrite flat_single, cnodes_cycle. destruct H as [l1 [l2 [l3 H]]].
    exists (h :: l1), l2, l3. rewrite H. reflexivity.
  - right. exists (Cycle h body). split; [left; reflexivity|]. apply encl_deep with c; assumption.
Qed.
Lemma lok_cycle_head : forall h body u, In u (h :: flat body) -> lok [Cycle h body] u h.
Proof.
  intros h body u H. right. exists (Cycle h body). split; [left; reflexivity|].
  apply encl_here. rewrite cnodes_cycle. exact H.
Qed.
Lemma lok_head_body : forall h body v, In v (flat body) -> lok [Cycle h body] h v.
Proof.
  intros h body v H. left. rewrite flat_single, cnodes_cycle.
  apply in_split in H. destruct H as [l2 [l3 ->]]. exists [], l2, l3. reflexivity.
Qed.

Lemma nodup_app_intro : forall (a b : list nat), NoDup a -> NoDup b ->
  (forall x, In x a -> ~ In x b) -> NoDup (a ++ b).
Proof.
  induction a as [|x a IH]; intros b Ha Hb Hd; [exact Hb|]. cbn [app].
  inversion Ha; subst. constructor.
  - intros Hin. apply in_app_or in Hin. destruct Hin as [Hin|Hin]; [contradiction|].
    apply (Hd x); [left; reflexivity|exact Hin].
  - apply IH; auto. intros y Hy. apply Hd. right. exact Hy.
Qed.

Lemma upd_same : forall d n v, upd d n v n = v.
Proof. intros. unfold upd. rewrite Nat.eqb_refl. reflexivity. Qed.
Lemma upd_other : forall d n v x, x <> n -> upd d n v x = d x.
Proof. intros d n v x H. unfold upd. apply Nat.eqb_neq in H. rewrite H. reflexivity. Qed.
Lemma dfnv_eq_dec : forall a b : dfnv, {a = b} + {a <> b}.
Proof. decide equality. apply Nat.eq_dec. Qed.
Lemma is_zero_true : forall d, is_zero d = true <-> d = DN 0.
Proof. intros [[|k]|]; cbn; split; congruence. Qed.
Lemma is_zero_false : forall d, is_zero d = false <-> d <> DN 0.
Proof. intros d. rewrite <- is_zero_true. destruct (is_zero d); split; congruence. Qed.

Lemma dfn_discover_same : forall v s, dfn (discover v s) v = DN (S (num s)).
Proof. intros v s. apply upd_same. Qed.
Lemma dfn_discover_other : forall v s x, x <> v -> dfn (discover v s) x = dfn s x.
Proof. intros v s x H. apply upd_other, H. Qed.
Lemma discover_done : forall v s, dfn s v = DN 0 ->
  forall x, dfn (discover v s) x = DInf <-> dfn s x = DInf.
Proof.
  intros v s Hw x. destruct (Nat.eq_dec x v) as [->|Hne].
  - rewrite dfn_discover_same, Hw. split; discriminate.
  - rewrite dfn_discover_other by exact Hne. reflexivity.
Qed.

(* the vertex stack segment of one call: depth-first numbers strictly decreasing from the top *)
Fixpoint LSorted (d : nat -> dfnv) (L : list nat) : Prop :=
  match L with
  | [] => True
  | x :: L' => (exists k, d x = DN k /\ 0 < k /\ forall y, In y L' -> exists k', d y = DN k' /\ k' < k)
               /\ LSorted d L'
  end.
Lemma LSorted_fin : forall d L x, LSorted d L -> In x L -> exists k, d x = DN k /\ 0 < k.
Proof.
  induction L as [|y L IH]; intros x H Hx; [destruct Hx|].
  destruct H as [[k [H1 [H2 _]]] H3]. destruct Hx as [<-|Hx]; [exists k; auto|apply IH; assumption].
Qed.
Lemma white_not_in : forall d L x, LSorted d L -> d x = DN 0 -> ~ In x L.
Proof.
  intros d L x H Hw Hx. destruct (LSorted_fin _ _ _ H Hx) as [k [E1 E2]].
  rewrite Hw in E1. inversion E1. lia.
Qed.
Lemma LSorted_app : forall d A C, LSorted d (A ++ C) ->
  LSorted d A /\ LSorted d C /\
  forall a c, In a A -> In c C -> exists ka kc, d a = DN ka /\ d c = DN kc /\ kc < ka.
Proof.
  induction A as [|x A IH]; intros C H; cbn [app] in *.
  - split; [exact I|]. split; [exact H|]. intros a c [].
  - destruct H as [[k [H1 [H2 H3]]] H4]. destruct (IH C H4) as [IA [IC IX]].
    split; [|split; [exact IC|]].
    + split; [|exact IA]. exists k. split; [exact H1|]. split; [exact H2|].
      intros y Hy. apply H3, in_or_app. left. exact Hy.
    + intros a c [<-|Ha] Hc.
      * destruct (H3 c) as [k' [E1 E2]]; [apply in_or_app; right; exact Hc|]. exists k, k'. auto.
      * apply IX; assumption.
Qed.
Lemma LSorted_mid : forall d A x C, LSorted d (A ++ x :: C) ->
  exists kx, d x = DN kx /\ 0 < kx /\
    (forall a, In a A -> exists ka, d a = DN ka /\ kx < ka) /\
    (forall c, In c C -> exists kc, d c = DN kc /\ kc < kx).
Proof.
  intros d A x C H. destruct (LSorted_app _ _ _ H) as [_ [HC HX]].
  destruct HC as [[kx [E1 [E2 E3]]] _]. exists kx. split; [exact E1|]. split; [exact E2|]. split.
  - intros a Ha. destruct (HX a x Ha) as [ka [kc [F1 [F2 F3]]]]; [left; reflexivity|].
    rewrite E1 in F2. inversion F2. subst. exists ka. auto.
  - exact E3.
Qed.
Lemma LSorted_ext : forall d d' L, (forall x, In x L -> d' x = d x) -> LSorted d L -> LSorted d' L.
Proof.
  induction L as [|x L IH]; intros He H; [exact I|].
  destruct H as [[k [H1 [H2 H3]]] H4]. split.
  - exists k. split; [rewrite He; [exact H1|left; reflexivity]|]. split; [exact H2|].
    intros y Hy. destruct (H3 y Hy) as [k' [E1 E2]]. exists k'. split; [rewrite He; [exact E1|right; exact Hy]|exact E2].
  - apply IH; [intros y Hy; apply He; right; exact Hy|exact H4].
Qed.
Lemma LSorted_NoDup : forall d L, LSorted d L -> NoDup L.
Proof.
  induction L as [|x L IH]; intros H; [constructor|].
  destruct H as [[k [H1 [H2 H3]]] H4]. constructor; [|apply IH, H4].
  intros Hx. destruct (H3 x Hx) as [k' [E1 E2]]. rewrite H1 in E1. inversion E1. lia.
Qed.
Lemma LSorted_inj : forall d L x y k, LSorted d L -> In x L -> In y L -> d x = DN k -> d y = DN k -> x = y.
Proof.
  induction L as [|z L IH]; intros x y k H Hx Hy Ex Ey; [destruct Hx|].
  destruct H as [[kz [H1 [H2 H3]]] H4].
  destruct Hx as [<-|Hx]; destruct Hy as [<-|Hy]; [reflexivity| | |apply IH with k; assumption].
  - destruct (H3 y Hy) as [k' [E1 E2]]. rewrite Ey in E1. rewrite Ex in H1. inversion E1; inversion H1. lia.
  - destruct (H3 x Hx) as [k' [E1 E2]]. rewrite Ex in E1. rewrite Ey in H1. inversion E1; inversion H1. lia.
Qed.

(* the table after pop_until has popped the nodes T above v and reset them to 0 *)
Fixpoint reset_all (d : nat -> dfnv) (T : list nat) : nat -> dfnv :=
  match T with [] => d | x :: T' => reset_all (upd d x (DN 0)) T' end.
Lemma pop_until_app : forall v T d rest, ~ In v T ->
  pop_until v d (T ++ v :: rest) = Some (reset_all d T, rest).
Proof.
  induction T as [|x T IH]; intros d rest H; cbn [app pop_until reset_all].
  - rewrite Nat.eqb_refl. reflexivity.
  - destruct (x =? v) eqn:E; [apply Nat.eqb_eq in E; subst; exfalso; apply H; left; reflexivity|].
    apply IH. intros Hv. apply H. right. exact Hv.
Qed.
Lemma reset_all_spec : forall T d x, reset_all d T x = if mem x T then DN 0 else d x.
Proof.
  induction T as [|y T IH]; intros d x; [reflexivity|]. cbn [reset_all]. rewrite IH.
  unfold mem. cbn [existsb]. fold (mem x T). unfold upd.
  destruct (x =? y); destruct (mem x T); reflexivity.
Qed.
Lemma reset_all_in : forall T d x, In x T -> reset_all d T x = DN 0.
Proof. intros T d x H. rewrite reset_all_spec. apply mem_In in H. rewrite H. reflexivity. Qed.
Lemma reset_all_out : forall T d x, ~ In x T -> reset_all d T x = d x.
Proof. intros T d x H. rewrite reset_all_spec. apply mem_false in H. rewrite H. reflexivity. Qed.

(* The invariant of one call of wto::visit.  Ghost context of the call: d0 = dfn table at the
   call, B = vertex stack at the call, r = the vertex the call was made on, k0 = _num at the
   call, Reg = the region the call may touch (closed under successors up to nodes that are
   already done, and containing no node with a finite number).  The partition at the call
   stays below what the call emits ([LoopSpec]). *)
Section Call.
Variable g : graph.
Variable e : nat.

(* status of a scanned successor y of a node of the stack segment Li whose owner frame has
   minimum m; [up] is the node of the frame above (the tree child being explored) *)
Definition SOK (d : nat -> dfnv) (up : option nat) (Li : list nat) (m : nat) (y : nat) : Prop :=
  d y = DInf \/ (In y Li /\ exists k, d y = DN k /\ m <= k) \/ up = Some y.

Definition FrameOK (d : nat -> dfnv) (ln : list nat) (up : option nat)
           (f : frame) (T L' : list nat) : Prop :=
  exists k pre,
    d (fnode f) = DN k /\ fmin f <= k /\
    (fmin f = k \/ exists w, In w (T ++ fnode f :: L') /\ In w ln /\ d w = DN (fmin f)) /\
    succs g (fnode f) = pre ++ fcur f /\
    (forall y, In y pre -> SOK d up (T ++ fnode f :: L') (fmin f) y) /\
    (In (fnode f) pre -> In (fnode f) ln \/ fmin f < k) /\
    (forall x, In x T ->
       (forall y, In y (succs g x) -> SOK d up (T ++ fnode f :: L') (fmin f) y) /\
       exists w kw kx, In w (T ++ fnode f :: L') /\ In w ln /\ d w = DN kw /\ d x = DN kx /\
                       fmin f <= kw /\ kw < kx).

(* depth-first tree facts of a frame: the completed nodes T above its node n were reached
   from n through nodes of T, and the node of the frame above is a successor of n *)
Inductive tpath (S : list nat) : nat -> nat -> Prop :=
| tp_refl : forall x, tpath S x x
| tp_step : forall x y z, tpath S x y -> In z (succs g y) -> In z S -> tpath S x z.
Lemma tpath_incl : forall S S' x y, incl S S' -> tpath S x y -> tpath S' x y.
Proof.
  intros S S' x y Hi H. induction H; [constructor|]. apply tp_step with y; auto.
Qed.
Lemma tpath_trans : forall S x y z, tpath S x y -> tpath S y z -> tpath S x z.
Proof.
  intros S x y z H1 H2. induction H2; [exact H1|]. apply tp_step with y; auto.
Qed.
Definition FrameTree (up : option nat) (f : frame) (T : list nat) : Prop :=
  (forall x, In x T -> tpath (T ++ [fnode f]) (fnode f) x) /\
  (forall u, up = Some u -> In u (succs g (fnode f))).

Fixpoint Frames (d : nat -> dfnv) (ln : list nat) (up : option nat)
         (vs : list frame) (L : list nat) : Prop :=
  match vs with
  | [] => L = []
  | f :: vs' => exists T L', L = T ++ fnode f :: L' /\ FrameOK d ln up f T L' /\
                             FrameTree up f T /\
                             Frames d ln (Some (fnode f)) vs' L'
  end.

Lemma SOK_stable : forall d d' up Li m y,
  (forall x, In x Li -> d' x = d x) -> (forall x, d x = DInf -> d' x = DInf) ->
  SOK d up Li m y -> SOK d' up Li m y.
Proof.
  intros d d' up Li m y He Hd [H|[[H1 [k [H2 H3]]]|H]].
  - left. apply Hd, H.
  - right. left. split; [exact H1|]. exists k. split; [rewrite He; assumption|exact H3].
  - right. right. exact H.
Qed.
Lemma SOK_up : forall d up up' Li m y, (up = None \/ up = up') -> SOK d up Li m y -> SOK d up' Li m y.
Proof.
  intros d up up' Li m y Hu [H|[H|H]]; [left; exact H|right; left; exact H|].
  destruct Hu as [->| ->]; [discriminate|right; right; exact H].
Qed.
Lemma SOK_weaken : forall d up Li m m' y, m' <= m -> SOK d up Li m y -> SOK d up Li m' y.
Proof.
  intros d up Li m m' y Hm [H|[[H1 [k [H2 H3]]]|H]]; [left; exact H| |right; right; exact H].
  right. left. split; [exact H1|]. exists k. split; [exact H2|lia].
Qed.
Lemma SOK_lift : forall d n Ls Lbig m m' kn y,
  SOK d (Some n) Ls m y -> incl Ls Lbig -> In n Lbig -> d n = DN kn -> m' <= m -> m' <= kn ->
  SOK d None Lbig m' y.
Proof.
  intros d n Ls Lbig m m' kn y [H|[[H1 [k [H2 H3]]]|H]] Hi Hn Hd Hm Hk.
  - left. exact H.
  - right. left. split; [apply Hi, H1|]. exists k. split; [exact H2|lia].
  - inversion H; subst. right. left. split; [exact Hn|]. exists kn. split; [exact Hd|lia].
Qed.
Lemma SOK_incl : forall d up Ls Lbig m y, incl Ls Lbig -> SOK d up Ls m y -> SOK d up Lbig m y.
Proof.
  intros d up Ls Lbig m y Hi [H|[[H1 H2]|H]]; [left; exact H|right; left; split; [apply Hi, H1|exact H2]|right; right; exact H].
Qed.

Lemma FrameOK_stable : forall d d' ln ln' up f T L',
  (forall x, In x (T ++ fnode f :: L') -> d' x = d x) -> (forall x, d x = DInf -> d' x = DInf) ->
  incl ln ln' -> FrameOK d ln up f T L' -> FrameOK d' ln' up f T L'.
Proof.
  intros d d' ln ln' up f T L' He Hd Hl [k [pre [H1 [H2 [H3 [H4 [H5 [H6 H7]]]]]]]].
  assert (Hn : In (fnode f) (T ++ fnode f :: L')) by (apply in_or_app; right; left; reflexivity).
  exists k, pre. split; [rewrite He; assumption|]. split; [exact H2|]. split.
  { destruct H3 as [H3|[w [W1 [W2 W3]]]]; [left; exact H3|right].
    exists w. split; [exact W1|]. split; [apply Hl, W2|rewrite He; assumption]. }
  split; [exact H4|]. split.
  { intros y Hy. apply SOK_stable with d; auto. }
  split.
  { intros Hin. destruct (H6 Hin) as [H|H]; [left; apply Hl, H|right; exact H]. }
  intros x Hx. destruct (H7 x Hx) as [S1 [w [kw [kx [W1 [W2 [W3 [W4 [W5 W6]]]]]]]]]. split.
  { intros y Hy. apply SOK_stable with d; auto. }
  exists w, kw, kx. split; [exact W1|]. split; [apply Hl, W2|].
  split; [rewrite He; assumption|]. split; [|split; assumption].
  rewrite He; [exact W4|]. apply in_or_app. left. exact Hx.
Qed.

Lemma FrameOK_node_in : forall d ln up f T L', FrameOK d ln up f T L' ->
  exists k pre, d (fnode f) = DN k /\ succs g (fnode f) = pre ++ fcur f.
Proof. intros d ln up f T L' [k [pre [H1 [_ [_ [H4 _]]]]]]. exists k, pre. auto. Qed.
(* advancing the cursor of a frame past a successor c that is accounted for, possibly lowering
   the minimum to the number m of a node of loop_nodes on the stack *)
Lemma FrameOK_advance : forall d ln ln' up up' f T L' c rest m,
  FrameOK d ln up f T L' -> fcur f = c :: rest -> (up = None \/ up = up') ->
  incl ln ln' -> m <= fmin f ->
  (m = fmin f \/ exists w, In w (T ++ fnode f :: L') /\ In w ln' /\ d w = DN m) ->
  SOK d up' (T ++ fnode f :: L') m c ->
  (c = fnode f -> In c ln' \/ forall k, d c = DN k -> m < k) ->
  FrameOK d ln' up' (mkframe (fnode f) rest m) T L'.
Proof.
  intros d ln ln' up up' f T L' c rest m [k [pre [H1 [H2 [H3 [H4 [H5 [H6 H7]]]]]]]] Hc Hu Hl Hm Hw Hs Hself.
  assert (HS : forall y, SOK d up (T ++ fnode f :: L') (fmin f) y -> SOK d up' (T ++ fnode f :: L') m y).
  { intros y Hy. apply SOK_up with up; [exact Hu|]. apply SOK_weaken with (fmin f); assumption. }
  exists k, (pre ++ [c]). cbn [fnode fcur fmin].
  split; [exact H1|]. split; [lia|]. split.
  { destruct Hw as [->|Hw]; [|right; exact Hw].
    destruct H3 as [H3|[w [W1 [W2 W3]]]]; [left; exact H3|right]. exists w. auto. }
  split; [rewrite H4, Hc; lsimp|]. split.
  { intros y Hy. apply in_app_or in Hy. destruct Hy as [Hy|[<-|[]]]; [apply HS, H5, Hy|exact Hs]. }
  split.
  { intros Hin. apply in_app_or in Hin. destruct Hin as [Hin|[Hin|[]]].
    - destruct (H6 Hin) as [H|H]; [left; apply Hl, H|right; lia].
    - destruct (Hself Hin) as [H|H]; [left; rewrite <- Hin; exact H|right; apply H; rewrite Hin; exact H1]. }
  intros x Hx. destruct (H7 x Hx) as [S1 [w [kw [kx [W1 [W2 [W3 [W4 [W5 W6]]]]]]]]]. split.
  { intros y Hy. apply HS, S1, Hy. }
  exists w, kw, kx. split; [exact W1|]. split; [apply Hl, W2|]. split; [exact W3|].
  split; [exact W4|]. split; [lia|exact W6].
Qed.

Lemma scan_child : forall d ln up f T L' c rest,
  FrameOK d ln up f T L' -> fcur f = c :: rest -> In c (succs g (fnode f)).
Proof.
  intros d ln up f T L' c rest HF Hc.
  destruct (FrameOK_node_in _ _ _ _ _ _ HF) as [k [pre [_ H]]]. rewrite H, Hc. apply in_elt.
Qed.
Lemma FrameOK_mono_SOK : forall d ln up up' f T L',
  (forall y, SOK d up (T ++ fnode f :: L') (fmin f) y -> SOK d up' (T ++ fnode f :: L') (fmin f) y) ->
  FrameOK d ln up f T L' -> FrameOK d ln up' f T L'.
Proof.
  intros d ln up up' f T L' Hm [k [pre [H1 [H2 [H3 [H4 [H5 [H6 H7]]]]]]]].
  exists k, pre. split; [exact H1|]. split; [exact H2|]. split; [exact H3|]. split; [exact H4|].
  split; [intros y Hy; apply Hm, H5, Hy|]. split; [exact H6|].
  intros x Hx. destruct (H7 x Hx) as [S1 W]. split; [intros y Hy; apply Hm, S1, Hy|exact W].
Qed.
Lemma top_exhausted : forall d ln up f T L', FrameOK d ln up f T L' -> fcur f = [] ->
  exists k, d (fnode f) = DN k /\ fmin f <= k /\
    (fmin f = k \/ exists w, In w (T ++ fnode f :: L') /\ In w ln /\ d w = DN (fmin f)) /\
    (forall y, In y (succs g (fnode f)) -> SOK d up (T ++ fnode f :: L') (fmin f) y) /\
    (In (fnode f) (succs g (fnode f)) -> In (fnode f) ln \/ fmin f < k) /\
    (forall x, In x T ->
       (forall y, In y (succs g x) -> SOK d up (T ++ fnode f :: L') (fmin f) y) /\
       exists w kw kx, In w (T ++ fnode f :: L') /\ In w ln /\ d w = DN kw /\ d x = DN kx /\
                       fmin f <= kw /\ kw < kx).
Proof.
  intros d ln up f T L' [k [pre [H1 [H2 [H3 [H4 [H5 [H6 H7]]]]]]]] Hc.
  rewrite Hc, app_nil_r in H4. subst pre. exists k. auto 10.
Qed.
(* a head that is not in loop_nodes has nothing above it on the stack *)
Lemma head_not_loop : forall d ln up f T L' k,
  LSorted d (T ++ fnode f :: L') -> FrameOK d ln up f T L' -> fcur f = [] ->
  d (fnode f) = DN k -> fmin f = k -> ~ In (fnode f) ln -> T = [].
Proof.
  intros d ln up f T L' k HS HF Hc Hk Hm Hln.
  destruct (top_exhausted _ _ _ _ _ _ HF Hc) as [kn [H1 [H2 [H3 [H5 [H6 H7]]]]]].
  destruct T as [|t T0]; [reflexivity|]. exfalso.
  destruct (@exists_last _ (t :: T0)) as [T1 [x Ex]]; [discriminate|]. rewrite Ex in *.
  destruct (H7 x) as [_ [w [kw [kx [W1 [W2 [W3 [W4 [W5 W6]]]]]]]]]; [apply in_or_app; right; left; reflexivity|].
  assert (EQ : (T1 ++ [x]) ++ fnode f :: L' = T1 ++ x :: fnode f :: L') by lsimp.
  rewrite EQ in *.
  destruct (LSorted_mid _ _ _ _ HS) as [kx' [E1 [E2 [E3 E4]]]].
  rewrite W4 in E1. inversion E1. subst kx'.
  apply in_app_or in W1. destruct W1 as [W1|[W1|[W1|W1]]].
  - destruct (E3 w W1) as [ka [F1 F2]]. rewrite W3 in F1. inversion F1. lia.
  - subst w. rewrite W4 in W3. inversion W3. lia.
  - subst w. contradiction.
  - destruct (E4 (fnode f)) as [kc [F1 F2]]; [left; reflexivity|].
    destruct (LSorted_app _ _ _ HS) as [_ [HS2 _]]. destruct HS2 as [_ HS3].
    destruct HS3 as [[kf [G1 [G2 G3]]] _]. destruct (G3 w W1) as [kw' [G4 G5]].
    rewrite W3 in G4. inversion G4. rewrite Hk in G1. inversion G1. lia.
Qed.

Lemma Frames_stable : forall d d' ln ln' vs up L,
  (forall x, In x L -> d' x = d x) -> (forall x, d x = DInf -> d' x = DInf) ->
  incl ln ln' -> Frames d ln up vs L -> Frames d' ln' up vs L.
Proof.
  induction vs as [|f vs IH]; intros up L He Hd Hl H; cbn [Frames] in *; [exact H|].
  destruct H as [T [L' [-> [H1 [HT H2]]]]]. exists T, L'. split; [reflexivity|]. split; [|split; [exact HT|]].
  - apply FrameOK_stable with d ln; auto.
  - apply IH; auto. intros x Hx. apply He. apply in_or_app. right. right. exact Hx.
Qed.

(* the frame below a completed (done) frame becomes the top frame *)
Lemma Frames_below_done : forall d ln v vs L, Frames d ln (Some v) vs L -> d v = DInf ->
  Frames d ln None vs L.
Proof.
  intros d ln v vs L H Hv. destruct vs as [|p vs]; [exact H|]. cbn [Frames] in *.
  destruct H as [T [L' [EL [HF [[HT1 HT2] HFs]]]]]. exists T, L'. split; [exact EL|].
  split; [|split; [split; [exact HT1|intros u Hu; discriminate]|exact HFs]].
  apply FrameOK_mono_SOK with (Some v); [|exact HF].
  intros y [H|[H|H]]; [left; exact H|right; left; exact H|]. inversion H; subst. left. exact Hv.
Qed.
Lemma prop_min_cons : forall m p vs,
  prop_min m (p :: vs) = mkframe (fnode p) (fcur p) (Nat.min m (fmin p)) :: vs.
Proof.
  intros m [n c mp] vs. cbn [prop_min fnode fcur fmin]. destruct (m <? mp) eqn:E.
  - apply Nat.ltb_lt in E. rewrite Nat.min_l by lia. reflexivity.
  - apply Nat.ltb_ge in E. rewrite Nat.min_r by exact E. reflexivity.
Qed.
Lemma prop_min_id : forall d ln v vs L' m,
  Frames d ln (Some v) vs L' ->
  (forall c, In c L' -> exists kc, d c = DN kc /\ kc < m) ->
  prop_min m vs = vs.
Proof.
  intros d ln v vs L' m HF Hlt. destruct vs as [|p vs]; [reflexivity|]. cbn [prop_min].
  cbn [Frames] in HF. destruct HF as [T [L'' [EL [[kp [pre [P1 [P2 _]]]] _]]]].
  destruct (Hlt (fnode p)) as [kc [E1 E2]]; [rewrite EL; apply in_or_app; right; left; reflexivity|].
  rewrite P1 in E1. inversion E1. subst kc.
  destruct (m <? fmin p) eqn:E; [apply Nat.ltb_lt in E; lia|reflexivity].
Qed.
Lemma frames_nil : forall d ln up vs, Frames d ln up vs [] -> vs = [].
Proof.
  intros d ln up vs H. destruct vs as [|f vs]; [reflexivity|].
  cbn [Frames] in H. destruct H as [T [L' [E _]]]. destruct T; discriminate.
Qed.

(* the frame of a newly discovered node v goes on top *)
Lemma Frames_push : forall d ln v k vs L, d v = DN k -> Frames d ln (Some v) vs L ->
  Frames d ln None (mkframe v (succs g v) k :: vs) (v :: L).
Proof.
  intros d ln v k vs L Hk H. exists [], L. split; [reflexivity|].
  split; [|split; [split; [intros x []|intros u Hu; discriminate]|exact H]].
  exists k, []. cbn [fnode fmin fcur app].
  split; [exact Hk|]. split; [apply le_n|]. split; [left; reflexivity|]. split; [reflexivity|].
  split; [intros y []|]. split; [intros []|intros x []].
Qed.

(* what has been emitted between the tables d0 and d: exactly the nodes that became done,
   each once, in an order that every edge leaving them respects *)
Set Implicit Arguments. Unset Strict Implicit.
Record Emitted (d0 d : nat -> dfnv) (p : wto) : Prop := {
  em_in : forall x, In x (flat p) <-> (d x = DInf /\ d0 x <> DInf);
  em_nodup : NoDup (flat p);
  em_edges : forall u v, In u (flat p) -> In v (succs g u) ->
                         d v = DInf /\ (d0 v = DInf \/ lok p u v)
}.
Unset Implicit Arguments. Set Strict Implicit.

Lemma Emitted_nil : forall d, Emitted d d [].
Proof.
  intros d. constructor; [|constructor|intros u v []].
  intros x. split; [intros []|intros [H1 H2]; contradiction].
Qed.

Lemma Emitted_ext : forall d0 d d' p, (forall x, d' x = DInf <-> d x = DInf) ->
  Emitted d0 d p -> Emitted d0 d' p.
Proof.
  intros d0 d d' p He [H1 H2 H3]. constructor; [|exact H2|].
  - intros x. rewrite He. apply H1.
  - intros u v Hu Hv. rewrite He. exact (H3 u v Hu Hv).
Qed.

(* what is emitted from d1 to d2 goes in front of what was emitted from d0 to d1 *)
Lemma Emitted_app : forall d0 d1 d2 a b, Emitted d0 d1 a -> Emitted d1 d2 b ->
  (forall x, d0 x = DInf -> d1 x = DInf) -> (forall x, d1 x = DInf -> d2 x = DInf) ->
  Emitted d0 d2 (b ++ a).
Proof.
  intros d0 d1 d2 a b A Bb H01 H12. constructor.
  - intros x. rewrite flat_app, in_app_iff, (em_in A x), (em_in Bb x). split.
    + intros [[H1 H2]|[H1 H2]]; [split; [exact H1|intros H; apply H2, H01, H]|split; [apply H12, H1|exact H2]].
    + intros [H1 H2]. destruct (dfnv_eq_dec (d1 x) DInf) as [E|E]; [right|left]; auto.
  - rewrite flat_app. apply nodup_app_intro; [apply (em_nodup Bb)|apply (em_nodup A)|].
    intros x H1 H2. apply (em_in Bb) in H1. apply (em_in A) in H2. tauto.
  - intros u v Hu Hv. rewrite flat_app in Hu. apply in_app_or in Hu. destruct Hu as [Hu|Hu].
    + destruct (em_edges Bb Hu Hv) as [G1 [G2|G2]]; (split; [exact G1|]); [|right; apply lok_app_l, G2].
      destruct (dfnv_eq_dec (d0 v) DInf) as [E|E]; [left; exact E|right].
      apply lok_cross; [exact Hu|]. apply (em_in A). auto.
    + destruct (em_edges A Hu Hv) as [G1 [G2|G2]]; (split; [apply H12, G1|]);
        [left; exact G2|right; apply lok_app_r, G2].
Qed.

Variable d0 : nat -> dfnv.
Variable B : list nat.
Variable Reg : nat -> Prop.
Variable r : nat.
Variable k0 : nat.

Set Implicit Arguments. Unset Strict Implicit.
Record Inv (L : list nat) (new : wto) (vs : list frame) (ln : list nat) (s : st) : Prop := {
  inv_stk : stk s = L ++ B;
  inv_frames : Frames (dfn s) ln None vs L;
  inv_sorted : LSorted (dfn s) L;
  inv_range : forall x k, In x L -> dfn s x = DN k -> k0 < k <= num s;
  inv_root : dfn s r = DN (S k0) \/ dfn s r = DInf;
  (* the component of the root is emitted last, when the visit stack becomes empty *)
  inv_rootc : dfn s r = DInf -> vs = [] /\ exists c q, new = c :: q /\ chead c = r;
  inv_regr : Reg r;
  inv_closed : forall x y, Reg x -> In y (succs g x) -> Reg y \/ d0 y = DInf;
  inv_wd : forall x, Reg x -> d0 x = DN 0 \/ d0 x = DInf;
  inv_done0 : forall x, d0 x = DInf -> dfn s x = DInf;
  inv_nreg : forall x, dfn s x <> d0 x -> Reg x;
  inv_Lreg : forall x, In x L -> Reg x;
  inv_finL : forall x k, Reg x -> dfn s x = DN k -> 0 < k -> In x L;
  inv_em : Emitted d0 (dfn s) new;
  inv_reach : forall x, dfn s x <> DN 0 -> reachable g e x;
  inv_k0 : k0 <= num s
}.
Unset Implicit Arguments. Set Strict Implicit.




Lemma Inv_frames_change : forall L new vs ln vs' ln' s,
  Inv L new vs ln s -> vs <> [] -> Frames (dfn s) ln' None vs' L -> Inv L new vs' ln' s.
Proof.
  intros L new vs ln vs' ln' s I Hne HF. destruct I. constructor; try assumption.
  intros H. destruct (inv_rootc0 H) as [E _]. contradiction.
Qed.

Lemma succ_reg : forall L new vs ln s x y,
  Inv L new vs ln s -> In x L -> In y (succs g x) -> dfn s y <> DInf -> Reg y.
Proof.
  intros L new vs ln s x y I Hx Hy Hn.
  destruct (inv_closed I (inv_Lreg I Hx) Hy) as [H|H]; [exact H|].
  destruct (Hn (inv_done0 I H)).
Qed.

Lemma finite_succ_in_L : forall L new vs ln s x y k,
  Inv L new vs ln s -> In x L -> In y (succs g x) -> dfn s y = DN k -> 0 < k -> In y L.
Proof.
  intros L new vs ln s x y k I Hx Hy Hk Hpos.
  apply (inv_finL I) with k; [|exact Hk|exact Hpos].
  apply (succ_reg _ _ _ _ _ x y I Hx Hy). rewrite Hk. discriminate.
Qed.

Lemma step_discover : forall L new fr vs' ln s child rest,
  Inv L new (fr :: vs') ln s -> fcur fr = child :: rest -> dfn s child = DN 0 ->
  Inv (child :: L) new
      (new_frame g child (discover child s) :: mkframe (fnode fr) rest (fmin fr) :: vs') ln
      (discover child s).
Proof.
  intros L new fr vs' ln s child rest I Hc Hw.
  destruct (inv_frames I) as [T [L' [EL [HFr [HTr HFs]]]]].
  assert (HnL : In (fnode fr) L) by (rewrite EL; apply in_elt).
  pose proof (scan_child _ _ _ _ _ _ _ _ HFr Hc) as Hchild_succ.
  pose proof (white_not_in _ _ _ (inv_sorted I) Hw) as HnotL.
  pose proof (dfn_discover_same child s) as Hd1c.
  pose proof (dfn_discover_other child s) as Hd1.
  pose proof (discover_done child s Hw) as HdInf.
  assert (HdL : forall x, In x L -> dfn (discover child s) x = dfn s x).
  { intros x Hx. apply Hd1. intros ->. contradiction. }
  assert (HRegc : Reg child).
  { apply (succ_reg _ _ _ _ _ (fnode fr) child I HnL Hchild_succ). rewrite Hw. discriminate. }
  constructor.
  - cbn [discover stk]. rewrite (inv_stk I). reflexivity.
  - apply (Frames_push _ _ child (S (num s))); [exact Hd1c|].
    exists T, L'. cbn [fnode]. split; [exact EL|]. split; [|split].
    + apply FrameOK_advance with (ln := ln) (up := None) (f := fr) (c := child); auto using incl_refl.
      * apply FrameOK_stable with (dfn s) ln; [| |apply incl_refl|exact HFr].
        -- intros x Hx. apply HdL. rewrite EL. exact Hx.
        -- apply HdInf.
      * right. right. reflexivity.
      * intros E. rewrite E in HnotL. contradiction.
    + destruct HTr as [HT1 HT2]. split; [exact HT1|]. intros u Hu. inversion Hu. subst u. exact Hchild_succ.
    + apply Frames_stable with (dfn s) ln; [| |apply incl_refl|exact HFs]; [|apply HdInf].
      intros x Hx. apply HdL. rewrite EL. apply in_or_app. right. right. exact Hx.
  - split.
    + exists (S (num s)). split; [exact Hd1c|]. split; [lia|].
      intros y Hy. destruct (LSorted_fin _ _ _ (inv_sorted I) Hy) as [k [E1 E2]].
      exists k. split; [rewrite HdL; assumption|].
      pose proof (inv_range I Hy E1). lia.
    + apply LSorted_ext with (dfn s); [exact HdL|apply (inv_sorted I)].
  - cbn [discover num]. pose proof (inv_k0 I). intros x k [<-|Hx] Hk.
    + rewrite Hd1c in Hk. inversion Hk. lia.
    + rewrite HdL in Hk by exact Hx. pose proof (inv_range I Hx Hk). lia.
  - assert (Hrc : r <> child).
    { intros E. destruct (inv_root I) as [H'|H']; rewrite E, Hw in H'; discriminate. }
    rewrite Hd1 by assumption. apply (inv_root I).
  - intros H. apply HdInf in H. destruct (inv_rootc I H) as [E _]. discriminate E.
  - apply (inv_regr I).
  - apply (inv_closed I).
  - apply (inv_wd I).
  - intros x Hx. apply HdInf, (inv_done0 I), Hx.
  - intros x Hx. destruct (Nat.eq_dec x child) as [->|Hne]; [exact HRegc|].
    rewrite Hd1 in Hx by exact Hne. apply (inv_nreg I), Hx.
  - intros x [<-|Hx]; [exact HRegc|apply (inv_Lreg I), Hx].
  - intros x k HR Hk Hpos. destruct (Nat.eq_dec x child) as [->|Hne]; [left; reflexivity|].
    right. rewrite Hd1 in Hk by exact Hne. apply (inv_finL I HR Hk Hpos).
  - apply Emitted_ext with (dfn s); [exact HdInf|apply (inv_em I)].
  - intros x Hx. destruct (Nat.eq_dec x child) as [->|Hne].
    + apply reach_step with (fnode fr); [|exact Hchild_succ].
      apply (inv_reach I). intros E. exact (white_not_in _ _ _ (inv_sorted I) E HnL).
    + rewrite Hd1 in Hx by exact Hne. apply (inv_reach I), Hx.
  - cbn [discover num]. pose proof (inv_k0 I). lia.
Qed.





Lemma step_scan_skip : forall L new fr vs' ln s child rest,
  Inv L new (fr :: vs') ln s -> fcur fr = child :: rest -> dfn s child <> DN 0 ->
  dfn_le_nat (dfn s child) (fmin fr) = false ->
  Inv L new (mkframe (fnode fr) rest (fmin fr) :: vs') ln s.
Proof.
  intros L new fr vs' ln s child rest I Hc Hnw Hle.
  destruct (inv_frames I) as [T [L' [EL [HFr [HTr HFs]]]]].
  apply Inv_frames_change with (fr :: vs') ln; [exact I|discriminate|].
  exists T, L'. cbn [fnode]. split; [exact EL|]. split; [|split; [exact HTr|exact HFs]].
  apply FrameOK_advance with (ln := ln) (up := None) (f := fr) (c := child); auto using incl_refl.
  - destruct (dfn s child) as [k|] eqn:Ek; [|left; exact Ek].
    cbn [dfn_le_nat] in Hle. apply Nat.leb_gt in Hle.
    right. left. split; [|exists k; split; [exact Ek|lia]].
    rewrite <- EL. apply (finite_succ_in_L _ _ _ _ _ (fnode fr) child k I); [rewrite EL; apply in_elt| |exact Ek|lia].
    exact (scan_child _ _ _ _ _ _ _ _ HFr Hc).
  - intros E. right. intros k Hk. rewrite Hk in Hle. cbn [dfn_le_nat] in Hle. apply Nat.leb_gt in Hle. exact Hle.
Qed.

Lemma step_scan_lower : forall L new fr vs' ln s child rest k,
  Inv L new (fr :: vs') ln s -> fcur fr = child :: rest -> dfn s child = DN k -> k <> 0 ->
  k <= fmin fr ->
  Inv L new (mkframe (fnode fr) rest k :: vs') (child :: ln) s.
Proof.
  intros L new fr vs' ln s child rest k I Hc Hk Hk0 Hle.
  destruct (inv_frames I) as [T [L' [EL [HFr [HTr HFs]]]]].
  assert (HcL : In child (T ++ fnode fr :: L')).
  { rewrite <- EL. apply (finite_succ_in_L _ _ _ _ _ (fnode fr) child k I); [rewrite EL; apply in_elt| |exact Hk|lia].
    exact (scan_child _ _ _ _ _ _ _ _ HFr Hc). }
  assert (Hl : incl ln (child :: ln)) by (intros x Hx; right; exact Hx).
  apply Inv_frames_change with (fr :: vs') ln; [exact I|discriminate|].
  exists T, L'. cbn [fnode]. split; [exact EL|]. split; [|split; [exact HTr|]].
  - apply FrameOK_advance with (ln := ln) (up := None) (f := fr) (c := child); auto.
    + right. exists child. split; [exact HcL|]. split; [left; reflexivity|exact Hk].
    + right. left. split; [exact HcL|]. exists k. split; [exact Hk|lia].
    + intros _. left. left. reflexivity.
  - apply Frames_stable with (dfn s) ln; auto.
Qed.




Lemma step_pop_stay : forall L new fr vs' ln s k,
  Inv L new (fr :: vs') ln s -> fcur fr = [] -> dfn s (fnode fr) = DN k -> fmin fr <> k ->
  Inv L new (prop_min (fmin fr) vs') ln s.
Proof.
  intros L new fr vs' ln s k I Hc Hk Hne.
  destruct (inv_frames I) as [T [L' [EL [HFr [[HTr1 _] HFs]]]]].
  destruct (top_exhausted _ _ _ _ _ _ HFr Hc) as [kn [H1 [H2 [H3 [H5 [H6 H7]]]]]].
  rewrite Hk in H1. inversion H1. subst kn. clear H1.
  (* the minimum is the number of a node w of loop_nodes *)
  destruct H3 as [H3|[w [W1 [W2 W3]]]]; [contradiction|].
  pose proof (inv_sorted I) as HS. rewrite EL in HS.
  destruct (LSorted_mid _ _ _ _ HS) as [kx [E1 [_ [E3 _]]]]. rewrite Hk in E1. inversion E1. subst kx.
  destruct vs' as [|p vs''].
  - (* the root frame cannot stay: w would lie above it on the vertex stack *)
    exfalso. cbn [Frames] in HFs. subst L'.
    apply in_app_or in W1. destruct W1 as [W1|[W1|[]]].
    + destruct (E3 w W1) as [ka [F1 F2]]. rewrite W3 in F1. inversion F1. lia.
    + subst w. rewrite Hk in W3. inversion W3. lia.
  - destruct HFs as [T' [L'' [EL' [HFp [[HTp1 HTp2] HFs']]]]].
    destruct HFp as [kp [prep [P1 [P2 [P3 [P4 [P5 [P6 P7]]]]]]]].
    rewrite <- EL in H5, H7, W1. rewrite prop_min_cons.
    assert (EQ : L = (T ++ fnode fr :: T') ++ fnode p :: L'') by (rewrite EL, EL'; lsimp).
    assert (Hinc : incl (T' ++ fnode p :: L'') L).
    { rewrite <- EL', EL. intros x Hx. apply in_or_app. right. right. exact Hx. }
    assert (Hlift : forall y, SOK (dfn s) (Some (fnode fr)) (T' ++ fnode p :: L'') (fmin p) y ->
                              SOK (dfn s) None L (Nat.min (fmin fr) (fmin p)) y).
    { intros y Hy. apply SOK_lift with (fnode fr) (T' ++ fnode p :: L'') (fmin p) k; auto; [rewrite EL; apply in_elt|lia..]. }
    assert (Hweak : forall y, SOK (dfn s) None L (fmin fr) y -> SOK (dfn s) None L (Nat.min (fmin fr) (fmin p)) y).
    { intros y. apply SOK_weaken. lia. }
    apply Inv_frames_change with (fr :: p :: vs'') ln; [exact I|discriminate|].
    exists (T ++ fnode fr :: T'), L''. cbn [fnode]. split; [exact EQ|]. split; [|split; [|exact HFs']].
    + exists kp, prep. cbn [fnode fmin fcur]. rewrite <- EQ.
      split; [exact P1|]. split; [lia|]. split.
      { destruct (Nat.min_spec (fmin fr) (fmin p)) as [[_ E]|[_ E]]; rewrite E.
        - right. exists w. auto.
        - destruct P3 as [P3|[w' [V1 [V2 V3]]]]; [left; exact P3|right]. exists w'. auto. }
      split; [exact P4|]. split; [intros y Hy; apply Hlift, P5, Hy|]. split.
      { intros Hin. destruct (P6 Hin) as [H|H]; [left; exact H|right; lia]. }
      intros x Hx. apply in_app_or in Hx. destruct Hx as [Hx|[<-|Hx]].
      * destruct (H7 x Hx) as [S1 [w1 [kw [kx [V1 [V2 [V3 [V4 [V5 V6]]]]]]]]].
        split; [intros y Hy; apply Hweak, S1, Hy|]. exists w1, kw, kx. repeat split; auto; lia.
      * split; [intros y Hy; apply Hweak, H5, Hy|]. exists w, (fmin fr), k. repeat split; auto; lia.
      * destruct (P7 x Hx) as [S1 [w1 [kw [kx [V1 [V2 [V3 [V4 [V5 V6]]]]]]]]].
        split; [intros y Hy; apply Hlift, S1, Hy|]. exists w1, kw, kx. repeat split; auto; lia.
    + split; [|intros u Hu; discriminate].
      assert (Hedge : tpath ((T ++ fnode fr :: T') ++ [fnode p]) (fnode p) (fnode fr)).
      { apply tp_step with (fnode p); [constructor|apply HTp2; reflexivity|].
        apply in_or_app. left. apply in_elt. }
      intros x Hx. apply in_app_or in Hx. destruct Hx as [Hx|[<-|Hx]]; [|exact Hedge|].
      * apply tpath_trans with (fnode fr); [exact Hedge|].
        apply tpath_incl with (T ++ [fnode fr]); [|apply HTr1, Hx].
        intros z Hz. clear - Hz. rewrite !in_app_iff in *. cbn [In] in *. tauto.
      * apply tpath_incl with (T' ++ [fnode p]); [|apply HTp1, Hx].
        intros z Hz. clear - Hz. rewrite !in_app_iff in *. cbn [In] in *. tauto.
Qed.







Lemma root_bottom : forall L new fr vs' ln s k,
  Inv L new (fr :: vs') ln s -> fnode fr = r -> dfn s r = DN k -> vs' = [].
Proof.
  intros L new fr vs' ln s k I Hr Hk.
  assert (Hk0 : k = S k0).
  { destruct (inv_root I) as [H|H]; rewrite H in Hk; inversion Hk. reflexivity. }
  subst k.
  destruct (inv_frames I) as [T [L' [EL [_ [_ HFs]]]]]. rewrite Hr in EL.
  destruct L' as [|y L']; [exact (frames_nil _ _ _ _ HFs)|]. exfalso.
  pose proof (inv_sorted I) as HS. rewrite EL in HS.
  destruct (LSorted_mid _ _ _ _ HS) as [kr [H1 [_ [_ H3]]]].
  rewrite Hk in H1. inversion H1. subst kr.
  destruct (H3 y) as [ky [E1 E2]]; [left; reflexivity|].
  assert (Hy : In y L) by (rewrite EL; apply in_or_app; right; right; left; reflexivity).
  pose proof (inv_range I Hy E1). lia.
Qed.

(* the top frame is exhausted and its minimum is its own number k: its node is the root of a
   strongly connected component whose other nodes T lie above it on the vertex stack *)
Set Implicit Arguments. Unset Strict Implicit.
Record SccTop (L : list nat) (fr : frame) (vs' : list frame) (ln : list nat) (s : st) (k : nat)
       (T L' : list nat) : Prop := {
  sc_L : L = T ++ fnode fr :: L';
  sc_frames : Frames (dfn s) ln (Some (fnode fr)) vs' L';
  sc_above : forall a, In a T -> exists ka, dfn s a = DN ka /\ k < ka;
  sc_below : forall c, In c L' -> exists kc, dfn s c = DN kc /\ kc < k;
  sc_closed : forall x y, In x (fnode fr :: T) -> In y (succs g x) ->
                          dfn s y = DInf \/ In y (fnode fr :: T);
  sc_tree : forall x, In x T -> tpath (T ++ [fnode fr]) (fnode fr) x;
  sc_single : ~ In (fnode fr) ln -> T = [] /\ ~ In (fnode fr) (succs g (fnode fr))
}.
Unset Implicit Arguments. Set Strict Implicit.

Lemma top_scc : forall L new fr vs' ln s k,
  Inv L new (fr :: vs') ln s -> fcur fr = [] -> dfn s (fnode fr) = DN k -> fmin fr = k ->
  exists T L', SccTop L fr vs' ln s k T L'.
Proof.
  intros L new fr vs' ln s k I Hc Hk Hm.
  destruct (inv_frames I) as [T [L' [EL [HFr [[HTr _] HFs]]]]].
  pose proof (inv_sorted I) as HS. rewrite EL in HS.
  destruct (top_exhausted _ _ _ _ _ _ HFr Hc) as [kn [H1 [_ [_ [H5 [H6 H7]]]]]].
  rewrite Hk in H1. inversion H1. subst kn. clear H1. rewrite Hm in *.
  destruct (LSorted_mid _ _ _ _ HS) as [kx [E1 [_ [E3 E4]]]].
  rewrite Hk in E1. inversion E1. subst kx. clear E1.
  assert (Hcl : forall y, SOK (dfn s) None (T ++ fnode fr :: L') k y ->
                          dfn s y = DInf \/ In y (fnode fr :: T)).
  { intros y [H|[[Y1 [ky [Y2 Y3]]]|H]]; [left; exact H| |discriminate].
    right. apply in_app_or in Y1. destruct Y1 as [Y1|[<-|Y1]]; [right; exact Y1|left; reflexivity|].
    exfalso. destruct (E4 y Y1) as [kc [F1 F2]]. rewrite Y2 in F1. inversion F1. lia. }
  exists T, L'. constructor; auto.
  - intros x y [<-|Hx] Hy; apply Hcl; [apply H5, Hy|apply (H7 x Hx), Hy].
  - intros Hln. assert (T = []) as -> by (apply head_not_loop with (dfn s) ln None fr L' k; auto).
    split; [reflexivity|]. intros Hin. destruct (H6 Hin) as [H|H]; [contradiction|lia].
Qed.

(* popping that component: in s3 its nodes are done and nothing else has changed; they are
   the nodes of the new component c, inside which the edges respect the ordering *)
Lemma step_pop : forall L new fr vs' ln s k T L' s3 c,
  Inv L new (fr :: vs') ln s -> dfn s (fnode fr) = DN k -> SccTop L fr vs' ln s k T L' ->
  stk s3 = L' ++ B -> num s <= num s3 ->
  (forall x, In x (fnode fr :: T) -> dfn s3 x = DInf) ->
  (forall x, ~ In x (fnode fr :: T) -> dfn s3 x = dfn s x) ->
  (forall x, In x (cnodes c) <-> In x (fnode fr :: T)) -> NoDup (cnodes c) ->
  (forall u y, In u (cnodes c) -> In y (succs g u) -> In y (cnodes c) -> lok [c] u y) ->
  chead c = fnode fr ->
  Inv L' ([c] ++ new) (prop_min k vs') ln s3 /\
  (forall y, In y L -> In y L' \/ dfn s3 y = DInf) /\
  (forall y, dfn s y = DInf -> dfn s3 y = DInf).
Proof.
  intros L new fr vs' ln s k T L' s3 c I Hk [EL HFs E3 E4 Hcl _ _] Hstk Hnum Hdone Hsame Hc1 Hc2 Hc3 Hch.
  set (v := fnode fr) in *.
  pose proof (inv_sorted I) as HS. rewrite EL in HS.
  assert (HinL : forall x, In x (v :: T) \/ In x L' <-> In x L).
  { intros x. rewrite EL, in_app_iff. cbn [In]. split; [intros [[H|H]|H]|intros [H|[H|H]]]; auto. }
  assert (Hfin : forall x, In x (v :: T) -> exists kx, dfn s x = DN kx /\ 0 < kx).
  { intros x Hx. apply (LSorted_fin _ _ _ HS). rewrite <- EL. apply HinL. left. exact Hx. }
  assert (HdL' : forall x, In x L' -> dfn s3 x = dfn s x).
  { intros x Hx. apply Hsame. intros Hin. destruct (E4 x Hx) as [kc [F1 F2]].
    destruct Hin as [<-|Hin]; [rewrite Hk in F1; inversion F1; lia|].
    destruct (E3 x Hin) as [ka [G1 G2]]. rewrite F1 in G1. inversion G1. lia. }
  assert (HdInf : forall x, dfn s x = DInf -> dfn s3 x = DInf).
  { intros x Hx. destruct (in_dec Nat.eq_dec x (v :: T)) as [Hin|Hin];
      [apply Hdone, Hin|rewrite Hsame; assumption]. }
  split; [|split; [|exact HdInf]].
  2:{ intros y Hy. apply HinL in Hy. destruct Hy as [Hy|Hy]; [right; apply Hdone, Hy|left; exact Hy]. }
  rewrite (prop_min_id (dfn s) ln v vs' L' k HFs E4).
  constructor.
  - exact Hstk.
  - apply Frames_below_done with v; [|apply Hdone; left; reflexivity].
    apply Frames_stable with (dfn s) ln; auto. apply incl_refl.
  - apply LSorted_ext with (dfn s); [exact HdL'|].
    destruct (LSorted_app _ _ _ HS) as [_ [[_ HS2] _]]. exact HS2.
  - intros y ky Hy Hky. rewrite HdL' in Hky by exact Hy.
    pose proof (inv_range I (proj1 (HinL y) (or_intror Hy)) Hky). lia.
  - destruct (in_dec Nat.eq_dec r (v :: T)) as [Hin|Hin]; [right; apply Hdone, Hin|].
    rewrite Hsame by exact Hin. apply (inv_root I).
  - intros H. destruct (in_dec Nat.eq_dec r (v :: T)) as [[Hrv|Hin]|Hin].
    + split; [apply (root_bottom L new fr vs' ln s k I Hrv); rewrite <- Hrv; exact Hk|].
      exists c, new. split; [reflexivity|]. rewrite Hch. exact Hrv.
    + exfalso. destruct (E3 r Hin) as [ka [F1 F2]].
      pose proof (inv_range I (proj1 (HinL v) (or_introl (or_introl eq_refl))) Hk).
      destruct (inv_root I) as [Hr|Hr]; rewrite Hr in F1; inversion F1. lia.
    + rewrite Hsame in H by exact Hin. destruct (inv_rootc I H) as [E _]. discriminate E.
  - apply (inv_regr I).
  - apply (inv_closed I).
  - apply (inv_wd I).
  - intros y Hy. apply HdInf, (inv_done0 I), Hy.
  - intros y Hy. destruct (in_dec Nat.eq_dec y (v :: T)) as [Hin|Hin].
    + apply (inv_Lreg I), HinL. left. exact Hin.
    + rewrite Hsame in Hy by exact Hin. apply (inv_nreg I), Hy.
  - intros y Hy. apply (inv_Lreg I), HinL. right. exact Hy.
  - intros y ky HR Hky Hpos. destruct (in_dec Nat.eq_dec y (v :: T)) as [Hin|Hin].
    + rewrite (Hdone y Hin) in Hky. discriminate.
    + rewrite Hsame in Hky by exact Hin.
      pose proof (inv_finL I HR Hky Hpos) as Hin'. apply HinL in Hin'.
      destruct Hin' as [H|H]; [contradiction|exact H].
  - apply Emitted_app with (dfn s); [exact (inv_em I)| |apply (inv_done0 I)|exact HdInf].
    constructor; rewrite flat_single; [|exact Hc2|].
    + intros y. rewrite Hc1. split.
      * intros Hin. split; [apply Hdone, Hin|]. destruct (Hfin y Hin) as [ky [F _]]. rewrite F. discriminate.
      * intros [A1 A2]. destruct (in_dec Nat.eq_dec y (v :: T)) as [Hin|Hin]; [exact Hin|].
        rewrite Hsame in A1 by exact Hin. contradiction.
    + intros u y Hu Hy. destruct (Hcl u y (proj1 (Hc1 u) Hu) Hy) as [Hyd|Hyc].
      * split; [apply HdInf, Hyd|left; exact Hyd].
      * split; [apply Hdone, Hyc|right; apply Hc3; auto; apply Hc1, Hyc].
  - intros y Hy. destruct (in_dec Nat.eq_dec y (v :: T)) as [Hin|Hin].
    + apply (inv_reach I). destruct (Hfin y Hin) as [kx [F1 F2]]. rewrite F1.
      intros E. inversion E. lia.
    + rewrite Hsame in Hy by exact Hin. apply (inv_reach I), Hy.
  - pose proof (inv_k0 I). lia.
Qed.

Lemma step_pop_vertex : forall L new fr vs' ln s k x stk2,
  Inv L new (fr :: vs') ln s -> fcur fr = [] -> dfn s (fnode fr) = DN k -> fmin fr = k ->
  mem (fnode fr) ln = false -> stk s = x :: stk2 ->
  exists L', Inv L' ([Vertex (fnode fr)] ++ new) (prop_min (fmin fr) vs') ln
                 (mkst (upd (dfn s) (fnode fr) DInf) (num s) stk2) /\
             (forall y, In y L -> In y L' \/ upd (dfn s) (fnode fr) DInf y = DInf) /\
             (forall y, dfn s y = DInf -> upd (dfn s) (fnode fr) DInf y = DInf).
Proof.
  intros L new fr vs' ln s k x stk2 I Hc Hk Hm Hmem Hstk.
  destruct (top_scc L new fr vs' ln s k I Hc Hk Hm) as [T [L' SC]].
  destruct (sc_single SC (proj1 (mem_false _ _) Hmem)) as [-> Hself].
  exists L'. rewrite Hm.
  apply (step_pop L new fr vs' ln s k [] L' (mkst (upd (dfn s) (fnode fr) DInf) (num s) stk2)
                  (Vertex (fnode fr)) I Hk SC); cbn [dfn num stk cnodes].
  - rewrite (inv_stk I), (sc_L SC) in Hstk. inversion Hstk. reflexivity.
  - apply le_n.
  - intros y [<-|[]]. apply upd_same.
  - intros y Hy. apply upd_other. intros ->. apply Hy. left. reflexivity.
  - reflexivity.
  - constructor; [intros []|constructor].
  - intros u y [<-|[]] Hy [<-|[]]. contradiction.
  - reflexivity.
Qed.
End Call.


(* a call wto::visit(g, x, p) in state s *)
Definition visit_call (f : nat) (g : graph) : nat -> st -> wto -> option (st * wto) :=
  fun x s p => let s1 := discover x s in loop f g [new_frame g x s1] [] s1 p.

Lemma Inv_init : forall g e (Reg : nat -> Prop) s x,
  Reg x ->
  (forall a b, Reg a -> In b (succs g a) -> Reg b \/ dfn s b = DInf) ->
  (forall a, Reg a -> dfn s a = DN 0 \/ dfn s a = DInf) ->
  dfn s x = DN 0 ->
  (forall y, dfn s y <> DN 0 -> reachable g e y) -> reachable g e x ->
  Inv g e (dfn s) (stk s) Reg x (num s) [x] [] [new_frame g x (discover x s)] [] (discover x s).
Proof.
  intros g e Reg s x HR Hcl Hwd Hw Hre Hrx.
  pose proof (dfn_discover_other x s) as Hd1.
  pose proof (dfn_discover_same x s) as Hd1x.
  pose proof (discover_done x s Hw) as HdInf.
  constructor.
  - reflexivity.
  - apply (Frames_push g _ _ x (S (num s)) [] []); [exact Hd1x|reflexivity].
  - split; [|exact I]. exists (S (num s)). split; [exact Hd1x|]. split; [lia|intros y []].
  - intros y k [<-|[]] Hk. rewrite Hd1x in Hk. inversion Hk. cbn [discover num]. lia.
  - left. exact Hd1x.
  - intros H. rewrite Hd1x in H. discriminate.
  - exact HR.
  - exact Hcl.
  - exact Hwd.
  - apply HdInf.
  - intros y Hy. destruct (Nat.eq_dec y x) as [->|Hne]; [exact HR|]. rewrite Hd1 in Hy by exact Hne. congruence.
  - intros y [<-|[]]. exact HR.
  - intros y k HRy Hk Hpos. destruct (Nat.eq_dec y x) as [->|Hne]; [left; reflexivity|].
    rewrite Hd1 in Hk by exact Hne. destruct (Hwd y HRy) as [H|H]; rewrite H in Hk; inversion Hk; lia.
  - apply Emitted_ext with (dfn s); [exact HdInf|apply Emitted_nil].
  - intros y Hy. destruct (Nat.eq_dec y x) as [->|Hne]; [exact Hrx|].
    rewrite Hd1 in Hy by exact Hne. apply Hre, Hy.
  - cbn [discover num]. lia.
Qed.

Definition LoopSpec (g : graph) (e : nat) (f : nat) : Prop :=
  forall d0 B P0 Reg r k0 L new vs ln s s' p',
    Inv g e d0 B Reg r k0 L new vs ln s ->
    loop f g vs ln s (new ++ P0) = Some (s', p') ->
    exists new' ln', Inv g e d0 B Reg r k0 [] new' [] ln' s' /\ p' = new' ++ P0.

(* invariant of the loop of wto::component over the successors of the head: dc, stkc, numc
   = state when component starts (head done, popped elements T reset to 0) *)
Set Implicit Arguments. Unset Strict Implicit.
Record CInv (g : graph) (e : nat) (dc : nat -> dfnv) (stkc : list nat) (numc : nat)
       (T : list nat) (s : st) (p : wto) : Prop := {
  c_stk : stk s = stkc;
  c_done : forall x, dc x = DInf -> dfn s x = DInf;
  c_out : forall x, dfn s x <> dc x -> In x T;
  c_T : forall x, In x T -> dc x = DN 0 /\ (dfn s x = DN 0 \/ dfn s x = DInf);
  c_closed : forall x y, In x T -> In y (succs g x) -> In y T \/ dc y = DInf;
  c_em : Emitted g dc (dfn s) p;
  c_reach : forall x, dfn s x <> DN 0 -> reachable g e x;
  c_num : numc <= num s
}.
Unset Implicit Arguments. Set Strict Implicit.

(* the precondition of a call of visit made by component *)
Lemma comp_pre : forall g e dc stkc numc T s p x,
  CInv g e dc stkc numc T s p -> In x T -> dfn s x = DN 0 -> reachable g e x ->
  Inv g e (dfn s) (stk s) (fun z => In z T) x (num s) [x] []
      [new_frame g x (discover x s)] [] (discover x s).
Proof.
  intros g e dc stkc numc T s p x C HxT Ez Hrx. apply Inv_init; auto.
  - intros a b Ha Hb. destruct (c_closed C Ha Hb) as [H|H]; [left; exact H|].
    right. apply (c_done C), H.
  - intros a Ha. apply (c_T C Ha).
  - apply (c_reach C).
Qed.

(* ... and its effect *)
Lemma comp_visit : forall g e f dc stkc numc T s p x s2 p2, LoopSpec g e f ->
  CInv g e dc stkc numc T s p -> In x T -> dfn s x = DN 0 -> reachable g e x ->
  visit_call f g x s p = Some (s2, p2) ->
  CInv g e dc stkc numc T s2 p2 /\ dfn s2 x = DInf /\
  (forall y, dfn s y = DInf -> dfn s2 y = DInf).
Proof.
  intros g e f dc stkc numc T s p x s2 p2 HLS C HxT Ez Hrx Ev.
  destruct (HLS _ _ p _ _ _ _ [] _ _ _ _ _ (comp_pre _ _ _ _ _ _ _ _ _ C HxT Ez Hrx) Ev) as [new' [ln' [I1 ->]]].
  assert (Hx2 : dfn s2 x = DInf).
  { destruct (inv_root I1) as [H|H]; [|exact H]. exfalso.
    pose proof (inv_finL I1 HxT H) as H0. cbn in H0. apply H0. lia. }
  assert (Hmono : forall y, dfn s y = DInf -> dfn s2 y = DInf) by (apply (inv_done0 I1)).
  split; [|split; [exact Hx2|exact Hmono]].
  constructor.
  - rewrite (inv_stk I1). cbn [app]. apply (c_stk C).
  - intros y Hy. apply Hmono, (c_done C), Hy.
  - intros y Hy. destruct (dfnv_eq_dec (dfn s2 y) (dfn s y)) as [E|E].
    + apply (c_out C). congruence.
    + apply (inv_nreg I1 E).
  - intros y Hy. destruct (c_T C Hy) as [H1 H2]. split; [exact H1|].
    destruct (dfn s2 y) as [[|k]|] eqn:E; [left; reflexivity| |right; reflexivity].
    exfalso. pose proof (inv_finL I1 Hy E) as H. cbn in H. apply H. lia.
  - apply (c_closed C).
  - exact (Emitted_app g _ _ _ _ _ (c_em C) (inv_em I1) (c_done C) Hmono).
  - apply (inv_reach I1).
  - pose proof (inv_k0 I1). pose proof (c_num C). lia.
Qed.

Lemma comp_white_in_T : forall g e dc stkc numc T s p x,
  CInv g e dc stkc numc T s p -> (In x T \/ dc x = DInf) -> dfn s x = DN 0 -> In x T.
Proof.
  intros g e dc stkc numc T s p x C [H|H] Ez; [exact H|].
  apply (c_done C) in H. rewrite Ez in H. discriminate.
Qed.

Lemma comp_spec : forall g e f dc stkc numc T, LoopSpec g e f ->
  forall l s p s3 body,
    CInv g e dc stkc numc T s p ->
    (forall y, In y l -> reachable g e y /\ (In y T \/ dc y = DInf)) ->
    comp_succs (visit_call f g) l s p = Some (s3, body) ->
    CInv g e dc stkc numc T s3 body /\
    (forall y, In y l -> dfn s3 y = DInf) /\
    (forall y, dfn s y = DInf -> dfn s3 y = DInf).
Proof.
  intros g e f dc stkc numc T HLS.
  induction l as [|x l IH]; intros s p s3 body C Hl Hrun; cbn [comp_succs] in Hrun.
  - inversion Hrun; subst. split; [exact C|]. split; [intros y []|auto].
  - destruct (Hl x (or_introl eq_refl)) as [Hrx HxT].
    assert (Hl' : forall y, In y l -> reachable g e y /\ (In y T \/ dc y = DInf)).
    { intros y Hy. apply Hl. right. exact Hy. }
    destruct (is_zero (dfn s x)) eqn:Ez.
    + apply is_zero_true in Ez.
      destruct (visit_call f g x s p) as [[s2 p2]|] eqn:Ev; [|discriminate].
      apply (comp_white_in_T _ _ _ _ _ _ _ _ _ C) in HxT; [|exact Ez].
      destruct (comp_visit _ _ _ _ _ _ _ _ _ _ _ _ HLS C HxT Ez Hrx Ev) as [C2 [Hx2 Hmono]].
      destruct (IH s2 _ s3 body C2 Hl' Hrun) as [C3 [HA HB]].
      split; [exact C3|]. split.
      * intros y [<-|Hy]; [apply HB, Hx2|apply HA, Hy].
      * intros y Hy. apply HB, Hmono, Hy.
    + apply is_zero_false in Ez.
      destruct (IH s p s3 body C Hl' Hrun) as [C3 [HA HB]].
      split; [exact C3|]. split; [|exact HB].
      intros y [<-|Hy]; [|apply HA, Hy]. apply HB.
      destruct HxT as [H|H]; [|apply (c_done C), H].
      destruct (c_T C H) as [_ [H1|H1]]; [contradiction|exact H1].
Qed.

(* the state in which wto::component starts on the head of a cycle: the head is done and the
   nodes T popped from the vertex stack are unvisited again *)
Lemma cycle_setup : forall g e d0 B Reg r k0 L new fr vs' ln s k,
  Inv g e d0 B Reg r k0 L new (fr :: vs') ln s -> fcur fr = [] ->
  dfn s (fnode fr) = DN k -> fmin fr = k ->
  exists T L' d2, SccTop g L fr vs' ln s k T L' /\ NoDup (T ++ [fnode fr]) /\
    pop_until (fnode fr) (upd (dfn s) (fnode fr) DInf) (stk s) = Some (d2, L' ++ B) /\
    (forall z, In z T -> d2 z = DN 0) /\ d2 (fnode fr) = DInf /\
    (forall z, ~ In z (fnode fr :: T) -> d2 z = dfn s z) /\
    CInv g e d2 (L' ++ B) (num s) T (mkst d2 (num s) (L' ++ B)) [] /\
    (forall y, In y (succs g (fnode fr)) -> reachable g e y /\ (In y T \/ d2 y = DInf)).
Proof.
  intros g e d0 B Reg r k0 L new fr vs' ln s k I Hc Hk Hm.
  destruct (top_scc g e d0 B Reg r k0 L new fr vs' ln s k I Hc Hk Hm) as [T [L' SC]].
  pose proof SC as [EL _ E3 _ Hcl _ _].
  set (v := fnode fr) in *.
  pose proof (inv_sorted I) as HS. rewrite EL in HS.
  assert (HvT : ~ In v T).
  { intros Hin. destruct (E3 v Hin) as [ka [F1 F2]]. rewrite Hk in F1. inversion F1. lia. }
  exists T, L', (reset_all (upd (dfn s) v DInf) T). set (d2 := reset_all _ T).
  assert (Hd2T : forall z, In z T -> d2 z = DN 0) by (intros z Hz; apply reset_all_in, Hz).
  assert (Hd2v : d2 v = DInf).
  { unfold d2. rewrite reset_all_out by exact HvT. apply upd_same. }
  assert (Hd2o : forall z, ~ In z (v :: T) -> d2 z = dfn s z).
  { intros z Hz. unfold d2. rewrite reset_all_out by (intros H; apply Hz; right; exact H).
    apply upd_other. intros ->. apply Hz. left. reflexivity. }
  assert (Hvreach : reachable g e v).
  { apply (inv_reach I). intros E. apply (white_not_in _ _ _ HS E), in_elt. }
  assert (Hsucc : forall x y, In x (v :: T) -> In y (succs g x) -> In y T \/ d2 y = DInf).
  { intros x y Hx Hy. destruct (Hcl x y Hx Hy) as [H|[<-|H]]; [right|right; exact Hd2v|left; exact H].
    destruct (in_dec Nat.eq_dec y (v :: T)) as [[<-|Hin]|Hin]; [exact Hd2v| |rewrite Hd2o; assumption].
    destruct (E3 y Hin) as [ka [F1 _]]. rewrite F1 in H. discriminate. }
  split; [exact SC|]. split.
  { apply nodup_app_intro; [|constructor; [intros []|constructor]|].
    - destruct (LSorted_app _ _ _ HS) as [HA _]. apply LSorted_NoDup with (dfn s), HA.
    - intros z Hz [<-|[]]. contradiction. }
  split.
  { rewrite (inv_stk I), EL, <- app_assoc. cbn [app]. apply pop_until_app, HvT. }
  split; [exact Hd2T|]. split; [exact Hd2v|]. split; [exact Hd2o|]. split.
  { constructor; cbn [dfn num stk].
    - reflexivity.
    - auto.
    - intros z Hz. contradiction.
    - intros z Hz. split; [apply Hd2T, Hz|left; apply Hd2T, Hz].
    - intros x y Hx Hy. apply Hsucc with x; [right; exact Hx|exact Hy].
    - apply Emitted_nil.
    - intros z Hz. destruct (in_dec Nat.eq_dec z (v :: T)) as [[<-|Hin]|Hin]; [exact Hvreach| |].
      + rewrite Hd2T in Hz by exact Hin. contradiction.
      + rewrite Hd2o in Hz by exact Hin. apply (inv_reach I), Hz.
    - lia. }
  intros y Hy. split; [apply reach_step with v; assumption|].
  apply Hsucc with v; [left; reflexivity|exact Hy].
Qed.

Lemma step_pop_cycle : forall g e d0 B Reg r k0 f L new fr vs' ln s k d2 stk2 s3 body,
  LoopSpec g e f ->
  Inv g e d0 B Reg r k0 L new (fr :: vs') ln s -> fcur fr = [] ->
  dfn s (fnode fr) = DN k -> fmin fr = k ->
  pop_until (fnode fr) (upd (dfn s) (fnode fr) DInf) (stk s) = Some (d2, stk2) ->
  comp_succs (visit_call f g) (succs g (fnode fr)) (mkst d2 (num s) stk2) [] = Some (s3, body) ->
  exists L', Inv g e d0 B Reg r k0 L' ([Cycle (fnode fr) body] ++ new) (prop_min (fmin fr) vs') ln s3 /\
             (forall y, In y L -> In y L' \/ dfn s3 y = DInf) /\
             (forall y, dfn s y = DInf -> dfn s3 y = DInf) /\ num s <= num s3.
Proof.
  intros g e d0 B Reg r k0 f L new fr vs' ln s k d2 stk2 s3 body HLS I Hc Hk Hm Hpop Hcomp.
  destruct (cycle_setup g e d0 B Reg r k0 L new fr vs' ln s k I Hc Hk Hm)
    as [T [L' [d2' [SC [_ [Hpop' [Hd2T [Hd2v [Hd2o [C0 Hl]]]]]]]]]].
  rewrite Hpop' in Hpop. inversion Hpop. subst d2' stk2. clear Hpop Hpop'.
  set (v := fnode fr) in *.
  destruct (comp_spec g e f d2 (L' ++ B) (num s) T HLS _ _ _ _ _ C0 Hl Hcomp) as [C3 [Hsv _]].
  assert (Hd3v : dfn s3 v = DInf) by (apply (c_done C3), Hd2v).
  (* the nodes of T were reached from v through T: they are all done *)
  assert (HTdone : forall a x, tpath g (T ++ [v]) a x -> a = v -> x = v \/ (In x T /\ dfn s3 x = DInf)).
  { intros a x Hp. induction Hp as [x|x y z Hp IHp Hz HzS]; intros Ea; [left; exact Ea|].
    apply in_app_or in HzS. destruct HzS as [HzT|[<-|[]]]; [right|left; reflexivity].
    split; [exact HzT|]. destruct (IHp Ea) as [->|[HyT Hyd]]; [apply Hsv, Hz|].
    assert (Hyb : In y (flat body)).
    { apply (em_in (c_em C3)). split; [exact Hyd|]. rewrite Hd2T by exact HyT. discriminate. }
    apply (em_edges (c_em C3) Hyb Hz). }
  assert (Hdone : forall x, In x (v :: T) -> dfn s3 x = DInf).
  { intros x [<-|Hx]; [exact Hd3v|].
    destruct (HTdone v x (sc_tree SC Hx) eq_refl) as [->|[_ H]]; [exact Hd3v|exact H]. }
  assert (Hsame : forall x, ~ In x (v :: T) -> dfn s3 x = dfn s x).
  { intros x Hx. rewrite <- Hd2o by exact Hx.
    destruct (dfnv_eq_dec (dfn s3 x) (d2 x)) as [E|E]; [exact E|].
    exfalso. apply Hx. right. apply (c_out C3), E. }
  exists L'. rewrite Hm.
  destruct (step_pop g e d0 B Reg r k0 L new fr vs' ln s k T L' s3 (Cycle v body) I Hk SC)
    as [I3 [HL3 Hmono]]; auto.
  - apply (c_stk C3).
  - apply (c_num C3).
  - intros x. rewrite cnodes_cycle. cbn [In]. rewrite (em_in (c_em C3) x). split.
    + intros [<-|[A1 A2]]; [left; reflexivity|].
      destruct (in_dec Nat.eq_dec x (v :: T)) as [Hin|Hin]; [exact Hin|].
      exfalso. apply A2. rewrite Hd2o, <- Hsame; assumption.
    + intros [<-|Hx]; [left; reflexivity|right].
      split; [apply Hdone; right; exact Hx|rewrite Hd2T by exact Hx; discriminate].
  - rewrite cnodes_cycle. constructor; [|apply (em_nodup (c_em C3))].
    intros Hin. apply (em_in (c_em C3)) in Hin. destruct Hin as [_ Hin]. exact (Hin Hd2v).
  - intros u y Hu Hy Hyc. rewrite cnodes_cycle in Hu, Hyc.
    destruct Hyc as [<-|Hyc]; [apply lok_cycle_head, Hu|].
    destruct Hu as [<-|Hu]; [apply lok_head_body, Hyc|].
    destruct (em_edges (c_em C3) Hu Hy) as [_ [G|G]]; [|apply lok_cycle_body, G].
    apply (em_in (c_em C3)) in Hyc. destruct Hyc as [_ Hyc]. contradiction.
  - split; [exact I3|]. split; [exact HL3|]. split; [exact Hmono|apply (c_num C3)].
Qed.

Theorem loop_spec : forall g e f, LoopSpec g e f.
Proof.
  intros g e. induction f as [|f IH]; intros d0 B P0 Reg r k0 L new vs ln s s' p' I Hrun; [discriminate|].
  cbn [loop] in Hrun. destruct vs as [|fr vs'].
  - inversion Hrun; subst. pose proof (inv_frames I) as HF. cbn [Frames] in HF. subst L.
    exists new, ln. split; [exact I|reflexivity].
  - destruct (fcur fr) as [|child rest] eqn:Hc.
    + destruct (inv_frames I) as [T [L' [EL [HFr _]]]].
      destruct (FrameOK_node_in _ _ _ _ _ _ _ HFr) as [kn [pre [Hdn _]]].
      rewrite Hdn in Hrun. cbn [nat_eq_dfn] in Hrun.
      destruct (fmin fr =? kn) eqn:Eq.
      * apply Nat.eqb_eq in Eq. destruct (mem (fnode fr) ln) eqn:Em.
        -- destruct (pop_until (fnode fr) (upd (dfn s) (fnode fr) DInf) (stk s)) as [[d2 stk2]|] eqn:Ep; [|discriminate].
           match type of Hrun with
           | match ?c with _ => _ end = _ => destruct c as [[s3 body]|] eqn:Ecomp; [|discriminate]
           end.
           destruct (step_pop_cycle g e d0 B Reg r k0 f L new fr vs' ln s kn d2 stk2 s3 body IH I Hc Hdn Eq Ep Ecomp)
             as [L2 [I2 _]].
           exact (IH _ _ P0 _ _ _ _ _ _ _ _ _ _ I2 Hrun).
        -- destruct (stk s) as [|x stk2] eqn:Es; [discriminate|].
           destruct (step_pop_vertex g e d0 B Reg r k0 L new fr vs' ln s kn x stk2 I Hc Hdn Eq Em Es)
             as [L2 [I2 _]].
           exact (IH _ _ P0 _ _ _ _ _ _ _ _ _ _ I2 Hrun).
      * apply Nat.eqb_neq in Eq. eapply IH; [|exact Hrun]. eapply step_pop_stay; eassumption.
    + destruct (is_zero (dfn s child)) eqn:Ez.
      * apply is_zero_true in Ez. eapply IH; [|exact Hrun]. eapply step_discover; eassumption.
      * apply is_zero_false in Ez. destruct (dfn_le_nat (dfn s child) (fmin fr)) eqn:El.
        -- destruct (dfn s child) as [k|] eqn:Ek; [|discriminate].
           cbn [dfn_le_nat] in El. apply Nat.leb_le in El.
           assert (Hk0 : k <> 0) by (intros ->; apply Ez; reflexivity).
           eapply IH; [|exact Hrun]. eapply step_scan_lower; eassumption.
        -- eapply IH; [|exact Hrun]. eapply step_scan_skip; eassumption.
Qed.

(* the checker's reachability computation finds every reachable node: a round that adds
   nothing has reached a fixed point, and there are as many rounds as nodes to find *)
Lemma add_len : forall x r, length r <= length (add x r).
Proof. intros x r. unfold add. destruct (mem x r); [lia|rewrite app_length; cbn; lia]. Qed.
Lemma add_all_len : forall xs r, length r <= length (add_all xs r).
Proof.
  unfold add_all. induction xs as [|x xs IH]; intros r; cbn [fold_left]; [lia|].
  pose proof (IH (add x r)). pose proof (add_len x r). lia.
Qed.
Lemma add_all_same : forall xs r, length (add_all xs r) = length r -> add_all xs r = r.
Proof.
  unfold add_all. induction xs as [|x xs IH]; intros r H; cbn [fold_left] in *; [reflexivity|].
  pose proof (add_all_len xs (add x r)) as H1. unfold add_all in H1. pose proof (add_len x r) as H2.
  assert (E : add x r = r).
  { unfold add in *. destruct (mem x r) eqn:Em; [reflexivity|]. rewrite app_length in *. cbn in *. lia. }
  rewrite E in *. exact (IH r H).
Qed.
Lemma add_nodup : forall x r, NoDup r -> NoDup (add x r).
Proof.
  intros x r H. unfold add. destruct (mem x r) eqn:Em; [exact H|]. apply mem_false in Em.
  apply nodup_app_intro; [exact H|constructor; [intros []|constructor]|].
  intros y Hy [<-|[]]. contradiction.
Qed.
Lemma add_all_nodup : forall xs r, NoDup r -> NoDup (add_all xs r).
Proof.
  unfold add_all. induction xs as [|x xs IH]; intros r H; cbn [fold_left]; [exact H|].
  apply IH, add_nodup, H.
Qed.
Lemma reach_n_incl : forall g n r, incl r (reach_n g n r).
Proof.
  induction n as [|n IH]; intros r x Hx; cbn [reach_n]; [exact Hx|].
  apply IH. apply step_in. left. exact Hx.
Qed.
Lemma reach_n_closed : forall g e fl, (forall x, reachable g e x -> In x fl) ->
  forall n r, NoDup r -> (forall x, In x r -> reachable g e x) -> length fl <= length r + n ->
  forall u v, In u (reach_n g n r) -> In v (succs g u) -> In v (reach_n g n r).
Proof.
  intros g e fl Hfl. induction n as [|n IH]; intros r Hnd Hr Hlen u v Hu Hv; cbn [reach_n] in *.
  - assert (Hinc : incl fl r).
    { apply NoDup_length_incl; [exact Hnd|lia|]. intros x Hx. apply Hfl, Hr, Hx. }
    apply Hinc, Hfl. apply reach_step with u; [apply Hr, Hu|exact Hv].
  - assert (Hr' : forall x, In x (step g r) -> reachable g e x).
    { intros x Hx. apply step_in in Hx. destruct Hx as [Hx|[a [Ha Hx]]]; [apply Hr, Hx|].
      apply reach_step with a; [apply Hr, Ha|exact Hx]. }
    pose proof (add_all_len (flat_map (succs g) r) r) as Hl. fold (step g r) in Hl.
    destruct (Nat.eq_dec (length (step g r)) (length r)) as [E|E].
    + pose proof (add_all_same _ _ E) as A1. fold (step g r) in A1.
      assert (Hfix : forall m, reach_n g m r = r).
      { induction m as [|m IHm]; [reflexivity|]. cbn [reach_n]. rewrite A1. exact IHm. }
      rewrite A1, Hfix in *. rewrite <- A1. apply step_in. right. exists u. auto.
    + apply (IH (step g r)) with u; auto; [apply add_all_nodup, Hnd|lia].
Qed.
Lemma reach_n_complete : forall g e fl, NoDup fl -> (forall x, reachable g e x -> In x fl) ->
  forall x, reachable g e x -> In x (reach_n g (length fl) [e]).
Proof.
  intros g e fl Hnd Hfl. apply closed_reach.
  - apply reach_n_incl. left. reflexivity.
  - apply (reach_n_closed g e fl Hfl); [constructor; [intros []|constructor]| |cbn; lia].
    intros x [<-|[]]. constructor.
Qed.

Lemma nlookup_app : forall t k v n,
  nlookup (t ++ [(k, v)]) n =
  match nlookup t n with Some x => Some x | None => if k =? n then Some v else None end.
Proof.
  induction t as [|[k' v'] t IH]; intros k v n; cbn [app nlookup]; [reflexivity|].
  destruct (k' =? n); [reflexivity|apply IH].
Qed.
Lemma ninsert_lookup : forall k v t n,
  nlookup (ninsert k v t) n =
  match nlookup t n with Some x => Some x | None => if k =? n then Some v else None end.
Proof.
  intros k v t n. unfold ninsert. destruct (nlookup t k) as [x|] eqn:E.
  - destruct (nlookup t n) eqn:En; [reflexivity|]. destruct (k =? n) eqn:Ek; [|reflexivity].
    apply Nat.eqb_eq in Ek. subst. congruence.
  - apply nlookup_app.
Qed.
Definition pre_nest (nest : list nat) (o : option (list nat)) : option (list nat) :=
  match o with Some r => Some (nest ++ r) | None => None end.
Lemma nb_comp_cycle : forall h body nest t,
  nb_comp (Cycle h body) nest t = nb_list body (nest ++ [h]) (ninsert h nest t).
Proof.
  intros h body nest t. cbn [nb_comp]. generalize (ninsert h nest t).
  induction body as [|c body IH]; intros t'; [reflexivity|]. cbn [nb_list]. apply IH.
Qed.
(* lookups after the builder has visited c: existing entries win, then the first occurrence in c *)
Definition nb_ok (c : comp) : Prop := forall nest t n,
  nlookup (nb_comp c nest t) n =
  match nlookup t n with Some v => Some v | None => pre_nest nest (heads_c c n) end.
Lemma nb_list_lookup : forall l, Forall nb_ok l -> forall nest t n,
  nlookup (nb_list l nest t) n =
  match nlookup t n with Some v => Some v | None => pre_nest nest (heads_l l n) end.
Proof.
  induction 1 as [|c l Hc _ IH]; intros nest t n; cbn [nb_list heads_l].
  - destruct (nlookup t n); reflexivity.
  - rewrite IH, Hc. destruct (nlookup t n); [reflexivity|]. destruct (heads_c c n); reflexivity.
Qed.
Lemma nb_comp_lookup : forall c, nb_ok c.
Proof.
  induction c as [m|h b IH] using comp_ind'; intros nest t n.
  - cbn [nb_comp heads_c]. rewrite ninsert_lookup. destruct (nlookup t n); [reflexivity|].
    destruct (m =? n); cbn [pre_nest]; [rewrite app_nil_r|]; reflexivity.
  - rewrite nb_comp_cycle, heads_c_cycle, (nb_list_lookup b IH), ninsert_lookup.
    destruct (nlookup t n); [reflexivity|].
    destruct (h =? n); cbn [pre_nest]; [rewrite app_nil_r; reflexivity|].
    destruct (heads_l b n); cbn [pre_nest]; [|reflexivity]. rewrite <- app_assoc. reflexivity.
Qed.
(* the nesting reported by the model is the list of strictly enclosing heads *)
Theorem nesting_heads : forall w n, nesting w n = heads_l w n.
Proof.
  intros w n. unfold nesting, build_nesting.
  rewrite nb_list_lookup by (apply Forall_forall; intros c _; apply nb_comp_lookup). cbn [nlookup].
  destruct (heads_l w n); reflexivity.
Qed.

(* the invariant at the end of the outermost call *)
Lemma build_fuel_inv : forall f g e w, build_fuel f g e = Some w ->
  exists ln' s', Inv g e (dfn st0) (stk st0) (fun _ => True) e (num st0) [] w [] ln' s' /\
                 dfn s' e = DInf.
Proof.
  intros f g e w Hb. unfold build_fuel in Hb.
  destruct (loop f g [new_frame g e (discover e st0)] [] (discover e st0) []) as [[s' w']|] eqn:Hrun; [|discriminate].
  inversion Hb; subst w'. clear Hb.
  assert (I0 : Inv g e (dfn st0) (stk st0) (fun _ => True) e (num st0) [e] []
                   [new_frame g e (discover e st0)] [] (discover e st0)).
  { apply Inv_init; auto.
    - intros y Hy. exfalso. apply Hy. reflexivity.
    - constructor. }
  destruct (loop_spec g e f _ _ [] _ _ _ _ [] _ _ _ _ _ I0 Hrun) as [new' [ln' [I1 Ep]]].
  rewrite app_nil_r in Ep. subst new'. exists ln', s'. split; [exact I1|].
  destruct (inv_root I1) as [H|H]; [|exact H]. exfalso.
  pose proof (inv_finL I1 Logic.I H) as H1. cbn in H1. apply H1. lia.
Qed.

Theorem build_fuel_ok : forall f g e w, build_fuel f g e = Some w -> wto_ok g e w = true.
Proof.
  intros f g e w Hb. destruct (build_fuel_inv f g e w Hb) as [ln' [s' [I1 Hde]]].
  assert (Hin : forall x, In x (flat w) <-> dfn s' x = DInf).
  { intros x. rewrite (em_in (inv_em I1) x). cbn [st0 dfn]. split; [intros [H _]; exact H|intros H; split; [exact H|discriminate]]. }
  assert (He : In e (flat w)) by (apply Hin, Hde).
  assert (Hedges : forall u v, In u (flat w) -> In v (succs g u) -> In v (flat w) /\ lok w u v).
  { intros u v Hu Hv. destruct (em_edges (inv_em I1) Hu Hv) as [G1 [G2|G2]]; [discriminate|].
    split; [apply Hin, G1|exact G2]. }
  assert (Hreach : forall x, In x (flat w) -> reachable g e x).
  { intros x Hx. apply (inv_reach I1). apply Hin in Hx. rewrite Hx. discriminate. }
  assert (Hall : forall x, reachable g e x -> In x (flat w)).
  { apply closed_reach; [exact He|]. intros u v Hu Hv. apply (Hedges u v Hu Hv). }
  unfold wto_ok, check. apply andb_true_iff. split.
  - unfold struct_ok. repeat (apply andb_true_iff; split).
    + apply nodupb_NoDup, (em_nodup (inv_em I1)).
    + apply mem_In, He.
    + apply closedb_spec. intros u v Hu Hv. apply (Hedges u v Hu Hv).
    + apply subset_incl. intros x Hx. apply (reach_n_complete g e (flat w)); auto. apply (em_nodup (inv_em I1)).
    + apply edges_ok_spec. intros u v Hu Hv. apply (Hedges u v Hu Hv).
  - unfold nesting_ok. apply forallb_forall. intros n _. rewrite nesting_heads.
    destruct (heads_l w n); [apply list_eqb_eq; reflexivity|reflexivity].
Qed.

Theorem build_ok : forall g e w, build g e = Some w -> wto_ok g e w = true.
Proof. intros g e w. apply build_fuel_ok. Qed.

Theorem build_WF : forall g e w, build g e = Some w ->
  WF g e w (nesting w) (seq 0 (length g) ++ flat w).
Proof. intros g e w H. apply wto_ok_sound, build_ok, H. Qed.

(* examples: the hypotheses of the theorems are satisfied by non-trivial values *)
Example ex_nested :
  build [[1]; [2]; [3]; [4; 1]; [5; 2]; [0]] 0 =
  Some [Cycle 0 [Cycle 1 [Cycle 2 [Vertex 3; Vertex 4]]; Vertex 5]].
Proof. vm_compute. reflexivity. Qed.
Example ex_irreducible :
  build [[1; 2]; [2]; [1; 3]; []] 0 = Some [Vertex 0; Cycle 1 [Vertex 2]; Vertex 3].
Proof. vm_compute. reflexivity. Qed.
(* the example of Bourdoncle's paper, nodes renamed 0..7:  1 2 (3 4 (5 6) 7) 8 *)
Example ex_bourdoncle :
  build [[1]; [2; 7]; [3]; [4; 6]; [5]; [4; 6]; [2; 7]; []] 0 =
  Some [Vertex 0; Vertex 1; Cycle 2 [Vertex 3; Cycle 4 [Vertex 5]; Vertex 6]; Vertex 7]
  /\ (forall w, build [[1]; [2; 7]; [3]; [4; 6]; [5]; [4; 6]; [2; 7]; []] 0 = Some w ->
       map (nesting w) (seq 0 8) =
       [Some []; Some []; Some []; Some [2]; Some [2]; Some [2; 4]; Some [2]; Some []]).
Proof. split; [vm_compute; reflexivity|]. intros w H. vm_compute in H. inversion H. subst. vm_compute. reflexivity. Qed.
Example ex_WF_nontrivial :
  WF [[1]; [2]; [3]; [4; 1]; [5; 2]; [0]] 0
     [Cycle 0 [Cycle 1 [Cycle 2 [Vertex 3; Vertex 4]]; Vertex 5]]
     (nesting [Cycle 0 [Cycle 1 [Cycle 2 [Vertex 3; Vertex 4]]; Vertex 5]])
     (seq 0 6 ++ [0; 1; 2; 3; 4; 5]).
Proof. apply (build_WF [[1]; [2]; [3]; [4; 1]; [5; 2]; [0]] 0). exact ex_nested. Qed.
(* the checker rejects orderings that violate the property (it is not the constant true) *)
Example ex_checker_rejects :
  wto_ok [[1]; [2]; [1]] 0 [Vertex 0; Vertex 1; Vertex 2] = false /\
  wto_ok [[1]; [2]; [1]] 0 [Vertex 0; Cycle 2 [Vertex 1]] = true /\
  wto_ok [[1]; [2]; [1]] 0 [Vertex 0; Cycle 1 [Vertex 2]] = true /\
  wto_ok [[1]; [2]; [1]] 0 [Vertex 0; Cycle 1 []] = false /\
  wto_ok [[1]; []; [1]] 0 [Vertex 0; Vertex 1; Vertex 2] = false.
Proof. vm_compute. auto. Qed.
