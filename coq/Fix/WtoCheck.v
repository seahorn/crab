(* Fix/WtoCheck.v — the property C07 as a Prop ([WF]) and an executable checker
   ([check], [wto_ok], [nesting_ok]) with its soundness proof, for all graphs. *)
From Coq Require Import List Arith Bool.
From CrabV Require Import Fix.Wto.
Import ListNotations.

Section CompInd.
  Variable P : comp -> Prop.
  Hypothesis HV : forall n, P (Vertex n).
  Hypothesis HC : forall h b, Forall P b -> P (Cycle h b).
  Fixpoint comp_ind' (c : comp) : P c :=
    match c with
    | Vertex n => HV n
    | Cycle h b =>
      HC h b ((fix go (l : list comp) : Forall P l :=
                 match l with
                 | [] => Forall_nil P
                 | c' :: l' => Forall_cons c' (comp_ind' c') (go l')
                 end) b)
    end.
End CompInd.

Fixpoint cnodes (c : comp) : list nat :=
  match c with
  | Vertex n => [n]
  | Cycle h b => h :: (fix go (l : list comp) : list nat :=
                         match l with [] => [] | c' :: l' => cnodes c' ++ go l' end) b
  end.
Fixpoint flat (w : list comp) : list nat :=
  match w with [] => [] | c :: w' => cnodes c ++ flat w' end.
Lemma cnodes_cycle : forall h b, cnodes (Cycle h b) = h :: flat b.
Proof.
  reflexivity.
Qed.
Lemma flat_app : forall a b, flat (a ++ b) = flat a ++ flat b.
Proof. induction a as [|c a IH]; intros b; cbn [flat app]; [reflexivity|]. rewrite IH, app_assoc. reflexivity. Qed.
Lemma in_flat : forall w x, In x (flat w) <-> exists c, In c w /\ In x (cnodes c).
Proof.
  induction w as [|c w IH]; intros x; cbn [flat].
  - split; [intros []|intros [c [[] _]]].
  - rewrite in_app_iff, IH. split.
    + intros [H|[c' [H1 H2]]]; [exists c; split; [left; reflexivity|exact H]|exists c'; split; [right; exact H1|exact H2]].
    + intros [c' [[->|H1] H2]]; [left; exact H2|right; exists c'; split; assumption].
Qed.

Inductive reachable (g : graph) (e : nat) : nat -> Prop :=
| reach_refl : reachable g e e
| reach_step : forall u v, reachable g e u -> In v (succs g u) -> reachable g e v.

(* u occurs strictly before v *)
Definition before (l : list nat) (u v : nat) : Prop :=
  exists l1 l2 l3, l = l1 ++ u :: l2 ++ v :: l3.

(* [encl_c c h u]: inside c there is a component with head h that contains u *)
Inductive encl_c : comp -> nat -> nat -> Prop :=
| encl_here : forall h b u, In u (cnodes (Cycle h b)) -> encl_c (Cycle h b) h u
| encl_deep : forall h' b c h u, In c b -> encl_c c h u -> encl_c (Cycle h' b) h u.
Definition encl (w : wto) (h u : nat) : Prop := exists c, In c w /\ encl_c c h u.

(* [nest_c c n hs]: n occurs in c and hs are the heads of the components of c that strictly
   enclose this occurrence, outermost first *)
Inductive nest_c : comp -> nat -> list nat -> Prop :=
| nest_vertex : forall n, nest_c (Vertex n) n []
| nest_head : forall h b, nest_c (Cycle h b) h []
| nest_body : forall h b c n hs, In c b -> nest_c c n hs -> nest_c (Cycle h b) n (h :: hs).
Definition nest_w (w : wto) (n : nat) (hs : list nat) : Prop := exists c, In c w /\ nest_c c n hs.

(* Property C07 for graph g, entry e, ordering w, reported nesting nst, on the nodes dom.
   Proper nesting of the components is built into the type [comp]. *)
Record WF (g : graph) (e : nat) (w : wto) (nst : nat -> option (list nat)) (dom : list nat) : Prop := {
  wf_nodup : NoDup (flat w);
  wf_reach : forall x, In x (flat w) <-> reachable g e x;
  wf_edge : forall u v, reachable g e u -> In v (succs g u) -> before (flat w) u v \/ encl w v u;
  wf_nest_in : forall n, In n dom -> In n (flat w) -> exists hs, nst n = Some hs /\ nest_w w n hs;
  wf_nest_out : forall n, In n dom -> ~ In n (flat w) -> nst n = None
}.

Lemma mem_In : forall x l, mem x l = true <-> In x l.
Proof.
  intros x l. unfold mem. rewrite existsb_exists. split.
  - intros [y [H1 H2]]. apply Nat.eqb_eq in H2. subst. exact H1.
  - intros H. exists x. split; [exact H|apply Nat.eqb_refl].
Qed.
Lemma mem_false : forall x l, mem x l = false <-> ~ In x l.
Proof. intros x l. rewrite <- mem_In. destruct (mem x l); split; congruence. Qed.

Fixpoint nodupb (l : list nat) : bool :=
  match l with [] => true | x :: l' => negb (mem x l') && nodupb l' end.
Lemma nodupb_NoDup : forall l, nodupb l = true <-> NoDup l.
Proof.
  induction l as [|x l IH]; cbn [nodupb].
  - split; [constructor|reflexivity].
  - rewrite andb_true_iff, negb_true_iff, mem_false, IH. split.
    + intros [H1 H2]. constructor; assumption.
    + intros H. inversion H; subst. split; assumption.
Qed.

(* reachability: [rounds] rounds of adding the successors of the current set *)
Definition add (x : nat) (r : list nat) : list nat := if mem x r then r else r ++ [x].
Definition add_all (xs r : list nat) : list nat := fold_left (fun r x => add x r) xs r.
Definition step (g : graph) (r : list nat) : list nat := add_all (flat_map (succs g) r) r.
Fixpoint reach_n (g : graph) (n : nat) (r : list nat) : list nat :=
  match n with 0 => r | S n' => reach_n g n' (step g r) end.

Definition subset (a b : list nat) : bool := forallb (fun x => mem x b) a.
Lemma subset_incl : forall a b, subset a b = true <-> incl a b.
Proof.
  intros a b. unfold subset, incl. rewrite forallb_forall. split; intros H x Hx.
  - apply mem_In, H, Hx.
  - apply mem_In, H, Hx.
Qed.
Definition closedb (g : graph) (r : list nat) : bool :=
  forallb (fun u => subset (succs g u) r) r.

Fixpoint beforeb (l : list nat) (u v : nat) : bool :=
  match l with
  | [] => false
  | x :: l' => ((x =? u) && mem v l') || beforeb l' u v
  end.

Fixpoint enclb_c (c : comp) (h u : nat) : bool :=
  match c with
  | Vertex _ => false
  | Cycle h' b =>
    ((h' =? h) && mem u (cnodes c)) ||
    (fix ex (l : list comp) : bool :=
       match l with [] => false | c' :: l' => enclb_c c' h u || ex l' end) b
  end.
Definition enclb (w : wto) (h u : nat) : bool := existsb (fun c => enclb_c c h u) w.

Definition edges_ok (g : graph) (w : wto) : bool :=
  let fl := flat w in
  forallb (fun u => forallb (fun v => beforeb fl u v || enclb w v u) (succs g u)) fl.

(* heads of the components strictly enclosing the first (pre-order) occurrence of n *)
Fixpoint heads_c (c : comp) (n : nat) : option (list nat) :=
  match c with
  | Vertex m => if m =? n then Some [] else None
  | Cycle h b =>
    if h =? n then Some [] else
    match (fix go (l : list comp) : option (list nat) :=
             match l with
             | [] => None
             | c' :: l' => match heads_c c' n with Some r => Some r | None => go l' end
             end) b with
    | Some r => Some (h :: r)
    | None => None
    end
  end.
Fixpoint heads_l (l : list comp) (n : nat) : option (list nat) :=
  match l with
  | [] => None
  | c :: l' => match heads_c c n with Some r => Some r | None => heads_l l' n end
  end.
Lemma heads_c_cycle : forall h b n,
  heads_c (Cycle h b) n =
  if h =? n then Some [] else match heads_l b n with Some r => Some (h :: r) | None => None end.
Proof.
  intros h b n. cbn [heads_c]. destruct (h =? n); [reflexivity|].
  assert (E : (fix go (l : list comp) : option (list nat) :=
             match l with
             | [] => None
             | c' :: l' => match heads_c c' n with Some r => Some r | None => go l' end
             end) b = heads_l b n).
  { induction b as [|c b IH]; [reflexivity|]. cbn [heads_l]. rewrite <- IH. reflexivity. }
  rewrite E. reflexivity.
Qed.

Fixpoint list_eqb (a b : list nat) : bool :=
  match a, b with
  | [], [] => true
  | x :: a', y :: b' => (x =? y) && list_eqb a' b'
  | _, _ => false
  end.
Lemma list_eqb_eq : forall a b, list_eqb a b = true <-> a = b.
Proof.
  induction a as [|x a IH]; destruct b as [|y b]; cbn [list_eqb]; try (split; congruence).
  rewrite andb_true_iff, Nat.eqb_eq, IH. split; [intros [-> ->]; reflexivity|intros H; inversion H; auto].
Qed.

Definition nesting_ok (w : wto) (nst : nat -> option (list nat)) (dom : list nat) : bool :=
  forallb (fun n =>
             match heads_l w n, nst n with
             | Some a, Some b => list_eqb a b
             | None, None => true
             | _, _ => false
             end) dom.

Definition struct_ok (g : graph) (e : nat) (w : wto) : bool :=
  let fl := flat w in
  nodupb fl && mem e fl && closedb g fl && subset fl (reach_n g (length fl) [e]) && edges_ok g w.

Definition check (g : graph) (e : nat) (w : wto) (nst : nat -> option (list nat)) (dom : list nat) : bool :=
  struct_ok g e w && nesting_ok w nst dom.

(* the checker applied to the model's own nesting table, on the nodes of g and of w *)
Definition wto_ok (g : graph) (e : nat) (w : wto) : bool :=
  check g e w (nesting w) (seq 0 (length g) ++ flat w).

Lemma add_in : forall x r y, In y (add x r) <-> y = x \/ In y r.
Proof.
  intros x r y. unfold add. destruct (mem x r) eqn:E.
  - apply mem_In in E. split; [auto|intros [->|H]; assumption].
  - rewrite in_app_iff. cbn [In]. split; [intros [H|[H|[]]]; auto|intros [H|H]; auto].
Qed.
Lemma add_all_in : forall xs r y, In y (add_all xs r) <-> In y xs \/ In y r.
Proof.
  unfold add_all. induction xs as [|x xs IH]; intros r y; cbn [fold_left].
  - split; [auto|intros [[]|H]; exact H].
  - rewrite IH, add_in. cbn [In]. split; [intros [H|[H|H]]; auto|intros [[H|H]|H]; auto].
Qed.
Lemma step_in : forall g r y, In y (step g r) <-> In y r \/ exists u, In u r /\ In y (succs g u).
Proof.
  intros g r y. unfold step. rewrite add_all_in, in_flat_map. split; intros [H|H]; auto.
Qed.
Lemma reach_n_sound : forall g e n r, (forall x, In x r -> reachable g e x) ->
  forall x, In x (reach_n g n r) -> reachable g e x.
Proof.
  intros g e. induction n as [|n IH]; intros r Hr x Hx; cbn [reach_n] in Hx; [apply Hr, Hx|].
  apply IH with (r := step g r); [|exact Hx].
  intros y Hy. apply step_in in Hy. destruct Hy as [Hy|[u [Hu Hy]]]; [apply Hr, Hy|].
  apply reach_step with u; [apply Hr, Hu|exact Hy].
Qed.
Lemma closedb_spec : forall g r, closedb g r = true <->
  forall u v, In u r -> In v (succs g u) -> In v r.
Proof.
  intros g r. unfold closedb. rewrite forallb_forall. split.
  - intros H u v Hu Hv. apply H in Hu. apply subset_incl in Hu. apply Hu, Hv.
  - intros H u Hu. apply subset_incl. intros v Hv. apply H with u; assumption.
Qed.
Lemma closed_reach : forall g e r, In e r -> (forall u v, In u r -> In v (succs g u) -> In v r) ->
  forall x, reachable g e x -> In x r.
Proof. intros g e r He Hc x Hx. induction Hx; [exact He|apply Hc with u; assumption]. Qed.

Lemma beforeb_before : forall l u v, beforeb l u v = true <-> before l u v.
Proof.
  induction l as [|x l IH]; intros u v; cbn [beforeb].
  - split; [discriminate|]. intros [l1 [l2 [l3 H]]]. destruct l1; discriminate.
  - rewrite orb_true_iff, andb_true_iff, Nat.eqb_eq, mem_In, IH. split.
    + intros [[-> H]|[l1 [l2 [l3 H]]]].
      * apply in_split in H. destruct H as [l2 [l3 ->]]. exists [], l2, l3. reflexivity.
      * exists (x :: l1), l2, l3. rewrite H. reflexivity.
    + intros [l1 [l2 [l3 H]]]. destruct l1 as [|y l1]; cbn [app] in H; inversion H; subst.
      * left. split; [reflexivity|]. apply in_or_app. right. left. reflexivity.
      * right. exists l1, l2, l3. reflexivity.
Qed.

Lemma enclb_c_cycle : forall h' b h u,
  enclb_c (Cycle h' b) h u =
  ((h' =? h) && mem u (cnodes (Cycle h' b))) || existsb (fun c => enclb_c c h u) b.
Proof.
  intros h' b h u. reflexivity.
Qed.
Lemma enclb_c_spec : forall c h u, enclb_c c h u = true <-> encl_c c h u.
Proof.
  induction c as [n|h' b IH] using comp_ind'; intros h u.
  - cbn [enclb_c]. split; [discriminate|intros H; inversion H].
  - rewrite enclb_c_cycle, orb_true_iff, andb_true_iff, Nat.eqb_eq, mem_In, existsb_exists. split.
    + intros [[-> H]|[c [Hc H]]]; [apply encl_here, H|].
      apply encl_deep with c; [exact Hc|]. rewrite Forall_forall in IH. apply IH; assumption.
    + intros H. inversion H; subst; [left; split; [reflexivity|assumption]|].
      right. exists c. split; [assumption|]. rewrite Forall_forall in IH. apply IH; assumption.
Qed.
Lemma enclb_spec : forall w h u, enclb w h u = true <-> encl w h u.
Proof.
  intros w h u. unfold enclb, encl. rewrite existsb_exists.
  split; intros [c [H1 H2]]; exists c; (split; [exact H1|apply enclb_c_spec, H2]).
Qed.
Lemma edges_ok_spec : forall g w, edges_ok g w = true <->
  forall u v, In u (flat w) -> In v (succs g u) -> before (flat w) u v \/ encl w v u.
Proof.
  intros g w. unfold edges_ok. rewrite forallb_forall. split.
  - intros H u v Hu Hv. apply H in Hu. rewrite forallb_forall in Hu. apply Hu in Hv.
    apply orb_true_iff in Hv. destruct Hv as [Hv|Hv]; [left; apply beforeb_before, Hv|right; apply enclb_spec, Hv].
  - intros H u Hu. apply forallb_forall. intros v Hv. apply orb_true_iff.
    destruct (H u v Hu Hv) as [H1|H1]; [left; apply beforeb_before, H1|right; apply enclb_spec, H1].
Qed.

Lemma heads_l_sound_of : forall w,
  Forall (fun c => forall n hs, heads_c c n = Some hs -> nest_c c n hs) w ->
  forall n hs, heads_l w n = Some hs -> nest_w w n hs.
Proof.
  induction 1 as [|c w Hc _ IH]; intros n hs H; cbn [heads_l] in H; [discriminate|].
  destruct (heads_c c n) as [r|] eqn:Ec.
  - inversion H; subst. exists c. split; [left; reflexivity|apply Hc, Ec].
  - destruct (IH n hs H) as [c' [H1 H2]]. exists c'. split; [right; exact H1|exact H2].
Qed.
Lemma heads_sound : forall c n hs, heads_c c n = Some hs -> nest_c c n hs.
Proof.
  induction c as [m|h b IH] using comp_ind'; intros n hs H.
  - cbn [heads_c] in H. destruct (m =? n) eqn:E; [|discriminate].
    apply Nat.eqb_eq in E. inversion H; subst. constructor.
  - rewrite heads_c_cycle in H. destruct (h =? n) eqn:E.
    + apply Nat.eqb_eq in E. inversion H; subst. constructor.
    + destruct (heads_l b n) as [r|] eqn:Er; [|discriminate]. inversion H; subst.
      destruct (heads_l_sound_of b IH n r Er) as [c [Hin Hn]]. apply nest_body with c; assumption.
Qed.
Lemma heads_l_sound : forall w n hs, heads_l w n = Some hs -> nest_w w n hs.
Proof. intros w. apply heads_l_sound_of, Forall_forall. intros c _. apply heads_sound. Qed.

Lemma heads_l_in_of : forall w,
  Forall (fun c => forall n, In n (cnodes c) <-> heads_c c n <> None) w ->
  forall n, In n (flat w) <-> heads_l w n <> None.
Proof.
  induction 1 as [|c w Hc _ IH]; intros n; cbn [flat heads_l]; [split; [intros []|congruence]|].
  rewrite in_app_iff, Hc, IH. destruct (heads_c c n); intuition congruence.
Qed.
Lemma heads_c_in : forall c n, In n (cnodes c) <-> heads_c c n <> None.
Proof.
  induction c as [m|h b IH] using comp_ind'; intros n.
  - cbn [cnodes heads_c In]. destruct (m =? n) eqn:E.
    + apply Nat.eqb_eq in E. intuition congruence.
    + apply Nat.eqb_neq in E. intuition congruence.
  - rewrite heads_c_cycle, cnodes_cycle. cbn [In]. rewrite (heads_l_in_of b IH). destruct (h =? n) eqn:E.
    + apply Nat.eqb_eq in E. intuition congruence.
    + apply Nat.eqb_neq in E. destruct (heads_l b n); intuition congruence.
Qed.
Lemma heads_l_in : forall w n, In n (flat w) <-> heads_l w n <> None.
Proof. intros w. apply heads_l_in_of, Forall_forall. intros c _. apply heads_c_in. Qed.

Theorem check_sound : forall g e w nst dom, check g e w nst dom = true -> WF g e w nst dom.
Proof.
  intros g e w nst dom H. unfold check, struct_ok in H. rewrite !andb_true_iff in H.
  destruct H as [[[[[Hnd Hmem] Hcl] Hsub] Hed] Hnest].
  apply nodupb_NoDup in Hnd. apply mem_In in Hmem. rewrite closedb_spec in Hcl.
  apply subset_incl in Hsub. rewrite edges_ok_spec in Hed.
  assert (Hreach : forall x, In x (flat w) <-> reachable g e x).
  { intros x. split.
    - intros Hx. apply Hsub in Hx. revert Hx. apply reach_n_sound.
      intros y [<-|[]]. constructor.
    - apply closed_reach; assumption. }
  unfold nesting_ok in Hnest. rewrite forallb_forall in Hnest.
  constructor.
  - exact Hnd.
  - exact Hreach.
  - intros u v Hu Hv. apply Hed; [apply Hreach, Hu|exact Hv].
  - intros n Hn Hin. specialize (Hnest n Hn). apply heads_l_in in Hin.
    destruct (heads_l w n) as [a|] eqn:Ea; [|congruence].
    destruct (nst n) as [b|]; [|discriminate]. apply list_eqb_eq in Hnest. subst b.
    exists a. split; [reflexivity|apply heads_l_sound, Ea].
  - intros n Hn Hnin. specialize (Hnest n Hn).
    destruct (heads_l w n) as [a|] eqn:Ea.
    + exfalso. apply Hnin, heads_l_in. congruence.
    + destruct (nst n); [discriminate|reflexivity].
Qed.

Theorem wto_ok_sound : forall g e w, wto_ok g e w = true ->
  WF g e w (nesting w) (seq 0 (length g) ++ flat w).
Proof. intros g e w. apply check_sound. Qed.

(* the validated construction *)
Definition build_checked (g : graph) (e : nat) : option wto :=
  match build g e with
  | Some w => if wto_ok g e w then Some w else None
  | None => None
  end.
Theorem build_checked_sound : forall g e w, build_checked g e = Some w ->
  WF g e w (nesting w) (seq 0 (length g) ++ flat w).
Proof.
  intros g e w H. unfold build_checked in H. destruct (build g e) as [w'|]; [|discriminate].
  destruct (wto_ok g e w') eqn:E; [|discriminate]. inversion H; subst. apply wto_ok_sound, E.
Qed.
