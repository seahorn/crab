(* EngineFSExact.v — property C06 for the engine model over finite sets, WITHOUT a checker:
   when nothing is extrapolated (join as widening, meet as narrowing, exact images) every
   terminated run of the engine on a well-formed weak topological ordering returns exactly
   the least solution of the flow equations, i.e. exactly the states that reach each block.
   "⊆" is Fix/EngineBelow.v (no state is invented), "⊇" is Fix/EngineSound.v (no state is
   lost).  All CFGs, start blocks (also strictly inside loops), delays, descending counts,
   fuels, assumption maps. *)
From Coq Require Import List Bool Arith NArith Lia.
From CrabV Require Import Fix.Wto Fix.WtoCheck Fix.WtoSound Fix.WtoRoot Fix.Engine Fix.EngineBelow Fix.EngineCheck
     Fix.Kleene Fix.KleeneSound Fix.EngineFS Fix.EngineFSSound Fix.EngineRel Fix.EngineSound.
Import ListNotations.

Lemma smem_ext : forall a b, (forall s, smem s a = true <-> smem s b = true) -> a = b.
Proof.
  intros a b H. apply N.bits_inj. intros s. specialize (H s). unfold smem in H.
  destruct (N.testbit a s), (N.testbit b s); try reflexivity.
  - symmetry. apply H. reflexivity.
  - apply H. reflexivity.
Qed.

Section ExactW.
  Variable S : N.
  Variable F : flow.
  Variable w : wto.
  Variables delay desc fuel rounds : nat.
  Variable use_asm : bool.
  Variable t : tabs.
  Hypothesis range : in_range F.
  Hypothesis LFP : lfp F rounds = Some t.
  (* the assumption map is consulted iff it is given (as the harness does) *)
  Hypothesis asm_used : use_asm = false -> forall n, f_asm F n = None.
  (* the initial states satisfy the assumption of the start block *)
  Hypothesis init_below : sub (f_init F) (fst t (f_entry F)).
  (* w: distinct nodes, closed under successors, edges forward or back to an enclosing head *)
  Hypothesis w_nodup : NoDup (flat w).
  Hypothesis w_edges : forall n p, In p (f_preds F n) -> In p (flat w) -> In n (flat w) /\ lok w p n.
  (* the start block is in w (anywhere, also strictly inside cycles) *)
  Hypothesis w_entry : In (f_entry F) (flat w).

  Theorem fs_engine_is_reach e :
    fs_engine S F w delay desc use_asm fuel = Some e ->
    forall n s, n < f_blocks F ->
      (smem s (e_pre N e n) = true <-> ReachPre F n s) /\
      (smem s (e_post N e n) = true <-> ReachPost F n s).
  Proof.
    intros RUN. pose proof RUN as RUN'. unfold fs_engine in RUN'.
    destruct (engine_sound N N fgamma (fs_ops S) (fjoin_l S) (fjoin_r S) (fmeet_s S) (fmeet_s S) (fleq_s S)
                (fun n a => image (f_rel F n) a) (fstep F) (fanalyze_s F)
                (f_preds F) (nest_of w) (f_entry F) delay desc use_asm (f_asm F) (finit F)
                (f_init F) (fun s H => H) fuel w w_nodup w_edges w_entry e RUN') as [C1 C2].
    exact (fs_engine_exact_if S F w delay desc fuel rounds use_asm t range LFP asm_used e
             init_below RUN C1 C2).
  Qed.

  (* the tables of the engine ARE the least solution *)
  Theorem fs_engine_is_lfp e :
    fs_engine S F w delay desc use_asm fuel = Some e ->
    forall n, n < f_blocks F -> e_pre N e n = fst t n /\ e_post N e n = snd t n.
  Proof.
    intros RUN n L.
    destruct (lfp_is_reach F rounds _ range LFP) as [LR1 LR2].
    split; apply smem_ext; intros s; destruct (fs_engine_is_reach e RUN n s L) as [E1 E2].
    - rewrite E1. symmetry. apply LR1, L.
    - rewrite E2. symmetry. apply LR2, L.
  Qed.
End ExactW.

(* the ordering computed by the model of wto.hpp (from any root e0, e.g. the CFG entry), for a
   graph whose successor lists contain the edges of the flow problem, and an analysis that
   starts at any block of that ordering: every side condition on the ordering is discharged
   by property C07 *)
Theorem fs_engine_build_is_lfp :
  forall S F g w delay desc fuel rounds use_asm t,
  in_range F -> lfp F rounds = Some t ->
  (use_asm = false -> forall n, f_asm F n = None) ->
  sub (f_init F) (fst t (f_entry F)) ->
  (forall n p, In p (f_preds F n) -> In n (succs g p)) ->
  forall e0, build g e0 = Some w -> In (f_entry F) (flat w) ->
  forall e, fs_engine S F w delay desc use_asm fuel = Some e ->
  forall n, n < f_blocks F ->
    e_pre N e n = fst t n /\ e_post N e n = snd t n /\
    (forall s, smem s (e_pre N e n) = true <-> ReachPre F n s) /\
    (forall s, smem s (e_post N e n) = true <-> ReachPost F n s).
Proof.
  intros S F g w delay desc fuel rounds use_asm t RG LFP AU IB SUC e0 BU IE e RUN n L.
  pose proof (build_WF _ _ _ BU) as W.
  pose proof (WF_edges (f_preds F) g e0 w _ _ W (fun m p He _ => SUC m p He)) as ED.
  destruct (fs_engine_is_lfp S F w delay desc fuel rounds use_asm t RG LFP AU IB
              (wf_nodup _ _ _ _ _ W) ED IE e RUN n L) as [E1 E2].
  split; [exact E1|]. split; [exact E2|].
  split; intros s;
    destruct (fs_engine_is_reach S F w delay desc fuel rounds use_asm t RG LFP AU IB
                (wf_nodup _ _ _ _ _ W) ED IE e RUN n s L) as [X1 X2]; assumption.
Qed.

(* non-vacuity: the loop  a <-> b (b: s -> s+1)  with exit c, started at its head with {0} *)
Example fs_engine_build_is_lfp_example :
  let F := mkF 3 (fun n => match n with 0 => [1] | 1 => [0] | 2 => [0] | _ => [] end)
               (fun n => match n with
                         | 0 | 2 => [(0,0);(1,1);(2,2);(3,3)]%N
                         | 1 => [(0,1);(1,2);(2,3)]%N | _ => [] end)
               0 1%N (fun _ => None) in
  let g := [[1;2];[0];[]] in
  let w := [Cycle 0 [Vertex 1]; Vertex 2] in
  in_range F /\ (forall n p, In p (f_preds F n) -> In n (succs g p)) /\
  build g (f_entry F) = Some w /\
  exists t e, lfp F 14 = Some t /\ sub (f_init F) (fst t (f_entry F)) /\
    fs_engine 4 F w 2 1 false 60 = Some e /\
    e_pre N e 2 = 15%N /\ forall s, smem s 15%N = true <-> ReachPre F 2 s.
Proof.
  cbv zeta. set (F := mkF _ _ _ _ _ _).
  assert (RG : in_range F).
  { split; [cbn; lia|]. split.
    - intros n p. cbn. destruct n as [|[|[|n]]]; cbn; intros H; try lia; destruct H as [<-|[]]; lia.
    - intros n H. cbn in H. destruct n as [|[|[|n]]]; try lia. cbn. auto. }
  assert (SUC : forall n p, In p (f_preds F n) -> In n (succs [[1;2];[0];[]] p)).
  { intros n p. cbn. destruct n as [|[|[|n]]]; cbn; intros H; try contradiction;
      destruct H as [<-|[]]; cbn; auto. }
  assert (BU : build [[1;2];[0];[]] (f_entry F) = Some [Cycle 0 [Vertex 1]; Vertex 2]).
  { vm_compute; reflexivity. }
  assert (LF : exists t, lfp F 14 = Some t /\ sub (f_init F) (fst t (f_entry F))).
  { eexists. split; vm_compute; reflexivity. }
  assert (RUN : exists e, fs_engine 4 F [Cycle 0 [Vertex 1]; Vertex 2] 2 1 false 60 = Some e /\ e_pre N e 2 = 15%N).
  { eexists. split; vm_compute; reflexivity. }
  destruct LF as [t [LF IB]]. destruct RUN as [e [RUN E2]].
  split; [exact RG|]. split; [exact SUC|]. split; [exact BU|].
  exists t, e. split; [exact LF|]. split; [exact IB|]. split; [exact RUN|]. split; [exact E2|].
  intros s. rewrite <- E2.
  destruct (fs_engine_build_is_lfp 4 F [[1;2];[0];[]] _ 2 1 60 14 false t RG LF (fun _ _ => eq_refl) IB
              SUC _ BU (or_introl eq_refl) e RUN 2) as [_ [_ [X _]]]; [cbn; lia|].
  exact (X s).
Qed.

(* the loop  0 <-> 1 (1: s -> s+1)  started at block 1 with {0} *)
Definition loop2 : flow :=
  mkF 2 (fun n => match n with 0 => [1] | 1 => [0] | _ => [] end)
      (fun n => match n with
                | 0 => [(0,0);(1,1);(2,2);(3,3)]%N
                | 1 => [(0,1);(1,2);(2,3)]%N | _ => [] end)
      1 1%N (fun _ => None).
Lemma loop2_in_range : in_range loop2.
Proof.
  split; [cbn; lia|]. split.
  - intros n p. cbn. destruct n as [|[|n]]; cbn; intros X; try contradiction; destruct X as [<-|[]]; lia.
  - intros n X. cbn in X. destruct n as [|[|n]]; try lia. cbn. auto.
Qed.

(* the analysis may start strictly inside a cycle: at the body vertex 1 of (0 1) the initial
   value is joined with what comes back around the loop, and the result is exactly the set
   of reaching states (the unrepaired C++ kept pre(1) = init and lost the states 1, 2, 3) *)
Example entry_inside_cycle_exact_example :
  let F := mkF 2 (fun n => match n with 0 => [1] | 1 => [0] | _ => [] end)
               (fun n => match n with
                         | 0 => [(0,0);(1,1);(2,2);(3,3)]%N
                         | 1 => [(0,1);(1,2);(2,3)]%N | _ => [] end)
               1 1%N (fun _ => None) in
  let w := [Cycle 0 [Vertex 1]] in
  build [[1];[0]] 0 = Some w /\ entry_ok (f_entry F) w = false /\
  exists e, fs_engine 4 F w 2 1 false 60 = Some e /\
            e_pre N e 1 = 15%N /\ e_post N e 1 = 14%N /\ e_pre N e 0 = 14%N /\ e_post N e 0 = 14%N /\
            (forall n s, n < 2 -> (smem s (e_pre N e n) = true <-> ReachPre F n s) /\
                                  (smem s (e_post N e n) = true <-> ReachPost F n s)).
Proof.
  cbv zeta. set (F := mkF _ _ _ _ _ _). pose proof (loop2_in_range : in_range F) as RG.
  assert (SUC : forall n p, In p (f_preds F n) -> In n (succs [[1];[0]] p)).
  { intros n p. cbn. destruct n as [|[|n]]; cbn; intros H; try contradiction;
      destruct H as [<-|[]]; cbn; auto. }
  assert (BU : build [[1];[0]] 0 = Some [Cycle 0 [Vertex 1]]) by (vm_compute; reflexivity).
  assert (LF : exists t, lfp F 14 = Some t /\ sub (f_init F) (fst t (f_entry F))).
  { eexists. split; vm_compute; reflexivity. }
  assert (RUN : exists e, fs_engine 4 F [Cycle 0 [Vertex 1]] 2 1 false 60 = Some e /\
            e_pre N e 1 = 15%N /\ e_post N e 1 = 14%N /\ e_pre N e 0 = 14%N /\ e_post N e 0 = 14%N).
  { eexists. split; [vm_compute; reflexivity|]. split; [vm_compute; reflexivity|].
    split; [vm_compute; reflexivity|]. split; vm_compute; reflexivity. }
  destruct LF as [t [LF IB]]. destruct RUN as [e [RUN [E1 [E2 [E3 E4]]]]].
  split; [exact BU|]. split; [vm_compute; reflexivity|].
  exists e. split; [exact RUN|]. split; [exact E1|]. split; [exact E2|]. split; [exact E3|]. split; [exact E4|].
  intros n s L.
  destruct (fs_engine_build_is_lfp 4 F [[1];[0]] _ 2 1 60 14 false t RG LF (fun _ _ => eq_refl) IB
              SUC 0 BU (or_intror (or_introl eq_refl)) e RUN n L) as [_ [_ [X Y]]].
  split; [exact (X s)|exact (Y s)].
Qed.

(* the claim "the tables of every run equal the least solution" needs the hypothesis that the
   start block occurs in the ordering: without it the claim is false (nothing is visited) *)
Theorem engine_statement_needs_wto_hypotheses :
  ~ (forall S F w delay desc use_asm fuel rounds e t,
       in_range F ->
       fs_engine S F w delay desc use_asm fuel = Some e -> lfp F rounds = Some t ->
       forall n, n < f_blocks F -> e_pre N e n = fst t n /\ e_post N e n = snd t n).
Proof.
  intros H.
  assert (RUN : exists e, fs_engine 4 loop2 [] 2 1 false 60 = Some e /\ e_pre N e 1 = 1%N).
  { eexists. split; vm_compute; reflexivity. }
  assert (LF : exists t, lfp loop2 14 = Some t /\ fst t 1 = 15%N).
  { eexists. split; vm_compute; reflexivity. }
  destruct RUN as [e [RUN E1]]. destruct LF as [t [LF E2]].
  destruct (H 4%N loop2 [] 2 1 false 60 14 e t loop2_in_range RUN LF 1) as [X _]; [cbn; lia|].
  rewrite E1, E2 in X. discriminate.
Qed.
