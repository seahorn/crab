(* Fix/WtoRoot.v — the weak topological ordering computed by the model of wto.hpp begins
   with the node it was built from (as a vertex or as the head of the first cycle): the
   frame of the root is the bottom of the visit stack and is the last one to be popped
   (field [inv_rootc] of the invariant of Fix/WtoSound.v).  Hence crab's run(init), which
   starts the analysis at the first node of the ordering, starts it at that node, and
   [entry_ok] holds for it. *)
From Coq Require Import List Arith Bool Lia.
From CrabV Require Import Fix.Wto Fix.WtoCheck Fix.WtoSound Fix.Engine Fix.EngineBelow Fix.EngineRel.
Import ListNotations.

Lemma frames_fin : forall g d ln vs up L f, Frames g d ln up vs L -> In f vs ->
  exists k, d (fnode f) = DN k.
Proof.
  intros g d ln. induction vs as [|f0 vs IH]; intros up L f H Hin; [destruct Hin|].
  cbn [Frames] in H. destruct H as [T [L' [_ [HF [_ HR]]]]].
  destruct Hin as [<-|Hin].
  - destruct (FrameOK_node_in _ _ _ _ _ _ _ HF) as [k [pre [Hk _]]]. exists k. exact Hk.
  - exact (IH _ _ f HR Hin).
Qed.
Theorem build_fuel_starts_with : forall f g e w, build_fuel f g e = Some w -> starts_with e w.
Proof.
  intros f g e w Hb. destruct (build_fuel_inv f g e w Hb) as [ln' [s' [I1 Hde]]].
  destruct (inv_rootc I1 Hde) as [_ [c [q [E H]]]].
  exists c, q. split; [exact E|]. destruct c as [n|h body]; cbn [chead] in H; subst.
  - left. reflexivity.
  - right. exists body. reflexivity.
Qed.

Theorem build_starts_with : forall g e w, build g e = Some w -> starts_with e w.
Proof. intros g e w. apply build_fuel_starts_with. Qed.

(* the analysis may start at the node the ordering was built from *)
Theorem build_entry_ok : forall g e w, build g e = Some w ->
  hd_error (flat w) = Some e /\ In e (flat w) /\ entry_ok e w = true.
Proof.
  intros g e w H. pose proof (build_starts_with g e w H) as SW.
  pose proof (wf_nodup _ _ _ _ _ (build_WF g e w H)) as ND.
  split; [apply starts_with_hd, SW|]. split; [apply starts_with_in, SW|].
  apply starts_with_entry_ok; assumption.
Qed.
