(* Fix/WtoTotal.v — the fuel of the model (Fix/Wto.v, [fuel_for]) always suffices: for every
   graph whose successor lists mention only nodes of the graph and every entry node,
   [build g e] returns an ordering.  Together with Fix/WtoSound.v this makes the
   well-formedness theorem unconditional. *)
From Coq Require Import List Arith Bool Lia.
From CrabV Require Import Fix.Wto Fix.WtoCheck Fix.WtoSound.
Import ListNotations.

Section Total.
Variable g : graph.

Definition wt (x : nat) : nat := S (length (succs g x)).
Definition cost (l : list nat) : nat := list_sum (map wt l).
Definition fsum (vs : list frame) : nat := list_sum (map (fun f => S (length (fcur f))) vs).

Lemma cost_app : forall a b, cost (a ++ b) = cost a + cost b.
Proof. intros a b. unfold cost. rewrite map_app. apply list_sum_app. Qed.
Lemma cost_cons : forall x l, cost (x :: l) = wt x + cost l.
Proof. reflexivity. Qed.
Lemma cost_incl : forall a b, NoDup a -> incl a b -> cost a <= cost b.
Proof.
  induction a as [|x a IH]; intros b Hnd Hinc; [unfold cost; cbn; lia|].
  inversion Hnd as [|? ? Hx Hnd']; subst.
  assert (Hxb : In x b) by (apply Hinc; left; reflexivity).
  apply in_split in Hxb. destruct Hxb as [b1 [b2 ->]].
  rewrite cost_cons, cost_app, cost_cons.
  assert (H : cost a <= cost (b1 ++ b2)).
  { apply IH; [exact Hnd'|]. intros y Hy.
    assert (Hyb : In y (b1 ++ x :: b2)) by (apply Hinc; right; exact Hy).
    apply in_app_or in Hyb. apply in_or_app. destruct Hyb as [H|[H|H]]; [left; exact H| |right; exact H].
    subst y. contradiction. }
  rewrite cost_app in H. lia.
Qed.
Lemma fsum_cons : forall f vs, fsum (f :: vs) = S (length (fcur f)) + fsum vs.
Proof. reflexivity. Qed.
Lemma fsum_prop_min : forall m vs, fsum (prop_min m vs) = fsum vs.
Proof.
  intros m [|p vs]; [reflexivity|]. cbn [prop_min]. destruct (m <? fmin p); reflexivity.
Qed.

(* the fuel that one call on a region of n nodes of total cost at most c needs *)
Lemma call_fuel : forall n c, 1 <= n -> c + 1 + (n - 1) * (c + 2) <= n * (c + 2).
Proof. intros [|n] c H; [lia|]. cbn [Nat.sub Nat.mul]. rewrite Nat.sub_0_r. lia. Qed.

(* extra invariant of a call used for termination: RL lists the region, Disc the nodes
   discovered by this call so far *)
Record TX (CG : nat) (Reg : nat -> Prop) (RL Disc L : list nat) (s : st) : Prop := {
  tx_nd : NoDup RL;
  tx_reg : forall x, Reg x -> In x RL;
  tx_cg : cost RL <= CG;
  tx_dnd : NoDup Disc;
  tx_dinc : incl Disc RL;
  tx_disc : forall x, In x Disc -> In x L \/ dfn s x = DInf
}.

Definition pot (vs : list frame) (RL Disc : list nat) : nat :=
  fsum vs + (cost RL - cost Disc) + 1.

(* a call starts with the frame of its root and only the root discovered *)
Lemma pot_start : forall x s RL, In x RL ->
  pot [new_frame g x s] RL [x] = cost RL + 1.
Proof.
  intros x s RL Hx. apply in_split in Hx. destruct Hx as [l1 [l2 ->]].
  unfold pot. rewrite fsum_cons, cost_app, !cost_cons. cbn [new_frame fcur].
  change (cost []) with 0. change (fsum []) with 0. unfold wt. lia.
Qed.

Definition LoopTotal (e CG f : nat) : Prop :=
  forall d0 B P0 Reg r k0 L new vs ln s RL Disc,
    Inv g e d0 B Reg r k0 L new vs ln s -> TX CG Reg RL Disc L s ->
    pot vs RL Disc + (length RL - 1) * (CG + 2) <= f ->
    exists s' p', loop f g vs ln s (new ++ P0) = Some (s', p').

Lemma TX_same : forall CG Reg RL Disc L s, TX CG Reg RL Disc L s -> TX CG Reg RL Disc L s.
Proof. auto. Qed.

(* the loop of component terminates when the nested calls do *)
Lemma comp_total : forall e CG f dc stkc numc T,
  LoopTotal e CG f -> NoDup T -> cost T <= CG -> length T * (CG + 2) <= f ->
  forall l s p,
    CInv g e dc stkc numc T s p ->
    (forall y, In y l -> reachable g e y /\ (In y T \/ dc y = DInf)) ->
    exists s3 body, comp_succs (visit_call f g) l s p = Some (s3, body).
Proof.
  intros e CG f dc stkc numc T HLT HndT HcT Hfuel.
  induction l as [|x l IH]; intros s p C Hl; cbn [comp_succs].
  - exists s, p. reflexivity.
  - assert (Hl' : forall y, In y l -> reachable g e y /\ (In y T \/ dc y = DInf)).
    { intros y Hy. apply Hl. right. exact Hy. }
    destruct (is_zero (dfn s x)) eqn:Ez; [|exact (IH s p C Hl')].
    apply is_zero_true in Ez. destruct (Hl x (or_introl eq_refl)) as [Hrx HxT].
    apply (comp_white_in_T _ _ _ _ _ _ _ _ _ C) in HxT; [|exact Ez].
    assert (I0 := comp_pre _ _ _ _ _ _ _ _ _ C HxT Ez Hrx).
    assert (TX0 : TX CG (fun z => In z T) T [x] [x] (discover x s)).
    { constructor.
      - exact HndT.
      - intros z Hz. exact Hz.
      - exact HcT.
      - constructor; [intros []|constructor].
      - intros z [<-|[]]. exact HxT.
      - intros z Hz. left. exact Hz. }
    assert (Hlen : 1 <= length T) by (destruct T; [destruct HxT|cbn; lia]).
    destruct (HLT _ _ p _ _ _ _ [] _ _ _ _ _ I0 TX0) as [s2 [p2 Ev]].
    { rewrite pot_start by exact HxT. pose proof (call_fuel (length T) CG Hlen).
      assert (cost T + 1 + (length T - 1) * (CG + 2) <= CG + 1 + (length T - 1) * (CG + 2)) by lia.
      lia. }
    cbn [app] in Ev. unfold visit_call at 1. cbn zeta. rewrite Ev.
    destruct (comp_visit _ _ _ _ _ _ _ _ _ _ _ _ (loop_spec g e f) C HxT Ez Hrx Ev) as [C2 _].
    exact (IH s2 _ C2 Hl').
Qed.

Theorem loop_total : forall e CG f, LoopTotal e CG f.
Proof.
  intros e CG. induction f as [|f IH]; intros d0 B P0 Reg r k0 L new vs ln s RL Disc I X Hf;
    remember ((length RL - 1) * (CG + 2)) as q eqn:Eqq.
  - unfold pot in Hf. lia.
  - cbn [loop]. destruct vs as [|fr vs'].
    + exists s, (new ++ P0). reflexivity.
    + assert (HcD : cost Disc <= cost RL) by (apply cost_incl; [apply (tx_dnd _ _ _ _ _ _ X)|apply (tx_dinc _ _ _ _ _ _ X)]).
      unfold pot in Hf. rewrite fsum_cons in Hf.
      destruct (fcur fr) as [|child rest] eqn:Hc.
      * (* the cursor of the top frame is exhausted *)
        destruct (inv_frames I) as [T [L' [EL [HFr [HTr HFs]]]]].
        destruct (FrameOK_node_in _ _ _ _ _ _ _ HFr) as [kn [pre [Hdn _]]].
        rewrite Hdn. cbn [nat_eq_dfn].
        destruct (fmin fr =? kn) eqn:Eq.
        -- apply Nat.eqb_eq in Eq. destruct (mem (fnode fr) ln) eqn:Em.
           ++ destruct (cycle_setup g e d0 B Reg r k0 L new fr vs' ln s kn I Hc Hdn Eq)
                as [T2 [L2 [d2 [SC [HndT [Hpop [_ [_ [_ [C0 Hsuc]]]]]]]]]].
              pose proof (sc_L SC) as EL2. rewrite Hpop.
              assert (HTRL : incl (T2 ++ [fnode fr]) RL).
              { intros z Hz. apply (tx_reg _ _ _ _ _ _ X), (inv_Lreg I). rewrite EL2.
                apply in_app_or in Hz. apply in_or_app. destruct Hz as [Hz|[<-|[]]]; [left; exact Hz|right; left; reflexivity]. }
              assert (HlenT : length T2 + 1 <= length RL).
              { pose proof (NoDup_incl_length HndT HTRL) as Hl. rewrite app_length in Hl. cbn [length] in Hl. exact Hl. }
              assert (HndT2 : NoDup T2) by (rewrite <- (app_nil_r T2); exact (NoDup_remove_1 T2 [] (fnode fr) HndT)).
              assert (HcT : cost T2 <= CG).
              { pose proof (tx_cg _ _ _ _ _ _ X). assert (cost T2 <= cost RL); [|lia].
                apply cost_incl; [exact HndT2|]. intros z Hz. apply HTRL, in_or_app. left. exact Hz. }
              assert (Hfuel : length T2 * (CG + 2) <= f).
              { pose proof (Nat.mul_le_mono_r (length T2) (length RL - 1) (CG + 2)) as Hmm. rewrite <- Eqq in Hmm. lia. }
              destruct (comp_total e CG f _ _ _ T2 IH HndT2 HcT Hfuel _ _ _ C0 Hsuc) as [s3 [body Ecomp]].
              pose proof Ecomp as Ecomp'. unfold visit_call in Ecomp'. rewrite Ecomp'.
              destruct (step_pop_cycle g e d0 B Reg r k0 f L new fr vs' ln s kn _ _ s3 body
                          (loop_spec g e f) I Hc Hdn Eq Hpop Ecomp) as [L3 [I3 [HL3 [Hmono _]]]].
              apply (IH d0 B P0 Reg r k0 L3 _ _ _ _ RL Disc I3).
              ** destruct X. constructor; auto. intros z Hz.
                 destruct (tx_disc0 z Hz) as [H|H]; [apply HL3, H|right; apply Hmono, H].
              ** rewrite <- Eqq. unfold pot. rewrite fsum_prop_min. cbn [length] in Hf. lia.
           ++ pose proof (inv_stk I) as Hstk. rewrite EL in Hstk.
              destruct (stk s) as [|x stk2] eqn:Es; [destruct T; discriminate|].
              destruct (step_pop_vertex g e d0 B Reg r k0 L new fr vs' ln s kn x stk2 I Hc Hdn Eq Em Es)
                as [L3 [I3 [HL3 Hmono]]].
              apply (IH d0 B P0 Reg r k0 L3 _ _ _ _ RL Disc I3).
              ** destruct X. constructor; auto. intros z Hz. cbn [dfn].
                 destruct (tx_disc0 z Hz) as [H|H]; [apply HL3, H|right; apply Hmono, H].
              ** rewrite <- Eqq. unfold pot. rewrite fsum_prop_min. cbn [length] in Hf. lia.
        -- apply Nat.eqb_neq in Eq.
           eapply IH; [eapply step_pop_stay; eassumption|exact X|].
           rewrite <- Eqq. unfold pot. rewrite fsum_prop_min. cbn [length] in Hf. lia.
      * destruct (is_zero (dfn s child)) eqn:Ez.
        -- apply is_zero_true in Ez.
           pose proof (step_discover g e d0 B Reg r k0 L new fr vs' ln s child rest I Hc Ez) as I2.
           pose proof (white_not_in _ _ _ (inv_sorted I) Ez) as HcL.
           assert (HcD2 : ~ In child Disc).
           { intros Hin. destruct (tx_disc _ _ _ _ _ _ X child Hin) as [H|H]; [contradiction|].
             rewrite Ez in H. discriminate. }
           assert (HcRL : In child RL).
           { apply (tx_reg _ _ _ _ _ _ X), (inv_Lreg I2). left. reflexivity. }
           assert (X2 : TX CG Reg RL (child :: Disc) (child :: L) (discover child s)).
           { destruct X. constructor; auto.
             - constructor; assumption.
             - intros z [<-|Hz]; [exact HcRL|apply tx_dinc0, Hz].
             - intros z [<-|Hz]; [left; left; reflexivity|].
               destruct (tx_disc0 z Hz) as [H|H]; [left; right; exact H|right].
               rewrite dfn_discover_other; [exact H|]. intros ->. contradiction. }
           assert (HcD' : cost (child :: Disc) <= cost RL).
           { apply cost_incl; [apply (tx_dnd _ _ _ _ _ _ X2)|apply (tx_dinc _ _ _ _ _ _ X2)]. }
           apply (IH d0 B P0 Reg r k0 _ _ _ _ _ RL (child :: Disc) I2 X2).
           rewrite <- Eqq. unfold pot. rewrite !fsum_cons. cbn [new_frame fcur].
           rewrite cost_cons in *. unfold wt in *. cbn [length] in Hf. lia.
        -- apply is_zero_false in Ez. destruct (dfn_le_nat (dfn s child) (fmin fr)) eqn:El.
           ++ destruct (dfn s child) as [k|] eqn:Ek; [|discriminate].
              cbn [dfn_le_nat] in El. apply Nat.leb_le in El.
              assert (Hk0 : k <> 0) by (intros ->; apply Ez; reflexivity).
              eapply IH; [eapply step_scan_lower; eassumption|exact X|].
              rewrite <- Eqq. unfold pot. rewrite fsum_cons. cbn [fcur]. cbn [length] in Hf. lia.
           ++ eapply IH; [eapply step_scan_skip; eassumption|exact X|].
              rewrite <- Eqq. unfold pot. rewrite fsum_cons. cbn [fcur]. cbn [length] in Hf. lia.
Qed.
End Total.

Definition graph_wf (g : graph) : Prop := forall a b, In b (succs g a) -> b < length g.

Lemma cost_seq : forall g, cost g (seq 0 (length g)) = length (concat g) + length g.
Proof.
  unfold cost, wt, succs. induction g as [|a g IH]; [reflexivity|].
  cbn [length seq map concat]. rewrite <- seq_shift, map_map. cbn [nth].
  rewrite app_length. change (list_sum (S (length a) :: ?l)) with (S (length a) + list_sum l).
  rewrite IH. lia.
Qed.

Theorem build_total : forall g e, graph_wf g -> e < length g -> exists w, build g e = Some w.
Proof.
  intros g e Hwf He. unfold build, build_fuel.
  assert (I0 : Inv g e (dfn st0) (stk st0) (fun x => x < length g) e (num st0) [e] []
                   [new_frame g e (discover e st0)] [] (discover e st0)).
  { apply Inv_init; auto.
    - intros a b Ha Hb. left. apply (Hwf a b Hb).
    - intros y Hy. exfalso. apply Hy. reflexivity.
    - constructor. }
  set (RL := seq 0 (length g)).
  assert (HeRL : incl [e] RL) by (intros z [<-|[]]; apply in_seq; lia).
  assert (X0 : TX g (cost g RL) (fun x => x < length g) RL [e] [e] (discover e st0)).
  { constructor.
    - apply seq_NoDup.
    - intros x Hx. apply in_seq. lia.
    - lia.
    - constructor; [intros []|constructor].
    - exact HeRL.
    - intros x Hx. left. exact Hx. }
  destruct (loop_total g e (cost g RL) (fuel_for g) _ _ [] _ _ _ _ [] _ _ _ RL [e] I0 X0) as [s' [p' Hrun]].
  { rewrite pot_start by (apply in_seq; lia). unfold RL. rewrite seq_length, cost_seq.
    pose proof (call_fuel (length g) (length (concat g) + length g) ltac:(lia)) as Hq.
    unfold fuel_for. nia. }
  cbn [app] in Hrun. rewrite Hrun. exists p'. reflexivity.
Qed.

(* the well-formedness theorem without hypothesis on the fuel *)
Theorem build_total_WF : forall g e, graph_wf g -> e < length g ->
  exists w, build g e = Some w /\ wto_ok g e w = true /\
            WF g e w (nesting w) (seq 0 (length g) ++ flat w).
Proof.
  intros g e Hwf He. destruct (build_total g e Hwf He) as [w Hw]. exists w.
  split; [exact Hw|]. split; [apply build_ok, Hw|apply build_WF, Hw].
Qed.
