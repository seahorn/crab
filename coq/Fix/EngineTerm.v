(* EngineTerm.v — termination of the interleaved fixpoint engine (Fix/Engine.v), generic in
   the abstract value type.

   (1) Fuel monotonicity: once a run has an answer, more fuel gives the same answer
       (inc_loop, dec_loop, visit, visit_all, run).
   (2) Termination: if the widening moves strictly down a well-founded relation R (one
       relation R h per cycle head h) whenever the inclusion test that guards it fails
       (hypothesis [progress]), then for every component, every weak topological order and
       every state there is a fuel for which the engine answers.  The hypothesis may be
       restricted to values satisfying a representation invariant [Inv] that all operators,
       the block transformer, the assumptions and the initial value preserve (the initial
       value is a parameter of the engine: hypothesis [Inv_init]).

   Argument.  Fuel is one number shared by all loops, so fuel monotonicity is used to
   combine the (existentially given) fuels of the finitely many body passes that a loop
   performs.  dec_loop runs at most descending+1 passes whatever the values; inc_loop runs
   at most delay+1 passes with join, and afterwards every pass that does not exit replaces
   pre by (pre widen new_pre) with new_pre </= pre: well-founded induction on R. *)
From Coq Require Import List Bool Arith Lia.
From CrabV Require Import Fix.Wto Fix.WtoCheck Fix.Engine Fix.EngineInv.
Import ListNotations.

Section Term.
  Variable A : Type.
  Variable OP : aops A.
  Variable analyze : nat -> A -> A.
  Variable preds : nat -> list nat.
  Variable nest : nat -> list nat.
  Variable entry : nat.
  Variable delay descending : nat.
  Variable use_asm : bool.
  Variable asm : nat -> option A.
  Variable init : A.

  Notation vis := (visit A OP analyze preds nest entry delay descending use_asm asm init).
  Notation visl := (visit_all A OP analyze preds nest entry delay descending use_asm asm init).
  Notation incl := (inc_loop A OP analyze preds delay use_asm asm).
  Notation decl := (dec_loop A OP analyze preds descending use_asm asm).
  Notation erun := (run A OP analyze preds nest entry delay descending use_asm asm init).
  Notation sthen := (strengthen A OP use_asm asm).
  Notation hinflow := (head_inflow A OP preds use_asm asm).
  Notation est := (est A).

  Notation cyc_epre := (cyc_epre A entry init).
  Notation cyc_pre0 := (cyc_pre0 A OP preds nest entry use_asm asm init).
  Notation cyc_st0 := (cyc_st0 A).
  Notation cyc_core := (cyc_core A OP analyze preds delay descending use_asm asm).

  Section LoopMono.
    Variables vb vb' : est -> option est.
    Hypothesis vb_le : forall s r, vb s = Some r -> vb' s = Some r.
    Variable h : nat.
    Variable ep : option A.

    Lemma inc_loop_mono : forall f f' i pre st r,
      incl vb h ep f i pre st = Some r -> f <= f' -> incl vb' h ep f' i pre st = Some r.
    Proof.
      induction f as [|f IH]; intros f' i pre st r H L; [discriminate H|].
      destruct f' as [|f']; [lia|].
      cbn [inc_loop] in H |- *.
      destruct (vb _) as [st2|] eqn:E; [|discriminate H].
      rewrite (vb_le _ _ E).
      destruct (o_leq A OP _ pre); [exact H|].
      apply (IH f'); [exact H|lia].
    Qed.

    Lemma dec_loop_mono : forall f f' i pre st r,
      decl vb h ep f i pre st = Some r -> f <= f' -> decl vb' h ep f' i pre st = Some r.
    Proof.
      induction f as [|f IH]; intros f' i pre st r H L; [discriminate H|].
      destruct f' as [|f']; [lia|].
      cbn [dec_loop] in H |- *.
      destruct (vb _) as [st2|] eqn:E; [|discriminate H].
      rewrite (vb_le _ _ E).
      destruct (o_leq A OP pre _); [exact H|].
      destruct (descending <? i); [exact H|].
      apply (IH f'); [exact H|lia].
    Qed.
  End LoopMono.

  Definition mono_at (c : comp) : Prop :=
    forall f f' st r, vis f c st = Some r -> f <= f' -> vis f' c st = Some r.

  Lemma visit_all_mono_F body : Forall mono_at body ->
    forall f f' st r, visl f body st = Some r -> f <= f' -> visl f' body st = Some r.
  Proof.
    induction 1 as [|c l Hc Hl IH]; intros f f' st r H L; cbn [visit_all] in H |- *; [exact H|].
    destruct (vis f c st) as [s'|] eqn:E; [|discriminate H].
    rewrite (Hc _ _ _ _ E L). apply (IH f); assumption.
  Qed.

  Theorem visit_mono : forall c, mono_at c.
  Proof.
    induction c as [n|h body F] using comp_ind'; intros f f' st r H L; [exact H|].
    rewrite visit_cycle_eq in H |- *.
    destruct (e_skip A st && negb _); [exact H|]. unfold EngineInv.cyc_core in H |- *.
    assert (VB : forall s r0, visl f body s = Some r0 -> visl f' body s = Some r0).
    { intros s r0 E. exact (visit_all_mono_F body F f f' s r0 E L). }
    destruct (incl (visl f body) _ _ f _ _ _) as [[pre st']|] eqn:EI; [|discriminate H].
    rewrite (inc_loop_mono _ _ VB _ _ _ _ _ _ _ _ EI L).
    destruct (Nat.eqb descending 0); [exact H|].
    exact (dec_loop_mono _ _ VB _ _ _ _ _ _ _ _ H L).
  Qed.

  Theorem visit_all_mono w : forall f f' st r,
    visl f w st = Some r -> f <= f' -> visl f' w st = Some r.
  Proof.
    apply visit_all_mono_F. apply Forall_forall. intros c _. apply visit_mono.
  Qed.

  Theorem run_mono w f f' r :
    erun f w = Some r -> f <= f' -> erun f' w = Some r.
  Proof. unfold run. apply visit_all_mono. Qed.

  Variable Inv : A -> Prop.
  Hypothesis Inv_bot : Inv (o_bot A OP).
  Hypothesis Inv_join : forall a b, Inv a -> Inv b -> Inv (o_join A OP a b).
  Hypothesis Inv_meet : forall a b, Inv a -> Inv b -> Inv (o_meet A OP a b).
  Hypothesis Inv_widen : forall n a b, Inv a -> Inv b -> Inv (o_widen A OP n a b).
  Hypothesis Inv_narrow : forall a b, Inv a -> Inv b -> Inv (o_narrow A OP a b).
  Hypothesis Inv_analyze : forall n a, Inv a -> Inv (analyze n a).
  Hypothesis Inv_asm : forall n a, use_asm = true -> asm n = Some a -> Inv a.
  Hypothesis Inv_init : Inv init.

  Definition SInv (st : est) : Prop :=
    (forall n, Inv (e_pre A st n)) /\ (forall n, Inv (e_post A st n)).

  Lemma strengthen_inv n a : Inv a -> Inv (sthen n a).
  Proof.
    intros I. unfold strengthen. destruct use_asm eqn:U; [|exact I].
    destruct (asm n) as [x|] eqn:E; [|exact I]. apply Inv_meet; [exact I|]. exact (Inv_asm n x eq_refl E).
  Qed.

  Lemma extrapolate_inv h i a b : Inv a -> Inv b -> Inv (extrapolate A OP delay h i a b).
  Proof. intros. unfold extrapolate. destruct (i <=? delay); auto. Qed.

  Lemma refine_inv i a b : Inv a -> Inv b -> Inv (refine A OP i a b).
  Proof. intros. unfold refine. destruct (Nat.eqb i 1); auto. Qed.

  (* [SInv] is a table invariant in the sense of Fix/EngineInv.v *)
  Lemma Inv_preserved :
    preserved A OP analyze preds entry delay use_asm asm init
      (fun _ => Inv) (fun _ => Inv) (fun _ => Inv).
  Proof.
    constructor; auto.
    - exact strengthen_inv.
    - exact extrapolate_inv.
    - intros _. exact refine_inv.
  Qed.

  Theorem run_SInv w f r : erun f w = Some r -> SInv r.
  Proof. exact (run_inv Inv_preserved f w r (fun _ => Inv_bot) (fun _ => Inv_bot) Inv_init). Qed.

  Variable R : nat -> A -> A -> Prop.          (* one order per cycle head: thresholds are per cycle *)
  Hypothesis R_wf : forall n, well_founded (R n).
  Hypothesis progress : forall n a b, Inv a -> Inv b ->
    o_leq A OP b a = false -> R n (o_widen A OP n a b) a.

  Section LoopTerm.
    (* the visit of the loop body, as a function of the fuel *)
    Variable vbf : nat -> est -> option est.
    Hypothesis vbf_mono : forall f f' s r, vbf f s = Some r -> f <= f' -> vbf f' s = Some r.
    Hypothesis vbf_inv : forall f s r, SInv s -> vbf f s = Some r -> SInv r.
    Hypothesis vbf_total : forall s, SInv s -> exists f r, vbf f s = Some r.
    Variable h : nat.
    Variable ep : option A.
    Hypothesis ep_inv : forall ip, ep = Some ip -> Inv ip.

    (* one more pass in front of a terminating run *)
    Lemma inc_step i pre st : Inv pre -> SInv st ->
      (forall st2, SInv st2 -> o_leq A OP (hinflow h ep st2) pre = false ->
         exists f r, incl (vbf f) h ep f (S i) (extrapolate A OP delay h i pre (hinflow h ep st2)) st2 = Some r) ->
      exists f r, incl (vbf f) h ep f i pre st = Some r.
    Proof.
      intros I HS K.
      pose proof (set_head_ok Inv_preserved h pre st HS I) as S1.
      destruct (vbf_total _ S1) as (f1 & st2 & E1).
      pose proof (vbf_inv _ _ _ S1 E1) as S2.
      destruct (o_leq A OP (hinflow h ep st2) pre) eqn:LE.
      - exists (S f1). eexists. cbn [inc_loop].
        rewrite (vbf_mono f1 (S f1) _ _ E1) by lia. rewrite LE. reflexivity.
      - destruct (K st2 S2 LE) as (f2 & r & E2).
        exists (S (Nat.max f1 f2)), r. cbn [inc_loop].
        rewrite (vbf_mono f1 (S (Nat.max f1 f2)) _ _ E1) by lia. rewrite LE.
        apply (inc_loop_mono (vbf f2) (vbf (S (Nat.max f1 f2)))) with (f := f2); [|exact E2|lia].
        intros s r0 E. apply (vbf_mono f2); [exact E|lia].
    Qed.

    (* after the delay: every pass that does not exit is a widening step *)
    Lemma inc_term_widen : forall pre, Acc (R h) pre -> forall i st,
      delay < i -> Inv pre -> SInv st -> exists f r, incl (vbf f) h ep f i pre st = Some r.
    Proof.
      induction 1 as [pre _ IH]. intros i st D I HS.
      apply inc_step; [exact I|exact HS|]. intros st2 S2 LE.
      pose proof (head_inflow_ok Inv_preserved h ep ep_inv st2 S2) as NP.
      assert (X : extrapolate A OP delay h i pre (hinflow h ep st2) = o_widen A OP h pre (hinflow h ep st2)).
      { unfold extrapolate. destruct (Nat.leb_spec i delay); [lia|reflexivity]. }
      rewrite X. apply IH; [apply progress; assumption|lia|apply Inv_widen; assumption|exact S2].
    Qed.

    Lemma inc_term : forall k i pre st,
      delay < i + k -> Inv pre -> SInv st -> exists f r, incl (vbf f) h ep f i pre st = Some r.
    Proof.
      induction k as [|k IH]; intros i pre st D I HS.
      - apply inc_term_widen; [apply R_wf|lia|exact I|exact HS].
      - apply inc_step; [exact I|exact HS|]. intros st2 S2 LE.
        apply IH; [lia| |exact S2].
        apply extrapolate_inv; [exact I|]. exact (head_inflow_ok Inv_preserved h ep ep_inv st2 S2).
    Qed.

    Lemma dec_step i pre st : Inv pre -> SInv st ->
      (forall st2, SInv st2 -> (descending <? i) = false ->
         let pre' := refine A OP i pre (hinflow h ep st2) in
         exists f r, decl (vbf f) h ep f (S i) pre'
                          (mkE A (tset A (e_pre A st2) h pre') (e_post A st2) (e_skip A st2)) = Some r) ->
      exists f r, decl (vbf f) h ep f i pre st = Some r.
    Proof.
      intros I HS K.
      pose proof (set_post_ok Inv_preserved h pre st HS I) as S1.
      destruct (vbf_total _ S1) as (f1 & st2 & E1).
      pose proof (vbf_inv _ _ _ S1 E1) as S2.
      destruct (o_leq A OP pre (hinflow h ep st2) || (descending <? i)) eqn:STOP.
      - exists (S f1), st2. cbn [dec_loop].
        rewrite (vbf_mono f1 (S f1) _ _ E1) by lia.
        destruct (o_leq A OP pre _); [reflexivity|]. cbn [orb] in STOP. rewrite STOP. reflexivity.
      - apply orb_false_elim in STOP. destruct STOP as [LE DI].
        destruct (K st2 S2 DI) as (f2 & r & E2).
        exists (S (Nat.max f1 f2)), r. cbn [dec_loop].
        rewrite (vbf_mono f1 (S (Nat.max f1 f2)) _ _ E1) by lia. rewrite LE, DI.
        apply (dec_loop_mono (vbf f2) (vbf (S (Nat.max f1 f2)))) with (f := f2); [|exact E2|lia].
        intros s r0 E. apply (vbf_mono f2); [exact E|lia].
    Qed.

    (* at most descending+1 passes *)
    Lemma dec_term : forall k i pre st,
      descending < i + k -> Inv pre -> SInv st -> exists f r, decl (vbf f) h ep f i pre st = Some r.
    Proof.
      induction k as [|k IH]; intros i pre st D I HS; (apply dec_step; [exact I|exact HS|]); intros st2 S2 DI pre'.
      - apply Nat.ltb_ge in DI. lia.
      - pose proof (refine_inv i _ _ I (head_inflow_ok Inv_preserved h ep ep_inv st2 S2)) as RI.
        apply IH; [lia|exact RI|]. exact (@set_pre_ok A (fun _ => Inv) (fun _ => Inv) h pre' st2 S2 RI).
    Qed.
  End LoopTerm.

  Definition total_at (c : comp) : Prop := forall st, SInv st -> exists f r, vis f c st = Some r.

  Lemma visit_all_total_F body : Forall total_at body ->
    forall st, SInv st -> exists f r, visl f body st = Some r.
  Proof.
    induction 1 as [|c l Hc Hl IH]; intros st HS.
    - exists 0, st. reflexivity.
    - destruct (Hc st HS) as (f1 & s' & E1).
      destruct (IH s' (visit_inv Inv_preserved f1 c st s' HS E1)) as (f2 & r & E2).
      exists (Nat.max f1 f2), r. cbn [visit_all].
      rewrite (visit_mono c f1 (Nat.max f1 f2) st s' E1) by lia.
      apply (visit_all_mono l f2); [exact E2|lia].
  Qed.

  Theorem visit_total : forall c, total_at c.
  Proof.
    induction c as [n|h body F] using comp_ind'; intros st HS.
    - exists 0. eexists. reflexivity.
    - destruct (e_skip A st && negb (e_skip A st && comp_member entry (Cycle h body))) eqn:SK.
      { exists 0, st. rewrite visit_cycle_eq, SK. reflexivity. }
      set (vbf := fun f => visl f body).
      assert (M : forall f f' s r, vbf f s = Some r -> f <= f' -> vbf f' s = Some r).
      { intros f f' s r. apply visit_all_mono. }
      assert (V : forall f s r, SInv s -> vbf f s = Some r -> SInv r).
      { intros f s r. apply (visit_all_inv Inv_preserved). }
      assert (T : forall s, SInv s -> exists f r, vbf f s = Some r).
      { apply visit_all_total_F. exact F. }
      pose proof (cyc_epre_in Inv_preserved h) as EP.
      pose proof (cyc_pre0_ok (nest := nest) Inv_preserved st h HS) as I0.
      pose proof (HS : SInv (cyc_st0 st)) as HS0.
      destruct (inc_term vbf M V T h _ EP (S delay) 1 _ _ ltac:(lia) I0 HS0)
        as (f1 & [pre st'] & E1).
      destruct (inc_loop_inv Inv_preserved _ (V f1) h _ EP _ _ _ _ _ _ I0 HS0 E1) as [I' S'].
      destruct (Nat.eqb descending 0) eqn:D0.
      + exists f1, st'. rewrite visit_cycle_eq, SK. unfold EngineInv.cyc_core.
        unfold vbf in E1. rewrite E1, D0. reflexivity.
      + destruct (dec_term vbf M V T h _ EP (S descending) 1 pre st' ltac:(lia) I' S') as (f2 & r & E2).
        exists (Nat.max f1 f2), r. rewrite visit_cycle_eq, SK. unfold EngineInv.cyc_core.
        rewrite (inc_loop_mono (vbf f1) (vbf (Nat.max f1 f2))
                   ltac:(intros s r0 E; apply (M f1); [exact E|lia]) _ _ f1 _ _ _ _ _ E1) by lia.
        rewrite D0.
        apply (dec_loop_mono (vbf f2) (vbf (Nat.max f1 f2))) with (f := f2); [|exact E2|lia].
        intros s r0 E. apply (M f2); [exact E|lia].
  Qed.

  Theorem visit_all_total w : forall st, SInv st -> exists f r, visl f w st = Some r.
  Proof. apply visit_all_total_F. apply Forall_forall. intros c _. apply visit_total. Qed.

  Theorem run_total w : exists f r, erun f w = Some r.
  Proof.
    unfold run. apply visit_all_total.
    split; cbn [e_pre e_post]; [apply (tset_ok A (fun _ => Inv)); auto|auto].
  Qed.

  Corollary visit_terminates c st : SInv st -> exists f, vis f c st <> None.
  Proof. intros HS. destruct (visit_total c st HS) as (f & r & E). exists f. rewrite E. discriminate. Qed.

  Corollary run_terminates w : exists f, erun f w <> None.
  Proof. destruct (run_total w) as (f & r & E). exists f. rewrite E. discriminate. Qed.
End Term.
