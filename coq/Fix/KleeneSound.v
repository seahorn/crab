(* KleeneSound.v — a stable Kleene iterate is exactly the reachable states. *)
From Coq Require Import List Bool Arith NArith Lia.
From CrabV Require Import Fix.Kleene.
Import ListNotations.

Section Reach.
  Variable F : flow.

  Definition asm_ok (n : nat) (s : N) : Prop :=
    match f_asm F n with Some a => smem s a = true | None => True end.

  (* states with which some execution arrives at / leaves block n *)
  Inductive ReachPre : nat -> N -> Prop :=
  | RP_init s : smem s (f_init F) = true -> asm_ok (f_entry F) s -> ReachPre (f_entry F) s
  | RP_edge n p s : In p (f_preds F n) -> ReachPost p s -> asm_ok n s -> ReachPre n s
  with ReachPost : nat -> N -> Prop :=
  | RPost n s t : ReachPre n s -> In (s, t) (f_rel F n) -> ReachPost n t.

  Scheme ReachPre_ind_mut := Induction for ReachPre Sort Prop
    with ReachPost_ind_mut := Induction for ReachPost Sort Prop.
  Combined Scheme Reach_mutind from ReachPre_ind_mut, ReachPost_ind_mut.

  Definition sound_tabs (t : tabs) : Prop :=
    (forall n s, smem s (fst t n) = true -> ReachPre n s) /\
    (forall n s, smem s (snd t n) = true -> ReachPost n s).

  Lemma smem_join s a b : smem s (sjoin a b) = smem s a || smem s b.
  Proof. unfold smem, sjoin. apply N.lor_spec. Qed.
  Lemma smem_meet s a b : smem s (smeet a b) = smem s a && smem s b.
  Proof. unfold smem, smeet. apply N.land_spec. Qed.
  Lemma smem_zero s : smem s 0%N = false.
  Proof. apply N.bits_0. Qed.

  Lemma image_spec r a t :
    smem t (image r a) = true <-> exists s, smem s a = true /\ In (s, t) r.
  Proof.
    unfold image.
    assert (G : forall acc, smem t (fold_left (fun acc p => if smem (fst p) a then N.setbit acc (snd p) else acc) r acc) = true
                <-> (smem t acc = true \/ exists s, smem s a = true /\ In (s, t) r)).
    { induction r as [|[s0 t0] r IH]; simpl; intros acc.
      - split; [auto|intros [H|(s & _ & [])]; auto].
      - rewrite IH.
        assert (ST : smem t (if smem s0 a then N.setbit acc t0 else acc) = true <->
                     smem t acc = true \/ (smem s0 a = true /\ t0 = t)).
        { destruct (smem s0 a); [|intuition discriminate].
          unfold smem. rewrite N.setbit_eqb, orb_true_iff, N.eqb_eq. tauto. }
        rewrite ST. split.
        + intros [[H|[H <-]]|(s & Hs & I)]; eauto.
        + intros [H|(s & Hs & [X|I])]; [auto|inversion X; subst; auto|eauto]. }
    rewrite G. rewrite smem_zero. split; [intros [H|H]; [discriminate|auto]|auto].
  Qed.

  Lemma fold_join_spec (post : nat -> sset) (ps : list nat) s : forall acc,
    smem s (fold_left (fun acc p => sjoin acc (post p)) ps acc) = true <->
    (smem s acc = true \/ exists p, In p ps /\ smem s (post p) = true).
  Proof.
    induction ps as [|p r IH]; simpl; intros acc.
    - split; [auto|intros [H|(p & [] & _)]; auto].
    - rewrite IH, smem_join, orb_true_iff. split.
      + intros [[H|H]|(q & I & H)]; eauto.
      + intros [H|(q & [<-|I] & H)]; eauto.
  Qed.

  Lemma inflow_spec post n s :
    smem s (inflow F post n) = true <->
    ((n = f_entry F /\ smem s (f_init F) = true) \/ exists p, In p (f_preds F n) /\ smem s (post p) = true)
    /\ asm_ok n s.
  Proof.
    unfold inflow, strengthenF, asm_ok.
    assert (B : smem s (sjoin (if Nat.eqb n (f_entry F) then f_init F else 0%N)
                     (fold_left (fun acc p => sjoin acc (post p)) (f_preds F n) 0%N)) = true <->
                ((n = f_entry F /\ smem s (f_init F) = true) \/ exists p, In p (f_preds F n) /\ smem s (post p) = true)).
    { rewrite smem_join, orb_true_iff, fold_join_spec, smem_zero.
      destruct (Nat.eqb_spec n (f_entry F)).
      - split; [intros [H|[H|H]]; [auto|discriminate|auto]|intros [[_ H]|H]; auto].
      - rewrite smem_zero. split; [intros [H|[H|H]]; [discriminate|discriminate|auto]|intros [[E _]|H]; [congruence|auto]]. }
    destruct (f_asm F n) as [a|].
    - rewrite smem_meet, andb_true_iff, B. tauto.
    - rewrite B. tauto.
  Qed.

  Lemma round_step_sound t n : sound_tabs t ->
    sound_tabs ((fun m => if Nat.eqb m n then inflow F (snd t) n else fst t m),
                (fun m => if Nat.eqb m n then image (f_rel F n) (inflow F (snd t) n) else snd t m)).
  Proof.
    intros [SP SQ].
    assert (PRE : forall s, smem s (inflow F (snd t) n) = true -> ReachPre n s).
    { intros s H. apply inflow_spec in H. destruct H as [[[-> I]|(p & I & H)] A].
      - apply RP_init; auto.
      - eapply RP_edge; eauto. }
    split; simpl; intros m s H.
    - destruct (Nat.eqb_spec m n); [subst; auto|auto].
    - destruct (Nat.eqb_spec m n); [subst|auto].
      apply image_spec in H. destruct H as (s0 & H0 & I). eapply RPost; eauto.
  Qed.

  Lemma round_sound t : sound_tabs t -> sound_tabs (round F t).
  Proof.
    unfold round. generalize (seq 0 (f_blocks F)). intros l. revert t.
    induction l as [|n r IH]; simpl; intros t S; auto.
    apply IH. apply round_step_sound; auto.
  Qed.

  Lemma iterate_sound k : forall t, sound_tabs t -> sound_tabs (iterate F k t).
  Proof. induction k as [|k IH]; simpl; intros t S; auto. apply IH. apply round_sound; auto. Qed.

  (* completeness of a stable table: it satisfies the equations, hence contains Reach *)
  Definition solves (t : tabs) : Prop :=
    forall n, n < f_blocks F ->
      fst t n = inflow F (snd t) n /\ snd t n = image (f_rel F n) (fst t n).

  Definition in_range : Prop :=
    f_entry F < f_blocks F /\
    (forall n p, In p (f_preds F n) -> p < f_blocks F) /\
    (forall n, f_blocks F <= n -> f_preds F n = [] /\ f_rel F n = []).

  Lemma reach_in_solution t : solves t -> in_range ->
    (forall n s, ReachPre n s -> n < f_blocks F -> smem s (fst t n) = true) /\
    (forall n s, ReachPost n s -> n < f_blocks F -> smem s (snd t n) = true).
  Proof.
    intros SOL (RE & RP & RO).
    apply (Reach_mutind
             (fun n s _ => n < f_blocks F -> smem s (fst t n) = true)
             (fun n s _ => n < f_blocks F -> smem s (snd t n) = true)).
    - intros s I A L. destruct (SOL _ L) as [E _]. rewrite E. apply inflow_spec. split; auto.
    - intros n p s I RPp IH A L. destruct (SOL _ L) as [E _]. rewrite E. apply inflow_spec.
      split; auto. right. exists p. split; auto. apply IH. eapply RP; eauto.
    - intros n s t0 RPn IH I L. destruct (SOL _ L) as [_ E]. rewrite E. apply image_spec.
      exists s. split; auto.
  Qed.

  Lemma solvesb_solves t : solvesb F t = true -> solves t.
  Proof.
    unfold solvesb, solves. intros H n L. rewrite forallb_forall in H.
    specialize (H n). rewrite in_seq in H. specialize (H ltac:(lia)).
    apply andb_true_iff in H. destruct H as [H1 H2]. apply N.eqb_eq in H1, H2. auto.
  Qed.

  Lemma sound_zero : sound_tabs ((fun _ => 0%N), (fun _ => 0%N)).
  Proof. split; intros n s H; cbn [fst snd] in H; rewrite smem_zero in H; discriminate. Qed.

  (* the validated least fixpoint is exactly the set of reaching states *)
  Theorem lfp_is_reach rounds t : in_range -> lfp F rounds = Some t ->
    (forall n s, n < f_blocks F -> (smem s (fst t n) = true <-> ReachPre n s)) /\
    (forall n s, n < f_blocks F -> (smem s (snd t n) = true <-> ReachPost n s)).
  Proof.
    intros R H. unfold lfp in H.
    destruct (solvesb F _) eqn:E; inversion H; subst. clear H.
    pose proof (iterate_sound rounds _ sound_zero) as [S1 S2].
    destruct (reach_in_solution _ (solvesb_solves _ E) R) as [C1 C2].
    split; intros n s L; split; auto.
  Qed.
End Reach.
