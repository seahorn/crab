(* EngineSound.v — the fixpoint engine model (Fix/Engine.v, mirror of crab's
   interleaved_fwd_fixpoint_iterator) is SOUND: for every CFG, every weak topological
   ordering with distinct nodes whose edges respect the ordering, every fuel, widening
   delay, number of descending iterations and assumption map, the tables of a terminated
   run contain the collecting semantics RPre / RPost of Fix/EngineCheck.v.  The analysis may
   start at ANY block of the ordering, also strictly inside loops: the initial value flows
   into the entry block together with its predecessors' posts.

   No checker is involved and nothing is assumed about widening, the order test being
   sound is all that is used of the increasing phase: only its LAST pass matters.  The
   proof is by structural induction on the components (Bekic): visiting a component makes
   its table entries contain the collecting semantics RELATIVE to the component
   (Fix/EngineRel.v), where the external inputs are the post entries, at the time of the
   visit, of the nodes outside the component. *)
From Coq Require Import List Bool Arith Lia.
From CrabV Require Import Fix.Wto Fix.WtoCheck Fix.WtoSound Fix.Engine Fix.EngineInv Fix.EngineBelow
     Fix.EngineCheck Fix.EngineRel.
Import ListNotations.

Section Sound.
  Variable A : Type.
  Variable State : Type.
  Variable gamma : A -> State -> Prop.
  Variable OP : aops A.
  Hypothesis join_l : forall a b s, gamma a s -> gamma (o_join A OP a b) s.
  Hypothesis join_r : forall a b s, gamma b s -> gamma (o_join A OP a b) s.
  Hypothesis meet_s : forall a b s, gamma a s -> gamma b s -> gamma (o_meet A OP a b) s.
  Hypothesis narrow_s : forall a b s, gamma a s -> gamma b s -> gamma (o_narrow A OP a b) s.
  Hypothesis leq_s : forall a b s, o_leq A OP a b = true -> gamma a s -> gamma b s.

  Variable analyze : nat -> A -> A.
  Variable bstep : nat -> State -> State -> Prop.
  Hypothesis analyze_s : forall n a s s', gamma a s -> bstep n s s' -> gamma (analyze n a) s'.

  Variable preds : nat -> list nat.
  Variable nest : nat -> list nat.
  Variable entry : nat.
  Variable delay descending : nat.
  Variable use_asm : bool.
  Variable asm : nat -> option A.
  Variable Init : State -> Prop.
  Variable init : A.
  Hypothesis init_s : forall s, Init s -> gamma init s.
  Variable fuel : nat.

  Notation pre := (e_pre A).
  Notation post := (e_post A).
  Notation skip := (e_skip A).
  Notation tset := (tset A).
  Notation strengthen := (strengthen A OP use_asm asm).
  Notation join_posts := (join_posts A OP).
  Notation head_inflow := (head_inflow A OP preds use_asm asm).
  Notation visit_vertex := (visit_vertex A OP analyze preds entry use_asm asm init).
  Notation join_posts_from := (join_posts_from A OP).
  Notation inc_loop := (inc_loop A OP analyze preds delay use_asm asm).
  Notation dec_loop := (dec_loop A OP analyze preds descending use_asm asm).
  Notation visit := (visit A OP analyze preds nest entry delay descending use_asm asm init fuel).
  Notation visit_all := (visit_all A OP analyze preds nest entry delay descending use_asm asm init fuel).
  Notation asm_holds := (asm_holds A State gamma use_asm asm).
  Notation RRpre := (RRpre A State gamma bstep preds entry use_asm asm Init).
  Notation RRpost := (RRpost A State gamma bstep preds entry use_asm asm Init).
  Notation RPre := (RPre A State gamma bstep preds entry use_asm asm Init).
  Notation RPost := (RPost A State gamma bstep preds entry use_asm asm Init).
  Notation eok := (eok preds).
  Notation RRpre_in := (RRpre_in A State gamma bstep preds entry use_asm asm Init).
  Notation RRpost_in := (RRpost_in A State gamma bstep preds entry use_asm asm Init).
  Notation RR_decomp := (RR_decomp A State gamma bstep preds entry use_asm asm Init).
  Notation RR_mono := (RR_mono A State gamma bstep preds entry use_asm asm Init).
  Notation RR_mutind := (RR_mutind A State gamma bstep preds entry use_asm asm Init).
  Notation cyc_core := (cyc_core A OP analyze preds delay descending use_asm asm fuel).

  (* external inputs read off a table *)
  Definition Ext_of (st : est A) : nat -> State -> Prop := fun p s => gamma (post st p) s.

  Definition SoundOn (C : list nat) (E : nat -> State -> Prop) (st : est A) : Prop :=
    (forall n s, RRpre C E n s -> gamma (pre st n) s) /\
    (forall n s, RRpost C E n s -> gamma (post st n) s).
  Definition Frame (C : list nat) (st st' : est A) : Prop :=
    forall m, ~ In m C -> pre st' m = pre st m /\ post st' m = post st m.
  (* visiting the nodes C (not skipping) *)
  Definition VSpec (C : list nat) (v : est A -> option (est A)) : Prop :=
    forall st st', skip st = false -> v st = Some st' ->
      skip st' = false /\ Frame C st st' /\ SoundOn C (Ext_of st) st'.

  Lemma tset_same (t : nat -> A) n v : tset t n v n = v.
  Proof. unfold Engine.tset. rewrite Nat.eqb_refl. reflexivity. Qed.
  Lemma tset_other (t : nat -> A) n v m : m <> n -> tset t n v m = t m.
  Proof. intros H. unfold Engine.tset. apply Nat.eqb_neq in H. rewrite H. reflexivity. Qed.

  Lemma Frame_refl C st : Frame C st st.
  Proof. intros m _. split; reflexivity. Qed.
  Lemma Frame_trans C st1 st2 st3 : Frame C st1 st2 -> Frame C st2 st3 -> Frame C st1 st3.
  Proof.
    intros F1 F2 m N. destruct (F1 m N) as [a b]. destruct (F2 m N) as [c d].
    split; congruence.
  Qed.
  Lemma Frame_incl C C' st st' : (forall x, In x C -> In x C') -> Frame C st st' -> Frame C' st st'.
  Proof. intros S F m N. apply F. intros X. apply N, S, X. Qed.

  Lemma SoundOn_mono C (E E' : nat -> State -> Prop) st :
    (forall p s, ~ In p C -> E' p s -> E p s) -> SoundOn C E st -> SoundOn C E' st.
  Proof.
    intros H [S1 S2].
    destruct (RR_mono C E' E) as [M1 M2].
    - intros m p s _ _ N X. apply H; assumption.
    - split; intros n s R; [apply S1, M1, R|apply S2, M2, R].
  Qed.

  Lemma refine_s i a b s : gamma a s -> gamma b s -> gamma (refine A OP i a b) s.
  Proof. intros Ga Gb. unfold refine. destruct (Nat.eqb i 1); [apply meet_s|apply narrow_s]; assumption. Qed.

  Lemma head_inflow_s h ep st s : asm_holds h s ->
    ((exists p, In p (preds h) /\ gamma (post st p) s) \/ (exists ip, ep = Some ip /\ gamma ip s)) ->
    gamma (head_inflow h ep st) s.
  Proof.
    intros AH H. unfold Engine.head_inflow.
    apply (strengthen_sound A State gamma OP meet_s); [|exact AH].
    destruct H as [[p [I G]]|[ip [-> G]]].
    - pose proof (join_posts_sound A State gamma OP join_l join_r (post st) p (preds h) s I G) as J.
      destruct ep; [apply join_l|]; exact J.
    - apply join_r. exact G.
  Qed.

  Lemma vertex_spec n : ~ In n (preds n) ->
    VSpec [n] (fun st => Some (visit_vertex n st)).
  Proof.
    intros NS st st' SK V. inversion V as [V']. clear V V'.
    unfold Engine.visit_vertex. rewrite SK. cbn [andb].
    cbn [e_pre e_post e_skip].
    set (v := strengthen n (join_posts_from (post st) (preds n) (if Nat.eqb n entry then init else o_bot A OP))).
    assert (PRE : forall s, RRpre [n] (Ext_of st) n s -> gamma v s).
    { intros s R. inversion R as [s0 I1 I2 I3 E1 E2|n0 p s0 I1 I2 I3 I4 I5 E1 E2|n0 p s0 I1 I2 I3 I4 I5 E1 E2]; subst.
      - unfold v. apply (strengthen_sound A State gamma OP meet_s); [|exact I3].
        apply (join_posts_from_sound A State gamma OP join_l join_r). left. rewrite Nat.eqb_refl. apply init_s, I2.
      - unfold v. apply (strengthen_sound A State gamma OP meet_s); [|exact I5].
        apply (join_posts_from_sound A State gamma OP join_l join_r). right. exists p. split; [exact I2|exact I4].
      - exfalso. destruct I3 as [<-|[]]. exact (NS I2). }
    split; [reflexivity|]. split.
    - intros m N. assert (m <> n) by (intros ->; apply N; left; reflexivity).
      cbn [e_pre e_post]. rewrite !tset_other by assumption. split; reflexivity.
    - split.
      + intros m s R. pose proof (RRpre_in _ _ _ _ R) as [<-|[]].
        cbn [e_pre]. rewrite tset_same. apply PRE, R.
      + intros m s R. inversion R as [n0 s0 s1 R0 B E1 E2]; subst.
        pose proof (RRpre_in _ _ _ _ R0) as [<-|[]].
        cbn [e_post]. rewrite tset_same. eapply analyze_s; [apply PRE, R0|exact B].
  Qed.

  Lemma seq_spec C1 C2 v1 v2 : VSpec C1 v1 -> VSpec C2 v2 ->
    (forall x, In x C1 -> In x C2 -> False) ->
    (forall p n, In p C2 -> In n C1 -> ~ In p (preds n)) ->
    VSpec (C1 ++ C2) (fun st => match v1 st with None => None | Some s => v2 s end).
  Proof.
    intros V1 V2 DJ NB st st' SK V.
    destruct (v1 st) as [s1|] eqn:E1; [|discriminate].
    destruct (V1 st s1 SK E1) as [K1 [F1 [P1 Q1]]].
    destruct (V2 s1 st' K1 V) as [K2 [F2 [P2 Q2]]].
    split; [exact K2|]. split.
    - intros m N. destruct (F1 m) as [a b]; [intros X; apply N, in_or_app; left; exact X|].
      destruct (F2 m) as [c d]; [intros X; apply N, in_or_app; right; exact X|].
      split; congruence.
    - (* semantics relative to C1 ++ C2, restricted to C1 *)
      destruct (RR_decomp (C1 ++ C2) C1 (Ext_of st) (Ext_of st)) as [D1 D2].
      { intros x X. apply in_or_app. left. exact X. }
      { intros m p s Im Ip Ic Nc _. exfalso. apply in_app_or in Ic. destruct Ic as [Ic|Ic]; [contradiction|].
        exact (NB p m Ic Im Ip). }
      { intros m p s _ _ _ X. exact X. }
      (* ... and to C2, whose external inputs are the posts after the visit of C1 *)
      destruct (RR_decomp (C1 ++ C2) C2 (Ext_of st) (Ext_of s1)) as [D3 D4].
      { intros x X. apply in_or_app. right. exact X. }
      { intros m p s Im Ip Ic Nc R. apply in_app_or in Ic. destruct Ic as [Ic|Ic]; [|contradiction].
        unfold Ext_of. apply Q1. apply D2; assumption. }
      { intros m p s _ _ Nc X. unfold Ext_of in *. destruct (F1 p) as [_ b].
        - intros Y. apply Nc, in_or_app. left. exact Y.
        - rewrite b. exact X. }
      split; intros n s R.
      + pose proof (RRpre_in _ _ _ _ R) as I. apply in_app_or in I. destruct I as [I|I].
        * destruct (F2 n) as [a _]; [intros Y; exact (DJ n I Y)|]. rewrite a. apply P1, D1; assumption.
        * apply P2, D3; assumption.
      + pose proof (RRpost_in _ _ _ _ R) as I. apply in_app_or in I. destruct I as [I|I].
        * destruct (F2 n) as [_ b]; [intros Y; exact (DJ n I Y)|]. rewrite b. apply Q1, D2; assumption.
        * apply Q2, D4; assumption.
  Qed.

  Section CycleSound.
    Variable vbody : est A -> option (est A).
    Variable B : list nat.                  (* nodes of the nested components *)
    Variable h : nat.
    Variable entry_pre : option A.
    Hypothesis VB : VSpec B vbody.
    Hypothesis HB : ~ In h B.
    Hypothesis EP : match entry_pre with
                    | Some ip => forall s, Init s -> gamma ip s
                    | None => h <> entry
                    end.
    Let C := h :: B.

    Lemma inflow_covers st (E : nat -> State -> Prop) :
      (forall p s, ~ In p C -> E p s -> gamma (post st p) s) ->
      (forall p s, RRpost C E p s -> gamma (post st p) s) ->
      forall s, RRpre C E h s -> gamma (head_inflow h entry_pre st) s.
    Proof.
      intros HE HP s R.
      inversion R as [s0 I1 I2 I3 E1 E2|n0 p s0 I1 I2 I3 I4 I5 E1 E2|n0 p s0 I1 I2 I3 I4 I5 E1 E2]; subst.
      - apply head_inflow_s; [exact I3|]. right. destruct entry_pre as [ip|].
        + exists ip. split; [reflexivity|apply EP, I2].
        + exfalso. apply EP. reflexivity.
      - apply head_inflow_s; [exact I5|]. left. exists p. split; [exact I2|apply HE; assumption].
      - apply head_inflow_s; [exact I5|]. left. exists p. split; [exact I2|apply HP; assumption].
    Qed.

    (* the last pass of the increasing iteration *)
    Lemma inc_exit st pre_old st2 :
      skip st = false ->
      vbody (mkE A (tset (pre st) h pre_old) (tset (post st) h (analyze h pre_old)) (skip st)) = Some st2 ->
      o_leq A OP (head_inflow h entry_pre st2) pre_old = true ->
      let st' := mkE A (tset (pre st2) h (head_inflow h entry_pre st2)) (post st2) (skip st2) in
      skip st' = false /\ Frame C st st' /\ SoundOn C (Ext_of st) st'.
    Proof.
      intros SK V LE st'.
      set (st1 := mkE A (tset (pre st) h pre_old) (tset (post st) h (analyze h pre_old)) (skip st)) in *.
      set (new_pre := head_inflow h entry_pre st2) in *.
      destruct (VB st1 st2 SK V) as [K2 [F2 [P2 Q2]]].
      assert (PH : post st2 h = analyze h pre_old).
      { destruct (F2 h HB) as [_ b]. rewrite b. unfold st1. cbn [e_post]. apply tset_same. }
      assert (FO : forall m, ~ In m C -> pre st2 m = pre st m /\ post st2 m = post st m).
      { intros m N. assert (m <> h) by (intros ->; apply N; left; reflexivity).
        destruct (F2 m) as [a b]; [intros X; apply N; right; exact X|].
        rewrite a, b. unfold st1. cbn [e_pre e_post]. rewrite !tset_other by assumption. split; reflexivity. }
      assert (G : (forall n s, RRpre C (Ext_of st) n s ->
                     (n = h -> gamma new_pre s) /\ (In n B -> RRpre B (Ext_of st1) n s)) /\
                  (forall n s, RRpost C (Ext_of st) n s ->
                     (n = h -> gamma (analyze h pre_old) s) /\ (In n B -> RRpost B (Ext_of st1) n s))).
      { apply (RR_mutind C (Ext_of st)
                 (fun n s => (n = h -> gamma new_pre s) /\ (In n B -> RRpre B (Ext_of st1) n s))
                 (fun n s => (n = h -> gamma (analyze h pre_old) s) /\ (In n B -> RRpost B (Ext_of st1) n s))).
        - (* the initial states *)
          intros s I1 I2 I3. split.
          + intros EH. unfold new_pre. apply head_inflow_s; [rewrite <- EH; exact I3|].
            right. destruct entry_pre as [ip|].
            * exists ip. split; [reflexivity|apply EP, I2].
            * exfalso. apply EP. symmetry. exact EH.
          + intros X. apply RR_init; assumption.
        - (* an edge from outside the cycle *)
          intros n p s I1 I2 I3 I4 I5. split.
          + intros ->. unfold new_pre. apply head_inflow_s; [exact I5|]. left. exists p.
            split; [exact I2|]. destruct (FO p I3) as [_ b]. rewrite b. exact I4.
          + intros X. apply RR_out with p; auto.
            * intros Y. apply I3. right. exact Y.
            * assert (p <> h) by (intros ->; apply I3; left; reflexivity).
              unfold Ext_of, st1. cbn [e_post]. rewrite tset_other by assumption. exact I4.
        - (* an edge inside the cycle *)
          intros n p s I1 I2 I3 _ [Q1' Q2'] I5. split.
          + intros ->. unfold new_pre. apply head_inflow_s; [exact I5|]. left. exists p.
            split; [exact I2|]. destruct I3 as [<-|I3].
            * rewrite PH. apply Q1'. reflexivity.
            * apply Q2, Q2', I3.
          + intros X. destruct I3 as [<-|I3].
            * apply RR_out with h; auto. unfold Ext_of, st1. cbn [e_post]. rewrite tset_same.
              apply Q1'. reflexivity.
            * apply RR_in with p; auto.
        - (* the block *)
          intros n s s' _ [P1' P2'] BS. split.
          + intros ->. eapply analyze_s; [|exact BS]. eapply leq_s; [exact LE|]. apply P1'. reflexivity.
          + intros X. apply RR_step with s; auto. }
      destruct G as [G1 G2].
      split; [exact K2|]. split.
      - intros m N. assert (m <> h) by (intros ->; apply N; left; reflexivity).
        unfold st'. cbn [e_pre e_post]. rewrite tset_other by assumption. apply FO, N.
      - split; intros n s R.
        + destruct (G1 n s R) as [X1 X2]. unfold st'. cbn [e_pre].
          pose proof (RRpre_in _ _ _ _ R) as [<-|I].
          * rewrite tset_same. apply X1. reflexivity.
          * assert (n <> h) by (intros ->; contradiction).
            rewrite tset_other by assumption. apply P2, X2, I.
        + destruct (G2 n s R) as [X1 X2]. unfold st'. cbn [e_post].
          pose proof (RRpost_in _ _ _ _ R) as [<-|I].
          * rewrite PH. apply X1. reflexivity.
          * apply Q2, X2, I.
    Qed.

    Lemma inc_loop_spec : forall f i p0 st p' st',
      skip st = false -> inc_loop vbody h entry_pre f i p0 st = Some (p', st') ->
      skip st' = false /\ Frame C st st' /\ SoundOn C (Ext_of st) st' /\
      (forall s, RRpre C (Ext_of st) h s -> gamma p' s).
    Proof.
      induction f as [|f IH]; intros i p0 st p' st' SK H; [discriminate|].
      cbn [Engine.inc_loop] in H.
      destruct (vbody _) as [st2|] eqn:V; [|discriminate].
      destruct (o_leq A OP (head_inflow h entry_pre st2) p0) eqn:LE.
      - inversion H; subst p' st'. clear H.
        destruct (inc_exit st p0 st2 SK V LE) as [K [F S]].
        split; [exact K|]. split; [exact F|]. split; [exact S|].
        intros s R. destruct S as [S1 _]. specialize (S1 h s R). cbn [e_pre] in S1.
        rewrite tset_same in S1. exact S1.
      - destruct (VB (mkE A (tset (pre st) h p0) (tset (post st) h (analyze h p0)) (skip st)) st2 SK V)
          as [K2 [F2 _]].
        destruct (IH _ _ _ _ _ K2 H) as [K [F [S HP]]].
        assert (F02 : Frame C st st2).
        { intros m N. assert (m <> h) by (intros ->; apply N; left; reflexivity).
          destruct (F2 m) as [a b]; [intros X; apply N; right; exact X|].
          rewrite a, b. cbn [e_pre e_post]. rewrite !tset_other by assumption. split; reflexivity. }
        assert (EE : forall p s, ~ In p C -> Ext_of st p s -> Ext_of st2 p s).
        { intros p s N X. unfold Ext_of in *. destruct (F02 p N) as [_ b]. rewrite b. exact X. }
        split; [exact K|]. split; [exact (Frame_trans C st st2 st' F02 F)|].
        pose proof (SoundOn_mono C (Ext_of st2) (Ext_of st) st' EE S) as S'.
        split; [exact S'|].
        intros s R. apply HP.
        destruct (RR_mono C (Ext_of st) (Ext_of st2)) as [M1 _].
        + intros m p s0 _ _ N X. apply EE; assumption.
        + apply M1, R.
    Qed.

    (* one pass of the decreasing iteration keeps the tables sound *)
    Lemma dec_pass (E : nat -> State -> Prop) st p0 st2 :
      skip st = false -> SoundOn C E st ->
      (forall p s, ~ In p C -> E p s -> gamma (post st p) s) ->
      (forall s, RRpre C E h s -> gamma p0 s) ->
      vbody (mkE A (pre st) (tset (post st) h (analyze h p0)) (skip st)) = Some st2 ->
      skip st2 = false /\ Frame C st st2 /\ SoundOn C E st2 /\
      (forall s, RRpre C E h s -> gamma (head_inflow h entry_pre st2) s).
    Proof.
      intros SK [S1 S2] HE HP V.
      set (st1 := mkE A (pre st) (tset (post st) h (analyze h p0)) (skip st)) in *.
      destruct (VB st1 st2 SK V) as [K2 [F2 [P2 Q2]]].
      assert (POSTH : forall s, RRpost C E h s -> gamma (analyze h p0) s).
      { intros s R. inversion R as [n0 s0 s1 R0 BS E1 E2]; subst. eapply analyze_s; [apply HP, R0|exact BS]. }
      assert (F02 : Frame C st st2).
      { intros m N. assert (m <> h) by (intros ->; apply N; left; reflexivity).
        destruct (F2 m) as [a b]; [intros X; apply N; right; exact X|].
        rewrite a, b. unfold st1. cbn [e_pre e_post]. rewrite tset_other by assumption. split; reflexivity. }
      destruct (RR_decomp C B E (Ext_of st1)) as [D1 D2].
      { intros x X. right. exact X. }
      { intros m p s Im Ip Ic Nc R. destruct Ic as [<-|Ic]; [|contradiction].
        unfold Ext_of, st1. cbn [e_post]. rewrite tset_same. apply POSTH, R. }
      { intros m p s _ _ Nc X. assert (p <> h) by (intros ->; apply Nc; left; reflexivity).
        unfold Ext_of, st1. cbn [e_post]. rewrite tset_other by assumption. apply HE; assumption. }
      assert (SND : SoundOn C E st2).
      { split; intros n s R.
        - pose proof (RRpre_in _ _ _ _ R) as [<-|I].
          + destruct (F2 h HB) as [a _]. rewrite a. unfold st1. cbn [e_pre]. apply S1, R.
          + apply P2, D1; assumption.
        - pose proof (RRpost_in _ _ _ _ R) as [<-|I].
          + destruct (F2 h HB) as [_ b]. rewrite b. unfold st1. cbn [e_post]. rewrite tset_same.
            apply POSTH, R.
          + apply Q2, D2; assumption. }
      split; [exact K2|]. split; [exact F02|]. split; [exact SND|].
      apply inflow_covers.
      - intros p s N X. destruct (F02 p N) as [_ b]. rewrite b. apply HE; assumption.
      - destruct SND as [_ X]. exact X.
    Qed.

    Lemma dec_loop_spec (E : nat -> State -> Prop) : forall f i p0 st st',
      skip st = false -> SoundOn C E st ->
      (forall p s, ~ In p C -> E p s -> gamma (post st p) s) ->
      (forall s, RRpre C E h s -> gamma p0 s) ->
      dec_loop vbody h entry_pre f i p0 st = Some st' ->
      skip st' = false /\ Frame C st st' /\ SoundOn C E st'.
    Proof.
      induction f as [|f IH]; intros i p0 st st' SK SO HE HP H; [discriminate|].
      cbn [Engine.dec_loop] in H.
      destruct (vbody _) as [st2|] eqn:V; [|discriminate].
      destruct (dec_pass E st p0 st2 SK SO HE HP V) as [K2 [F2 [S2 NP]]].
      destruct (o_leq A OP p0 (head_inflow h entry_pre st2)).
      { inversion H; subst st'. split; [exact K2|]. split; [exact F2|exact S2]. }
      destruct (descending <? i).
      { inversion H; subst st'. split; [exact K2|]. split; [exact F2|exact S2]. }
      set (p1 := refine A OP i p0 (head_inflow h entry_pre st2)) in *.
      set (st3 := mkE A (tset (pre st2) h p1) (post st2) (skip st2)) in *.
      assert (HP1 : forall s, RRpre C E h s -> gamma p1 s).
      { intros s R. unfold p1. apply refine_s; [apply HP, R|apply NP, R]. }
      assert (S3 : SoundOn C E st3).
      { destruct S2 as [X1 X2]. split; intros n s R; unfold st3; cbn [e_pre e_post].
        - destruct (Nat.eq_dec n h) as [->|NE].
          + rewrite tset_same. apply HP1, R.
          + rewrite tset_other by assumption. apply X1, R.
        - apply X2, R. }
      assert (HE3 : forall p s, ~ In p C -> E p s -> gamma (post st3 p) s).
      { intros p s N X. unfold st3. cbn [e_post]. destruct (F2 p N) as [_ b]. rewrite b. apply HE; assumption. }
      destruct (IH (S i) p1 st3 st' K2 S3 HE3 HP1 H) as [K [F S']].
      split; [exact K|]. split; [|exact S'].
      apply (Frame_trans C st st2 st' F2). intros m N.
      assert (m <> h) by (intros ->; apply N; left; reflexivity).
      destruct (F m N) as [a b]. rewrite a, b. unfold st3. cbn [e_pre e_post].
      rewrite tset_other by assumption. split; reflexivity.
    Qed.

    Lemma cyc_core_spec pre0 st0 st' : skip st0 = false ->
      cyc_core vbody h entry_pre pre0 st0 = Some st' ->
      skip st' = false /\ Frame C st0 st' /\ SoundOn C (Ext_of st0) st'.
    Proof.
      intros SK H. unfold EngineInv.cyc_core in H.
      destruct (inc_loop vbody h entry_pre fuel 1 pre0 st0) as [[p st1]|] eqn:IL; [|discriminate].
      destruct (inc_loop_spec fuel 1 pre0 st0 p st1 SK IL) as [K1 [F1 [S1 HP]]].
      destruct (Nat.eqb descending 0).
      - inversion H; subst st'. split; [exact K1|]. split; [exact F1|exact S1].
      - assert (HE : forall q s, ~ In q C -> Ext_of st0 q s -> gamma (post st1 q) s).
        { intros q s N X. destruct (F1 q N) as [_ b]. rewrite b. exact X. }
        destruct (dec_loop_spec (Ext_of st0) fuel 1 p st1 st' K1 S1 HE HP H) as [K [F S]].
        split; [exact K|]. split; [exact (Frame_trans C st0 st1 st' F1 F)|exact S].
    Qed.
  End CycleSound.

  Definition comp_ok (c : comp) : Prop :=
    NoDup (cnodes c) -> eok [c] -> VSpec (cnodes c) (visit c).

  Lemma list_spec : forall l, Forall comp_ok l ->
    NoDup (flat l) -> eok l -> VSpec (flat l) (visit_all l).
  Proof.
    induction l as [|c r IH]; intros FA ND EO.
    - intros st st' SK V. cbn in V. inversion V; subst st'.
      split; [exact SK|]. split; [apply Frame_refl|].
      split; intros n s R; exfalso;
        [exact (RRpre_in _ _ _ _ R)|exact (RRpost_in _ _ _ _ R)].
    - inversion FA as [|? ? OKc FAr]; subst.
      destruct (eok_cons preds c r ND EO) as [E1 [E2 E3]].
      cbn [flat] in ND |- *.
      assert (V1 : VSpec (cnodes c) (visit c)).
      { apply OKc; [exact (nodup_app_left _ _ ND)|exact E1]. }
      assert (V2 : VSpec (flat r) (visit_all r)).
      { apply IH; [exact FAr|exact (nodup_app_r _ _ ND)|exact E2]. }
      exact (seq_spec (cnodes c) (flat r) (visit c) (visit_all r) V1 V2
               (fun x X Y => nodup_app_disj _ _ x ND X Y) E3).
  Qed.

  Lemma comp_spec : forall c, comp_ok c.
  Proof.
    induction c as [n|h body IH] using comp_ind'; intros ND EO.
    - cbn [cnodes] in *.
      apply (vertex_spec n). exact (eok_vertex preds n EO).
    - rewrite cnodes_cycle in *. inversion ND as [|? ? HB ND']; subst.
      assert (VB : VSpec (flat body) (visit_all body)).
      { apply list_spec; [exact IH|exact ND'|exact (eok_cycle preds h body ND EO)]. }
      intros st st' SK V. rewrite visit_cycle_eq, SK in V. cbn [andb] in V.
      assert (EP : match (if Nat.eqb h entry then Some init else None) with
                   | Some ip => forall s, Init s -> gamma ip s
                   | None => h <> entry
                   end).
      { destruct (Nat.eqb_spec h entry) as [E|NE]; [exact init_s|exact NE]. }
      exact (cyc_core_spec (visit_all body) (flat body) h _ VB HB EP _ (cyc_st0 A st) st' eq_refl V).
  Qed.

  (* the (outermost) component that contains the entry is un-skipped *)
  Lemma visit_unskip c st : In entry (cnodes c) -> skip st = true ->
    visit c st = visit c (mkE A (pre st) (post st) false).
  Proof.
    intros IE SK. destruct c as [n|h body].
    - destruct IE as [->|[]]. cbn [Engine.visit]. unfold Engine.visit_vertex.
      rewrite SK, Nat.eqb_refl. reflexivity.
    - rewrite !visit_cycle_eq. rewrite SK.
      rewrite (proj2 (comp_member_In entry (Cycle h body)) IE). reflexivity.
  Qed.

  Lemma skip_comp c st st' : skip st = true -> ~ In entry (cnodes c) -> visit c st = Some st' ->
    skip st' = true.
  Proof.
    intros SK NE V. destruct c as [n|h body].
    - cbn in V. inversion V; subst st'. clear V. unfold Engine.visit_vertex.
      assert (n <> entry) by (intros ->; apply NE; left; reflexivity).
      apply Nat.eqb_neq in H. rewrite SK, H. reflexivity.
    - rewrite visit_cycle_eq in V. rewrite SK in V.
      assert (M : comp_member entry (Cycle h body) = false).
      { destruct (comp_member entry (Cycle h body)) eqn:X; [|reflexivity].
        exfalso. apply NE. apply comp_member_In. exact X. }
      rewrite M in V. cbn in V. inversion V; subst st'. exact SK.
  Qed.
  Lemma skip_list : forall l st st', skip st = true -> ~ In entry (flat l) -> visit_all l st = Some st' ->
    skip st' = true.
  Proof.
    induction l as [|c r IH]; intros st st' SK NE V.
    - cbn in V. inversion V; subst. exact SK.
    - cbn [Engine.visit_all] in V. cbn [flat] in NE.
      destruct (visit c st) as [s1|] eqn:V1; [|discriminate].
      apply (IH s1 st'); [|intros X; apply NE, in_or_app; right; exact X|exact V].
      apply (skip_comp c st s1 SK); [intros X; apply NE, in_or_app; left; exact X|exact V1].
  Qed.
  Lemma visit_all_app : forall a b st,
    visit_all (a ++ b) st = match visit_all a st with None => None | Some s => visit_all b s end.
  Proof.
    induction a as [|c a IH]; intros b st; [reflexivity|].
    cbn [app Engine.visit_all]. destruct (visit c st) as [s1|]; [apply IH|reflexivity].
  Qed.

  Section Main.
    Variable w : list comp.
    (* the nodes of the ordering are distinct *)
    Hypothesis w_nodup : NoDup (flat w).
    (* the ordering is closed under successors, and every edge leaving one of its nodes goes
       forward or back to the head of a component that contains its source *)
    Hypothesis w_edges : forall n p, In p (preds n) -> In p (flat w) -> In n (flat w) /\ lok w p n.
    (* the analysis starts at a node of the ordering: anywhere *)
    Hypothesis w_entry : In entry (flat w).

    Theorem engine_sound : forall e,
      run A OP analyze preds nest entry delay descending use_asm asm init fuel w = Some e ->
      (forall n s, RPre n s -> gamma (pre e n) s) /\ (forall n s, RPost n s -> gamma (post e n) s).
    Proof.
      intros e RUN.
      assert (EO : eok w) by (intros p n Hp Hn He; apply (w_edges n p He Hp)).
      destruct (entry_split_any entry w w_entry) as [w1 [c [w2 [EW [N1 EC]]]]].
      pose proof w_nodup as ND. rewrite EW in ND, EO.
      destruct (eok_app preds w1 (c :: w2) ND EO) as [_ [EO2 NB1]].
      rewrite flat_app in ND. apply nodup_app_r in ND.
      (* the components before the one of the entry are skipped *)
      unfold run in RUN. rewrite EW, visit_all_app in RUN.
      destruct (visit_all w1 _) as [sa|] eqn:VA; [|discriminate].
      apply skip_list in VA as Ka; [|reflexivity|exact N1].
      cbn [Engine.visit_all] in RUN. rewrite (visit_unskip c sa EC Ka) in RUN.
      set (sa0 := mkE A (pre sa) (post sa) false) in RUN.
      destruct (list_spec (c :: w2) (proj2 (Forall_forall _ _) (fun c' _ => comp_spec c')) ND EO2
                  sa0 e eq_refl RUN) as [_ [_ [P Q]]].
      (* no edge leads back into them: the remaining nodes are closed under successors *)
      destruct (R_global_rel A State gamma bstep preds entry use_asm asm Init
                  (flat (c :: w2)) (Ext_of sa0)) as [G1 G2].
      - cbn [flat]. apply in_or_app. left. exact EC.
      - intros n p He Hp.
        destruct (w_edges n p He) as [Hn _]; [rewrite EW, flat_app; apply in_or_app; right; exact Hp|].
        rewrite EW, flat_app in Hn. apply in_app_or in Hn. destruct Hn as [Hn|Hn]; [|exact Hn].
        exfalso. exact (NB1 p n Hp Hn He).
      - split; intros n s R; [apply P, G1, R|apply Q, G2, R].
    Qed.
  End Main.

  (* crab's run(init): the analysis starts at the first node of the ordering *)
  Corollary engine_sound_first w :
    NoDup (flat w) ->
    (forall n p, In p (preds n) -> In p (flat w) -> In n (flat w) /\ lok w p n) ->
    hd_error (flat w) = Some entry ->
    forall e, run A OP analyze preds nest entry delay descending use_asm asm init fuel w = Some e ->
    (forall n s, RPre n s -> gamma (pre e n) s) /\ (forall n s, RPost n s -> gamma (post e n) s).
  Proof.
    intros ND ED HD. apply starts_with_hd in HD.
    apply engine_sound; auto. apply starts_with_in, HD.
  Qed.

  (* orderings that satisfy property C07 (Fix/WtoCheck.v) for a graph whose successor lists
     contain the CFG edges: in particular the ordering computed by the model of wto.hpp *)
  Lemma WF_edges g e0 w nst dom : WF g e0 w nst dom ->
    (forall n p, In p (preds n) -> In p (flat w) -> In n (succs g p)) ->
    forall n p, In p (preds n) -> In p (flat w) -> In n (flat w) /\ lok w p n.
  Proof.
    intros W SUC n p He Hp.
    pose proof (proj1 (wf_reach _ _ _ _ _ W p) Hp) as RP.
    pose proof (SUC n p He Hp) as HS. split.
    - apply (wf_reach _ _ _ _ _ W). apply reach_step with p; assumption.
    - exact (wf_edge _ _ _ _ _ W p n RP HS).
  Qed.

  Corollary engine_sound_WF g e0 nst dom w :
    WF g e0 w nst dom ->
    (forall n p, In p (preds n) -> In p (flat w) -> In n (succs g p)) ->
    In entry (flat w) ->
    forall e, run A OP analyze preds nest entry delay descending use_asm asm init fuel w = Some e ->
    (forall n s, RPre n s -> gamma (pre e n) s) /\ (forall n s, RPost n s -> gamma (post e n) s).
  Proof.
    intros W SUC IE. apply engine_sound; auto.
    - exact (wf_nodup _ _ _ _ _ W).
    - exact (WF_edges g e0 w nst dom W SUC).
  Qed.
End Sound.
