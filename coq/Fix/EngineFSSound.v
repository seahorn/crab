(* EngineFSSound.v — property C06 for the engine model over finite sets: every table entry
   of the engine's result is included in the least solution (for all CFGs, WTOs, start
   blocks, parameters and fuel), and it equals the least solution — i.e. exactly the reaching
   states — whenever the verified inductiveness check accepts it. *)
From Coq Require Import List Bool Arith NArith Lia.
From CrabV Require Import Fix.Wto Fix.Engine Fix.EngineBelow Fix.EngineCheck Fix.Kleene Fix.KleeneSound
     Fix.EngineFS.
Import ListNotations.

Definition sub (a b : N) : Prop := sleq a b = true.

Lemma sub_spec a b : sub a b <-> forall s, smem s a = true -> smem s b = true.
Proof.
  unfold sub, sleq, smem. rewrite N.eqb_eq. split.
  - intros H s Hs. rewrite <- H in Hs. rewrite N.land_spec in Hs. apply andb_true_iff in Hs. tauto.
  - intros H. apply N.bits_inj. intros s. rewrite N.land_spec.
    destruct (N.testbit a s) eqn:E; auto. rewrite (H s E). reflexivity.
Qed.

Lemma sub_refl a : sub a a. Proof. apply sub_spec; auto. Qed.
Lemma sub_trans a b c : sub a b -> sub b c -> sub a c.
Proof. rewrite !sub_spec. auto. Qed.
Lemma sub_zero a : sub 0%N a.
Proof. apply sub_spec. intros s H. rewrite smem_zero in H. discriminate. Qed.
Lemma sub_join a b c : sub a c -> sub b c -> sub (sjoin a b) c.
Proof.
  rewrite !sub_spec. intros H1 H2 s H. rewrite smem_join in H. apply orb_true_iff in H. destruct H; auto.
Qed.
Lemma sub_meet_l a b : sub (smeet a b) a.
Proof. apply sub_spec. intros s H. rewrite smem_meet in H. apply andb_true_iff in H. tauto. Qed.
Lemma sub_meet_mono a a' b : sub a a' -> sub (smeet a b) (smeet a' b).
Proof.
  rewrite !sub_spec. intros H s X. rewrite smem_meet in *. apply andb_true_iff in X. destruct X as [X1 X2]. rewrite (H s X1), X2. reflexivity.
Qed.
Lemma image_mono r a b : sub a b -> sub (image r a) (image r b).
Proof.
  rewrite !sub_spec. intros H t X. apply image_spec in X. destruct X as (s & Hs & I).
  apply image_spec. exists s. split; auto.
Qed.

Section FS.
  Variable S : N.
  Variable F : flow.
  Variable w : wto.
  Variables delay desc fuel : nat.
  Variable use_asm : bool.
  Variable t : tabs.
  Hypothesis range : in_range F.
  Hypothesis sol : solves F t.
  (* the assumption map is consulted iff it is given (as the harness does) *)
  Hypothesis asm_used : use_asm = false -> forall n, f_asm F n = None.

  Definition Lpre (n : nat) : N := if n <? f_blocks F then fst t n else 0%N.
  Definition Lpost (n : nat) : N := if n <? f_blocks F then snd t n else 0%N.

  Lemma strengthen_eq n v :
    strengthen N (fs_ops S) use_asm (f_asm F) n v = strengthenF F n v.
  Proof.
    unfold strengthen, strengthenF. destruct use_asm eqn:U; auto.
    rewrite (asm_used eq_refl n). reflexivity.
  Qed.

  Lemma strengthen_sub_spec n v c :
    sub (strengthenF F n v) c <->
    forall s, smem s v = true -> (match f_asm F n with Some a => smem s a = true | None => True end) -> smem s c = true.
  Proof.
    unfold strengthenF. destruct (f_asm F n) as [a|]; rewrite sub_spec.
    - split; intros H s.
      + intros X Y. apply H. rewrite smem_meet, X, Y. reflexivity.
      + rewrite smem_meet, andb_true_iff. intros [X Y]. auto.
    - split; auto.
  Qed.

  Theorem fs_engine_below e :
    sub (f_init F) (Lpre (f_entry F)) ->
    fs_engine S F w delay desc use_asm fuel = Some e ->
    forall n, sub (e_pre N e n) (Lpre n) /\ sub (e_post N e n) (Lpost n).
  Proof.
    intros IB RUN.
    destruct range as (RE & RP & RO).
    pose proof (run_below N (fs_ops S) sub sub_trans sub_zero sub_join sub_meet_l sub_meet_mono
                  (fun _ _ _ => eq_refl) (fun _ _ => eq_refl)
                  (fun n a => image (f_rel F n) a) (fun n a b H => image_mono (f_rel F n) a b H)
                  (f_preds F) (nest_of w) (f_entry F) delay desc use_asm (f_asm F) fuel (f_init F)
                  Lpre Lpost) as RB.
    assert (H1 : forall n, sub (image (f_rel F n) (Lpre n)) (Lpost n)).
    { intros n. unfold Lpre, Lpost. destruct (Nat.ltb_spec n (f_blocks F)) as [L|G].
      - destruct (sol n L) as [_ E]. rewrite E. apply sub_refl.
      - destruct (RO n G) as [_ R0]. rewrite R0. apply sub_zero. }
    assert (H2 : forall n p, In p (f_preds F n) ->
                 sub (strengthen N (fs_ops S) use_asm (f_asm F) n (Lpost p)) (Lpre n)).
    { intros n p I. rewrite strengthen_eq. unfold Lpre, Lpost.
      destruct (Nat.ltb_spec n (f_blocks F)) as [L|G].
      - assert (PL : p < f_blocks F) by (eapply RP; eauto).
        destruct (Nat.ltb_spec p (f_blocks F)); [|lia].
        destruct (sol n L) as [E _]. rewrite E. apply strengthen_sub_spec. intros s X Y.
        apply inflow_spec. split; auto. right. exists p. split; auto.
      - destruct (RO n G) as [R0 _]. rewrite R0 in I. destruct I. }
    assert (H3 : sub (strengthen N (fs_ops S) use_asm (f_asm F) (f_entry F) (f_init F)) (Lpre (f_entry F))).
    { rewrite strengthen_eq. unfold Lpre. destruct (Nat.ltb_spec (f_entry F) (f_blocks F)); [|lia].
      destruct (sol _ RE) as [E _]. rewrite E. apply strengthen_sub_spec. intros s X Y.
      apply inflow_spec. split; auto. }
    assert (H4 : forall n a b c, sub (strengthen N (fs_ops S) use_asm (f_asm F) n a) c ->
                 sub (strengthen N (fs_ops S) use_asm (f_asm F) n b) c ->
                 sub (strengthen N (fs_ops S) use_asm (f_asm F) n (o_join N (fs_ops S) a b)) c).
    { intros n a b c. rewrite !strengthen_eq, !strengthen_sub_spec. intros X Y s Z.
      cbn [o_join fs_ops] in Z. rewrite smem_join in Z. apply orb_true_iff in Z.
      destruct Z; [apply X|apply Y]; auto. }
    assert (H5 : forall n c, sub (strengthen N (fs_ops S) use_asm (f_asm F) n (o_bot N (fs_ops S))) c).
    { intros n c. rewrite strengthen_eq, strengthen_sub_spec. intros s Z.
      change (smem s 0%N = true) in Z. rewrite smem_zero in Z. discriminate. }
    specialize (RB H1 H2 H3 IB H4 H5 w).
    unfold fs_engine in RUN. rewrite RUN in RB. destruct RB as [P Q]. intros n. split; auto.
  Qed.
End FS.

(* equality with the least solution (= reachability) when the verified checker accepts *)
Definition fgamma (a : N) (s : N) : Prop := smem s a = true.

Lemma fjoin_l S a b s : fgamma a s -> fgamma (o_join N (fs_ops S) a b) s.
Proof. unfold fgamma. cbn [o_join fs_ops]. rewrite smem_join. intros ->. reflexivity. Qed.
Lemma fjoin_r S a b s : fgamma b s -> fgamma (o_join N (fs_ops S) a b) s.
Proof. unfold fgamma. cbn [o_join fs_ops]. rewrite smem_join. intros ->. apply orb_true_r. Qed.
Lemma fmeet_s S a b s : fgamma a s -> fgamma b s -> fgamma (o_meet N (fs_ops S) a b) s.
Proof. unfold fgamma. cbn [o_meet fs_ops]. rewrite smem_meet. intros -> ->. reflexivity. Qed.
Lemma fleq_s S a b s : o_leq N (fs_ops S) a b = true -> fgamma a s -> fgamma b s.
Proof. cbn. intros L G. exact (proj1 (sub_spec a b) L s G). Qed.

Section Exact.
  Variable S : N.
  Variable F : flow.
  Variable w : wto.
  Variables delay desc fuel rounds : nat.
  Variable use_asm : bool.
  Variable t : tabs.
  Hypothesis range : in_range F.
  Hypothesis LFP : lfp F rounds = Some t.
  Hypothesis asm_used : use_asm = false -> forall n, f_asm F n = None.

  Definition fstep (n : nat) (s s' : N) : Prop := In (s, s') (f_rel F n).
  Definition finit (s : N) : Prop := smem s (f_init F) = true.

  Lemma fanalyze_s n a s s' : fgamma a s -> fstep n s s' -> fgamma (image (f_rel F n) a) s'.
  Proof. unfold fgamma, fstep. intros G B. apply image_spec. exists s. split; auto. Qed.

  Lemma reach_to_R :
    (forall n s, ReachPre F n s ->
       EngineCheck.RPre N N fgamma fstep (f_preds F) (f_entry F) use_asm (f_asm F) finit n s) /\
    (forall n s, ReachPost F n s ->
       EngineCheck.RPost N N fgamma fstep (f_preds F) (f_entry F) use_asm (f_asm F) finit n s).
  Proof.
    assert (AH : forall n s, asm_ok F n s -> asm_holds N N fgamma use_asm (f_asm F) n s).
    { intros n s H. unfold asm_ok, asm_holds, fgamma in *. destruct use_asm; auto. }
    apply (Reach_mutind F
             (fun n s _ => EngineCheck.RPre N N fgamma fstep (f_preds F) (f_entry F) use_asm (f_asm F) finit n s)
             (fun n s _ => EngineCheck.RPost N N fgamma fstep (f_preds F) (f_entry F) use_asm (f_asm F) finit n s)).
    - intros s I A. apply EngineCheck.RP_init; auto.
    - intros n p s I R IH A. eapply EngineCheck.RP_edge; eauto.
    - intros n s t0 R IH I. eapply EngineCheck.RPo; eauto.
  Qed.

  (* a result that contains every reaching state is exactly the set of reaching states:
     it is also below the least solution *)
  Lemma fs_engine_exact_if e :
    sub (f_init F) (fst t (f_entry F)) ->
    fs_engine S F w delay desc use_asm fuel = Some e ->
    (forall n s, EngineCheck.RPre N N fgamma fstep (f_preds F) (f_entry F) use_asm (f_asm F) finit n s ->
                 fgamma (e_pre N e n) s) ->
    (forall n s, EngineCheck.RPost N N fgamma fstep (f_preds F) (f_entry F) use_asm (f_asm F) finit n s ->
                 fgamma (e_post N e n) s) ->
    forall n s, n < f_blocks F ->
      (smem s (e_pre N e n) = true <-> ReachPre F n s) /\
      (smem s (e_post N e n) = true <-> ReachPost F n s).
  Proof.
    intros IB RUN C1 C2 n s L.
    pose proof LFP as LFP'. unfold lfp in LFP'.
    destruct (solvesb F _) eqn:SB; inversion LFP' as [ET]. clear LFP'.
    pose proof (solvesb_solves F _ SB) as SOL. rewrite ET in SOL.
    destruct (lfp_is_reach F rounds _ range LFP) as [LR1 LR2].
    assert (IB' : sub (f_init F) (Lpre F t (f_entry F))).
    { unfold Lpre. destruct range as (RE & _). destruct (Nat.ltb_spec (f_entry F) (f_blocks F)); [auto|lia]. }
    destruct (fs_engine_below S F w delay desc fuel use_asm t range SOL asm_used e IB' RUN n) as [B1 B2].
    unfold Lpre, Lpost in B1, B2. destruct (Nat.ltb_spec n (f_blocks F)); [|lia].
    destruct reach_to_R as [T1 T2].
    split; split.
    - intros X. apply LR1; auto. apply (proj1 (sub_spec _ _) B1); auto.
    - intros R. apply (C1 n s). apply T1; auto.
    - intros X. apply LR2; auto. apply (proj1 (sub_spec _ _) B2); auto.
    - intros R. apply (C2 n s). apply T2; auto.
  Qed.

  Theorem fs_engine_exact e :
    sub (f_init F) (fst t (f_entry F)) ->
    fs_engine S F w delay desc use_asm fuel = Some e ->
    inductive_ok N (fs_ops S) (fun n a => image (f_rel F n) a) (f_preds F) (f_entry F) use_asm (f_asm F)
                 (f_init F) (seq 0 (f_blocks F)) (e_pre N e) (e_post N e) = true ->
    forall n s, n < f_blocks F ->
      (smem s (e_pre N e n) = true <-> ReachPre F n s) /\
      (smem s (e_post N e n) = true <-> ReachPost F n s).
  Proof.
    intros IB RUN IND. destruct range as (RE & RP & RO).
    assert (NC : In (f_entry F) (seq 0 (f_blocks F)) /\
                 forall n0 p, In p (f_preds F n0) -> In n0 (seq 0 (f_blocks F))).
    { split; [apply in_seq; lia|]. intros n0 p I. apply in_seq.
      destruct (Nat.lt_ge_cases n0 (f_blocks F)) as [Hlt|Hge]; [lia|].
      destruct (RO n0 Hge) as [R0 _]. rewrite R0 in I. destruct I. }
    destruct (inductive_sound N N fgamma (fs_ops S) (fjoin_l S) (fjoin_r S) (fmeet_s S) (fleq_s S)
                (fun n a => image (f_rel F n) a) fstep fanalyze_s
                (f_preds F) (f_entry F) use_asm (f_asm F) finit (f_init F)
                (fun s H => H) (seq 0 (f_blocks F)) NC (e_pre N e) (e_post N e) IND) as [C1 C2].
    apply (fs_engine_exact_if e IB RUN); intros n s R; [apply (C1 n s R)|apply (C2 n s R)].
  Qed.
End Exact.
