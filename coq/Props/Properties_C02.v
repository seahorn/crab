(* Property C02 — a 'safe' or 'unreachable' assertion verdict is never wrong.
   Model: Ana/Checker.v (mirror of intra_checker::run + assert_property_checker::check for
   numerical assertions) on top of the forward analyzer model of C01.  Statements only.

   Proved: for invariant tables accepted by the verified checker of C01 and for the tables
   of the engine model itself, and every execution from the initial states that reaches a
   block, each assertion of the block that the execution reaches satisfies: verdict safe ->
   the condition holds there; verdict unreachable -> contradiction (it is not reached).
   Warnings may be spurious.  The forward+backward analyzer (model Ana/FwdBwd.v): 'safe' for
   every setting, 'unreachable' when use_refined_invariants = false, refuted otherwise.
   The verdicts of the inter-procedural analyzers (C09 / C10) are judged by the concrete
   oracle only. *)
From Coq Require Import ZArith List Bool Arith.
From CrabV Require Import Base.ZInf Scalar.Itv Ir.Syntax Ir.Cfg Dom.ItvEnv Dom.ItvEnvSound Dom.ItvDomain
     Fix.Wto Fix.WtoCheck Fix.Engine Ana.Transformer Ana.FwdItv Ana.FwdItvSound Ana.Checker Ana.FwdItvEngineSound
     Ana.CheckerEngine Ana.BackwardCheck Ana.FwdBwd Ana.FwdBwdSound.
Import ListNotations.

Theorem C02_block_verdicts_sound : forall bl inv a,
  block_wf bl -> genv inv a -> sound_verdicts bl inv a.
Proof. exact check_block_sound. Qed.

Theorem C02_forward_verdicts_sound :
  forall p entry use_asm asm (Init : store -> Prop) init,
  (forall s, Init s -> genv init s) ->
  forall pre post,
  fwd_check p entry use_asm asm init pre post = true ->
  forall n a, ReachPre p entry use_asm asm Init n a -> sound_verdicts (p_block p n) (pre n) a.
Proof.
  intros p entry use_asm asm Init init IS pre post H n a R.
  destruct (fwd_check_sound p entry use_asm asm Init init IS pre post H) as [S _].
  apply check_block_sound; [|apply S; exact R].
  unfold fwd_check in H. apply andb_true_iff in H. destruct H as [H _].
  apply andb_true_iff in H. destruct H as [H _]. apply andb_true_iff in H. destruct H as [WF _].
  apply (blocks_wf p WF).
Qed.

(* the same for the tables computed by the engine model itself (its soundness, C01, replaces the
   checker): every program, the ordering built by the wto.hpp model, every start block of it, every
   parameter setting and fuel *)
Theorem C02_engine_verdicts_sound :
  forall p, prog_wfb p = true ->
  forall use_asm asm (Init : store -> Prop) init, (forall s, Init s -> genv init s) ->
  forall delay desc fuel e0 entry w e,
  build (p_graph p) e0 = Some w -> In entry (flat w) ->
  fwd_run p w entry delay desc use_asm asm fuel init = Some e ->
  forall n a, ReachPre p entry use_asm asm Init n a -> sound_verdicts (p_block p n) (e_pre env e n) a.
Proof. exact engine_verdicts_sound. Qed.

(* the combined forward+backward analyzer (mirror Ana/FwdBwd.v of intra_forward_backward_analyzer:
   refinement loop, narrowing of the refined assumptions, dominance-based discharge, the guards
   "CFG has an exit" and "every assertion can reach the exit", use_refined_invariants,
   max_refine_iterations; proofs Ana/FwdBwdSound.v, on top of the soundness of the forward engine
   (C01) and of the backward tables (C11)).  The flag (negb use_refined) says: 'safe' verdicts are
   sound for every setting, 'unreachable' verdicts when use_refined_invariants = false. *)
Theorem C02_forward_backward_verdicts_sound :
  forall p, prog_wfb p = true -> forallb block_bwd_ok (p_blocks p) = true ->
  forall (Init : store -> Prop) init, (forall s, Init s -> genv init s) ->
  forall e0 entry exit_block delay desc fuel fresh use_refined maxref o,
  fb_run p e0 entry exit_block delay desc fuel fresh use_refined maxref init = Some o ->
  forall n a, ReachPre p entry false (fun _ => None) Init n a ->
  fb_sound_verdicts (negb use_refined) (mem_nat n (fb_proved o)) (p_block p n) (fb_inv o n) a.
Proof. exact fb_run_verdicts_sound. Qed.

(* with use_refined_invariants the 'unreachable' verdicts are wrong (known finding C02) *)
Theorem C02_forward_backward_unreachable_refined_refuted : ~ fb_unreachable_statement.
Proof. exact fb_unreachable_refined_refuted. Qed.

(* non-vacuity: b0: y := x; b1 (exit): assume(x <= 0); assert(y <= 0) - a warning for the forward
   analysis alone, proved by the backward refinement *)
Example C02_forward_backward_example :
  fb_analyze fb_example_prog 0 0 None 1 1 400 1002%N false 5 e_top = Some [(1, VWarn)] /\
  fb_analyze fb_example_prog 0 0 (Some 1) 1 1 400 1002%N false 5 e_top = Some [(1, VSafe)].
Proof. split; vm_compute; reflexivity. Qed.

(* non-vacuity: x := 0; loop x <= 9: x++; exit: assert(x = 10) is safe, assert(x <= 5) a warning *)
Example C02_example :
  let x := 0%N in
  check_block [SAssert (mkLC EQ (mkLE [(1%Z, x)] (-10))) 1; SAssert (mkLC INEQ (mkLE [(1%Z, x)] (-5))) 2]
              (e_set e_top x (mkI (Fin 10) (Fin 10))) = [(1, VSafe); (2, VWarn)].
Proof. vm_compute. reflexivity. Qed.

Print Assumptions C02_block_verdicts_sound.
Print Assumptions C02_forward_verdicts_sound.
Print Assumptions C02_engine_verdicts_sound.
Print Assumptions C02_forward_backward_verdicts_sound.
Print Assumptions C02_forward_backward_unreachable_refined_refuted.
