(* Property C08, second half — congruences, signs, constants, three-valued booleans, small
   ranges, the reduced product interval x congruence and disjunctive intervals
   over-approximate the concrete operations.  Statements only; every proof is a reference
   to a lemma of the development.
   Models (mirrors of the C++ with fixes/scalars2-*.diff applied): Scalar/Congruence.v, Sign.v,
   Constant.v, Boolean.v, SmallRange.v, ItvCongruence.v, DisItv.v.
   Concrete operators: Coq Z ([Z.quot]/[Z.rem] truncate like z_number; [Z.land]/[Z.lor]/[Z.lxor];
   shifts [Z.shiftl] = * 2^k and [Z.shiftr] = floor division by 2^k, for amounts k >= 0).
   Unsigned division/remainder and logical shift right depend on a bit width that these
   domains do not know: UDiv/URem results are proved to contain *every* integer (congruences,
   signs, constants) or stated as for intervals (C08_itv_urem_sound); LShr is constrained only
   where it is independent of the width (non-negative shifted value; amount 0 for signs).
   [cwf] is the normal form a >= 0, 0 <= b < a that every constructor establishes
   (C08_cg_normal_form); the shift-amount operand of Shl is assumed to satisfy it.
   A small_range abstracts a set of variable indexes ([vset] = Z -> Prop).
   [dwf] is the invariant of a normalised dis_interval (non-empty intervals with
   non-decreasing bounds) which every constructor establishes (C08_di_normalize_wf);
   the operations that use the hull of the list (widening, approx, singleton) assume it. *)
From Coq Require Import ZArith Bool Znumtheory.
From CrabV Require Import Base.ZInf Scalar.Itv Scalar.ItvSound
  Scalar.Congruence Scalar.CongruenceSound Scalar.Sign Scalar.SignSound
  Scalar.Constant Scalar.ConstantSound Scalar.Boolean Scalar.BooleanSound
  Scalar.SmallRange Scalar.SmallRangeSound Scalar.ItvCongruence Scalar.ItvCongruenceSound
  Scalar.DisItv Scalar.DisItvSound.
Local Open Scope Z_scope.

Theorem C08_cg_add_sound :
  forall a b x y, cgamma a x -> cgamma b y -> cgamma (cg_add a b) (x + y).
Proof. exact cg_add_sound. Qed.
Theorem C08_cg_sub_sound :
  forall a b x y, cgamma a x -> cgamma b y -> cgamma (cg_sub a b) (x - y).
Proof. exact cg_sub_sound. Qed.
Theorem C08_cg_neg_sound :
  forall a x, cgamma a x -> cgamma (cg_neg a) (- x).
Proof. exact cg_neg_sound. Qed.
Theorem C08_cg_mul_sound :
  forall a b x y, cgamma a x -> cgamma b y -> cgamma (cg_mul a b) (x * y).
Proof. exact cg_mul_sound. Qed.
Theorem C08_cg_sdiv_sound :
  forall a b x y, cgamma a x -> cgamma b y -> y <> 0 -> cgamma (cg_div a b) (Z.quot x y).
Proof. exact cg_div_sound. Qed.
Theorem C08_cg_srem_sound :
  forall a b x y, cgamma a x -> cgamma b y -> y <> 0 -> cgamma (cg_rem a b) (Z.rem x y).
Proof. exact cg_rem_sound. Qed.
Theorem C08_cg_udiv_sound :
  forall a b (r : Z), cgamma (cg_udiv a b) r.
Proof. exact cg_udiv_sound. Qed.
Theorem C08_cg_urem_sound :
  forall a b (r : Z), cgamma (cg_urem a b) r.
Proof. exact cg_urem_sound. Qed.
Theorem C08_cg_and_sound :
  forall a b x y, cgamma a x -> cgamma b y -> cgamma (cg_and a b) (Z.land x y).
Proof. exact cg_and_sound. Qed.
Theorem C08_cg_or_sound :
  forall a b x y, cgamma a x -> cgamma b y -> cgamma (cg_or a b) (Z.lor x y).
Proof. exact cg_or_sound. Qed.
Theorem C08_cg_xor_sound :
  forall a b x y, cgamma a x -> cgamma b y -> cgamma (cg_xor a b) (Z.lxor x y).
Proof. exact cg_xor_sound. Qed.
Theorem C08_cg_shl_sound :
  forall a b x k, cwf b -> cgamma a x -> cgamma b k -> 0 <= k -> cgamma (cg_shl a b) (Z.shiftl x k).
Proof. exact cg_shl_sound. Qed.
Theorem C08_cg_ashr_sound :
  forall a b x k, cgamma a x -> cgamma b k -> 0 <= k -> cgamma (cg_ashr a b) (Z.shiftr x k).
Proof. exact cg_ashr_sound. Qed.
Theorem C08_cg_lshr_sound :
  forall a b x k, cgamma a x -> cgamma b k -> 0 <= k ->
  forall r, (0 <= x -> r = Z.shiftr x k) -> cgamma (cg_lshr a b) r.
Proof. exact cg_lshr_sound. Qed.
Theorem C08_cg_join_sound :
  forall a b x, cgamma a x \/ cgamma b x -> cgamma (cg_join a b) x.
Proof. exact cg_join_sound. Qed.
Theorem C08_cg_join_least :
  forall a b c, (forall x, cgamma a x -> cgamma c x) -> (forall x, cgamma b x -> cgamma c x) ->
  forall x, cgamma (cg_join a b) x -> cgamma c x.
Proof. exact cg_join_least. Qed.
Theorem C08_cg_meet_exact :
  forall a b x, cgamma (cg_meet a b) x <-> (cgamma a x /\ cgamma b x).
Proof. exact cg_meet_exact. Qed.
Theorem C08_cg_widen_sound :
  forall a b x, cgamma a x \/ cgamma b x -> cgamma (cg_widen a b) x.
Proof. exact cg_widen_sound. Qed.
Theorem C08_cg_narrow_sound :
  forall a b x, cgamma a x -> cgamma b x -> cgamma (cg_narrow a b) x.
Proof. exact cg_narrow_sound. Qed.
Theorem C08_cg_narrow_below :
  forall a b x, cgamma (cg_narrow a b) x -> cgamma a x.
Proof. exact cg_narrow_below. Qed.
Theorem C08_cg_leq_sound :
  forall a b, cg_leq a b = true -> forall x, cgamma a x -> cgamma b x.
Proof. exact cg_leq_sound. Qed.
Theorem C08_cg_leq_complete :
  forall a b, (forall x, cgamma a x -> cgamma b x) -> cg_leq a b = true.
Proof. exact cg_leq_complete. Qed.
Theorem C08_cg_leq_refl :
  forall a, cg_leq a a = true.
Proof. exact cg_leq_refl. Qed.
Theorem C08_cg_eq_sound :
  forall a b, cg_eq a b = true -> forall x, cgamma a x <-> cgamma b x.
Proof. exact cg_eq_sound. Qed.
Theorem C08_cg_bottom_empty :
  forall a x, cg_is_bot a = true -> ~ cgamma a x.
Proof. exact cgamma_is_bot. Qed.
Theorem C08_cg_top_full :
  forall a x, cg_is_top a = true -> cgamma a x.
Proof. exact cgamma_is_top. Qed.
Theorem C08_cg_singleton_exact :
  forall a n, cg_singleton a = Some n -> forall x, cgamma a x <-> x = n.
Proof. exact cg_singleton_spec. Qed.
Theorem C08_cg_normalize_exact :
  forall a b x, cgamma (cg_mk a b) x <-> (a | x - b).
Proof. exact cgamma_mk. Qed.
Theorem C08_cg_normal_form :
  forall a b, cwf (cg_mk a b).
Proof. exact cwf_mk. Qed.
Theorem C08_sg_const_sound :
  forall c, sgamma (sg_const c) c.
Proof. exact sg_const_sound. Qed.
Theorem C08_sg_add_sound :
  forall a b x y, sgamma a x -> sgamma b y -> sgamma (sg_add a b) (x + y).
Proof. exact sg_add_sound. Qed.
Theorem C08_sg_sub_sound :
  forall a b x y, sgamma a x -> sgamma b y -> sgamma (sg_sub a b) (x - y).
Proof. exact sg_sub_sound. Qed.
Theorem C08_sg_mul_sound :
  forall a b x y, sgamma a x -> sgamma b y -> sgamma (sg_mul a b) (x * y).
Proof. exact sg_mul_sound. Qed.
Theorem C08_sg_sdiv_sound :
  forall a b x y, sgamma a x -> sgamma b y -> y <> 0 -> sgamma (sg_div a b) (Z.quot x y).
Proof. exact sg_div_sound. Qed.
Theorem C08_sg_udiv_srem_urem_sound :
  forall a b x y (r : Z), sgamma a x -> sgamma b y -> sgamma (sg_default a b) r.
Proof. exact sg_default_sound. Qed.
Theorem C08_sg_and_sound :
  forall a b x y, sgamma a x -> sgamma b y -> sgamma (sg_and a b) (Z.land x y).
Proof. exact sg_and_sound. Qed.
Theorem C08_sg_or_sound :
  forall a b x y, sgamma a x -> sgamma b y -> sgamma (sg_or a b) (Z.lor x y).
Proof. exact sg_or_sound. Qed.
Theorem C08_sg_xor_sound :
  forall a b x y, sgamma a x -> sgamma b y -> sgamma (sg_xor a b) (Z.lxor x y).
Proof. exact sg_xor_sound. Qed.
Theorem C08_sg_shl_sound :
  forall a b x k, sgamma a x -> sgamma b k -> sgamma (sg_shift a b) (Z.shiftl x k).
Proof. exact sg_shl_sound. Qed.
Theorem C08_sg_ashr_sound :
  forall a b x k, sgamma a x -> sgamma b k -> sgamma (sg_shift a b) (Z.shiftr x k).
Proof. exact sg_ashr_sound. Qed.
Theorem C08_sg_lshr_sound :
  forall a b x k r, sgamma a x -> sgamma b k -> (k = 0 -> r = x) -> (0 <= x -> r = Z.shiftr x k) ->
  sgamma (sg_shift a b) r.
Proof. exact sg_lshr_sound. Qed.
Theorem C08_sg_join_sound :
  forall a b x, sgamma a x \/ sgamma b x -> sgamma (sg_join a b) x.
Proof. exact sg_join_sound. Qed.
Theorem C08_sg_join_least :
  forall a b c, sg_leq a c = true -> sg_leq b c = true -> sg_leq (sg_join a b) c = true.
Proof. exact sg_join_least. Qed.
Theorem C08_sg_meet_exact :
  forall a b x, sgamma (sg_meet a b) x <-> (sgamma a x /\ sgamma b x).
Proof. exact sg_meet_exact. Qed.
Theorem C08_sg_leq_sound :
  forall a b, sg_leq a b = true -> forall x, sgamma a x -> sgamma b x.
Proof. exact sg_leq_sound. Qed.
Theorem C08_sg_leq_complete :
  forall a b, (forall x, sgamma a x -> sgamma b x) -> sg_leq a b = true.
Proof. exact sg_leq_complete. Qed.
Theorem C08_sg_from_interval_sound :
  forall i x, gamma i x -> sgamma (sg_from_itv i) x.
Proof. exact sg_from_itv_sound. Qed.
Theorem C08_sg_to_interval_sound :
  forall s x, sgamma s x -> gamma (sg_to_itv s) x.
Proof. exact sg_to_itv_sound. Qed.
Theorem C08_sg_bottom_empty :
  forall s, sg_is_bot s = true <-> (forall x, ~ sgamma s x).
Proof. exact sg_is_bot_spec. Qed.
Theorem C08_sg_top_full :
  forall s x, sg_is_top s = true -> sgamma s x.
Proof. exact sg_is_top_sound. Qed.
Theorem C08_ct_add_sound :
  forall a b x y, ctgamma a x -> ctgamma b y -> ctgamma (ct_add a b) (x + y).
Proof. exact ct_add_sound. Qed.
Theorem C08_ct_sub_sound :
  forall a b x y, ctgamma a x -> ctgamma b y -> ctgamma (ct_sub a b) (x - y).
Proof. exact ct_sub_sound. Qed.
Theorem C08_ct_mul_sound :
  forall a b x y, ctgamma a x -> ctgamma b y -> ctgamma (ct_mul a b) (x * y).
Proof. exact ct_mul_sound. Qed.
Theorem C08_ct_sdiv_sound :
  forall a b x y, ctgamma a x -> ctgamma b y -> y <> 0 -> ctgamma (ct_sdiv a b) (Z.quot x y).
Proof. exact ct_sdiv_sound. Qed.
Theorem C08_ct_srem_sound :
  forall a b x y, ctgamma a x -> ctgamma b y -> y <> 0 -> ctgamma (ct_srem a b) (Z.rem x y).
Proof. exact ct_srem_sound. Qed.
Theorem C08_ct_udiv_sound :
  forall a b x y (r : Z), ctgamma a x -> ctgamma b y -> y <> 0 -> ctgamma (ct_udiv a b) r.
Proof. exact ct_udiv_sound. Qed.
Theorem C08_ct_urem_sound :
  forall a b x y (r : Z), ctgamma a x -> ctgamma b y -> y <> 0 -> ctgamma (ct_urem a b) r.
Proof. exact ct_urem_sound. Qed.
Theorem C08_ct_and_sound :
  forall a b x y, ctgamma a x -> ctgamma b y -> ctgamma (ct_and a b) (Z.land x y).
Proof. exact ct_and_sound. Qed.
Theorem C08_ct_or_sound :
  forall a b x y, ctgamma a x -> ctgamma b y -> ctgamma (ct_or a b) (Z.lor x y).
Proof. exact ct_or_sound. Qed.
Theorem C08_ct_xor_sound :
  forall a b x y, ctgamma a x -> ctgamma b y -> ctgamma (ct_xor a b) (Z.lxor x y).
Proof. exact ct_xor_sound. Qed.
Theorem C08_ct_shl_sound :
  forall a b x k, ctgamma a x -> ctgamma b k -> 0 <= k -> ctgamma (ct_shl a b) (Z.shiftl x k).
Proof. exact ct_shl_sound. Qed.
Theorem C08_ct_ashr_sound :
  forall a b x k, ctgamma a x -> ctgamma b k -> 0 <= k -> ctgamma (ct_ashr a b) (Z.shiftr x k).
Proof. exact ct_ashr_sound. Qed.
Theorem C08_ct_lshr_sound :
  forall a b x k, ctgamma a x -> ctgamma b k -> 0 <= k ->
  forall r, (0 <= x -> r = Z.shiftr x k) -> ctgamma (ct_lshr a b) r.
Proof. exact ct_lshr_sound. Qed.
Theorem C08_ct_join_sound :
  forall a b x, ctgamma a x \/ ctgamma b x -> ctgamma (ct_join a b) x.
Proof. exact ct_join_sound. Qed.
Theorem C08_ct_join_least :
  forall a b c, ct_leq a c = true -> ct_leq b c = true -> ct_leq (ct_join a b) c = true.
Proof. exact ct_join_least. Qed.
Theorem C08_ct_meet_exact :
  forall a b x, ctgamma (ct_meet a b) x <-> (ctgamma a x /\ ctgamma b x).
Proof. exact ct_meet_exact. Qed.
Theorem C08_ct_widen_sound :
  forall a b x, ctgamma a x \/ ctgamma b x -> ctgamma (ct_widen a b) x.
Proof. exact ct_widen_sound. Qed.
Theorem C08_ct_narrow_sound :
  forall a b x, ctgamma a x -> ctgamma b x -> ctgamma (ct_narrow a b) x.
Proof. exact ct_narrow_sound. Qed.
Theorem C08_ct_leq_sound :
  forall a b, ct_leq a b = true -> forall x, ctgamma a x -> ctgamma b x.
Proof. exact ct_leq_sound. Qed.
Theorem C08_ct_leq_complete :
  forall a b, (forall x, ctgamma a x -> ctgamma b x) -> ct_leq a b = true.
Proof. exact ct_leq_complete. Qed.
Theorem C08_ct_bottom_empty :
  forall c, ct_is_bot c = true <-> (forall x, ~ ctgamma c x).
Proof. exact ct_is_bot_spec. Qed.
Theorem C08_ct_top_full :
  forall c, ct_is_top c = true <-> (forall x, ctgamma c x).
Proof. exact ct_is_top_spec. Qed.
Theorem C08_bv_and_sound :
  forall x y a b, bgamma x a -> bgamma y b -> bgamma (bv_and x y) (a && b).
Proof. exact bv_and_sound. Qed.
Theorem C08_bv_or_sound :
  forall x y a b, bgamma x a -> bgamma y b -> bgamma (bv_or x y) (a || b).
Proof. exact bv_or_sound. Qed.
Theorem C08_bv_xor_sound :
  forall x y a b, bgamma x a -> bgamma y b -> bgamma (bv_xor x y) (xorb a b).
Proof. exact bv_xor_sound. Qed.
Theorem C08_bv_negate_sound :
  forall x a, bgamma x a -> bgamma (bv_negate x) (negb a).
Proof. exact bv_negate_sound. Qed.
Theorem C08_bv_join_sound :
  forall x y b, bgamma x b \/ bgamma y b -> bgamma (bv_join x y) b.
Proof. exact bv_join_sound. Qed.
Theorem C08_bv_join_least :
  forall x y z, bv_leq x z = true -> bv_leq y z = true -> bv_leq (bv_join x y) z = true.
Proof. exact bv_join_least. Qed.
Theorem C08_bv_meet_exact :
  forall x y b, bgamma (bv_meet x y) b <-> (bgamma x b /\ bgamma y b).
Proof. exact bv_meet_exact. Qed.
Theorem C08_bv_leq_sound :
  forall x y, bv_leq x y = true -> forall b, bgamma x b -> bgamma y b.
Proof. exact bv_leq_sound. Qed.
Theorem C08_bv_leq_complete :
  forall x y, (forall b, bgamma x b -> bgamma y b) -> bv_leq x y = true.
Proof. exact bv_leq_complete. Qed.
Theorem C08_bv_bottom_empty :
  forall x, bv_is_bot x = true <-> (forall b, ~ bgamma x b).
Proof. exact bv_is_bot_spec. Qed.
Theorem C08_bv_top_full :
  forall x, bv_is_top x = true <-> (forall b, bgamma x b).
Proof. exact bv_is_top_spec. Qed.
Theorem C08_sr_zero_sound :
  rgamma RZero vempty.
Proof. exact rgamma_zero. Qed.
Theorem C08_sr_increment_sound :
  forall x S v, rgamma x S -> rgamma (sr_incr x v) (vadd S v).
Proof. exact sr_incr_sound. Qed.
Theorem C08_sr_join_sound :
  forall x y S, rgamma x S \/ rgamma y S -> rgamma (sr_join x y) S.
Proof. exact sr_join_sound. Qed.
Theorem C08_sr_meet_sound :
  forall x y S, rgamma x S -> rgamma y S -> rgamma (sr_meet x y) S.
Proof. exact sr_meet_sound. Qed.
Theorem C08_sr_meet_below :
  forall x y S, rgamma (sr_meet x y) S -> rgamma x S /\ rgamma y S.
Proof. exact sr_meet_below. Qed.
Theorem C08_sr_widen_sound :
  forall x y S, rgamma x S \/ rgamma y S -> rgamma (sr_widen x y) S.
Proof. exact sr_widen_sound. Qed.
Theorem C08_sr_narrow_sound :
  forall x y S, rgamma x S -> rgamma y S -> rgamma (sr_narrow x y) S.
Proof. exact sr_narrow_sound. Qed.
Theorem C08_sr_leq_sound :
  forall x y, sr_leq x y = true -> forall S, rgamma x S -> rgamma y S.
Proof. exact sr_leq_sound. Qed.
Theorem C08_sr_leq_refl :
  forall x, sr_leq x x = true.
Proof. exact sr_leq_refl. Qed.
Theorem C08_sr_leq_bottom :
  forall x, sr_leq RBot x = true.
Proof. exact sr_leq_bot_l. Qed.
Theorem C08_sr_leq_top :
  forall x, sr_leq x RZeroOrMore = true.
Proof. exact sr_leq_top_r. Qed.
Theorem C08_ic_reduce_exact :
  forall i c x, icgamma (ic_reduce i c) x <-> (gamma i x /\ cgamma c x).
Proof. exact ic_reduce_exact. Qed.
Theorem C08_ic_add_sound :
  forall p q x y, icgamma p x -> icgamma q y -> icgamma (ic_add p q) (x + y).
Proof. exact ic_add_sound. Qed.
Theorem C08_ic_sub_sound :
  forall p q x y, icgamma p x -> icgamma q y -> icgamma (ic_sub p q) (x - y).
Proof. exact ic_sub_sound. Qed.
Theorem C08_ic_mul_sound :
  forall p q x y, icgamma p x -> icgamma q y -> icgamma (ic_mul p q) (x * y).
Proof. exact ic_mul_sound. Qed.
Theorem C08_ic_sdiv_sound :
  forall p q x y, icgamma p x -> icgamma q y -> y <> 0 -> icgamma (ic_div p q) (Z.quot x y).
Proof. exact ic_div_sound. Qed.
Theorem C08_ic_srem_sound :
  forall p q x y, icgamma p x -> icgamma q y -> y <> 0 -> icgamma (ic_srem p q) (Z.rem x y).
Proof. exact ic_srem_sound. Qed.
Theorem C08_ic_udiv_sound :
  forall p q x y (r : Z), icgamma p x -> icgamma q y -> icgamma (ic_udiv p q) r.
Proof. exact ic_udiv_sound. Qed.
Theorem C08_ic_urem_sound :
  forall p q x x' y, icgamma p x -> icgamma q y -> 0 < y -> 0 <= x' -> (x' = x \/ x < 0) ->
  icgamma (ic_urem p q) (Z.rem x' y).
Proof. exact ic_urem_sound. Qed.
Theorem C08_ic_and_sound :
  forall p q x y, icgamma p x -> icgamma q y -> icgamma (ic_and p q) (Z.land x y).
Proof. exact ic_and_sound. Qed.
Theorem C08_ic_or_sound :
  forall p q x y, icgamma p x -> icgamma q y -> icgamma (ic_or p q) (Z.lor x y).
Proof. exact ic_or_sound. Qed.
Theorem C08_ic_xor_sound :
  forall p q x y, icgamma p x -> icgamma q y -> icgamma (ic_xor p q) (Z.lxor x y).
Proof. exact ic_xor_sound. Qed.
Theorem C08_ic_shl_sound :
  forall p q x k, cwf (isnd q) -> icgamma p x -> icgamma q k -> 0 <= k -> icgamma (ic_shl p q) (Z.shiftl x k).
Proof. exact ic_shl_sound. Qed.
Theorem C08_ic_ashr_sound :
  forall p q x k, icgamma p x -> icgamma q k -> 0 <= k -> icgamma (ic_ashr p q) (Z.shiftr x k).
Proof. exact ic_ashr_sound. Qed.
Theorem C08_ic_lshr_sound :
  forall p q x k, icgamma p x -> icgamma q k -> 0 <= k ->
  forall r, (0 <= x -> r = Z.shiftr x k) -> icgamma (ic_lshr p q) r.
Proof. exact ic_lshr_sound. Qed.
Theorem C08_ic_cast_sound :
  forall p (r : Z), icgamma (ic_cast p) r.
Proof. exact ic_cast_sound. Qed.
Theorem C08_ic_join_sound :
  forall p q x, icgamma p x \/ icgamma q x -> icgamma (ic_join p q) x.
Proof. exact ic_join_sound. Qed.
Theorem C08_ic_meet_sound :
  forall p q x, icgamma p x -> icgamma q x -> icgamma (ic_meet p q) x.
Proof. exact ic_meet_sound. Qed.
Theorem C08_ic_reduce_keeps_normal_form :
  forall i c, cwf c -> cwf (isnd (ic_reduce i c)).
Proof. exact ic_reduce_cwf. Qed.
Theorem C08_di_of_interval_sound :
  forall i x, gamma i x -> dgamma (di_of_itv i) x.
Proof. exact di_of_itv_sound. Qed.
Theorem C08_di_of_interval_exact :
  forall i x, wf i -> dgamma (di_of_itv i) x -> gamma i x.
Proof. exact di_of_itv_exact. Qed.
Theorem C08_di_normalize_sound :
  forall l x, lgamma l x -> dgamma (di_of_list l) x.
Proof. exact di_of_list_sound. Qed.
Theorem C08_di_normalize_wf :
  forall l, dwf (di_of_list l).
Proof. exact di_of_list_wf. Qed.
Theorem C08_di_add_sound :
  forall a b x y, dgamma a x -> dgamma b y -> dgamma (di_add a b) (x + y).
Proof. exact di_add_sound. Qed.
Theorem C08_di_sub_sound :
  forall a b x y, dgamma a x -> dgamma b y -> dgamma (di_sub a b) (x - y).
Proof. exact di_sub_sound. Qed.
Theorem C08_di_neg_sound :
  forall a x, dgamma a x -> dgamma (di_neg a) (- x).
Proof. exact di_neg_sound. Qed.
Theorem C08_di_mul_sound :
  forall a b x y, dgamma a x -> dgamma b y -> dgamma (di_mul a b) (x * y).
Proof. exact di_mul_sound. Qed.
Theorem C08_di_sdiv_sound :
  forall a b x y, dgamma a x -> dgamma b y -> y <> 0 -> dgamma (di_div a b) (Z.quot x y).
Proof. exact di_div_sound. Qed.
Theorem C08_di_srem_sound :
  forall a b x y, dgamma a x -> dgamma b y -> y <> 0 -> dgamma (di_srem a b) (Z.rem x y).
Proof. exact di_srem_sound. Qed.
Theorem C08_di_udiv_sound :
  forall a b x y (r : Z), dgamma a x -> dgamma b y -> dgamma (di_udiv a b) r.
Proof. exact di_udiv_sound. Qed.
Theorem C08_di_urem_sound :
  forall a b x x' y, dgamma a x -> dgamma b y -> 0 < y -> 0 <= x' -> (x' = x \/ x < 0) ->
  dgamma (di_urem a b) (Z.rem x' y).
Proof. exact di_urem_sound. Qed.
Theorem C08_di_and_sound :
  forall a b x y, dgamma a x -> dgamma b y -> dgamma (di_and a b) (Z.land x y).
Proof. exact di_and_sound. Qed.
Theorem C08_di_or_sound :
  forall a b x y, dgamma a x -> dgamma b y -> dgamma (di_or a b) (Z.lor x y).
Proof. exact di_or_sound. Qed.
Theorem C08_di_xor_sound :
  forall a b x y, dgamma a x -> dgamma b y -> dgamma (di_xor a b) (Z.lxor x y).
Proof. exact di_xor_sound. Qed.
Theorem C08_di_shl_sound :
  forall a b x k, dgamma a x -> dgamma b k -> 0 <= k -> dgamma (di_shl a b) (Z.shiftl x k).
Proof. exact di_shl_sound. Qed.
Theorem C08_di_ashr_sound :
  forall a b x k, dgamma a x -> dgamma b k -> 0 <= k -> dgamma (di_ashr a b) (Z.shiftr x k).
Proof. exact di_ashr_sound. Qed.
Theorem C08_di_lshr_sound :
  forall a b x k, dgamma a x -> dgamma b k -> 0 <= k ->
  forall r, (0 <= x -> r = Z.shiftr x k) -> dgamma (di_lshr a b) r.
Proof. exact di_lshr_sound. Qed.
Theorem C08_di_lower_half_line_sound :
  forall a x w, dgamma a x -> w <= x -> dgamma (di_lower_half a) w.
Proof. exact di_lower_half_sound. Qed.
Theorem C08_di_upper_half_line_sound :
  forall a x w, dgamma a x -> x <= w -> dgamma (di_upper_half a) w.
Proof. exact di_upper_half_sound. Qed.
Theorem C08_di_join_sound :
  forall a b x, dgamma a x \/ dgamma b x -> dgamma (di_join a b) x.
Proof. exact di_join_sound. Qed.
Theorem C08_di_meet_sound :
  forall a b x, dgamma a x -> dgamma b x -> dgamma (di_meet a b) x.
Proof. exact di_meet_sound. Qed.
Theorem C08_di_widen_sound :
  forall a b x, dwf a -> dwf b -> dgamma a x \/ dgamma b x -> dgamma (di_widen a b) x.
Proof. exact di_widen_sound. Qed.
Theorem C08_di_narrow_sound :
  forall a b x, dgamma a x -> dgamma b x -> dgamma (di_narrow a b) x.
Proof. exact di_narrow_sound. Qed.
Theorem C08_di_leq_sound :
  forall a b, di_leq a b = true -> forall x, dgamma a x -> dgamma b x.
Proof. exact di_leq_sound. Qed.
Theorem C08_di_leq_refl :
  forall a, di_leq a a = true.
Proof. exact di_leq_refl. Qed.
Theorem C08_di_eq_sound :
  forall a b, di_eq a b = true -> forall x, dgamma a x <-> dgamma b x.
Proof. exact di_eq_sound. Qed.
Theorem C08_di_approx_sound :
  forall d x, dwf d -> dgamma d x -> gamma (di_approx d) x.
Proof. exact di_approx_sound. Qed.
Theorem C08_di_singleton_sound :
  forall d n x, dwf d -> di_singleton d = Some n -> dgamma d x -> x = n.
Proof. exact di_singleton_sound. Qed.
Theorem C08_di_trim_sound :
  forall a b c x, di_singleton b = Some c -> dgamma a x -> x <> c -> dgamma (di_trim a b) x.
Proof. exact di_trim_sound. Qed.
Theorem C08_di_operations_keep_wf :
  forall op sc a b, dwf (di_binop op sc a b).
Proof. exact di_binop_wf. Qed.
Theorem C08_di_join_keeps_wf :
  forall a b, dwf a -> dwf b -> dwf (di_join a b).
Proof. exact di_join_wf. Qed.
Theorem C08_di_meet_keeps_wf :
  forall a b, dwf a -> dwf b -> dwf (di_meet a b).
Proof. exact di_meet_wf. Qed.
Theorem C08_di_widen_keeps_wf :
  forall a b, dwf a -> dwf b -> dwf (di_widen a b).
Proof. exact di_widen_wf. Qed.

Print Assumptions C08_cg_add_sound.
Print Assumptions C08_cg_sub_sound.
Print Assumptions C08_cg_neg_sound.
Print Assumptions C08_cg_mul_sound.
Print Assumptions C08_cg_sdiv_sound.
Print Assumptions C08_cg_srem_sound.
Print Assumptions C08_cg_udiv_sound.
Print Assumptions C08_cg_urem_sound.
Print Assumptions C08_cg_and_sound.
Print Assumptions C08_cg_or_sound.
Print Assumptions C08_cg_xor_sound.
Print Assumptions C08_cg_shl_sound.
Print Assumptions C08_cg_ashr_sound.
Print Assumptions C08_cg_lshr_sound.
Print Assumptions C08_cg_join_sound.
Print Assumptions C08_cg_join_least.
Print Assumptions C08_cg_meet_exact.
Print Assumptions C08_cg_widen_sound.
Print Assumptions C08_cg_narrow_sound.
Print Assumptions C08_cg_narrow_below.
Print Assumptions C08_cg_leq_sound.
Print Assumptions C08_cg_leq_complete.
Print Assumptions C08_cg_leq_refl.
Print Assumptions C08_cg_eq_sound.
Print Assumptions C08_cg_bottom_empty.
Print Assumptions C08_cg_top_full.
Print Assumptions C08_cg_singleton_exact.
Print Assumptions C08_cg_normalize_exact.
Print Assumptions C08_cg_normal_form.
Print Assumptions C08_sg_const_sound.
Print Assumptions C08_sg_add_sound.
Print Assumptions C08_sg_sub_sound.
Print Assumptions C08_sg_mul_sound.
Print Assumptions C08_sg_sdiv_sound.
Print Assumptions C08_sg_udiv_srem_urem_sound.
Print Assumptions C08_sg_and_sound.
Print Assumptions C08_sg_or_sound.
Print Assumptions C08_sg_xor_sound.
Print Assumptions C08_sg_shl_sound.
Print Assumptions C08_sg_ashr_sound.
Print Assumptions C08_sg_lshr_sound.
Print Assumptions C08_sg_join_sound.
Print Assumptions C08_sg_join_least.
Print Assumptions C08_sg_meet_exact.
Print Assumptions C08_sg_leq_sound.
Print Assumptions C08_sg_leq_complete.
Print Assumptions C08_sg_from_interval_sound.
Print Assumptions C08_sg_to_interval_sound.
Print Assumptions C08_sg_bottom_empty.
Print Assumptions C08_sg_top_full.
Print Assumptions C08_ct_add_sound.
Print Assumptions C08_ct_sub_sound.
Print Assumptions C08_ct_mul_sound.
Print Assumptions C08_ct_sdiv_sound.
Print Assumptions C08_ct_srem_sound.
Print Assumptions C08_ct_udiv_sound.
Print Assumptions C08_ct_urem_sound.
Print Assumptions C08_ct_and_sound.
Print Assumptions C08_ct_or_sound.
Print Assumptions C08_ct_xor_sound.
Print Assumptions C08_ct_shl_sound.
Print Assumptions C08_ct_ashr_sound.
Print Assumptions C08_ct_lshr_sound.
Print Assumptions C08_ct_join_sound.
Print Assumptions C08_ct_join_least.
Print Assumptions C08_ct_meet_exact.
Print Assumptions C08_ct_widen_sound.
Print Assumptions C08_ct_narrow_sound.
Print Assumptions C08_ct_leq_sound.
Print Assumptions C08_ct_leq_complete.
Print Assumptions C08_ct_bottom_empty.
Print Assumptions C08_ct_top_full.
Print Assumptions C08_bv_and_sound.
Print Assumptions C08_bv_or_sound.
Print Assumptions C08_bv_xor_sound.
Print Assumptions C08_bv_negate_sound.
Print Assumptions C08_bv_join_sound.
Print Assumptions C08_bv_join_least.
Print Assumptions C08_bv_meet_exact.
Print Assumptions C08_bv_leq_sound.
Print Assumptions C08_bv_leq_complete.
Print Assumptions C08_bv_bottom_empty.
Print Assumptions C08_bv_top_full.
Print Assumptions C08_sr_zero_sound.
Print Assumptions C08_sr_increment_sound.
Print Assumptions C08_sr_join_sound.
Print Assumptions C08_sr_meet_sound.
Print Assumptions C08_sr_meet_below.
Print Assumptions C08_sr_widen_sound.
Print Assumptions C08_sr_narrow_sound.
Print Assumptions C08_sr_leq_sound.
Print Assumptions C08_sr_leq_refl.
Print Assumptions C08_sr_leq_bottom.
Print Assumptions C08_sr_leq_top.
Print Assumptions C08_ic_reduce_exact.
Print Assumptions C08_ic_add_sound.
Print Assumptions C08_ic_sub_sound.
Print Assumptions C08_ic_mul_sound.
Print Assumptions C08_ic_sdiv_sound.
Print Assumptions C08_ic_srem_sound.
Print Assumptions C08_ic_udiv_sound.
Print Assumptions C08_ic_urem_sound.
Print Assumptions C08_ic_and_sound.
Print Assumptions C08_ic_or_sound.
Print Assumptions C08_ic_xor_sound.
Print Assumptions C08_ic_shl_sound.
Print Assumptions C08_ic_ashr_sound.
Print Assumptions C08_ic_lshr_sound.
Print Assumptions C08_ic_cast_sound.
Print Assumptions C08_ic_join_sound.
Print Assumptions C08_ic_meet_sound.
Print Assumptions C08_ic_reduce_keeps_normal_form.
Print Assumptions C08_di_of_interval_sound.
Print Assumptions C08_di_of_interval_exact.
Print Assumptions C08_di_normalize_sound.
Print Assumptions C08_di_normalize_wf.
Print Assumptions C08_di_add_sound.
Print Assumptions C08_di_sub_sound.
Print Assumptions C08_di_neg_sound.
Print Assumptions C08_di_mul_sound.
Print Assumptions C08_di_sdiv_sound.
Print Assumptions C08_di_srem_sound.
Print Assumptions C08_di_udiv_sound.
Print Assumptions C08_di_urem_sound.
Print Assumptions C08_di_and_sound.
Print Assumptions C08_di_or_sound.
Print Assumptions C08_di_xor_sound.
Print Assumptions C08_di_shl_sound.
Print Assumptions C08_di_ashr_sound.
Print Assumptions C08_di_lshr_sound.
Print Assumptions C08_di_lower_half_line_sound.
Print Assumptions C08_di_upper_half_line_sound.
Print Assumptions C08_di_join_sound.
Print Assumptions C08_di_meet_sound.
Print Assumptions C08_di_widen_sound.
Print Assumptions C08_di_narrow_sound.
Print Assumptions C08_di_leq_sound.
Print Assumptions C08_di_leq_refl.
Print Assumptions C08_di_eq_sound.
Print Assumptions C08_di_approx_sound.
Print Assumptions C08_di_singleton_sound.
Print Assumptions C08_di_trim_sound.
Print Assumptions C08_di_operations_keep_wf.
Print Assumptions C08_di_join_keeps_wf.
Print Assumptions C08_di_meet_keeps_wf.
Print Assumptions C08_di_widen_keeps_wf.
