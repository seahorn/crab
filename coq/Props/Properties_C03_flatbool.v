(* Property C03 for the boolean domain
   crab::domains::flat_boolean_numerical_domain<interval_domain<z_number>> (C04 and the lifting
   clause of C12 for the same model: Properties_C04_flatbool.v, Properties_C12_flatbool.v).
   Model: Dom/FlatBool.v (mirror of flat_boolean_domain.hpp after the repairs bool-1 .. bool-9:
   flat Boolean environment x interval domain with the bottom flag and lazy canonicalisation of
   basic_domain_product2, the constraints remembered by b := cst, the implied Booleans, the
   unchanged variables), tied to the code by the correspondence stream bool-itv-histories.
   Concrete states: pairs (integer store, Boolean store).  gfb st s t = the abstract value st
   describes the pair (s, t): the product describes both stores; for every Boolean b and every
   constraint c remembered for b, c is well formed and, if all its variables are unchanged,
   t b = true <-> c holds on s; b true implies b' true for every b' remembered for b; the set of
   unchanged variables is not the all-variables set (as it is in fb_bot).
   Statements only. *)
From Coq Require Import ZArith NArith List Bool.
From CrabV Require Import Base.ZInf Scalar.Itv Scalar.ItvSound Ir.Syntax Dom.ItvEnv Dom.ItvEnvSound
     Dom.ItvSolver Dom.ItvSolverSound Dom.ItvDomain Dom.ItvDomainSound Dom.History Dom.HistorySound
     Dom.FlatBool Dom.FlatBoolSound.
Import ListNotations.
Local Open Scope Z_scope.

(* C03.  Starting from top in every register and applying ANY finite history over several
   registers (all numerical operations, casts between integers and Booleans, b := cst,
   b := b' / not b', and / or / xor, select_bool, assume_bool of both polarities, weak Boolean
   assignments, havoc, forget / project / rename / expand, join, meet, widening with and
   without thresholds, narrowing, copies), every register describes every pair of stores
   obtained by the corresponding concrete operations (fcstep; a Boolean variable lives in the
   Boolean store, an integer variable in the integer store, isb gives the types).  fhist_ok
   (fhop_ok at every step) asks for well-typed use within the preconditions of the API:
   constraints in canonical form; casts integer -> integer, integer -> Boolean (trunc) and
   Boolean -> integer (zext / sext); rename with distinct, unbound new names, each of the type
   of the variable it replaces; the renamed / expanded variables are not bound in the
   component of the other type. *)
Theorem C03_flatbool_history_sound : forall isb h n,
  fhist_ok isb (repeat fb_top n) h ->
  frel (frun isb (repeat fb_top n) h) (fold_left (fcstep isb) h (repeat (fun _ _ => True) n)).
Proof. exact fhistory_sound_top. Qed.

Theorem C03_flatbool_history_sound_from_any_state : forall isb h rs cs,
  frel rs cs -> fhist_ok isb rs h -> frel (frun isb rs h) (fold_left (fcstep isb) h cs).
Proof. exact fhistory_sound. Qed.

(* consequently the answers are sound *)
Theorem C03_flatbool_boolean_query_sound : forall rs cs r s t b,
  frel rs cs -> fcget cs r s t -> gbv (fb_bool_at (frget rs r) b) (t b).
Proof. exact frel_bool_at. Qed.
Theorem C03_flatbool_not_bottom_while_a_state_exists : forall rs cs r s t,
  frel rs cs -> fcget cs r s t -> fb_is_bot (frget rs r) = false.
Proof. exact frel_not_bot. Qed.
Theorem C03_flatbool_entails_sound : forall rs cs r s t c,
  frel rs cs -> fcget cs r s t -> wf_lc c -> fb_entails c (frget rs r) = true -> sat c s.
Proof. exact frel_entails. Qed.
(* at(v): the integer value of a variable about which nothing Boolean is known, the 0/1 value
   of a variable about which nothing numerical is known *)
Theorem C03_flatbool_at_sound_integer : forall st s t v, gfb st s t ->
  be_at (p_fst (f_prod st)) v = BvTop -> gamma (fb_at st v) (s v).
Proof. exact fb_at_sound_int. Qed.
Theorem C03_flatbool_at_sound_boolean : forall st s t v, gfb st s t ->
  is_top (e_at (p_snd (f_prod st)) v) = true -> gamma (fb_at st v) (b2z (t v)).
Proof. exact fb_at_sound_bool. Qed.
Theorem C03_flatbool_exported_constraints_sound : forall st s t c,
  gfb st s t -> In c (fb_to_csts st) -> sat c s \/ bool_cst t c.
Proof. exact fb_to_csts_sound. Qed.

(* per-operation soundness of the Boolean operations *)
Theorem C03_flatbool_assign_bool_cst_sound : forall x c st s t,
  wf_lc c -> gfb st s t -> gfb (fb_assign_bool_cst x c st) s (bupd t x (satb c s)).
Proof. exact fb_assign_bool_cst_sound. Qed.
Theorem C03_flatbool_assign_bool_var_sound : forall x y neg st s t,
  gfb st s t -> gfb (fb_assign_bool_var x y neg st) s (bupd t x (if neg then negb (t y) else t y)).
Proof. exact fb_assign_bool_var_sound. Qed.
Theorem C03_flatbool_apply_binary_bool_sound : forall op x y z st s t,
  gfb st s t -> gfb (fb_apply_binary_bool op x y z st) s (bupd t x (bool_sem op (t y) (t z))).
Proof. exact fb_apply_binary_bool_sound. Qed.
Theorem C03_flatbool_assume_bool_sound : forall x neg st s t,
  gfb st s t -> t x = negb neg -> gfb (fb_assume_bool x neg st) s t.
Proof. exact fb_assume_bool_sound. Qed.
Theorem C03_flatbool_select_bool_sound : forall lhs cond b1 b2 st s t,
  gfb st s t ->
  gfb (fb_select_bool lhs cond b1 b2 st) s (bupd t lhs (if t cond then t b1 else t b2)).
Proof. exact fb_select_bool_sound. Qed.
Theorem C03_flatbool_assign_sound : forall x ex st s t,
  gfb st s t -> gfb (fb_assign x ex st) (upd s x (eval_le ex s)) t.
Proof. exact fb_assign_sound. Qed.
Theorem C03_flatbool_assume_sound : forall cs st s t,
  (forall c, In c cs -> wf_lc c /\ sat c s) -> gfb st s t -> gfb (fb_add cs st) s t.
Proof. exact fb_add_sound. Qed.
Theorem C03_flatbool_forget_sound : forall isb vs st s t s' t',
  gfb st s t -> typed_frame isb vs s s' t t' -> gfb (fb_forget isb vs st) s' t'.
Proof. exact fb_forget_sound. Qed.
Theorem C03_flatbool_trunc_to_bool_sound : forall dst src w st s t,
  gfb st s t -> gfb (fb_cast CTrunc dst src true false w st) s (bupd t dst (negb (s src =? 0))).
Proof. exact fb_cast_to_bool_sound. Qed.
Theorem C03_flatbool_ext_from_bool_sound : forall op dst src w st s t,
  op <> CTrunc -> gfb st s t ->
  gfb (fb_cast op dst src false true w st) (upd s dst (b2z (t src))) t.
Proof. exact fb_cast_from_bool_sound. Qed.

(* non-vacuity and the repaired behaviour (bool-2): b0 := (x <= 0); x := 5; b1 := (x <= 10);
   assume(b0) is NOT bottom and keeps x = 5 (the constraint x <= 0 remembered for b0 is not
   revived when x re-enters the unchanged variables); without the assignment, assume(b0)
   gives x <= 0.  Variables: x = 0, b0 = 1, b1 = 2. *)
Example C03_flatbool_example :
  let x := 0%N in let b0 := 1%N in let b1 := 2%N in
  let isb := fun v => N.leb 1 v in
  let h := [FBAssign 0%nat b0 (mkLC INEQ (mkLE [(1, x)] 0));          (* b0 := (x <= 0) *)
            FCopy 1%nat 0%nat;
            FAssign 0%nat x (mkLE [] 5);                              (* x := 5 *)
            FBAssign 0%nat b1 (mkLC INEQ (mkLE [(1, x)] (-10)));      (* b1 := (x <= 10) *)
            FBAssume 0%nat b0 false;                                  (* assume(b0) *)
            FBAssume 1%nat b0 false] in
  let rs := frun isb (repeat fb_top 2%nat) h in
  fhist_ok isb (repeat fb_top 2%nat) h /\
  fb_is_bot (frget rs 0%nat) = false /\
  fb_at (frget rs 0%nat) x = mkI (Fin 5) (Fin 5) /\
  fb_bool_at (frget rs 0%nat) b0 = BvTrue /\ fb_bool_at (frget rs 0%nat) b1 = BvTrue /\
  fb_at (frget rs 1%nat) x = mkI MInf (Fin 0).
Proof.
  cbv zeta. split; [|vm_compute; repeat split; reflexivity].
  cbn [fhist_ok fhop_ok fstep].
  repeat match goal with |- _ /\ _ => split end; try exact I;
    apply wf_lcb_sound; reflexivity.
Qed.

Print Assumptions C03_flatbool_history_sound.
Print Assumptions C03_flatbool_history_sound_from_any_state.
Print Assumptions C03_flatbool_boolean_query_sound.
Print Assumptions C03_flatbool_not_bottom_while_a_state_exists.
Print Assumptions C03_flatbool_entails_sound.
Print Assumptions C03_flatbool_at_sound_integer.
Print Assumptions C03_flatbool_at_sound_boolean.
Print Assumptions C03_flatbool_exported_constraints_sound.
Print Assumptions C03_flatbool_assign_bool_cst_sound.
Print Assumptions C03_flatbool_assign_bool_var_sound.
Print Assumptions C03_flatbool_apply_binary_bool_sound.
Print Assumptions C03_flatbool_assume_bool_sound.
Print Assumptions C03_flatbool_select_bool_sound.
Print Assumptions C03_flatbool_assign_sound.
Print Assumptions C03_flatbool_assume_sound.
Print Assumptions C03_flatbool_forget_sound.
Print Assumptions C03_flatbool_trunc_to_bool_sound.
Print Assumptions C03_flatbool_ext_from_bool_sound.
