(* Property C09, analyze_recursive_functions = true: the model of the top-down analyzer with the
   precise handling of recursive functions (Ana/InterTDRec.v: a fixpoint over each head of the call
   graph WTO cycles, widening of the callee entry / exit, pre-fixpoint summaries, calling contexts
   of the members of a cycle) is sound without the checker. *)
From Coq Require Import ZArith NArith List Bool Arith Lia.
From CrabV Require Import Base.ZInf Scalar.Itv Ir.Syntax Ir.Cfg Dom.ItvEnv Dom.ItvEnvSound Dom.ItvDomain
     Fix.Wto Ana.Transformer Ana.InterSyntax Ana.InterSem Ana.InterTD Ana.InterTDSound
     Ana.InterTDModelSound Ana.InterTDRecset Ana.InterTDRec Ana.InterTDRecSound.
Import ListNotations.

(* the model's own result is sound, directly (no checker), when max_call_contexts is not bounded:
   any program and call graph (direct, mutual, nested recursion), exact_summary_reuse, widening
   delay, descending iterations, fuels; entries, call graph orderings, widening set and recursive
   set as the analyzer computes them.  rec_run_checked = rec_run when the executable side
   conditions rec_cfg_okb hold (it sets the error flag otherwise): the call graph orderings nest the
   call graph cycles, an entry function of the recursive set is a head, the entry block of a head
   is not a loop head of its CFG *)
Theorem C09_rec_model_sound :
  forall p voff exact delay desc efuel ifuel wtos rs depth init,
  iprog_wfb p voff = true ->
  (forall f, f < length p -> build (fn_graph (get_fn p f)) 0 = Some (wtos f)) ->
  cg_recset p = Some rs ->
  let g := rec_run_checked p voff None exact delay desc efuel ifuel wtos (cg_wto p) (cg_wset p) rs depth
                           (cg_entries p) init in
  g_err (r_g g) = false ->
  forall Init : store -> Prop, (forall s, Init s -> genv init s) ->
  (forall f n s, IRPre p (cg_entries p) Init f n s -> genv (g_pre (r_g g) f n) s) /\
  (forall f n s, IRPost p (cg_entries p) Init f n s -> genv (g_post (r_g g) f n) s) /\
  (forall sm, In sm (g_summaries p (r_g g)) ->
     forall s0 s1, genv (s_pre sm) s0 -> exec_fun p (s_fn sm) s0 s1 -> genv (s_post sm) s1).
Proof. exact td_rec_model_sound_cfg. Qed.

(* any list of entry functions, call graph orderings, widening set and recursive set that pass the
   executable side conditions, the recursive set containing the functions reachable from the
   entries that lie on a call graph cycle *)
Theorem C09_rec_model_sound_any_config :
  forall p voff exact delay desc efuel ifuel wtos cgwto wset recset depth entries init,
  iprog_wfb p voff = true ->
  (forall f, f < length p -> build (fn_graph (get_fn p f)) 0 = Some (wtos f)) ->
  (forall f, In f entries -> f < length p) ->
  (forall f, cg_reach p entries f -> cg_path p f f -> In f recset) ->
  let g := rec_run_checked p voff None exact delay desc efuel ifuel wtos cgwto wset recset depth entries init in
  g_err (r_g g) = false ->
  forall Init : store -> Prop, (forall s, Init s -> genv init s) ->
  (forall f n s, IRPre p entries Init f n s -> genv (g_pre (r_g g) f n) s) /\
  (forall f n s, IRPost p entries Init f n s -> genv (g_post (r_g g) f n) s) /\
  (forall sm, In sm (g_summaries p (r_g g)) ->
     forall s0 s1, genv (s_pre sm) s0 -> exec_fun p (s_fn sm) s0 s1 -> genv (s_post sm) s1).
Proof. exact td_rec_model_sound. Qed.

(* the side condition on the call graph orderings is what the proof needs: in the ordering of the
   call graph built from an entry function e, a call graph cycle through a function f that is not a head goes
   through a head of the nesting of f *)
Theorem C09_rec_nesting_condition :
  forall p voff cgwto wset entries, iprog_wfb p voff = true -> nest_okb p cgwto wset entries = true ->
  forall e f hs K, In e entries -> nesting (cgwto e) f = Some hs -> ~ In f wset -> reach p e f ->
    chain p (f :: K) -> cg_edge p (last K f) f -> exists m, In m hs /\ In m K.
Proof. exact nest_okb_sound. Qed.

(* non-vacuity, and precise recursion is better than top:
     main { havoc x; assume 0 <= x <= 5; y := f(x) }
     f(a) -> r { if (a >= 1) { t := a - 1; r := f(t); r := r + 1 } else { r := 0 } }
   the side conditions hold, the model terminates without error, stores the summary
   a in [0,5] => r >= 0 and reports y >= 0 after the call; the imprecise mode (td_run) analyses f
   from top and reports nothing about y.  By C09_rec_model_sound the tables of the precise run
   contain the states of all the recursive activations. *)
Example C09_rec_example :
  let p := [mkFunc [] [] [[IBase (SHavoc 3%N);
                    IBase (SAssume (mkLC INEQ (mkLE [((-1)%Z, 3%N)] 0%Z)));
                    IBase (SAssume (mkLC INEQ (mkLE [(1%Z, 3%N)] (-5)%Z)));
                    ICall [4%N] 1 [3%N]]] [] (Some 0);
     mkFunc [0%N] [1%N]
            [[];
             [IBase (SAssume (mkLC INEQ (mkLE [((-1)%Z, 0%N)] 1%Z)));
              IBase (SArith OpSub 2%N 0%N (OCst 1%Z)); ICall [1%N] 1 [2%N];
              IBase (SArith OpAdd 1%N 1%N (OCst 1%Z))];
             [IBase (SAssume (mkLC INEQ (mkLE [(1%Z, 0%N)] 0%Z))); IBase (SAssign 1%N (mkLE [] 0%Z))];
             []]
            [(0, 1); (0, 2); (1, 3); (2, 3)] (Some 3)] in
  let voff := prog_voff p in
  exists w0 w1,
    build (fn_graph (get_fn p 0)) 0 = Some w0 /\ build (fn_graph (get_fn p 1)) 0 = Some w1 /\
    cg_recset p = Some [1] /\ cg_wset p = [1] /\ cg_entries p = [0] /\
    let wtos := fun f => if Nat.eqb f 0 then w0 else w1 in
    let g := rec_run_checked p voff None true 2 2 100 50 wtos (cg_wto p) (cg_wset p) [1] 5 (cg_entries p) e_top in
    let g' := td_run p voff None true 2 2 100 wtos [1] 5 (cg_entries p) e_top in
    iprog_wfb p voff = true /\
    (forall f, f < length p -> build (fn_graph (get_fn p f)) 0 = Some (wtos f)) /\
    rec_cfg_okb p wtos (cg_wto p) (cg_wset p) [1] (cg_entries p) = true /\
    g_err (r_g g) = false /\
    map (fun sm => (s_fn sm, e_at (s_pre sm) 0%N, e_at (s_post sm) 1%N)) (g_summaries p (r_g g)) =
      [(1, mkI (Fin 0%Z) (Fin 5%Z), mkI (Fin 0%Z) PInf)] /\
    e_at (g_post (r_g g) 0 0) 4%N = mkI (Fin 0%Z) PInf /\
    e_at (g_pre (r_g g) 1 0) 0%N = mkI (Fin 0%Z) (Fin 5%Z) /\
    g_err g' = false /\ e_at (g_post g' 0 0) 4%N = itop /\ e_at (g_pre g' 1 0) 0%N = itop /\
    (forall Init : store -> Prop, forall f n s, IRPre p (cg_entries p) Init f n s -> genv (g_pre (r_g g) f n) s).
Proof.
  intros p voff. eexists. eexists.
  split; [vm_compute; reflexivity|]. split; [vm_compute; reflexivity|].
  split; [vm_compute; reflexivity|]. split; [vm_compute; reflexivity|]. split; [vm_compute; reflexivity|].
  intros wtos g g'.
  (* each of the two runs is evaluated once; p, g, g' stay local definitions, so that no term
     contains several copies of the program or of a run *)
  assert (HG : (g_err (r_g g),
                map (fun sm => (s_fn sm, e_at (s_pre sm) 0%N, e_at (s_post sm) 1%N)) (g_summaries p (r_g g)),
                e_at (g_post (r_g g) 0 0) 4%N, e_at (g_pre (r_g g) 1 0) 0%N) =
               (false, [(1, mkI (Fin 0%Z) (Fin 5%Z), mkI (Fin 0%Z) PInf)], mkI (Fin 0%Z) PInf, mkI (Fin 0%Z) (Fin 5%Z)))
    by (vm_compute; reflexivity).
  assert (HG' : (g_err g', e_at (g_post g' 0 0) 4%N, e_at (g_pre g' 1 0) 0%N) = (false, itop, itop))
    by (vm_compute; reflexivity).
  apply pair_equal_spec in HG as [HG H3]. apply pair_equal_spec in HG as [HG H2]. apply pair_equal_spec in HG as [HD H1].
  apply pair_equal_spec in HG' as [HG' H6]. apply pair_equal_spec in HG' as [H4 H5].
  match goal with |- ?A /\ ?B /\ ?C /\ _ =>
    assert (HA : A) by (vm_compute; reflexivity);
    assert (HB : B) by (intros f L; destruct f as [|[|f]]; [vm_compute; reflexivity|vm_compute; reflexivity|cbn in L; lia]);
    assert (HC : C) by (vm_compute; reflexivity)
  end.
  split; [exact HA|]. split; [exact HB|]. split; [exact HC|]. split; [exact HD|]. split; [exact H1|]. split; [exact H2|].
  split; [exact H3|]. split; [exact H4|]. split; [exact H5|]. split; [exact H6|].
  intros Init f n s R.
  refine (proj1 (C09_rec_model_sound _ _ true 2 2 100 50 _ [1] 5 e_top HA HB _ HD Init _) f n s R).
  - vm_compute. reflexivity.
  - intros; apply genv_top.
Qed.

Print Assumptions C09_rec_model_sound.
Print Assumptions C09_rec_model_sound_any_config.
Print Assumptions C09_rec_nesting_condition.
Print Assumptions C09_rec_example.
