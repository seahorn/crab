(* Property C18 — liveness and assertion-dependence facts.  Statements only.

   Models: Ana/Liveness.v (liveness.hpp + killgen_fixpoint_iterator.hpp after fixes
   transforms-1/2: per-statement use/def as cfg.hpp's live_t, block kill/gen with the
   `unreachable` reset, outputs live at the exit block, least solution, dead_exit),
   Ana/Crawler.v (assertion_crawler.hpp, intra-procedural map assertion -> variables, with the
   control dependences of cdg.hpp).  Semantics: Ana/CfgSem.v (small-step, traces of
   branches / assume and assertion outcomes / outputs at exit).

   C18_liveness_*: if x is not in live-out(b) (in particular if dead_exit(b) reports it), then
   for every execution from the end of b there is an execution from the store in which x was
   changed with the SAME trace (branches taken, assume outcomes, assertion outcomes, outputs at
   the exit) ending at the same program point (or both finished / both failed); the sets of
   traces, of finished traces and of failing traces coincide.  Unbounded over CFGs (loops,
   `unreachable` anywhere, any function declaration), blocks, variables and executions.
   The solution is the least one (C18_liveness_is_least_solution).

   C18_crawler_*: every assertion that a statement path from the entry of block l reaches is
   listed at l, and the value of its condition along the path is a function of the entry values
   of the listed variables (and of the havoc values): a variable whose entry value can change the
   condition's value is listed.  Proved for data dependences; the control-dependence additions
   of the model only enlarge the sets (covered by the same theorem) and their agreement with
   cdg.hpp is corresponded, not proved.  What the model's graph is in terms of the runner loop of
   the dominance computation is C18_crawler_control; without the has_exit guard the equivalence,
   C18_crawler_control_statement, is false (C18_crawler_control_refuted). *)
From Coq Require Import ZArith List Bool.
From CrabV Require Import Ir.Syntax Ana.CfgSem Ana.Liveness Ana.LivenessSound Ana.Crawler Ana.CrawlerSound.
Import ListNotations.

Theorem C18_liveness_is_least_solution : forall P m,
  liveness P = Some m ->
  is_solution P m /\ forall S, is_solution P S -> le_fun m S.
Proof. exact liveness_least_solution. Qed.
Print Assumptions C18_liveness_is_least_solution.

Theorem C18_liveness_noninterference : forall P m b x v s tr c1,
  liveness P = Some m -> ~ In x (live_get P m b) ->
  star P (at_end b s) tr c1 ->
  exists c2, star P (at_end b (upd s x v)) tr c2 /\ sim P m c1 c2.
Proof. exact liveness_noninterference. Qed.
Print Assumptions C18_liveness_noninterference.

Theorem C18_liveness_same_behaviours : forall P m b x v s tr,
  liveness P = Some m -> ~ In x (live_get P m b) ->
  ((exists c, star P (at_end b s) tr c) <-> (exists c, star P (at_end b (upd s x v)) tr c)) /\
  (star P (at_end b s) tr Done <-> star P (at_end b (upd s x v)) tr Done) /\
  (star P (at_end b s) tr Err <-> star P (at_end b (upd s x v)) tr Err).
Proof. exact liveness_same_traces. Qed.
Print Assumptions C18_liveness_same_behaviours.

Theorem C18_dead_exit_noninterference : forall P m b x v s tr c1,
  liveness P = Some m -> In x (dead_exit P m b) ->
  star P (at_end b s) tr c1 ->
  exists c2, star P (at_end b (upd s x v)) tr c2 /\ sim P m c1 c2.
Proof. exact dead_exit_noninterference. Qed.
Print Assumptions C18_dead_exit_noninterference.

Theorem C18_crawler_sound : forall P control nvars m l b pi c a,
  crawler P control nvars = Some m ->
  get_block P l = Some b ->
  spath P l (b_stmts b) (pi ++ [SAssert c a]) -> ~ In SUnreach pi ->
  exists V, lookup a (cin_of m l) = Some V /\ relevant V pi c.
Proof. exact crawler_sound. Qed.
Print Assumptions C18_crawler_sound.

Theorem C18_crawler_lists_flowing_variable : forall P control nvars m l b pi c a V x s v hv s1 s2,
  crawler P control nvars = Some m -> get_block P l = Some b ->
  spath P l (b_stmts b) (pi ++ [SAssert c a]) -> ~ In SUnreach pi ->
  lookup a (cin_of m l) = Some V ->
  run_path pi hv s = Some s1 -> run_path pi hv (upd s x v) = Some s2 ->
  eval_le (lc_exp c) s1 <> eval_le (lc_exp c) s2 -> In x V.
Proof. exact crawler_lists_flowing_variable. Qed.
Print Assumptions C18_crawler_lists_flowing_variable.

(* corresponded only: the control-dependence graph used by the model is the one cdg.hpp
   computes (post-dominance frontier of the blocks that reach the exit) *)
Definition C18_crawler_control_statement : Prop :=
  forall P n r, In r (cdg_get (cdg_of P) n) <->
    exists s, In s (succs P n) /\
      In r (runner_walk (pdoms P) n (ipdom (pdoms P) n) (S (length (c_blocks P))) (Some s)).

(* C18_crawler_control_statement is false as written: cdg.hpp's post_dominance returns at
   once when the CFG has no exit, so the control-dependence graph (of the code and of the
   model) is empty there, while the runner expression on the right-hand side is not
   (CFG 0 -> 1, 1 -> 1, no exit: the runner started at successor 1 of block 0 visits 1).
   With the has_exit guard the statement is an equivalence, for every n and r. *)
From CrabV Require Import Ana.CrawlerCdg.

Theorem C18_crawler_control_refuted : ~ C18_crawler_control_statement.
Proof. exact cdg_statement_refuted. Qed.
Print Assumptions C18_crawler_control_refuted.

(* the exact relationship: the graph is empty without exit, and otherwise it is what the
   runner loop of graph_algo_impl::dominance collects on the reversed graph *)
Theorem C18_crawler_control : forall P n r,
  In r (cdg_get (cdg_of P) n) <->
    c_exit P <> None /\
    exists s, In s (succs P n) /\
      In r (runner_walk (pdoms P) n (ipdom (pdoms P) n) (S (length (c_blocks P))) (Some s)).
Proof. exact cdg_of_runner. Qed.
Print Assumptions C18_crawler_control.

(* the statement itself, under the hypothesis it lacks *)
Theorem C18_crawler_control_partial : forall P n r,
  c_exit P <> None ->
  (In r (cdg_get (cdg_of P) n) <->
    exists s, In s (succs P n) /\
      In r (runner_walk (pdoms P) n (ipdom (pdoms P) n) (S (length (c_blocks P))) (Some s))).
Proof. exact cdg_of_runner_exit. Qed.
Print Assumptions C18_crawler_control_partial.

Theorem C18_crawler_control_no_exit : forall P n,
  c_exit P = None -> cdg_get (cdg_of P) n = [].
Proof. exact cdg_of_no_exit. Qed.
Print Assumptions C18_crawler_control_no_exit.

(* not vacuous: a diamond with an exit, whose branches are control dependent on its head *)
Example C18_crawler_control_example :
  c_exit diamond_cfg <> None /\
  cdg_of diamond_cfg = [(0%N, [1%N; 2%N]); (1%N, []); (2%N, []); (3%N, [])].
Proof. exact diamond_cdg. Qed.
