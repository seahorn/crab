(* Property C10 — bottom-up + top-down inter-procedural analysis: every summary of the bottom-up
   phase contains the (inputs, outputs) pair of each terminating concrete execution of its
   function, whatever the inputs, and the invariants of the subsequent top-down phase contain
   every concrete state reaching each block from an entry function.  Models: Ana/InterSyntax.v,
   Ana/InterSem.v, Ana/InterBU.v (mirror of bottom_up_inter_analyzer.hpp with intervals for both
   phases, after fixes/inter-2, call graphs without cycles).  Statements only.

   Proved: the verified certificate checker (ig_check of Ana/InterTD.v, instantiated by
   bu_validate: the context-insensitive tables of the top-down phase are themselves the contexts
   that cover the executions; every summary, of precondition top, is justified by tables
   recomputed from top) — ANY tables and summaries it accepts, for any call graph (recursive ones
   included), are sound.  The check runs it on the model's result and on the invariants and
   summaries exported by the implementation.
   Also proved: reuse_summary (the re-instantiation of a summary through the internal names) is
   sound for arbitrary name sharing.
   The model's own result is proved sound directly in Props/Properties_C10_model.v
   (C10_model_sound: summaries hold for every input, tables contain every reachable state, for
   non-recursive call graphs - on recursive ones the model raises its error flag); the model for
   any call graph (Ana/InterBURec.v) is proved sound in Props/Properties_C10_rec.v.
   C10_model_statement (the model's result is always accepted by the checker) stays corresponded.
   Summary domain different from the invariant domain (zones / intervals): not modelled, covered
   by the concrete oracle only. *)
From Coq Require Import ZArith NArith List Bool Arith.
From CrabV Require Import Base.ZInf Scalar.Itv Ir.Syntax Ir.Cfg Dom.ItvEnv Dom.ItvEnvSound Dom.ItvDomain
     Fix.Wto Ana.Transformer Ana.InterSyntax Ana.InterSem Ana.InterTD Ana.InterTDSound Ana.InterBU Ana.InterBUSound.
Import ListNotations.

Theorem C10_validated_results_sound :
  forall p voff entries init tpre tpost S delay desc efuel wtos,
  bu_validate p voff entries init tpre tpost S delay desc efuel wtos = true ->
  forall Init : store -> Prop, (forall s, Init s -> genv init s) ->
  (forall f n s, IRPre p entries Init f n s -> genv (tpre f n) s) /\
  (forall f n s, IRPost p entries Init f n s -> genv (tpost f n) s) /\
  (forall sm, In sm S ->
     forall s0 s1, genv (s_pre sm) s0 -> exec_fun p (s_fn sm) s0 s1 -> genv (s_post sm) s1).
Proof. exact bu_validate_sound. Qed.

(* the summaries of the bottom-up phase hold whatever the inputs *)
Theorem C10_summary_any_input :
  forall p voff entries init tpre tpost sums delay desc efuel wtos,
  bu_validate p voff entries init tpre tpost (bu_summaries p sums) delay desc efuel wtos = true ->
  forall Init : store -> Prop, (forall s, Init s -> genv init s) ->
  forall f sum, f < length p -> sums f = Some sum ->
  forall s0 s1, exec_fun p f s0 s1 -> genv sum s1.
Proof. exact bu_summary_any_input. Qed.

(* the general checker behind both analyzers: rcerts cover the executions, scerts justify the
   summaries *)
Theorem C10_checked_results_sound :
  forall p voff entries init tpre tpost rcerts scerts,
  ig_check p voff entries init tpre tpost rcerts scerts = true ->
  forall Init : store -> Prop, (forall s, Init s -> genv init s) ->
  (forall f n s, IRPre p entries Init f n s -> genv (tpre f n) s) /\
  (forall f n s, IRPost p entries Init f n s -> genv (tpost f n) s) /\
  (forall sm, In sm (map fst scerts) ->
     forall s0 s1, genv (s_pre sm) s0 -> exec_fun p (s_fn sm) s0 s1 -> genv (s_post sm) s1).
Proof. exact ig_check_sound. Qed.

(* the re-instantiation of a summary at a callsite (bu_summ_abs_transformer::reuse_summary, through
   the internal names $0,$1,..) is sound for arbitrary name sharing between caller and callee.
   The caller's value must not constrain the internal names (the analyzer forgets them after
   every callsite) and the summary is over the formal parameters: imposed here by a forget and a
   projection *)
Theorem C10_reuse_summary_sound :
  forall voff outs ins fins fouts,
  NoDup (fins ++ fouts) -> length fins = length ins -> length fouts = length outs -> NoDup outs ->
  (forall x, In x (fins ++ fouts) -> (x < voff)%N) -> (forall x, In x ins -> (x < voff)%N) ->
  (forall x, In x outs -> (x < voff)%N) ->
  forall caller sum a s1 b, genv caller a -> genv sum s1 ->
  (forall f y, In (f, y) (combine fins ins) -> s1 f = a y) ->
  (forall k, b k = assign_outs a outs fouts s1 k) ->
  genv (bu_reuse voff outs ins fins fouts
                 (d_forget (iins voff fins ++ iouts voff fins fouts) caller)
                 (e_project sum (fins ++ fouts))) b.
Proof. exact bu_reuse_sound. Qed.

Definition C10_model_statement : Prop :=
  forall p delay desc efuel wtos init,
    let voff := prog_voff p in
    let r := bu_run p voff delay desc efuel wtos init in
    b_err r = false ->
    bu_validate p voff (cg_entries p) init (b_pre r) (b_post r) (bu_summaries p (b_sum r)) delay desc efuel wtos = true.

(* non-vacuity: f(a,b){ r := a - b }; main { a := 1; b := 10; q := f(b,a) } with a=v0 b=v1 r=v2
   q=v3: the summary of f is top on r (intervals cannot relate r to a and b), the calling context
   of f is a=10, b=1 and the tables of the top-down phase give r = 9 at the exit of f *)
Example C10_example_swapped_arguments :
  let p := [mkFunc [] [] [[IBase (SAssign 0%N (mkLE [] 1%Z)); IBase (SAssign 1%N (mkLE [] 10%Z));
                           ICall [3%N] 1 [1%N; 0%N]]] [] (Some 0);
            mkFunc [0%N; 1%N] [2%N] [[IBase (SArith OpSub 2%N 0%N (OVar 1%N))]] [] (Some 0)] in
  let voff := prog_voff p in
  exists w0 w1,
    build (fn_graph (get_fn p 0)) 0 = Some w0 /\ build (fn_graph (get_fn p 1)) 0 = Some w1 /\
    let wtos := fun f => if Nat.eqb f 0 then w0 else w1 in
    let r := bu_run p voff 2 2 100 wtos e_top in
    b_err r = false /\
    bu_validate p voff (cg_entries p) e_top (b_pre r) (b_post r) (bu_summaries p (b_sum r)) 2 2 100 wtos = true /\
    length (bu_summaries p (b_sum r)) = 1 /\
    e_at (b_pre r 1 0) 0%N = mkI (Fin 10%Z) (Fin 10%Z) /\ e_at (b_pre r 1 0) 1%N = mkI (Fin 1%Z) (Fin 1%Z) /\
    e_at (b_post r 1 0) 2%N = mkI (Fin 9%Z) (Fin 9%Z).
Proof.
  intros p voff. eexists. eexists.
  split; [vm_compute; reflexivity|]. split; [vm_compute; reflexivity|].
  intros wtos r. vm_compute. repeat split; reflexivity.
Qed.

Print Assumptions C10_validated_results_sound.
Print Assumptions C10_summary_any_input.
Print Assumptions C10_checked_results_sound.
Print Assumptions C10_reuse_summary_sound.
