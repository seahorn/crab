(* Property C09 — top-down inter-procedural analysis: the context-insensitive invariants
   contain every reachable state and every stored (precondition, postcondition) summary is a
   summary.  Models: Ana/InterSyntax.v (programs with callsites), Ana/InterSem.v (concrete
   semantics with a call stack), Ana/InterTD.v (mirror of top_down_inter_analyzer.hpp over
   intervals, after fixes/inter-1, inter-3 and inter-6).  Statements only.

   Proved: (1) the restrict / extend operations of the analyzer (get_callee_entry,
   get_caller_continuation as repaired) are sound for ARBITRARY name sharing between caller and
   callee; (2) the verified certificate checker: ANY context-insensitive tables and ANY list of
   (function, precondition, postcondition) summaries accepted by td_check — for any call graph
   (direct and mutual recursion included), any parameter setting, whatever produced them —
   contain every state in which an execution started at an entry function enters / leaves each
   block, and relate the inputs and outputs of every concrete call whose inputs satisfy the
   precondition.  The check runs td_check (through td_validate, which only builds the
   certificate) on the model's result and on the invariants and summaries exported by the
   implementation.
   The model's own result is proved sound directly, without the checker, in
   Props/Properties_C09_model.v (C09_model_sound: any call graph, direct and mutual recursion in
   the imprecise mode, any parameters and fuels, max_call_contexts unbounded).  C09_model_statement
   below (acceptance of the model's result by the checker) is corresponded only, not proved;
   with a bound on the calling contexts a stored summary of the model of the code as it is
   can be wrong (C09_joined_contexts_refuted, known finding);
   analyze_recursive_functions = true is mirrored in Ana/InterTDRec.v and proved sound in
   Props/Properties_C09_rec.v. *)
From Coq Require Import ZArith NArith List Bool Arith.
From CrabV Require Import Base.ZInf Scalar.Itv Ir.Syntax Ir.Cfg Dom.ItvEnv Dom.ItvEnvSound Dom.ItvDomain
     Fix.Wto Ana.Transformer Ana.InterSyntax Ana.InterSem Ana.InterTD Ana.InterTDSound.
Import ListNotations.

(* restrict: the state at the entry of the callee *)
Theorem C09_callee_entry_sound :
  forall voff outs ins fins fouts,
  length fins = length ins -> length fouts = length outs ->
  (forall x, In x (fins ++ fouts) -> (x < voff)%N) -> (forall x, In x ins -> (x < voff)%N) ->
  forall e a s0, genv e a -> bind_ins fins ins a s0 ->
  genv (callee_entry voff outs ins fins fouts e) s0.
Proof. exact callee_entry_sound. Qed.

(* extend: the state of the caller after the call, from the caller's state before the call and
   an abstraction of the callee's final store; inputs are read-only in the callee *)
Theorem C09_continuation_sound :
  forall voff outs ins fins fouts,
  NoDup (fins ++ fouts) -> length fins = length ins -> length fouts = length outs -> NoDup outs ->
  (forall x, In x (fins ++ fouts) -> (x < voff)%N) -> (forall x, In x ins -> (x < voff)%N) ->
  (forall x, In x outs -> (x < voff)%N) ->
  forall e sum a s1 b, genv e a -> genv sum s1 ->
  (forall f y, In (f, y) (combine fins ins) -> s1 f = a y) ->
  (forall k, b k = assign_outs a outs fouts s1 k) ->
  genv (cont voff outs ins fins fouts e (e_project sum (fins ++ fouts))) b.
Proof. exact cont_sound. Qed.

(* a well-formed function never changes its formal inputs *)
Theorem C09_inputs_read_only :
  forall p voff, iprog_wfb p voff = true ->
  forall g s0 s1, exec_fun p g s0 s1 -> g < length p ->
  forall x, In x (f_ins (get_fn p g)) -> s1 x = s0 x.
Proof. intros p voff W g s0 s1 X L x I. eapply exec_fun_frame; eauto. Qed.

(* the main theorem: checked tables and summaries are sound *)
Theorem C09_checked_results_sound :
  forall p voff entries init tpre tpost roots scerts,
  td_check p voff entries init tpre tpost roots scerts = true ->
  forall Init : store -> Prop, (forall s, Init s -> genv init s) ->
  (forall f n s, IRPre p entries Init f n s -> genv (tpre f n) s) /\
  (forall f n s, IRPost p entries Init f n s -> genv (tpost f n) s) /\
  (forall sm, In sm (map fst scerts) ->
     forall s0 s1, genv (s_pre sm) s0 -> exec_fun p (s_fn sm) s0 s1 -> genv (s_post sm) s1).
Proof. exact td_check_sound. Qed.

Theorem C09_validated_results_sound :
  forall p voff entries init tpre tpost S delay desc efuel wtos,
  td_validate p voff entries init tpre tpost S delay desc efuel wtos = true ->
  forall Init : store -> Prop, (forall s, Init s -> genv init s) ->
  (forall f n s, IRPre p entries Init f n s -> genv (tpre f n) s) /\
  (forall f n s, IRPost p entries Init f n s -> genv (tpost f n) s) /\
  (forall sm, In sm S ->
     forall s0 s1, genv (s_pre sm) s0 -> exec_fun p (s_fn sm) s0 s1 -> genv (s_post sm) s1).
Proof. exact td_validate_sound. Qed.

Theorem C09_bottom_block_never_entered :
  forall p voff entries init tpre tpost S delay desc efuel wtos,
  td_validate p voff entries init tpre tpost S delay desc efuel wtos = true ->
  forall Init : store -> Prop, (forall s, Init s -> genv init s) ->
  forall f n, e_is_bot (tpre f n) = true -> forall s, ~ IRPre p entries Init f n s.
Proof. exact td_bottom_never_entered. Qed.

(* Known finding (max_call_contexts finite): the join of two calling contexts is stored and
   reused as a summary although it is not one.  The model mirrors the code; on
   f(a) { r := (a == 1) ? 100 : a }  main { f(0); f(2); f(7); f(1) }  with max_call_contexts = 1
   the stored summary (a in [0,2] => r in [0,2]) is violated by the call f(1), which returns 100. *)
Theorem C09_joined_contexts_refuted :
  exists w0 w1 rs sm s0 s1,
    build (fn_graph (get_fn jc_prog 0)) 0 = Some w0 /\
    build (fn_graph (get_fn jc_prog 1)) 0 = Some w1 /\
    cg_recset jc_prog = Some rs /\
    let wtos := fun f => if Nat.eqb f 0 then w0 else w1 in
    let g := td_run jc_prog (prog_voff jc_prog) (Some 1) true 2 2 100 wtos rs 5 (cg_entries jc_prog) e_top in
    g_err g = false /\ In sm (g_summaries jc_prog g) /\
    genv (s_pre sm) s0 /\ exec_fun jc_prog (s_fn sm) s0 s1 /\ ~ genv (s_post sm) s1.
Proof. exact joined_contexts_refuted. Qed.

(* the model's own result is always accepted: corresponded on every generated program (the
   driver reports MODEL-NOT-VALIDATED otherwise), not proved; C09_model_sound
   (Properties_C09_model.v) proves the soundness of the result itself *)
Definition C09_model_statement : Prop :=
  forall p exact delay desc efuel wtos rs depth init,
    let voff := prog_voff p in
    let g := td_run p voff None exact delay desc efuel wtos rs depth (cg_entries p) init in
    g_err g = false ->
    td_validate p voff (cg_entries p) init (g_pre g) (g_post g) (g_summaries p g) delay desc efuel wtos = true.

(* non-vacuity: f(a,b){ r := a - b }; main { a := 1; b := 10; q := f(b,a) } with a=v0 b=v1 r=v2
   q=v3 (caller and callee share names, arguments swapped): the model's tables and summary are
   accepted by the checker and q = 9 after the call *)
Example C09_example_swapped_arguments :
  let p := [mkFunc [] [] [[IBase (SAssign 0%N (mkLE [] 1%Z)); IBase (SAssign 1%N (mkLE [] 10%Z));
                           ICall [3%N] 1 [1%N; 0%N]]] [] (Some 0);
            mkFunc [0%N; 1%N] [2%N] [[IBase (SArith OpSub 2%N 0%N (OVar 1%N))]] [] (Some 0)] in
  let voff := prog_voff p in
  exists w0 w1 rs,
    build (fn_graph (get_fn p 0)) 0 = Some w0 /\ build (fn_graph (get_fn p 1)) 0 = Some w1 /\
    cg_recset p = Some rs /\
    let wtos := fun f => if Nat.eqb f 0 then w0 else w1 in
    let g := td_run p voff None true 2 2 100 wtos rs 5 (cg_entries p) e_top in
    g_err g = false /\
    td_validate p voff (cg_entries p) e_top (g_pre g) (g_post g) (g_summaries p g) 2 2 100 wtos = true /\
    length (g_summaries p g) = 1 /\
    e_at (g_post g 0 0) 3%N = mkI (Fin 9%Z) (Fin 9%Z) /\
    e_at (g_pre g 1 0) 0%N = mkI (Fin 10%Z) (Fin 10%Z) /\ e_at (g_pre g 1 0) 1%N = mkI (Fin 1%Z) (Fin 1%Z).
Proof.
  intros p voff. exists [Vertex 0], [Vertex 0], [].
  do 3 (split; [reflexivity|]). intros wtos g.
  vm_compute. repeat split.
Qed.

Print Assumptions C09_callee_entry_sound.
Print Assumptions C09_continuation_sound.
Print Assumptions C09_inputs_read_only.
Print Assumptions C09_checked_results_sound.
Print Assumptions C09_validated_results_sound.
Print Assumptions C09_bottom_block_never_entered.
Print Assumptions C09_joined_contexts_refuted.
