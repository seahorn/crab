(* Property C14 — the array domains never lose a value.

   "With either array domain on top of any numerical base domain, every value that a
   concrete execution can read from an array cell is contained in the abstract value of the
   variable receiving the load, for any interleaving of initialisations, strong and weak
   stores, range stores, array copies, joins and widenings, with constant or symbolic
   indices and for every parameter setting of the adaptive domain.  Array operations never
   turn a state that some execution reaches into bottom."

   The full statement for one array domain is [ArraySmashSound.C14_statement] (a domain
   is given by its history machine; the concrete semantics is [ArraySmashSound.cstep]:
   stores of scalars, arrays as partial maps offset -> value, one element size per array,
   is_strong_update = promise that the array has one cell).

   PROVED (unbounded, by induction over histories):
     - [C14_array_smashing_interval]: the full statement for the mirror model of
       array_smashing<interval_domain> (Dom/ArraySmash.v, with the repairs of
       fixes/arrays-2, arrays-3), for histories without meet/narrowing and with one-variable
       renames ([hop_ok]); and the step-indexed forms it follows from.
   array_adaptive_domain<interval_domain> (mirror model Dom/ArrayAdapt.v, corresponded on histories
   for 16 parameter settings; proofs in Dom/ArrayAdaptSound.v), PARTIAL:
     - [C14_adaptive_step_sound_partial] / [C14_adaptive_history_sound_partial]: every state
       reached by the concrete operations (aligned accesses, cells lb, lb+sz, .. <= ub for
       array_init / array_store_range) is described by the abstract value of its register,
       for every parameter setting, under the side conditions [hop_okA]: expressions over
       program scalars, the word-level assumption checked on the abstract state (element size
       = the one of the array, constant indexes aligned, ranges that fit into max_array_size),
       and, WHERE AN ARRAY IS SMASHED (store that smashes, join with a smashed operand), the
       hypothesis that every defined cell of that array is tracked; joins also ask for
       well-formed operands ([join_ok]: four executable checks).  Not covered: meet /
       narrowing, project, rename / expand of arrays.
     - [C14_adaptive_*_wf_partial]: the four checks of [join_ok] follow from the invariant [awf]
       (Dom/ArrayAdaptWf.v), which holds for top / bottom and is preserved by every covered
       operation; the history theorem then needs, for a join or widening, only that both operands
       are not bottom and the two hypotheses on tracked cells.
     - [C14_adaptive_history_sound_nonsmashable_partial]: for the settings with is_smashable =
       false no array is ever smashed and the hypothesis on tracked cells disappears: the side
       conditions [hop_okB] look at the abstract states only.
     - [C14_adaptive_history_sound_tracked_partial]: for the smashable settings the hypothesis
       is discharged by the invariant [trk] "every defined cell of an array that is not
       smashed is tracked", carried along histories of initialisations, loads, stores (constant
       or symbolic index, smashing included), range stores, numerical operations, joins and
       widenings of values that track the same cells (an array that only one operand has smashed
       is smashed on the other side), started from empty arrays, under the executable side
       conditions [hop_okT]; the invariant is NOT preserved by top, forget / copy of arrays,
       joins of values that track different cells, or a symbolic store that can only kill
       cells ([store_keeps]): there the code loses values (known finding,
       C14_adaptive_smash_untracked_refuted).
     - [C14_adaptive_nonvacuous_*]: an admissible history with a smashing store.
   The cell algebra (Dom/ArrayAdaptCore.v, corresponded by the unit stream):
     - overlap = intersection of byte ranges; kill lemmas for constant and symbolic
       indices; coverage test of the symbolic load (fixes/arrays-5);
     - [C14_adaptive_store_decision_partial] / [C14_adaptive_load_decision_partial]:
       soundness of the store/load decision table on a value-level reading of one array
       state, under the word-level assumption.  The smashing store needs the hypothesis
       that every defined cell is tracked; [C14_adaptive_smash_untracked_refuted] shows it
       cannot be dropped (the code does not establish it: known finding).
   MISSING for the full statement: the cases listed above, base domains other than
   intervals: oracle search only. *)
From Coq Require Import ZArith NArith List Bool Lia.
From CrabV Require Import Base.ZInf Scalar.Itv Scalar.ItvSound Ir.Syntax Dom.ItvEnv Dom.ItvEnvSound
     Dom.ItvSolverSound Dom.ItvDomain Dom.History Dom.ArraySmash Dom.ArraySmashSound
     Dom.ArrayAdaptCore Dom.ArrayAdaptCoreSound.
From CrabV Require Dom.ArrayAdapt Dom.ArrayAdaptSound Dom.ArrayAdaptWf.
Import ListNotations.
Local Open Scope Z_scope.

Theorem C14_array_smashing_interval : C14_statement smash_interval.
Proof. exact smash_interval_C14. Qed.

(* the step-indexed form: any related pair of register files stays related *)
Theorem C14_smash_history_sound : forall esz onecell h rs cs rs',
  rel esz onecell rs cs -> hist_ok esz onecell rs h -> arun rs h = Some rs' ->
  rel esz onecell rs' (fold_left (cstep esz onecell) h cs).
Proof. exact ahistory_sound. Qed.

Theorem C14_smash_step_sound : forall esz onecell rs cs o rs',
  rel esz onecell rs cs -> hop_ok esz onecell rs o -> astep rs o = Some rs' ->
  rel esz onecell rs' (cstep esz onecell cs o).
Proof. exact astep_sound. Qed.

(* every value read from a cell is in gamma (at lhs) after the load *)
Theorem C14_smash_load_value : forall esz onecell rs cs r lhs a e idx rs',
  rel esz onecell rs cs -> hop_ok esz onecell rs (ALoad r lhs a e idx) ->
  astep rs (ALoad r lhs a e idx) = Some rs' -> (r < length rs)%nat ->
  forall s mu v, cget cs r (s, mu) ->
    eval_le e s = esz a -> cell_ok onecell a (eval_le idx s) -> mu a (eval_le idx s) = Some v ->
    gamma (s_at (aget rs' r) lhs) v.
Proof. exact aload_value_sound. Qed.

(* no reached state is bottom *)
Theorem C14_smash_not_bottom : forall esz onecell rs cs r c,
  rel esz onecell rs cs -> cget cs r c -> s_is_bottom (aget rs r) = false.
Proof. exact areach_not_bottom. Qed.

(* non-vacuity: an admissible history, its abstract run and a state reached concretely *)
Theorem C14_smash_nonvacuous_ok : hist_ok ex_esz ex_one [s_top] ex_hist.
Proof. exact ex_hist_ok. Qed.
Theorem C14_smash_nonvacuous_run :
  exists rs', arun [s_top] ex_hist = Some rs' /\ s_at (aget rs' 0%nat) (sv 0) = mkI (Fin 5) (Fin 7).
Proof. exact ex_hist_run. Qed.
Theorem C14_smash_nonvacuous_reached :
  exists c, cget (fold_left (cstep ex_esz ex_one) ex_hist [fun _ => True]) 0%nat c /\ fst c (sv 0) = 5.
Proof. exact ex_hist_reached. Qed.

Theorem C14_cell_overlap_spec : forall c o sz,
  c_overlap c o sz = true <-> c_rem c = false /\ ranges_meet (c_off c) (c_size c) o sz.
Proof. exact c_overlap_spec. Qed.

Theorem C14_cell_aligned_overlap_same : forall k c o,
  0 < k -> c_size c = k -> aligned k (c_off c) -> aligned k o -> c_overlap c o k = true -> c_off c = o.
Proof. exact aligned_overlap_same. Qed.

Theorem C14_get_overlap_cells_sound : forall m o sz x, In x (om_get_overlap m o sz) ->
  In x m /\ c_overlap x o sz = true /\ ~ (c_off x = o /\ c_size x = sz).
Proof. exact om_get_overlap_sound. Qed.

(* a cell not killed does not overlap the written range: constant index *)
Theorem C14_const_store_kill_lemma : forall k m o c,
  0 < k -> wl k m -> aligned k o -> In c m -> c_off c <> o -> c_overlap c o k = false.
Proof. exact const_store_kill_lemma. Qed.

(* a cell not killed does not overlap the written range: symbolic index *)
Theorem C14_sym_store_kill_lemma : forall m slb sub dom k c s,
  uniq m -> (forall d, In d m -> c_size d = k) -> 0 < k -> wf_le slb -> wf_le sub ->
  In c m -> c_rem c = false -> ~ In c (om_get_overlap_sym m slb sub dom) -> genv dom s ->
  eval_le sub s = eval_le slb s + k - 1 ->
  ~ ranges_meet (c_off c) k (eval_le slb s) k.
Proof. exact sym_store_kill_lemma. Qed.

Theorem C14_symbolic_overlap_false : forall slb sub dom c s,
  wf_le slb -> wf_le sub -> c_rem c = false -> c_sym_overlap c slb sub dom = false -> genv dom s ->
  ~ (eval_le slb s <= c_off c <= eval_le sub s) /\
  ~ (eval_le slb s <= c_off c + c_size c - 1 <= eval_le sub s).
Proof. exact c_sym_overlap_false. Qed.

Theorem C14_covers_all_offsets_sound : forall cells idx esz i, 0 < esz ->
  covers_all_offsets cells idx esz = true -> gamma idx i -> aligned esz i ->
  exists c, In c cells /\ c_off c = i.
Proof. exact covers_all_offsets_sound. Qed.

(* the store / load decision table *)
Theorem C14_adaptive_store_decision_partial : forall k, 0 < k ->
  forall p a idx slb sub dom i v val mu,
  wf_state k a -> access k idx slb sub dom i -> gamma val v -> gam k a mu ->
  (match store_decide p (v_st a) idx slb sub dom k with SSmash _ => tracked a mu | _ => True end) ->
  gam k (store_val p a (store_decide p (v_st a) idx slb sub dom k) k val) (mstore mu i v).
Proof. exact store_decide_sound. Qed.

Theorem C14_adaptive_load_decision_partial : forall k, 0 < k ->
  forall p a idx slb sub dom i v mu,
  wf_state k a -> access k idx slb sub dom i -> gam k a mu -> mu i = Some v ->
  gamma (load_val a (load_decide p (v_st a) idx slb sub dom k) k) v.
Proof. exact load_decide_sound. Qed.

(* without "every defined cell is tracked" the smashing store loses a value *)
Theorem C14_adaptive_smash_untracked_refuted :
  wf_state 4 rf_a /\ access 4 (mkI (Fin 0) (Fin 4)) rf_slb rf_sub rf_dom 0 /\
  gamma (iconst 7) 7 /\ gam 4 rf_a rf_mu /\
  store_decide rf_p (v_st rf_a) (mkI (Fin 0) (Fin 4)) rf_slb rf_sub rf_dom 4 = SSmash [mkC 0 4 false] /\
  ~ gam 4 (store_val rf_p rf_a (SSmash [mkC 0 4 false]) 4 (iconst 7)) (mstore rf_mu 0 7).
Proof. exact smash_untracked_refuted. Qed.

Theorem C14_adaptive_step_sound_partial : forall esz onecell, (forall a, 0 < esz a) ->
  forall p rs cs o rs',
  ArrayAdaptSound.rel esz onecell rs cs -> ArrayAdaptSound.hop_okA esz onecell p rs cs o ->
  ArrayAdapt.dstep p rs o = Some rs' ->
  ArrayAdaptSound.rel esz onecell rs' (ArrayAdaptSound.cstepA esz onecell cs o).
Proof. exact ArrayAdaptSound.dstep_sound. Qed.

Theorem C14_adaptive_history_sound_partial : forall esz onecell, (forall a, 0 < esz a) ->
  forall p h rs cs rs',
  ArrayAdaptSound.rel esz onecell rs cs -> ArrayAdaptSound.hist_okA esz onecell p rs cs h ->
  ArrayAdapt.drun p rs h = Some rs' ->
  ArrayAdaptSound.rel esz onecell rs' (fold_left (ArrayAdaptSound.cstepA esz onecell) h cs).
Proof. exact ArrayAdaptSound.dhistory_sound. Qed.

(* histories start from top: every state is described *)
Theorem C14_adaptive_top_related : forall esz onecell, (forall a, 0 < esz a) -> forall n,
  ArrayAdaptSound.rel esz onecell (repeat ArrayAdapt.a_top n) (repeat (fun _ => True) n).
Proof. exact ArrayAdaptSound.rel_top. Qed.

(* every value read from a cell is in gamma (at lhs) after the load *)
Theorem C14_adaptive_load_value_partial : forall esz onecell, (forall a, 0 < esz a) ->
  forall p rs cs r lhs a e idx rs',
  ArrayAdaptSound.rel esz onecell rs cs ->
  ArrayAdaptSound.hop_okA esz onecell p rs cs (ALoad r lhs a e idx) ->
  ArrayAdapt.dstep p rs (ALoad r lhs a e idx) = Some rs' -> (r < length rs)%nat ->
  forall s mu v, cget cs r (s, mu) ->
    eval_le e s = esz a -> aligned (esz a) (eval_le idx s) -> cell_ok onecell a (eval_le idx s) ->
    mu a (eval_le idx s) = Some v ->
    gamma (ArrayAdapt.a_at (ArrayAdapt.dget rs' r) lhs) v.
Proof. exact ArrayAdaptSound.dload_value_sound. Qed.

(* no reached state is bottom; the scalars of a reached state are described *)
Theorem C14_adaptive_not_bottom : forall esz onecell rs cs r c,
  ArrayAdaptSound.rel esz onecell rs cs -> cget cs r c ->
  ArrayAdapt.a_is_bottom (ArrayAdapt.dget rs r) = false.
Proof. exact ArrayAdaptSound.dreach_not_bottom. Qed.

Theorem C14_adaptive_at_sound : forall esz onecell rs cs r s mu x,
  ArrayAdaptSound.rel esz onecell rs cs -> cget cs r (s, mu) -> ArrayAdaptSound.is_pv x ->
  gamma (ArrayAdapt.a_at (ArrayAdapt.dget rs r) x) (s x).
Proof. exact ArrayAdaptSound.dreach_at_sound. Qed.

(* settings with is_smashable = false: no array is ever smashed, the side conditions [hop_okB] only look at
   the abstract states (no hypothesis on the concrete executions) *)
Theorem C14_adaptive_history_sound_nonsmashable_partial : forall esz onecell, (forall a, 0 < esz a) ->
  forall p, p_smashable p = false -> forall h rs cs rs',
  ArrayAdaptSound.rel esz onecell rs cs -> ArrayAdaptSound.nosmash_all rs ->
  ArrayAdaptSound.hist_okB esz onecell p rs h -> ArrayAdapt.drun p rs h = Some rs' ->
  ArrayAdaptSound.rel esz onecell rs' (fold_left (ArrayAdaptSound.cstepA esz onecell) h cs) /\
  ArrayAdaptSound.nosmash_all rs'.
Proof. exact ArrayAdaptSound.dhistory_sound_nonsmashable. Qed.

Theorem C14_adaptive_top_nosmash : forall n, ArrayAdaptSound.nosmash_all (repeat ArrayAdapt.a_top n).
Proof. exact ArrayAdaptSound.nosmash_all_top. Qed.

(* the invariant "every defined cell of an array that is not smashed is tracked" carried
   along a history: smashable settings, side conditions on the abstract states only *)
Theorem C14_adaptive_step_sound_tracked_partial : forall esz onecell, (forall a, 0 < esz a) ->
  forall p rs cs o rs', p_smashable p = true ->
  ArrayAdaptSound.relT esz onecell rs cs -> ArrayAdaptSound.hop_okT esz p rs o ->
  ArrayAdapt.dstep p rs o = Some rs' ->
  ArrayAdaptSound.relT esz onecell rs' (ArrayAdaptSound.cstepA esz onecell cs o).
Proof. exact ArrayAdaptSound.dstep_sound_tracked. Qed.

Theorem C14_adaptive_history_sound_tracked_partial : forall esz onecell, (forall a, 0 < esz a) ->
  forall p h, p_smashable p = true -> forall rs cs rs',
  ArrayAdaptSound.relT esz onecell rs cs -> ArrayAdaptSound.hist_okT esz p rs h ->
  ArrayAdapt.drun p rs h = Some rs' ->
  ArrayAdaptSound.relT esz onecell rs' (fold_left (ArrayAdaptSound.cstepA esz onecell) h cs).
Proof. exact ArrayAdaptSound.dhistory_sound_tracked. Qed.

(* executions that start with no cell defined *)
Theorem C14_adaptive_top_related_tracked : forall esz onecell, (forall a, 0 < esz a) -> forall n,
  ArrayAdaptSound.relT esz onecell (repeat ArrayAdapt.a_top n) (repeat ArrayAdaptSound.empty_mem n).
Proof. exact ArrayAdaptSound.relT_top. Qed.

(* the invariant is kept by a store whose side condition [store_keeps] holds ... *)
Theorem C14_adaptive_store_keeps_tracked : forall esz onecell, (forall a, 0 < esz a) ->
  forall p a ez idx val strong d d' s mu mu1, p_smashable p = true ->
  ArrayAdaptSound.inv esz d -> ArrayAdaptSound.le_pv idx -> aligned (esz a) (eval_le idx s) ->
  ArrayAdaptSound.szok esz d a ez ->
  ArrayAdaptSound.Ga esz onecell d (s, mu) -> ArrayAdaptSound.trk esz onecell d (s, mu) ->
  ArrayAdaptSound.store_keeps esz p d a idx -> same_mem_but a mu1 mu ->
  (forall i, mu1 a i = if i =? eval_le idx s then Some (eval_le val s) else mu a i) ->
  ArrayAdapt.a_array_store p a ez idx val strong d = Some d' ->
  ArrayAdaptSound.trk esz onecell d' (s, mu1).
Proof. exact ArrayAdaptSound.store_trk. Qed.

(* ... by a load, an initialisation with constant bounds, a range store with constant bounds *)
Theorem C14_adaptive_load_keeps_tracked : forall esz onecell, (forall a, 0 < esz a) ->
  forall p lhs a ez idx d d' s s1 mu,
  ArrayAdaptSound.inv esz d -> ArrayAdaptSound.szok esz d a ez -> ArrayAdaptSound.le_pv idx ->
  aligned (esz a) (eval_le idx s) ->
  ArrayAdaptSound.Ga esz onecell d (s, mu) -> ArrayAdaptSound.trk esz onecell d (s, mu) ->
  ArrayAdapt.a_array_load p lhs a ez idx d = Some d' ->
  ArrayAdaptSound.trk esz onecell d' (s1, mu).
Proof. exact ArrayAdaptSound.load_trk. Qed.

(* ... and by a join / widening of two values that track the same cells ([shape_ok]; an array
   that only one side has smashed is smashed in the result) *)
Theorem C14_adaptive_join_keeps_tracked : forall esz onecell p k x y d' s mu,
  ArrayAdaptSound.inv esz x -> ArrayAdaptSound.inv esz y -> NoDup (map fst (ArrayAdapt.d_arrs x)) ->
  ArrayAdaptSound.jreg p x y -> ArrayAdaptSound.shape_ok x y ->
  ArrayAdapt.a_is_top x = false -> ArrayAdapt.a_is_top y = false ->
  (ArrayAdaptSound.Ga esz onecell x (s, mu) /\ ArrayAdaptSound.trk esz onecell x (s, mu)) \/
  (ArrayAdaptSound.Ga esz onecell y (s, mu) /\ ArrayAdaptSound.trk esz onecell y (s, mu)) ->
  ArrayAdaptSound.jk_run p k x y = Some d' -> ArrayAdaptSound.trk esz onecell d' (s, mu).
Proof. exact ArrayAdaptSound.jk_trk. Qed.

(* non-vacuity: the shape of a loop (head initialised cell by cell, body with a store at a symbolic
   index that smashes the array, widening of the head with the body): the history is admissible,
   the abstract run smashes the array (the load returns [5, +oo]), a state is reached concretely *)
Theorem C14_adaptive_nonvacuous_ok :
  ArrayAdaptSound.hist_okT ArrayAdaptSound.ex_esz ArrayAdaptSound.ex_p ArrayAdaptSound.ex_rs0 ArrayAdaptSound.ex_hist.
Proof. exact ArrayAdaptSound.ex_hist_okT. Qed.
Theorem C14_adaptive_nonvacuous_run :
  ArrayAdapt.drun ArrayAdaptSound.ex_p ArrayAdaptSound.ex_rs0 ArrayAdaptSound.ex_hist = Some ArrayAdaptSound.ex_rs6 /\
  ArrayAdapt.a_at (ArrayAdapt.dget ArrayAdaptSound.ex_rs6 0%nat) (ArrayAdapt.pv 0) = mkI (Fin 5) PInf /\
  (exists st, ArrayAdapt.am_find (ArrayAdapt.d_arrs (ArrayAdapt.dget ArrayAdaptSound.ex_rs4 0%nat)) ArrayAdaptSound.ex_A = Some st /\
              as_smashed st = false) /\
  (exists st, ArrayAdapt.am_find (ArrayAdapt.d_arrs (ArrayAdapt.dget ArrayAdaptSound.ex_rs4 1%nat)) ArrayAdaptSound.ex_A = Some st /\
              as_smashed st = true) /\
  (exists st, ArrayAdapt.am_find (ArrayAdapt.d_arrs (ArrayAdapt.dget ArrayAdaptSound.ex_rs6 0%nat)) ArrayAdaptSound.ex_A = Some st /\
              as_smashed st = true).
Proof. exact ArrayAdaptSound.ex_run. Qed.
Theorem C14_adaptive_nonvacuous_reached :
  exists c, cget (fold_left (ArrayAdaptSound.cstepA ArrayAdaptSound.ex_esz ArrayAdaptSound.ex_one)
                            ArrayAdaptSound.ex_hist [ArrayAdaptSound.empty_mem; ArrayAdaptSound.empty_mem]) 0%nat c /\
            fst c (ArrayAdapt.pv 0) = 5.
Proof. exact ArrayAdaptSound.ex_hist_reached. Qed.

Print Assumptions C14_array_smashing_interval.
Print Assumptions C14_smash_history_sound.
Print Assumptions C14_smash_step_sound.
Print Assumptions C14_smash_load_value.
Print Assumptions C14_smash_not_bottom.
Print Assumptions C14_smash_nonvacuous_ok.
Print Assumptions C14_smash_nonvacuous_run.
Print Assumptions C14_smash_nonvacuous_reached.
Print Assumptions C14_cell_overlap_spec.
Print Assumptions C14_cell_aligned_overlap_same.
Print Assumptions C14_get_overlap_cells_sound.
Print Assumptions C14_const_store_kill_lemma.
Print Assumptions C14_sym_store_kill_lemma.
Print Assumptions C14_symbolic_overlap_false.
Print Assumptions C14_covers_all_offsets_sound.
Print Assumptions C14_adaptive_store_decision_partial.
Print Assumptions C14_adaptive_load_decision_partial.
Print Assumptions C14_adaptive_smash_untracked_refuted.
Print Assumptions C14_adaptive_step_sound_partial.
Print Assumptions C14_adaptive_history_sound_partial.
Print Assumptions C14_adaptive_top_related.
Print Assumptions C14_adaptive_load_value_partial.
Print Assumptions C14_adaptive_not_bottom.
Print Assumptions C14_adaptive_at_sound.
Print Assumptions C14_adaptive_history_sound_nonsmashable_partial.
Print Assumptions C14_adaptive_top_nosmash.
Print Assumptions C14_adaptive_step_sound_tracked_partial.
Print Assumptions C14_adaptive_history_sound_tracked_partial.
Print Assumptions C14_adaptive_top_related_tracked.
Print Assumptions C14_adaptive_store_keeps_tracked.
Print Assumptions C14_adaptive_load_keeps_tracked.
Print Assumptions C14_adaptive_join_keeps_tracked.
Print Assumptions C14_adaptive_nonvacuous_ok.
Print Assumptions C14_adaptive_nonvacuous_run.
Print Assumptions C14_adaptive_nonvacuous_reached.

(* the invariant [awf] implies the four executable checks of [join_ok] *)
Theorem C14_adaptive_wf_join_checks : forall esz onecell p X Y cX cY,
  ArrayAdaptWf.awf esz X -> ArrayAdaptWf.awf esz Y ->
  ArrayAdaptSound.inv esz X -> ArrayAdaptSound.inv esz Y ->
  ArrayAdaptWf.join_ok_wf esz onecell X Y cX cY -> ArrayAdaptSound.join_ok esz onecell p X Y cX cY.
Proof. exact ArrayAdaptWf.join_ok_of_wf. Qed.

Theorem C14_adaptive_step_sound_wf_partial : forall esz onecell, (forall a, 0 < esz a) ->
  forall p rs cs o rs', ArrayAdaptWf.awf_all esz rs ->
  ArrayAdaptSound.rel esz onecell rs cs -> ArrayAdaptWf.hop_okA_wf esz onecell p rs cs o ->
  ArrayAdapt.dstep p rs o = Some rs' ->
  ArrayAdaptSound.rel esz onecell rs' (ArrayAdaptSound.cstepA esz onecell cs o) /\ ArrayAdaptWf.awf_all esz rs'.
Proof. exact ArrayAdaptWf.dstep_sound_wf. Qed.

Theorem C14_adaptive_history_sound_wf_partial : forall esz onecell, (forall a, 0 < esz a) ->
  forall p h rs cs rs', ArrayAdaptWf.awf_all esz rs ->
  ArrayAdaptSound.rel esz onecell rs cs -> ArrayAdaptWf.hist_okA_wf esz onecell p rs cs h ->
  ArrayAdapt.drun p rs h = Some rs' ->
  ArrayAdaptSound.rel esz onecell rs' (fold_left (ArrayAdaptSound.cstepA esz onecell) h cs) /\
  ArrayAdaptWf.awf_all esz rs'.
Proof. exact ArrayAdaptWf.dhistory_sound_wf. Qed.

(* histories that start from top states: no hypothesis on the initial registers *)
Theorem C14_adaptive_history_sound_wf_top_partial : forall esz onecell, (forall a, 0 < esz a) ->
  forall p h n rs',
  ArrayAdaptWf.hist_okA_wf esz onecell p (repeat ArrayAdapt.a_top n) (repeat (fun _ => True) n) h ->
  ArrayAdapt.drun p (repeat ArrayAdapt.a_top n) h = Some rs' ->
  ArrayAdaptSound.rel esz onecell rs' (fold_left (ArrayAdaptSound.cstepA esz onecell) h (repeat (fun _ => True) n)) /\
  ArrayAdaptWf.awf_all esz rs'.
Proof. exact ArrayAdaptWf.dhistory_sound_wf_top. Qed.

Print Assumptions C14_adaptive_wf_join_checks.
Print Assumptions C14_adaptive_step_sound_wf_partial.
Print Assumptions C14_adaptive_history_sound_wf_partial.
Print Assumptions C14_adaptive_history_sound_wf_top_partial.
