(* Property C09: the model of the top-down analyzer (analyze_recursive_functions = false) is
   sound without the checker. *)
From Coq Require Import ZArith NArith List Bool Arith Lia.
From CrabV Require Import Base.ZInf Scalar.Itv Ir.Syntax Ir.Cfg Dom.ItvEnv Dom.ItvEnvSound Dom.ItvDomain
     Fix.Wto Ana.Transformer Ana.InterSyntax Ana.InterSem Ana.InterTD Ana.InterTDSound
     Ana.InterTDModelSound Ana.InterTDRecset.
Import ListNotations.

(* the model's own result is sound, directly (no checker), when max_call_contexts is not bounded:
   any program, call graph (recursion included), exact_summary_reuse, widening delay, descending
   iterations, fuels; entries and recursive set as the analyzer computes them *)
Theorem C09_model_sound :
  forall p voff exact delay desc efuel wtos rs depth init,
  iprog_wfb p voff = true ->
  (forall f, f < length p -> build (fn_graph (get_fn p f)) 0 = Some (wtos f)) ->
  cg_recset p = Some rs ->
  let g := td_run p voff None exact delay desc efuel wtos rs depth (cg_entries p) init in
  g_err g = false ->
  forall Init : store -> Prop, (forall s, Init s -> genv init s) ->
  (forall f n s, IRPre p (cg_entries p) Init f n s -> genv (g_pre g f n) s) /\
  (forall f n s, IRPost p (cg_entries p) Init f n s -> genv (g_post g f n) s) /\
  (forall sm, In sm (g_summaries p g) ->
     forall s0 s1, genv (s_pre sm) s0 -> exec_fun p (s_fn sm) s0 s1 -> genv (s_post sm) s1).
Proof. exact td_model_sound_cfg. Qed.

(* any list of entry functions, any recursive set that contains the functions reachable from
   the entries that lie on a call graph cycle *)
Theorem C09_model_sound_any_entries :
  forall p voff exact delay desc efuel wtos recset depth entries init,
  iprog_wfb p voff = true ->
  (forall f, f < length p -> build (fn_graph (get_fn p f)) 0 = Some (wtos f)) ->
  (forall f, In f entries -> f < length p) ->
  (forall f, cg_reach p entries f -> cg_path p f f -> In f recset) ->
  let g := td_run p voff None exact delay desc efuel wtos recset depth entries init in
  g_err g = false ->
  forall Init : store -> Prop, (forall s, Init s -> genv init s) ->
  (forall f n s, IRPre p entries Init f n s -> genv (g_pre g f n) s) /\
  (forall f n s, IRPost p entries Init f n s -> genv (g_post g f n) s) /\
  (forall sm, In sm (g_summaries p g) ->
     forall s0 s1, genv (s_pre sm) s0 -> exec_fun p (s_fn sm) s0 s1 -> genv (s_post sm) s1).
Proof. exact td_model_sound. Qed.

(* the recursive set of the model contains every function reachable from an entry that lies on a
   call graph cycle *)
Theorem C09_recursive_set_complete :
  forall p rs, cg_recset p = Some rs ->
  forall f, cg_reach p (cg_entries p) f -> cg_path p f f -> In f rs.
Proof. exact cg_recset_ok. Qed.

(* non-vacuity 1: the hypotheses of C09_model_sound hold for
   f(a,b){ r := a - b }; main { a := 1; b := 10; q := f(b,a) } (caller and callee share names) *)
Example C09_model_sound_example :
  let p := [mkFunc [] [] [[IBase (SAssign 0%N (mkLE [] 1%Z)); IBase (SAssign 1%N (mkLE [] 10%Z));
                           ICall [3%N] 1 [1%N; 0%N]]] [] (Some 0);
            mkFunc [0%N; 1%N] [2%N] [[IBase (SArith OpSub 2%N 0%N (OVar 1%N))]] [] (Some 0)] in
  let voff := prog_voff p in
  exists w0 w1 rs,
    build (fn_graph (get_fn p 0)) 0 = Some w0 /\ build (fn_graph (get_fn p 1)) 0 = Some w1 /\
    cg_recset p = Some rs /\
    let wtos := fun f => if Nat.eqb f 0 then w0 else w1 in
    let g := td_run p voff None true 2 2 100 wtos rs 5 (cg_entries p) e_top in
    iprog_wfb p voff = true /\
    (forall f, f < length p -> build (fn_graph (get_fn p f)) 0 = Some (wtos f)) /\
    g_err g = false /\
    length (g_summaries p g) = 1 /\
    e_at (g_post g 0 0) 3%N = mkI (Fin 9%Z) (Fin 9%Z).
Proof.
  intros p voff. exists [Vertex 0], [Vertex 0], [].
  do 3 (split; [reflexivity|]). intros wtos g.
  split; [vm_compute; reflexivity|]. split.
  { intros [|[|f]] L; [reflexivity|reflexivity|cbn in L; lia]. }
  vm_compute. repeat split.
Qed.

(* non-vacuity 2, recursion: f(a){ if (a >= 1) r := f(a-1) else r := 0 }; main { x := 5; y := f(x) }:
   f is in the recursive set, the model terminates without error, so by C09_model_sound its
   tables contain the states of all the recursive activations *)
Example C09_model_sound_example_recursive :
  let p := [mkFunc [] [] [[IBase (SAssign 4%N (mkLE [] 5%Z)); ICall [5%N] 1 [4%N]]] [] (Some 0);
            mkFunc [0%N] [1%N]
                   [[];
                    [IBase (SAssume (mkLC INEQ (mkLE [((-1)%Z, 0%N)] 1%Z)));
                     IBase (SArith OpSub 2%N 0%N (OCst 1%Z)); ICall [1%N] 1 [2%N]];
                    [IBase (SAssume (mkLC INEQ (mkLE [(1%Z, 0%N)] 0%Z))); IBase (SAssign 1%N (mkLE [] 0%Z))];
                    []]
                   [(0, 1); (0, 2); (1, 3); (2, 3)] (Some 3)] in
  let voff := prog_voff p in
  exists w0 w1,
    build (fn_graph (get_fn p 0)) 0 = Some w0 /\ build (fn_graph (get_fn p 1)) 0 = Some w1 /\
    cg_recset p = Some [1] /\ cg_entries p = [0] /\
    let wtos := fun f => if Nat.eqb f 0 then w0 else w1 in
    let g := td_run p voff None true 2 2 100 wtos [1] 5 (cg_entries p) e_top in
    iprog_wfb p voff = true /\
    (forall f, f < length p -> build (fn_graph (get_fn p f)) 0 = Some (wtos f)) /\
    g_err g = false /\
    (forall Init : store -> Prop, forall f n s, IRPre p (cg_entries p) Init f n s -> genv (g_pre g f n) s).
Proof.
  intros p voff. exists [Vertex 0], [Vertex 0; Vertex 2; Vertex 1; Vertex 3].
  do 4 (split; [reflexivity|]). intros wtos g.
  assert (HA : iprog_wfb p voff = true) by (vm_compute; reflexivity).
  assert (HB : forall f, f < length p -> build (fn_graph (get_fn p f)) 0 = Some (wtos f)).
  { intros [|[|f]] L; [reflexivity|reflexivity|cbn in L; lia]. }
  assert (HC : g_err g = false) by (vm_compute; reflexivity).
  split; [exact HA|]. split; [exact HB|]. split; [exact HC|].
  intros Init f n s R.
  refine (proj1 (C09_model_sound p voff true 2 2 100 wtos [1] 5 e_top HA HB eq_refl HC Init _) f n s R).
  intros; apply genv_top.
Qed.

(* a recursive ENTRY function with an initial value that is not top (fixes/inter-6): the only
   function f(a) { if (a >= 1) r := f(a - 1) else r := 0 } started with a = 5 is analysed from
   top; the activation with a = 4 is in the table of block 0 and block 2 (a <= 0) is reachable *)
Theorem C09_recursive_entry_example :
  exists w0 rs s,
    build (fn_graph (get_fn re_prog 0)) 0 = Some w0 /\ cg_recset re_prog = Some rs /\
    cg_entries re_prog = [0] /\ iprog_wfb re_prog (prog_voff re_prog) = true /\
    let g := td_run re_prog (prog_voff re_prog) None true 2 2 100 (fun _ => w0) rs 5 [0] re_init in
    g_err g = false /\
    IRPre re_prog [0] (genv re_init) 0 0 s /\ s 0%N = 4%Z /\ genv (g_pre g 0 0) s /\
    e_at (g_pre g 0 0) 0%N = itop /\ e_at (g_post g 0 2) 0%N = mkI MInf (Fin 0%Z).
Proof. exact recursive_entry_example. Qed.

Print Assumptions C09_model_sound.
Print Assumptions C09_recursive_entry_example.
Print Assumptions C09_model_sound_any_entries.
Print Assumptions C09_recursive_set_complete.
Print Assumptions C09_model_sound_example.
Print Assumptions C09_model_sound_example_recursive.
