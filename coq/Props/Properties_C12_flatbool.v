(* Property C12, lifting clause, for the Coq mirror of flat_boolean_numerical_domain<interval_domain>:
   on numerical code the boolean lifting evolves exactly like the bare interval domain.
   Statements only. *)
From Coq Require Import ZArith NArith List Bool.
From CrabV Require Import Base.ZInf Scalar.Itv Scalar.ItvSound Ir.Syntax Dom.ItvEnv Dom.ItvEnvSound
     Dom.ItvSolver Dom.ItvSolverSound Dom.ItvDomain Dom.ItvDomainSound Dom.History Dom.HistorySound
     Dom.FlatBool Dom.FlatBoolSound.
Import ListNotations.
Local Open Scope Z_scope.

(* C12, lifting clause.  On numerical code (any history of the interval-domain language
   without casts that involve a Boolean, empty assume / project, meet and narrowing: lift_ok)
   the numerical component of the product is exactly the value the bare interval-domain
   model computes, bottom is reported alike, and at(v) is the same interval. *)
Theorem C12_flatbool_lifting_numerical : forall isb h n r,
  Forall lift_ok h ->
  let st := frget (frun isb (repeat fb_top n) (map lift h)) r in
  let e := rget (hrun (repeat e_top n) h) r in
  p_snd (f_prod st) = e /\ fb_is_bot st = e_is_bot e /\ forall v, fb_at st v = inorm (e_at e v).
Proof. exact lifting_numerical. Qed.

Print Assumptions C12_flatbool_lifting_numerical.
