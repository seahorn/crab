(* Property C12 — intervals, zones and octagons are exact on their constraint language.

   "After assuming any conjunction of constraints of the domain's language over the integers
   (+-x <= k for intervals; additionally x - y <= k for zones; additionally +-x +- y <= k for
   octagons), the value is bottom exactly when the conjunction is unsatisfiable and it entails a
   constraint of the language exactly when the conjunction implies it; join is the least value
   of the domain above both operands, and meet and forget are exact.  The boolean, array and
   region liftings and the reduced products never report looser variable bounds than their
   numerical base domain on straight-line numerical code."

   Models:
   - intervals: the MIRROR model of ikos::interval_domain (Dom/ItvDomain.v, solver included);
     everything below is proved about it outright (Dom/ItvExact.v);
   - zones: SPECIFICATION-level model Dom/Zone.v (closed bound matrices); exactness proved in
     Dom/ZoneSound.v through the potential construction (a closed consistent matrix has an
     integer point attaining each finite entry);
   - octagons: SPECIFICATION-level model Dom/Oct.v (2n nodes, tight closure); soundness AND
     exactness proved in Dom/OctSound.v (tight closure is complete over the integers:
     OctSound.C12_oct_exact_statement is proved as C12_oct_exact);
   - liftings: flat_boolean, array_smashing and array_adaptive over intervals are proved in
     Props/Properties_C12_flatbool.v and Props/Properties_C12_arraylift.v; the other liftings
     and the products are checked by correspondence and oracle only (checks/C12.py).
   All statements are for every dimension, every constant and every history.
   Statements only. *)
From Coq Require Import ZArith NArith List Bool.
From CrabV Require Import Base.ZInf Scalar.Itv Scalar.ItvSound Ir.Syntax
     Dom.ItvEnv Dom.ItvEnvSound Dom.ItvSolver Dom.ItvDomain Dom.History Dom.ItvExact
     Dom.Zone Dom.ZoneSound Dom.Oct Dom.OctSound.
Import ListNotations.
Local Open Scope Z_scope.

(* assume any conjunction from top: bottom iff unsatisfiable, entails iff implied *)
Theorem C12_itv_conjunction_exact : forall cs, Forall lang cs ->
  let e := d_add cs e_top in
  (e_is_bot e = true <-> forall s, ~ Forall (fun c => sat c s) cs) /\
  (forall c, lang c ->
     (d_entails c e = true <-> forall s, Forall (fun c => sat c s) cs -> sat c s)).
Proof. exact itv_conjunction_exact. Qed.
Print Assumptions C12_itv_conjunction_exact.

(* on any value of any history: assume is exact *)
Theorem C12_itv_assume_exact : forall cs e, Forall lang cs -> ewf e ->
  ewf (d_add cs e) /\
  forall s, genv (d_add cs e) s <-> (genv e s /\ Forall (fun c => sat c s) cs).
Proof. exact d_add_lang_exact. Qed.
Print Assumptions C12_itv_assume_exact.

Theorem C12_itv_bottom_iff_unsat : forall cs e, Forall lang cs -> ewf e ->
  (e_is_bot (d_add cs e) = true <-> forall s, genv e s -> ~ Forall (fun c => sat c s) cs).
Proof. exact d_add_lang_bottom. Qed.
Print Assumptions C12_itv_bottom_iff_unsat.

Theorem C12_itv_bottom_exact : forall e, ewf e -> (e_is_bot e = true <-> forall s, ~ genv e s).
Proof. exact e_bottom_exact. Qed.
Print Assumptions C12_itv_bottom_exact.

Theorem C12_itv_entails_exact : forall c e, lang c -> ewf e ->
  (d_entails c e = true <-> forall s, genv e s -> sat c s).
Proof. exact d_entails_lang_exact. Qed.
Print Assumptions C12_itv_entails_exact.

Theorem C12_itv_solver_exact : forall cs max m, Forall lang cs -> mwfI m ->
  match solve cs max m with
  | None => forall s, gmap m s -> ~ Forall (fun c => sat c s) cs
  | Some m' => mwfI m' /\ forall s, gmap m' s <-> (gmap m s /\ Forall (fun c => sat c s) cs)
  end.
Proof. exact solve_lang_exact. Qed.
Print Assumptions C12_itv_solver_exact.

Theorem C12_itv_join_upper : forall a b s, genv a s \/ genv b s -> genv (e_join a b) s.
Proof. exact e_join_sound. Qed.
Print Assumptions C12_itv_join_upper.

Theorem C12_itv_join_least : forall a b c, ewf a -> ewf b ->
  (forall s, genv a s -> genv c s) -> (forall s, genv b s -> genv c s) ->
  forall s, genv (e_join a b) s -> genv c s.
Proof. exact e_join_least. Qed.
Print Assumptions C12_itv_join_least.

Theorem C12_itv_meet_exact : forall a b, ewf a -> ewf b ->
  ewf (e_meet a b) /\ forall s, genv (e_meet a b) s <-> (genv a s /\ genv b s).
Proof. exact e_meet_exact. Qed.
Print Assumptions C12_itv_meet_exact.

Theorem C12_itv_forget_exact : forall vs e, ewf e ->
  ewf (d_forget vs e) /\
  forall s', genv (d_forget vs e) s' <-> exists s, genv e s /\ off_eq vs s s'.
Proof. exact d_forget_exact. Qed.
Print Assumptions C12_itv_forget_exact.

(* the invariant under which the theorems above apply holds after ANY history of assumes of
   the language, joins, meets, forgets and copies *)
Theorem C12_itv_history_invariant : forall h rs,
  Forall ewf rs -> Forall ihop_ok h -> Forall ewf (hrun rs h).
Proof. exact ihrun_wf. Qed.
Print Assumptions C12_itv_history_invariant.

Theorem C12_zone_conjunction_exact : forall n cs, Forall (z_ok n) cs ->
  let z := z_assume n cs (z_top n) in
  (z_is_bot z = true <-> forall s, ~ Forall (fun c => sat c s) cs) /\
  (forall c, z_ok n c ->
     (z_entails c z = true <-> forall s, Forall (fun c => sat c s) cs -> sat c s)).
Proof. exact zone_conjunction_exact. Qed.
Print Assumptions C12_zone_conjunction_exact.

(* every operation is exact (assume, in-language assignments, forget, meet; join = least upper
   bound) on values satisfying the invariant, which top satisfies and every operation keeps *)
Theorem C12_zone_exact : forall n, (0 < n)%nat ->
  exact_dom (zone_dom n) (zwf n) gamma (z_ok n) (za_ok n) (fun v => (node v < n)%nat).
Proof. intros n _. exact (zone_exact_dom n). Qed.
Print Assumptions C12_zone_exact.

Theorem C12_zone_history_invariant : forall n, (0 < n)%nat -> forall h rs,
  Forall (zwf n) rs ->
  Forall (gop_ok (z_ok n) (za_ok n) (fun v => (node v < n)%nat)) h ->
  Forall (zwf n) (grun (zone_dom n) rs h).
Proof. intros n _. exact (grun_wf _ _ _ _ _ _ (zone_exact_dom n)). Qed.
Print Assumptions C12_zone_history_invariant.

Theorem C12_zone_step_exact : forall n, (0 < n)%nat -> forall rs o,
  Forall (zwf n) rs -> gop_ok (z_ok n) (za_ok n) (fun v => (node v < n)%nat) o ->
  (gtarget o < length rs)%nat ->
  step_spec (zone_dom n) (zwf n) gamma rs o (gget (zone_dom n) (gstep (zone_dom n) rs o) (gtarget o)).
Proof. intros n _. exact (gstep_exact _ _ _ _ _ _ (zone_exact_dom n)). Qed.
Print Assumptions C12_zone_step_exact.

Theorem C12_zone_bottom_exact : forall n z, zwf n z ->
  (z_is_bot z = true <-> forall s, ~ gamma z s).
Proof. exact zone_bottom_exact. Qed.
Print Assumptions C12_zone_bottom_exact.

Theorem C12_zone_entails_exact : forall n c z, zwf n z -> z_ok n c ->
  (z_entails c z = true <-> forall s, gamma z s -> sat c s).
Proof. exact z_entails_exact. Qed.
Print Assumptions C12_zone_entails_exact.

(* the potential construction *)
Theorem C12_zone_integer_point : forall n m, mwf n m -> exists s, gmat m s.
Proof. exact mwf_inhabited. Qed.
Print Assumptions C12_zone_integer_point.

Theorem C12_zone_entry_attained : forall n m i j k, mwf n m -> (i < n)%nat -> (j < n)%nat ->
  mget m i j = Some k -> exists s, gmat m s /\ val s j - val s i = k.
Proof. exact entry_attained. Qed.
Print Assumptions C12_zone_entry_attained.

Theorem C12_zone_entry_unbounded : forall n m i j K, mwf n m -> (i < n)%nat -> (j < n)%nat ->
  mget m i j = None -> exists s, gmat m s /\ val s j - val s i >= K.
Proof. exact entry_unbounded. Qed.
Print Assumptions C12_zone_entry_unbounded.

(* at(v) is the tightest interval *)
Theorem C12_zone_at_upper_exact : forall n m v, mwf n m -> (node v < n)%nat -> (0 < n)%nat ->
  match z_upper (ZM m) v with
  | Some u => (forall s, gmat m s -> s v <= u) /\ exists s, gmat m s /\ s v = u
  | None => forall K, exists s, gmat m s /\ s v >= K
  end.
Proof. intros n m v W Hv _. apply (z_upper_exact n m v W Hv). Qed.
Print Assumptions C12_zone_at_upper_exact.

Theorem C12_zone_at_lower_exact : forall n m v, mwf n m -> (node v < n)%nat -> (0 < n)%nat ->
  match z_lower (ZM m) v with
  | Some l => (forall s, gmat m s -> l <= s v) /\ exists s, gmat m s /\ s v = l
  | None => forall K, exists s, gmat m s /\ s v <= K
  end.
Proof. intros n m v W Hv _. apply (z_lower_exact n m v W Hv). Qed.
Print Assumptions C12_zone_at_lower_exact.

(* join is least among ALL bound matrices of the dimension, closed or not *)
Theorem C12_zone_join_least : forall n a b c, zwf n a -> zwf n b -> zdim n c ->
  (forall s, gamma a s -> gamma c s) -> (forall s, gamma b s -> gamma c s) ->
  forall s, gamma (z_join n a b) s -> gamma c s.
Proof. exact z_join_least. Qed.
Print Assumptions C12_zone_join_least.

Theorem C12_zone_meet_exact : forall n a b, zwf n a -> zwf n b ->
  zwf n (z_meet n a b) /\ (forall s, gamma (z_meet n a b) s <-> (gamma a s /\ gamma b s)).
Proof. exact z_meet_spec. Qed.
Print Assumptions C12_zone_meet_exact.

Theorem C12_zone_forget_exact : forall n vs z s', zwf n z ->
  Forall (fun v => (node v < n)%nat) vs ->
  (gamma (z_forget n vs z) s' <-> exists s, gamma z s /\ store_eq_off vs s s').
Proof. exact z_forget_exact. Qed.
Print Assumptions C12_zone_forget_exact.

Theorem C12_zone_inclusion_exact : forall n a b, zwf n a -> zdim n b ->
  (z_leq n a b = true <-> forall s, gamma a s -> gamma b s).
Proof. exact z_leq_exact. Qed.
Print Assumptions C12_zone_inclusion_exact.

Theorem C12_zone_is_top_exact : forall n z, zwf n z ->
  (z_is_top n z = true <-> forall s, gamma z s).
Proof. exact z_is_top_exact. Qed.
Print Assumptions C12_zone_is_top_exact.

(* every operation of the octagon specification keeps every integer point (closure steps,
   integer tightening, strengthening, join, meet, forget, assignments) ... *)
Theorem C12_oct_sound : forall n, sound_dom (oct_dom n) ogamma (fun _ => True).
Proof. exact oct_sound_dom. Qed.
Print Assumptions C12_oct_sound.

(* ... hence after ANY history every register describes every store that the corresponding
   concrete operations reach; in particular it is bottom only if no store is reachable *)
Theorem C12_oct_history_sound : forall n h rs cs,
  grel (oct_dom n) ogamma rs cs -> Forall (gop_okc (fun _ => True)) h ->
  grel (oct_dom n) ogamma (grun (oct_dom n) rs h) (fold_left cstepg h cs).
Proof. intros n. exact (grun_sound _ _ _ (oct_sound_dom n)). Qed.
Print Assumptions C12_oct_history_sound.

Theorem C12_oct_tight_closure_sound : forall n z s, ogamma z s -> ogamma (o_close n z) s.
Proof. exact o_close_sound. Qed.
Print Assumptions C12_oct_tight_closure_sound.

Theorem C12_oct_entails_sound : forall c z s, o_entails c z = true -> ogamma z s -> sat c s.
Proof. exact o_entails_sound. Qed.
Print Assumptions C12_oct_entails_sound.

Theorem C12_oct_at_upper_sound : forall z v s u, ogamma z s -> o_upper z v = Some u -> s v <= u.
Proof. exact o_upper_sound. Qed.
Print Assumptions C12_oct_at_upper_sound.

Theorem C12_oct_at_lower_sound : forall z v s l, ogamma z s -> o_lower z v = Some l -> l <= s v.
Proof. exact o_lower_sound. Qed.
Print Assumptions C12_oct_at_lower_sound.

Theorem C12_oct_inclusion_sound : forall n a b s, zdim n b ->
  o_leq n a b = true -> ogamma a s -> ogamma b s.
Proof. exact o_leq_sound. Qed.
Print Assumptions C12_oct_inclusion_sound.

(* the constraints of the language mean what their edges say (both directions) *)
Theorem C12_oct_language : forall c es s,
  oct_edges c = Some es -> (sat c s <-> Forall (oedge_holds s) es).
Proof. exact oct_edges_spec. Qed.
Print Assumptions C12_oct_language.

(* EXACTNESS: an invariant, established by top and kept by every operation of the language,
   under which every operation is exact, bottom means "no integer point" and entails means
   "implied over the integers" *)
Theorem C12_oct_exact : C12_oct_exact_statement.
Proof. exact oct_exact. Qed.
Print Assumptions C12_oct_exact.

Theorem C12_oct_conjunction_exact : forall n cs, Nat.even n = true -> Forall (o_ok n) cs ->
  let z := o_assume n cs (o_top n) in
  (z_is_bot z = true <-> forall s, ~ Forall (fun c => sat c s) cs) /\
  (forall c, o_ok n c ->
     (o_entails c z = true <-> forall s, Forall (fun c => sat c s) cs -> sat c s)).
Proof. exact oct_conjunction_exact. Qed.
Print Assumptions C12_oct_conjunction_exact.

Theorem C12_oct_exact_operations : forall n, Nat.even n = true ->
  exact_dom (oct_dom n) (ozwf n) ogamma (o_ok n) (oa_ok n) (fun v => (nnode v < n)%nat).
Proof. exact oct_exact_dom. Qed.
Print Assumptions C12_oct_exact_operations.

Theorem C12_oct_history_invariant : forall n, Nat.even n = true -> forall h rs,
  Forall (ozwf n) rs ->
  Forall (gop_ok (o_ok n) (oa_ok n) (fun v => (nnode v < n)%nat)) h ->
  Forall (ozwf n) (grun (oct_dom n) rs h).
Proof. intros n En. exact (grun_wf _ _ _ _ _ _ (oct_exact_dom n En)). Qed.
Print Assumptions C12_oct_history_invariant.

Theorem C12_oct_step_exact : forall n, Nat.even n = true -> forall rs o,
  Forall (ozwf n) rs -> gop_ok (o_ok n) (oa_ok n) (fun v => (nnode v < n)%nat) o ->
  (gtarget o < length rs)%nat ->
  step_spec (oct_dom n) (ozwf n) ogamma rs o (gget (oct_dom n) (gstep (oct_dom n) rs o) (gtarget o)).
Proof. intros n En. exact (gstep_exact _ _ _ _ _ _ (oct_exact_dom n En)). Qed.
Print Assumptions C12_oct_step_exact.

Theorem C12_oct_bottom_exact : forall n z, Nat.even n = true -> ozwf n z ->
  (z_is_bot z = true <-> forall s, ~ ogamma z s).
Proof. intros n z _. apply oct_bottom_exact. Qed.
Print Assumptions C12_oct_bottom_exact.

Theorem C12_oct_entails_exact : forall n c z, Nat.even n = true -> ozwf n z -> o_ok n c ->
  (o_entails c z = true <-> forall s, ogamma z s -> sat c s).
Proof. exact o_entails_exact. Qed.
Print Assumptions C12_oct_entails_exact.

(* the tight closure of a closed coherent matrix satisfies the invariant and keeps exactly the
   integer points *)
Theorem C12_oct_tight_closure_invariant : forall n m, Nat.even n = true -> mwf n m ->
  coherent (mget m) -> ozwf n (o_close n (ZM m)).
Proof. exact o_close_owf. Qed.
Print Assumptions C12_oct_tight_closure_invariant.

Theorem C12_oct_tight_closure_exact : forall n m, Nat.even n = true -> mwf n m ->
  forall s, ogamma (o_close n (ZM m)) s <-> gfun (mget m) (oval s).
Proof. exact o_close_gamma. Qed.
Print Assumptions C12_oct_tight_closure_exact.

Theorem C12_oct_integer_point : forall n m, Nat.even n = true -> mwf n m -> coherent (mget m) ->
  feasible (mget m) -> exists s, gfun (mget m) (oval s).
Proof. intros n m _. apply oct_inhabited. Qed.
Print Assumptions C12_oct_integer_point.

Theorem C12_oct_entry_attained : forall n m i j k, Nat.even n = true -> owf n m ->
  (i < n)%nat -> (j < n)%nat ->
  mget m i j = Some k -> exists s, gfun (mget m) (oval s) /\ oval s j - oval s i = k.
Proof. exact oct_entry_attained. Qed.
Print Assumptions C12_oct_entry_attained.

Theorem C12_oct_join_least : forall n a b c, Nat.even n = true -> ozwf n a -> ozwf n b -> zdim n c ->
  (forall s, ogamma a s -> ogamma c s) -> (forall s, ogamma b s -> ogamma c s) ->
  forall s, ogamma (o_join n a b) s -> ogamma c s.
Proof. exact o_join_least. Qed.
Print Assumptions C12_oct_join_least.

Theorem C12_oct_meet_exact : forall n a b, Nat.even n = true -> ozwf n a -> ozwf n b ->
  ozwf n (o_meet n a b) /\ forall s, ogamma (o_meet n a b) s <-> (ogamma a s /\ ogamma b s).
Proof. exact o_meet_spec. Qed.
Print Assumptions C12_oct_meet_exact.

Theorem C12_oct_forget_exact : forall n vs, Nat.even n = true -> forall z s', ozwf n z ->
  Forall (fun v => (nnode v < n)%nat) vs ->
  (ogamma (o_forget n vs z) s' <-> exists s, ogamma z s /\ store_eq_off vs s s').
Proof. exact o_forget_exact. Qed.
Print Assumptions C12_oct_forget_exact.
