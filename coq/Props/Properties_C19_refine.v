(* Property C19, refinement part — the two models of crab's interval environments are
   connected inside Coq:

     L1  Map/SepDomain.v, Map/SepItv.v : separate_domain<variable, interval> over patricia
         trees ([ienv]: bottom flag + tree, top never stored; invariant [ie_ok]);
     L2  Dom/ItvEnv.v : [env] = EBot | EMap (association list read as a total map with
         default top), the layer under Dom/ItvDomain.v, Dom/History.v and the analyzers.

   [IR s e]  :=  ie_ok s  /\  sbot s = e_is_bot e  /\  forall k, ie_at s k = e_at e k
   (keys are [N] = Ir.Syntax.var at both levels).  Every L2 environment operation is
   simulated by its L1 counterpart, the boolean queries return the same answers, iteration
   yields the same list, any history of operations keeps the two runs related, and the
   theorems about the total-map model (soundness, widening termination) hold for the trees.

   Statements only; every proof is a reference to a lemma of Map/SepItvRefine*.v,
   Map/SepItvTransfer.v. *)
From Coq Require Import NArith ZArith Bool List.
From CrabV Require Import Base.ZInf Scalar.Itv Scalar.ItvSound Ir.Syntax.
From CrabV Require Import Map.Patricia Map.SepDomain Map.SepDomainSound Map.SepItv.
From CrabV Require Import Dom.ItvEnv Dom.ItvEnvSound Dom.ItvEnvWiden Dom.ItvDomain.
From CrabV Require Import Map.SepItvRefine Map.SepItvRefineRun Map.SepItvRefineDom Map.SepItvTransfer.
From CrabV Require Fix.Thresholds Fix.ThresholdsSound.
Import ListNotations.

(* the relation is what its name says, is total on the tree side (every tree satisfying the
   invariant implements the list read off it), and pointwise equality alone implies it *)
Theorem C19_refine_relation : forall s e,
  IR s e <-> (ie_ok s /\ sbot s = e_is_bot e /\ forall k, ie_at s k = e_at e k).
Proof. exact (fun s e => conj (fun H => H) (fun H => H)). Qed.

Theorem C19_refine_total : forall s, ie_ok s -> IR s (ie_abs s).
Proof. exact IR_abs. Qed.

Theorem C19_refine_of_lookups : forall s e,
  ie_ok s -> (forall k, ie_at s k = e_at e k) -> IR s e.
Proof. exact IR_of_same_at. Qed.

(* the relation implies the L2 invariant of Dom/ItvEnvWiden.v *)
Theorem C19_refine_env_ok : forall s e, IR s e -> env_ok e.
Proof. exact IR_env_ok. Qed.

(* queries: the same booleans, the same intervals *)
Theorem C19_refine_queries : forall s e s' e',
  IR s e -> IR s' e' ->
  s_is_bottom s = e_is_bot e /\ s_is_top s = e_is_top e /\ ie_leq s s' = e_leq e e' /\
  forall k, ie_at s k = e_at e k.
Proof.
  exact (fun s e s' e' H H' =>
           conj (IR_is_bottom s e H) (conj (IR_is_top s e H)
                (conj (IR_leq s e s' e' H H') (fun k => IR_at s e k H)))).
Qed.

(* iteration over the tree = the canonical listing of the association list, same order *)
Theorem C19_refine_iteration : forall s m, IR s (EMap m) -> s_elements s = Some (bindings m).
Proof. exact IR_bindings. Qed.

(* updates; [iwf v]: v is not one of the junk intervals [+oo,_] / [_,-oo] *)
Theorem C19_refine_updates : forall s e k v,
  IR s e -> iwf v ->
  IR (ie_set s k v) (e_set e k v) /\ IR (ie_forget s k) (e_forget e k) /\
  IR (ie_join_kv s k v) (e_join_key e k v).
Proof.
  exact (fun s e k v H W =>
           conj (IR_set s e k v H W) (conj (IR_forget s e k H) (IR_join_kv s e k v H W))).
Qed.

Theorem C19_refine_lattice : forall s e s' e',
  IR s e -> IR s' e' ->
  IR (ie_join s s') (e_join e e') /\ IR (ie_meet s s') (e_meet e e') /\
  IR (ie_widen s s') (e_widen e e') /\ IR (ie_narrow s s') (e_narrow e e').
Proof.
  exact (fun s e s' e' H H' =>
           conj (IR_join s e s' e' H H') (conj (IR_meet s e s' e' H H')
                (conj (IR_widen s e s' e' H H') (IR_narrow s e s' e' H H')))).
Qed.

(* widening with thresholds: the same threshold functions on both sides, moving outwards
   and never returning the junk infinities ... *)
Theorem C19_refine_widen_thresholds : forall gp gn s e s' e',
  (forall v, ble (gp v) v = true) -> (forall v, ble v (gn v) = true) ->
  (forall v, gp v <> PInf) -> (forall v, gn v <> MInf) ->
  IR s e -> IR s' e' ->
  IR (s_lub itv is_top ieq (iwiden_thr gp gn) s s') (e_widen_thr gp gn e e').
Proof. exact IR_widen_thr. Qed.

(* ... which holds for the sorted-list thresholds of the C19 harness and for well-formed
   crab::thresholds vectors (Fix/Thresholds.v, used by Dom/History.v and the engine) *)
Theorem C19_refine_widen_thresholds_instances :
  (forall ts s e s' e', IR s e -> IR s' e' ->
     IR (ie_widen_thr ts s s') (e_widen_thr (SepDomain.thr_prev ts) (SepDomain.thr_next ts) e e')) /\
  (forall t s e s' e', ThresholdsSound.wf_thr t -> IR s e -> IR s' e' ->
     IR (s_lub itv is_top ieq (iwiden_thr (Thresholds.thr_prev t) (Thresholds.thr_next t)) s s')
        (e_widen_thr (Thresholds.thr_prev t) (Thresholds.thr_next t) e e')).
Proof. exact (conj IR_widen_thr_list IR_widen_crab_thr). Qed.

(* project (both C++ branches), and rename: the tree version succeeds and is related as
   soon as the two vectors have the same length (otherwise crab raises CRAB_ERROR and the
   list model truncates); no freshness hypothesis is needed for the simulation *)
Theorem C19_refine_project_rename : forall s e,
  IR s e ->
  (forall vs, IR (ie_project s vs) (e_project e vs)) /\
  (forall from to, length from = length to ->
     exists r, ie_rename s from to = Some r /\ IR r (e_rename e from to)).
Proof. exact (fun s e H => conj (fun vs => IR_project s e vs H) (fun f t => IR_rename s e f t H)). Qed.

(* any history: the same program run on trees and on lists, from top *)
Theorem C19_refine_any_history : forall ops n,
  Forall op_ok ops ->
  let rs1 := run tree_ops ops (repeat ie_top n) in
  let rs2 := run list_ops ops (repeat e_top n) in
  Forall2 IR rs1 rs2 /\
  (forall r,
     let s := rget tree_ops rs1 r in
     let e := rget list_ops rs2 r in
     (forall k, ie_at s k = e_at e k) /\
     s_is_bottom s = e_is_bot e /\ s_is_top s = e_is_top e /\
     o_bindings tree_ops s = o_bindings list_ops e /\
     (forall r', ie_leq s (rget tree_ops rs1 r') = e_leq e (rget list_ops rs2 r'))) /\
  (forall r, ie_ok (rget tree_ops rs1 r)).
Proof. exact refine_any_history. Qed.

(* what an admissible program is *)
Theorem C19_refine_op_ok : forall o,
  op_ok o <->
  match o with
  | OSet _ _ F | OJoinKv _ _ F =>
      (forall f g, (forall k, f k = g k) -> F f = F g) /\
      (forall f, (forall k, ItvSound.wf (f k)) -> iwf (F f))
  | OWidenThr _ _ _ gp gn =>
      (forall v, ble (gp v) v = true) /\ (forall v, ble v (gn v) = true) /\
      (forall v, gp v <> PInf) /\ (forall v, gn v <> MInf)
  | ORename _ from to => length from = length to
  | OWhen q _ o' =>
      match q with
      | QRead _ P => forall f g, (forall k, f k = g k) -> P f = P g
      | _ => True
      end /\ op_ok o'
  | _ => True
  end.
Proof. exact op_ok_unfold. Qed.

(* the solver-free transfer functions of interval_domain: the functions of Dom/ItvDomain.v
   are the association-list instances of generic code whose tree instances are related *)
Theorem C19_refine_interval_domain : forall s e,
  IR s e ->
  (forall x ex, IR (g_assign tree_ops x ex s) (d_assign x ex e)) /\
  (forall x ex, IR (g_weak_assign tree_ops x ex s) (d_weak_assign x ex e)) /\
  (forall op x y z, op = OpAdd \/ op = OpSub \/ op = OpMul ->
     IR (g_apply tree_ops (arith_itv op) x y z s) (d_apply_arith op x y z e)) /\
  (forall vs, IR (g_forget tree_ops vs s) (d_forget vs e)) /\
  (forall x nx, IR (g_expand tree_ops x nx s) (d_expand x nx e)).
Proof.
  exact (fun s e H =>
           conj (fun x ex => IR_assign x ex s e H)
          (conj (fun x ex => IR_weak_assign x ex s e H)
          (conj (fun op x y z Hop => IR_apply_arith op x y z s e Hop H)
          (conj (fun vs => IR_d_forget vs s e H) (fun x nx => IR_d_expand x nx s e H))))).
Qed.

Theorem C19_refine_interval_domain_instances :
  (forall x ex e, g_assign list_ops x ex e = d_assign x ex e) /\
  (forall x ex e, g_weak_assign list_ops x ex e = d_weak_assign x ex e) /\
  (forall op x y z e, g_apply list_ops (arith_itv op) x y z e = d_apply_arith op x y z e) /\
  (forall op x y z e, g_apply list_ops (bit_itv op) x y z e = d_apply_bit op x y z e) /\
  (forall vs e, g_forget list_ops vs e = d_forget vs e) /\
  (forall x nx e, g_expand list_ops x nx e = d_expand x nx e).
Proof.
  exact (conj g_assign_list (conj g_weak_assign_list (conj g_apply_arith_list
        (conj g_apply_bit_list (conj g_forget_list g_expand_list))))).
Qed.

(* related environments have the same concretisation ... *)
Theorem C19_transfer_concretisation : forall s e st,
  IR s e -> ((sbot s = false /\ forall k, gamma (ie_at s k) (st k)) <-> genv e st).
Proof. exact IR_gamma. Qed.

(* ... so the soundness theorems of Dom/ItvEnvSound.v hold for the tree operations *)
Theorem C19_transfer_soundness : forall a b st,
  ie_ok a -> ie_ok b ->
  (ie_gamma a st \/ ie_gamma b st -> ie_gamma (ie_join a b) st) /\
  (ie_gamma a st \/ ie_gamma b st -> ie_gamma (ie_widen a b) st) /\
  (ie_gamma a st -> ie_gamma b st -> ie_gamma (ie_meet a b) st) /\
  (ie_gamma a st -> ie_gamma b st -> ie_gamma (ie_narrow a b) st) /\
  (ie_leq a b = true -> ie_gamma a st -> ie_gamma b st) /\
  (forall x v z, iwf v -> ie_gamma a st -> gamma v z -> ie_gamma (ie_set a x v) (upd st x z)) /\
  (forall x z, ie_gamma a st -> ie_gamma (ie_forget a x) (upd st x z)).
Proof.
  exact (fun a b st Oa Ob =>
           conj (ie_join_sound a b st Oa Ob) (conj (ie_widen_sound a b st Oa Ob)
          (conj (ie_meet_sound a b st Oa Ob) (conj (ie_narrow_sound a b st Oa Ob)
          (conj (ie_leq_sound a b st Oa Ob)
          (conj (fun x v z W => ie_set_sound a st x v z Oa W)
                (fun x z => ie_forget_sound a st x z Oa))))))).
Qed.

(* property C05 on the tree representation: the widening (plain, and with crab::thresholds)
   moves strictly down a well-founded order whenever the tree inclusion test fails *)
Theorem C19_transfer_widening_progress :
  well_founded ie_lt /\
  (forall a b, ie_ok a -> ie_ok b -> ie_leq b a = false -> ie_lt (ie_widen a b) a) /\
  (forall t, well_founded (ie_lt_thr t)) /\
  (forall t a b, ThresholdsSound.wf_thr t -> ie_ok a -> ie_ok b -> ie_leq b a = false ->
     ie_lt_thr t (ie_widen_crab_thr t a b) a).
Proof. exact (conj ie_lt_wf (conj ie_widen_progress (conj ie_lt_thr_wf ie_widen_thr_progress))). Qed.

(* widening chains of tree environments x_{i+1} = x_i widen y_i, arbitrary y_i: at most
   1 + (number of finite bounds stored in the first non-bottom iterate) steps change the
   iterate, and the inclusion test fails at most that many times *)
Theorem C19_transfer_widening_chains : forall x0 ys,
  ie_ok x0 -> (forall i, ie_ok (ys i)) ->
  forall j, sbot (iechain x0 ys j) = false -> (forall i, (i < j)%nat -> sbot (iechain x0 ys i) = true) ->
  forall n,
    (length (filter (ie_nonstationary x0 ys) (seq 0 n)) <= 1 + ie_measure (iechain x0 ys j))%nat /\
    (length (filter (ie_refused x0 ys) (seq 0 n)) <= 1 + ie_measure (iechain x0 ys j))%nat.
Proof.
  exact (fun x0 ys O0 Oy j Hb B n =>
           conj (ie_widen_chain_stabilises x0 ys O0 Oy j Hb B n)
                (ie_widen_chain_refusals x0 ys O0 Oy j Hb B n)).
Qed.

Theorem C19_refine_example_pair :
  let s := ie_set (ie_set ie_top 1 (ex_i 0 0)) 9223372036854775808 (mkI (Fin 1) PInf) in
  let e := EMap [(9223372036854775808%N, mkI (Fin 1) PInf); (1%N, ex_i 0 0);
                 (9223372036854775808%N, ex_i 5 6)] in
  IR s e /\
  s_elements s = Some (bindings [(9223372036854775808%N, mkI (Fin 1) PInf); (1%N, ex_i 0 0);
                                 (9223372036854775808%N, ex_i 5 6)]) /\
  s_size s = Some 2%N /\ ie_leq s (ie_forget s 1) = true /\ e_leq e (e_forget e 1%N) = true.
Proof. exact ex_pair. Qed.

Theorem C19_refine_example_program :
  Forall op_ok ex_prog /\
  map (o_bindings tree_ops) (run tree_ops ex_prog (repeat ie_top 4)) =
  map (o_bindings list_ops) (run list_ops ex_prog (repeat e_top 4)) /\
  map (o_bindings list_ops) (run list_ops ex_prog (repeat e_top 4)) =
  [ Some [(1%N, ex_i 0 30); (9223372036854775808%N, mkI (Fin 1) PInf)];
    Some [(7%N, ex_i 1 11); (8%N, ex_i 1 11); (9223372036854775808%N, mkI (Fin 1) PInf)];
    Some [(1%N, ex_i 0 30)];
    Some [(1%N, ex_i 0 100); (7%N, ex_i 1 11); (8%N, ex_i 1 11);
          (9223372036854775808%N, mkI (Fin 1) PInf)] ].
Proof. exact (conj ex_prog_ok ex_prog_run). Qed.

Print Assumptions C19_refine_relation.
Print Assumptions C19_refine_total.
Print Assumptions C19_refine_of_lookups.
Print Assumptions C19_refine_env_ok.
Print Assumptions C19_refine_queries.
Print Assumptions C19_refine_iteration.
Print Assumptions C19_refine_updates.
Print Assumptions C19_refine_lattice.
Print Assumptions C19_refine_widen_thresholds.
Print Assumptions C19_refine_widen_thresholds_instances.
Print Assumptions C19_refine_project_rename.
Print Assumptions C19_refine_any_history.
Print Assumptions C19_refine_op_ok.
Print Assumptions C19_refine_interval_domain.
Print Assumptions C19_refine_interval_domain_instances.
Print Assumptions C19_transfer_concretisation.
Print Assumptions C19_transfer_soundness.
Print Assumptions C19_transfer_widening_progress.
Print Assumptions C19_transfer_widening_chains.
Print Assumptions C19_refine_example_pair.
Print Assumptions C19_refine_example_program.
