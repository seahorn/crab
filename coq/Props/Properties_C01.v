(* Property C01 — forward analysis invariants over-approximate every concrete execution.
   Models: engine Fix/Engine.v (mirror of interleaved_fwd_fixpoint_iterator), interval
   transformer Ana/Transformer.v (mirror of intra_abs_transformer), analyzer Ana/FwdItv.v.
   Statements only.

   Proved: (1) the transformer of every modelled statement / block is sound; (2) the
   verified table checker: ANY pair of tables accepted by fwd_check — for any CFG, entry
   block, assumption map, fixpoint parameters, whatever produced them — contains every
   state with which an execution from the initial states enters / leaves each block, and a
   bottom invariant means the block is never entered.  The check runs fwd_check on the
   engine model's result (which equals the implementation's result on every generated
   program) and on the implementation's own exported invariants.
   (3) the engine model itself is sound (C01_engine_sound...), in every configuration of
   intra_fwd_analyzer including thresholds and liveness pruning: no checker is needed for the
   model; the checker remains the tie for the implementation's own output. *)
From Coq Require Import ZArith List Bool Arith.
From CrabV Require Import Base.ZInf Scalar.Itv Ir.Syntax Ir.Cfg Dom.ItvEnv Dom.ItvEnvSound Dom.ItvDomain
     Fix.Wto Fix.Engine Fix.EngineCheck Ana.Transformer Ana.FwdItv Ana.FwdItvSound
     Fix.WtoCheck Fix.WtoSound Fix.WtoRoot Fix.EngineBelow Fix.EngineRel Fix.EngineSound Ana.FwdItvEngineSound
     Fix.Thresholds Fix.WtoThresholds Ana.FwdItvLive Ana.FwdItvFullSound.
Import ListNotations.

Theorem C01_statement_transformer_sound : forall s e a b,
  stmt_wf s -> genv e a -> sstep s a b -> genv (tr_stmt s e) b.
Proof. exact tr_stmt_sound. Qed.

Theorem C01_block_transformer_sound : forall bl e a b,
  block_wf bl -> genv e a -> bstep bl a b -> genv (tr_block bl e) b.
Proof. exact tr_block_sound. Qed.

Theorem C01_checked_tables_sound :
  forall p entry use_asm asm (Init : store -> Prop) init,
  (forall s, Init s -> genv init s) ->
  forall pre post,
  fwd_check p entry use_asm asm init pre post = true ->
  (forall n s, ReachPre p entry use_asm asm Init n s -> genv (pre n) s) /\
  (forall n s, ReachPost p entry use_asm asm Init n s -> genv (post n) s).
Proof. intros. eapply fwd_check_sound; eauto. Qed.

Theorem C01_bottom_block_never_entered :
  forall p entry use_asm asm (Init : store -> Prop) init,
  (forall s, Init s -> genv init s) ->
  forall pre post,
  fwd_check p entry use_asm asm init pre post = true ->
  forall n, e_is_bot (pre n) = true -> forall s, ~ ReachPre p entry use_asm asm Init n s.
Proof. intros. eapply bottom_block_never_entered; eauto. Qed.

(* the engine itself (Fix/EngineSound.v): for every CFG, every well-formed weak topological
   ordering (in particular the one wto.hpp builds, C07), every start block of the ordering, every
   widening delay, number of descending iterations, assumption map and fuel, the tables of a
   terminated run contain the collecting semantics.  No hypothesis on widening, on monotonicity of
   the transformers or on the checker.  Termination: Properties_C05. *)
Theorem C01_engine_sound_any_domain :
  forall (A State : Type) (gamma : A -> State -> Prop) (OP : aops A),
  (forall a b s, gamma a s -> gamma (o_join A OP a b) s) ->
  (forall a b s, gamma b s -> gamma (o_join A OP a b) s) ->
  (forall a b s, gamma a s -> gamma b s -> gamma (o_meet A OP a b) s) ->
  (forall a b s, gamma a s -> gamma b s -> gamma (o_narrow A OP a b) s) ->
  (forall a b s, o_leq A OP a b = true -> gamma a s -> gamma b s) ->
  forall (analyze : nat -> A -> A) (bstep : nat -> State -> State -> Prop),
  (forall n a s s', gamma a s -> bstep n s s' -> gamma (analyze n a) s') ->
  forall (preds nest : nat -> list nat) (entry delay descending : nat) (use_asm : bool)
         (asm : nat -> option A) (Init : State -> Prop) (init : A),
  (forall s, Init s -> gamma init s) ->
  forall (fuel : nat) (w : list comp),
  NoDup (flat w) ->
  (forall n p, In p (preds n) -> In p (flat w) -> In n (flat w) /\ lok w p n) ->
  In entry (flat w) ->
  forall e, run A OP analyze preds nest entry delay descending use_asm asm init fuel w = Some e ->
  (forall n s, RPre A State gamma bstep preds entry use_asm asm Init n s -> gamma (e_pre A e n) s) /\
  (forall n s, RPost A State gamma bstep preds entry use_asm asm Init n s -> gamma (e_post A e n) s).
Proof. exact engine_sound. Qed.
Print Assumptions C01_engine_sound_any_domain.

(* the interval analyzer on the ordering built from the start block: crab's run(init) *)
Theorem C01_engine_sound :
  forall p, prog_wfb p = true ->
  forall use_asm asm (Init : store -> Prop) init, (forall s, Init s -> genv init s) ->
  forall delay desc fuel entry w e,
  build (p_graph p) entry = Some w ->
  fwd_run p w entry delay desc use_asm asm fuel init = Some e ->
  (forall n s, ReachPre p entry use_asm asm Init n s -> genv (e_pre env e n) s) /\
  (forall n s, ReachPost p entry use_asm asm Init n s -> genv (e_post env e n) s).
Proof. exact fwd_run_sound. Qed.
Print Assumptions C01_engine_sound.

(* ... started at any block of the ordering built from e0: crab's run(entry, init, assumptions) *)
Theorem C01_engine_sound_any_entry :
  forall p, prog_wfb p = true ->
  forall use_asm asm (Init : store -> Prop) init, (forall s, Init s -> genv init s) ->
  forall delay desc fuel e0 entry w e,
  build (p_graph p) e0 = Some w -> In entry (flat w) ->
  fwd_run p w entry delay desc use_asm asm fuel init = Some e ->
  (forall n s, ReachPre p entry use_asm asm Init n s -> genv (e_pre env e n) s) /\
  (forall n s, ReachPost p entry use_asm asm Init n s -> genv (e_post env e n) s).
Proof. exact fwd_run_sound_any_entry. Qed.
Print Assumptions C01_engine_sound_any_entry.

Theorem C01_engine_sound_any_wellformed_wto :
  forall p, prog_wfb p = true ->
  forall use_asm asm (Init : store -> Prop) init, (forall s, Init s -> genv init s) ->
  forall delay desc fuel e0 nst dom w entry e,
  WF (p_graph p) e0 w nst dom ->
  In entry (flat w) ->
  fwd_run p w entry delay desc use_asm asm fuel init = Some e ->
  (forall n s, ReachPre p entry use_asm asm Init n s -> genv (e_pre env e n) s) /\
  (forall n s, ReachPost p entry use_asm asm Init n s -> genv (e_post env e n) s).
Proof. exact fwd_run_sound_WF. Qed.
Print Assumptions C01_engine_sound_any_wellformed_wto.

Theorem C01_engine_bottom_block_never_entered :
  forall p, prog_wfb p = true ->
  forall use_asm asm (Init : store -> Prop) init, (forall s, Init s -> genv init s) ->
  forall delay desc fuel e0 entry w e,
  build (p_graph p) e0 = Some w -> In entry (flat w) ->
  fwd_run p w entry delay desc use_asm asm fuel init = Some e ->
  forall n, e_is_bot (e_pre env e n) = true -> forall s, ~ ReachPre p entry use_asm asm Init n s.
Proof. exact fwd_run_bottom_unreachable. Qed.
Print Assumptions C01_engine_bottom_block_never_entered.

Example C01_engine_sound_example :
  let x := 0%N in
  let p := mkProg [[SAssign x (mkLE [] 0)];
                   [];
                   [SAssume (mkLC INEQ (mkLE [(1%Z, x)] (-9))); SArith OpAdd x x (OCst 1)];
                   [SAssume (mkLC INEQ (mkLE [((-1)%Z, x)] 10))]]
                  [(0,1); (1,2); (2,1); (1,3)] in
  prog_wfb p = true /\
  exists w e, build (p_graph p) 0 = Some w /\
    fwd_run p w 0 2 1 false (fun _ => None) 100 e_top = Some e /\
    e_at (e_post env e 3) x = mkI (Fin 10) (Fin 10) /\
    forall s, ReachPost p 0 false (fun _ => None) (fun _ => True) 3 s -> genv (e_post env e 3) s.
Proof. exact fwd_run_sound_example. Qed.
Print Assumptions C01_engine_sound_example.

(* the analysis starts strictly inside a loop (entry_ok = false): pre(b2) = [0,+oo],
   pre(b1) = [1,+oo], as the repaired C++ prints *)
Example C01_entry_in_loop_example :
  let x := 0%N in
  let p := mkProg [[SAssign x (mkLE [] 5)];
                   [];
                   [SArith OpAdd x x (OCst 1)];
                   []]
                  [(0,1); (1,2); (2,1); (1,3)] in
  let init := e_set e_top x (mkI (Fin 0) (Fin 0)) in
  let Init := fun s : store => s x = 0%Z in
  prog_wfb p = true /\ (forall s, Init s -> genv init s) /\
  exists w e, build (p_graph p) 0 = Some w /\ In 2 (flat w) /\ entry_ok 2 w = false /\
    fwd_run p w 2 1 1 false (fun _ => None) 100 init = Some e /\
    e_at (e_pre env e 2) x = mkI (Fin 0) PInf /\
    e_at (e_pre env e 1) x = mkI (Fin 1) PInf /\
    (forall n s, ReachPre p 2 false (fun _ => None) Init n s -> genv (e_pre env e n) s) /\
    (forall s, Init s -> genv (e_pre env e 2) s).
Proof. exact fwd_run_entry_in_loop_example. Qed.
Print Assumptions C01_entry_in_loop_example.

(* non-vacuity: x := 0; while (x <= 9) x := x + 1 — the model's tables are accepted and
   bound x at the loop exit *)
Example C01_example_loop :
  let x := 0%N in
  let p := mkProg [[SAssign x (mkLE [] 0)];
                   [];
                   [SAssume (mkLC INEQ (mkLE [(1%Z, x)] (-9))); SArith OpAdd x x (OCst 1)];
                   [SAssume (mkLC INEQ (mkLE [((-1)%Z, x)] 10))]]
                  [(0,1); (1,2); (2,1); (1,3)] in
  exists w e, build (p_graph p) 0 = Some w /\
    fwd_run p w 0 2 1 false (fun _ => None) 100 e_top = Some e /\
    fwd_check p 0 false (fun _ => None) e_top (e_pre env e) (e_post env e) = true /\
    e_at (e_post env e 3) x = mkI (Fin 10) (Fin 10).
Proof.
  cbv zeta. eexists. eexists. split; [vm_compute; reflexivity|].
  split; [vm_compute; reflexivity|]. split; vm_compute; reflexivity.
Qed.

Print Assumptions C01_statement_transformer_sound.
Print Assumptions C01_block_transformer_sound.
Print Assumptions C01_checked_tables_sound.
Print Assumptions C01_bottom_block_never_entered.

(* all configurations of intra_fwd_analyzer (Ana/FwdItvLive.v, Ana/FwdItvFullSound.v):
   widening with the thresholds collected by the mirror of wto_thresholds (Fix/WtoThresholds.v)
   for ANY max_thresholds, and liveness pruning (dead variables of the C18 liveness model
   forgotten at the end of each block).
   No hypothesis on the thresholds, on the dead sets, or on the liveness analysis. *)
(* forgetting any set of variables after a block is sound *)
Theorem C01_pruned_block_transformer_sound : forall dead bl e a b,
  block_wf bl -> genv e a -> bstep bl a b -> genv (tr_block_pruned dead bl e) b.
Proof. exact tr_block_pruned_sound. Qed.
Print Assumptions C01_pruned_block_transformer_sound.

(* the analyzer as the C++ configures it: max_thresholds = maxthr (0: plain widening), liveness
   pruning iff live (liveness of the CFG with exit block ex), ordering built from e0, analysis
   started at any block of the ordering *)
Theorem C01_engine_sound_thresholds_liveness :
  forall p, prog_wfb p = true ->
  forall use_asm asm (Init : store -> Prop) init, (forall s, Init s -> genv init s) ->
  forall delay desc fuel maxthr live ex e0 entry w e,
  build (p_graph p) e0 = Some w -> In entry (flat w) ->
  fwd_run_full p w entry delay desc maxthr live ex use_asm asm fuel init = Some e ->
  (forall n s, ReachPre p entry use_asm asm Init n s -> genv (e_pre env e n) s) /\
  (forall n s, ReachPost p entry use_asm asm Init n s -> genv (e_post env e n) s).
Proof. exact fwd_run_full_sound. Qed.
Print Assumptions C01_engine_sound_thresholds_liveness.

(* any per-head threshold sets, any per-block dead sets, any ordering satisfying property C07 *)
Theorem C01_engine_sound_any_thresholds_any_dead_sets :
  forall p, prog_wfb p = true ->
  forall use_asm asm (Init : store -> Prop) init, (forall s, Init s -> genv init s) ->
  forall delay desc fuel use_thr t dead e0 nst dom w entry e,
  WF (p_graph p) e0 w nst dom ->
  In entry (flat w) ->
  fwd_run_gen use_thr t dead p w entry delay desc use_asm asm fuel init = Some e ->
  (forall n s, ReachPre p entry use_asm asm Init n s -> genv (e_pre env e n) s) /\
  (forall n s, ReachPost p entry use_asm asm Init n s -> genv (e_post env e n) s).
Proof. exact fwd_run_gen_sound_WF. Qed.
Print Assumptions C01_engine_sound_any_thresholds_any_dead_sets.

Theorem C01_engine_thresholds_liveness_bottom_block_never_entered :
  forall p, prog_wfb p = true ->
  forall use_asm asm (Init : store -> Prop) init, (forall s, Init s -> genv init s) ->
  forall delay desc fuel maxthr live ex e0 entry w e,
  build (p_graph p) e0 = Some w -> In entry (flat w) ->
  fwd_run_full p w entry delay desc maxthr live ex use_asm asm fuel init = Some e ->
  forall n, e_is_bot (e_pre env e n) = true -> forall s, ~ ReachPre p entry use_asm asm Init n s.
Proof. exact fwd_run_full_bottom_unreachable. Qed.
Print Assumptions C01_engine_thresholds_liveness_bottom_block_never_entered.

(* the table checker for the pruned transformer (used on the implementation's tables when live=1) *)
Theorem C01_checked_tables_sound_liveness :
  forall p use_asm asm (Init : store -> Prop) init, (forall s, Init s -> genv init s) ->
  forall live ex entry pre post,
  fwd_check_full live ex p entry use_asm asm init pre post = true ->
  (forall n s, ReachPre p entry use_asm asm Init n s -> genv (pre n) s) /\
  (forall n s, ReachPost p entry use_asm asm Init n s -> genv (post n) s).
Proof. exact fwd_check_full_sound. Qed.
Print Assumptions C01_checked_tables_sound_liveness.

(* x := 0; while (nondet) { if (x <= 9) x := x + 1 }: plain widening leaves [0,+oo] at the head
   (the descending iteration does not help), the threshold 10 collected from `assume x <= 9`
   gives [0,10]; both runs are sound *)
Example C01_thresholds_example :
  let p := ex_thr_prog in
  prog_wfb p = true /\
  exists w e0 e10, build (p_graph p) 0 = Some w /\
    prog_thr 10 p w 1 = [MInf; Fin 0; Fin 10; PInf] /\
    fwd_run_full p w 0 1 1 0 false None false (fun _ => None) 100 e_top = Some e0 /\
    fwd_run_full p w 0 1 1 10 false None false (fun _ => None) 100 e_top = Some e10 /\
    e_at (e_pre env e0 1) 0%N = mkI (Fin 0) PInf /\
    e_at (e_pre env e10 1) 0%N = mkI (Fin 0) (Fin 10) /\
    e_at (e_pre env e10 4) 0%N = mkI (Fin 0) (Fin 10) /\
    forall s, ReachPre p 0 false (fun _ => None) (fun _ => True) 4 s -> genv (e_pre env e10 4) s.
Proof. exact fwd_run_full_thresholds_example. Qed.
Print Assumptions C01_thresholds_example.

(* b0: x := 5; y := x + 1   b1: y := y + 1 (exit): x is dead at the end of b0 and is forgotten
   there when live = true; y is kept *)
Example C01_liveness_pruning_example :
  let p := ex_live_prog in
  prog_wfb p = true /\
  prog_dead true p (Some 1) 0 = [0%N] /\ prog_dead true p (Some 1) 1 = [] /\
  exists w e el, build (p_graph p) 0 = Some w /\
    fwd_run_full p w 0 2 1 0 false (Some 1) false (fun _ => None) 10 e_top = Some e /\
    fwd_run_full p w 0 2 1 0 true (Some 1) false (fun _ => None) 10 e_top = Some el /\
    e_at (e_post env e 0) 0%N = mkI (Fin 5) (Fin 5) /\
    e_at (e_post env el 0) 0%N = itop /\
    e_at (e_post env el 0) 1%N = mkI (Fin 6) (Fin 6) /\
    e_at (e_post env el 1) 1%N = mkI (Fin 7) (Fin 7) /\
    forall s, ReachPost p 0 false (fun _ => None) (fun _ => True) 1 s -> genv (e_post env el 1) s.
Proof. exact fwd_run_full_pruning_example. Qed.
Print Assumptions C01_liveness_pruning_example.
