(* Property C05 — widening stabilises every chain (and bounds its arguments), narrowing of
   a decreasing pair keeps the second argument.  Models: Scalar/Itv.v, Dom/ItvEnv.v,
   Fix/Thresholds.v.  Statements only.

   Full statement for reference: every analysis run terminates.  What is
   proved here: (a) the bounds, for interval environments, with and without thresholds;
   (b) stabilisation of interval widening chains against ARBITRARY arguments, in the
   constructive form "at most 3 steps of any chain are non-stationary w.r.t. the inclusion
   test"; (c) thresholds: get_prev(v) <= v <= get_next(v) for every threshold set built by
   add(); (d) environments: a well-founded order that every needed widening step (with or
   without thresholds) strictly descends, hence stabilisation of every environment chain
   with an explicit bound; (e) the engine (Fix/Engine.v, any domain with such an order)
   and the interval analyzer terminate: enough fuel always exists and more fuel never
   changes the answer (C05_analysis_terminates).  The representation invariant env_ok (no
   binding to the empty interval) is needed and kept by every operation
   (C05_env_widening_needs_invariant shows what happens without it).  Termination of the
   C++ run itself is observed, not proved. *)
From Coq Require Import ZArith List Bool Arith.
From CrabV Require Import Base.ZInf Scalar.Itv Scalar.ItvSound Scalar.ItvWiden Ir.Syntax Dom.ItvEnv
     Dom.ItvEnvSound Fix.Thresholds Fix.ThresholdsSound
     Dom.ItvEnvWiden Fix.Wto Fix.Engine Fix.EngineTerm Ana.FwdItv Ana.FwdItvTerm
     Ir.Cfg Dom.ItvDomain Fix.WtoThresholds Ana.FwdItvLive Ana.FwdItvFullSound.
Import ListNotations.

Theorem C05_widening_upper_bound : forall a b s, genv a s \/ genv b s -> genv (e_widen a b) s.
Proof. exact e_widen_sound. Qed.
Theorem C05_widening_thresholds_upper_bound : forall t a b s, wf_thr t ->
  genv a s \/ genv b s -> genv (e_widen_thr (thr_prev t) (thr_next t) a b) s.
Proof.
  intros t a b s W H. apply e_widen_thr_sound; auto.
  - intros v. apply thr_prev_le; auto.
  - intros v. apply thr_next_ge; auto.
Qed.
Theorem C05_thresholds_shape_preserved : forall size t v,
  wf_thr t -> b_is_finite v = true -> wf_thr (thr_add size t v).
Proof. exact thr_add_wf. Qed.
Theorem C05_thresholds_initial : wf_thr thr_init.
Proof. exact wf_thr_init. Qed.
Theorem C05_thresholds_next_prev : forall t v, wf_thr t ->
  ble (thr_prev t v) v = true /\ ble v (thr_next t v) = true.
Proof. intros t v W. split; [apply thr_prev_le|apply thr_next_ge]; exact W. Qed.
Theorem C05_narrowing_keeps_second_argument : forall a b s,
  e_leq b a = true -> genv b s -> genv (e_narrow a b) s.
Proof. intros a b s L G. apply e_narrow_sound; auto. eapply e_leq_sound; eauto. Qed.
Theorem C05_interval_narrowing_decreasing_pair : forall a b,
  ileq b a = true -> forall x, gamma b x -> gamma (inarrow a b) x.
Proof. exact inarrow_decreasing_pair. Qed.

(* stabilisation: along x_{i+1} = x_i widen y_i with arbitrary y_i, at most 3 indices i
   have  not (x_{i+1} <= x_i) — whatever the length k of the prefix examined *)
Theorem C05_interval_widening_chain_stabilises : forall x0 ys k,
  length (filter (nonstationary x0 ys iwiden) (seq 0 k)) <= 3.
Proof. exact iwiden_chain_stabilises. Qed.
Theorem C05_interval_widening_step : forall a b,
  ileq (iwiden a b) a = true \/ wmeasure (iwiden a b) < wmeasure a.
Proof. exact iwiden_step. Qed.

Print Assumptions C05_widening_upper_bound.
Print Assumptions C05_widening_thresholds_upper_bound.
Print Assumptions C05_thresholds_shape_preserved.
Print Assumptions C05_thresholds_initial.
Print Assumptions C05_thresholds_next_prev.
Print Assumptions C05_narrowing_keeps_second_argument.
Print Assumptions C05_interval_narrowing_decreasing_pair.
Print Assumptions C05_interval_widening_chain_stabilises.
Print Assumptions C05_interval_widening_step.

Theorem C05_env_order_well_founded : well_founded e_lt.
Proof. exact e_lt_wf. Qed.
Theorem C05_env_widening_progress : forall a b,
  env_ok a -> env_ok b -> e_leq b a = false -> e_lt (e_widen a b) a.
Proof. exact e_widen_progress. Qed.
Theorem C05_env_thresholds_order_well_founded : forall t, well_founded (e_lt_thr t).
Proof. exact e_lt_thr_wf. Qed.
Theorem C05_env_widening_thresholds_progress : forall t, wf_thr t -> forall a b,
  env_ok a -> env_ok b -> e_leq b a = false ->
  e_lt_thr t (e_widen_thr (thr_prev t) (thr_next t) a b) a.
Proof. exact e_widen_thr_progress. Qed.

(* chains of environments: x_{i+1} = x_i widen y_i, arbitrary y_i; (j, m) = the first
   non-bottom iterate; at most 1 + (number of finite bounds of m) steps grow *)
Theorem C05_env_widening_chain_stabilises : forall x0 ys,
  env_ok x0 -> (forall i, env_ok (ys i)) ->
  forall j m, ewchain x0 ys j = EMap m -> (forall i, i < j -> ewchain x0 ys i = EBot) ->
  forall n, length (filter (ew_nonstationary x0 ys) (seq 0 n)) <= 1 + emeasure m.
Proof. exact e_widen_chain_stabilises. Qed.
Theorem C05_env_widening_chain_refusals : forall x0 ys,
  env_ok x0 -> (forall i, env_ok (ys i)) ->
  forall j m, ewchain x0 ys j = EMap m -> (forall i, i < j -> ewchain x0 ys i = EBot) ->
  forall n, length (filter (ew_refused x0 ys) (seq 0 n)) <= 1 + emeasure m.
Proof. exact e_widen_chain_refusals. Qed.
Theorem C05_env_widening_thresholds_chain_stabilises : forall t, wf_thr t -> forall x0 ys,
  env_ok x0 -> (forall i, env_ok (ys i)) ->
  forall j m, echain (iwiden_thr (thr_prev t) (thr_next t)) x0 ys j = EMap m ->
  (forall i, i < j -> echain (iwiden_thr (thr_prev t) (thr_next t)) x0 ys i = EBot) ->
  forall n, length (filter (enonstationary (iwiden_thr (thr_prev t) (thr_next t)) x0 ys) (seq 0 n))
            <= 1 + emeasure_thr t m.
Proof. exact e_widen_thr_chain_stabilises. Qed.
Example C05_env_widening_needs_invariant :
  let a := EMap [(0%N, ibot); (1%N, mkI (Fin 0) (Fin 0))] in
  let b := EMap [(0%N, ibot); (1%N, mkI (Fin 0) (Fin 1))] in
  e_leq b a = false /\ e_widen a b = EBot /\ e_leq b (e_widen a b) = false /\ e_widen (e_widen a b) b = b.
Proof. exact e_widen_needs_invariant. Qed.

Theorem C05_engine_fuel_monotone : forall (A : Type) (OP : aops A) (analyze : nat -> A -> A)
  (preds nest : nat -> list nat) (entry delay descending : nat) (use_asm : bool)
  (asm : nat -> option A) (init : A) (w : list comp) (f f' : nat) (r : est A),
  run A OP analyze preds nest entry delay descending use_asm asm init f w = Some r -> f <= f' ->
  run A OP analyze preds nest entry delay descending use_asm asm init f' w = Some r.
Proof. exact run_mono. Qed.
Theorem C05_engine_terminates : forall (A : Type) (OP : aops A) (analyze : nat -> A -> A)
  (preds nest : nat -> list nat) (entry delay descending : nat) (use_asm : bool)
  (asm : nat -> option A) (init : A) (Inv : A -> Prop),
  Inv (o_bot A OP) ->
  (forall a b, Inv a -> Inv b -> Inv (o_join A OP a b)) ->
  (forall a b, Inv a -> Inv b -> Inv (o_meet A OP a b)) ->
  (forall n a b, Inv a -> Inv b -> Inv (o_widen A OP n a b)) ->
  (forall a b, Inv a -> Inv b -> Inv (o_narrow A OP a b)) ->
  (forall n a, Inv a -> Inv (analyze n a)) ->
  (forall n a, use_asm = true -> asm n = Some a -> Inv a) ->
  Inv init ->
  forall R : nat -> A -> A -> Prop,
  (forall n, well_founded (R n)) ->
  (forall n a b, Inv a -> Inv b -> o_leq A OP b a = false -> R n (o_widen A OP n a b) a) ->
  forall (w : list comp),
  exists f r, run A OP analyze preds nest entry delay descending use_asm asm init f w = Some r.
Proof. exact run_total. Qed.

Theorem C05_analysis_terminates : forall p w entry delay desc use_asm asm init,
  env_ok init -> (forall n a, use_asm = true -> asm n = Some a -> env_ok a) ->
  exists fuel e, fwd_run p w entry delay desc use_asm asm fuel init = Some e.
Proof. exact fwd_run_terminates. Qed.
Theorem C05_analysis_fuel_monotone : forall p w entry delay desc use_asm asm init fuel fuel' e,
  fwd_run p w entry delay desc use_asm asm fuel init = Some e -> fuel <= fuel' ->
  fwd_run p w entry delay desc use_asm asm fuel' init = Some e.
Proof. exact fwd_run_fuel_mono. Qed.
Theorem C05_analysis_answer_independent_of_fuel : forall p w entry delay desc use_asm asm init f1 f2 e1 e2,
  fwd_run p w entry delay desc use_asm asm f1 init = Some e1 ->
  fwd_run p w entry delay desc use_asm asm f2 init = Some e2 -> e1 = e2.
Proof. exact fwd_run_deterministic. Qed.
Theorem C05_analysis_thresholds_terminates : forall t p w entry delay desc use_asm asm init,
  (forall h, wf_thr (t h)) ->
  env_ok init -> (forall n a, use_asm = true -> asm n = Some a -> env_ok a) ->
  exists fuel e, fwd_run_thr t p w entry delay desc use_asm asm fuel init = Some e.
Proof. exact fwd_run_thr_terminates. Qed.
Theorem C05_invariant_initial : env_ok e_top /\ env_ok EBot.
Proof. exact (conj env_ok_top env_ok_bot). Qed.
Theorem C05_invariant_kept : forall p w entry delay desc use_asm asm init fuel e,
  env_ok init -> (forall n a, use_asm = true -> asm n = Some a -> env_ok a) ->
  fwd_run p w entry delay desc use_asm asm fuel init = Some e ->
  forall n, env_ok (e_pre env e n) /\ env_ok (e_post env e n).
Proof. exact fwd_run_ok. Qed.

(* i := 0; while (i <= 9) i := i + 1 : the premises hold for the initial value top, fuel 3
   is enough (computed), fuel 2 is not *)
Example C05_analysis_terminates_example :
  env_ok e_top /\
  (exists e, fwd_run ex_prog ex_wto 0 1 2 false (fun _ => None) 3 e_top = Some e /\
             e_at (e_post env e 3) ex_i = mkI (Fin 10) (Fin 10) /\
             e_at (e_pre env e 1) ex_i = mkI (Fin 0) (Fin 10)) /\
  fwd_run ex_prog ex_wto 0 1 2 false (fun _ => None) 2 e_top = None.
Proof. exact fwd_run_example. Qed.

Print Assumptions C05_env_order_well_founded.
Print Assumptions C05_env_widening_progress.
Print Assumptions C05_env_thresholds_order_well_founded.
Print Assumptions C05_env_widening_thresholds_progress.
Print Assumptions C05_env_widening_chain_stabilises.
Print Assumptions C05_env_widening_chain_refusals.
Print Assumptions C05_env_widening_thresholds_chain_stabilises.
Print Assumptions C05_env_widening_needs_invariant.
Print Assumptions C05_engine_fuel_monotone.
Print Assumptions C05_engine_terminates.
Print Assumptions C05_analysis_terminates.
Print Assumptions C05_analysis_fuel_monotone.
Print Assumptions C05_analysis_answer_independent_of_fuel.
Print Assumptions C05_analysis_thresholds_terminates.
Print Assumptions C05_invariant_initial.
Print Assumptions C05_invariant_kept.
Print Assumptions C05_analysis_terminates_example.

(* the interval analyzer in all configurations of intra_fwd_analyzer (Ana/FwdItvLive.v):
   thresholds collected by the mirror of wto_thresholds, liveness pruning.  No hypothesis about
   the thresholds: C05_wto_thresholds_well_formed. *)
(* every threshold set that the mirror of wto_thresholds hands to extrapolate has the shape
   -oo :: finite ... ++ [+oo], whatever the program, the ordering and max_thresholds *)
Theorem C05_wto_thresholds_well_formed : forall size blk preds w h,
  wf_thr (wto_thr size blk preds w h).
Proof. exact wto_thr_wf. Qed.
Theorem C05_analysis_full_terminates : forall p w entry delay desc maxthr live ex use_asm asm init,
  env_ok init -> (forall n a, use_asm = true -> asm n = Some a -> env_ok a) ->
  exists fuel e, fwd_run_full p w entry delay desc maxthr live ex use_asm asm fuel init = Some e.
Proof. exact fwd_run_full_terminates. Qed.
Theorem C05_analysis_full_fuel_monotone :
  forall p w entry delay desc maxthr live ex use_asm asm init fuel fuel' e,
  fwd_run_full p w entry delay desc maxthr live ex use_asm asm fuel init = Some e -> fuel <= fuel' ->
  fwd_run_full p w entry delay desc maxthr live ex use_asm asm fuel' init = Some e.
Proof. exact fwd_run_full_fuel_mono. Qed.
Theorem C05_analysis_full_answer_independent_of_fuel :
  forall p w entry delay desc maxthr live ex use_asm asm init f1 f2 e1 e2,
  fwd_run_full p w entry delay desc maxthr live ex use_asm asm f1 init = Some e1 ->
  fwd_run_full p w entry delay desc maxthr live ex use_asm asm f2 init = Some e2 -> e1 = e2.
Proof. exact fwd_run_full_deterministic. Qed.
(* any per-head thresholds of the shape kept by thresholds::add, any per-block dead sets *)
Theorem C05_analysis_any_thresholds_any_dead_sets_terminates :
  forall use_thr t dead p w entry delay desc use_asm asm init,
  (use_thr = true -> forall h, wf_thr (t h)) ->
  env_ok init -> (forall n a, use_asm = true -> asm n = Some a -> env_ok a) ->
  exists fuel e, fwd_run_gen use_thr t dead p w entry delay desc use_asm asm fuel init = Some e.
Proof. exact fwd_run_gen_terminates. Qed.
Theorem C05_invariant_kept_full : forall p w entry delay desc maxthr live ex use_asm asm init fuel e,
  env_ok init -> (forall n a, use_asm = true -> asm n = Some a -> env_ok a) ->
  fwd_run_full p w entry delay desc maxthr live ex use_asm asm fuel init = Some e ->
  forall n, env_ok (e_pre env e n) /\ env_ok (e_post env e n).
Proof. exact fwd_run_full_ok. Qed.
(* the thresholds of a counting loop: 10 = 9 + 1 from `assume i <= 9` inside the cycle; with
   max_thresholds = 3 the initial set is already full; b3 is not a cycle head *)
Example C05_wto_thresholds_example :
  let i := 0%N in
  let blk := fun n => nth n [ [SAssign i (mkLE [] 0)];
                             [];
                             [SAssume (mkLC INEQ (mkLE [(1%Z, i)] (-9))); SArith OpAdd i i (OCst 1)];
                             [SAssume (mkLC INEQ (mkLE [((-1)%Z, i)] 10))] ] [] in
  let preds := fun n => match n with 1 => [0; 2] | 2 => [1] | 3 => [1] | _ => [] end in
  let w := [Vertex 0; Cycle 1 [Vertex 2]; Vertex 3] in
  wto_thr 10 blk preds w 1 = [MInf; Fin 0; Fin 10; PInf] /\
  wto_thr 3 blk preds w 1 = [MInf; Fin 0; PInf] /\
  wto_thr 10 blk preds w 3 = thr_init.
Proof. exact wto_thr_example. Qed.

Print Assumptions C05_wto_thresholds_well_formed.
Print Assumptions C05_analysis_full_terminates.
Print Assumptions C05_analysis_full_fuel_monotone.
Print Assumptions C05_analysis_full_answer_independent_of_fuel.
Print Assumptions C05_analysis_any_thresholds_any_dead_sets_terminates.
Print Assumptions C05_invariant_kept_full.
Print Assumptions C05_wto_thresholds_example.
