(* Property C10, recursive call graphs — the model of bottom_up_inter_analyzer.hpp for ANY call
   graph (Ana/InterBURec.v: bur_run; intervals for both phases, after fixes/inter-2 and inter-7) is
   sound, directly (no checker): whenever bur_run returns without error flag - the flag is raised
   by fuel exhaustion only, never by the shape of the call graph -
     - every summary of the bottom-up phase contains the final store of every terminating
       concrete execution of its function, whatever the inputs; members of recursive components of
       the call graph get a summary too (a callsite whose callee has no summary yet forgets its
       lhs variables);
     - the tables of the top-down phase contain every state with which an execution started at an
       entry function enters / leaves a block, in any frame of the call stack, recursive
       activations included.  Entry functions (bur_entries): the functions without callers and
       the members of recursive components, all started in an initial state (the analysis itself
       starts a member of a recursive component from a top calling context, whatever init).
   Any program, widening delay, descending iterations, fuel; the initial value must not constrain
   the internal names (the variables >= voff).
   C10_rec_model_sound_any_orders: the same for arbitrary orders of the two phases (the member
   order inside a component of the call graph, the topological order of the components): the
   result is sound for every choice; the orders of the code (cg_post / cg_rpost: finish order of
   the depth-first search of sccg.hpp) are one instance.  The exact agreement of bur_run with the
   code is the correspondence stream bu-rec1 of checks/C10.py.
   C10_rec_order_ok / C10_rec_td_callers_done / C10_rec_isrec_complete (Ana/InterBURecOrder.v): the
   orders of the mirror have the properties the code relies on - every function once; a
   non-recursive function after all its callers, so that it is analysed from a complete call
   table; a function declared non-recursive is on no cycle of the call graph.  Statements only. *)
From Coq Require Import ZArith NArith List Bool Arith Lia.
From CrabV Require Import Base.ZInf Scalar.Itv Ir.Syntax Ir.Cfg Dom.ItvEnv Dom.ItvEnvSound Dom.ItvDomain
     Fix.Wto Ana.Transformer Ana.InterSyntax Ana.InterSem Ana.InterTD Ana.InterTDSound Ana.InterBU Ana.InterBUSound
     Ana.InterBUModelSound Ana.InterBURec Ana.InterBURecSound Ana.InterBURecOrder.
Import ListNotations.

Theorem C10_rec_model_sound :
  forall p delay desc efuel wtos init,
  let voff := prog_voff p in
  iprog_wfb p voff = true ->
  (forall f, f < length p -> build (fn_graph (get_fn p f)) 0 = Some (wtos f)) ->
  let r := bur_run p voff delay desc efuel wtos init in
  b_err r = false ->
  forall Init : store -> Prop,
  (forall s s', Init s -> (forall k, (k < voff)%N -> s' k = s k) -> genv init s') ->
  (forall f n s, IRPre p (bur_entries p) Init f n s -> genv (b_pre r f n) s) /\
  (forall f n s, IRPost p (bur_entries p) Init f n s -> genv (b_post r f n) s) /\
  (forall sm, In sm (bu_summaries p (b_sum r)) ->
     forall s0 s1, genv (s_pre sm) s0 -> exec_fun p (s_fn sm) s0 s1 -> genv (s_post sm) s1).
Proof. exact bur_model_sound. Qed.

(* any orders obu (bottom-up phase) and otd (top-down phase), any first internal name voff above
   the variables of the program, any list of entry functions that have no callers or belong to a
   recursive component *)
Theorem C10_rec_model_sound_any_orders :
  forall p voff, iprog_wfb p voff = true -> iprog_lowb p voff = true ->
  forall delay desc efuel wtos,
  (forall f, f < length p -> build (fn_graph (get_fn p f)) 0 = Some (wtos f)) ->
  forall obu otd entries init,
  (forall f, In f entries -> f < length p /\ (cg_preds p f = [] \/ cg_isrec p f = true)) ->
  let r := bur_run_ord p voff delay desc efuel wtos obu otd init in
  b_err r = false ->
  forall Init : store -> Prop, (forall s, Init s -> genvL voff init s) ->
  (forall f n s, IRPre p entries Init f n s -> genv (b_pre r f n) s) /\
  (forall f n s, IRPost p entries Init f n s -> genv (b_post r f n) s) /\
  (forall sm, In sm (bu_summaries p (b_sum r)) ->
     forall s0 s1, genv (s_pre sm) s0 -> exec_fun p (s_fn sm) s0 s1 -> genv (s_post sm) s1).
Proof. exact bur_run_ord_sound. Qed.

(* the summaries of the model hold whatever the inputs, members of recursive components included *)
Theorem C10_rec_model_summary_any_input :
  forall p delay desc efuel wtos init,
  let voff := prog_voff p in
  iprog_wfb p voff = true ->
  (forall f, f < length p -> build (fn_graph (get_fn p f)) 0 = Some (wtos f)) ->
  let r := bur_run p voff delay desc efuel wtos init in
  b_err r = false ->
  forall f sum, f < length p -> b_sum r f = Some sum ->
  forall s0 s1, exec_fun p f s0 s1 -> genv sum s1.
Proof. exact bur_model_summary_any_input. Qed.

(* the orders of the mirror are what its comments claim: the top-down order cg_rpost (reverse finish
   order of the depth-first search of the call graph) lists every function exactly once, and a
   function that is not recursive comes after all its callers *)
Theorem C10_rec_order_ok :
  forall p voff, iprog_wfb p voff = true ->
  NoDup (cg_rpost p) /\ (forall f, f < length p -> In f (cg_rpost p)) /\
  (forall l1 f l2, cg_rpost p = l1 ++ f :: l2 -> cg_isrec p f = false ->
     forall h, In h (cg_preds p f) -> In h l1).
Proof. exact cg_rpost_ok. Qed.

(* hence, whenever the top-down phase of bur_run reaches a non-recursive function f (after the
   functions l1, from any state st0), all the callers of f have been analysed: f starts from a call
   table to which all its callers have contributed (or from init), never from the defensive top of
   bur_td_step *)
Theorem C10_rec_td_callers_done :
  forall p voff delay desc efuel wtos sums init, iprog_wfb p voff = true ->
  forall l1 f l2 st0, cg_rpost p = l1 ++ f :: l2 -> cg_isrec p f = false ->
  all_in (cg_preds p f) (t_done (fold_left (bur_td_step p voff delay desc efuel wtos sums init) l1 st0)) = true.
Proof. exact bur_td_callers_done. Qed.

(* the recursion test is complete: a function declared non-recursive is on no cycle of the call graph *)
Theorem C10_rec_isrec_complete :
  forall p f, cg_isrec p f = false -> ~ Ana.InterTDModelSound.cg_path p f f.
Proof. exact cg_isrec_false_no_cycle. Qed.

(* non-vacuity: mutual recursion.  a=v0 r=v1 t=v2 b=v3 s=v4 x=v5 q=v6
     main { x := 5; q := f(x) }
     f(a) -> r { if (a >= 1) { t := a - 1; r := g(t) } else { r := 0 } }
     g(b) -> s { s := f(b); s := 7 }
   f and g form a recursive component; the depth-first search finishes g, then f, then main.
   Bottom-up phase: g first (its call of f has no summary yet: s is forgotten, then s = 7), then f
   with g's summary: r in [0, 7] (in the other member order f's summary would be top).  Top-down
   phase: f and g are analysed from a top calling context (a is unconstrained at f's entry), main
   gets q in [0, 7].  The hypotheses of C10_rec_model_sound hold, the error flag is not raised. *)
Example C10_rec_model_sound_example :
  let ge1 x := mkLC INEQ (mkLE [((-1)%Z, x)] 1%Z) in
  let le0 x := mkLC INEQ (mkLE [(1%Z, x)] 0%Z) in
  let p := [mkFunc [] [] [[IBase (SAssign 5%N (mkLE [] 5%Z)); ICall [6%N] 1 [5%N]]] [] (Some 0);
            mkFunc [0%N] [1%N]
                   [[]; [IBase (SAssume (ge1 0%N)); IBase (SArith OpSub 2%N 0%N (OCst 1%Z)); ICall [1%N] 2 [2%N]];
                    [IBase (SAssume (le0 0%N)); IBase (SAssign 1%N (mkLE [] 0%Z))]; []]
                   [(0, 1); (0, 2); (1, 3); (2, 3)] (Some 3);
            mkFunc [3%N] [4%N] [[ICall [4%N] 1 [3%N]; IBase (SAssign 4%N (mkLE [] 7%Z))]] [] (Some 0)] in
  let voff := prog_voff p in
  exists w0 w1 w2,
    build (fn_graph (get_fn p 0)) 0 = Some w0 /\ build (fn_graph (get_fn p 1)) 0 = Some w1 /\
    build (fn_graph (get_fn p 2)) 0 = Some w2 /\
    let wtos := fun f => match f with 0 => w0 | 1 => w1 | _ => w2 end in
    let r := bur_run p voff 2 2 100 wtos e_top in
    iprog_wfb p voff = true /\
    (forall f, f < length p -> build (fn_graph (get_fn p f)) 0 = Some (wtos f)) /\
    b_err r = false /\
    cg_post p = [2; 1; 0] /\ map (cg_isrec p) [0; 1; 2] = [false; true; true] /\ bur_entries p = [0; 1; 2] /\
    length (bu_summaries p (b_sum r)) = 2 /\
    (exists sf, b_sum r 1 = Some sf /\ e_at sf 1%N = mkI (Fin 0%Z) (Fin 7%Z)) /\
    e_at (b_pre r 1 0) 0%N = mkI MInf PInf /\
    e_at (b_post r 1 2) 1%N = mkI (Fin 0%Z) (Fin 0%Z) /\
    e_at (b_post r 0 0) 6%N = mkI (Fin 0%Z) (Fin 7%Z) /\
    (forall f n s, IRPre p (bur_entries p) (fun _ => True) f n s -> genv (b_pre r f n) s).
Proof.
  intros ge1 le0 p voff. eexists. eexists. eexists.
  split; [vm_compute; reflexivity|]. split; [vm_compute; reflexivity|]. split; [vm_compute; reflexivity|].
  intros wtos r.
  assert (HA : iprog_wfb p voff = true) by (vm_compute; reflexivity).
  assert (HB : forall f, f < length p -> build (fn_graph (get_fn p f)) 0 = Some (wtos f)).
  { intros [|[|[|f]]] L; [vm_compute; reflexivity ..|cbn in L; lia]. }
  (* one evaluation of the analysis for all the facts about its result *)
  assert (K : b_err r = false /\ length (bu_summaries p (b_sum r)) = 2 /\
              match b_sum r 1 with Some sf => e_at sf 1%N | None => ibot end = mkI (Fin 0%Z) (Fin 7%Z) /\
              e_at (b_pre r 1 0) 0%N = mkI MInf PInf /\
              e_at (b_post r 1 2) 1%N = mkI (Fin 0%Z) (Fin 0%Z) /\
              e_at (b_post r 0 0) 6%N = mkI (Fin 0%Z) (Fin 7%Z)) by (vm_compute; repeat split; reflexivity).
  destruct K as (HC & K1 & K2 & K3 & K4 & K5).
  split; [exact HA|]. split; [exact HB|]. split; [exact HC|].
  split; [vm_compute; reflexivity|]. split; [vm_compute; reflexivity|]. split; [vm_compute; reflexivity|].
  split; [exact K1|].
  split; [destruct (b_sum r 1) as [sf|]; [exists sf; split; [reflexivity|exact K2]|discriminate K2]|].
  split; [exact K3|]. split; [exact K4|]. split; [exact K5|].
  intros f n s R.
  refine (proj1 (C10_rec_model_sound p 2 2 100 wtos e_top HA HB HC (fun _ => True) _) f n s R).
  intros; apply genv_top.
Qed.

Print Assumptions C10_rec_model_sound.
Print Assumptions C10_rec_model_sound_any_orders.
Print Assumptions C10_rec_model_summary_any_input.
Print Assumptions C10_rec_order_ok.
Print Assumptions C10_rec_td_callers_done.
Print Assumptions C10_rec_isrec_complete.
Print Assumptions C10_rec_model_sound_example.
