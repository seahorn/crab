(* Property C17 — CFG simplification, dead-code elimination and lowering of proven assertions
   preserve behaviour.  Statements only.

   Models: Ana/Simplify.v (cfg::simplify of cfg.hpp after fix transforms-3: merge_blocks_rec,
   remove, remove_unreachable_blocks, remove_useless_blocks; lower_safe_assertions.hpp),
   Ana/Dce.v (dce.hpp; liveness of Ana/Liveness.v recomputed per round).  Semantics:
   Ana/CfgSem.v.  An execution "ends at the exit block" when it reaches the configuration Done
   (end of the exit block; its last event carries the final values of the outputs).

   Dead-code elimination (conditional on the validated liveness solution, C18): every execution
   of the original has an execution of the transformed CFG with the SAME trace (branches,
   evaluated conditions, assertion outcomes, outputs) ending in the same kind of configuration;
   the converse holds provided no removed statement can fail (dce_provisos); the graph is
   unchanged.
   cfg::simplify: the result is well formed (no duplicate labels, entry and exit are blocks,
   edge vectors mention blocks only and are symmetric), the entry label and the presence of
   an exit are kept, and the executions that end at the exit have exactly the same
   observations (conditions, assertion outcomes, outputs; goto events are not observations
   since blocks are merged) in both directions.  Unbounded: all well-formed CFGs (loops, self
   loops, blocks unreachable from the entry or not reaching the exit), all executions.
   Lowering: exact on the executions that end at the exit (an assertion that fails ends the
   execution, so those executions passed every lowered assertion); the safety of the listed
   assertions is only needed for the failing executions, which the property does not cover.

   Everything below is proved about the models; agreement of the models with the C++ (the
   transformed CFGs are equal, statement by statement and edge by edge) is corresponded. *)
From Coq Require Import ZArith List Bool.
From CrabV Require Import Ir.Syntax Ana.CfgSem Ana.Liveness Ana.LivenessSound Ana.Dce Ana.DceSound
     Ana.Simplify Ana.SimplifySound.
From CrabV Require Ana.SimplifyGenInst Ana.SimplifyPipeline.
Import ListNotations.

Theorem C17_dce_forward : forall P Q s tr o,
  dce P = Some Q -> beh P s tr o -> beh Q s tr o.
Proof. exact dce_forward. Qed.
Print Assumptions C17_dce_forward.

Theorem C17_dce_backward : forall P Q s tr o,
  dce P = Some Q -> dce_provisos 10 P -> beh Q s tr o -> beh P s tr o.
Proof. exact dce_backward. Qed.
Print Assumptions C17_dce_backward.

Theorem C17_dce_exit_executions : forall P Q,
  dce P = Some Q ->
  (forall s tr, star P (init P s) tr Done -> star Q (init Q s) tr Done) /\
  (dce_provisos 10 P -> forall s tr, star Q (init Q s) tr Done -> star P (init P s) tr Done).
Proof. exact dce_preserves_exit_executions. Qed.
Print Assumptions C17_dce_exit_executions.

Theorem C17_dce_same_graph : forall P Q, dce P = Some Q -> same_graph P Q.
Proof. exact dce_same_graph. Qed.
Print Assumptions C17_dce_same_graph.

Theorem C17_dce_wellformed : forall P Q, dce P = Some Q -> wf P -> wf Q.
Proof. exact SimplifyPipeline.dce_wf. Qed.
Print Assumptions C17_dce_wellformed.

Theorem C17_simplify_wellformed : forall P Q, simplify P = Some Q -> wf P -> wf Q /\ keeps P Q.
Proof. exact SimplifyGenInst.simplify_wf. Qed.
Print Assumptions C17_simplify_wellformed.

Theorem C17_simplify_behaviour : forall P Q, simplify P = Some Q -> wf P -> beh_eq P Q.
Proof. exact SimplifyGenInst.simplify_beh. Qed.
Print Assumptions C17_simplify_behaviour.

Theorem C17_merge_blocks : forall P Q, merge_blocks P = Some Q -> wf P -> wf Q /\ beh_eq P Q.
Proof. exact SimplifyGenInst.merge_blocks_beh. Qed.
Print Assumptions C17_merge_blocks.

Theorem C17_remove_unreachable_blocks : forall P, wf P -> beh_eq P (remove_unreachable_blocks P).
Proof. exact SimplifyGenInst.remove_unreachable_beh. Qed.
Print Assumptions C17_remove_unreachable_blocks.

Theorem C17_remove_useless_blocks : forall P, wf P -> beh_eq P (remove_useless_blocks P).
Proof. exact SimplifyGenInst.remove_useless_beh. Qed.
Print Assumptions C17_remove_useless_blocks.

Theorem C17_lower_wellformed : forall safe P, wf P -> wf (lower safe P) /\ same_shape P (lower safe P).
Proof. exact lower_wf. Qed.
Print Assumptions C17_lower_wellformed.

Theorem C17_lower_behaviour : forall safe P s t,
  exit_obs (lower safe P) s t <-> exists t0, exit_obs P s t0 /\ lower_tr safe t0 = t.
Proof. exact lower_beh. Qed.
Print Assumptions C17_lower_behaviour.

Theorem C17_pipeline : forall safe P P1 Q,
  dce (lower safe P) = Some P1 -> simplify P1 = Some Q -> wf P ->
  wf Q /\
  (forall s t0, exit_obs P s t0 -> exit_obs Q s (lower_tr safe t0)) /\
  (dce_provisos 10 (lower safe P) ->
   forall s t, exit_obs Q s t -> exists t0, exit_obs P s t0 /\ lower_tr safe t0 = t).
Proof. exact SimplifyPipeline.pipeline_beh. Qed.
Print Assumptions C17_pipeline.

Theorem C17_wellformedness_is_decidable : forall P, wfb P = true -> wf P.
Proof. exact wfb_sound. Qed.
Print Assumptions C17_wellformedness_is_decidable.
