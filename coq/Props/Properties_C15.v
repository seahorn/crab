(* Property C15 — the region / reference domain never loses a value loaded through a
   reference, and its answers about references hold for every concrete execution.

   Model: Dom/RegionCore.v, a reduced mirror of region_domain.hpp over the interval domain
   (Dom/ItvDomain.v): reference-count abstraction (small_range) and initialised flag per
   region, one ghost scalar per region, allocation-site and tag environments, transfer
   functions region_init / ref_make / ref_free / ref_load / ref_store / ref_gep /
   region_copy / ref_assume / select_ref / add_tag / assign / arithmetic / assume / havoc and
   the lattice operations, with fixes/regions-1..3 applied.  Concrete semantics and proofs:
   Dom/RegionCoreSound.v.  Statements only.

   The full statement of the property for ANY implementation M of a region analysis (any
   statement language, any base domain) is the predicate [C15_statement]; it is proved for
   the model ([C15_model_sound_partial]): PARTIAL because the model covers the interval
   base domain and the modelled statements only.  Unknown regions, int_to_ref / ref_to_int
   and the offset/size ghost variables of is_dereferenceable are in the extended mirror
   Dom/RegionCore2.v (theorems: Properties_C15_ext.v, Properties_C15_ext2.v); region_cast,
   rename/project and other base domains are covered by the oracle search of
   checks/C15.py, not by a theorem.

   Hypotheses that are part of the statements (not gaps): well-typed operands ([op_ok]); a
   load / store goes through a non-null reference created for that region by the analysed
   code ([valid]: "regions are allocated inside the analysed code", the condition under
   which the C++ itself says its count-zero strong update is sound); loads read cells
   written before; ref_make returns a fresh non-null address; ref_gep stays inside the
   memory object and is applied to a reference of the region when it yields the same cell. *)
From Coq Require Import ZArith NArith List Bool.
From CrabV Require Import Base.ZInf Scalar.Itv Scalar.ItvSound Scalar.SmallRange Scalar.Boolean Ir.Syntax
     Dom.ItvEnv Dom.ItvEnvSound Dom.ItvDomain Dom.RegionCore Dom.RegionCoreSound.
Import ListNotations.
Local Open Scope Z_scope.

(* After ANY admissible history of the modelled operations, from any related starting point,
   every register describes every concrete state produced by the corresponding concrete
   operations (all params settings: P is universally quantified). *)
Theorem C15_history_sound_partial :
  forall (is_rgn is_refrgn is_refv : var -> bool) (P : rparams),
  (forall g, is_refrgn g = true -> is_rgn g = true) ->
  (forall v, is_refv v = true -> is_rgn v = false) ->
  forall (dupf : var -> var) (univ : list var) (h : list rop),
  Forall (op_ok is_rgn is_refrgn is_refv dupf) h ->
  forall rs cs rs',
  rels is_rgn is_refrgn is_refv P rs cs ->
  rrun (CF P dupf univ) rs h = Some rs' ->
  rels is_rgn is_refrgn is_refv P rs' (fold_left cstepS h cs).
Proof. exact region_history_sound. Qed.

(* the property predicate holds for the model *)
Theorem C15_model_sound_partial :
  forall (is_rgn is_refrgn is_refv : var -> bool) (P : rparams),
  (forall g, is_refrgn g = true -> is_rgn g = true) ->
  (forall v, is_refv v = true -> is_rgn v = false) ->
  forall (dupf : var -> var) (univ : list var),
  C15_statement is_rgn is_refv rop (core_machine P dupf univ) cstepS (op_ok is_rgn is_refrgn is_refv dupf).
Proof. exact core_machine_sound. Qed.

(* the value loaded from a cell that was stored to before is inside the abstract value of
   the left-hand side, whatever happened before (copies, joins, widenings, aliasing ...) *)
Theorem C15_load_sound :
  forall (is_rgn is_refrgn is_refv : var -> bool) (P : rparams),
  (forall g, is_refrgn g = true -> is_rgn g = true) ->
  (forall v, is_refv v = true -> is_rgn v = false) ->
  forall (dupf : var -> var) (univ : list var) rs cs rs' r x p g isr c z,
  rels is_rgn is_refrgn is_refv P rs cs ->
  op_ok is_rgn is_refrgn is_refv dupf (OLd r x p g isr) ->
  rstep (CF P dupf univ) rs (OLd r x p g isr) = Some rs' ->
  cget cs r c -> (r < length cs)%nat -> valid c g (c_st c p) -> c_hp c g (c_st c p) = Some z ->
  gamma (q_at (vget rs' r) x) z.
Proof. exact load_sound. Qed.

Theorem C15_at_sound :
  forall is_rgn is_refrgn is_refv P rs cs r c x,
  rels is_rgn is_refrgn is_refv P rs cs -> cget cs r c -> gamma (q_at (vget rs r) x) (c_st c x).
Proof. exact q_at_sound. Qed.

(* a definite null / non-null answer is never wrong; no bottom answer on a reachable state *)
Theorem C15_null_answers_sound :
  forall is_rgn is_refrgn is_refv P rs cs r c p,
  rels is_rgn is_refrgn is_refv P rs cs -> cget cs r c ->
  (q_null (vget rs r) p = BTrue -> c_st c p = 0) /\ (q_null (vget rs r) p = BFalse -> c_st c p <> 0) /\
  q_null (vget rs r) p <> BBot.
Proof. exact q_null_sound. Qed.

(* a reported set of allocation sites contains the actual one (or the reference is null) *)
Theorem C15_allocation_sites_sound :
  forall is_rgn is_refrgn is_refv P rs cs r c p ss,
  rels is_rgn is_refrgn is_refv P rs cs -> cget cs r c -> is_refv p = true ->
  q_sites (vget rs r) p = Some ss ->
  c_st c p = 0 \/ exists site, c_asite c (c_st c p) = Some site /\ In site ss.
Proof. exact q_sites_sound. Qed.

(* a reported set of tags contains the tags of the data of every cell of the region *)
Theorem C15_tags_sound :
  forall is_rgn is_refrgn is_refv P rs cs r c g T,
  rels is_rgn is_refrgn is_refv P rs cs -> cget cs r c -> is_rgn g = true ->
  q_tags (vget rs r) g = Some T -> forall x t, In t (c_htg c g x) -> In t T.
Proof. exact q_tags_sound. Qed.

(* the count abstraction describes the references created for the region; when it says
   "zero or one" the region has at most one cell: strong updates happen on singletons *)
Theorem C15_count_sound :
  forall is_rgn is_refrgn is_refv P rs cs r c g,
  rels is_rgn is_refrgn is_refv P rs cs -> cget cs r c ->
  cgamma (fst (q_count (vget rs r) g)) (creators c g) /\
  (singleton_count (fst (q_count (vget rs r) g)) = true ->
   forall a1 a2, In a1 (addrs c g) -> In a2 (addrs c g) -> a1 = a2).
Proof. exact q_count_sound. Qed.

Theorem C15_count_increment_sound :
  forall c L v, cgamma c L -> cgamma (rc_incr c v) (L ++ [Z.of_N v]).
Proof. exact cg_incr. Qed.
Theorem C15_count_join_sound : forall x y L, cgamma x L \/ cgamma y L -> cgamma (sr_join x y) L.
Proof. exact cg_join. Qed.
Theorem C15_count_meet_sound : forall x y L, cgamma x L -> cgamma y L -> cgamma (sr_meet x y) L.
Proof. exact cg_meet. Qed.

(* with small_range::increment itself (code before fixes/regions-1) the count is wrong *)
Theorem C15_unrepaired_increment_refuted :
  exists c L v, cgamma c L /\ ~ cgamma (sr_incr c (Z.of_N v)) (L ++ [Z.of_N v]).
Proof. exact unrepaired_increment_refuted. Qed.

(* non-vacuity: an admissible history with a concrete execution and a precise answer *)
Theorem C15_example_admissible :
  Forall (op_ok ex_is_rgn (fun _ => false) ex_is_refv (fun _ => 9%N)) ex_hist.
Proof. exact ex_ok. Qed.
Theorem C15_example_abstract :
  exists s, rrun (CF ex_P (fun _ => 9%N) [10%N]) [Some r_top] ex_hist = Some [Some s] /\
            get (r_base s) 1%N = iconst 5 /\ count s 10%N = ROne 2 /\ r_alloc s 2%N = Some [7].
Proof. exact ex_abstract. Qed.
Theorem C15_example_concrete :
  exists c, cget (fold_left cstepS ex_hist [cinit]) 0%nat c /\ c_st c 1%N = 5 /\ c_st c 2%N = 1000.
Proof. exact ex_concrete. Qed.

Print Assumptions C15_history_sound_partial.
Print Assumptions C15_model_sound_partial.
Print Assumptions C15_load_sound.
Print Assumptions C15_at_sound.
Print Assumptions C15_null_answers_sound.
Print Assumptions C15_allocation_sites_sound.
Print Assumptions C15_tags_sound.
Print Assumptions C15_count_sound.
Print Assumptions C15_count_increment_sound.
Print Assumptions C15_count_join_sound.
Print Assumptions C15_count_meet_sound.
Print Assumptions C15_unrepaired_increment_refuted.
Print Assumptions C15_example_admissible.
Print Assumptions C15_example_abstract.
Print Assumptions C15_example_concrete.
