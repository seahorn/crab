(* Property C04 — the inclusion test and the lattice operations agree with concretisation.
   Model: interval-domain values (Dom/ItvEnv.v), i.e. separate_domain<variable, interval>
   seen as total maps with default top (C19) plus a bottom flag.  Statements only. *)
From Coq Require Import ZArith List Bool.
From CrabV Require Import Base.ZInf Scalar.Itv Scalar.ItvSound Ir.Syntax Dom.ItvEnv Dom.ItvEnvSound.
Import ListNotations.

Theorem C04_leq_reflexive : forall a, e_leq a a = true.
Proof. exact e_leq_refl. Qed.
Theorem C04_leq_bottom_left : forall a, e_leq EBot a = true.
Proof. exact e_leq_bot_l. Qed.
Theorem C04_leq_top_right : forall a, e_leq a e_top = true.
Proof.
  destruct a as [|m]; simpl; auto. apply forallb_forall. intros k _. simpl. apply ileq_top_any.
Qed.
(* whenever the test answers yes, every state of the left operand is a state of the right
   one — for values over different variable sets as well *)
Theorem C04_leq_sound : forall a b s, e_leq a b = true -> genv a s -> genv b s.
Proof. exact e_leq_sound. Qed.
Theorem C04_join_upper_bound : forall a b s, genv a s \/ genv b s -> genv (e_join a b) s.
Proof. exact e_join_sound. Qed.
Theorem C04_meet_lower_bound : forall a b s, genv a s -> genv b s -> genv (e_meet a b) s.
Proof. exact e_meet_sound. Qed.
Theorem C04_bottom_is_bottom : e_is_bot EBot = true /\ forall s, ~ genv EBot s.
Proof. split; [reflexivity|intros s H; exact H]. Qed.
Theorem C04_top_is_top : e_is_top e_top = true /\ e_is_bot e_top = false /\ forall s, genv e_top s.
Proof. split; [reflexivity|split; [reflexivity|exact genv_top]]. Qed.
Theorem C04_is_bottom_sound : forall e s, e_is_bot e = true -> ~ genv e s.
Proof. exact e_is_bot_sound. Qed.

(* non-vacuity: two values over different variable sets are incomparable *)
Example C04_different_variable_sets :
  let a := e_set e_top 1%N (iconst 0) in let b := e_set e_top 2%N (iconst 0) in
  e_leq a b = false /\ e_leq b a = false /\ e_leq a (e_join a b) = true.
Proof. vm_compute. auto. Qed.

Print Assumptions C04_leq_reflexive.
Print Assumptions C04_leq_bottom_left.
Print Assumptions C04_leq_top_right.
Print Assumptions C04_leq_sound.
Print Assumptions C04_join_upper_bound.
Print Assumptions C04_meet_lower_bound.
Print Assumptions C04_bottom_is_bottom.
Print Assumptions C04_top_is_top.
Print Assumptions C04_is_bottom_sound.
