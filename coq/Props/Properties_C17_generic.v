(* Property C17, for EVERY statement language — cfg::simplify (merge_blocks, remove_unreachable_blocks,
   remove_useless_blocks, merge_blocks) preserves behaviour.  Statements only.

   cfg::simplify of cfg/cfg.hpp never inspects a statement: it moves statement lists between
   blocks and edits edge vectors, and the C++ is the same for numeric, boolean, array, ...
   statements.  Ana/SimplifyGen.v gives the model of Ana/Simplify.v and proves its
   theorems for an arbitrary statement type and an arbitrary statement step relation

     exec : stmt -> store -> list sev -> option store -> Prop
            (events emitted by the statement; Some s' = next store, None = the execution stops in
             the error configuration, e.g. a failing assertion)
     obs_out : odecl -> store -> out       (what is observed at the end of the exit block)

   with NO hypothesis on them (no determinism, totality or frame condition).  Traces consist of
   EvStmt e (statement events), EvGoto l (branches) and a final EvExit o; the observation of an
   execution is its trace without the goto events; exit_obs P s t: some execution of P from the
   entry with initial store s reaches the end of the exit block with observation t;
   beh_eq P Q: exit_obs P = exit_obs Q.  wf: no duplicate labels, entry and exit are blocks, the
   edge vectors mention blocks only and are symmetric (decidable: wfb).

   (a) the generic theorems, quantified over the statement language;
   (b) the link with the concrete development: Ana/Simplify.v is the instance at the numeric
       language of Ana/CfgSem.v (functions, wf, beh_eq coincide) and the concrete
       C17_simplify_behaviour / C17_simplify_wellformed follow from the generic theorems;
   (c) the instance at the extended language of Ana/CfgSemExt.v (numeric + boolean + array
       statements with the semantics of the oracle interpreter of the streams transforms-bool /
       transforms-array);
   (d) non-vacuity: a chain of four blocks with an array range store in a middle block is well
       formed, simplify folds the two middle blocks into the entry block (the statement list is
       displayed), the chain has an exit-reaching execution and so has its simplification. *)
From Coq Require Import ZArith List Bool.
From CrabV Require Import Ir.Syntax Ana.CfgSem Ana.Simplify Ana.SimplifySound.
From CrabV Require Import Ana.SimplifyGenInst Ana.CfgSemExt.
From CrabV Require Ana.SimplifyGen.
Import ListNotations.
Module G := SimplifyGen.

(* (a) every statement language *)
Theorem C17_generic_simplify_wellformed :
  forall (stmt odecl : Type) (P Q : G.cfg stmt odecl),
  G.simplify P = Some Q -> G.wf P -> G.wf Q /\ G.keeps P Q.
Proof. exact G.simplify_wf. Qed.
Print Assumptions C17_generic_simplify_wellformed.

Theorem C17_generic_simplify_behaviour :
  forall (stmt store sev out odecl : Type)
         (exec : stmt -> store -> list sev -> option store -> Prop)
         (obs_out : odecl -> store -> out) (P Q : G.cfg stmt odecl),
  G.simplify P = Some Q -> G.wf P -> G.beh_eq exec obs_out P Q.
Proof. exact G.simplify_beh. Qed.
Print Assumptions C17_generic_simplify_behaviour.

Theorem C17_generic_merge_blocks :
  forall (stmt store sev out odecl : Type)
         (exec : stmt -> store -> list sev -> option store -> Prop)
         (obs_out : odecl -> store -> out) (P Q : G.cfg stmt odecl),
  G.merge_blocks P = Some Q -> G.wf P -> G.wf Q /\ G.beh_eq exec obs_out P Q.
Proof. exact G.merge_blocks_beh. Qed.
Print Assumptions C17_generic_merge_blocks.

Theorem C17_generic_remove_unreachable_blocks :
  forall (stmt store sev out odecl : Type)
         (exec : stmt -> store -> list sev -> option store -> Prop)
         (obs_out : odecl -> store -> out) (P : G.cfg stmt odecl),
  G.wf P -> G.beh_eq exec obs_out P (G.remove_unreachable_blocks P).
Proof. exact G.remove_unreachable_beh. Qed.
Print Assumptions C17_generic_remove_unreachable_blocks.

Theorem C17_generic_remove_useless_blocks :
  forall (stmt store sev out odecl : Type)
         (exec : stmt -> store -> list sev -> option store -> Prop)
         (obs_out : odecl -> store -> out) (P : G.cfg stmt odecl),
  G.wf P -> G.beh_eq exec obs_out P (G.remove_useless_blocks P).
Proof. exact G.remove_useless_beh. Qed.
Print Assumptions C17_generic_remove_useless_blocks.

Theorem C17_generic_wellformedness_is_decidable :
  forall (stmt odecl : Type) (P : G.cfg stmt odecl), G.wfb P = true -> G.wf P.
Proof. exact G.wfb_sound. Qed.
Print Assumptions C17_generic_wellformedness_is_decidable.

(* (b) Ana/Simplify.v is the numeric instance *)
Theorem C17_simplify_is_generic_instance :
  forall P : cfg, simplify P = option_map of_gen (G.simplify (to_gen P)).
Proof. exact simplify_is_instance. Qed.
Print Assumptions C17_simplify_is_generic_instance.

Theorem C17_to_gen_of_gen_inverse :
  (forall P, of_gen (to_gen P) = P) /\ (forall P, to_gen (of_gen P) = P).
Proof. exact to_of_gen_inverse. Qed.
Print Assumptions C17_to_gen_of_gen_inverse.

Theorem C17_wf_is_generic_instance : forall P : cfg, G.wf (to_gen P) <-> wf P.
Proof. exact wf_to_gen. Qed.
Print Assumptions C17_wf_is_generic_instance.

Theorem C17_exit_obs_is_generic_instance : forall (P : cfg) s t,
  exit_obs P s t <-> G.exit_obs exec_c obs_c (to_gen P) s (map tr_ev t).
Proof. exact exit_obs_to_gen. Qed.
Print Assumptions C17_exit_obs_is_generic_instance.

Theorem C17_beh_eq_is_generic_instance : forall P Q : cfg,
  G.beh_eq exec_c obs_c (to_gen P) (to_gen Q) <-> beh_eq P Q.
Proof. exact beh_eq_to_gen. Qed.
Print Assumptions C17_beh_eq_is_generic_instance.

(* the statements of Props/Properties_C17.v, obtained from the generic theorems *)
Theorem C17_simplify_wellformed_from_generic :
  forall P Q : cfg, simplify P = Some Q -> wf P -> wf Q /\ keeps P Q.
Proof. exact simplify_wf. Qed.
Print Assumptions C17_simplify_wellformed_from_generic.

Theorem C17_simplify_behaviour_from_generic :
  forall P Q : cfg, simplify P = Some Q -> wf P -> beh_eq P Q.
Proof. exact simplify_beh. Qed.
Print Assumptions C17_simplify_behaviour_from_generic.

(* (c) numeric + boolean + array statements *)
Theorem C17_simplify_wellformed_ext :
  forall P Q : xcfg, G.simplify P = Some Q -> G.wf P -> G.wf Q /\ G.keeps P Q.
Proof. exact simplify_wf_ext. Qed.
Print Assumptions C17_simplify_wellformed_ext.

Theorem C17_simplify_behaviour_ext :
  forall P Q : xcfg, G.simplify P = Some Q -> G.wf P ->
  forall s t, G.exit_obs exec_x obs_x P s t <-> G.exit_obs exec_x obs_x Q s t.
Proof. exact simplify_beh_ext. Qed.
Print Assumptions C17_simplify_behaviour_ext.

Theorem C17_merge_blocks_ext :
  forall P Q : xcfg, G.merge_blocks P = Some Q -> G.wf P -> G.wf Q /\ G.beh_eq exec_x obs_x P Q.
Proof. exact merge_blocks_beh_ext. Qed.
Print Assumptions C17_merge_blocks_ext.

Theorem C17_remove_unreachable_blocks_ext :
  forall P : xcfg, G.wf P -> G.beh_eq exec_x obs_x P (G.remove_unreachable_blocks P).
Proof. exact remove_unreachable_beh_ext. Qed.
Print Assumptions C17_remove_unreachable_blocks_ext.

Theorem C17_remove_useless_blocks_ext :
  forall P : xcfg, G.wf P -> G.beh_eq exec_x obs_x P (G.remove_useless_blocks P).
Proof. exact remove_useless_beh_ext. Qed.
Print Assumptions C17_remove_useless_blocks_ext.

(* on the numeric statements the extended relation is the concrete one, on the integer valuation *)
Theorem C17_ext_is_conservative : forall st s ev o,
  exec_x (XNum st) s ev o <-> exists oi, exec_c st (x_int s) ev oi /\ o = option_map (set_int s) oi.
Proof. exact exec_x_num. Qed.
Print Assumptions C17_ext_is_conservative.

(* range stores write lb, lb+1, ..., ub and nothing else *)
Theorem C17_ext_range_store : forall m l u v i,
  (l <= i <= u -> write_range m l u v i = Some v)%Z /\ ((i < l \/ u < i) -> write_range m l u v i = m i)%Z.
Proof. exact write_range_spec. Qed.
Print Assumptions C17_ext_range_store.

(* (d) non-vacuity *)
Theorem C17_ext_example_wellformed : G.wf ex_chain.
Proof. exact ex_chain_wf. Qed.
Print Assumptions C17_ext_example_wellformed.

Theorem C17_ext_example_merged_block :
  exists Q, G.simplify ex_chain = Some Q /\ G.labels Q = [0%N; 3%N] /\ G.succs Q 0%N = [3%N] /\
  G.stmts_of Q 0%N = [XAInit 0%N (cst 0) (cst 9) (cst 0);
                      XBAssign 0%N (mkLC INEQ (mkLE [(1%Z, 0%N)] (-5)%Z));
                      XAStoreRange 0%N (cst 2) (cst 4) (cst 7); XBAssert 0%N 1%N].
Proof. exact ex_chain_merged_block. Qed.
Print Assumptions C17_ext_example_merged_block.

Theorem C17_ext_example_runs :
  G.exit_obs exec_x obs_x ex_chain ex_store [G.EvStmt (EvAssert 1%N true); G.EvExit [7%Z; 1%Z]] /\
  G.exit_obs exec_x obs_x ex_chain_simplified ex_store [G.EvStmt (EvAssert 1%N true); G.EvExit [7%Z; 1%Z]].
Proof. exact ex_chain_both_run. Qed.
Print Assumptions C17_ext_example_runs.
