(* Property C13 — fixed-width integers are arithmetic modulo 2^w; wrapped intervals
   over-approximate the operations under wrap-around semantics.
   Statements only; every proof is a reference to a lemma of the development.
   Part 1: crab::wrapint.  Model Num/Wrapint.v (mirror of lib/wrapint.cpp with the repairs
   fixes/wrapint-1..4), proofs Num/WrapintSound.v.
     wf a      : 1 <= width <= 64 and 0 <= n < 2^width   (representation invariant)
     to_Z a    : unsigned reading,  to_sZ a : signed (two's complement) reading
     wrap w z  : z mod 2^w
   Every theorem quantifies over all widths 1..64 and all operands. *)
From Coq Require Import ZArith.
From CrabV Require Import Num.Wrapint Num.WrapintSound Scalar.WrappedItv Scalar.WrappedItvSound
  Scalar.WrappedItvEdge.
Local Open Scope Z_scope.

Theorem C13_wi_of_u64 : forall n w, 0 <= n < 2 ^ 64 ->
  match of_u64 n w with
  | Some r => 1 <= w <= 64 /\ wf r /\ ww r = w /\ to_Z r = wrap w n
  | None => ~ (1 <= w <= 64)
  end.
Proof. exact of_u64_spec. Qed.
Theorem C13_wi_of_z : forall z w,
  match of_z z w with
  | Some r => 1 <= w <= 64 /\ - 2 ^ 63 <= z <= 2 ^ 63 - 1 /\ wf r /\ ww r = w /\ to_Z r = wrap w z
  | None => ~ (1 <= w <= 64 /\ - 2 ^ 63 <= z <= 2 ^ 63 - 1)
  end.
Proof. exact of_z_spec. Qed.
Theorem C13_wi_q_round_to_upper : forall num den, 0 < den ->
  let c := q_round_to_upper num den in c * den - den < num <= c * den.
Proof. exact q_round_to_upper_spec. Qed.
Theorem C13_wi_fits_wrapint : forall z w,
  fits_wrapint z w = true <-> (w <= 64 /\ - 2 ^ 63 <= z <= 2 ^ 63 - 1).
Proof. exact fits_wrapint_spec. Qed.
Theorem C13_wi_signed_bignum : forall a, wf a -> get_signed_bignum a = to_sZ a.
Proof. exact get_signed_bignum_spec. Qed.
Theorem C13_wi_signed_range : forall a, wf a -> - 2 ^ (ww a - 1) <= to_sZ a < 2 ^ (ww a - 1).
Proof. exact to_sZ_range. Qed.
Theorem C13_wi_signed_congruent : forall a, wf a -> wrap (ww a) (to_sZ a) = to_Z a.
Proof. exact to_sZ_wrap. Qed.
Theorem C13_wi_roundtrip_signed : forall a, wf a -> of_z (get_signed_bignum a) (ww a) = Some a.
Proof. exact of_z_signed_roundtrip. Qed.
Theorem C13_wi_roundtrip_unsigned : forall a, wf a -> to_Z a < 2 ^ 63 ->
  of_z (get_unsigned_bignum a) (ww a) = Some a.
Proof. exact of_z_unsigned_roundtrip. Qed.
Theorem C13_wi_roundtrip_from_z_signed : forall z w r,
  of_z z w = Some r -> - 2 ^ (w - 1) <= z < 2 ^ (w - 1) -> get_signed_bignum r = z.
Proof. exact signed_bignum_of_z. Qed.
Theorem C13_wi_roundtrip_from_z_unsigned : forall z w r,
  of_z z w = Some r -> get_unsigned_bignum r = wrap w z.
Proof. exact unsigned_bignum_of_z. Qed.
Theorem C13_wi_msb : forall a, wf a -> msb a = (2 ^ (ww a - 1) <=? to_Z a).
Proof. exact msb_spec. Qed.
Theorem C13_wi_is_zero : forall a, is_zero a = (to_Z a =? 0).
Proof. exact is_zero_spec. Qed.

Theorem C13_wi_signed_max : forall w, 1 <= w <= 64 ->
  wf (get_signed_max w) /\ ww (get_signed_max w) = w /\ to_Z (get_signed_max w) = 2 ^ (w - 1) - 1.
Proof. exact get_signed_max_spec. Qed.
Theorem C13_wi_signed_min : forall w, 1 <= w <= 64 ->
  wf (get_signed_min w) /\ ww (get_signed_min w) = w /\ to_Z (get_signed_min w) = 2 ^ (w - 1).
Proof. exact get_signed_min_spec. Qed.
Theorem C13_wi_unsigned_max : forall w, 1 <= w <= 64 ->
  wf (get_unsigned_max w) /\ ww (get_unsigned_max w) = w /\ to_Z (get_unsigned_max w) = 2 ^ w - 1.
Proof. exact get_unsigned_max_spec. Qed.
Theorem C13_wi_unsigned_min : forall w, 1 <= w <= 64 ->
  wf (get_unsigned_min w) /\ ww (get_unsigned_min w) = w /\ to_Z (get_unsigned_min w) = 0.
Proof. exact get_unsigned_min_spec. Qed.

Theorem C13_wi_add : forall a b, wf a -> wf b -> ww a = ww b ->
  wf (wadd a b) /\ ww (wadd a b) = ww a /\ to_Z (wadd a b) = wrap (ww a) (to_Z a + to_Z b).
Proof. exact wadd_spec. Qed.
Theorem C13_wi_sub : forall a b, wf a -> wf b -> ww a = ww b ->
  wf (wsub a b) /\ ww (wsub a b) = ww a /\ to_Z (wsub a b) = wrap (ww a) (to_Z a - to_Z b).
Proof. exact wsub_spec. Qed.
Theorem C13_wi_mul : forall a b, wf a -> wf b -> ww a = ww b ->
  wf (wmul a b) /\ ww (wmul a b) = ww a /\ to_Z (wmul a b) = wrap (ww a) (to_Z a * to_Z b).
Proof. exact wmul_spec. Qed.
Theorem C13_wi_neg : forall a, wf a ->
  wf (wneg a) /\ ww (wneg a) = ww a /\ to_Z (wneg a) = wrap (ww a) (- to_Z a).
Proof. exact wneg_spec. Qed.
Theorem C13_wi_add_assign : forall a b, wf a -> wadd_assign a b = wadd a b.
Proof. exact wadd_assign_eq. Qed.
Theorem C13_wi_sub_assign : forall a b, wf a -> wsub_assign a b = wsub a b.
Proof. exact wsub_assign_eq. Qed.
Theorem C13_wi_mul_assign : forall a b, wf a -> wmul_assign a b = wmul a b.
Proof. exact wmul_assign_eq. Qed.
Theorem C13_wi_increment : forall a, wf a ->
  wf (wpreinc a) /\ ww (wpreinc a) = ww a /\ to_Z (wpreinc a) = wrap (ww a) (to_Z a + 1).
Proof. exact wpreinc_spec. Qed.
Theorem C13_wi_decrement : forall a, wf a ->
  wf (wpredec a) /\ ww (wpredec a) = ww a /\ to_Z (wpredec a) = wrap (ww a) (to_Z a - 1).
Proof. exact wpredec_spec. Qed.

(* division and remainder: None = CRAB_ERROR, exactly when the divisor is zero *)
Theorem C13_wi_sdiv : forall a b, wf a -> wf b -> ww a = ww b ->
  match wsdiv a b with
  | Some r => to_Z b <> 0 /\ wf r /\ ww r = ww a /\
              to_Z r = wrap (ww a) (Z.quot (to_sZ a) (to_sZ b))
  | None => to_Z b = 0
  end.
Proof. exact wsdiv_spec. Qed.
Theorem C13_wi_srem : forall a b, wf a -> wf b -> ww a = ww b ->
  match wsrem a b with
  | Some r => to_Z b <> 0 /\ wf r /\ ww r = ww a /\
              to_Z r = wrap (ww a) (Z.rem (to_sZ a) (to_sZ b))
  | None => to_Z b = 0
  end.
Proof. exact wsrem_spec. Qed.
Theorem C13_wi_udiv : forall a b, wf a -> wf b -> ww a = ww b ->
  match wudiv a b with
  | Some r => to_Z b <> 0 /\ wf r /\ ww r = ww a /\ to_Z r = to_Z a / to_Z b
  | None => to_Z b = 0
  end.
Proof. exact wudiv_spec. Qed.
Theorem C13_wi_urem : forall a b, wf a -> wf b -> ww a = ww b ->
  match wurem a b with
  | Some r => to_Z b <> 0 /\ wf r /\ ww r = ww a /\ to_Z r = to_Z a mod to_Z b
  | None => to_Z b = 0
  end.
Proof. exact wurem_spec. Qed.

(* comparisons: the class only provides the unsigned order *)
Theorem C13_wi_eq : forall a b, weq a b = (to_Z a =? to_Z b).
Proof. exact weq_spec. Qed.
Theorem C13_wi_ne : forall a b, wne a b = negb (to_Z a =? to_Z b).
Proof. exact wne_spec. Qed.
Theorem C13_wi_lt : forall a b, wlt a b = (to_Z a <? to_Z b).
Proof. exact wlt_spec. Qed.
Theorem C13_wi_le : forall a b, wle a b = (to_Z a <=? to_Z b).
Proof. exact wle_spec. Qed.
Theorem C13_wi_gt : forall a b, wgt a b = (to_Z b <? to_Z a).
Proof. exact wgt_spec. Qed.
Theorem C13_wi_ge : forall a b, wge a b = (to_Z b <=? to_Z a).
Proof. exact wge_spec. Qed.

Theorem C13_wi_and : forall a b, wf a -> wf b -> ww a = ww b ->
  wf (wand a b) /\ ww (wand a b) = ww a /\ to_Z (wand a b) = Z.land (to_Z a) (to_Z b).
Proof. exact wand_spec. Qed.
Theorem C13_wi_or : forall a b, wf a -> wf b -> ww a = ww b ->
  wf (wor a b) /\ ww (wor a b) = ww a /\ to_Z (wor a b) = Z.lor (to_Z a) (to_Z b).
Proof. exact wor_spec. Qed.
Theorem C13_wi_xor : forall a b, wf a -> wf b -> ww a = ww b ->
  wf (wxor a b) /\ ww (wxor a b) = ww a /\ to_Z (wxor a b) = Z.lxor (to_Z a) (to_Z b).
Proof. exact wxor_spec. Qed.

(* shifts: every amount below 64 (amounts >= width included); 64 and above are undefined
   behaviour in the C++ and outside the statement *)
Theorem C13_wi_shl : forall a k, wf a -> wf k -> ww a = ww k -> to_Z k < 64 ->
  exists r, wshl a k = Some r /\ wf r /\ ww r = ww a /\
            to_Z r = wrap (ww a) (to_Z a * 2 ^ to_Z k).
Proof. exact wshl_spec. Qed.
Theorem C13_wi_lshr : forall a k, wf a -> wf k -> ww a = ww k -> to_Z k < 64 ->
  exists r, wlshr a k = Some r /\ wf r /\ ww r = ww a /\ to_Z r = to_Z a / 2 ^ to_Z k.
Proof. exact wlshr_spec. Qed.
Theorem C13_wi_ashr : forall a k, wf a -> wf k -> ww a = ww k -> to_Z k < 64 ->
  exists r, washr a k = Some r /\ wf r /\ ww r = ww a /\
            to_Z r = wrap (ww a) (to_sZ a / 2 ^ to_Z k).
Proof. exact washr_spec. Qed.

Theorem C13_wi_sext : forall a k, wf a -> 0 <= k ->
  match wsext a k with
  | Some r => ww a + k <= 64 /\ wf r /\ ww r = ww a + k /\ to_Z r = wrap (ww a + k) (to_sZ a)
  | None => 64 < ww a + k
  end.
Proof. exact wsext_spec. Qed.
Theorem C13_wi_zext : forall a k, wf a -> 0 <= k ->
  match wzext a k with
  | Some r => ww a + k <= 64 /\ wf r /\ ww r = ww a + k /\ to_Z r = to_Z a
  | None => 64 < ww a + k
  end.
Proof. exact wzext_spec. Qed.
Theorem C13_wi_keep_lower : forall a k, wf a -> 0 <= k ->
  match wkeep_lower a k with
  | Some r => wf r /\ ((ww a <= k /\ r = a) \/
                       (1 <= k < ww a /\ ww r = k /\ to_Z r = wrap k (to_Z a)))
  | None => k = 0
  end.
Proof. exact wkeep_lower_spec. Qed.

(* Part 2: crab::domains::wrapped_interval<z_number>.  Model Scalar/WrappedItv.v (mirror of
   wrapped_interval_impl.hpp and lib/wrapped_interval.cpp with the repairs fixes/wrapint-5..10),
   proofs Scalar/WrappedItvSound.v.
     wfw w x     : x is a well-formed wrapint of bitwidth w
     iwf w i     : i is bottom, top, or has two bounds of bitwidth w
     gamma w i x : the w-bit number x is a member of i (wi_at = the model of at())
   Every theorem quantifies over all bitwidths 1..64, all intervals (bottom, top, across the
   north pole 01..1 -> 10..0 and the south pole 1..1 -> 0..0) and all members.  The result of
   the concrete operation is the wrapint operation of part 1. *)

Theorem C13_wv_membership : forall w s e v, wfw w s -> wfw w e -> wfw w v ->
  (gamma w (wi_mk s e) v <-> (wn v - wn s) mod 2 ^ w <= (wn e - wn s) mod 2 ^ w).
Proof. exact gamma_mk_iff. Qed.
Theorem C13_wv_bottom : forall w v, ~ gamma w wi_bottom v.
Proof. exact gamma_bottom_empty. Qed.
Theorem C13_wv_top : forall w v, wfw w v -> gamma w wi_top v.
Proof. exact gamma_top_all. Qed.
Theorem C13_wv_singleton : forall w n, wfw w n -> gamma w (wi_single n) n.
Proof. exact singleton_sound. Qed.
Theorem C13_wv_mk_winterval : forall n w r, mk_winterval1 n w = Some r ->
  forall x, of_z n w = Some x -> gamma w r x.
Proof. exact mk_winterval1_sound. Qed.

Theorem C13_wv_mk_winterval_range : forall lb ub w r, mk_winterval2 lb ub w = Some r ->
  forall z x, lb <= z <= ub -> of_z z w = Some x -> gamma w r x.
Proof. exact mk_winterval2_sound. Qed.

Theorem C13_wv_leq : forall w a x v, iwf w a -> iwf w x -> wi_leq a x = true -> gamma w a v -> gamma w x v.
Proof. exact leq_sound. Qed.
Theorem C13_wv_eq : forall w a x v, iwf w a -> iwf w x -> wi_eq a x = true -> (gamma w a v <-> gamma w x v).
Proof. exact eq_sound. Qed.
Theorem C13_wv_join : forall w a x v, iwf w a -> iwf w x -> gamma w a v \/ gamma w x v -> gamma w (wi_join a x) v.
Proof. exact join_sound. Qed.
Theorem C13_wv_meet : forall w a x v, iwf w a -> iwf w x -> gamma w a v -> gamma w x v -> gamma w (wi_meet a x) v.
Proof. exact meet_sound. Qed.
(* nothing is claimed when operator|| fails: at bitwidth 1 the assertion w > 1 of the C++ fails
   (None in the model) for the two singletons [0,0] and [1,1], in either order *)
Theorem C13_wv_widen : forall w a x r v, iwf w a -> iwf w x -> wi_widen a x = Some r ->
  gamma w a v \/ gamma w x v -> gamma w r v.
Proof. exact widen_sound. Qed.

Theorem C13_wv_add : forall w a x v y, iwf w a -> iwf w x -> gamma w a v -> gamma w x y ->
  gamma w (wi_add a x) (wadd v y).
Proof. exact add_sound. Qed.
Theorem C13_wv_sub : forall w a x v y, iwf w a -> iwf w x -> gamma w a v -> gamma w x y ->
  gamma w (wi_sub a x) (wsub v y).
Proof. exact sub_sound. Qed.
Theorem C13_wv_neg : forall w a v, iwf w a -> gamma w a v -> gamma w (wi_neg a) (wneg v).
Proof. exact neg_sound. Qed.
Theorem C13_wv_mul : forall w a x v y, iwf w a -> iwf w x -> gamma w a v -> gamma w x y ->
  exists r, wi_mul a x = Some r /\ iwf w r /\ gamma w r (wmul v y).
Proof. exact mul_sound. Qed.
Theorem C13_wv_sdiv : forall w a x v y, iwf w a -> iwf w x -> gamma w a v -> gamma w x y -> wn y <> 0 ->
  exists q r, wi_sdiv a x = Some q /\ iwf w q /\ wsdiv v y = Some r /\ gamma w q r.
Proof. exact sdiv_sound. Qed.
Theorem C13_wv_udiv : forall w a x v y, iwf w a -> iwf w x -> gamma w a v -> gamma w x y -> wn y <> 0 ->
  exists q r, wi_udiv a x = Some q /\ iwf w q /\ wudiv v y = Some r /\ gamma w q r.
Proof. exact udiv_sound. Qed.
(* SRem, URem, And, Or, Xor all return default_implementation: any w-bit result is a member *)
Theorem C13_wv_default_ops : forall w a x v y r, gamma w a v -> gamma w x y -> wfw w r ->
  gamma w (default_implementation a x) r.
Proof. exact default_sound. Qed.

(* shifts by an interval (only singletons are precise), amounts below 64 *)
Theorem C13_wv_lshr : forall w a x v kk, iwf w a -> iwf w x -> gamma w a v -> gamma w x kk -> wn kk < 64 ->
  exists q r, wi_lshr a x = Some q /\ iwf w q /\ wlshr v kk = Some r /\ gamma w q r.
Proof. exact lshr_sound. Qed.
Theorem C13_wv_ashr : forall w a x v kk, iwf w a -> iwf w x -> gamma w a v -> gamma w x kk -> wn kk < 64 ->
  exists q r, wi_ashr a x = Some q /\ iwf w q /\ washr v kk = Some r /\ gamma w q r.
Proof. exact ashr_sound. Qed.
(* Shl for every amount 0..63 (amount 0 goes through Trunc(bitwidth): repair fixes/wrapint-10) *)
Definition C13_wv_shl_statement : Prop :=
  forall w a x v kk, iwf w a -> iwf w x -> gamma w a v -> gamma w x kk -> 0 <= wn kk < 64 ->
  exists q r, wi_shl a x = Some q /\ iwf w q /\ wshl v kk = Some r /\ gamma w q r.
Theorem C13_wv_shl : C13_wv_shl_statement.
Proof. exact shl_full. Qed.
(* Shl by 0 is the identity on an interval that is neither bottom nor top *)
Theorem C13_wv_shl_zero : forall w a, range_nt w a -> wi_shl_k a 0 = Some (wi_mk (wstart a) (wend a)).
Proof. exact shl_k_zero_exact. Qed.
(* amounts of 64 or more shift an uint64_t by 64 bits or more (undefined behaviour, None in the
   model); a w-bit amount is always below 64 when w <= 6 *)
Theorem C13_wv_lshr_amount_64 : forall w a x kk, range_nt w a -> iwf w x -> is_singleton x = true ->
  gamma w x kk -> 64 <= wn kk -> wn (wstart a) <= wn (wend a) -> wi_lshr a x = None.
Proof. exact lshr_amount_64_error. Qed.
Theorem C13_wv_ashr_amount_64 : forall w a x kk, range_nt w a -> iwf w x -> is_singleton x = true ->
  gamma w x kk -> 64 <= wn kk -> cross_north w a = false -> wi_ashr a x = None.
Proof. exact ashr_amount_64_error. Qed.
Theorem C13_wv_lshr_small_width : forall w a x v kk, w <= 6 -> iwf w a -> iwf w x -> gamma w a v -> gamma w x kk ->
  exists q r, wi_lshr a x = Some q /\ iwf w q /\ wlshr v kk = Some r /\ gamma w q r.
Proof. exact lshr_sound_w6. Qed.
Theorem C13_wv_ashr_small_width : forall w a x v kk, w <= 6 -> iwf w a -> iwf w x -> gamma w a v -> gamma w x kk ->
  exists q r, wi_ashr a x = Some q /\ iwf w q /\ washr v kk = Some r /\ gamma w q r.
Proof. exact ashr_sound_w6. Qed.
Theorem C13_wv_shl_small_width : forall w a x v kk, w <= 6 -> iwf w a -> iwf w x -> gamma w a v -> gamma w x kk ->
  exists q r, wi_shl a x = Some q /\ iwf w q /\ wshl v kk = Some r /\ gamma w q r.
Proof. exact shl_sound_w6. Qed.

Theorem C13_wv_zext : forall w i k v, iwf w i -> is_top i = false -> gamma w i v -> 0 <= k -> w + k <= 64 ->
  exists q r, wi_zext i k = Some q /\ iwf (w + k) q /\ wzext v k = Some r /\ gamma (w + k) q r.
Proof. exact zext_sound. Qed.
Theorem C13_wv_sext : forall w i k v, iwf w i -> is_top i = false -> gamma w i v -> 0 <= k -> w + k <= 64 ->
  exists q r, wi_sext i k = Some q /\ iwf (w + k) q /\ wsext v k = Some r /\ gamma (w + k) q r.
Proof. exact sext_sound. Qed.
(* ZExt / SExt of top: unsigned_split / signed_split call get_bitwidth, a CRAB_ERROR on top
   (wrapped_interval_domain::apply tests is_top before it calls them) *)
Theorem C13_wv_zext_top : forall i k, is_bottom i = false -> is_top i = true -> wi_zext i k = None.
Proof. exact zext_top_error. Qed.
Theorem C13_wv_sext_top : forall i k, is_bottom i = false -> is_top i = true -> wi_sext i k = None.
Proof. exact sext_top_error. Qed.
(* Trunc for every bits_to_keep in 1..bitwidth (bits_to_keep = bitwidth: repair fixes/wrapint-10) *)
Definition C13_wv_trunc_statement : Prop :=
  forall w i k v, iwf w i -> gamma w i v -> 1 <= k <= w -> k < 64 ->
  exists q r, wi_trunc i k = Some q /\ wkeep_lower v k = Some r /\ gamma k q r.
Theorem C13_wv_trunc_statement_holds : C13_wv_trunc_statement.
Proof. exact trunc_statement_holds. Qed.
(* the same without k < 64 (Trunc(64) of a 64-bit interval) and with the bitwidth of the result *)
Theorem C13_wv_trunc : forall w i k v, iwf w i -> gamma w i v -> 1 <= k <= w ->
  exists q r, wi_trunc i k = Some q /\ iwf k q /\ wkeep_lower v k = Some r /\ gamma k q r.
Proof. exact trunc_full. Qed.

Theorem C13_wv_to_interval : forall w i v, iwf w i -> gamma w i v ->
  match wi_to_interval i with
  | Some IVBot => False
  | Some IVTop => True
  | Some (IVRange l u) => l <= to_sZ v <= u
  | None => False
  end.
Proof. exact to_interval_sound. Qed.
Theorem C13_wv_lower_half_line_signed : forall w i v u, iwf w i -> gamma w i v -> wfw w u ->
  to_sZ u <= to_sZ v -> gamma w (wi_lower_half_line i true) u.
Proof. intros w i v u Wi G Hu. exact (proj1 (half_line_sound w i v u true Wi G Hu)). Qed.
Theorem C13_wv_lower_half_line_unsigned : forall w i v u, iwf w i -> gamma w i v -> wfw w u ->
  wn u <= wn v -> gamma w (wi_lower_half_line i false) u.
Proof. intros w i v u Wi G Hu. exact (proj1 (half_line_sound w i v u false Wi G Hu)). Qed.
Theorem C13_wv_upper_half_line_signed : forall w i v u, iwf w i -> gamma w i v -> wfw w u ->
  to_sZ v <= to_sZ u -> gamma w (wi_upper_half_line i true) u.
Proof. intros w i v u Wi G Hu. exact (proj2 (half_line_sound w i v u true Wi G Hu)). Qed.
Theorem C13_wv_upper_half_line_unsigned : forall w i v u, iwf w i -> gamma w i v -> wfw w u ->
  wn v <= wn u -> gamma w (wi_upper_half_line i false) u.
Proof. intros w i v u Wi G Hu. exact (proj2 (half_line_sound w i v u false Wi G Hu)). Qed.
Theorem C13_wv_trim_interval : forall w i j v c, iwf w i -> iwf w j -> gamma w i v -> gamma w j c ->
  v <> c -> gamma w (wi_trim_interval i j) v.
Proof. exact trim_interval_sound. Qed.

Print Assumptions C13_wi_of_u64.
Print Assumptions C13_wi_of_z.
Print Assumptions C13_wi_q_round_to_upper.
Print Assumptions C13_wi_fits_wrapint.
Print Assumptions C13_wi_signed_bignum.
Print Assumptions C13_wi_signed_range.
Print Assumptions C13_wi_signed_congruent.
Print Assumptions C13_wi_roundtrip_signed.
Print Assumptions C13_wi_roundtrip_unsigned.
Print Assumptions C13_wi_roundtrip_from_z_signed.
Print Assumptions C13_wi_roundtrip_from_z_unsigned.
Print Assumptions C13_wi_msb.
Print Assumptions C13_wi_is_zero.
Print Assumptions C13_wi_signed_max.
Print Assumptions C13_wi_signed_min.
Print Assumptions C13_wi_unsigned_max.
Print Assumptions C13_wi_unsigned_min.
Print Assumptions C13_wi_add.
Print Assumptions C13_wi_sub.
Print Assumptions C13_wi_mul.
Print Assumptions C13_wi_neg.
Print Assumptions C13_wi_add_assign.
Print Assumptions C13_wi_sub_assign.
Print Assumptions C13_wi_mul_assign.
Print Assumptions C13_wi_increment.
Print Assumptions C13_wi_decrement.
Print Assumptions C13_wi_sdiv.
Print Assumptions C13_wi_srem.
Print Assumptions C13_wi_udiv.
Print Assumptions C13_wi_urem.
Print Assumptions C13_wi_eq.
Print Assumptions C13_wi_ne.
Print Assumptions C13_wi_lt.
Print Assumptions C13_wi_le.
Print Assumptions C13_wi_gt.
Print Assumptions C13_wi_ge.
Print Assumptions C13_wi_and.
Print Assumptions C13_wi_or.
Print Assumptions C13_wi_xor.
Print Assumptions C13_wi_shl.
Print Assumptions C13_wi_lshr.
Print Assumptions C13_wi_ashr.
Print Assumptions C13_wi_sext.
Print Assumptions C13_wi_zext.
Print Assumptions C13_wi_keep_lower.
Print Assumptions C13_wv_membership.
Print Assumptions C13_wv_bottom.
Print Assumptions C13_wv_top.
Print Assumptions C13_wv_singleton.
Print Assumptions C13_wv_mk_winterval.
Print Assumptions C13_wv_leq.
Print Assumptions C13_wv_eq.
Print Assumptions C13_wv_join.
Print Assumptions C13_wv_meet.
Print Assumptions C13_wv_widen.
Print Assumptions C13_wv_add.
Print Assumptions C13_wv_sub.
Print Assumptions C13_wv_neg.
Print Assumptions C13_wv_mul.
Print Assumptions C13_wv_sdiv.
Print Assumptions C13_wv_udiv.
Print Assumptions C13_wv_default_ops.
Print Assumptions C13_wv_lshr.
Print Assumptions C13_wv_ashr.
Print Assumptions C13_wv_shl.
Print Assumptions C13_wv_shl_zero.
Print Assumptions C13_wv_lshr_amount_64.
Print Assumptions C13_wv_ashr_amount_64.
Print Assumptions C13_wv_lshr_small_width.
Print Assumptions C13_wv_ashr_small_width.
Print Assumptions C13_wv_shl_small_width.
Print Assumptions C13_wv_zext.
Print Assumptions C13_wv_sext.
Print Assumptions C13_wv_zext_top.
Print Assumptions C13_wv_sext_top.
Print Assumptions C13_wv_trunc_statement_holds.
Print Assumptions C13_wv_trunc.
Print Assumptions C13_wv_to_interval.
Print Assumptions C13_wv_lower_half_line_signed.
Print Assumptions C13_wv_lower_half_line_unsigned.
Print Assumptions C13_wv_upper_half_line_signed.
Print Assumptions C13_wv_upper_half_line_unsigned.
Print Assumptions C13_wv_trim_interval.
Print Assumptions C13_wv_mk_winterval_range.
