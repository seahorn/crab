(* Property C15, extension, second part — ref_store as a whole, region_init, join and widening on the
   extended region-domain model (unknown regions, dynamic types, offset / size ghost variables).

   Model: Dom/RegionCore2.v.  Concrete semantics and relation: Dom/RegionCore2Sound.v.
   Proofs: Dom/RegionCore2Sound2.v.  Statements only.

   C15x2_history_sound_partial has the relation (rels2) and the concrete semantics of
   C15x_history_sound_partial (Properties_C15_ext.v) and a larger operation set (op_ok3): in addition
   ref_store (typed / unknown region, tracked / untracked, strong / weak, first store that sets the
   dynamic type, reinterpreting store, stores not written to the base domain), region_init, join and
   widening (concrete semantics: union).  C15x2_subsumes_ext: every history admissible for
   C15x_history_sound_partial is admissible for this one with the same concrete semantics.  The
   lattice operations need the
   invariant tyokv (no region has dynamic type bottom; such a value is bottom in the C++); it holds
   for top / bottom and is preserved by every covered operation (second conjunct).
   Still PARTIAL — outside op_ok3: region_copy, region_cast, select_ref, add_tag, operator-= on regions,
   forget, project, and on purpose meet / narrowing (C15x_meet_unknown_types_refuted). *)
From Coq Require Import ZArith NArith List Bool.
From CrabV Require Import Base.ZInf Scalar.Itv Scalar.ItvSound Scalar.SmallRange Scalar.Boolean Ir.Syntax
     Dom.ItvEnv Dom.ItvEnvSound Dom.ItvSolverSound Dom.ItvDomain Dom.RegionCore Dom.RegionCoreSound
     Dom.RegionCore2 Dom.RegionCore2Sound Dom.RegionCore2Sound2.
Import ListNotations.
Local Open Scope Z_scope.

Theorem C15x2_history_sound_partial :
  forall C prog, naming_ok C prog -> forall h, Forall (op_ok3 C prog) h -> forall rs cs rs',
  rels2 C prog rs cs -> Forall tyokv rs -> prun C rs h = Some rs' ->
  rels2 C prog rs' (fold_left (cstepS3 C) h cs) /\ Forall tyokv rs'.
Proof. exact nm2_history. Qed.

Theorem C15x2_subsumes_ext :
  forall C prog h, Forall (op_ok2 C prog) h ->
  Forall (op_ok3 C prog) h /\ forall cs, fold_left (cstepS3 C) h cs = fold_left (cstepS2 C) h cs.
Proof. exact nm2_subsumes. Qed.

(* ref_store, every case *)
Theorem C15x2_store_sound :
  forall C prog, naming_ok C prog -> forall a c c' w r p g v res,
  rel2 C prog a c w -> agree C w c -> is_ref_var C prog p -> vk_is_rgn (k_kind C g) = true ->
  sval_ok2 C prog g v -> cstep2 C (PSt r p g v) c c' -> u_store C p g v a = Some res -> relv2 C prog res c'.
Proof. intros C prog. with_naming u_store_sound. Qed.

Theorem C15x2_init_sound :
  forall C prog, naming_ok C prog -> forall a c c' w r g res,
  rel2 C prog a c w -> agree C w c -> vk_is_rgn (k_kind C g) = true ->
  cstep2 C (PInit r g) c c' -> u_init C g a = Some res -> relv2 C prog res c'.
Proof. intros C prog. with_naming u_init_sound. Qed.

Theorem C15x2_join_sound :
  forall C prog, naming_ok C prog -> forall x y c,
  tyokv x -> tyokv y -> relv2 C prog x c \/ relv2 C prog y c -> relv2 C prog (w_join x y) c.
Proof. intros C prog. with_naming w_join_sound. Qed.

Theorem C15x2_widen_sound :
  forall C prog, naming_ok C prog -> forall x y c,
  tyokv x -> tyokv y -> relv2 C prog x c \/ relv2 C prog y c -> relv2 C prog (w_widen x y) c.
Proof. intros C prog. with_naming w_widen_sound. Qed.

(* answers after any history over the larger operation set *)
Theorem C15x2_load_sound_partial :
  forall C prog, naming_ok C prog -> forall h rs rs' cs r x p g c,
  Forall (op_ok3 C prog) (h ++ [PLd r x p g]) -> rels2 C prog rs cs -> Forall tyokv rs ->
  prun C rs (h ++ [PLd r x p g]) = Some rs' ->
  cgetS (fold_left (cstepS3 C) (h ++ [PLd r x p g]) cs) r c -> is_int_var C prog x ->
  gamma (o_at C (wget rs' r) x) (m_st c x).
Proof. intros C prog NM h rs rs' cs r x p g c OK R T RUN. apply (hist2_at C prog NM _ rs rs' cs OK R T RUN). Qed.

Theorem C15x2_value_sound_partial :
  forall C prog, naming_ok C prog -> forall h rs rs' cs,
  Forall (op_ok3 C prog) h -> rels2 C prog rs cs -> Forall tyokv rs -> prun C rs h = Some rs' ->
  forall r c x, cgetS (fold_left (cstepS3 C) h cs) r c -> is_int_var C prog x ->
  gamma (o_at C (wget rs' r) x) (m_st c x).
Proof. exact hist2_at. Qed.

Theorem C15x2_null_answers_sound_partial :
  forall C prog, naming_ok C prog -> forall h rs rs' cs,
  Forall (op_ok3 C prog) h -> rels2 C prog rs cs -> Forall tyokv rs -> prun C rs h = Some rs' ->
  forall r c p, cgetS (fold_left (cstepS3 C) h cs) r c -> is_ref_var C prog p ->
  (o_null C (wget rs' r) p = BTrue -> m_st c (ga C p) = 0) /\
  (o_null C (wget rs' r) p = BFalse -> m_st c (ga C p) <> 0).
Proof. exact hist2_null. Qed.

Theorem C15x2_allocation_sites_sound_partial :
  forall C prog, naming_ok C prog -> forall h rs rs' cs,
  Forall (op_ok3 C prog) h -> rels2 C prog rs cs -> Forall tyokv rs -> prun C rs h = Some rs' ->
  forall r c p ss, cgetS (fold_left (cstepS3 C) h cs) r c -> is_ref_var C prog p ->
  o_sites (wget rs' r) p = Some ss ->
  m_st c (ga C p) = 0 \/ exists site, m_asite c (m_st c (ga C p)) = Some site /\ In site ss.
Proof. exact hist2_sites. Qed.

Theorem C15x2_offset_size_sound_partial :
  forall C prog, naming_ok C prog -> forall h rs rs' cs,
  Forall (op_ok3 C prog) h -> rels2 C prog rs cs -> Forall tyokv rs -> prun C rs h = Some rs' ->
  forall r c p io iz, cgetS (fold_left (cstepS3 C) h cs) r c -> is_ref_var C prog p ->
  o_offsize C (wget rs' r) p = Some (io, iz) -> gamma io (m_st c (go C p)) /\ gamma iz (m_st c (gz C p)).
Proof. exact hist2_offsize. Qed.

(* non-vacuity: the hypotheses hold for a concrete configuration and history ... *)
Theorem C15x2_example_naming : naming_ok ex2_C ex2_prog.
Proof. exact ex2_naming. Qed.
Theorem C15x2_example_admissible : Forall (op_ok3 ex2_C ex2_prog) ex2_hist.
Proof. exact ex2_ops_ok. Qed.
(* ... U := region_init; p, q := make_ref(U); *p := 5; *q := 9; copy; in the copy *p := 20; join;
   x := *p: x in [5, 20], U is a region of integers with more than one reference *)
Example C15x2_example_store_join_load :
  match prun ex2_C [Some s_top; Some s_top] ex2_hist with
  | Some [Some s; _] => Some (o_at ex2_C (Some s) 1%N, s_rgn s 7%N, s_alloc s 4%N)
  | _ => None
  end = Some (mkI (Fin 5) (Fin 20), (ROneOrMore, BTop, Ty TInt), Some [1; 1]).
Proof. exact ex2_abstract. Qed.

Print Assumptions C15x2_history_sound_partial.
Print Assumptions C15x2_subsumes_ext.
Print Assumptions C15x2_store_sound.
Print Assumptions C15x2_init_sound.
Print Assumptions C15x2_join_sound.
Print Assumptions C15x2_widen_sound.
Print Assumptions C15x2_load_sound_partial.
Print Assumptions C15x2_value_sound_partial.
Print Assumptions C15x2_null_answers_sound_partial.
Print Assumptions C15x2_allocation_sites_sound_partial.
Print Assumptions C15x2_offset_size_sound_partial.
Print Assumptions C15x2_example_naming.
Print Assumptions C15x2_example_admissible.
Print Assumptions C15x2_example_store_join_load.
