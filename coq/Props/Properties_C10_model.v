(* Property C10, the model itself: the result of the model of the bottom-up analyzer (Ana/InterBU.v,
   bu_run) is sound without the checker (Ana/InterBUModelSound.v).  Statements only. *)
From Coq Require Import ZArith NArith List Bool Arith Lia.
From CrabV Require Import Base.ZInf Scalar.Itv Ir.Syntax Ir.Cfg Dom.ItvEnv Dom.ItvEnvSound Dom.ItvDomain
     Fix.Wto Ana.Transformer Ana.InterSyntax Ana.InterSem Ana.InterTD Ana.InterTDSound Ana.InterBU Ana.InterBUSound
     Ana.InterBUModelSound.
Import ListNotations.

(* the model's own result is sound, directly (no checker): whenever bu_run returns without error
   flag (no fuel exhausted, every function processed: the call graph has no cycle), the summaries
   of the bottom-up phase hold for every input and the tables of the top-down phase contain every
   reachable state.  Any program, widening delay, descending iterations, fuel; the initial value
   must not constrain the internal names (the variables >= voff) *)
Theorem C10_model_sound :
  forall p delay desc efuel wtos init,
  let voff := prog_voff p in
  iprog_wfb p voff = true ->
  (forall f, f < length p -> build (fn_graph (get_fn p f)) 0 = Some (wtos f)) ->
  let r := bu_run p voff delay desc efuel wtos init in
  b_err r = false ->
  forall Init : store -> Prop,
  (forall s s', Init s -> (forall k, (k < voff)%N -> s' k = s k) -> genv init s') ->
  (forall f n s, IRPre p (cg_entries p) Init f n s -> genv (b_pre r f n) s) /\
  (forall f n s, IRPost p (cg_entries p) Init f n s -> genv (b_post r f n) s) /\
  (forall sm, In sm (bu_summaries p (b_sum r)) ->
     forall s0 s1, genv (s_pre sm) s0 -> exec_fun p (s_fn sm) s0 s1 -> genv (s_post sm) s1).
Proof. exact bu_model_sound. Qed.

(* any first internal name voff above the variables of the program, any list of entry functions
   without callers *)
Theorem C10_model_sound_any_entries :
  forall p voff, iprog_wfb p voff = true -> iprog_lowb p voff = true ->
  forall delay desc efuel wtos,
  (forall f, f < length p -> build (fn_graph (get_fn p f)) 0 = Some (wtos f)) ->
  forall entries init,
  (forall f, In f entries -> f < length p /\ cg_preds p f = []) ->
  let r := bu_run p voff delay desc efuel wtos init in
  b_err r = false ->
  forall Init : store -> Prop, (forall s, Init s -> genvL voff init s) ->
  (forall f n s, IRPre p entries Init f n s -> genv (b_pre r f n) s) /\
  (forall f n s, IRPost p entries Init f n s -> genv (b_post r f n) s) /\
  (forall sm, In sm (bu_summaries p (b_sum r)) ->
     forall s0 s1, genv (s_pre sm) s0 -> exec_fun p (s_fn sm) s0 s1 -> genv (s_post sm) s1).
Proof. exact bu_run_sound. Qed.

(* the summaries of the model hold whatever the inputs *)
Theorem C10_model_summary_any_input :
  forall p delay desc efuel wtos init,
  let voff := prog_voff p in
  iprog_wfb p voff = true ->
  (forall f, f < length p -> build (fn_graph (get_fn p f)) 0 = Some (wtos f)) ->
  let r := bu_run p voff delay desc efuel wtos init in
  b_err r = false ->
  forall f sum, f < length p -> b_sum r f = Some sum ->
  forall s0 s1, exec_fun p f s0 s1 -> genv sum s1.
Proof. exact bu_model_summary_any_input. Qed.

(* non-vacuity: main { a := 1; b := 10; q := f(b,a) }; f(a,b){ t := g(a); r := t - b }; g(x){ y := x + 1 }
   (three levels, names shared): the hypotheses of C10_model_sound hold; g is analysed in the
   calling context x = 10 and its tables give y = 11 at its exit *)
Example C10_model_sound_example :
  let p := [mkFunc [] [] [[IBase (SAssign 0%N (mkLE [] 1%Z)); IBase (SAssign 1%N (mkLE [] 10%Z));
                           ICall [3%N] 1 [1%N; 0%N]]] [] (Some 0);
            mkFunc [0%N; 1%N] [2%N] [[ICall [4%N] 2 [0%N]; IBase (SArith OpSub 2%N 4%N (OVar 1%N))]] [] (Some 0);
            mkFunc [0%N] [1%N] [[IBase (SArith OpAdd 1%N 0%N (OCst 1%Z))]] [] (Some 0)] in
  let voff := prog_voff p in
  exists w0 w1 w2,
    build (fn_graph (get_fn p 0)) 0 = Some w0 /\ build (fn_graph (get_fn p 1)) 0 = Some w1 /\
    build (fn_graph (get_fn p 2)) 0 = Some w2 /\
    let wtos := fun f => match f with 0 => w0 | 1 => w1 | _ => w2 end in
    let r := bu_run p voff 2 2 100 wtos e_top in
    iprog_wfb p voff = true /\
    (forall f, f < length p -> build (fn_graph (get_fn p f)) 0 = Some (wtos f)) /\
    b_err r = false /\ cg_entries p = [0] /\
    length (bu_summaries p (b_sum r)) = 2 /\
    e_at (b_pre r 2 0) 0%N = mkI (Fin 10%Z) (Fin 10%Z) /\
    e_at (b_post r 2 0) 1%N = mkI (Fin 11%Z) (Fin 11%Z) /\
    (forall f n s, IRPre p (cg_entries p) (fun _ => True) f n s -> genv (b_pre r f n) s).
Proof.
  intros p voff. eexists. eexists. eexists.
  split; [vm_compute; reflexivity|]. split; [vm_compute; reflexivity|]. split; [vm_compute; reflexivity|].
  intros wtos r.
  assert (HA : iprog_wfb p voff = true) by (vm_compute; reflexivity).
  assert (HB : forall f, f < length p -> build (fn_graph (get_fn p f)) 0 = Some (wtos f)).
  { intros [|[|[|f]]] L; [vm_compute; reflexivity ..|cbn in L; lia]. }
  (* one evaluation of the analysis for all the facts about its result *)
  assert (K : b_err r = false /\ length (bu_summaries p (b_sum r)) = 2 /\
              e_at (b_pre r 2 0) 0%N = mkI (Fin 10%Z) (Fin 10%Z) /\
              e_at (b_post r 2 0) 1%N = mkI (Fin 11%Z) (Fin 11%Z)) by (vm_compute; repeat split; reflexivity).
  destruct K as (HC & K1 & K2 & K3).
  split; [exact HA|]. split; [exact HB|]. split; [exact HC|].
  split; [vm_compute; reflexivity|]. split; [exact K1|]. split; [exact K2|]. split; [exact K3|].
  intros f n s R.
  refine (proj1 (C10_model_sound p 2 2 100 wtos e_top HA HB HC (fun _ => True) _) f n s R).
  intros; apply genv_top.
Qed.

Print Assumptions C10_model_sound.
Print Assumptions C10_model_sound_any_entries.
Print Assumptions C10_model_summary_any_input.
Print Assumptions C10_model_sound_example.
