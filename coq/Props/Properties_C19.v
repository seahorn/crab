(* Property C19 — the variable-to-value environments underlying the non-relational domains
   behave as total maps with default top, and the set containers built on the same trees
   implement finite sets exactly.

   Statements only; every proof is a reference to a lemma of the development.
   Models: Map/Patricia.v (patricia_trees.hpp), Map/SepDomain.v (separate_domain),
   Map/DiscreteDomain.v (patricia_tree_set, discrete_domain).
   [get t] is the finite map denoted by a tree (PatriciaSpec.v); [wf] the prefix /
   branching-bit discipline; [s_at] the abstraction of an environment to a total map. *)
From Coq Require Import NArith ZArith Bool List Sorting.Sorted.
From CrabV Require Import Base.ZInf Scalar.Itv Map.Patricia Map.PatriciaBits Map.PatriciaSpec
     Map.SepDomain Map.SepDomainSound Map.SepItv Map.DiscreteDomain Map.DiscreteSound.
Local Open Scope N_scope.

Section Trees.
Variable V : Type.
Variable veq : V -> V -> bool.           (* ValueEqual *)
Variable Vok : V -> Prop.                (* invariant of the stored values *)
Hypothesis veq_ok : forall x y, Vok x -> veq y x = true -> y = x.

Theorem C19_tree_lookup : forall (t : tree V) k, wf t -> lookup t k = get t k.
Proof. exact (lookup_get V). Qed.

Theorem C19_tree_insert : forall (t : tree V) key val op ltr,
  wf t -> all_ok Vok t -> ins_result op ltr t key val (insert veq t key val op ltr).
Proof. exact (insert_spec V veq Vok veq_ok). Qed.

Theorem C19_tree_insert_replace : forall (t : ptree V) key val,
  wfp t -> pall_ok Vok t ->
  wfp (pt_insert veq t key val) /\
  (forall c q, pfits c q t -> agree c key q -> pfits c q (pt_insert veq t key val)) /\
  (forall k, pget (pt_insert veq t key val) k = if k =? key then Some val else pget t k).
Proof. exact (pt_insert_spec V veq Vok veq_ok). Qed.

Theorem C19_tree_remove : forall (t : ptree V) key,
  wfp t ->
  wfp (premove t key) /\ (forall c q, pfits c q t -> pfits c q (premove t key)) /\
  (forall k, pget (premove t key) k = if k =? key then None else pget t k).
Proof. exact (premove_spec V). Qed.

Theorem C19_tree_transform : forall (t : tree V) f,
  wf t -> all_ok Vok t ->
  wfp (transform veq t f) /\ (forall c q, fits c q t -> pfits c q (transform veq t f)) /\
  (forall k, pget (transform veq t f) k = obind (get t k) f).
Proof. exact (transform_spec V veq Vok veq_ok). Qed.

(* merge: well-formedness, pointwise combination under both absorption modes, and the
   bottom flag is raised exactly when some common key combines to bottom *)
Theorem C19_tree_merge : forall op ltr (s t : ptree V),
  wfp s -> wfp t -> pall_ok Vok s -> pall_ok Vok t ->
  let res := pmerge veq op ltr s t in
  if fst res then
    snd res = None /\
    exists k a b, pget s k = Some a /\ pget t k = Some b /\ fst (app_op op ltr k a b) = true
  else
    wfp (snd res) /\
    (forall c q, pfits c q s -> pfits c q t -> pfits c q (snd res)) /\
    (forall k, pget (snd res) k = comb op ltr k (pget s k) (pget t k)) /\
    (forall k a b, pget s k = Some a -> pget t k = Some b -> fst (app_op op ltr k a b) = false).
Proof. exact (pmerge_spec V veq Vok veq_ok). Qed.

(* the physical-equality shortcut of merge is sound for idempotent operators *)
Theorem C19_tree_merge_shortcut : forall op ltr (s : tree V),
  (forall k v, Vok v -> bapply op k v v = (false, Some v)) ->
  wf s -> all_ok Vok s -> merge veq op ltr s s = (false, Some s).
Proof. exact (merge_idem V veq Vok veq_ok). Qed.

(* compare answers yes exactly when the order holds pointwise (an absent binding being the
   default value, distinct from every stored value) *)
Theorem C19_tree_compare : forall (po : porder V) ltr (s t : ptree V),
  wfp s -> wfp t ->
  (pcompare po ltr s t = true <-> forall k, ole po ltr (pget s k) (pget t k) = true).
Proof. exact (pcompare_spec V). Qed.

(* the physical-equality shortcut of compare is sound for reflexive orders *)
Theorem C19_tree_compare_shortcut : forall (po : porder V) ltr (s : tree V),
  (forall v, Vok v -> pleq po v v = true) -> wf s -> all_ok Vok s -> compare po ltr s s = true.
Proof. exact (compare_refl V Vok). Qed.

Theorem C19_tree_iteration_exact : forall (t : ptree V) k v,
  wfp t -> (In (k, v) (pelements t) <-> pget t k = Some v).
Proof. exact (pelements_in V). Qed.

Theorem C19_tree_iteration_sorted : forall (t : ptree V),
  wfp t -> StronglySorted key_lt (pelements t).
Proof. exact (pelements_sorted V). Qed.

Theorem C19_tree_size : forall (t : ptree V), psize t = N.of_nat (length (pelements t)).
Proof. exact (psize_elements V). Qed.
End Trees.

(* the loop of highest_bit computes the highest set bit above the threshold *)
Theorem C19_highest_bit_loop : forall fuel x c d,
  (forall i, i < c -> N.testbit x i = false) ->
  N.testbit x d = true -> (forall i, d < i -> N.testbit x i = false) ->
  (N.to_nat (d - c) < fuel)%nat ->
  highest_bit_loop fuel x (2 ^ c) = 2 ^ d.
Proof. exact highest_bit_loop_spec. Qed.

Theorem C19_branching_bit : forall p0 p1 c,
  ~ agree c p0 p1 ->
  exists d, highest_bit (N.lxor p0 p1) (2 ^ c) = 2 ^ d /\ c <= d /\
            agree (d + 1) p0 p1 /\ N.testbit p0 d <> N.testbit p1 d.
Proof. exact highest_bit_spec. Qed.

Section Environments.
Variable V : Type.
Variables vtop vbot : V.
Variables v_is_top v_is_bot : V -> bool.
Variable vleq : V -> V -> bool.
Variable veq : V -> V -> bool.
Variable Vwf : V -> Prop.
Hypothesis Vwf_top : Vwf vtop.
Hypothesis top_is_top : v_is_top vtop = true.
Hypothesis top_not_bot : v_is_bot vtop = false.
Hypothesis bot_is_bot : v_is_bot vbot = true.
Hypothesis veq_good : forall x y, good V v_is_top v_is_bot Vwf x -> veq y x = true -> y = x.

Notation ok := (sep_ok V v_is_top v_is_bot Vwf).
Notation at_ := (s_at V vtop vbot).
Notation nt := (ntop V vtop v_is_top).

Theorem C19_env_top_bottom :
  ok sep_top /\ ok sep_bottom /\ (forall k, at_ sep_top k = vtop) /\ (forall k, at_ sep_bottom k = vbot).
Proof.
  exact (conj (sep_ok_top V v_is_top v_is_bot Vwf)
        (conj (sep_ok_bottom V v_is_top v_is_bot Vwf)
        (conj (at_top V vtop vbot) (at_bottom V vtop vbot)))).
Qed.

Theorem C19_env_set : forall a k v,
  ok a -> Vwf v ->
  ok (s_set V v_is_top v_is_bot veq a k v) /\
  sbot (s_set V v_is_top v_is_bot veq a k v) = sbot a || v_is_bot v /\
  (sbot a || v_is_bot v = false ->
   forall k', at_ (s_set V v_is_top v_is_bot veq a k v) k' = if k' =? k then nt v else at_ a k').
Proof. exact (set_spec V vtop vbot v_is_top v_is_bot veq Vwf veq_good). Qed.

Theorem C19_env_forget : forall a k,
  ok a ->
  ok (s_forget V a k) /\ sbot (s_forget V a k) = sbot a /\
  (sbot a = false -> forall k', at_ (s_forget V a k) k' = if k' =? k then vtop else at_ a k').
Proof. exact (forget_spec V vtop vbot v_is_top v_is_bot Vwf). Qed.

Theorem C19_env_is_top : forall a,
  ok a -> (s_is_top a = true <-> sbot a = false /\ forall k, v_is_top (at_ a k) = true).
Proof. exact (is_top_spec V vtop vbot v_is_top v_is_bot Vwf top_is_top). Qed.

Theorem C19_env_iteration : forall a,
  ok a -> sbot a = false ->
  exists l, s_elements a = Some l /\ StronglySorted key_lt l /\
            forall k v, In (k, v) l <-> (at_ a k = v /\ v_is_top v = false).
Proof. exact (elements_spec V vtop vbot v_is_top v_is_bot Vwf top_is_top top_not_bot bot_is_bot). Qed.

Theorem C19_env_size : forall a,
  ok a ->
  s_size a = if sbot a then Some 0 else if s_is_top a then None
             else Some (N.of_nat (length (pelements (stree a)))).
Proof. exact (size_spec V v_is_top v_is_bot Vwf). Qed.

Theorem C19_env_project : forall a keys,
  ok a ->
  ok (s_project V vtop vbot v_is_top v_is_bot veq a keys) /\
  sbot (s_project V vtop vbot v_is_top v_is_bot veq a keys) = sbot a /\
  (sbot a = false ->
   forall k, at_ (s_project V vtop vbot v_is_top v_is_bot veq a keys) k =
             if mem_keys k keys then at_ a k else vtop).
Proof.
  exact (project_spec V vtop vbot v_is_top v_is_bot veq Vwf Vwf_top top_is_top top_not_bot veq_good).
Qed.

(* rename under its documented precondition: distinct fresh targets, disjoint from the
   sources *)
Theorem C19_env_rename : forall a from to r,
  ok a -> s_rename V v_is_top veq a from to = Some r ->
  NoDup from -> NoDup to -> (forall x, In x to -> ~ In x from) ->
  (sbot a = false -> forall x, In x to -> v_is_top (at_ a x) = true) ->
  ok r /\ sbot r = sbot a /\
  (sbot a = false ->
   forall k, at_ r k = match rn_src (combine from to) k with
                       | Some f => at_ a f
                       | None => if mem_keys k from then vtop else at_ a k
                       end).
Proof. exact (rename_spec V vtop vbot v_is_top v_is_bot veq Vwf veq_good). Qed.

Section Order.
Hypothesis leq_top_top : vleq vtop vtop = true.
Hypothesis leq_good_top : forall x, good V v_is_top v_is_bot Vwf x -> vleq x vtop = true.
Hypothesis leq_top_good : forall y, good V v_is_top v_is_bot Vwf y -> vleq vtop y = false.

(* the inclusion test holds exactly when it holds pointwise *)
Theorem C19_env_leq : forall a b,
  ok a -> ok b ->
  (s_leq V vleq a b = true <->
   sbot a = true \/ (sbot b = false /\ forall k, vleq (at_ a k) (at_ b k) = true)).
Proof.
  exact (leq_spec V vtop vbot v_is_top v_is_bot vleq Vwf leq_top_top leq_good_top leq_top_good).
Qed.
End Order.

Section JoinLike.      (* | , || , widening_thresholds and join(k,v) *)
Variable f : V -> V -> V.
Hypothesis f_wf : forall x y, Vwf x -> Vwf y -> Vwf (f x y).
Hypothesis f_not_bot : forall x y, v_is_bot x = false -> v_is_bot y = false -> v_is_bot (f x y) = false.
Hypothesis f_top_l : forall x y, Vwf x -> Vwf y -> v_is_top x = true -> v_is_top (f x y) = true.
Hypothesis f_top_r : forall x y, Vwf x -> Vwf y -> v_is_top y = true -> v_is_top (f x y) = true.

Theorem C19_env_join_like : forall a b,
  ok a -> ok b ->
  ok (s_lub V v_is_top veq f a b) /\
  (sbot a = true -> s_lub V v_is_top veq f a b = b) /\
  (sbot a = false -> sbot b = true -> s_lub V v_is_top veq f a b = a) /\
  (sbot a = false -> sbot b = false ->
   sbot (s_lub V v_is_top veq f a b) = false /\
   forall k, at_ (s_lub V v_is_top veq f a b) k = nt (f (at_ a k) (at_ b k))).
Proof.
  exact (lub_spec V vtop vbot v_is_top v_is_bot veq Vwf Vwf_top top_is_top veq_good f
                  f_wf f_not_bot f_top_l f_top_r).
Qed.

Theorem C19_env_join_kv : forall a k v,
  ok a -> Vwf v ->
  ok (s_join_kv V v_is_top v_is_bot veq f a k v) /\
  sbot (s_join_kv V v_is_top v_is_bot veq f a k v) = sbot a || v_is_bot v /\
  (sbot a || v_is_bot v = false ->
   forall k', at_ (s_join_kv V v_is_top v_is_bot veq f a k v) k' =
              if k' =? k then nt (f (at_ a k) v) else at_ a k').
Proof.
  exact (join_kv_spec V vtop vbot v_is_top v_is_bot veq Vwf Vwf_top top_is_top veq_good f
                      f_wf f_not_bot f_top_l f_top_r).
Qed.
End JoinLike.

Section MeetLike.      (* & , && *)
Variable g : V -> V -> V.
Hypothesis g_wf : forall x y, Vwf x -> Vwf y -> Vwf (g x y).
Hypothesis g_top_r : forall x, good V v_is_top v_is_bot Vwf x -> g x vtop = x.
Hypothesis g_top_l : forall y, good V v_is_top v_is_bot Vwf y -> g vtop y = y.
Hypothesis g_top_top : g vtop vtop = vtop.
Hypothesis g_not_top :
  forall x y, good V v_is_top v_is_bot Vwf x -> good V v_is_top v_is_bot Vwf y ->
              v_is_bot (g x y) = false -> v_is_top (g x y) = false.

Theorem C19_env_meet_like : forall a b,
  ok a -> ok b ->
  ok (s_glb V v_is_bot veq g a b) /\
  (sbot a = true \/ sbot b = true -> sbot (s_glb V v_is_bot veq g a b) = true) /\
  (sbot a = false -> sbot b = false ->
   (sbot (s_glb V v_is_bot veq g a b) = true <->
    exists k, v_is_bot (g (at_ a k) (at_ b k)) = true) /\
   (sbot (s_glb V v_is_bot veq g a b) = false ->
    forall k, at_ (s_glb V v_is_bot veq g a b) k = g (at_ a k) (at_ b k))).
Proof.
  exact (glb_spec V vtop vbot v_is_top v_is_bot veq Vwf top_not_bot veq_good g
                  g_wf g_top_r g_top_l g_top_top g_not_top).
Qed.
End MeetLike.
End Environments.

(* the interval instance: the hypotheses of section Environments are satisfiable with
   Value = interval<z_number> *)

Theorem C19_itv_set : forall a k v,
  ie_ok a -> iwf v ->
  ie_ok (ie_set a k v) /\ sbot (ie_set a k v) = sbot a || is_bot v /\
  (sbot a || is_bot v = false ->
   forall k', ie_at (ie_set a k v) k' = if k' =? k then v else ie_at a k').
Proof. exact ie_set_spec. Qed.

Theorem C19_itv_join_kv : forall a k v,
  ie_ok a -> iwf v ->
  ie_ok (ie_join_kv a k v) /\ sbot (ie_join_kv a k v) = sbot a || is_bot v /\
  (sbot a || is_bot v = false ->
   forall k', ie_at (ie_join_kv a k v) k' = if k' =? k then ijoin (ie_at a k) v else ie_at a k').
Proof. exact ie_join_kv_spec. Qed.

Theorem C19_itv_join : forall a b,
  ie_ok a -> ie_ok b ->
  ie_ok (ie_join a b) /\ (sbot a = true -> ie_join a b = b) /\
  (sbot a = false -> sbot b = true -> ie_join a b = a) /\
  (sbot a = false -> sbot b = false ->
   sbot (ie_join a b) = false /\ forall k, ie_at (ie_join a b) k = ijoin (ie_at a k) (ie_at b k)).
Proof. exact ie_join_spec. Qed.

Theorem C19_itv_widen : forall a b,
  ie_ok a -> ie_ok b ->
  ie_ok (ie_widen a b) /\ (sbot a = true -> ie_widen a b = b) /\
  (sbot a = false -> sbot b = true -> ie_widen a b = a) /\
  (sbot a = false -> sbot b = false ->
   sbot (ie_widen a b) = false /\ forall k, ie_at (ie_widen a b) k = iwiden (ie_at a k) (ie_at b k)).
Proof. exact ie_widen_spec. Qed.

Theorem C19_itv_widen_thresholds : forall ts a b,
  ie_ok a -> ie_ok b ->
  ie_ok (ie_widen_thr ts a b) /\ (sbot a = true -> ie_widen_thr ts a b = b) /\
  (sbot a = false -> sbot b = true -> ie_widen_thr ts a b = a) /\
  (sbot a = false -> sbot b = false ->
   sbot (ie_widen_thr ts a b) = false /\
   forall k, ie_at (ie_widen_thr ts a b) k =
             iwiden_thr (thr_prev ts) (thr_next ts) (ie_at a k) (ie_at b k)).
Proof. exact ie_widen_thr_spec. Qed.

Theorem C19_itv_meet : forall a b,
  ie_ok a -> ie_ok b ->
  ie_ok (ie_meet a b) /\ (sbot a = true \/ sbot b = true -> sbot (ie_meet a b) = true) /\
  (sbot a = false -> sbot b = false ->
   (sbot (ie_meet a b) = true <-> exists k, is_bot (imeet (ie_at a k) (ie_at b k)) = true) /\
   (sbot (ie_meet a b) = false -> forall k, ie_at (ie_meet a b) k = imeet (ie_at a k) (ie_at b k))).
Proof. exact ie_meet_spec. Qed.

Theorem C19_itv_narrow : forall a b,
  ie_ok a -> ie_ok b ->
  ie_ok (ie_narrow a b) /\ (sbot a = true \/ sbot b = true -> sbot (ie_narrow a b) = true) /\
  (sbot a = false -> sbot b = false ->
   (sbot (ie_narrow a b) = true <-> exists k, is_bot (inarrow (ie_at a k) (ie_at b k)) = true) /\
   (sbot (ie_narrow a b) = false -> forall k, ie_at (ie_narrow a b) k = inarrow (ie_at a k) (ie_at b k))).
Proof. exact ie_narrow_spec. Qed.

Theorem C19_itv_leq : forall a b,
  ie_ok a -> ie_ok b ->
  (ie_leq a b = true <->
   sbot a = true \/ (sbot b = false /\ forall k, ileq (ie_at a k) (ie_at b k) = true)).
Proof. exact ie_leq_spec. Qed.

Theorem C19_itv_is_top : forall a,
  ie_ok a -> (s_is_top a = true <-> sbot a = false /\ forall k, ie_at a k = itop).
Proof. exact ie_is_top_spec. Qed.

Theorem C19_itv_iteration : forall a,
  ie_ok a -> sbot a = false ->
  exists l, s_elements a = Some l /\ StronglySorted key_lt l /\
            forall k v, In (k, v) l <-> (ie_at a k = v /\ is_top v = false).
Proof. exact ie_elements_spec. Qed.

Theorem C19_itv_project : forall a keys,
  ie_ok a ->
  ie_ok (ie_project a keys) /\ sbot (ie_project a keys) = sbot a /\
  (sbot a = false ->
   forall k, ie_at (ie_project a keys) k = if mem_keys k keys then ie_at a k else itop).
Proof. exact ie_project_spec. Qed.

Theorem C19_itv_rename : forall a from to r,
  ie_ok a -> ie_rename a from to = Some r ->
  NoDup from -> NoDup to -> (forall x, In x to -> ~ In x from) ->
  (sbot a = false -> forall x, In x to -> is_top (ie_at a x) = true) ->
  ie_ok r /\ sbot r = sbot a /\
  (sbot a = false ->
   forall k, ie_at r k = match rn_src (combine from to) k with
                         | Some f => ie_at a f
                         | None => if mem_keys k from then itop else ie_at a k
                         end).
Proof. exact ie_rename_spec. Qed.

(* any sequence of operations: every environment reachable from top / bottom by set, forget,
   join(k,v), join, meet, widening (with or without thresholds), narrowing, project and
   rename (under its precondition) satisfies the invariant under which the equations
   above hold *)
Theorem C19_itv_any_history : forall a, ie_reach a -> ie_ok a.
Proof. exact ie_reach_ok. Qed.

(* a non-trivial value satisfying the invariant (keys 1 and 2^63) *)
Theorem C19_itv_example : ie_ok ex_a /\ sbot ex_a = false /\ s_size ex_a = Some 2.
Proof. exact ex_a_ok. Qed.

Theorem C19_set_add : forall s k,
  ps_ok s -> ps_ok (ps_add s k) /\ forall k', ps_mem (ps_add s k) k' = (k' =? k) || ps_mem s k'.
Proof. exact ps_add_spec. Qed.

Theorem C19_set_remove : forall s k,
  ps_ok s ->
  ps_ok (ps_remove s k) /\ forall k', ps_mem (ps_remove s k) k' = negb (k' =? k) && ps_mem s k'.
Proof. exact ps_remove_spec. Qed.

Theorem C19_set_union : forall a b,
  ps_ok a -> ps_ok b ->
  ps_ok (ps_union a b) /\ forall k, ps_mem (ps_union a b) k = ps_mem a k || ps_mem b k.
Proof. exact ps_union_spec. Qed.

Theorem C19_set_intersection : forall a b,
  ps_ok a -> ps_ok b ->
  ps_ok (ps_inter a b) /\ forall k, ps_mem (ps_inter a b) k = ps_mem a k && ps_mem b k.
Proof. exact ps_inter_spec. Qed.

Theorem C19_set_subset : forall a b,
  ps_ok a -> ps_ok b ->
  (ps_leq a b = true <-> forall k, ps_mem a k = true -> ps_mem b k = true).
Proof. exact ps_leq_spec. Qed.

Theorem C19_set_equal : forall a b,
  ps_ok a -> ps_ok b -> (ps_eq a b = true <-> forall k, ps_mem a k = ps_mem b k).
Proof. exact ps_eq_spec. Qed.

Theorem C19_set_iteration : forall s,
  ps_ok s ->
  StronglySorted N.lt (ps_elements s) /\ (forall k, In k (ps_elements s) <-> ps_mem s k = true) /\
  ps_size s = N.of_nat (length (ps_elements s)).
Proof. exact ps_elements_spec. Qed.

Theorem C19_dset_membership : forall d k, dd_ok d -> dd_contain d k = dd_mem d k.
Proof. exact dd_contain_spec. Qed.

Theorem C19_dset_union : forall a b,
  dd_ok a -> dd_ok b ->
  dd_ok (dd_join a b) /\ forall k, dd_mem (dd_join a b) k = dd_mem a k || dd_mem b k.
Proof. exact dd_join_spec. Qed.

Theorem C19_dset_intersection : forall a b,
  dd_ok a -> dd_ok b ->
  dd_ok (dd_meet a b) /\ forall k, dd_mem (dd_meet a b) k = dd_mem a k && dd_mem b k.
Proof. exact dd_meet_spec. Qed.

Theorem C19_dset_difference : forall a b,
  dd_ok a -> dd_ok b -> dtop a = false -> dtop b = false ->
  dd_ok (dd_diff a b) /\ forall k, dd_mem (dd_diff a b) k = dd_mem a k && negb (dd_mem b k).
Proof. exact dd_diff_spec. Qed.

Theorem C19_dset_add : forall d k,
  dd_ok d -> dd_ok (dd_add d k) /\ forall k', dd_mem (dd_add d k) k' = (k' =? k) || dd_mem d k'.
Proof. exact dd_add_spec. Qed.

Theorem C19_dset_remove : forall d k,
  dd_ok d ->
  dd_ok (dd_remove d k) /\
  forall k', dd_mem (dd_remove d k) k' = dtop d || (negb (k' =? k) && dd_mem d k').
Proof. exact dd_remove_spec. Qed.

Theorem C19_dset_subset : forall a b,
  dd_ok a -> dd_ok b ->
  (dd_leq a b = true <->
   dtop b = true \/ (dtop a = false /\ forall k, dd_mem a k = true -> dd_mem b k = true)).
Proof. exact dd_leq_spec. Qed.

Theorem C19_dset_equal : forall a b,
  dd_ok a -> dd_ok b ->
  (dd_eq a b = true <->
   (dtop a = true /\ dtop b = true) \/
   (dtop a = false /\ dtop b = false /\ forall k, dd_mem a k = dd_mem b k)).
Proof. exact dd_eq_spec. Qed.

Theorem C19_dset_size : forall d,
  dd_ok d -> dd_size d = if dtop d then None else Some (N.of_nat (length (ps_elements (dset d)))).
Proof. exact dd_size_spec. Qed.

Theorem C19_set_any_history : forall s, ps_reach s -> ps_ok s.
Proof. exact ps_reach_ok. Qed.

Theorem C19_dset_any_history : forall d, dd_reach d -> dd_ok d.
Proof. exact dd_reach_ok. Qed.

Theorem C19_set_example :
  ps_ok (ps_add (ps_add ps_empty 3) (2 ^ 63)) /\ ps_size (ps_add (ps_add ps_empty 3) (2 ^ 63)) = 2.
Proof. exact ps_example. Qed.

(* tree::compare before fixes/patricia-1.diff *)
Theorem C19_compare_before_fix_refuted :
  exists a b, ie_ok a /\ ie_ok b /\ sbot a = false /\ sbot b = false /\
              ie_leq_orig a b = true /\ ie_leq_orig b a = true /\
              exists k, ileq (ie_at a k) (ie_at b k) = false.
Proof. exact ie_leq_orig_refuted. Qed.

(* separate_domain::join(k,v) before fixes/patricia-2.diff *)
Theorem C19_join_kv_before_fix_refuted :
  exists a k v, ie_ok a /\ iwf v /\ is_bot v = false /\ ~ ie_ok (ie_join_kv_orig a k v).
Proof. exact ie_join_kv_orig_refuted. Qed.

(* discrete_domain::operator== before fixes/patricia-3.diff *)
Theorem C19_dset_equal_before_fix_refuted :
  exists a b, dd_ok a /\ dd_ok b /\ dd_eq_orig a b = true /\ dd_mem a 0 <> dd_mem b 0.
Proof. exact dd_eq_orig_refuted. Qed.

Print Assumptions C19_tree_lookup.
Print Assumptions C19_tree_insert.
Print Assumptions C19_tree_insert_replace.
Print Assumptions C19_tree_remove.
Print Assumptions C19_tree_transform.
Print Assumptions C19_tree_merge.
Print Assumptions C19_tree_merge_shortcut.
Print Assumptions C19_tree_compare.
Print Assumptions C19_tree_compare_shortcut.
Print Assumptions C19_tree_iteration_exact.
Print Assumptions C19_tree_iteration_sorted.
Print Assumptions C19_tree_size.
Print Assumptions C19_highest_bit_loop.
Print Assumptions C19_branching_bit.
Print Assumptions C19_env_top_bottom.
Print Assumptions C19_env_set.
Print Assumptions C19_env_forget.
Print Assumptions C19_env_is_top.
Print Assumptions C19_env_iteration.
Print Assumptions C19_env_size.
Print Assumptions C19_env_project.
Print Assumptions C19_env_rename.
Print Assumptions C19_env_leq.
Print Assumptions C19_env_join_like.
Print Assumptions C19_env_join_kv.
Print Assumptions C19_env_meet_like.
Print Assumptions C19_itv_set.
Print Assumptions C19_itv_join_kv.
Print Assumptions C19_itv_join.
Print Assumptions C19_itv_widen.
Print Assumptions C19_itv_widen_thresholds.
Print Assumptions C19_itv_meet.
Print Assumptions C19_itv_narrow.
Print Assumptions C19_itv_leq.
Print Assumptions C19_itv_is_top.
Print Assumptions C19_itv_iteration.
Print Assumptions C19_itv_project.
Print Assumptions C19_itv_rename.
Print Assumptions C19_itv_any_history.
Print Assumptions C19_itv_example.
Print Assumptions C19_set_add.
Print Assumptions C19_set_remove.
Print Assumptions C19_set_union.
Print Assumptions C19_set_intersection.
Print Assumptions C19_set_subset.
Print Assumptions C19_set_equal.
Print Assumptions C19_set_iteration.
Print Assumptions C19_dset_membership.
Print Assumptions C19_dset_union.
Print Assumptions C19_dset_intersection.
Print Assumptions C19_dset_difference.
Print Assumptions C19_dset_add.
Print Assumptions C19_dset_remove.
Print Assumptions C19_dset_subset.
Print Assumptions C19_dset_equal.
Print Assumptions C19_dset_size.
Print Assumptions C19_set_any_history.
Print Assumptions C19_dset_any_history.
Print Assumptions C19_set_example.
Print Assumptions C19_compare_before_fix_refuted.
Print Assumptions C19_join_kv_before_fix_refuted.
Print Assumptions C19_dset_equal_before_fix_refuted.
