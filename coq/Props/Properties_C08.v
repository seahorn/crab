(* Property C08 — scalar value abstractions are sound, interval arithmetic is tight.
   This file contains statements only; every proof is a reference to a lemma of the
   development.  Model: Scalar/Itv.v (mirror of ikos::interval<z_number>). *)
From Coq Require Import ZArith.
From CrabV Require Import Base.ZInf Scalar.Itv Scalar.ItvSound Scalar.ItvTight.
Local Open Scope Z_scope.

Theorem C08_itv_add_sound : forall a b x y, gamma a x -> gamma b y -> gamma (iadd a b) (x + y).
Proof. exact iadd_sound. Qed.
Theorem C08_itv_sub_sound : forall a b x y, gamma a x -> gamma b y -> gamma (isub a b) (x - y).
Proof. exact isub_sound. Qed.
Theorem C08_itv_neg_sound : forall a x, gamma a x -> gamma (ineg a) (- x).
Proof. exact ineg_sound. Qed.
Theorem C08_itv_mul_sound : forall a b x y, gamma a x -> gamma b y -> gamma (imul a b) (x * y).
Proof. exact imul_sound. Qed.
Theorem C08_itv_sdiv_sound :
  forall a b x y, gamma a x -> gamma b y -> y <> 0 -> gamma (idiv a b) (Z.quot x y).
Proof. exact idiv_sound. Qed.
Theorem C08_itv_srem_sound :
  forall a b x y, gamma a x -> gamma b y -> y <> 0 -> gamma (isrem a b) (Z.rem x y).
Proof. exact isrem_sound. Qed.
Theorem C08_itv_urem_sound :
  forall a b x x' y, gamma a x -> gamma b y -> 0 < y -> 0 <= x' -> (x' = x \/ x < 0) ->
  gamma (iurem a b) (Z.rem x' y).
Proof. exact iurem_sound. Qed.
Theorem C08_itv_udiv_sound : forall a b x y z, gamma a x -> gamma b y -> gamma (iudiv a b) z.
Proof. exact iudiv_sound. Qed.
Theorem C08_itv_and_sound : forall a b x y, gamma a x -> gamma b y -> gamma (iand a b) (Z.land x y).
Proof. exact iand_sound. Qed.
Theorem C08_itv_or_sound : forall a b x y, gamma a x -> gamma b y -> gamma (ior a b) (Z.lor x y).
Proof. exact ior_sound. Qed.
Theorem C08_itv_xor_sound : forall a b x y, gamma a x -> gamma b y -> gamma (ixor a b) (Z.lxor x y).
Proof. exact ixor_sound. Qed.
Theorem C08_itv_shl_sound :
  forall a b x k, gamma a x -> gamma b k -> 0 <= k -> gamma (ishl a b) (Z.shiftl x k).
Proof. exact ishl_sound. Qed.
Theorem C08_itv_ashr_sound :
  forall a b x k, gamma a x -> gamma b k -> 0 <= k -> gamma (iashr a b) (Z.shiftr x k).
Proof. exact iashr_sound. Qed.
Theorem C08_itv_lshr_sound :
  forall a b x k, gamma a x -> gamma b k -> 0 <= k ->
  forall r, (0 <= x -> r = Z.shiftr x k) -> gamma (ilshr a b) r.
Proof. exact ilshr_sound. Qed.

Theorem C08_itv_join_sound : forall a b x, gamma a x \/ gamma b x -> gamma (ijoin a b) x.
Proof. intros a b x [H|H]; [apply ijoin_sound_l | apply ijoin_sound_r]; exact H. Qed.
Theorem C08_itv_meet_exact : forall a b x, gamma (imeet a b) x <-> (gamma a x /\ gamma b x).
Proof. exact imeet_exact. Qed.
Theorem C08_itv_widen_sound : forall a b x, gamma a x \/ gamma b x -> gamma (iwiden a b) x.
Proof. exact iwiden_sound. Qed.
Theorem C08_itv_widen_thresholds_sound :
  forall gp gn a b, (forall v, ble (gp v) v = true) -> (forall v, ble v (gn v) = true) ->
  forall x, gamma a x \/ gamma b x -> gamma (iwiden_thr gp gn a b) x.
Proof. exact iwiden_thr_sound. Qed.
Theorem C08_itv_narrow_sound : forall a b x, gamma a x -> gamma b x -> gamma (inarrow a b) x.
Proof. exact inarrow_sound. Qed.
Theorem C08_itv_leq_sound : forall a b, ileq a b = true -> forall x, gamma a x -> gamma b x.
Proof. exact ileq_sound. Qed.
Theorem C08_itv_leq_complete :
  forall a b, wf a -> (forall x, gamma a x -> gamma b x) -> ileq a b = true.
Proof. exact ileq_complete. Qed.
Theorem C08_itv_eq_sound : forall a b, ieq a b = true -> forall x, gamma a x <-> gamma b x.
Proof. exact ieq_sound. Qed.
Theorem C08_itv_mem_exact : forall a n, imem a n = true <-> gamma a n.
Proof. exact imem_spec. Qed.
Theorem C08_itv_singleton_exact : forall a n, isingleton a = Some n -> forall x, gamma a x <-> x = n.
Proof. exact isingleton_spec. Qed.
Theorem C08_itv_trim_sound :
  forall i j x c, gamma i x -> isingleton j = Some c -> x <> c -> gamma (itrim i j) x.
Proof. exact itrim_sound. Qed.

(* Tightness: the result is below every interval that contains all concrete results. *)
Theorem C08_itv_add_tight : forall a b i, wf a -> wf b ->
  (forall x y, gamma a x -> gamma b y -> gamma i (x + y)) -> ileq (iadd a b) i = true.
Proof. exact iadd_tight. Qed.
Theorem C08_itv_sub_tight : forall a b i, wf a -> wf b ->
  (forall x y, gamma a x -> gamma b y -> gamma i (x - y)) -> ileq (isub a b) i = true.
Proof. exact isub_tight. Qed.
Theorem C08_itv_neg_tight : forall a i, wf a ->
  (forall x, gamma a x -> gamma i (- x)) -> ileq (ineg a) i = true.
Proof. exact ineg_tight. Qed.
Theorem C08_itv_mul_tight : forall a b i, wf a -> wf b ->
  (forall x y, gamma a x -> gamma b y -> gamma i (x * y)) -> ileq (imul a b) i = true.
Proof. exact imul_tight. Qed.
Theorem C08_itv_join_tight : forall a b i, wf a -> wf b ->
  (forall x, gamma a x \/ gamma b x -> gamma i x) -> ileq (ijoin a b) i = true.
Proof. exact ijoin_tight. Qed.
Theorem C08_itv_meet_tight : forall a b i, wf a -> wf b ->
  (forall x, gamma a x -> gamma b x -> gamma i x) -> ileq (imeet a b) i = true.
Proof. exact imeet_tight. Qed.
(* well-formedness, the representation invariant the tightness theorems assume, is preserved
   by + - unary- | & (the constructors: wf_bot, wf_top, wf_iconst, wf_imk in ItvSound.v).
   Nothing is stated for *, so a product cannot be fed to another tightness theorem. *)
Theorem C08_itv_wf_preserved : forall a b, wf a -> wf b ->
  wf (iadd a b) /\ wf (isub a b) /\ wf (ineg a) /\ wf (ijoin a b) /\ wf (imeet a b).
Proof. intros a b Wa Wb. repeat split; [apply wf_iadd|apply wf_isub|apply wf_ineg|apply wf_ijoin|apply wf_imeet]; assumption. Qed.


Print Assumptions C08_itv_add_sound.
Print Assumptions C08_itv_sub_sound.
Print Assumptions C08_itv_neg_sound.
Print Assumptions C08_itv_mul_sound.
Print Assumptions C08_itv_sdiv_sound.
Print Assumptions C08_itv_srem_sound.
Print Assumptions C08_itv_urem_sound.
Print Assumptions C08_itv_udiv_sound.
Print Assumptions C08_itv_and_sound.
Print Assumptions C08_itv_or_sound.
Print Assumptions C08_itv_xor_sound.
Print Assumptions C08_itv_shl_sound.
Print Assumptions C08_itv_ashr_sound.
Print Assumptions C08_itv_lshr_sound.
Print Assumptions C08_itv_join_sound.
Print Assumptions C08_itv_meet_exact.
Print Assumptions C08_itv_widen_sound.
Print Assumptions C08_itv_widen_thresholds_sound.
Print Assumptions C08_itv_narrow_sound.
Print Assumptions C08_itv_leq_sound.
Print Assumptions C08_itv_leq_complete.
Print Assumptions C08_itv_eq_sound.
Print Assumptions C08_itv_mem_exact.
Print Assumptions C08_itv_singleton_exact.
Print Assumptions C08_itv_trim_sound.
Print Assumptions C08_itv_add_tight.
Print Assumptions C08_itv_sub_tight.
Print Assumptions C08_itv_neg_tight.
Print Assumptions C08_itv_mul_tight.
Print Assumptions C08_itv_join_tight.
Print Assumptions C08_itv_meet_tight.
Print Assumptions C08_itv_wf_preserved.
