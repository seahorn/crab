(* Property C15, extension — unknown regions and region_cast, the offset / size ghost variables of
   region.is_dereferenceable, int_to_ref / ref_to_int.

   Model: Dom/RegionCore2.v (mirror of region_domain.hpp + region/ghost_variables.hpp +
   region/ghost_variable_manager.hpp over the interval domain, with fixes/regions-1..9 applied;
   differential testing: stream model2-itvx of checks/C15.py).  Concrete semantics and proofs:
   Dom/RegionCore2Sound.v.  Statements only.

   All theorems are PARTIAL: the history theorem covers ref_make (with size), ref_free, ref_load
   (typed and unknown regions, tracked or not), ref_gep (with offsets), ref_assume (with the offset
   and size constraints), int_to_ref, ref_to_int, operator-= on integers and references, the
   is_dereferenceable intrinsic, assign / arithmetic / assume, top / bottom / copies, for every
   setting of the parameters.  Mirrored and tested but not in the theorem: ref_store (its base-domain
   part and everything but the base domain are proved separately: the C15x_store theorems), region_init,
   region_copy, region_cast, operator-= on regions, forget, project, add_tag, select_ref and the
   lattice operations on the extended state (for typed regions without offsets these are covered by
   Properties_C15.v; ref_store as a whole, region_init, join and widening on the extended state:
   Properties_C15_ext2.v).  Meet and narrowing with unknown regions are refuted (known finding). *)
From Coq Require Import ZArith NArith List Bool.
From CrabV Require Import Base.ZInf Scalar.Itv Scalar.ItvSound Scalar.SmallRange Scalar.Boolean Ir.Syntax
     Dom.ItvEnv Dom.ItvEnvSound Dom.ItvSolverSound Dom.ItvDomain Dom.RegionCore Dom.RegionCoreSound
     Dom.RegionCore2 Dom.RegionCore2Sound.
Import ListNotations.
Local Open Scope Z_scope.

(* [naming_ok C prog]: the ghost names (.address / .offset / .size / dup) are outside the program,
   injective and pairwise disjoint (Dom/RegionCore2Sound.v) *)

(* After ANY admissible history of the covered operations every register describes every concrete
   state produced by the corresponding concrete operations. *)
Theorem C15x_history_sound_partial :
  forall C prog, naming_ok C prog -> forall h, Forall (op_ok2 C prog) h -> forall rs cs rs',
  rels2 C prog rs cs -> prun C rs h = Some rs' -> rels2 C prog rs' (fold_left (cstepS2 C) h cs).
Proof. intros C prog. with_naming region2_history_sound. Qed.

(* loads: typed and unknown regions, every parameter setting *)
Theorem C15x_load_sound_partial :
  forall C prog, naming_ok C prog -> forall a c c' w r x p g,
  rel2 C prog a c w -> agree C w c -> is_ref_var C prog p -> prog x = true ->
  vk_is_rgn (k_kind C g) = true ->
  (k_kind C g = VRgnInt -> k_kind C x = VInt) -> (k_kind C g = VRgnRef -> k_kind C x = VRef) ->
  cstep2 C (PLd r x p g) c c' -> relv2 C prog (u_load C x p g a) c'.
Proof. intros C prog. with_naming u_load_sound. Qed.

(* definite null / non-null answers *)
Theorem C15x_null_answers_sound_partial :
  forall C prog, naming_ok C prog -> forall rs cs r c p, rels2 C prog rs cs -> cgetS cs r c -> is_ref_var C prog p ->
  (o_null C (wget rs r) p = BTrue -> m_st c (ga C p) = 0) /\
  (o_null C (wget rs r) p = BFalse -> m_st c (ga C p) <> 0).
Proof. exact nm_null. Qed.

(* the offset and size ghost variables contain the ghost offset and size of the reference *)
Theorem C15x_offset_size_sound_partial :
  forall C prog, naming_ok C prog -> forall rs cs r c p io iz, rels2 C prog rs cs -> cgetS cs r c -> is_ref_var C prog p ->
  o_offsize C (wget rs r) p = Some (io, iz) -> gamma io (m_st c (go C p)) /\ gamma iz (m_st c (gz C p)).
Proof. exact nm_offsize. Qed.

(* a positive is_dereferenceable answer: size - offset - sz < 0 is impossible *)
Theorem C15x_is_dereferenceable_sound_partial :
  forall C prog, naming_ok C prog -> forall rs cs r c p e, rels2 C prog rs cs -> cgetS cs r c -> is_ref_var C prog p ->
  scalar_exp C e -> wf_le e -> o_deref C (wget rs r) p e = Some (Some true) ->
  forall w, (forall v, ~ rgn_name C v -> w v = m_st c v) -> ~ eval_le e w < 0.
Proof. intros C prog. with_naming o_deref_sound. Qed.

(* allocation sites of references *)
Theorem C15x_allocation_sites_sound_partial :
  forall C prog, naming_ok C prog -> forall rs cs r c p ss, rels2 C prog rs cs -> cgetS cs r c -> is_ref_var C prog p ->
  o_sites (wget rs r) p = Some ss ->
  m_st c (ga C p) = 0 \/ exists site, m_asite c (m_st c (ga C p)) = Some site /\ In site ss.
Proof. exact nm_sites. Qed.

(* ref_store, part 1: the write to the ghost variables of a tracked region (do_mem_write) *)
Theorem C15x_store_base_sound_partial :
  forall C prog, naming_ok C prog -> forall a hp w E g a0 v f strong,
  RBA (allowed (live C a) hp w) E ->
  match v with SVar x true => is_ref_var C prog x | SVar x false => is_int_var C prog x | _ => True end ->
  sval_cell C v w f -> live_ty C (typ a g) (k_kind C g) = Some (sval_rty v) ->
  (strong = true -> forall k y, y <> a0 -> hp g k y = None) ->
  exists w', (forall u, ~ rgn_name C u -> w' u = w u) /\
    RBA (allowed (live C a) (hwrite hp g a0 f) w') (mem_write C a (gv_of C a g) v (negb strong) E).
Proof. intros C prog. with_naming rb_mem_write. Qed.

(* the known finding: the history of checks/C15.py (two registers holding the same memory, one with
   dynamic type region(ref), one with region(int)) ends in bottom *)
Theorem C15x_meet_unknown_types_refuted :
  match prun exm_C [Some s_top; Some s_top; Some s_top] exm_hist with
  | Some [Some x; Some y; None] => true
  | _ => false
  end = true.
Proof. exact meet_unknown_types_refuted. Qed.

(* non-vacuity (vm_compute): make_ref with size 16, gep by 4, is_dereferenceable for 12 / 13 bytes *)
Theorem C15x_example_offsets :
  match prun exd_C [Some s_top] exd_hist with
  | Some [Some s] =>
    (o_offsize exd_C (Some s) 5%N,
     o_deref exd_C (Some s) 5%N (mkLE [(-1, 205%N); (1, 305%N)] (-12)),
     o_deref exd_C (Some s) 5%N (mkLE [(-1, 205%N); (1, 305%N)] (-13)),
     s_alloc s 5%N)
  | _ => (None, None, None, None)
  end = (Some (iconst 4, iconst 16), Some (Some true), Some (Some false), Some [1]).
Proof. exact exd_abstract. Qed.

Print Assumptions C15x_history_sound_partial.
Print Assumptions C15x_load_sound_partial.
Print Assumptions C15x_null_answers_sound_partial.
Print Assumptions C15x_offset_size_sound_partial.
Print Assumptions C15x_is_dereferenceable_sound_partial.
Print Assumptions C15x_allocation_sites_sound_partial.
Print Assumptions C15x_store_base_sound_partial.
Print Assumptions C15x_meet_unknown_types_refuted.
Print Assumptions C15x_example_offsets.
