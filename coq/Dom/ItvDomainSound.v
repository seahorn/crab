(* ItvDomainSound.v — soundness of every operation of the interval-domain model with
   respect to the concrete semantics over mathematical integers (Ir/Syntax.v). *)
From Coq Require Import ZArith NArith List Bool Lia.
From CrabV Require Import Base.ZInf Scalar.Itv Scalar.ItvSound Ir.Syntax Dom.ItvEnv Dom.ItvEnvSound
     Dom.ItvSolver Dom.ItvSolverSound Dom.ItvDomain.
Import ListNotations.
Local Open Scope Z_scope.

Arguments solve : simpl never.
Arguments entail_fn : simpl never.
Arguments d_entails : simpl never.
Arguments lower_disequality : simpl never.
Arguments max_reduction_cycles : simpl never.

Lemma eval_terms_itv_sound ts e s : genv e s -> forall r z,
  gamma r z -> gamma (eval_terms_itv ts e r) (z + eval_terms ts s).
Proof.
  intros G. induction ts as [|[c v] t IH]; simpl; intros r z R.
  - replace (z + 0) with z by lia. auto.
  - replace (z + (c * s v + eval_terms t s)) with ((z + c * s v) + eval_terms t s) by lia.
    apply IH. apply iadd_sound; auto. apply imul_sound.
    + apply gamma_iconst; auto.
    + apply e_at_sound; auto.
Qed.

Lemma d_eval_sound ex e s : genv e s -> gamma (d_eval ex e) (eval_le ex s).
Proof.
  intros G. unfold d_eval, eval_le.
  replace (eval_terms (le_terms ex) s + le_cst ex) with (le_cst ex + eval_terms (le_terms ex) s) by lia.
  apply eval_terms_itv_sound; auto. apply gamma_iconst; auto.
Qed.

Lemma le_get_variable_eval ex v s : le_get_variable ex = Some v -> eval_le ex s = s v.
Proof.
  unfold le_get_variable, eval_le. destruct (le_terms ex) as [|[c w] [|? ?]]; try discriminate.
  destruct ((le_cst ex =? 0) && (c =? 1)) eqn:E; try discriminate.
  apply andb_true_iff in E. destruct E as [E1 E2]. apply Z.eqb_eq in E1, E2.
  intros H; inversion H; subst. cbn [eval_terms]. lia.
Qed.

Theorem d_assign_sound x ex e s : genv e s -> genv (d_assign x ex e) (upd s x (eval_le ex s)).
Proof.
  intros G. unfold d_assign. destruct (le_get_variable ex) as [v|] eqn:E.
  - rewrite (le_get_variable_eval _ _ s E). apply e_set_sound; auto. apply e_at_sound; auto.
  - apply e_set_sound; auto. apply d_eval_sound; auto.
Qed.

Lemma d_weak_value_sound ex e s : genv e s ->
  gamma (match le_get_variable ex with Some v => e_at e v | None => d_eval ex e end) (eval_le ex s).
Proof.
  intros G. destruct (le_get_variable ex) as [v|] eqn:E.
  - rewrite (le_get_variable_eval _ _ s E). apply e_at_sound; auto.
  - apply d_eval_sound; auto.
Qed.

Theorem d_weak_assign_sound x ex e s : genv e s ->
  genv (d_weak_assign x ex e) s /\ genv (d_weak_assign x ex e) (upd s x (eval_le ex s)).
Proof.
  intros G. pose proof (d_weak_value_sound ex e s G) as V.
  unfold d_weak_assign. destruct (le_get_variable ex); split;
    solve [apply e_join_key_sound_keep; auto; eapply gamma_not_bot; eauto
          | apply e_join_key_sound_new; auto].
Qed.

Lemma d_assign_bot x ex : d_assign x ex EBot = EBot.
Proof. unfold d_assign. destruct (le_get_variable ex); reflexivity. Qed.
Lemma d_weak_assign_bot x ex : d_weak_assign x ex EBot = EBot.
Proof. unfold d_weak_assign. destruct (le_get_variable ex); reflexivity. Qed.

Lemma arith_itv_sound op a b x y r :
  gamma a x -> gamma b y -> arith_sem op x y = Some r -> gamma (arith_itv op a b) r.
Proof.
  intros Ga Gb. destruct op; simpl; intros H.
  - inversion H; subst. apply iadd_sound; auto.
  - inversion H; subst. apply isub_sound; auto.
  - inversion H; subst. apply imul_sound; auto.
  - destruct (y =? 0) eqn:E; inversion H; subst. apply idiv_sound; auto. apply Z.eqb_neq; auto.
  - eapply iudiv_sound; eauto.
  - destruct (y =? 0) eqn:E; inversion H; subst. apply isrem_sound; auto. apply Z.eqb_neq; auto.
  - destruct ((0 <=? x) && (0 <? y)) eqn:E; inversion H; subst.
    apply andb_true_iff in E. destruct E as [E1 E2]. apply Z.leb_le in E1. apply Z.ltb_lt in E2.
    apply (iurem_sound a b x x y); auto.
Qed.

Lemma bit_itv_sound op a b x y r :
  gamma a x -> gamma b y -> bit_sem op x y = Some r -> gamma (bit_itv op a b) r.
Proof.
  intros Ga Gb. destruct op; simpl; intros H.
  - inversion H; subst. apply iand_sound; auto.
  - inversion H; subst. apply ior_sound; auto.
  - inversion H; subst. apply ixor_sound; auto.
  - destruct (0 <=? y) eqn:E; inversion H; subst. apply ishl_sound; auto. apply Z.leb_le; auto.
  - destruct ((0 <=? y) && (0 <=? x)) eqn:E; inversion H; subst.
    apply andb_true_iff in E. destruct E as [E1 E2]. apply Z.leb_le in E1, E2.
    eapply ilshr_sound; eauto.
  - destruct (0 <=? y) eqn:E; inversion H; subst. apply iashr_sound; auto. apply Z.leb_le; auto.
Qed.

Definition operand_val (o : operand) (s : store) : Z := match o with OVar v => s v | OCst k => k end.

Lemma operand_itv_sound o e s : genv e s -> gamma (operand_itv o e) (operand_val o s).
Proof. intros G. destruct o; simpl. apply e_at_sound; auto. apply gamma_iconst; auto. Qed.

Theorem d_apply_arith_sound op x y z e s r : genv e s ->
  arith_sem op (s y) (operand_val z s) = Some r -> genv (d_apply_arith op x y z e) (upd s x r).
Proof.
  intros G H. apply e_set_sound; auto.
  eapply arith_itv_sound; eauto. apply e_at_sound; auto. apply operand_itv_sound; auto.
Qed.

Theorem d_apply_bit_sound op x y z e s r : genv e s ->
  bit_sem op (s y) (operand_val z s) = Some r -> genv (d_apply_bit op x y z e) (upd s x r).
Proof.
  intros G H. apply e_set_sound; auto.
  eapply bit_itv_sound; eauto. apply e_at_sound; auto. apply operand_itv_sound; auto.
Qed.


Lemma lc_eqb_refl_kind a b : lc_eqb a b = true -> True. Proof. auto. Qed.

(* the de-duplicated system has exactly the constraints that were added *)
Lemma terms_eqb_eq a : forall b, terms_eqb a b = true -> a = b.
Proof.
  induction a as [|[c v] r IH]; intros [|[c' v'] r']; simpl; try discriminate; auto.
  intros H. apply andb_true_iff in H. destruct H as [H H3]. apply andb_true_iff in H.
  destruct H as [H1 H2]. apply Z.eqb_eq in H1. apply N.eqb_eq in H2. subst. f_equal. auto.
Qed.

Lemma lc_eqb_eq a b : lc_eqb a b = true -> a = b.
Proof.
  destruct a as [ka [ta ca]], b as [kb [tb cb]]. unfold lc_eqb, le_eqb. simpl. intros H.
  apply andb_true_iff in H. destruct H as [H1 H]. apply andb_true_iff in H. destruct H as [H2 H3].
  apply terms_eqb_eq in H2. apply Z.eqb_eq in H3. subst.
  destruct ka, kb; simpl in H1; try discriminate; reflexivity.
Qed.

Lemma sys_add_spec acc c x : In x (sys_add acc c) <-> (In x acc \/ x = c).
Proof.
  unfold sys_add. destruct (existsb (fun c1 => lc_eqb c1 c) acc) eqn:E.
  - split; auto. intros [H|H]; auto. subst x. apply existsb_exists in E. destruct E as [c1 [I Q]].
    apply lc_eqb_eq in Q. subst. auto.
  - rewrite in_app_iff. simpl. split; intros [H|H]; auto. destruct H as [<-|[]]; auto.
Qed.

Lemma fold_sys_add_spec cs : forall acc x,
  In x (fold_left sys_add cs acc) <-> (In x acc \/ In x cs).
Proof.
  induction cs as [|c r IH]; intros acc x; simpl; [tauto|].
  rewrite IH, sys_add_spec. split; intros H; intuition (subst; auto).
Qed.

Theorem d_add0_sound cs e s :
  (forall c, In c cs -> wf_lc c /\ sat c s) -> genv e s -> genv (d_add0 cs e) s.
Proof.
  intros H G. destruct e as [|m]; cbn [d_add0 genv] in *; [tauto|].
  assert (H' : forall c, In c (fold_left sys_add cs []) -> wf_lc c /\ sat c s).
  { intros c I. apply fold_sys_add_spec in I. destruct I as [[]|I]; auto. }
  pose proof (solve_sound _ max_reduction_cycles m s H' G) as S.
  destruct (solve _ _ _); cbn [genv]; auto.
Qed.

Lemma wf_le_neg e : wf_le e -> wf_le (le_neg e).
Proof.
  intros [ND NZ]. unfold le_neg, wf_le; simpl. split.
  - rewrite map_map. simpl. exact ND.
  - intros c v I. apply in_map_iff in I. destruct I as [[c' v'] [E I]]. inversion E; subst.
    specialize (NZ _ _ I). simpl. lia.
Qed.

Lemma wf_lc_negate c : wf_lc c -> wf_lc (lc_negate c).
Proof.
  intros W. unfold lc_negate.
  destruct (lc_is_tautology c); [split; [constructor|intros ? ? []]|].
  destruct (lc_is_contradiction c); [split; [constructor|intros ? ? []]|].
  destruct (lc_kind c); unfold wf_lc; simpl; auto.
  - apply wf_le_neg. exact W.
  - apply wf_le_neg. exact W.
Qed.

Lemma sat_dec c s : sat c s \/ ~ sat c s.
Proof. destruct (satb c s) eqn:E; [left; apply satb_spec; auto|right; intros H; apply satb_spec in H; congruence]. Qed.

Lemma entail_fn_sound val c s : wf_lc c -> entail_fn val c = true -> genv val s -> sat c s.
Proof.
  intros W H G. destruct (sat_dec c s) as [S|N]; auto. exfalso.
  unfold entail_fn in H.
  assert (G' : genv (d_add0 [lc_negate c] val) s).
  { apply d_add0_sound; auto. intros c' [<-|[]]. split. apply wf_lc_negate; auto.
    apply lc_negate_spec; auto. }
  eapply e_is_bot_sound; eauto.
Qed.

Lemma fold_set_at_sound e s : genv e s -> forall vs acc,
  genv acc s -> genv (fold_left (fun acc v => e_set acc v (e_at e v)) vs acc) s.
Proof.
  intros G. induction vs as [|v r IH]; simpl; intros acc A; auto.
  apply IH. apply e_set_same_sound; auto. apply e_at_sound; auto.
Qed.

Theorem d_entails_sound c e s : wf_lc c -> d_entails c e = true -> genv e s -> sat c s.
Proof.
  intros W H G. unfold d_entails in H. rewrite (genv_not_bot _ _ G) in H.
  destruct (lc_is_tautology c) eqn:T; [apply lc_is_tautology_sound; auto|].
  destruct (lc_is_contradiction c) eqn:C; [discriminate|].
  set (val := fold_left _ _ _) in H.
  assert (GV : genv val s) by (apply fold_set_at_sound; auto; apply genv_top).
  destruct (lc_kind c) eqn:K; try exact (entail_fn_sound val c s W H GV).
  (* an equation is entailed as two inequalities *)
  destruct (entail_fn val {| lc_kind := INEQ; lc_exp := lc_exp c |}) eqn:E1; cbn [negb] in H; [|discriminate].
  pose proof (entail_fn_sound val (mkLC INEQ (lc_exp c)) s W E1 GV) as S1.
  assert (W2 : wf_lc {| lc_kind := INEQ; lc_exp := le_neg (lc_exp c) |}) by (apply wf_le_neg; exact W).
  pose proof (entail_fn_sound val (mkLC INEQ (le_neg (lc_exp c))) s W2 H GV) as S2.
  unfold sat in *. rewrite K. simpl in S1, S2. rewrite eval_le_neg in S2. lia.
Qed.

Lemma wf_le_two a x b y k : x <> y -> a <> 0 -> b <> 0 -> wf_le (mkLE [(a, x); (b, y)] k).
Proof.
  intros N A B. split; simpl.
  - constructor; [intros [E|[]]; auto|constructor; auto; constructor].
  - intros c v [E|[E|[]]]; inversion E; subst; auto.
Qed.

Lemma wf_le_var_minus_var x y : wf_le (le_var_minus_var x y).
Proof.
  unfold le_var_minus_var. destruct (N.ltb_spec x y); [|destruct (N.ltb_spec y x)].
  - apply wf_le_two; lia.
  - apply wf_le_two; lia.
  - split; simpl; [constructor|intros ? ? []].
Qed.

Lemma sys_add_ok (P : lincst -> Prop) out c : (forall x, In x out -> P x) -> P c ->
  forall x, In x (sys_add out c) -> P x.
Proof.
  intros H Hc x I. apply sys_add_spec in I. destruct I as [I| ->]; auto.
Qed.

Lemma lower_disequality_sound e c out s :
  genv e s -> sat c s ->
  (forall x, In x out -> wf_lc x /\ sat x s) ->
  forall x, In x (lower_disequality e c out) -> wf_lc x /\ sat x s.
Proof.
  intros G S H. unfold lower_disequality.
  destruct (lc_kind c) eqn:K; auto.
  destruct (le_terms (lc_exp c)) as [|[nx vx] [|[ny vy] [|? ?]]] eqn:T; auto.
  destruct ((le_cst (lc_exp c) =? 0) && (nx =? - ny)) eqn:E; auto.
  apply andb_true_iff in E. destruct E as [E1 E2]. apply Z.eqb_eq in E1, E2.
  assert (NE : s vx <> s vy).
  { unfold sat in S. rewrite K in S. unfold eval_le in S. rewrite T, E1 in S. simpl in S.
    intros X. apply S. rewrite X, E2. ring. }
  (* x <= y is entailed and x <> y holds, so x < y may be added *)
  assert (LT : forall x y, s x <> s y -> d_entails (mkLC INEQ (le_var_minus_var x y)) e = true ->
               forall z, In z (sys_add out (mkLC STRICT (le_var_minus_var x y))) -> wf_lc z /\ sat z s).
  { intros x y N D. apply sys_add_ok; auto. split; [apply wf_le_var_minus_var|].
    pose proof (d_entails_sound (mkLC INEQ (le_var_minus_var x y)) e s (wf_le_var_minus_var x y) D G) as X.
    unfold sat in *. simpl in *. rewrite eval_var_minus_var in *. lia. }
  destruct (d_entails _ e) eqn:D1; [apply LT; auto|].
  destruct (d_entails {| lc_kind := INEQ; lc_exp := le_var_minus_var vy vx |} e) eqn:D2;
    [apply LT|]; auto.
Qed.

Theorem d_add_sound cs e s :
  (forall c, In c cs -> wf_lc c /\ sat c s) -> genv e s -> genv (d_add cs e) s.
Proof.
  intros H G. destruct e as [|m]; cbn [d_add genv] in *; [tauto|].
  set (step := fun acc c => sys_add (if ckind_eqb (lc_kind c) DISEQ then lower_disequality (EMap m) c acc else acc) c).
  assert (F : forall cs' acc, (forall c, In c cs' -> wf_lc c /\ sat c s) ->
              (forall x, In x acc -> wf_lc x /\ sat x s) ->
              forall x, In x (fold_left step cs' acc) -> wf_lc x /\ sat x s).
  { induction cs' as [|c r IH]; simpl; intros acc Hc Ha x I; auto.
    apply (IH (step acc c)); auto.
    intros y J. unfold step in J.
    apply (sys_add_ok (fun x => wf_lc x /\ sat x s)
             (if ckind_eqb (lc_kind c) DISEQ then lower_disequality (EMap m) c acc else acc) c);
      [| apply Hc; left; auto | exact J].
    intros z Z. destruct (ckind_eqb (lc_kind c) DISEQ).
    - exact (lower_disequality_sound (EMap m) c acc s G (proj2 (Hc c (or_introl eq_refl))) Ha z Z).
    - apply Ha; auto. }
  pose proof (solve_sound (fold_left step cs []) max_reduction_cycles m s
               (F cs [] H (fun x (I : In x []) => match I with end)) G) as S.
  fold step. destruct (solve _ _ _); cbn [genv]; auto.
Qed.

Theorem d_add_bottom_unsat cs e s :
  (forall c, In c cs -> wf_lc c /\ sat c s) -> genv e s -> e_is_bot (d_add cs e) = false.
Proof. intros. eapply genv_not_bot. apply d_add_sound; eauto. Qed.

Theorem d_select_sound lhs c e1 e2 e s : wf_lc c -> genv e s ->
  genv (d_select lhs c e1 e2 e) (upd s lhs (if satb c s then eval_le e1 s else eval_le e2 s)).
Proof.
  intros W G. unfold d_select. rewrite (genv_not_bot _ _ G).
  destruct (satb c s) eqn:SB.
  - apply satb_spec in SB.
    assert (B1 : e_is_bot (d_add [c] e) = false).
    { apply (d_add_bottom_unsat _ _ s); auto. intros c' [<-|[]]; auto. }
    rewrite B1. destruct (e_is_bot (d_add [lc_negate c] e)).
    + apply d_assign_sound; auto.
    + apply e_set_sound; auto. apply ijoin_sound_l. apply d_eval_sound; auto.
  - assert (NS : ~ sat c s) by (intros X; apply satb_spec in X; congruence).
    destruct (e_is_bot (d_add [c] e)); [apply d_assign_sound; auto|].
    assert (B2 : e_is_bot (d_add [lc_negate c] e) = false).
    { apply (d_add_bottom_unsat _ _ s); auto. intros c' [<-|[]]. split.
      apply wf_lc_negate; auto. apply lc_negate_spec; auto. }
    rewrite B2. apply e_set_sound; auto. apply ijoin_sound_r. apply d_eval_sound; auto.
Qed.

Theorem d_forget_sound vs e s s' :
  genv e s -> (forall k, ~ In k vs -> s' k = s k) -> genv (d_forget vs e) s'.
Proof.
  intros G A. unfold d_forget. rewrite (genv_not_bot _ _ G). simpl.
  destruct (e_is_top e) eqn:T.
  - destruct e as [|m]; simpl in *; [tauto|]. eapply all_top_gmap; eauto.
  - eapply fold_forget_sound; eauto.
Qed.

Theorem d_expand_sound x nx e s v :
  genv e s -> (exists s', genv e s' /\ (forall k, k <> x -> s' k = s k) /\ v = s' x) ->
  genv (d_expand x nx e) (upd s nx v).
Proof.
  intros G (s' & G' & A & ->). unfold d_expand. rewrite (genv_not_bot _ _ G). simpl.
  destruct (e_is_top e) eqn:T.
  - destruct e as [|m]; simpl in *; [tauto|]. eapply all_top_gmap; eauto.
  - apply e_set_sound; auto. apply e_at_sound; auto.
Qed.

(* casts: integers are mathematical integers; a cast keeps the value.  For zero extension
   the source must be a non-negative value of its type (otherwise the value changes,
   which the domain does not model); booleans are 0/1. *)
Definition cast_pre (op : cast_op) (src_bool : bool) (w v : Z) : Prop :=
  match op with
  | CZExt => if src_bool then 0 <= v <= 1 else 0 <= v <= 2 ^ w - 1
  | _ => True
  end.

Lemma wf_single c v k : c <> 0 -> wf_lc (mkLC INEQ (mkLE [(c, v)] k)).
Proof.
  intros H. split; simpl.
  - constructor; auto. constructor.
  - intros c' v' [E|[]]. inversion E; subst; auto.
Qed.

Lemma d_add_single c x k e s : c <> 0 -> c * s x + k <= 0 -> genv e s ->
  genv (d_add [mkLC INEQ (mkLE [(c, x)] k)] e) s.
Proof.
  intros Hc LE G. apply d_add_sound; auto. intros c' [<-|[]]. split; [apply wf_single; auto|].
  unfold sat, eval_le; cbn [lc_kind lc_exp eval_terms le_terms le_cst]. lia.
Qed.

Theorem d_cast_sound op dst src db sb w e s v :
  genv e s ->
  (if db || sb then (if db then True else v = s src) else v = s src) ->
  cast_pre op sb w v ->
  genv (d_cast op dst src db sb w e) (upd s dst v).
Proof.
  intros G V P. unfold d_cast.
  set (e1 := if negb (db || sb) then _ else _).
  assert (G1 : genv e1 (upd s dst v)).
  { subst e1. destruct (db || sb) eqn:B; simpl.
    - apply e_forget_sound; auto.
    - subst v. replace (s src) with (eval_le (mkLE [(1, src)] 0) s).
      + apply d_assign_sound; auto.
      + unfold eval_le; cbn [eval_terms le_terms le_cst]. lia. }
  destruct op; auto.
  (* zero extension adds the bounds of the source type, which [cast_pre] grants *)
  unfold cast_pre in P. destruct sb.
  - apply d_add_single; [discriminate|rewrite upd_same; lia|].
    apply d_add_single; [discriminate|rewrite upd_same; lia|exact G1].
  - apply d_add_single; [discriminate|rewrite upd_same; lia|exact G1].
Qed.
