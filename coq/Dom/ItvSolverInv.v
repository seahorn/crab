(* ItvSolverInv.v — invariants of the linear interval solver.  Every loop of the solver only
   changes the environment through [propagate] on an entry of its table, and the counters
   [s_refined] / [s_ops] only steer the loops.  So a property [P] of the environment that one
   propagation step keeps, for the table entries that are [ok], holds of whatever the solver
   returns.  [N] says what is known when the solver answers bottom: [False] for a soundness
   argument, [True] for a representation invariant. *)
From Coq Require Import ZArith NArith List Bool.
From CrabV Require Import Scalar.Itv Ir.Syntax Dom.ItvEnv Dom.ItvSolver.
Import ListNotations.

Section Invariant.
  Variable P : amap -> Prop.
  Variable N : Prop.
  Variable ok : lincst -> Prop.

  Definition holds (r : option sst) : Prop :=
    match r with Some st => P (s_map st) | None => N end.

  Hypothesis step : forall c st, ok c -> P (s_map st) -> holds (propagate c st).

  Variable table : list lincst.
  Hypothesis table_ok : forall c, In c table -> ok c.

  Lemma propagate_all_inv : forall cs st, (forall c, In c cs -> ok c) ->
    P (s_map st) -> holds (propagate_all cs st).
  Proof.
    induction cs as [|c r IH]; simpl; intros st T H; auto.
    pose proof (step c st (T c (or_introl eq_refl)) H) as S.
    destruct (propagate c st); auto.
  Qed.

  Lemma small_loop_inv max : forall fuel cycle st,
    P (s_map st) -> holds (small_loop fuel table cycle max st).
  Proof.
    induction fuel as [|f IH]; simpl; intros cycle st H; auto.
    pose proof (propagate_all_inv table (mkS (s_map st) [] (s_ops st)) table_ok H) as S.
    destruct (propagate_all _ _) as [st'|]; auto.
    destruct (s_refined st'); auto. destruct (_ <=? _)%N; auto.
  Qed.

  Lemma propagate_idx_inv : forall idx st, P (s_map st) -> holds (propagate_idx table idx st).
  Proof.
    induction idx as [|i r IH]; simpl; intros st H; auto.
    destruct (nth_error table i) as [c|] eqn:E; auto.
    pose proof (step c st (table_ok c (nth_error_In _ _ E)) H) as S.
    destruct (propagate c st); auto.
  Qed.

  Lemma process_vars_inv : forall vs st, P (s_map st) -> holds (process_vars table vs st).
  Proof.
    induction vs as [|v r IH]; simpl; intros st H; auto.
    pose proof (propagate_idx_inv (triggers table 0 v) st H) as S.
    destruct (propagate_idx _ _ _); auto.
  Qed.

  Lemma large_loop_inv max : forall fuel st, P (s_map st) -> holds (large_loop fuel table max st).
  Proof.
    induction fuel as [|f IH]; simpl; intros st H; auto.
    pose proof (process_vars_inv (s_refined st) (mkS (s_map st) [] (s_ops st)) H) as S.
    destruct (process_vars _ _ _) as [st'|]; auto.
    destruct (s_refined st'); auto. destruct (_ <=? _)%N; auto.
  Qed.
End Invariant.

(* the whole solver, once preprocessing has produced a table of [ok] entries *)
Lemma solve_inv (P : amap -> Prop) (N : Prop) (ok : lincst -> Prop) cs n m :
  (forall c st, ok c -> P (s_map st) -> holds P N (propagate c st)) ->
  (p_contra (preprocess cs [] 0%N) = true -> N) ->
  (forall c, In c (p_table (preprocess cs [] 0%N)) -> ok c) ->
  P m -> match solve cs n m with Some m' => P m' | None => N end.
Proof.
  intros step C T H. unfold solve. destruct (p_contra _); [auto|].
  set (table := p_table _) in *. cbv zeta.
  destruct (_ || _).
  - pose proof (propagate_all_inv P N ok step table (mkS m [] 0%N) T H) as H1.
    destruct (propagate_all _ _) as [st1|]; [|exact H1].
    pose proof (large_loop_inv P N ok step table T (p_opc (preprocess cs [] 0%N) * n)%N
                  (S (S (N.to_nat (p_opc (preprocess cs [] 0%N) * n)))) st1 H1) as L.
    destruct (large_loop _ _ _ _); exact L.
  - pose proof (small_loop_inv P N ok step table T n (S (N.to_nat n)) 0%N (mkS m [] 0%N) H) as L.
    destruct (small_loop _ _ _ _ _); exact L.
Qed.

(* the solver's answer is reached from the state after one full pass over the table by
   further propagation steps on table entries: whatever these steps keep passes from that
   state to the answer *)
Lemma solve_first_pass (ok : lincst -> Prop) cs n m m' :
  (forall c, In c (p_table (preprocess cs [] 0%N)) -> ok c) ->
  solve cs n m = Some m' ->
  exists st1, propagate_all (p_table (preprocess cs [] 0%N)) (mkS m [] 0%N) = Some st1 /\
    forall P : amap -> Prop,
      (forall c st, ok c -> P (s_map st) -> holds P True (propagate c st)) ->
      P (s_map st1) -> P m'.
Proof.
  intros T E. unfold solve in E. destruct (p_contra _); [discriminate|].
  set (table := p_table _) in *. cbv zeta in E.
  destruct (_ || _).
  - destruct (propagate_all table _) as [st1|]; [|discriminate].
    exists st1. split; auto. intros P step H1.
    pose proof (large_loop_inv P True ok step table T (p_opc (preprocess cs [] 0%N) * n)%N
                  (S (S (N.to_nat (p_opc (preprocess cs [] 0%N) * n)))) st1 H1) as L.
    destruct (large_loop _ _ _ _); inversion E; subst; exact L.
  - cbn [small_loop s_map s_ops] in E.
    destruct (propagate_all table _) as [st1|]; [|discriminate].
    exists st1. split; auto. intros P step H1.
    destruct (s_refined st1); [inversion E; subst; exact H1|].
    destruct (_ <=? _)%N; [|inversion E; subst; exact H1].
    pose proof (small_loop_inv P True ok step table T n (N.to_nat n) (0 + 1)%N st1 H1) as L.
    destruct (small_loop _ _ _ _ _); inversion E; subst; exact L.
Qed.
