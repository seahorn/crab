(* ItvEnvWiden.v — widening of interval environments moves strictly down a well-founded
   order whenever the inclusion test that guards it fails (property C05 at the level of
   separate_domain), with and without thresholds; widening chains of environments become
   stationary, with an explicit bound.

   Representation invariant [env_ok]: no binding of a map is the bottom interval
   (separate_domain::set turns such a map into bottom).  It is needed: on maps that bind
   a key to bottom the chain  x, _|_, y, _|_, y', ...  never stabilises
   ([e_widen_needs_invariant] below).  All lattice operations preserve it. *)
From Coq Require Import ZArith NArith List Bool Arith Lia.
From CrabV Require Import Base.ZInf Scalar.Itv Scalar.ItvSound Ir.Syntax Dom.ItvEnv Dom.ItvEnvSound
     Fix.Thresholds Fix.ThresholdsSound.
Import ListNotations.

Definition map_ok (m : amap) : Prop := forall k, is_bot (get m k) = false.
Definition env_ok (e : env) : Prop := match e with EBot => True | EMap m => map_ok m end.

Definition norm (v : itv) : itv := if is_top v then itop else v.

Lemma get_put_same m k v : get (put m k v) k = norm v.
Proof.
  unfold put, norm. destruct (is_top v).
  - apply get_remove_same.
  - cbn [get]. rewrite N.eqb_refl. reflexivity.
Qed.

Lemma is_bot_norm v : is_bot v = false -> is_bot (norm v) = false.
Proof. unfold norm. destruct (is_top v); auto. Qed.

Lemma map_ok_nil : map_ok [].
Proof. intros k. reflexivity. Qed.

Lemma map_ok_remove m k : map_ok m -> map_ok (remove m k).
Proof.
  intros H k'. destruct (N.eq_dec k' k) as [->|N].
  - rewrite get_remove_same. reflexivity.
  - rewrite get_remove_other by exact N. apply H.
Qed.

Lemma map_ok_put m k v : map_ok m -> is_bot v = false -> map_ok (put m k v).
Proof.
  intros H B k'. destruct (N.eq_dec k' k) as [->|N].
  - rewrite get_put_same. apply is_bot_norm; exact B.
  - rewrite get_put_other by exact N. apply H.
Qed.

Lemma build_ok ks g : forall acc m, build ks g acc = Some m -> map_ok acc -> map_ok m.
Proof.
  induction ks as [|k r IH]; cbn [build]; intros acc m H A.
  - inversion H; subst; exact A.
  - destruct (is_bot (g k)) eqn:B; [discriminate H|].
    apply (IH _ _ H). apply map_ok_put; assumption.
Qed.

Lemma build_get ks g : forall acc m, build ks g acc = Some m ->
  forall k, (In k ks -> get m k = norm (g k)) /\ (~ In k ks -> get m k = get acc k).
Proof.
  induction ks as [|k0 r IH]; cbn [build]; intros acc m H k.
  - inversion H; subst. split; [intros []|reflexivity].
  - destruct (is_bot (g k0)) eqn:B; [discriminate H|].
    destruct (IH _ _ H k) as [I1 I2].
    destruct (in_dec N.eq_dec k r) as [J|J].
    + split; [intros _; apply I1; exact J|]. intros X. exfalso. apply X. right; exact J.
    + rewrite (I2 J). destruct (N.eq_dec k k0) as [->|N].
      * split; [intros _; apply get_put_same|]. intros X. exfalso. apply X. left; reflexivity.
      * rewrite get_put_other by exact N.
        split; [|reflexivity]. intros [E|E]; [congruence|contradiction].
Qed.

Lemma build_some ks g : (forall k, In k ks -> is_bot (g k) = false) ->
  forall acc, exists m, build ks g acc = Some m.
Proof.
  intros H acc. destruct (build ks g acc) as [m|] eqn:E; [eauto|].
  apply build_none in E. destruct E as [k [I B]]. rewrite (H k I) in B. discriminate.
Qed.

Lemma merge_ok ab f x y m : merge ab f x y = Some m -> map_ok m.
Proof. unfold merge. intros H. exact (build_ok _ _ _ _ H map_ok_nil). Qed.

Lemma env_ok_bot : env_ok EBot. Proof. exact I. Qed.
Lemma env_ok_top : env_ok e_top. Proof. exact map_ok_nil. Qed.

Lemma env_ok_merge ab f x y :
  env_ok (match merge ab f x y with Some m => EMap m | None => EBot end).
Proof. destruct (merge ab f x y) as [m|] eqn:E; [exact (merge_ok _ _ _ _ _ E)|exact I]. Qed.

Lemma env_ok_join a b : env_ok a -> env_ok b -> env_ok (e_join a b).
Proof. destruct a as [|x], b as [|y]; cbn [e_join]; auto. intros _ _. apply env_ok_merge. Qed.
Lemma env_ok_meet a b : env_ok a -> env_ok b -> env_ok (e_meet a b).
Proof. destruct a as [|x], b as [|y]; cbn [e_meet]; auto. intros _ _. apply env_ok_merge. Qed.
Lemma env_ok_narrow a b : env_ok a -> env_ok b -> env_ok (e_narrow a b).
Proof. destruct a as [|x], b as [|y]; cbn [e_narrow]; auto. intros _ _. apply env_ok_merge. Qed.
Lemma env_ok_widen a b : env_ok a -> env_ok b -> env_ok (e_widen a b).
Proof. destruct a as [|x], b as [|y]; cbn [e_widen]; auto. intros _ _. apply env_ok_merge. Qed.
Lemma env_ok_widen_thr gp gn a b : env_ok a -> env_ok b -> env_ok (e_widen_thr gp gn a b).
Proof. destruct a as [|x], b as [|y]; cbn [e_widen_thr]; auto. intros _ _. apply env_ok_merge. Qed.

Lemma env_ok_set e k v : env_ok e -> env_ok (e_set e k v).
Proof.
  destruct e as [|m]; cbn [e_set]; auto. intros H.
  destruct (is_bot v) eqn:B; [exact I|]. apply map_ok_put; assumption.
Qed.
Lemma env_ok_forget e k : env_ok e -> env_ok (e_forget e k).
Proof. destruct e as [|m]; cbn [e_forget]; auto. apply map_ok_remove. Qed.

Definition msum (g : var -> nat) (l : list var) : nat := list_sum (map g l).

Lemma msum_app g l1 l2 : msum g (l1 ++ l2) = msum g l1 + msum g l2.
Proof. unfold msum. rewrite map_app, list_sum_app. reflexivity. Qed.

Lemma msum_le_pointwise g g' l : (forall k, g' k <= g k) -> msum g' l <= msum g l.
Proof.
  intros H. induction l as [|a r IH]; [cbn; lia|].
  change (g' a + msum g' r <= g a + msum g r). specialize (H a). lia.
Qed.

Lemma msum_le_gen g g' : forall l' l, NoDup l' ->
  (forall k, In k l' -> g' k <= g k) ->
  (forall k, In k l' -> ~ In k l -> g' k = 0) ->
  msum g' l' <= msum g l.
Proof.
  induction l' as [|k r IH]; intros l ND H1 H2; [cbn; lia|].
  inversion ND as [|? ? NI ND']; subst.
  assert (H1' : forall k', In k' r -> g' k' <= g k') by (intros k' I'; apply H1; right; exact I').
  change (msum g' (k :: r)) with (g' k + msum g' r).
  destruct (in_dec N.eq_dec k l) as [J|J].
  - (* k occurs in l: take one occurrence out of l *)
    destruct (in_split _ _ J) as (l1 & l2 & ->).
    assert (X : msum g' r <= msum g (l1 ++ l2)).
    { apply IH; auto. intros k' I' NI'. apply H2; [right; exact I'|].
      intros Q. apply NI'. apply in_app_or in Q. apply in_or_app.
      destruct Q as [Q|[Q|Q]]; [left; exact Q| |right; exact Q]. subst k'. contradiction. }
    pose proof (H1 k (or_introl eq_refl)) as L.
    rewrite !msum_app in X |- *. change (msum g (k :: l2)) with (g k + msum g l2). lia.
  - rewrite (H2 k (or_introl eq_refl) J).
    apply IH; auto. intros k' I' NI'. apply H2; [right; exact I'|exact NI'].
Qed.

Lemma msum_lt_at g g' k0 : forall l, In k0 l -> (forall k, g' k <= g k) -> g' k0 < g k0 ->
  msum g' l < msum g l.
Proof.
  induction l as [|a r IH]; intros J H L; [destruct J|].
  change (g' a + msum g' r < g a + msum g r).
  destruct J as [->|J].
  - pose proof (msum_le_pointwise g g' r H). lia.
  - specialize (IH J H L). specialize (H a). lia.
Qed.

Lemma forallb_false {T} (p : T -> bool) l : forallb p l = false -> exists x, In x l /\ p x = false.
Proof.
  induction l as [|a r IH]; cbn [forallb]; [discriminate|].
  destruct (p a) eqn:E; cbn [andb].
  - intros H. destruct (IH H) as (x & I & Q). exists x. split; [right; exact I|exact Q].
  - intros _. exists a. split; [left; reflexivity|exact E].
Qed.

Lemma filter_all_false {T} (p : T -> bool) l : (forall x, In x l -> p x = false) -> filter p l = [].
Proof.
  induction l as [|a r IH]; intros H; cbn [filter]; [reflexivity|].
  rewrite (H a (or_introl eq_refl)). apply IH. intros x I. apply H. right; exact I.
Qed.

(* the order on environments, generic in the scalar widening [f] and in the scalar measure [bc] *)
Section Generic.
  Variable f : itv -> itv -> itv.
  Variable bc : itv -> nat.

  (* what merge computes at one key for an absorbing operator *)
  Definition cw (a b : itv) : itv :=
    if is_top a then itop else if is_top b then itop else f a b.

  Hypothesis bc_top : bc itop = 0.
  Hypothesis f_nonbot : forall a b, is_bot a = false -> is_bot (cw a b) = false.
  Hypothesis f_le : forall a b, is_bot a = false -> bc (norm (cw a b)) <= bc a.
  (* strict when the argument is not included ... *)
  Hypothesis f_lt : forall a b, is_bot a = false -> ileq b a = false -> bc (norm (cw a b)) < bc a.
  (* ... and when the result is not included *)
  Hypothesis f_lt2 : forall a b, is_bot a = false -> ileq (norm (cw a b)) a = false ->
    bc (norm (cw a b)) < bc a.

  Definition mmeasure (m : amap) : nat :=
    msum (fun k => bc (get m k)) (nodup N.eq_dec (keys m)).

  Lemma mmeasure_zero_outside m k : ~ In k (nodup N.eq_dec (keys m)) -> bc (get m k) = 0.
  Proof.
    intros H. rewrite get_not_key; [exact bc_top|]. intros J. apply H. apply nodup_In. exact J.
  Qed.

  Lemma mmeasure_le m' m : (forall k, bc (get m' k) <= bc (get m k)) -> mmeasure m' <= mmeasure m.
  Proof.
    intros H. unfold mmeasure. apply msum_le_gen.
    - apply NoDup_nodup.
    - intros k _. apply H.
    - intros k _ NI. pose proof (H k) as L. rewrite (mmeasure_zero_outside m k NI) in L. lia.
  Qed.

  Lemma mmeasure_lt m' m k0 : (forall k, bc (get m' k) <= bc (get m k)) ->
    bc (get m' k0) < bc (get m k0) -> mmeasure m' < mmeasure m.
  Proof.
    intros H L. unfold mmeasure.
    set (g := fun k => bc (get m k)). set (g' := fun k => bc (get m' k)).
    set (gh := fun k => if N.eqb k k0 then g k - 1 else g k).
    assert (IN : In k0 (nodup N.eq_dec (keys m))).
    { destruct (in_dec N.eq_dec k0 (nodup N.eq_dec (keys m))) as [J|J]; [exact J|].
      pose proof (mmeasure_zero_outside m k0 J). lia. }
    assert (A1 : msum g' (nodup N.eq_dec (keys m')) <= msum gh (nodup N.eq_dec (keys m))).
    { apply msum_le_gen.
      - apply NoDup_nodup.
      - intros k _. unfold gh, g, g'. destruct (N.eqb_spec k k0) as [->|_]; [lia|apply H].
      - intros k _ NI. unfold g'. pose proof (H k) as L'.
        rewrite (mmeasure_zero_outside m k NI) in L'. lia. }
    assert (A2 : msum gh (nodup N.eq_dec (keys m)) < msum g (nodup N.eq_dec (keys m))).
    { apply (msum_lt_at g gh k0); [exact IN| |].
      - intros k. unfold gh. destruct (N.eqb k k0); lia.
      - unfold gh, g. rewrite N.eqb_refl. lia. }
    lia.
  Qed.

  Definition e_widen_f (a b : env) : env :=
    match a, b with
    | EBot, _ => b | _, EBot => a
    | EMap x, EMap y => match merge true f x y with Some m => EMap m | None => EBot end
    end.

  (* bottom is above every map; maps are compared by their measure *)
  Definition env_lt (b a : env) : Prop :=
    match a, b with
    | EBot, EMap _ => True
    | EMap x, EMap y => mmeasure y < mmeasure x
    | _, EBot => False
    end.

  Lemma env_lt_wf : well_founded env_lt.
  Proof.
    assert (M : forall n m, mmeasure m < n -> Acc env_lt (EMap m)).
    { induction n as [|n IH]; intros m L; [lia|].
      constructor. intros [|y] H; cbn [env_lt] in H; [contradiction|]. apply IH. lia. }
    intros [|m].
    - constructor. intros [|y] H; cbn [env_lt] in H; [contradiction|]. exact (M _ y (Nat.lt_succ_diag_r _)).
    - exact (M _ m (Nat.lt_succ_diag_r _)).
  Qed.

  Lemma comb_cw x y k : comb true true f x y k = cw (get x k) (get y k).
  Proof. reflexivity. Qed.

  Lemma merge_widen_some x y : map_ok x -> exists m, merge true f x y = Some m.
  Proof.
    intros OK. unfold merge. apply build_some. intros k _. rewrite comb_cw. apply f_nonbot. apply OK.
  Qed.

  Lemma merge_widen_get x y m : merge true f x y = Some m -> forall k,
    get m k = norm (cw (get x k) (get y k)) \/ (get m k = itop /\ get x k = itop).
  Proof.
    unfold merge. intros H k. destruct (build_get _ _ _ _ H k) as [I1 I2].
    destruct (in_dec N.eq_dec k (keys x ++ keys y)) as [J|J].
    - left. rewrite (I1 J), comb_cw. reflexivity.
    - right. rewrite (I2 J). split; [reflexivity|].
      apply get_not_key. intros Q. apply J. apply in_or_app. left; exact Q.
  Qed.

  Lemma merge_widen_le x y m : map_ok x -> merge true f x y = Some m ->
    forall k, bc (get m k) <= bc (get x k).
  Proof.
    intros OK H k. destruct (merge_widen_get x y m H k) as [E|[E1 E2]].
    - rewrite E. apply f_le. apply OK.
    - rewrite E1, bc_top. lia.
  Qed.

  (* strict decrease when the argument, or the result, is not included in the left operand *)
  Lemma merge_widen_lt x y m : map_ok x -> merge true f x y = Some m ->
    e_leq (EMap y) (EMap x) = false \/ e_leq (EMap m) (EMap x) = false -> mmeasure m < mmeasure x.
  Proof.
    intros OKx E LE. cbn [e_leq] in LE.
    assert (K : exists k, ileq (get y k) (get x k) = false \/ ileq (get m k) (get x k) = false).
    { destruct LE as [LE|LE]; destruct (forallb_false _ _ LE) as (k & _ & Q); eauto. }
    destruct K as [k Q]. apply (mmeasure_lt m x k); [apply (merge_widen_le x y m OKx E)|].
    destruct (merge_widen_get x y m E k) as [G|[G1 G2]].
    - rewrite G in *. destruct Q as [Q|Q]; [apply f_lt|apply f_lt2]; auto.
    - exfalso. rewrite G1, G2, ileq_top_any in Q. destruct Q; discriminate.
  Qed.

  (* a widening step that the inclusion test asks for moves strictly down *)
  Theorem e_widen_f_progress a b : env_ok a -> e_leq b a = false -> env_lt (e_widen_f a b) a.
  Proof.
    destruct a as [|x], b as [|y]; intros OKa LE; try discriminate LE.
    - exact I.
    - cbn [env_ok] in OKa. cbn [e_widen_f].
      destruct (merge_widen_some x y OKa) as [m E]. rewrite E. cbn [env_lt].
      exact (merge_widen_lt x y m OKa E (or_introl LE)).
  Qed.

  Lemma env_ok_widen_f a b : env_ok a -> env_ok b -> env_ok (e_widen_f a b).
  Proof.
    destruct a as [|x], b as [|y]; cbn [e_widen_f]; auto. intros _ _. apply env_ok_merge.
  Qed.

  Section Chain.
    Variable x0 : env.
    Variable ys : nat -> env.
    Hypothesis x0_ok : env_ok x0.
    Hypothesis ys_ok : forall i, env_ok (ys i).

    Fixpoint echain (i : nat) : env :=
      match i with O => x0 | S j => e_widen_f (echain j) (ys j) end.

    (* the iterate grew (the test of C05 for intervals) *)
    Definition enonstationary (i : nat) : bool := negb (e_leq (echain (S i)) (echain i)).
    (* the argument was not included (the test the fixpoint engine performs) *)
    Definition erefused (i : nat) : bool := negb (e_leq (ys i) (echain i)).

    Lemma echain_ok i : env_ok (echain i).
    Proof. induction i as [|i IH]; cbn [echain]; [exact x0_ok|]. apply env_ok_widen_f; auto. Qed.

    Lemma echain_step i m : echain i = EMap m ->
      exists m', echain (S i) = EMap m' /\ mmeasure m' <= mmeasure m /\
                 (erefused i = true \/ enonstationary i = true -> mmeasure m' < mmeasure m).
    Proof.
      intros E. pose proof (echain_ok i) as OK. rewrite E in OK. cbn [env_ok] in OK.
      unfold enonstationary, erefused. cbn [echain]. rewrite E.
      destruct (ys i) as [|y]; cbn [e_widen_f].
      - exists m. split; [reflexivity|]. split; [lia|].
        rewrite (e_leq_refl (EMap m)). intros [H|H]; discriminate H.
      - destruct (merge_widen_some m y OK) as [m' EM]. rewrite EM.
        exists m'. split; [reflexivity|]. split.
        + apply mmeasure_le, (merge_widen_le m y m' OK EM).
        + rewrite !negb_true_iff. apply (merge_widen_lt m y m' OK EM).
    Qed.

    Section Count.
      Variable ns : nat -> bool.
      Hypothesis ns_moves : forall i, ns i = true -> erefused i = true \/ enonstationary i = true.

      (* once the iterate is a map it stays a map, and the steps counted by [ns] are paid
         for by the measure *)
      Lemma echain_count j m : echain j = EMap m -> forall k,
        exists m', echain (j + k) = EMap m' /\
                   length (filter ns (seq j k)) + mmeasure m' <= mmeasure m.
      Proof.
        intros E. induction k as [|k IH].
        - exists m. rewrite Nat.add_0_r. split; [exact E|cbn; lia].
        - destruct IH as (m1 & E1 & C1).
          destruct (echain_step (j + k) m1 E1) as (m2 & E2 & L2 & S2).
          exists m2. replace (j + S k) with (S (j + k)) by lia. split; [exact E2|].
          rewrite seq_S, filter_app, app_length. cbn [filter].
          destruct (ns (j + k)) eqn:NS; cbn [length].
          + pose proof (S2 (ns_moves _ NS)). lia.
          + lia.
      Qed.

      Hypothesis ns_bot : forall i, echain (S i) = EBot -> ns i = false.

      (* with a bottom prefix: one more step, the one that leaves bottom *)
      Lemma echain_count_from_bot j m : echain j = EMap m -> (forall i, i < j -> echain i = EBot) ->
        forall n, length (filter ns (seq 0 n)) <= 1 + mmeasure m.
      Proof.
        intros E B n.
        (* the count grows with n, so look at j + n: at most the step that leaves bottom
           before j, and after j what the measure pays for *)
        apply Nat.le_trans with (length (filter ns (seq 0 (j + n)))).
        { replace (j + n) with (n + j) by lia. rewrite seq_app, filter_app, app_length. lia. }
        rewrite seq_app, filter_app, app_length. cbn [Nat.add].
        destruct (echain_count j m E n) as (m' & _ & C).
        enough (length (filter ns (seq 0 j)) <= 1) by lia.
        destruct j as [|j']; [cbn; lia|].
        rewrite seq_S, filter_app, app_length, (filter_all_false ns (seq 0 j')).
        - cbn [filter Nat.add length]. destruct (ns j'); cbn [length]; lia.
        - intros i I. apply in_seq in I. apply ns_bot. apply B. lia.
      Qed.
    End Count.

    Theorem echain_nonstationary_bound j m : echain j = EMap m -> forall k,
      length (filter enonstationary (seq j k)) <= mmeasure m.
    Proof.
      intros E k.
      destruct (echain_count enonstationary (fun i H => or_intror H) j m E k) as (m' & _ & C). lia.
    Qed.

    Theorem echain_refused_bound j m : echain j = EMap m -> forall k,
      length (filter erefused (seq j k)) <= mmeasure m.
    Proof.
      intros E k.
      destruct (echain_count erefused (fun i H => or_introl H) j m E k) as (m' & _ & C). lia.
    Qed.

    (* the bound in terms of the first non-bottom iterate *)
    Theorem echain_stabilises j m : echain j = EMap m -> (forall i, i < j -> echain i = EBot) ->
      forall n, length (filter enonstationary (seq 0 n)) <= 1 + mmeasure m.
    Proof.
      intros E B. apply (echain_count_from_bot enonstationary (fun i H => or_intror H)) with (j := j); auto.
      intros i H. unfold enonstationary. rewrite H. reflexivity.
    Qed.

    Theorem echain_refusals_finite j m : echain j = EMap m -> (forall i, i < j -> echain i = EBot) ->
      forall n, length (filter erefused (seq 0 n)) <= 1 + mmeasure m.
    Proof.
      intros E B. apply (echain_count_from_bot erefused (fun i H => or_introl H)) with (j := j); auto.
      intros i H. unfold erefused. cbn [echain] in H.
      destruct (echain i) as [|x] eqn:Ei.
      - cbn [e_widen_f] in H. rewrite H. reflexivity.
      - exfalso. pose proof (echain_ok i) as OK. rewrite Ei in OK. cbn [env_ok] in OK.
        destruct (ys i) as [|y]; cbn [e_widen_f] in H; [discriminate H|].
        destruct (merge_widen_some x y OK) as [mm EM]. rewrite EM in H. discriminate H.
    Qed.
  End Chain.
End Generic.

(* widening with thresholds: measure of a bound = number of thresholds strictly beyond it *)
Definition cl (t : thr) (l : bound) : nat := length (filter (fun u => blt u l) t).
Definition cu (t : thr) (u : bound) : nat := length (filter (fun v => blt u v) t).
Definition tcount (t : thr) (i : itv) : nat := cl t (lb i) + cu t (ub i).

(* [blt x y] is [negb (ble y x)]: the strict order through the lemmas of the large one *)
Lemma blt_iff x y : blt x y = true <-> ble y x = false.
Proof. unfold blt, bge. apply negb_true_iff. Qed.

Lemma blt_ble x y : blt x y = true -> ble x y = true.
Proof. intros H. apply ble_false_flip, blt_iff, H. Qed.
Lemma blt_irrefl x : blt x x = false.
Proof. unfold blt, bge. rewrite ble_refl. reflexivity. Qed.
Lemma blt_ble_trans x y z : blt x y = true -> ble y z = true -> blt x z = true.
Proof.
  rewrite !blt_iff. intros H1 H2. destruct (ble z x) eqn:E; auto.
  rewrite (ble_trans _ _ _ H2 E) in H1. discriminate.
Qed.
Lemma ble_blt_trans x y z : ble x y = true -> blt y z = true -> blt x z = true.
Proof.
  rewrite !blt_iff. intros H1 H2. destruct (ble z x) eqn:E; auto.
  rewrite (ble_trans _ _ _ E H1) in H2. discriminate.
Qed.
Lemma blt_MInf_r x : blt x MInf = false.
Proof. reflexivity. Qed.
Lemma blt_PInf_l x : blt PInf x = false.
Proof. destruct x; reflexivity. Qed.

Lemma filter_len_le {T} (p q : T -> bool) l : (forall x, p x = true -> q x = true) ->
  length (filter p l) <= length (filter q l).
Proof.
  intros H. induction l as [|a r IH]; cbn [filter]; [lia|].
  destruct (p a) eqn:P; [rewrite (H a P); cbn [length]; lia|].
  destruct (q a); cbn [length]; lia.
Qed.

Lemma filter_len_lt {T} (p q : T -> bool) l w : (forall x, p x = true -> q x = true) ->
  In w l -> p w = false -> q w = true -> length (filter p l) < length (filter q l).
Proof.
  intros H. induction l as [|a r IH]; intros I P Q; [destruct I|]. cbn [filter].
  destruct I as [->|I].
  - rewrite P, Q. cbn [length]. pose proof (filter_len_le p q r H). lia.
  - specialize (IH I P Q). destruct (p a) eqn:Pa; [rewrite (H a Pa); cbn [length]; lia|].
    destruct (q a); cbn [length]; lia.
Qed.

Lemma cl_mono t l' l : ble l' l = true -> cl t l' <= cl t l.
Proof. intros H. apply filter_len_le. intros u B. exact (blt_ble_trans _ _ _ B H). Qed.
Lemma cl_strict t p l : In p t -> blt p l = true -> cl t p < cl t l.
Proof.
  intros I B. apply (filter_len_lt _ _ t p); [|exact I|apply blt_irrefl|exact B].
  intros u Bu. exact (blt_ble_trans _ _ _ Bu (blt_ble _ _ B)).
Qed.
Lemma cu_mono t u u' : ble u u' = true -> cu t u' <= cu t u.
Proof. intros H. apply filter_len_le. intros v B. exact (ble_blt_trans _ _ _ H B). Qed.
Lemma cu_strict t n u : In n t -> blt u n = true -> cu t n < cu t u.
Proof.
  intros I B. apply (filter_len_lt _ _ t n); [|exact I|apply blt_irrefl|exact B].
  intros v Bv. exact (ble_blt_trans _ _ _ (blt_ble _ _ B) Bv).
Qed.

Lemma tcount_top t : tcount t itop = 0.
Proof.
  unfold tcount, cl, cu. cbn [lb ub itop].
  rewrite !filter_all_false; [reflexivity| |]; intros x _; [apply blt_PInf_l|apply blt_MInf_r].
Qed.

Section Thr.
  Variable t : thr.
  Hypothesis W : wf_thr t.

  Notation gp := (thr_prev t).
  Notation gn := (thr_next t).
  Notation F := (iwiden_thr gp gn).
  Notation bc := (tcount t).

  Definition Lsel (a b : itv) : bound := if blt (lb b) (lb a) then gp (lb b) else lb a.
  Definition Usel (a b : itv) : bound := if blt (ub a) (ub b) then gn (ub b) else ub a.

  Lemma Lsel_cases a b :
    (blt (lb b) (lb a) = true /\ cl t (Lsel a b) < cl t (lb a) /\ ble (Lsel a b) (lb a) = true) \/
    (blt (lb b) (lb a) = false /\ Lsel a b = lb a).
  Proof.
    unfold Lsel. destruct (blt (lb b) (lb a)) eqn:B; [left|right; auto].
    pose proof (thr_prev_le t (lb b) W) as P.
    pose proof (ble_blt_trans _ _ _ P B) as Q.
    split; [reflexivity|]. split; [apply cl_strict; [apply thr_prev_in, W|exact Q]|apply blt_ble; exact Q].
  Qed.

  Lemma Usel_cases a b :
    (blt (ub a) (ub b) = true /\ cu t (Usel a b) < cu t (ub a) /\ ble (ub a) (Usel a b) = true) \/
    (blt (ub a) (ub b) = false /\ Usel a b = ub a).
  Proof.
    unfold Usel. destruct (blt (ub a) (ub b)) eqn:B; [left|right; auto].
    pose proof (thr_next_ge t (ub b) W) as P.
    pose proof (blt_ble_trans _ _ _ B P) as Q.
    split; [reflexivity|]. split; [apply cu_strict; [apply thr_next_in, W|exact Q]|apply blt_ble; exact Q].
  Qed.

  Lemma sel_ble a b : is_bot a = false -> ble (Lsel a b) (Usel a b) = true.
  Proof.
    intros Ha. apply is_bot_false_ble in Ha.
    apply ble_trans with (lb a); [|apply ble_trans with (ub a); [exact Ha|]].
    - destruct (Lsel_cases a b) as [(_ & _ & H)|(_ & ->)]; [exact H|apply ble_refl].
    - destruct (Usel_cases a b) as [(_ & _ & H)|(_ & ->)]; [exact H|apply ble_refl].
  Qed.

  Lemma F_shape a b : is_bot a = false -> is_bot b = false -> F a b = mkI (Lsel a b) (Usel a b).
  Proof.
    intros Ha Hb. unfold iwiden_thr. rewrite Ha, Hb. fold (Lsel a b) (Usel a b).
    unfold imk, bgt. rewrite (sel_ble a b Ha). reflexivity.
  Qed.

  Lemma F_bot_r a b : is_bot a = false -> is_bot b = true -> F a b = a.
  Proof. intros Ha Hb. unfold iwiden_thr. rewrite Ha, Hb. reflexivity. Qed.

  Lemma sel_nonbot a b : is_bot a = false -> is_bot (mkI (Lsel a b) (Usel a b)) = false.
  Proof. intros Ha. unfold is_bot, bgt. cbn [lb ub]. rewrite (sel_ble a b Ha). reflexivity. Qed.

  Lemma bc_norm_le v : bc (norm v) <= bc v.
  Proof. unfold norm. destruct (is_top v); [rewrite tcount_top; lia|lia]. Qed.

  (* every value except top has a threshold strictly beyond one of its bounds *)
  Lemma pos_of_ne_top a : a <> itop -> 0 < bc a.
  Proof.
    intros H. unfold tcount.
    assert (L : lb a <> MInf -> 0 < cl t (lb a)).
    { intros N. apply (Nat.le_lt_trans _ (cl t MInf)); [lia|].
      apply cl_strict; [apply wf_in_minf, W|]. destruct (lb a) eqn:E; auto; congruence. }
    assert (U : ub a <> PInf -> 0 < cu t (ub a)).
    { intros N. apply (Nat.le_lt_trans _ (cu t PInf)); [lia|].
      apply cu_strict; [apply wf_in_pinf, W|]. destruct (ub a) eqn:E; auto; congruence. }
    assert (N : lb a <> MInf \/ ub a <> PInf).
    { destruct a as [[] []]; try (left; discriminate); try (right; discriminate).
      destruct H; reflexivity. }
    destruct N as [N|N]; [specialize (L N)|specialize (U N)]; lia.
  Qed.

  (* a value that does not contain some other value has positive measure *)
  Lemma pos_of_not_above a x : ileq x a = false -> 0 < bc a.
  Proof.
    intros LE. apply pos_of_ne_top. intros ->. rewrite ileq_top_any in LE. discriminate LE.
  Qed.

  (* either the widening returns its left operand, which then contains the right one, or the
     measure goes strictly down *)
  Lemma F_cases a b : is_bot a = false ->
    (F a b = a /\ (is_bot b = true \/ ileq b a = true)) \/
    (is_bot (F a b) = false /\ bc (F a b) < bc a).
  Proof.
    intros Ha. destruct (is_bot b) eqn:Hb; [left; split; [apply F_bot_r|]; auto|].
    rewrite (F_shape a b Ha Hb). unfold tcount. cbn [lb ub].
    destruct (Lsel_cases a b) as [(_ & L1 & _)|(BL & EL)], (Usel_cases a b) as [(_ & U1 & _)|(BU & EU)];
      try (right; split; [apply sel_nonbot; auto|]; rewrite ?EL, ?EU; lia).
    left. rewrite EL, EU. split; [destruct a; reflexivity|right].
    unfold ileq. rewrite Hb, Ha. apply negb_false_iff in BL, BU. unfold bge in *.
    rewrite BL, BU. reflexivity.
  Qed.

  Lemma tw_nonbot a b : is_bot a = false -> is_bot (cw F a b) = false.
  Proof.
    intros Ha. unfold cw. destruct (is_top a); [reflexivity|]. destruct (is_top b); [reflexivity|].
    destruct (F_cases a b Ha) as [[-> _]|[H _]]; auto.
  Qed.

  Lemma tw_le a b : is_bot a = false -> bc (norm (cw F a b)) <= bc a.
  Proof.
    intros Ha. unfold cw.
    destruct (is_top a); [rewrite (bc_norm_le itop), tcount_top; lia|].
    destruct (is_top b); [rewrite (bc_norm_le itop), tcount_top; lia|].
    rewrite bc_norm_le. destruct (F_cases a b Ha) as [[-> _]|[_ H]]; lia.
  Qed.

  Lemma tw_lt a b : is_bot a = false -> ileq b a = false -> bc (norm (cw F a b)) < bc a.
  Proof.
    intros Ha LE. pose proof (pos_of_not_above a b LE) as POS. unfold cw.
    destruct (is_top a); [change (norm itop) with itop; rewrite tcount_top; exact POS|].
    destruct (is_top b); [change (norm itop) with itop; rewrite tcount_top; exact POS|].
    pose proof (bc_norm_le (F a b)) as NL.
    destruct (F_cases a b Ha) as [[_ [Hb|Hb]]|[_ H]]; [| |lia].
    - unfold ileq in LE. rewrite Hb in LE. discriminate LE.
    - congruence.
  Qed.

  Lemma tw_lt2 a b : is_bot a = false -> ileq (norm (cw F a b)) a = false ->
    bc (norm (cw F a b)) < bc a.
  Proof.
    intros Ha. unfold cw.
    assert (TOPCASE : ileq (norm itop) a = false -> bc (norm itop) < bc a).
    { intros LE. change (norm itop) with itop in *. rewrite tcount_top.
      exact (pos_of_not_above a itop LE). }
    destruct (is_top a) eqn:Ta; [exact TOPCASE|].
    destruct (is_top b); [exact TOPCASE|]. clear TOPCASE.
    pose proof (bc_norm_le (F a b)) as NL.
    destruct (F_cases a b Ha) as [[-> _]|[_ H]]; [|lia].
    unfold norm. rewrite Ta, ileq_refl. discriminate.
  Qed.

  Definition emeasure_thr : amap -> nat := mmeasure bc.
  Definition e_lt_thr : env -> env -> Prop := env_lt bc.

  Lemma e_widen_thr_is_f a b : e_widen_thr gp gn a b = e_widen_f F a b.
  Proof. reflexivity. Qed.

  Theorem e_lt_thr_wf : well_founded e_lt_thr.
  Proof. exact (env_lt_wf bc (tcount_top t)). Qed.

  Local Hint Resolve tcount_top tw_nonbot tw_le tw_lt tw_lt2 : core.

  Theorem e_widen_thr_progress a b : env_ok a -> env_ok b ->
    e_leq b a = false -> e_lt_thr (e_widen_thr gp gn a b) a.
  Proof. intros OKa _. rewrite e_widen_thr_is_f. apply e_widen_f_progress; auto. Qed.

  Theorem e_widen_thr_chain_stabilises x0 ys : env_ok x0 -> (forall i, env_ok (ys i)) ->
    forall j m, echain F x0 ys j = EMap m -> (forall i, i < j -> echain F x0 ys i = EBot) ->
    forall n, length (filter (enonstationary F x0 ys) (seq 0 n)) <= 1 + emeasure_thr m.
  Proof. intros OK0 OKy. apply echain_stabilises; auto. Qed.

  Theorem e_widen_thr_chain_refusals x0 ys : env_ok x0 -> (forall i, env_ok (ys i)) ->
    forall j m, echain F x0 ys j = EMap m -> (forall i, i < j -> echain F x0 ys i = EBot) ->
    forall n, length (filter (erefused F x0 ys) (seq 0 n)) <= 1 + emeasure_thr m.
  Proof. intros OK0 OKy. apply echain_refusals_finite; auto. Qed.
End Thr.

Definition bcount (i : itv) : nat :=
  (match lb i with MInf => 0 | _ => 1 end) + (match ub i with PInf => 0 | _ => 1 end).

(* plain widening is widening with the thresholds {-oo, +oo}, which [bcount] counts *)
Lemma wf_thr_inf : wf_thr [MInf; PInf].
Proof. exists []. reflexivity. Qed.

Lemma cw_iwiden a b :
  cw iwiden a b = cw (iwiden_thr (thr_prev [MInf; PInf]) (thr_next [MInf; PInf])) a b.
Proof. unfold cw, iwiden_thr, iwiden. destruct (lb b), (ub b); reflexivity. Qed.

Lemma tcount_inf i : tcount [MInf; PInf] i = bcount i.
Proof. destruct i as [[] []]; reflexivity. Qed.

Lemma iw_nonbot a b : is_bot a = false -> is_bot (cw iwiden a b) = false.
Proof. rewrite cw_iwiden. apply tw_nonbot, wf_thr_inf. Qed.
Lemma iw_le a b : is_bot a = false -> bcount (norm (cw iwiden a b)) <= bcount a.
Proof. rewrite cw_iwiden, <- !tcount_inf. apply tw_le, wf_thr_inf. Qed.
Lemma iw_lt a b : is_bot a = false -> ileq b a = false -> bcount (norm (cw iwiden a b)) < bcount a.
Proof. rewrite cw_iwiden, <- !tcount_inf. apply tw_lt, wf_thr_inf. Qed.
Lemma iw_lt2 a b : is_bot a = false -> ileq (norm (cw iwiden a b)) a = false ->
  bcount (norm (cw iwiden a b)) < bcount a.
Proof. rewrite cw_iwiden, <- !tcount_inf. apply tw_lt2, wf_thr_inf. Qed.

Local Hint Resolve iw_nonbot iw_le iw_lt iw_lt2 : core.

(* number of finite (more precisely: non-default) bounds of the bound variables *)
Definition emeasure : amap -> nat := mmeasure bcount.
Definition e_lt : env -> env -> Prop := env_lt bcount.

Lemma e_widen_is_f a b : e_widen a b = e_widen_f iwiden a b.
Proof. reflexivity. Qed.

Theorem e_lt_wf : well_founded e_lt.
Proof. exact (env_lt_wf bcount eq_refl). Qed.

Theorem e_widen_progress a b : env_ok a -> env_ok b -> e_leq b a = false -> e_lt (e_widen a b) a.
Proof.
  intros OKa _. rewrite e_widen_is_f. apply e_widen_f_progress; auto.
Qed.

(* chains x_{i+1} = x_i widen y_i with arbitrary (well-formed) y_i *)
Definition ewchain := echain iwiden.
Definition ew_nonstationary := enonstationary iwiden.
Definition ew_refused := erefused iwiden.

Theorem e_widen_chain_stabilises x0 ys : env_ok x0 -> (forall i, env_ok (ys i)) ->
  forall j m, ewchain x0 ys j = EMap m -> (forall i, i < j -> ewchain x0 ys i = EBot) ->
  forall n, length (filter (ew_nonstationary x0 ys) (seq 0 n)) <= 1 + emeasure m.
Proof.
  intros OK0 OKy. apply echain_stabilises; auto.
Qed.

Theorem e_widen_chain_refusals x0 ys : env_ok x0 -> (forall i, env_ok (ys i)) ->
  forall j m, ewchain x0 ys j = EMap m -> (forall i, i < j -> ewchain x0 ys i = EBot) ->
  forall n, length (filter (ew_refused x0 ys) (seq 0 n)) <= 1 + emeasure m.
Proof.
  intros OK0 OKy. apply echain_refusals_finite; auto.
Qed.

Theorem e_widen_chain_from_map x0 ys : env_ok x0 -> (forall i, env_ok (ys i)) ->
  forall j m, ewchain x0 ys j = EMap m ->
  forall k, length (filter (ew_nonstationary x0 ys) (seq j k)) <= emeasure m.
Proof.
  intros OK0 OKy. apply echain_nonstationary_bound; auto.
Qed.

(* the invariant is needed: with a key bound to the bottom interval the widening of two
   maps is bottom although the inclusion test failed, and the next step returns to a map *)
Example e_widen_needs_invariant :
  let a := EMap [(0%N, ibot); (1%N, mkI (Fin 0) (Fin 0))] in
  let b := EMap [(0%N, ibot); (1%N, mkI (Fin 0) (Fin 1))] in
  e_leq b a = false /\ e_widen a b = EBot /\ e_leq b (e_widen a b) = false /\ e_widen (e_widen a b) b = b.
Proof. vm_compute. repeat split. Qed.

Example e_widen_progress_example :
  let a := EMap [(1%N, mkI (Fin 0) (Fin 0)); (2%N, mkI (Fin 3) PInf)] in
  let b := EMap [(1%N, mkI (Fin 0) (Fin 1)); (2%N, mkI (Fin 2) PInf)] in
  env_ok a /\ env_ok b /\ e_leq b a = false /\
  e_widen a b = EMap [(1%N, mkI (Fin 0) PInf)] /\ emeasure [(1%N, mkI (Fin 0) PInf)] = 1 /\
  emeasure [(1%N, mkI (Fin 0) (Fin 0)); (2%N, mkI (Fin 3) PInf)] = 3.
Proof.
  cbv zeta. repeat split; try (vm_compute; reflexivity);
  intros k; cbn [get]; repeat (destruct (N.eqb _ k)); reflexivity.
Qed.

