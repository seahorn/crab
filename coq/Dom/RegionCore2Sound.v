(* RegionCore2Sound.v — property C15 on the extended region-domain model (Dom/RegionCore2.v).

   Concrete semantics: a store over the base variables (integers, booleans; for a reference its
   address and, with region.is_dereferenceable, its ghost offset and size), a heap
   region -> component -> address -> value (a cell holds an integer, or a reference with its ghost
   offset and size: components PInt / PAdr, POff, PSiz), and the instrumentation of
   Dom/RegionCoreSound.v (references created per region, allocation sites, tags).
   The abstract value is related to a concrete state through a witness store that gives every
   ghost variable of a region a representative; a ghost variable of a region describes the
   component of every cell of the region it is LIVE for: the ghost variables an unknown region
   has under its current dynamic type when it is tracked, none otherwise.  The base domain is
   non-relational, so a value describes the product of one set of integers per base variable
   ([allowed], [RBA]); all transfer functions are composed from a few lemmas on such products
   (rb_upd, rb_forget_list, rb_assign, rb_weak_assign, rb_read, rb_expand, the rb_comp lemmas).
   The rest of the relation is re-established by rel2_var_update for an operation on a variable
   that is not a region (after rel2_grow when it creates a reference), by store_rest for a store.

   Proved here (every parameter setting, typed and unknown regions, both settings of
   skip_unknown_regions): ref_make with a size, ref_free, ref_load (tracked / untracked / type
   mismatch, strong and weak reads of one or three ghost variables), ref_gep with offsets,
   ref_assume with the offset and size constraints, int_to_ref, ref_to_int, operator-= on
   integers and references, the is_dereferenceable intrinsic and query, assign / arithmetic /
   assume, and the history theorem over these operations (region2_history_sound); the base-domain
   part of ref_store (rb_mem_write, rb_retype, rb_write_notlive) and everything but the base
   domain (store_rest).  The assembly of ref_store, region_init, join and widening are in
   Dom/RegionCore2Sound2.v.  NOT proved (mirrored and tested only): region_copy, region_cast,
   operator-= on regions, forget, project, add_tag, select_ref, meet and narrowing on the
   extended state. *)
From Coq Require Import ZArith NArith List Bool Lia.
From CrabV Require Import Base.ZInf Scalar.Itv Scalar.ItvSound Scalar.SmallRange Scalar.Boolean
     Ir.Syntax Dom.ItvEnv Dom.ItvEnvSound Dom.ItvSolver Dom.ItvSolverSound Dom.ItvDomain
     Dom.ItvDomainSound Dom.RegionCore Dom.RegionCoreSound Dom.RegionCore2.
Import ListNotations.
Local Open Scope Z_scope.

Arguments d_add : simpl never.
Arguments d_assign : simpl never.
Arguments d_weak_assign : simpl never.
Arguments d_expand : simpl never.
Arguments d_apply_arith : simpl never.

(* the components of a memory cell: an integer, or a reference with its ghost offset and size *)
Inductive prj := PInt | PAdr | POff | PSiz.
Definition prj_eqb (a b : prj) : bool :=
  match a, b with PInt, PInt | PAdr, PAdr | POff, POff | PSiz, PSiz => true | _, _ => false end.
Lemma prj_eqb_spec a b : reflect (a = b) (prj_eqb a b).
Proof. destruct a, b; cbn; constructor; congruence. Qed.
Definition heap := var -> prj -> Z -> option Z.

Record cst := mkS {
  m_st : store;
  m_hp : heap;
  m_made : var -> list (Z * Z);
  m_asite : Z -> option Z;
  m_vtg : var -> list Z;
  m_htg : var -> Z -> list Z
}.
Definition maddrs (c : cst) (g : var) : list Z := map snd (m_made c g).
Definition mcreators (c : cst) (g : var) : list Z := map fst (m_made c g).
Definition mwf (c : cst) : Prop := forall g k a z, m_hp c g k a = Some z -> In a (maddrs c g).
Definition mvalid (c : cst) (g : var) (a : Z) : Prop := a <> 0 /\ In a (maddrs c g).

Definition hwrite (hp : heap) (g : var) (a : Z) (f : prj -> option Z) : heap :=
  fun g' k x => if N.eqb g' g && (x =? a) then f k else hp g' k x.
Definition cell_int (z : Z) : prj -> option Z := fun k => match k with PInt => Some z | _ => None end.
Definition cell_ref (ad o s : Z) : prj -> option Z :=
  fun k => match k with PInt => None | PAdr => Some ad | POff => Some o | PSiz => Some s end.

Lemma hwrite_same hp g a f k : hwrite hp g a f g k a = f k.
Proof. unfold hwrite. rewrite N.eqb_refl, Z.eqb_refl. reflexivity. Qed.
Lemma hwrite_other_rgn hp g a f g' k x : g' <> g -> hwrite hp g a f g' k x = hp g' k x.
Proof. unfold hwrite. intros H. destruct (N.eqb_spec g' g); [congruence|reflexivity]. Qed.
Lemma hwrite_other_addr hp g a f g' k x : x <> a -> hwrite hp g a f g' k x = hp g' k x.
Proof. unfold hwrite. intros H. destruct (Z.eqb_spec x a); [congruence|]. rewrite andb_false_r. reflexivity. Qed.

(* A family of sets of values, one per base variable, and the stores it describes.  The base
   domain is non-relational: an abstract value describes the product of the sets. *)
Definition vsets := var -> Z -> Prop.
Definition VW (A : vsets) (s : store) : Prop := forall v, A v (s v).
Definition RBA (A : vsets) (E : env) : Prop := forall s, VW A s -> genv E s.

(* the general step: [x] is updated, the sets of the other variables do not grow *)
Lemma rb_upd (A : vsets) E (A' : vsets) E' x (P : store -> Z -> Prop) :
  RBA A E ->
  (forall s z, VW A s -> genv E s -> P s z -> genv E' (upd s x z)) ->
  (forall v z, v <> x -> A' v z -> A v z) ->
  (forall s', VW A' s' -> exists z0, A x z0 /\ P (upd s' x z0) (s' x)) ->
  RBA A' E'.
Proof.
  intros R H1 H2 H3 s' V'. destruct (H3 _ V') as (z0 & A0 & PP).
  assert (V : VW A (upd s' x z0)).
  { intros v. destruct (N.eq_dec v x) as [->|N].
    - rewrite upd_same. exact A0.
    - rewrite upd_other by auto. apply H2; auto. }
  pose proof (H1 _ _ V (R _ V) PP) as G. eapply genv_ext; [|exact G].
  intros k. destruct (N.eq_dec k x) as [->|N]; [rewrite upd_same; reflexivity|rewrite !upd_other by auto; reflexivity].
Qed.

(* nothing is updated: the sets do not grow *)
Lemma rb_mono (A : vsets) E (A' : vsets) E' :
  RBA A E ->
  (forall s, VW A s -> genv E s -> genv E' s) ->
  (forall v z, A' v z -> A v z) ->
  RBA A' E'.
Proof. intros R H1 H2 s' V'. assert (V : VW A s') by (intros v; apply H2, V'). apply H1; auto. Qed.

Lemma rb_shrink (A A' : vsets) E : RBA A E -> (forall v z, A' v z -> A v z) -> RBA A' E.
Proof. intros R H. apply (rb_mono A E A' E R); auto. Qed.

Lemma rb_forget (A : vsets) E (A' : vsets) x :
  RBA A E -> (exists z0, A x z0) ->
  (forall v z, v <> x -> A' v z -> A v z) ->
  RBA A' (e_forget E x).
Proof.
  intros R (z0 & A0) H2. apply (rb_upd A E A' _ x (fun _ _ => True) R); auto.
  - intros s z V G _. apply e_forget_sound; auto.
  - intros s' V'. exists z0. split; [exact A0|exact I].
Qed.

Lemma rb_forget_list xs : forall (A : vsets) E (A' : vsets),
  RBA A E -> (forall v, exists z, A v z) -> (forall v, exists z, A' v z) ->
  (forall v z, ~ In v xs -> A' v z -> A v z) ->
  RBA A' (fold_left e_forget xs E).
Proof.
  induction xs as [|x r IH]; simpl; intros A E A' R N N' H.
  - apply (rb_shrink A A' E R). intros v z. apply H. intros [].
  - set (A1 := fun v z => if N.eqb v x then A' v z else A v z).
    apply (IH A1 (e_forget E x) A').
    + apply (rb_forget A E A1 x R (N x)). intros v z Nv. unfold A1.
      destruct (N.eqb_spec v x); [congruence|auto].
    + intros v. unfold A1. destruct (N.eqb v x); auto.
    + exact N'.
    + intros v z NI Av. unfold A1. destruct (N.eqb_spec v x) as [->|Nx]; auto.
      apply H; auto. intros [E0|I]; [congruence|contradiction].
Qed.

Lemma rb_assign (A : vsets) E (A' : vsets) x e :
  RBA A E ->
  (forall v z, v <> x -> A' v z -> A v z) ->
  (forall s', VW A' s' -> exists z0, A x z0 /\ s' x = eval_le e (upd s' x z0)) ->
  RBA A' (d_assign x e E).
Proof.
  intros R H2 H3. apply (rb_upd A E A' _ x (fun s z => z = eval_le e s) R); auto.
  intros s z V G ->. apply d_assign_sound; auto.
Qed.

Lemma rb_weak_assign (A : vsets) E (A' : vsets) x e :
  RBA A E ->
  (forall v z, v <> x -> A' v z -> A v z) ->
  (forall s', VW A' s' -> A x (s' x) \/ exists z0, A x z0 /\ s' x = eval_le e (upd s' x z0)) ->
  RBA A' (d_weak_assign x e E).
Proof.
  intros R H2 H3.
  apply (rb_upd A E A' _ x (fun s z => z = s x \/ z = eval_le e s) R); auto.
  - intros s z V G [->| ->].
    + destruct (d_weak_assign_sound x e E s G) as [W _]. eapply genv_ext; [|exact W].
      intros k. destruct (N.eq_dec k x) as [->|N]; [rewrite upd_same|rewrite upd_other by auto]; reflexivity.
    + destruct (d_weak_assign_sound x e E s G) as [_ W]. exact W.
  - intros s' V'. destruct (H3 _ V') as [A0|(z0 & A0 & Ev)].
    + exists (s' x). split; auto. left. rewrite upd_same. reflexivity.
    + exists z0. split; auto.
Qed.

Lemma rb_nonbot (A : vsets) E w : RBA A E -> VW A w -> exists m, E = EMap m.
Proof. intros R V. specialize (R _ V). destruct E as [|m]; [elim R|eauto]. Qed.

(* which base variables summarise which component of the cells of a region *)
Definition live_fn := var -> list (var * prj).
(* the values a base variable stands for: its own value in the witness store [w], or the
   component of any cell of a region it summarises *)
Definition allowed (L : live_fn) (hp : heap) (w : store) : vsets :=
  fun v z => z = w v \/ exists g k x, In (v, k) (L g) /\ hp g k x = Some z.
Lemma allowed_w L hp w : VW (allowed L hp w) w.
Proof. intros v. left. reflexivity. Qed.
Lemma allowed_ne L hp w v : exists z, allowed L hp w v z.
Proof. exists (w v). left. reflexivity. Qed.

Definition igamma2 (b : bv) (c : cst) (g : var) : Prop :=
  match b with
  | BFalse => forall k x, m_hp c g k x = None
  | BTrue => exists k x z, m_hp c g k x = Some z
  | BBot => False
  | BTop => True
  end.
Lemma ig2_join x y c g : igamma2 x c g \/ igamma2 y c g -> igamma2 (bv_join x y) c g.
Proof. destruct x, y; cbn; intros [H|H]; auto; try contradiction. Qed.
Lemma ig2_meet x y c g : igamma2 x c g -> igamma2 y c g -> igamma2 (bv_meet x y) c g.
Proof.
  destruct x, y; cbn; intros H1 H2; auto; try contradiction.
  - destruct H2 as (k & a & z & E). rewrite H1 in E. discriminate.
  - destruct H1 as (k & a & z & E). rewrite H2 in E. discriminate.
Qed.
Definition sgamma2 (c : cst) (d : dset) (z : Z) : Prop :=
  match d with
  | None => True
  | Some ss => z = 0 \/ exists site, m_asite c z = Some site /\ In site ss
  end.
Lemma sg2_join c a b z : sgamma2 c a z \/ sgamma2 c b z -> sgamma2 c (ds_join a b) z.
Proof.
  destruct a as [x|], b as [y|]; cbn; auto.
  intros [[H|(s & A & I)]|[H|(s & A & I)]]; auto; right; exists s; split; auto; apply in_or_app; auto.
Qed.
Lemma sg2_meet c a b z : sgamma2 c a z -> sgamma2 c b z -> sgamma2 c (ds_meet a b) z.
Proof.
  unfold ds_meet. intros H1 H2.
  destruct (ds_is_bottom a) eqn:B1.
  { destruct a as [[|? ?]|]; try discriminate. cbn in *. destruct H1 as [H|(s & _ & [])]; auto. }
  destruct (ds_is_bottom b) eqn:B2.
  { destruct b as [[|? ?]|]; try discriminate. cbn in *. destruct H2 as [H|(s & _ & [])]; auto. }
  cbn [orb]. destruct a as [x|], b as [y|]; auto.
  cbn in *. destruct H1 as [H|(s & A & I)]; auto. destruct H2 as [H|(s' & A' & I')]; auto.
  right. exists s. split; auto. apply filter_In. split; auto. apply ds_mem_spec. congruence.
Qed.
Lemma sg2_zero c d : sgamma2 c d 0.
Proof. destruct d; cbn; auto. Qed.
Lemma sg2_mono c c' d z :
  (forall y s, m_asite c y = Some s -> m_asite c' y = Some s) -> sgamma2 c d z -> sgamma2 c' d z.
Proof.
  intros E. destruct d as [ss|]; cbn; auto. intros [H|(s & A & I)]; auto. right. exists s. split; auto.
Qed.

Section Sound.
Variable C : rconf2.
Let P := k_params C.
(* the CrabIR variables of the program; every other name is a ghost name *)
Variable prog : var -> bool.
Hypothesis kind_np : forall v, prog v = false -> k_kind C v = VInt.
Hypothesis adr_np : forall v, prog (k_adr C v) = false.
Hypothesis off_np : forall v, prog (k_off C v) = false.
Hypothesis siz_np : forall v, prog (k_siz C v) = false.
Hypothesis dup_np : forall v, prog (k_dup C v) = false.
Hypothesis adr_inj : forall a b, k_adr C a = k_adr C b -> a = b.
Hypothesis off_inj : forall a b, k_off C a = k_off C b -> a = b.
Hypothesis siz_inj : forall a b, k_siz C a = k_siz C b -> a = b.
Hypothesis dup_inj : forall a b, k_dup C a = k_dup C b -> a = b.
Hypothesis adr_off : forall a b, k_adr C a <> k_off C b.
Hypothesis adr_siz : forall a b, k_adr C a <> k_siz C b.
Hypothesis off_siz : forall a b, k_off C a <> k_siz C b.
Hypothesis dup_adr : forall a b, k_dup C a <> k_adr C b.
Hypothesis dup_off : forall a b, k_dup C a <> k_off C b.
Hypothesis dup_siz : forall a b, k_dup C a <> k_siz C b.

(* the base variable holding the address of a reference / the contents of a region of references *)
Definition ga (v : var) : var := fst (gv_ref C v).
Definition go (v : var) : var := k_off C v.
Definition gz (v : var) : var := k_siz C v.
Lemma ga_cases v : (q_deref P = true /\ ga v = k_adr C v) \/ (q_deref P = false /\ ga v = v).
Proof. unfold ga, gv_ref. fold P. destruct (q_deref P); auto. Qed.
Lemma gv_ref_eq v : gv_ref C v = (ga v, if q_deref P then Some (go v, gz v) else None).
Proof. unfold ga, gv_ref, go, gz. fold P. destruct (q_deref P); reflexivity. Qed.

Definition comps (t : rty) (gv : gvars) : list (var * prj) :=
  match t with
  | TInt => [(fst gv, PInt)]
  | TRef => (fst gv, PAdr) :: match snd gv with Some (o, z) => [(o, POff); (z, PSiz)] | None => [] end
  | TUnk => []
  end.
(* the type of the contents of a tracked region *)
Definition live_ty (t : tyv) (k : vk) : option rty :=
  match k with
  | VRgnInt => Some TInt
  | VRgnRef => Some TRef
  | VRgnUnk => if has_dyn C VRgnUnk t then match t with Ty TInt => Some TInt | Ty TRef => Some TRef | _ => None end else None
  | _ => None
  end.
Definition live_of (g : var) (t : tyv) : list (var * prj) :=
  match live_ty t (k_kind C g) with Some r => comps r (gv_of_ty C g t) | None => [] end.
Definition live (a : rst2) : live_fn := fun g => live_of g (typ a g).

(* names that may be ghost variables of regions *)
Definition rgn_name (v : var) : Prop :=
  exists g, vk_is_rgn (k_kind C g) = true /\ (v = g \/ v = k_adr C g \/ v = k_off C g \/ v = k_siz C g).

(* the ghost variable of a region that describes a component of its cells *)
Definition cname (g : var) (k : prj) : var :=
  match k with PInt => g | PAdr => ga g | POff => go g | PSiz => gz g end.
Lemma live_of_inv g t v k : In (v, k) (live_of g t) -> vk_is_rgn (k_kind C g) = true /\ v = cname g k.
Proof.
  assert (RI : In (v, k) (comps TInt (gv_plain g)) -> v = cname g k).
  { intros [E|[]]. inversion E. reflexivity. }
  assert (RF : In (v, k) (comps TRef (gv_ref C g)) -> v = cname g k).
  { rewrite gv_ref_eq. cbn [comps fst snd]. destruct (q_deref P).
    - intros [E|[E|[E|[]]]]; inversion E; reflexivity.
    - intros [E|[]]; inversion E; reflexivity. }
  unfold live_of, live_ty, gv_of_ty.
  destruct (k_kind C g); cbn [vk_is_rgn]; try (intros []; fail).
  - intros I. split; [reflexivity|exact (RI I)].
  - intros I. split; [reflexivity|exact (RF I)].
  - destruct (has_dyn C VRgnUnk t); [|intros []].
    destruct t as [| |[| |]]; try (intros []; fail); intros I; (split; [reflexivity|]); [exact (RI I)|exact (RF I)].
Qed.

Lemma live_rgn_name a g v k : In (v, k) (live a g) -> rgn_name v.
Proof.
  intros I. apply live_of_inv in I. destruct I as [K ->]. exists g. split; [exact K|].
  destruct k; cbn [cname]; [left|destruct (ga_cases g) as [[_ ->]|[_ ->]]; [right; left|left]|right; right; left|right; right; right];
    reflexivity.
Qed.

Lemma allowed_notrgn a hp w v z : ~ rgn_name v -> allowed (live a) hp w v z -> z = w v.
Proof. intros N [E|(g & k & x & I & _)]; auto. elim N. eapply live_rgn_name; eauto. Qed.

(* program variables that are not regions, and their ghost names, are not names of regions *)
Definition scalar_kind (k : vk) : bool := negb (vk_is_rgn k).
Lemma prog_of_rgn g : vk_is_rgn (k_kind C g) = true -> prog g = true.
Proof. intros K. destruct (prog g) eqn:E; auto. rewrite (kind_np _ E) in K. discriminate. Qed.
Lemma notrgn_scalar x : vk_is_rgn (k_kind C x) = false -> prog x = true -> ~ rgn_name x.
Proof.
  intros K Px (g & Kg & [-> | [-> | [-> | ->]]]); try congruence.
Qed.
Lemma notrgn_adr x : vk_is_rgn (k_kind C x) = false -> ~ rgn_name (k_adr C x).
Proof.
  intros K (g & Kg & [E|[E|[E|E]]]).
  - pose proof (prog_of_rgn _ Kg) as Pg. rewrite <- E, adr_np in Pg. discriminate.
  - apply adr_inj in E. subst. congruence.
  - eapply adr_off; eauto.
  - eapply adr_siz; eauto.
Qed.
Lemma notrgn_off x : vk_is_rgn (k_kind C x) = false -> ~ rgn_name (k_off C x).
Proof.
  intros K (g & Kg & [E|[E|[E|E]]]).
  - pose proof (prog_of_rgn _ Kg) as Pg. rewrite <- E, off_np in Pg. discriminate.
  - symmetry in E. eapply adr_off; eauto.
  - apply off_inj in E. subst. congruence.
  - eapply off_siz; eauto.
Qed.
Lemma notrgn_siz x : vk_is_rgn (k_kind C x) = false -> ~ rgn_name (k_siz C x).
Proof.
  intros K (g & Kg & [E|[E|[E|E]]]).
  - pose proof (prog_of_rgn _ Kg) as Pg. rewrite <- E, siz_np in Pg. discriminate.
  - symmetry in E. eapply adr_siz; eauto.
  - symmetry in E. eapply off_siz; eauto.
  - apply siz_inj in E. subst. congruence.
Qed.
Lemma notrgn_ga x : vk_is_rgn (k_kind C x) = false -> prog x = true -> ~ rgn_name (ga x).
Proof.
  intros K Px. destruct (ga_cases x) as [[_ E]|[_ E]]; rewrite E; [apply notrgn_adr | apply notrgn_scalar]; auto.
Qed.
Lemma notrgn_dup x : ~ rgn_name (k_dup C x).
Proof.
  intros (g & Kg & [E|[E|[E|E]]]).
  - pose proof (prog_of_rgn _ Kg) as Pg. rewrite <- E, dup_np in Pg. discriminate.
  - eapply dup_adr; eauto.
  - eapply dup_off; eauto.
  - eapply dup_siz; eauto.
Qed.

Definition Aof (a : rst2) (c : cst) (w : store) : vsets := allowed (live a) (m_hp c) w.

(* [w]: the base store seen by the abstract value: the program store plus a representative for
   every ghost variable of a region *)
Record rel2 (a : rst2) (c : cst) (w : store) : Prop := mkRel2 {
  x_base : RBA (Aof a c w) (EMap (s_base a));
  x_count : forall g, cgamma (cnt a g) (mcreators c g);
  x_init : forall g, igamma2 (ini a g) c g;
  x_wf : mwf c;
  x_svar : forall p, k_kind C p = VRef -> prog p = true -> sgamma2 c (s_alloc a p) (w (ga p));
  x_srgn : forall g x ad, vk_is_rgn (k_kind C g) = true -> m_hp c g PAdr x = Some ad -> sgamma2 c (s_alloc a g) ad;
  x_soff : q_alloc P = false -> forall v, s_alloc a v = None;
  x_anull : m_asite c 0 = None;
  x_tvar : forall v, vk_is_rgn (k_kind C v) = false -> tgamma (s_tags a v) (m_vtg c v);
  x_trgn : forall g x, vk_is_rgn (k_kind C g) = true -> tgamma (s_tags a g) (m_htg c g x);
  x_toff : q_tags P = false -> forall v, s_tags a v = None;
  x_tuw : forall g x, (forall k, m_hp c g k x = None) -> m_htg c g x = []
}.
Definition agree (w : store) (c : cst) : Prop := forall v, ~ rgn_name v -> w v = m_st c v.
Definition relc (a : rst2) (c : cst) : Prop := exists w, agree w c /\ rel2 a c w.
Definition relv2 (v : rval2) (c : cst) : Prop := match v with None => False | Some a => relc a c end.

(* without region.is_dereferenceable references have no ghost offset / size *)
Definition set_ref (st : store) (p : var) (ad o s : Z) : store :=
  if q_deref P then upd (upd (upd st (ga p) ad) (go p) o) (gz p) s else upd st (ga p) ad.
Definition sval_cell (v : sval) (st : store) (f : prj -> option Z) : Prop :=
  match v with
  | SCst k => f = cell_int k
  | SNull => exists o s, f = cell_ref 0 o s
  | SVar x false => f = cell_int (st x)
  | SVar x true => f = cell_ref (st (ga x)) (st (go x)) (st (gz x))
  end.
Definition sval_tg (v : sval) (c : cst) : list Z := match v with SVar x _ => m_vtg c x | _ => [] end.

(* operator-= *)
Definition c_havoc (v : var) (c c' : cst) : Prop :=
  match k_kind C v with
  | VRef =>
    exists ad o s tl, c' = mkS (set_ref (m_st c) v ad o s) (m_hp c) (m_made c) (m_asite c) (fupd (m_vtg c) v tl) (m_htg c)
  | VInt | VBool =>
    exists z tl, c' = mkS (upd (m_st c) v z) (m_hp c) (m_made c) (m_asite c) (fupd (m_vtg c) v tl) (m_htg c)
  | _ =>
    m_st c' = m_st c /\ (forall g, g <> v -> m_hp c' g = m_hp c g) /\
    (forall g, g <> v -> m_made c' g = m_made c g) /\ m_asite c' = m_asite c /\ m_vtg c' = m_vtg c /\
    (forall g, g <> v -> m_htg c' g = m_htg c g) /\ mwf c' /\
    (forall x, (forall k, m_hp c' v k x = None) -> m_htg c' v x = [])
  end.
Fixpoint c_forget (vs : list var) (c c' : cst) : Prop :=
  match vs with
  | [] => c' = c
  | v :: r => exists c1, c_havoc v c c1 /\ c_forget r c1 c'
  end.

(* ref2 := ref1 + off *)
Definition c_gep2 (p2 g2 p1 g1 : var) (ov : Z) (lit0 : bool) (c c' : cst) : Prop :=
  let a1 := m_st c (ga p1) in let a2 := a1 + ov in
  (g1 = g2 -> a2 = a1 -> In a1 (maddrs c g1) \/ lit0 = true) /\
  (a1 = 0 -> a2 = 0) /\ m_asite c a2 = m_asite c a1 /\
  c' = mkS (set_ref (m_st c) p2 a2 (m_st c (go p1) + ov) (m_st c (gz p1))) (m_hp c)
           (if N.eqb g1 g2 && (a2 =? a1) then m_made c
            else fupd (m_made c) g2 (m_made c g2 ++ [(Z.of_N p2, a2)]))
           (m_asite c) (fupd (m_vtg c) p2 (m_vtg c p1)) (m_htg c).

(* reference constraints are about addresses; an equality p == q + k is only assumed between
   references into the same memory object (hence with coherent ghost offsets and sizes) *)
Definition rcst_holds2 (rc : rcst) (st : store) : Prop :=
  match rc with
  | RUn r p => rrel_holds r (st (ga p)) 0
  | RBin r p q k => rrel_holds r (st (ga p)) (st (ga q) + k)
  end.
Definition c_assume_ref2 (rc : rcst) (c c' : cst) : Prop :=
  rcst_holds2 rc (m_st c) /\
  match rc with
  | RBin REq p q k =>
    (k <> 0 -> m_asite c (m_st c (ga p)) = m_asite c (m_st c (ga q))) /\
    (q_deref P = true -> m_st c (go p) = m_st c (go q) + k /\ m_st c (gz p) = m_st c (gz q))
  | _ => True
  end /\ c' = c.

Definition c_sel_arm2 (p g : var) (arm : option (var * var)) (c c' : cst) : Prop :=
  match arm with
  | None => exists c1, c_havoc p c c1 /\ c_assume_ref2 (RUn REq p) c1 c'
  | Some (q, gq) => c_gep2 p g q gq 0 true c c'
  end.

Definition copy_rgn (l g : var) (c : cst) : cst :=
  mkS (m_st c) (fupd (m_hp c) l (m_hp c g)) (fupd (m_made c) l (m_made c g)) (m_asite c) (m_vtg c)
      (fupd (m_htg c) l (m_htg c g)).

Definition cstep2 (o : rop2) (c c' : cst) : Prop :=
  match o with
  | PInit _ g =>
    c' = mkS (m_st c) (fupd (m_hp c) g (fun _ _ => None)) (fupd (m_made c) g []) (m_asite c) (m_vtg c)
             (fupd (m_htg c) g (fun _ => []))
  | PMk _ p g site size =>
    exists a, a <> 0 /\ m_asite c a = None /\
      c' = mkS (set_ref (m_st c) p a 0 (operand_val size (m_st c))) (m_hp c)
               (fupd (m_made c) g (m_made c g ++ [(Z.of_N p, a)]))
               (fun x => if x =? a then Some site else m_asite c x) (fupd (m_vtg c) p []) (m_htg c)
  | PFree _ g p => c' = c
  | PLd _ x p g =>
    let a := m_st c (ga p) in
    mvalid c g a /\
    match k_kind C x with
    | VInt => exists z, m_hp c g PInt a = Some z /\
        c' = mkS (upd (m_st c) x z) (m_hp c) (m_made c) (m_asite c) (fupd (m_vtg c) x (m_htg c g a)) (m_htg c)
    | VRef => exists ad o s, m_hp c g PAdr a = Some ad /\ m_hp c g POff a = Some o /\ m_hp c g PSiz a = Some s /\
        c' = mkS (set_ref (m_st c) x ad o s) (m_hp c) (m_made c) (m_asite c) (fupd (m_vtg c) x (m_htg c g a)) (m_htg c)
    | _ => False
    end
  | PSt _ p g v =>
    let a := m_st c (ga p) in
    mvalid c g a /\ exists f, sval_cell v (m_st c) f /\
      c' = mkS (m_st c) (hwrite (m_hp c) g a f) (m_made c) (m_asite c) (m_vtg c) (hupd (m_htg c) g a (sval_tg v c))
  | PGep _ p2 g2 p1 g1 off _ _ => c_gep2 p2 g2 p1 g1 (eval_le off (m_st c)) (lit_zero off) c c'
  | PRcopy _ l g => c' = copy_rgn l g c
  | PRcast _ src dst => c' = copy_rgn dst src c
  | PAssumeRef _ rc _ _ _ => c_assume_ref2 rc c c'
  | PSelRef _ p g a1 a2 _ _ => c_sel_arm2 p g a1 c c' \/ c_sel_arm2 p g a2 c c'
  | PR2i _ p x =>
    c' = mkS (upd (m_st c) x (m_st c (ga p))) (m_hp c) (m_made c) (m_asite c) (fupd (m_vtg c) x (m_vtg c p)) (m_htg c)
  | PI2r _ x g p =>
    exists o s, c' = mkS (set_ref (m_st c) p (m_st c x) o s) (m_hp c)
                         (fupd (m_made c) g (m_made c g ++ [(Z.of_N p, m_st c x)]))
                         (m_asite c) (fupd (m_vtg c) p (m_vtg c x)) (m_htg c)
  | PTag _ g t =>
    exists a k z, m_hp c g k a = Some z /\
      c' = mkS (m_st c) (m_hp c) (m_made c) (m_asite c) (m_vtg c) (hupd (m_htg c) g a (t :: m_htg c g a))
  | PIsDeref _ b => if q_deref P then c_havoc b c c' else c' = c
  | PAssign _ x e =>
    c' = mkS (upd (m_st c) x (eval_le e (m_st c))) (m_hp c) (m_made c) (m_asite c)
             (fupd (m_vtg c) x (flat_map (fun p => m_vtg c (snd p)) (le_terms e))) (m_htg c)
  | PArith _ op x y z =>
    exists r, arith_sem op (m_st c y) (operand_val z (m_st c)) = Some r /\
      c' = mkS (upd (m_st c) x r) (m_hp c) (m_made c) (m_asite c)
               (fupd (m_vtg c) x (m_vtg c y ++ match z with OVar v => m_vtg c v | OCst _ => [] end)) (m_htg c)
  | PAssume _ cs => (forall k, In k cs -> sat k (m_st c)) /\ c' = c
  | PHavoc _ v => c_havoc v c c'
  | PForget _ vs => c_forget vs c c'
  | PProject _ vs => False
  | _ => False
  end.

Lemma allowed_upd_other L hp w x z v z' : v <> x -> allowed L hp (upd w x z) v z' -> allowed L hp w v z'.
Proof. intros N [E|H]; [left; rewrite E; apply upd_other; auto | right; exact H]. Qed.
Lemma allowed_upd_other' L hp w x z v z' : v <> x -> allowed L hp w v z' -> allowed L hp (upd w x z) v z'.
Proof. intros N [E|H]; [left; rewrite E; symmetry; apply upd_other; auto | right; exact H]. Qed.

Definition scalar_exp (e : linexp) : Prop := forall co v, In (co, v) (le_terms e) -> ~ rgn_name v.

(* a store described by the sets agrees with the witness on names that are not region names *)
Lemma vw_notrgn a hp w s v : VW (allowed (live a) hp w) s -> ~ rgn_name v -> s v = w v.
Proof. intros V N. eapply allowed_notrgn; eauto. Qed.

Lemma eval_scalar a hp w s e : VW (allowed (live a) hp w) s -> scalar_exp e -> eval_le e s = eval_le e w.
Proof. intros V S. apply eval_le_ext. intros co v I. eapply vw_notrgn; eauto. Qed.
Lemma rb_ext (A A' : vsets) E : RBA A E -> (forall v z, A' v z <-> A v z) -> RBA A' E.
Proof. intros R H. apply (rb_shrink A A' E R). intros v z. apply H. Qed.

Lemma set_al_get s v d x :
  s_alloc (set_al C s v d) x = if q_alloc P then (if N.eqb x v then d else s_alloc s x) else s_alloc s x.
Proof. unfold set_al. fold P. destruct (q_alloc P); auto. Qed.
Lemma set_tg_get s v d x :
  s_tags (set_tg C s v d) x = if q_tags P then (if N.eqb x v then d else s_tags s x) else s_tags s x.
Proof. unfold set_tg. fold P. destruct (q_tags P); auto. Qed.
Lemma set_al_base s v d : s_base (set_al C s v d) = s_base s.
Proof. unfold set_al. destruct (q_alloc _); auto. Qed.
Lemma set_al_rgn s v d : s_rgn (set_al C s v d) = s_rgn s.
Proof. unfold set_al. destruct (q_alloc _); auto. Qed.
Lemma set_al_tags s v d : s_tags (set_al C s v d) = s_tags s.
Proof. unfold set_al. destruct (q_alloc _); auto. Qed.
Lemma set_tg_base s v d : s_base (set_tg C s v d) = s_base s.
Proof. unfold set_tg. destruct (q_tags _); auto. Qed.
Lemma set_tg_rgn s v d : s_rgn (set_tg C s v d) = s_rgn s.
Proof. unfold set_tg. destruct (q_tags _); auto. Qed.
Lemma set_tg_alloc s v d : s_alloc (set_tg C s v d) = s_alloc s.
Proof. unfold set_tg. destruct (q_tags _); auto. Qed.
(* writing back the value a variable has changes nothing *)
Lemma set_al_id s x v : s_alloc (set_al C s x (s_alloc s x)) v = s_alloc s v.
Proof. rewrite set_al_get. destruct (q_alloc P), (N.eqb_spec v x); subst; reflexivity. Qed.
Lemma set_tg_id s x v : s_tags (set_tg C s x (s_tags s x)) v = s_tags s v.
Proof. rewrite set_tg_get. destruct (q_tags P), (N.eqb_spec v x); subst; reflexivity. Qed.

Lemma live_same_rgn a a' : s_rgn a' = s_rgn a -> live a' = live a.
Proof. intros E. unfold live, typ. rewrite E. reflexivity. Qed.
Lemma cnt_same a a' g : s_rgn a' = s_rgn a -> cnt a' g = cnt a g.
Proof. intros E. unfold cnt. rewrite E. reflexivity. Qed.
Lemma ini_same a a' g : s_rgn a' = s_rgn a -> ini a' g = ini a g.
Proof. intros E. unfold ini. rewrite E. reflexivity. Qed.
Lemma gv_of_same_rgn s s' v : s_rgn s' = s_rgn s -> gv_of C s' v = gv_of C s v.
Proof. intros E. unfold gv_of, typ. rewrite E. reflexivity. Qed.
Lemma typ_same_rgn s s' v : s_rgn s' = s_rgn s -> typ s' v = typ s v.
Proof. intros E. unfold typ. rewrite E. reflexivity. Qed.
Lemma live_set_info a g i g' : i_ty i = typ a g -> live (set_info a g i) g' = live a g'.
Proof.
  intros E. unfold live, typ, set_info. cbn [s_rgn]. destruct (N.eq_dec g' g) as [->|N].
  - rewrite fupd_same, E. reflexivity.
  - rewrite fupd_other by auto. reflexivity.
Qed.

Lemma wbase_some s E m : E = EMap m -> wbase s E = Some (mkR2 m (s_rgn s) (s_alloc s) (s_tags s)).
Proof. intros ->. reflexivity. Qed.

(* building a related value: the base domain part is given as an environment *)
Lemma relv2_intro s E c w :
  agree w c ->
  RBA (allowed (live s) (m_hp c) w) E ->
  (forall m, E = EMap m -> rel2 (mkR2 m (s_rgn s) (s_alloc s) (s_tags s)) c w) ->
  relv2 (wbase s E) c.
Proof.
  intros AG R H. destruct (rb_nonbot _ _ w R (allowed_w _ _ _)) as (m & ->).
  cbn [wbase relv2]. exists w. split; auto.
Qed.

Lemma merge_tg_sound a c w vs :
  rel2 a c w -> (forall v, In v vs -> vk_is_rgn (k_kind C v) = false) ->
  tgamma (merge_tg a vs) (flat_map (fun v => m_vtg c v) vs).
Proof.
  intros R. unfold merge_tg.
  assert (G : forall vs acc l, tgamma acc l -> (forall v, In v vs -> vk_is_rgn (k_kind C v) = false) ->
              tgamma (fold_left (fun acc v => ds_join acc (s_tags a v)) vs acc) (l ++ flat_map (fun v => m_vtg c v) vs)).
  { induction vs0 as [|v r IH]; simpl; intros acc l T K.
    - rewrite app_nil_r. auto.
    - rewrite app_assoc. apply IH; auto.
      apply tg_app; apply tg_join; [left; exact T | right; apply (x_tvar _ _ _ R); auto]. }
  intros K. apply (G vs ds_empty []); auto. apply tg_nil.
Qed.

Definition is_int_var (x : var) : Prop := prog x = true /\ (k_kind C x = VInt \/ k_kind C x = VBool).
Lemma int_notrgn x : is_int_var x -> ~ rgn_name x.
Proof. intros [Px [K|K]]; apply notrgn_scalar; auto; rewrite K; reflexivity. Qed.
Lemma int_kind_nr x : is_int_var x -> vk_is_rgn (k_kind C x) = false.
Proof. intros [_ [K|K]]; rewrite K; reflexivity. Qed.

Definition int_exp (e : linexp) : Prop := forall co v, In (co, v) (le_terms e) -> is_int_var v.
Lemma int_exp_scalar e : int_exp e -> scalar_exp e.
Proof. intros H co v I. apply int_notrgn. eapply H; eauto. Qed.
Lemma eval_int_exp e w c : agree w c -> int_exp e -> eval_le e (m_st c) = eval_le e w.
Proof. intros AG Ie. apply eval_le_ext. intros co v I. symmetry. apply AG. eapply int_exp_scalar; eauto. Qed.

Definition gnames (x : var) : list var := if vk_is_ref (k_kind C x) then gv_list (gv_ref C x) else [x].
Lemma gnames_ref x : k_kind C x = VRef -> gnames x = ga x :: if q_deref P then [go x; gz x] else [].
Proof. intros K. unfold gnames. rewrite K. cbn [vk_is_ref]. rewrite gv_ref_eq. unfold gv_list. cbn. destruct (q_deref P); reflexivity. Qed.
Lemma gnames_in_ref x v : In v (gnames x) -> vk_is_ref (k_kind C x) = true -> v = ga x \/ v = go x \/ v = gz x.
Proof.
  intros I K. unfold gnames in I. rewrite K, gv_ref_eq in I. unfold gv_list in I. cbn [fst snd] in I.
  destruct (q_deref P).
  - destruct I as [<-|[<-|[<-|[]]]]; [left|right; left|right; right]; reflexivity.
  - destruct I as [<-|[]]. left. reflexivity.
Qed.
Lemma ga_inj p q : ga p = ga q -> prog p = true -> prog q = true -> p = q.
Proof.
  intros E Pp Pq. unfold ga, gv_ref in E. destruct (q_deref (k_params C)); auto.
Qed.
Lemma ga_not_go p q : prog p = true -> ga p <> go q.
Proof.
  intros Pp E. unfold go in E. destruct (ga_cases p) as [[_ G]|[_ G]]; rewrite G in E.
  - eapply adr_off; eauto.
  - rewrite E, off_np in Pp. discriminate.
Qed.
Lemma ga_not_gz p q : prog p = true -> ga p <> gz q.
Proof.
  intros Pp E. unfold gz in E. destruct (ga_cases p) as [[_ G]|[_ G]]; rewrite G in E.
  - eapply adr_siz; eauto.
  - rewrite E, siz_np in Pp. discriminate.
Qed.
Lemma go_not_gz p q : go p <> gz q.
Proof. apply off_siz. Qed.
Lemma ga_not_gnames p x : k_kind C p = VRef -> prog p = true -> prog x = true -> vk_is_rgn (k_kind C x) = false ->
  p <> x -> ~ In (ga p) (gnames x).
Proof.
  intros Kp Pp Px Kx N. destruct (vk_is_ref (k_kind C x)) eqn:Rx.
  - intros I. destruct (gnames_in_ref _ _ I Rx) as [E|[E|E]].
    + apply N. apply ga_inj; auto.
    + exact (ga_not_go _ _ Pp E).
    + exact (ga_not_gz _ _ Pp E).
  - unfold gnames. rewrite Rx. intros [E|[]]. destruct (ga_cases p) as [[_ G]|[_ G]]; rewrite G in E.
    + rewrite E, adr_np in Px. discriminate.
    + congruence.
Qed.
Lemma gnames_int x : is_int_var x -> gnames x = [x].
Proof. intros [_ [K|K]]; unfold gnames; rewrite K; reflexivity. Qed.

Definition is_ref_var (p : var) : Prop := prog p = true /\ k_kind C p = VRef.
Lemma ref_kind_nr p : is_ref_var p -> vk_is_rgn (k_kind C p) = false.
Proof. intros [_ K]. rewrite K. reflexivity. Qed.
Lemma ref_notrgn_ga p : is_ref_var p -> ~ rgn_name (ga p).
Proof. intros [Pp K]. apply notrgn_ga; auto. rewrite K. reflexivity. Qed.
Lemma ref_notrgn_go p : is_ref_var p -> ~ rgn_name (go p).
Proof. intros [Pp K]. apply notrgn_off. rewrite K. reflexivity. Qed.
Lemma ref_notrgn_gz p : is_ref_var p -> ~ rgn_name (gz p).
Proof. intros [Pp K]. apply notrgn_siz. rewrite K. reflexivity. Qed.
Lemma int_not_gnames_ref x p : is_int_var x -> is_ref_var p -> ~ In x (gnames p).
Proof.
  intros Kx [Pp Kp] I. apply gnames_in_ref in I; [|rewrite Kp; reflexivity].
  destruct Kx as [Px Kx]. destruct I as [E|[E|E]]; subst x.
  - destruct (ga_cases p) as [[_ G]|[_ G]]; rewrite G in *; [rewrite adr_np in Px; discriminate|destruct Kx; congruence].
  - unfold go in Px. rewrite off_np in Px. discriminate.
  - unfold gz in Px. rewrite siz_np in Px. discriminate.
Qed.

Lemma set_ref_ga st p ad o s : prog p = true -> set_ref st p ad o s (ga p) = ad.
Proof.
  intros Pp. unfold set_ref. destruct (q_deref P).
  - rewrite upd_other by (apply ga_not_gz; auto). rewrite upd_other by (apply ga_not_go; auto). apply upd_same.
  - apply upd_same.
Qed.
Lemma set_ref_go st p ad o s : q_deref P = true -> set_ref st p ad o s (go p) = o.
Proof. intros D. unfold set_ref. rewrite D. rewrite upd_other by apply go_not_gz. apply upd_same. Qed.
Lemma set_ref_gz st p ad o s : q_deref P = true -> set_ref st p ad o s (gz p) = s.
Proof. intros D. unfold set_ref. rewrite D. apply upd_same. Qed.
Lemma set_ref_other st p ad o s v : k_kind C p = VRef -> ~ In v (gnames p) -> set_ref st p ad o s v = st v.
Proof.
  intros K N. rewrite (gnames_ref _ K) in N. unfold set_ref. destruct (q_deref P); cbn in N.
  - rewrite !upd_other; auto; intros ->; apply N; auto.
  - rewrite upd_other; auto.
Qed.
(* two stores that agree on a set of names still do after the same update *)
Lemma upd_agree (Q : var -> Prop) w w' x z :
  (forall v, Q v -> w v = w' v) -> forall v, Q v -> upd w x z v = upd w' x z v.
Proof. intros H v Qv. unfold upd. destruct (N.eqb v x); auto. Qed.
Lemma agree_st w st' hp' made' asite' vtg' htg' :
  (forall v, ~ rgn_name v -> w v = st' v) -> agree w (mkS st' hp' made' asite' vtg' htg').
Proof. intros H v N. cbn. auto. Qed.

(* fewer cells, summarised by fewer ghost variables *)
Lemma rb_cells L L' hp hp' w E :
  RBA (allowed L hp w) E ->
  (forall g k x v z, In (v, k) (L' g) -> hp' g k x = Some z -> In (v, k) (L g) /\ hp g k x = Some z) ->
  RBA (allowed L' hp' w) E.
Proof.
  intros R H. apply (rb_shrink _ _ _ R). intros v z [E0|(g & k & x & I & Hx)]; [left; exact E0|right].
  exists g, k, x. exact (H _ _ _ _ _ I Hx).
Qed.
Lemma rb_live_ext L L' hp w E : RBA (allowed L hp w) E -> (forall g, L' g = L g) -> RBA (allowed L' hp w) E.
Proof. intros R H. apply (rb_cells _ _ _ _ _ _ R). intros g k x v z I Hx. rewrite <- H. auto. Qed.

(* the instrumentation grows: references are created in region g, addresses get a site *)
Lemma rel2_grow a c w g i' made' asite' :
  rel2 a c w -> i_ini i' = ini a g -> i_ty i' = typ a g ->
  (forall g', g' <> g -> made' g' = m_made c g') ->
  cgamma (i_cnt i') (map fst (made' g)) -> incl (maddrs c g) (map snd (made' g)) ->
  (forall y s, m_asite c y = Some s -> asite' y = Some s) -> asite' 0 = None ->
  rel2 (set_info a g i') (mkS (m_st c) (m_hp c) made' asite' (m_vtg c) (m_htg c)) w.
Proof.
  intros R Ei Et Ho Hc Hm Ha Ha0.
  set (c' := mkS (m_st c) (m_hp c) made' asite' (m_vtg c) (m_htg c)).
  assert (MONO : forall d y, sgamma2 c d y -> sgamma2 c' d y) by (intros d y; apply sg2_mono; exact Ha).
  destruct R. constructor; auto.
  - apply (rb_live_ext _ _ _ _ _ x_base0). intros g'. apply live_set_info; auto.
  - intros g'. unfold cnt, mcreators. cbn. destruct (N.eq_dec g' g) as [->|N].
    + rewrite fupd_same. exact Hc.
    + rewrite fupd_other, Ho by auto. apply x_count0.
  - intros g'. unfold ini. cbn [set_info s_rgn]. destruct (N.eq_dec g' g) as [->|N].
    + rewrite fupd_same, Ei. apply x_init0.
    + rewrite fupd_other by auto. apply x_init0.
  - intros g' k y z H. unfold maddrs. cbn. destruct (N.eq_dec g' g) as [->|N].
    + apply Hm. exact (x_wf0 _ _ _ _ H).
    + rewrite Ho by auto. exact (x_wf0 _ _ _ _ H).
  - intros p K Pp. apply MONO. apply x_svar0; auto.
  - intros g' y ad K H. apply MONO. eapply x_srgn0; eauto.
Qed.

(* an operation that changes one program variable [x] that is not a region (all its ghost names):
   the abstract state gets new allocation sites and tags for x *)
Lemma rel2_var_update a c w x dal dtg tl S E w' st' :
  rel2 a c w -> vk_is_rgn (k_kind C x) = false -> prog x = true ->
  (forall v, ~ In v (gnames x) -> w' v = w v) -> (forall v, ~ rgn_name v -> w' v = st' v) ->
  RBA (allowed (live a) (m_hp c) w') E ->
  s_rgn S = s_rgn a ->
  (forall v, s_alloc S v = s_alloc (set_al C a x dal) v) ->
  (forall v, s_tags S v = s_tags (set_tg C a x dtg) v) ->
  (k_kind C x = VRef -> sgamma2 c dal (w' (ga x))) -> tgamma dtg tl ->
  relv2 (wbase S E) (mkS st' (m_hp c) (m_made c) (m_asite c) (fupd (m_vtg c) x tl) (m_htg c)).
Proof.
  intros R Kx Px HW AG HB ER EA ET Hal Htg.
  destruct (rb_nonbot _ _ w' HB (allowed_w _ _ _)) as (m & ->). exists w'. split; [exact AG|].
  assert (NR : forall g, vk_is_rgn (k_kind C g) = true -> N.eqb g x = false).
  { intros g Kg. apply N.eqb_neq. intros ->. congruence. }
  constructor; cbn [s_base s_rgn s_alloc s_tags m_hp m_vtg m_htg].
  - unfold Aof. rewrite (live_same_rgn a) by exact ER. exact HB.
  - intros g. rewrite (cnt_same a) by exact ER. apply (x_count _ _ _ R).
  - intros g. rewrite (ini_same a) by exact ER. apply (x_init _ _ _ R).
  - exact (x_wf _ _ _ R).
  - intros p Kp Pp. rewrite EA, set_al_get.
    destruct (q_alloc P) eqn:PA; [|rewrite (x_soff _ _ _ R PA); exact I].
    destruct (N.eqb_spec p x) as [->|N]; [apply Hal; auto|].
    rewrite HW by (apply ga_not_gnames; auto). apply (x_svar _ _ _ R); auto.
  - intros g y ad Kg H. rewrite EA, set_al_get, (NR g Kg). destruct (q_alloc P); eapply (x_srgn _ _ _ R); eauto.
  - intros Off v. rewrite EA, set_al_get, Off. apply (x_soff _ _ _ R); auto.
  - exact (x_anull _ _ _ R).
  - intros v Kv. rewrite ET, set_tg_get.
    destruct (q_tags P) eqn:PT; [|rewrite (x_toff _ _ _ R PT); exact I].
    destruct (N.eqb_spec v x) as [->|N]; [rewrite fupd_same; exact Htg|].
    rewrite fupd_other by auto. apply (x_tvar _ _ _ R); auto.
  - intros g y Kg. rewrite ET, set_tg_get, (NR g Kg). destruct (q_tags P); apply (x_trgn _ _ _ R); auto.
  - intros Off v. rewrite ET, set_tg_get, Off. apply (x_toff _ _ _ R); auto.
  - exact (x_tuw _ _ _ R).
Qed.

Lemma rel2_int_update a c w x z dtg tl E :
  rel2 a c w -> agree w c -> is_int_var x ->
  RBA (allowed (live a) (m_hp c) (upd w x z)) E -> tgamma dtg tl ->
  relv2 (wbase (set_tg C a x dtg) E)
        (mkS (upd (m_st c) x z) (m_hp c) (m_made c) (m_asite c) (fupd (m_vtg c) x tl) (m_htg c)).
Proof.
  intros R AG Kx HB Htg.
  apply (rel2_var_update a c w x (s_alloc a x) dtg tl _ _ (upd w x z)); auto.
  - apply int_kind_nr; auto.
  - apply Kx.
  - intros v N. apply upd_other. intros ->. apply N. rewrite gnames_int; auto. left; auto.
  - apply upd_agree. exact AG.
  - apply set_tg_rgn.
  - intros v. rewrite set_tg_alloc, set_al_id. reflexivity.
  - intros K. destruct Kx as [_ [K'|K']]; congruence.
Qed.

Lemma rel2_ref_update a c w p ad o s dal dtg tl S E :
  rel2 a c w -> agree w c -> is_ref_var p ->
  RBA (allowed (live a) (m_hp c) (set_ref w p ad o s)) E ->
  s_rgn S = s_rgn a ->
  (forall v, s_alloc S v = s_alloc (set_al C a p dal) v) ->
  (forall v, s_tags S v = s_tags (set_tg C a p dtg) v) ->
  sgamma2 c dal ad -> tgamma dtg tl ->
  relv2 (wbase S E)
        (mkS (set_ref (m_st c) p ad o s) (m_hp c) (m_made c) (m_asite c) (fupd (m_vtg c) p tl) (m_htg c)).
Proof.
  intros R AG Kp HB ER EA ET Hal Htg.
  apply (rel2_var_update a c w p dal dtg tl _ _ (set_ref w p ad o s)); auto.
  - apply ref_kind_nr; auto.
  - apply Kp.
  - intros v. apply set_ref_other, Kp.
  - unfold set_ref. destruct (q_deref P); repeat apply upd_agree; exact AG.
  - intros _. rewrite set_ref_ga by apply Kp. exact Hal.
Qed.

Lemma gv_forget_list g e : gv_forget g e = fold_left e_forget (gv_list g) e.
Proof. unfold gv_forget, os_forget, gv_list. destruct g as [v [[o z]|]]; reflexivity. Qed.

(* forgetting variables: the witness store may take any value there *)
Lemma rb_forget_vars L hp w w' E xs :
  RBA (allowed L hp w) E -> (forall v, ~ In v xs -> w' v = w v) -> RBA (allowed L hp w') (fold_left e_forget xs E).
Proof.
  intros R H. apply (rb_forget_list xs _ _ _ R (allowed_ne _ _ _) (allowed_ne _ _ _)).
  intros v z N [E0|X]; [left; rewrite E0; auto | right; exact X].
Qed.
Lemma rb_forget_scalar a hp w E x z :
  RBA (allowed (live a) hp w) E -> RBA (allowed (live a) hp (upd w x z)) (e_forget E x).
Proof.
  intros R. apply (rb_forget_vars _ _ _ _ _ [x] R). intros v N. apply upd_other. intros ->. apply N. left; auto.
Qed.
(* the ghost variables of a reference are forgotten *)
Lemma rb_forget_ref a hp w E p ad o s :
  k_kind C p = VRef -> RBA (allowed (live a) hp w) E ->
  RBA (allowed (live a) hp (set_ref w p ad o s)) (gv_forget (gv_ref C p) E).
Proof.
  intros K R. rewrite gv_forget_list. apply (rb_forget_vars _ _ _ _ _ _ R).
  intros v N. apply set_ref_other; auto. unfold gnames. rewrite K. exact N.
Qed.

Lemma rb_assign_scalar a hp w E x e :
  RBA (allowed (live a) hp w) E -> ~ rgn_name x -> scalar_exp e ->
  RBA (allowed (live a) hp (upd w x (eval_le e w))) (d_assign x e E).
Proof.
  intros R Nx Se. apply (rb_assign _ _ _ x e R).
  - intros v z' N. apply allowed_upd_other; auto.
  - intros s' V'. exists (w x). split; [left; reflexivity|].
    rewrite (vw_notrgn _ _ _ _ _ V' Nx), upd_same.
    apply eval_le_ext. intros co v I. destruct (N.eq_dec v x) as [->|N]; [rewrite upd_same; reflexivity|].
    rewrite upd_other by auto. rewrite (vw_notrgn _ _ _ _ _ V' (Se _ _ I)). rewrite upd_other by auto. reflexivity.
Qed.
Lemma le_var_scalar v : ~ rgn_name v -> scalar_exp (le_var v).
Proof. intros N co u [E|[]]. inversion E; subst. exact N. Qed.
Lemma le_const_scalar k : scalar_exp (le_const k).
Proof. intros co u []. Qed.
Lemma rb_assign_var_scalar a hp w E x y z :
  RBA (allowed (live a) hp w) E -> ~ rgn_name x -> ~ rgn_name y -> w y = z ->
  RBA (allowed (live a) hp (upd w x z)) (d_assign x (le_var y) E).
Proof.
  intros R Nx Ny <-. rewrite <- (eval_le_var y w). apply rb_assign_scalar; auto. apply le_var_scalar; auto.
Qed.

Lemma u_assign_sound a c c' w r x e :
  rel2 a c w -> agree w c -> is_int_var x -> int_exp e ->
  cstep2 (PAssign r x e) c c' -> relv2 (u_assign C x e a) c'.
Proof.
  intros R AG Kx Ke ->. unfold u_assign. rewrite (eval_int_exp e w c AG Ke), flat_map_terms.
  apply (rel2_int_update a c w); auto.
  - apply rb_assign_scalar; [apply (x_base _ _ _ R) | apply int_notrgn; auto | apply int_exp_scalar; auto].
  - apply (merge_tg_sound a c w); auto.
    intros v I. apply in_map_iff in I. destruct I as ([co u] & <- & I). apply int_kind_nr. eapply Ke; eauto.
Qed.

Lemma flat_map_terms2 {A} (f : var -> list A) (ts : list (Z * var)) :
  flat_map (fun p => f (snd p)) ts = flat_map f (map snd ts).
Proof. exact (flat_map_terms f ts). Qed.

Lemma rb_arith_scalar a hp w E op x y z r :
  RBA (allowed (live a) hp w) E -> ~ rgn_name x -> ~ rgn_name y -> (forall v, z = OVar v -> ~ rgn_name v) ->
  arith_sem op (w y) (operand_val z w) = Some r ->
  RBA (allowed (live a) hp (upd w x r)) (d_apply_arith op x y z E).
Proof.
  intros R Nx Ny Nz Sem.
  apply (rb_upd _ _ _ _ x (fun s v => arith_sem op (s y) (operand_val z s) = Some v) R).
  - intros s v V G S. eapply d_apply_arith_sound; eauto.
  - intros v z' N. apply allowed_upd_other; auto.
  - intros s' V'. exists (w x). split; [left; reflexivity|].
    rewrite (vw_notrgn _ _ _ _ _ V' Nx), upd_same.
    (* away from x the store read by the operation is the witness *)
    assert (EQ : forall v, ~ rgn_name v -> upd s' x (w x) v = w v).
    { intros v Nv. destruct (N.eq_dec v x) as [->|N]; [apply upd_same|]. rewrite upd_other by auto.
      rewrite (vw_notrgn _ _ _ _ _ V' Nv). apply upd_other; auto. }
    rewrite (EQ y Ny). replace (operand_val z (upd s' x (w x))) with (operand_val z w); [exact Sem|].
    destruct z as [v|k]; cbn; auto. symmetry. apply EQ. auto.
Qed.

Lemma u_arith_sound a c c' w r op x y z :
  rel2 a c w -> agree w c -> is_int_var x -> is_int_var y -> (forall v, z = OVar v -> is_int_var v) ->
  cstep2 (PArith r op x y z) c c' -> relv2 (u_arith C op x y z a) c'.
Proof.
  intros R AG Kx Ky Kz (res & Sem & ->). unfold u_arith.
  assert (Nz : forall v, z = OVar v -> ~ rgn_name v) by (intros v E; apply int_notrgn; auto).
  apply (rel2_int_update a c w); auto.
  - apply rb_arith_scalar; auto using int_notrgn. { apply (x_base _ _ _ R). }
    rewrite (AG y (int_notrgn _ Ky)). replace (operand_val z w) with (operand_val z (m_st c)); auto.
    destruct z as [v|k]; cbn; auto. symmetry. apply AG. auto.
  - destruct z as [v|k].
    + apply tg_app; apply tg_join; [left|right]; apply (x_tvar _ _ _ R); apply int_kind_nr; auto.
    + rewrite app_nil_r. apply (x_tvar _ _ _ R). apply int_kind_nr; auto.
Qed.

Lemma gv_of_ref s p : k_kind C p = VRef -> gv_of C s p = gv_ref C p.
Proof. intros K. unfold gv_of, gv_of_ty. rewrite K. reflexivity. Qed.
Lemma gv_of_int s x : is_int_var x -> gv_of C s x = gv_plain x.
Proof. intros [_ [K|K]]; unfold gv_of, gv_of_ty; rewrite K; reflexivity. Qed.
Lemma upd_other_notin w x z v : v <> x -> upd w x z v = w v.
Proof. apply upd_other. Qed.

Lemma u_r2i_sound a c c' w r p x :
  rel2 a c w -> agree w c -> is_ref_var p -> is_int_var x ->
  cstep2 (PR2i r p x) c c' -> relv2 (u_r2i C p x a) c'.
Proof.
  intros R AG Kp Kx ->. unfold u_r2i. rewrite (gv_of_ref _ _ (proj2 Kp)). unfold gv_var. fold (ga p).
  pose proof (ref_notrgn_ga _ Kp) as Np. rewrite <- (AG _ Np).
  apply (rel2_int_update a c w); auto.
  - apply rb_assign_var_scalar; auto. { apply (x_base _ _ _ R). } apply int_notrgn; auto.
  - apply (x_tvar _ _ _ R). apply ref_kind_nr; auto.
Qed.

Definition size_ok (z : operand) : Prop := forall v, z = OVar v -> is_int_var v.
Definition size_exp (z : operand) : linexp := match z with OCst k => le_const k | OVar x => le_var x end.
Lemma size_exp_scalar z : size_ok z -> scalar_exp (size_exp z).
Proof. intros OK. destruct z as [v|k]; cbn; [apply le_var_scalar; apply int_notrgn; auto | apply le_const_scalar]. Qed.
Lemma size_exp_eval z s : eval_le (size_exp z) s = operand_val z s.
Proof. destruct z; unfold size_exp, operand_val; [apply eval_le_var | apply eval_le_const]. Qed.

(* a reference created in g, in the concrete state and in the count of the region; addresses may get a site *)
Lemma rel2_created a c w g p ad asite' :
  rel2 a c w -> (forall y s, m_asite c y = Some s -> asite' y = Some s) -> asite' 0 = None ->
  rel2 (set_info a g (rc_incr (cnt a g) p, ini a g, typ a g))
       (mkS (m_st c) (m_hp c) (fupd (m_made c) g (m_made c g ++ [(Z.of_N p, ad)])) asite' (m_vtg c) (m_htg c)) w.
Proof.
  intros R Ha Ha0. apply rel2_grow; auto.
  - intros g' N. apply fupd_other; auto.
  - rewrite fupd_same, map_app. apply cg_incr, (x_count _ _ _ R).
  - rewrite fupd_same, map_app. apply incl_appl, incl_refl.
Qed.

Lemma u_mk_sound a c c' w r p g site size :
  rel2 a c w -> agree w c -> is_ref_var p -> size_ok size ->
  cstep2 (PMk r p g site size) c c' -> relv2 (u_mk C p g site size a) c'.
Proof.
  intros R AG Kp Ks (a0 & A0 & AS & ->). unfold u_mk.
  set (i := s_rgn a g). set (s1 := set_info a g (rc_incr (i_cnt i) p, i_ini i, i_ty i)).
  set (s2 := set_al C s1 p (Some [site])).
  rewrite (gv_of_ref s2 p (proj2 Kp)). replace (s_base s2) with (s_base a) by (unfold s2; rewrite set_al_base; reflexivity).
  (* the new address gets its site and its creator *)
  set (c1 := mkS (m_st c) (m_hp c) (fupd (m_made c) g (m_made c g ++ [(Z.of_N p, a0)]))
                 (fun x => if x =? a0 then Some site else m_asite c x) (m_vtg c) (m_htg c)).
  assert (R1 : rel2 s1 c1 w).
  { apply rel2_created; auto.
    - intros y s E0. destruct (Z.eqb_spec y a0); [congruence|auto].
    - destruct (Z.eqb_spec 0 a0); [congruence|]. apply (x_anull _ _ _ R). }
  set (szv := operand_val size (m_st c)).
  apply (rel2_ref_update s1 c1 w p a0 0 szv (Some [site]) (s_tags s1 p) []); auto.
  - pose proof (ref_notrgn_go _ Kp) as N2. pose proof (ref_notrgn_gz _ Kp) as N3.
    pose proof (rb_forget_scalar s1 (m_hp c) w _ (ga p) a0 (x_base _ _ _ R1)) as B1.
    unfold set_ref. rewrite gv_ref_eq. cbn [fst snd]. destruct (q_deref P) eqn:D; [|exact B1].
    fold (size_exp size).
    pose proof (rb_assign_scalar s1 (m_hp c) _ _ (go p) (le_const 0) B1 N2 (le_const_scalar 0)) as B2.
    pose proof (rb_assign_scalar s1 _ _ _ (gz p) (size_exp size) B2 N3 (size_exp_scalar _ Ks)) as B3.
    rewrite eval_le_const, size_exp_eval in B3.
    replace (operand_val size _) with szv in B3; [exact B3|].
    (* the size is not a ghost name of p *)
    destruct size as [u|k]; cbn; auto.
    assert (Iu : ~ In u (gnames p)) by (apply int_not_gnames_ref; auto).
    rewrite (gnames_ref _ (proj2 Kp)), D in Iu. cbn in Iu.
    rewrite !upd_other by (clear - Iu; intros ->; tauto). symmetry. apply AG, int_notrgn; auto.
  - apply set_al_rgn.
  - intros v. unfold s2. rewrite set_al_tags. symmetry. apply set_tg_id.
  - right. exists site. cbn. rewrite Z.eqb_refl. auto.
  - apply tg_nil.
Qed.

Lemma u_i2r_sound a c c' w r x g p :
  rel2 a c w -> agree w c -> is_int_var x -> is_ref_var p ->
  cstep2 (PI2r r x g p) c c' -> relv2 (u_i2r C x g p a) c'.
Proof.
  intros R AG Kx Kp (o & s & ->). unfold u_i2r.
  rewrite (gv_of_ref a p (proj2 Kp)).
  set (s1 := set_al C a p ds_top). set (s2 := set_tg C s1 p (s_tags s1 x)).
  assert (ER : s_rgn s2 = s_rgn a) by (unfold s2, s1; rewrite set_tg_rgn, set_al_rgn; reflexivity).
  rewrite ER. pose proof (int_notrgn _ Kx) as Nx. rewrite <- (AG x Nx).
  pose proof (rel2_created a c w g p (w x) _ R (fun _ _ H => H) (x_anull _ _ _ R)) as R1.
  eapply (rel2_ref_update _ _ w p (w x) o s ds_top (s_tags a x) (m_vtg c x) _ _ R1); auto.
  - cbn [m_hp]. unfold set_ref, os_forget. rewrite gv_ref_eq. cbn [fst snd].
    pose proof (rb_assign_var_scalar _ (m_hp c) w _ (ga p) x _ (x_base _ _ _ R1) (ref_notrgn_ga _ Kp) Nx eq_refl) as B1.
    destruct (q_deref P); [|exact B1].
    apply rb_forget_scalar. apply rb_forget_scalar. exact B1.
  - unfold set_info. cbn [s_rgn]. rewrite ER. reflexivity.
  - intros v. cbn [set_info s_alloc]. unfold s2, s1. rewrite set_tg_alloc, !set_al_get. reflexivity.
  - intros v. cbn [set_info s_tags]. unfold s2, s1. rewrite !set_tg_get, !set_al_tags. reflexivity.
  - exact I.
  - apply (x_tvar _ _ _ R). apply int_kind_nr; auto.
Qed.

(* operator-= on a variable that is not a region *)
Lemma u_havoc_int_sound a c c' w x :
  rel2 a c w -> agree w c -> is_int_var x -> c_havoc x c c' -> relv2 (u_havoc C x a) c'.
Proof.
  intros R AG Kx H. unfold u_havoc.
  assert (H' : exists z tl, c' = mkS (upd (m_st c) x z) (m_hp c) (m_made c) (m_asite c) (fupd (m_vtg c) x tl) (m_htg c)).
  { unfold c_havoc in H. destruct Kx as [_ [K|K]]; rewrite K in H; exact H. }
  destruct H' as (z & tl & ->).
  rewrite (int_kind_nr _ Kx). replace (vk_is_ref (k_kind C x)) with false by (destruct Kx as [_ [K|K]]; rewrite K; reflexivity).
  cbn [orb]. rewrite (gv_of_int _ x Kx), set_tg_base.
  apply (rel2_int_update a c w); auto.
  - apply rb_forget_scalar. apply (x_base _ _ _ R).
  - exact I.
Qed.

Lemma u_havoc_ref_sound a c c' w p :
  rel2 a c w -> agree w c -> is_ref_var p -> c_havoc p c c' -> relv2 (u_havoc C p a) c'.
Proof.
  intros R AG Kp H. unfold u_havoc. unfold c_havoc in H. rewrite (proj2 Kp) in *. cbn [vk_is_rgn vk_is_ref orb].
  destruct H as (ad & o & s & tl & ->).
  rewrite (gv_of_ref _ p (proj2 Kp)), set_tg_base, set_al_base.
  apply (rel2_ref_update a c w p ad o s ds_top ds_top tl); auto.
  - apply rb_forget_ref; [apply Kp | apply (x_base _ _ _ R)].
  - rewrite set_tg_rgn. apply set_al_rgn.
  - intros v. rewrite set_tg_alloc. reflexivity.
  - intros v. rewrite !set_tg_get, set_al_tags. reflexivity.
  - exact I.
  - exact I.
Qed.

Lemma u_isderef_sound a c c' w r b :
  rel2 a c w -> agree w c -> is_int_var b -> cstep2 (PIsDeref r b) c c' -> relv2 (u_isderef C b a) c'.
Proof.
  intros R AG Kb H. unfold u_isderef. cbn [cstep2] in H. fold P. destruct (q_deref P).
  - eapply u_havoc_int_sound; eauto.
  - subst. exists w. auto.
Qed.

Lemma go_of_ref_notin_int e p : int_exp e -> is_ref_var p -> forall co v, In (co, v) (le_terms e) -> ~ In v (gnames p).
Proof. intros Ie Kp co v I. apply int_not_gnames_ref; auto. eapply Ie; eauto. Qed.

Lemma u_gep_sound a c c' w p2 g2 p1 g1 off addr offe :
  rel2 a c w -> agree w c -> is_ref_var p2 -> is_ref_var p1 -> int_exp off ->
  scalar_exp addr -> scalar_exp offe ->
  (forall s, eval_le addr s = s (ga p1) + eval_le off s) ->
  (forall s, eval_le offe s = s (go p1) + eval_le off s) ->
  c_gep2 p2 g2 p1 g1 (eval_le off (m_st c)) (lit_zero off) c c' ->
  relv2 (u_gep C p2 g2 p1 g1 off addr offe a) c'.
Proof.
  intros R AG K2 K1 Io Sa So Ea Eo (SRC & NUL & AS & ->). unfold u_gep.
  rewrite (gv_of_ref a p1 (proj2 K1)), (gv_of_ref a p2 (proj2 K2)).
  pose proof (ref_notrgn_ga _ K2) as N1. pose proof (ref_notrgn_go _ K2) as N2. pose proof (ref_notrgn_gz _ K2) as N3.
  pose proof (ref_notrgn_ga _ K1) as M1. pose proof (ref_notrgn_go _ K1) as M2. pose proof (ref_notrgn_gz _ K1) as M3.
  rewrite (eval_int_exp off w c AG Io) in *. rewrite <- !(AG _ M1), <- !(AG _ M2), <- !(AG _ M3) in *.
  set (a1 := w (ga p1)) in *. set (ov := eval_le off w) in *.
  set (b1 := d_assign (fst (gv_ref C p2)) addr (EMap (s_base a))).
  set (b := match snd (gv_ref C p1), snd (gv_ref C p2) with
            | Some (o1, z1), Some (o2, z2) => d_assign z2 (le_var z1) (d_assign o2 offe b1)
            | None, Some _ => os_forget (gv_ref C p2) b1
            | _, None => b1
            end).
  set (w' := set_ref w p2 (a1 + ov) (w (go p1) + ov) (w (gz p1))).
  assert (HB : RBA (allowed (live a) (m_hp c) w') b).
  { unfold b, b1, w', set_ref. rewrite !gv_ref_eq. cbn [fst snd].
    pose proof (rb_assign_scalar a (m_hp c) w _ (ga p2) addr (x_base _ _ _ R) N1 Sa) as R1.
    rewrite Ea in R1. fold a1 ov in R1.
    destruct (q_deref P) eqn:D; [|exact R1].
    pose proof (rb_assign_scalar a (m_hp c) _ _ (go p2) offe R1 N2 So) as R2.
    pose proof (rb_assign_scalar a (m_hp c) _ _ (gz p2) (le_var (gz p1)) R2 N3 (le_var_scalar _ M3)) as R3.
    (* the offset and the ghost offset and size of p1 are read from names other than those of p2 written so far *)
    rewrite Eo, eval_le_upd_notin in R2, R3.
    2,3: intros co v J ->; apply (go_of_ref_notin_int _ _ Io K2 _ _ J); rewrite gnames_ref by apply K2; left; auto.
    rewrite eval_le_var in R3.
    rewrite (upd_other _ _ _ (go p1)) in R2, R3 by (apply not_eq_sym, ga_not_go, K2).
    rewrite (upd_other _ _ _ (gz p1)) in R3 by (apply not_eq_sym, go_not_gz).
    rewrite (upd_other _ _ _ (gz p1)) in R3 by (apply not_eq_sym, ga_not_gz, K2).
    exact R3. }
  set (same := N.eqb g1 g2 && is_zero_itv (d_eval off b)).
  assert (SAME : same = true -> g1 = g2 /\ ov = 0).
  { unfold same. intros E. apply andb_true_iff in E. destruct E as [E1 E2]. split; [apply N.eqb_eq; auto|].
    pose proof (d_eval_sound off b _ (HB _ (allowed_w _ _ _))) as D.
    eapply is_zero_itv_gamma in D; eauto. rewrite <- D. unfold ov. symmetry.
    apply eval_le_ext. intros co v I. unfold w'. apply set_ref_other; [apply K2|]. exact (go_of_ref_notin_int _ _ Io K2 _ _ I). }
  set (i := s_rgn a g2).
  set (s1 := if same then a else set_info a g2 (rc_incr (i_cnt i) p2, i_ini i, i_ty i)).
  set (s2 := set_al C s1 p2 (s_alloc s1 p1)). set (s3 := set_tg C s2 p2 (s_tags s2 p1)).
  (* the references created in g2: p2 is counted unless the offset is known to be zero *)
  set (c1 := mkS (m_st c) (m_hp c)
                 (if N.eqb g1 g2 && (a1 + ov =? a1) then m_made c
                  else fupd (m_made c) g2 (m_made c g2 ++ [(Z.of_N p2, a1 + ov)])) (m_asite c) (m_vtg c) (m_htg c)).
  assert (R1 : rel2 s1 c1 w).
  { unfold s1, c1. destruct same eqn:SM.
    - destruct (SAME eq_refl) as [-> ->]. rewrite N.eqb_refl, Z.add_0_r, Z.eqb_refl. cbn [andb]. destruct c; exact R.
    - destruct (N.eqb g1 g2 && (a1 + ov =? a1)) eqn:CC; [|apply rel2_created; auto; apply (x_anull _ _ _ R)].
      apply andb_true_iff in CC. destruct CC as [C1 C2]. apply N.eqb_eq in C1. apply Z.eqb_eq in C2.
      pose proof (x_anull _ _ _ R) as A0. apply rel2_grow; auto using incl_refl.
      apply cg_incr_phantom; [apply (x_count _ _ _ R)|].
      destruct (SRC C1 C2) as [I|L].
      + subst g1. unfold maddrs in I. destruct (m_made c g2); [elim I|discriminate].
      + exfalso. unfold same in SM. rewrite C1, N.eqb_refl, (lit_zero_eval off b L) in SM. discriminate. }
  apply (rel2_ref_update s1 c1 w p2 (a1 + ov) (w (go p1) + ov) (w (gz p1)) (s_alloc s1 p1) (s_tags s1 p1) (m_vtg c p1)); auto.
  - apply (rb_live_ext _ _ _ _ _ HB). intros g. unfold s1. destruct same; [reflexivity|apply live_set_info; reflexivity].
  - unfold s3, s2. rewrite set_tg_rgn. apply set_al_rgn.
  - intros v. unfold s3. rewrite set_tg_alloc. reflexivity.
  - intros v. unfold s3, s2. rewrite !set_tg_get, !set_al_tags. reflexivity.
  - pose proof (x_svar _ _ _ R1 p1 (proj2 K1) (proj1 K1)) as X. fold a1 in X.
    destruct (s_alloc s1 p1) as [ss|]; [|exact I]. destruct X as [X|(site & X1 & X2)].
    + left. apply NUL. exact X.
    + right. exists site. split; auto. cbn [m_asite c1] in *. rewrite AS. exact X1.
  - apply (x_tvar _ _ _ R1). apply ref_kind_nr; auto.
Qed.
Lemma is_null_itv_true m v z : gamma (get m v) z -> is_null m v = BTrue -> z = 0.
Proof.
  intros G. unfold is_null.
  destruct (negb (ileq (iconst 0) (get m v))); [discriminate|].
  destruct (get m v) as [l u]; simpl in *.
  destruct l as [|l|]; try discriminate. destruct l; try discriminate.
  destruct u as [|u|]; try discriminate. destruct u; try discriminate.
  intros _. unfold gamma in G. simpl in G. unfold ble_z_l, ble_z_r in G. simpl in G.
  destruct G as [G1 G2]. apply Z.leb_le in G1, G2. lia.
Qed.
Lemma is_null_itv_false m v z : gamma (get m v) z -> is_null m v = BFalse -> z <> 0.
Proof.
  intros G. unfold is_null.
  destruct (ileq (iconst 0) (get m v)) eqn:E; simpl.
  - destruct (lb (get m v)) as [|l|]; try discriminate.
    destruct l; try discriminate. destruct (ub (get m v)) as [|u|]; try discriminate.
    destruct u; discriminate.
  - intros _ Z0. rewrite Z0 in G.
    assert (X : ileq (iconst 0) (get m v) = true); [|congruence].
    apply ileq_complete. apply wf_iconst.
    intros x Gx. apply gamma_iconst in Gx. subst. auto.
Qed.
Lemma rel2_at a c w v : rel2 a c w -> gamma (get (s_base a) v) (w v).
Proof. intros R. apply (x_base _ _ _ R _ (allowed_w _ _ _) v). Qed.
Lemma null_of_ref a p : k_kind C p = VRef -> null_of C a p = is_null (s_base a) (ga p).
Proof. intros K. unfold null_of. rewrite (gv_of_ref _ _ K). reflexivity. Qed.
Lemma null_of_nonzero a c w p : rel2 a c w -> is_ref_var p -> w (ga p) <> 0 -> bv_is_true (null_of C a p) = false.
Proof.
  intros R Kp NZ. rewrite null_of_ref by apply Kp. destruct (is_null (s_base a) (ga p)) eqn:E; auto.
  elim NZ. eapply is_null_itv_true; [apply (rel2_at _ _ _ _ R)|exact E].
Qed.

(* constraints: the base domain is refined, everything else is kept *)
Lemma rel2_refine a c w E :
  rel2 a c w -> agree w c -> RBA (Aof a c w) E -> relv2 (wbase a E) c.
Proof.
  intros R AG HB. apply (relv2_intro a E c w AG HB).
  intros m Em. destruct R. constructor; auto.
  cbn [s_base]. rewrite <- Em. apply (rb_ext _ _ _ HB). intros v z. unfold Aof, live, typ. cbn. tauto.
Qed.

Lemma sat_scalar a hp w s k : VW (allowed (live a) hp w) s -> scalar_exp (lc_exp k) -> sat k s <-> sat k w.
Proof. intros V S. unfold sat. rewrite (eval_scalar _ _ _ _ _ V S). tauto. Qed.

Lemma rb_add a hp w E cs :
  RBA (allowed (live a) hp w) E ->
  (forall k, In k cs -> wf_lc k /\ scalar_exp (lc_exp k) /\ sat k w) ->
  RBA (allowed (live a) hp w) (d_add cs E).
Proof.
  intros R H. apply (rb_mono _ _ _ _ R); auto.
  intros s V G. apply d_add_sound; auto. intros k I. destruct (H k I) as (W & S & St). split; auto.
  apply (sat_scalar a hp w s k V S). exact St.
Qed.

Lemma sat_agree k s s' : (forall co v, In (co, v) (le_terms (lc_exp k)) -> s v = s' v) -> sat k s -> sat k s'.
Proof. intros H. unfold sat. rewrite (eval_le_ext _ _ _ H). tauto. Qed.

Lemma u_assume_sound a c c' w r cs :
  rel2 a c w -> agree w c -> (forall k, In k cs -> wf_lc k /\ int_exp (lc_exp k)) ->
  cstep2 (PAssume r cs) c c' -> relv2 (u_assume cs a) c'.
Proof.
  intros R AG OK [S ->]. unfold u_assume. apply (rel2_refine a c w); auto.
  apply rb_add; [apply (x_base _ _ _ R)|].
  intros k I. destruct (OK k I) as [W Ie]. pose proof (int_exp_scalar _ Ie) as Se.
  split; [exact W|split; [exact Se|]].
  apply (sat_agree k (m_st c) w); [|apply S; auto].
  intros co v J. symmetry. apply AG. eapply Se; eauto.
Qed.

Definition rcst_ok2 (rc : rcst) (ea eo ez : linexp) : Prop :=
  scalar_exp ea /\ wf_le ea /\
  (forall s, sat (mkLC (rrel_kind (rcst_rel rc)) ea) s <-> rcst_holds2 rc s) /\
  match rc with
  | RBin REq p q k =>
    is_ref_var p /\ is_ref_var q /\ scalar_exp eo /\ wf_le eo /\ scalar_exp ez /\ wf_le ez /\
    (forall s, sat (mkLC EQ eo) s <-> s (go p) = s (go q) + k) /\
    (forall s, sat (mkLC EQ ez) s <-> s (gz p) = s (gz q))
  | _ => True
  end.

Lemma rcst_holds2_agree rc w c : agree w c ->
  (match rc with RUn _ p => is_ref_var p | RBin _ p q _ => is_ref_var p /\ is_ref_var q end) ->
  rcst_holds2 rc (m_st c) -> rcst_holds2 rc w.
Proof.
  intros AG K. destruct rc as [r p|r p q k]; cbn.
  - rewrite (AG _ (ref_notrgn_ga _ K)). auto.
  - destruct K as [K1 K2]. rewrite (AG _ (ref_notrgn_ga _ K1)), (AG _ (ref_notrgn_ga _ K2)). auto.
Qed.

Lemma u_assume_ref_sound a c c' w rc ea eo ez :
  rel2 a c w -> agree w c -> rcst_ok2 rc ea eo ez ->
  (match rc with RUn _ p => is_ref_var p | RBin _ p q _ => is_ref_var p /\ is_ref_var q end) ->
  c_assume_ref2 rc c c' -> relv2 (u_assume_ref C rc ea eo ez a) c'.
Proof.
  intros R AG (Sa & Wa & Sem & Kr) KV (Hold & Site & ->). unfold u_assume_ref.
  pose proof (rcst_holds2_agree rc w c AG KV Hold) as Hw.
  match goal with |- relv2 (if ?x then _ else _) _ => destruct x eqn:SD end.
  - (* the allocation sites cannot be disjoint *)
    exfalso. destruct rc as [rl p|rl p q k]; [discriminate|]. destruct rl; try discriminate.
    destruct Kr as (Kp & Kq & _). destruct Site as [Site _].
    apply andb_true_iff in SD. destruct SD as [PA SD]. cbv zeta in SD.
    apply andb_true_iff in SD. destruct SD as [SD D4].
    apply andb_true_iff in SD. destruct SD as [SD D3].
    apply andb_true_iff in SD. destruct SD as [D1 D2].
    cbn in Hw. pose proof (x_svar _ _ _ R p (proj2 Kp) (proj1 Kp)) as Xp. pose proof (x_svar _ _ _ R q (proj2 Kq) (proj1 Kq)) as Xq.
    rewrite (AG _ (ref_notrgn_ga _ Kp)), (AG _ (ref_notrgn_ga _ Kq)) in *.
    rewrite negb_true_iff in D1, D2. unfold ds_meet in D4. rewrite D1, D2 in D4. cbn [orb] in D4.
    destruct (s_alloc a p) as [sp|] eqn:Ap; [|congruence].
    destruct (s_alloc a q) as [sq|] eqn:Aq; [|congruence].
    cbn in Xp, Xq.
    assert (NP : m_st c (ga p) <> 0 \/ m_st c (ga q) <> 0).
    { rewrite !null_of_ref in D3 by (apply Kp || apply Kq).
      apply orb_true_iff in D3. destruct D3 as [D|D]; [left|right].
      - rewrite <- (AG _ (ref_notrgn_ga _ Kp)). eapply is_null_itv_false; [apply (rel2_at _ _ _ _ R)|].
        destruct (is_null (s_base a) (ga p)); try discriminate; auto.
      - rewrite <- (AG _ (ref_notrgn_ga _ Kq)). eapply is_null_itv_false; [apply (rel2_at _ _ _ _ R)|].
        destruct (is_null (s_base a) (ga q)); try discriminate; auto. }
    pose proof (x_anull _ _ _ R) as A0.
    assert (NN : m_st c (ga p) <> 0 /\ m_st c (ga q) <> 0 /\ m_asite c (m_st c (ga p)) = m_asite c (m_st c (ga q))).
    { destruct (Z.eq_dec k 0) as [->|Nk].
      - assert (E : m_st c (ga p) = m_st c (ga q)) by lia. rewrite E in *. destruct NP; auto.
      - specialize (Site Nk). repeat split; auto.
        + intros Z0. destruct NP as [A1|A1]; [contradiction|].
          destruct Xq as [X|(s & X & _)]; [contradiction|]. rewrite Z0, A0 in Site. congruence.
        + intros Z0. destruct NP as [A1|A1]; [|contradiction].
          destruct Xp as [X|(s & X & _)]; [contradiction|]. rewrite Z0, A0 in Site. congruence. }
    destruct NN as (Np & Nq & AS).
    destruct Xp as [X|(s1 & X1 & I1)]; [contradiction|]. destruct Xq as [X|(s2 & X2 & I2)]; [contradiction|].
    assert (s1 = s2) by congruence. subst s2.
    assert (F : In s1 (filter (fun z => ds_mem z sq) sp)) by (apply filter_In; split; auto; apply ds_mem_spec; auto).
    destruct (filter (fun z => ds_mem z sq) sp); [elim F | discriminate].
  - set (kd := rrel_kind (rcst_rel rc)).
    assert (B1 : RBA (Aof a c w) (d_add [mkLC kd ea] (EMap (s_base a)))).
    { apply rb_add; [apply (x_base _ _ _ R)|]. intros k0 [<-|[]]. split; [exact Wa|split; [exact Sa|]]. apply Sem. exact Hw. }
    destruct rc as [rl p|rl p q k].
    + destruct rl; try (apply (rel2_refine a c w); auto; fail).
      apply (rel2_refine a c w); auto.
      apply rb_add; [apply rb_add; [exact B1|]|]; intros k0 [<-|[]]; (split; [exact Wa|split; [exact Sa|]]); apply Sem; exact Hw.
    + destruct rl; try (apply (rel2_refine a c w); auto; fail).
      destruct Kr as (Kp & Kq & So & Wo & Sz & Wz & SemO & SemZ).
      rewrite (gv_of_ref a p (proj2 Kp)), (gv_of_ref a q (proj2 Kq)), !gv_ref_eq. cbn [snd].
      destruct (q_deref P) eqn:D; [|apply (rel2_refine a c w); auto].
      destruct Site as [_ Site]. destruct (Site eq_refl) as [SO SZ].
      apply (rel2_refine a c w); auto.
      apply rb_add; [apply rb_add; [exact B1|]|]; intros k0 [<-|[]].
      * split; [exact Wo|split; [exact So|]]. apply SemO. rewrite (AG _ (ref_notrgn_go _ Kp)), (AG _ (ref_notrgn_go _ Kq)). exact SO.
      * split; [exact Wz|split; [exact Sz|]]. apply SemZ. rewrite (AG _ (ref_notrgn_gz _ Kp)), (AG _ (ref_notrgn_gz _ Kq)). exact SZ.
Qed.

(* x := the ghost variable v, for one of the values v stands for *)
Lemma rb_read (A : vsets) E (A' : vsets) x v z :
  RBA A E -> A v z -> (exists z0, A x z0) ->
  (forall v' z', v' <> x -> A' v' z' -> A v' z') -> (forall z', A' x z' -> z' = z) ->
  RBA A' (d_assign x (le_var v) E).
Proof.
  intros R Av N H2 H3. rewrite d_assign_var.
  apply (rb_upd A E A' _ x (fun _ z' => z' = z) R); auto.
  - intros s z' V G ->. apply e_set_sound; auto.
    assert (V2 : VW A (upd s v z)).
    { intros u. destruct (N.eq_dec u v) as [->|Nu]; [rewrite upd_same; auto|rewrite upd_other by auto; apply V]. }
    pose proof (e_at_sound E _ v (R _ V2)) as X. rewrite upd_same in X. exact X.
  - intros s' V'. destruct N as (z0 & A0). exists z0. split; auto.
Qed.

(* nv := a copy of the summarised variable v (expand) *)
Lemma rb_expand (A : vsets) E (A' : vsets) v nv z :
  RBA A E -> A v z -> (exists z0, A nv z0) ->
  (forall v' z', v' <> nv -> A' v' z' -> A v' z') -> (forall z', A' nv z' -> z' = z) ->
  RBA A' (d_expand v nv E).
Proof.
  intros R Av N H2 H3.
  apply (rb_upd A E A' _ nv (fun _ z' => z' = z) R); auto.
  - intros s z' V G ->. apply d_expand_sound; auto.
    exists (upd s v z). split; [|split].
    + apply R. intros u. destruct (N.eq_dec u v) as [->|Nu]; [rewrite upd_same; auto|rewrite upd_other by auto; apply V].
    + intros k Nk. apply upd_other; auto.
    + rewrite upd_same. reflexivity.
  - intros s' V'. destruct N as (z0 & A0). exists z0. split; auto.
Qed.

Lemma allowed_cell L hp w g k x v z : In (v, k) (L g) -> hp g k x = Some z -> allowed L hp w v z.
Proof. intros I H. right. exists g, k, x. auto. Qed.

(* x := v or x := a copy of v, for a name x that is not a region name and a ghost variable v of a
   region: the witness store takes the value of one of the cells *)
Lemma rb_cell_scalar (f : var -> var -> env -> env) a hp w E x v k g y z :
  (forall A A' : vsets, RBA A E -> A v z -> (exists z0, A x z0) ->
     (forall v' z', v' <> x -> A' v' z' -> A v' z') -> (forall z', A' x z' -> z' = z) -> RBA A' (f x v E)) ->
  RBA (allowed (live a) hp w) E -> ~ rgn_name x -> In (v, k) (live a g) -> hp g k y = Some z ->
  RBA (allowed (live a) hp (upd w x z)) (f x v E).
Proof.
  intros F R Nx I H. apply (F _ _ R).
  - eapply allowed_cell; eauto.
  - apply allowed_ne.
  - intros v' z' N. apply allowed_upd_other; auto.
  - intros z' A'. apply allowed_notrgn in A'; auto. rewrite A'. apply upd_same.
Qed.
Lemma rb_read_scalar a hp w E x v k g y z :
  RBA (allowed (live a) hp w) E -> ~ rgn_name x -> In (v, k) (live a g) -> hp g k y = Some z ->
  RBA (allowed (live a) hp (upd w x z)) (d_assign x (le_var v) E).
Proof. apply (rb_cell_scalar (fun x v => d_assign x (le_var v))). intros A A'. apply rb_read. Qed.
Lemma rb_expand_scalar a hp w E nv v k g y z :
  RBA (allowed (live a) hp w) E -> ~ rgn_name nv -> In (v, k) (live a g) -> hp g k y = Some z ->
  RBA (allowed (live a) hp (upd w nv z)) (d_expand v nv E).
Proof. apply (rb_cell_scalar (fun nv v => d_expand v nv)). intros A A'. apply rb_expand. Qed.

(* the shape of the ghost variables of a tracked region *)
Lemma gv_of_int_rgn a g : live_ty (typ a g) (k_kind C g) = Some TInt -> gv_of C a g = gv_plain g /\ live a g = [(g, PInt)].
Proof.
  unfold live, live_of, gv_of, gv_of_ty, live_ty. destruct (k_kind C g) eqn:K; try discriminate.
  - intros _. split; reflexivity.
  - destruct (has_dyn C VRgnUnk (typ a g)) eqn:HD; [|discriminate].
    destruct (typ a g) as [| |[| |]]; try discriminate. intros _. split; reflexivity.
Qed.
Lemma gv_of_ref_rgn a g : live_ty (typ a g) (k_kind C g) = Some TRef ->
  gv_of C a g = gv_ref C g /\ live a g = comps TRef (gv_ref C g).
Proof.
  unfold live, live_of, gv_of, gv_of_ty, live_ty. destruct (k_kind C g) eqn:K; try discriminate.
  - intros _. split; reflexivity.
  - destruct (has_dyn C VRgnUnk (typ a g)) eqn:HD; [|discriminate].
    destruct (typ a g) as [| |[| |]]; try discriminate. intros _. split; reflexivity.
Qed.
Lemma live_ref_adr a g : live_ty (typ a g) (k_kind C g) = Some TRef -> In (ga g, PAdr) (live a g).
Proof. intros H. rewrite (proj2 (gv_of_ref_rgn _ _ H)). left. reflexivity. Qed.
Lemma live_ref_off a g : live_ty (typ a g) (k_kind C g) = Some TRef -> q_deref P = true -> In (go g, POff) (live a g).
Proof. intros H D. rewrite (proj2 (gv_of_ref_rgn _ _ H)), gv_ref_eq, D. right; left. reflexivity. Qed.
Lemma live_ref_siz a g : live_ty (typ a g) (k_kind C g) = Some TRef -> q_deref P = true -> In (gz g, PSiz) (live a g).
Proof. intros H D. rewrite (proj2 (gv_of_ref_rgn _ _ H)), gv_ref_eq, D. right; right; left. reflexivity. Qed.

(* tracked + the dynamic type matches the kind of the loaded variable *)
Lemma tracked_live t kg kx :
  tracked C kg t = true ->
  (tracked_unk C kg = true -> content_matches t kx = true) ->
  (kg = VRgnInt -> kx = VInt) -> (kg = VRgnRef -> kx = VRef) ->
  (kx = VInt /\ live_ty t kg = Some TInt) \/ (kx = VRef /\ live_ty t kg = Some TRef).
Proof.
  unfold tracked, tracked_unk, live_ty. intros T CM K1 K2.
  destruct kg; cbn [vk_is_rgn andb] in T; try discriminate.
  - left. auto.
  - right. auto.
  - rewrite T. unfold has_dyn in T. destruct (q_skip (k_params C)); [discriminate|].
    cbn [negb andb] in CM. specialize (CM eq_refl).
    destruct t as [| |[| |]]; try discriminate; destruct kx; try discriminate; auto.
Qed.

Lemma ga_not_dup x u : prog x = true -> ga x <> k_dup C u.
Proof.
  intros Px. destruct (ga_cases x) as [[_ G]|[_ G]]; rewrite G; [apply not_eq_sym, dup_adr|].
  intros E. rewrite E, dup_np in Px. discriminate.
Qed.

(* x := component k of a cell of region g, read through the ghost variable v: directly when the
   region has one reference, through a copy of v otherwise *)
Lemma rb_load_one a hp w E x v k g y z (single : bool) :
  RBA (allowed (live a) hp w) E -> ~ rgn_name x -> In (v, k) (live a g) -> hp g k y = Some z ->
  RBA (allowed (live a) hp (upd w x z))
      (if single then d_assign x (le_var v) E
       else e_forget (d_assign x (le_var (k_dup C v)) (d_expand v (k_dup C v) E)) (k_dup C v)).
Proof.
  intros R Nx I H. destruct single; [eapply rb_read_scalar; eauto|].
  pose proof (rb_expand_scalar a hp w _ (k_dup C v) v k g y z R (notrgn_dup v) I H) as R1.
  pose proof (rb_assign_var_scalar a hp _ _ x (k_dup C v) z R1 Nx (notrgn_dup v) (upd_same _ _ _)) as R2.
  apply (rb_forget_vars _ _ _ _ _ [k_dup C v] R2).
  apply upd_agree. intros u N. symmetry. apply upd_other. intros ->. apply N. left; auto.
Qed.

Lemma u_load_sound a c c' w r x p g :
  rel2 a c w -> agree w c -> is_ref_var p -> prog x = true ->
  vk_is_rgn (k_kind C g) = true ->
  (k_kind C g = VRgnInt -> k_kind C x = VInt) -> (k_kind C g = VRgnRef -> k_kind C x = VRef) ->
  cstep2 (PLd r x p g) c c' -> relv2 (u_load C x p g a) c'.
Proof.
  intros R AG Kp Px Kg KI KR ((A0 & AI) & H). unfold u_load.
  rewrite <- (AG _ (ref_notrgn_ga _ Kp)) in *. set (a0 := w (ga p)) in *.
  rewrite (null_of_nonzero a c w p R Kp A0).
  set (s1 := if vk_is_ref (k_kind C x) then set_al C a x (s_alloc a g) else a).
  set (s2 := set_tg C s1 x (s_tags s1 g)).
  assert (ER : s_rgn s2 = s_rgn a).
  { unfold s2, s1. rewrite set_tg_rgn. destruct (vk_is_ref (k_kind C x)); auto. apply set_al_rgn. }
  assert (EB : s_base s2 = s_base a).
  { unfold s2, s1. rewrite set_tg_base. destruct (vk_is_ref (k_kind C x)); auto. apply set_al_base. }
  rewrite EB, (typ_same_rgn a s2 g ER), (gv_of_same_rgn a s2 g ER), (cnt_same a s2 g ER).
  set (b := EMap (s_base a)). set (gx := gv_of C a x). set (gg := gv_of C a g).
  (* the base domain of the result: the left-hand side is forgotten unless the region is tracked
     and its contents have the type of x *)
  set (res := if negb (tracked C (k_kind C g) (typ a g)) then gv_forget gx b
              else if tracked_unk C (k_kind C g) && negb (content_matches (typ a g) (k_kind C x))
                   then gv_forget gx b
                   else if singleton_count (cnt a g) then gv_assign gx gg b
                        else gv_forget (gv_dup C gg) (gv_assign gx (gv_dup C gg) (gv_expand gg (gv_dup C gg) b))).
  match goal with |- relv2 ?t c' => replace t with (wbase s2 res) end.
  2:{ unfold res. destruct (negb (tracked C (k_kind C g) (typ a g))); auto.
      destruct (tracked_unk C (k_kind C g) && negb (content_matches (typ a g) (k_kind C x))); auto.
      destruct (singleton_count (cnt a g)); auto. }
  assert (HB : forall w', RBA (allowed (live a) (m_hp c) w') (gv_forget gx b) ->
     ((k_kind C x = VInt /\ live_ty (typ a g) (k_kind C g) = Some TInt) \/
      (k_kind C x = VRef /\ live_ty (typ a g) (k_kind C g) = Some TRef) ->
      RBA (allowed (live a) (m_hp c) w')
          (if singleton_count (cnt a g) then gv_assign gx gg b
           else gv_forget (gv_dup C gg) (gv_assign gx (gv_dup C gg) (gv_expand gg (gv_dup C gg) b)))) ->
     RBA (allowed (live a) (m_hp c) w') res).
  { intros w' FG RD. unfold res.
    destruct (negb (tracked C (k_kind C g) (typ a g))) eqn:T1; [exact FG|].
    destruct (tracked_unk C (k_kind C g) && negb (content_matches (typ a g) (k_kind C x))) eqn:T2; [exact FG|].
    apply RD. apply negb_false_iff in T1. apply tracked_live; auto.
    intros TU. rewrite TU in T2. apply negb_false_iff in T2. exact T2. }
  pose proof (x_base _ _ _ R) as B. pose proof (x_trgn _ _ _ R g a0 Kg) as TG.
  unfold s2, s1, gx in *. clear ER EB s2 s1. destruct (k_kind C x) eqn:Kx; try contradiction; cbn [vk_is_ref].
  - (* an integer is loaded *)
    destruct H as (z & Hz & ->). assert (Ix : is_int_var x) by (split; auto).
    apply (rel2_int_update a c w); auto. apply HB; rewrite (gv_of_int a x Ix).
    + apply rb_forget_scalar. exact B.
    + intros [[_ LT]|[F _]]; [|discriminate]. unfold gg. destruct (gv_of_int_rgn _ _ LT) as [-> LV].
      apply (rb_load_one a (m_hp c) w b x g PInt g a0 z); auto using int_notrgn. rewrite LV. left; auto.
  - (* a reference is loaded *)
    destruct H as (ad & o & s & Ha & Ho & Hs & ->). assert (Ix : is_ref_var x) by (split; auto).
    pose proof (ref_notrgn_ga _ Ix) as N1. pose proof (ref_notrgn_go _ Ix) as N2. pose proof (ref_notrgn_gz _ Ix) as N3.
    apply (rel2_ref_update a c w x ad o s (s_alloc a g) (s_tags a g)); auto.
    + apply HB; rewrite (gv_of_ref a x Kx).
      * apply rb_forget_ref; auto.
      * intros [[F _]|[_ LT]]; [discriminate|]. unfold gg. destruct (gv_of_ref_rgn _ _ LT) as [-> LV].
        pose proof (live_ref_adr _ _ LT) as IA.
        unfold set_ref. rewrite !gv_ref_eq. destruct (q_deref P) eqn:D.
        2:{ apply (rb_load_one a (m_hp c) w b (ga x) (ga g) PAdr g a0 ad); auto. }
        pose proof (live_ref_off _ _ LT D) as IO. pose proof (live_ref_siz _ _ LT D) as IZ.
        destruct (singleton_count (cnt a g)).
        { apply (rb_read_scalar a (m_hp c) _ _ (gz x) (gz g) PSiz g a0 s); auto.
          apply (rb_read_scalar a (m_hp c) _ _ (go x) (go g) POff g a0 o); auto.
          apply (rb_read_scalar a (m_hp c) _ _ (ga x) (ga g) PAdr g a0 ad); auto. }
        (* three copies are made, read and forgotten; the names involved are pairwise different *)
        set (da := k_dup C (ga g)). set (dof := k_dup C (go g)). set (dz := k_dup C (gz g)).
        pose proof (prog_of_rgn _ Kg) as Pg.
        assert (Dad : da <> dof) by (intros E; apply dup_inj in E; exact (ga_not_go _ _ Pg E)).
        assert (Daz : da <> dz) by (intros E; apply dup_inj in E; exact (ga_not_gz _ _ Pg E)).
        assert (Doz : dof <> dz) by (intros E; apply dup_inj in E; exact (go_not_gz _ _ E)).
        pose proof (not_eq_sym (ga_not_dup x (go g) Px) : dof <> ga x) as Xo.
        pose proof (not_eq_sym (ga_not_dup x (gz g) Px) : dz <> ga x) as Xz.
        pose proof (dup_off (gz g) x : dz <> go x) as Yz.
        pose proof (rb_expand_scalar a (m_hp c) w _ da (ga g) PAdr g a0 ad B (notrgn_dup _) IA Ha) as E1.
        pose proof (rb_expand_scalar a (m_hp c) _ _ dof (go g) POff g a0 o E1 (notrgn_dup _) IO Ho) as E2.
        pose proof (rb_expand_scalar a (m_hp c) _ _ dz (gz g) PSiz g a0 s E2 (notrgn_dup _) IZ Hs) as E3.
        pose proof (rb_assign_var_scalar a (m_hp c) _ _ (ga x) da ad E3 N1 (notrgn_dup _)) as A1.
        rewrite !upd_other, upd_same in A1 by assumption. specialize (A1 eq_refl).
        pose proof (rb_assign_var_scalar a (m_hp c) _ _ (go x) dof o A1 N2 (notrgn_dup _)) as A2.
        rewrite !upd_other, upd_same in A2 by assumption. specialize (A2 eq_refl).
        pose proof (rb_assign_var_scalar a (m_hp c) _ _ (gz x) dz s A2 N3 (notrgn_dup _)) as A3.
        rewrite !upd_other, upd_same in A3 by assumption. specialize (A3 eq_refl).
        apply (rb_forget_vars _ _ _ _ _ [da; dof; dz] A3).
        repeat apply upd_agree. intros u N. cbn in N. rewrite !upd_other by (clear - N; intros ->; tauto). reflexivity.
    + rewrite set_tg_rgn. apply set_al_rgn.
    + intros v. rewrite set_tg_alloc. reflexivity.
    + intros v. rewrite !set_tg_get, !set_al_tags. reflexivity.
    + exact (x_srgn _ _ _ R g a0 ad Kg Ha).
Qed.

Definition hset (hp : heap) (g : var) (k : prj) (a : Z) (o : option Z) : heap :=
  fun g' k' x => if N.eqb g' g && prj_eqb k' k && (x =? a) then o else hp g' k' x.
Lemma hset_same hp g k a o : hset hp g k a o g k a = o.
Proof. unfold hset. rewrite N.eqb_refl, Z.eqb_refl. destruct (prj_eqb_spec k k); [reflexivity|congruence]. Qed.
Lemma hset_cases hp g k a o g' k' x :
  (g' = g /\ k' = k /\ x = a /\ hset hp g k a o g' k' x = o) \/
  (~ (g' = g /\ k' = k /\ x = a) /\ hset hp g k a o g' k' x = hp g' k' x).
Proof.
  unfold hset.
  destruct (N.eqb_spec g' g) as [E1|N]; [|right; split; [intros (E & _); exact (N E)|reflexivity]].
  destruct (prj_eqb_spec k' k) as [E2|N]; [|right; split; [intros (_ & E & _); exact (N E)|reflexivity]].
  destruct (Z.eqb_spec x a) as [E3|N]; [left; auto|right; split; [intros (_ & _ & E); exact (N E)|reflexivity]].
Qed.
Lemma hwrite_hset hp g a f g' k x :
  hwrite hp g a f g' k x =
  hset (hset (hset (hset hp g PInt a (f PInt)) g PAdr a (f PAdr)) g POff a (f POff)) g PSiz a (f PSiz) g' k x.
Proof.
  unfold hwrite, hset. destruct (N.eqb_spec g' g), (Z.eqb_spec x a); cbn; auto.
  - destruct k; cbn; reflexivity.
  - rewrite !andb_false_r. reflexivity.
Qed.

(* a ghost variable summarises one component of one region *)
Lemma live_fun a g k v v' : In (v, k) (live a g) -> In (v', k) (live a g) -> v = v'.
Proof. intros I1 I2. apply live_of_inv in I1, I2. destruct I1 as [_ ->], I2 as [_ ->]. reflexivity. Qed.

(* the names of the components of regions are different, except that without
   region.is_dereferenceable a region of references uses its own name for the addresses *)
Lemma cname_inj g g' k k' : prog g = true -> prog g' = true -> cname g k = cname g' k' ->
  g = g' /\ (k = k' \/ (k = PInt /\ k' = PAdr) \/ (k = PAdr /\ k' = PInt)).
Proof.
  intros Pg Pg' E.
  assert (NP : forall h u, prog h = true -> (h = k_adr C u \/ h = go u \/ h = gz u) -> False).
  { intros h u Ph [->|[->| ->]]; [rewrite adr_np in Ph|unfold go in Ph; rewrite off_np in Ph|unfold gz in Ph; rewrite siz_np in Ph];
      discriminate. }
  destruct k, k'; cbn [cname] in E.
  - split; [exact E|left; reflexivity].
  - destruct (ga_cases g') as [[_ G]|[_ G]]; rewrite G in E; [elim (NP g g' Pg (or_introl E))|].
    split; [exact E|right; left; split; reflexivity].
  - elim (NP g g' Pg (or_intror (or_introl E))).
  - elim (NP g g' Pg (or_intror (or_intror E))).
  - destruct (ga_cases g) as [[_ G]|[_ G]]; rewrite G in E; [elim (NP g' g Pg' (or_introl (eq_sym E)))|].
    split; [exact E|right; right; split; reflexivity].
  - split; [apply ga_inj; assumption|left; reflexivity].
  - elim (ga_not_go _ _ Pg E).
  - elim (ga_not_gz _ _ Pg E).
  - elim (NP g' g Pg' (or_intror (or_introl (eq_sym E)))).
  - elim (ga_not_go _ _ Pg' (eq_sym E)).
  - split; [apply off_inj; exact E|left; reflexivity].
  - elim (go_not_gz _ _ E).
  - elim (NP g' g Pg' (or_intror (or_intror (eq_sym E)))).
  - elim (ga_not_gz _ _ Pg' (eq_sym E)).
  - elim (go_not_gz _ _ (eq_sym E)).
  - split; [apply siz_inj; exact E|left; reflexivity].
Qed.
Lemma live_owner a g g' k k' v : In (v, k) (live a g) -> In (v, k') (live a g') -> g = g' /\ k = k'.
Proof.
  intros I1 I2. destruct (live_of_inv _ _ _ _ I1) as [K1 V1]. destruct (live_of_inv _ _ _ _ I2) as [K2 V2].
  rewrite V1 in V2. destruct (cname_inj _ _ _ _ (prog_of_rgn _ K1) (prog_of_rgn _ K2) V2) as [<- H].
  split; auto. destruct H as [H|H]; auto. exfalso.
  (* the contents of a region are integers or references, not both *)
  assert (NB : forall t u u', In (u, PInt) (live_of g t) -> In (u', PAdr) (live_of g t) -> False).
  { intros t u u'. unfold live_of. destruct (live_ty t (k_kind C g)) as [[| |]|]; cbn; try contradiction.
    - intros _ [E|[]]. discriminate.
    - intros [E|J] _; [discriminate|]. destruct (snd (gv_of_ty C g t)) as [[o z]|]; [destruct J as [J|[J|[]]]|destruct J]; discriminate. }
  destruct H as [[-> ->]|[-> ->]]; [exact (NB _ _ _ I1 I2) | exact (NB _ _ _ I2 I1)].
Qed.

Lemma rb_hp_ext L hp hp' w E : RBA (allowed L hp w) E -> (forall g k x, hp' g k x = hp g k x) -> RBA (allowed L hp' w) E.
Proof. intros R H. apply (rb_cells _ _ _ _ _ _ R). intros g k x v z I Hx. rewrite <- H. auto. Qed.

(* the values a ghost variable stands for after component k of the cell at a0 of g has been set:
   the new value, if the variable summarises that component, or what it stood for without the cell *)
Lemma allowed_hset a hp w g k a0 o v z :
  allowed (live a) (hset hp g k a0 o) w v z ->
  (In (v, k) (live a g) /\ o = Some z) \/ allowed (live a) (hset hp g k a0 None) w v z.
Proof.
  intros [E|(g' & k' & x & I & H)]; [right; left; exact E|].
  destruct (hset_cases hp g k a0 o g' k' x) as [(-> & -> & -> & E)|(NE & E)]; rewrite E in H; [left; auto|].
  right. right. exists g', k', x. split; auto.
  destruct (hset_cases hp g k a0 None g' k' x) as [(E1 & E2 & E3 & _)|(_ & ->)]; [elim NE; auto|exact H].
Qed.
Lemma allowed_hset_none a hp w g k a0 v z :
  allowed (live a) (hset hp g k a0 None) w v z -> allowed (live a) hp w v z.
Proof.
  intros [E|(g' & k' & x & I' & H)]; [left; auto|right].
  destruct (hset_cases hp g k a0 None g' k' x) as [(-> & -> & -> & E)|(_ & E)]; rewrite E in H; [discriminate|].
  exists g', k', x. auto.
Qed.
(* the sets of the variables that do not summarise the component *)
Lemma allowed_hset_other a hp w g k a0 o v z :
  ~ In (v, k) (live a g) -> allowed (live a) (hset hp g k a0 o) w v z -> allowed (live a) hp w v z.
Proof. intros N A. apply allowed_hset in A. destruct A as [[I _]|A]; [elim (N I)|eapply allowed_hset_none; eauto]. Qed.

(* strong update of one component *)
Lemma rb_comp_strong a hp w E g k v a0 e :
  RBA (allowed (live a) hp w) E -> In (v, k) (live a g) -> (forall y, y <> a0 -> hp g k y = None) ->
  scalar_exp e ->
  RBA (allowed (live a) (hset hp g k a0 (Some (eval_le e w))) (upd w v (eval_le e w))) (d_assign v e E).
Proof.
  intros R I EX Se. set (z := eval_le e w). apply (rb_assign _ _ _ v e R).
  - intros v' z' N A'. apply allowed_upd_other in A'; auto. revert A'. apply allowed_hset_other.
    intros I'. apply N. eapply live_fun; eauto.
  - intros s' V'. exists (w v). split; [left; reflexivity|].
    assert (V : VW (allowed (live a) hp w) (upd s' v (w v))).
    { intros u. destruct (N.eq_dec u v) as [->|Nu]; [left; apply upd_same|]. rewrite upd_other by auto.
      eapply allowed_hset_other; [|eapply allowed_upd_other; [exact Nu|apply V']].
      intros I'. apply Nu. eapply live_fun; eauto. }
    rewrite (eval_scalar _ _ _ _ _ V Se). fold z.
    destruct (allowed_hset _ _ _ _ _ _ _ _ _ (V' v)) as [[_ E0]|[E0|(g' & k' & x & I' & H)]].
    + inversion E0; auto.
    + rewrite E0. apply upd_same.
    + (* no other cell of the region has this component *)
      destruct (live_owner _ _ _ _ _ _ I I') as [<- <-].
      destruct (hset_cases hp g k a0 None g k x) as [(_ & _ & _ & E1)|(NE & E1)]; rewrite E1 in H; [discriminate|].
      rewrite EX in H; [discriminate|]. intros ->. apply NE. auto.
Qed.
(* weak update of one component *)
Lemma rb_comp_weak a hp w E g k v a0 e :
  RBA (allowed (live a) hp w) E -> In (v, k) (live a g) -> scalar_exp e ->
  RBA (allowed (live a) (hset hp g k a0 (Some (eval_le e w))) w) (d_weak_assign v e E).
Proof.
  intros R I Se. apply (rb_weak_assign _ _ _ v e R).
  - intros v' z' N. apply allowed_hset_other. intros I'. apply N. eapply live_fun; eauto.
  - intros s' V'.
    assert (V : VW (allowed (live a) hp w) (upd s' v (w v))).
    { intros u. destruct (N.eq_dec u v) as [->|Nu]; [left; apply upd_same|]. rewrite upd_other by auto.
      eapply allowed_hset_other; [|apply V']. intros I'. apply Nu. eapply live_fun; eauto. }
    destruct (allowed_hset _ _ _ _ _ _ _ _ _ (V' v)) as [[_ E0]|A0].
    + right. exists (w v). split; [left; reflexivity|].
      rewrite (eval_scalar _ _ _ _ _ V Se). inversion E0; auto.
    + left. eapply allowed_hset_none; eauto.
Qed.

(* The write of a cell, one component after the other.
   [hp] is the heap written so far; it is described with a witness store that differs from w on
   names of regions only.  A strong update is made when the cell is the only one of the region. *)
Definition wr (a : rst2) (g : var) (a0 : Z) (weak : bool) (w : store) (hp : heap) (E : env) : Prop :=
  (weak = false -> forall k y, y <> a0 -> hp g k y = None) /\
  exists w', (forall u, ~ rgn_name u -> w' u = w u) /\ RBA (allowed (live a) hp w') E.

Lemma wr_excl g a0 (weak : bool) hp k o :
  (weak = false -> forall k y, y <> a0 -> hp g k y = None) ->
  weak = false -> forall k' y, y <> a0 -> hset hp g k a0 o g k' y = None.
Proof.
  intros EX W k' y Ny. destruct (hset_cases hp g k a0 o g k' y) as [(_ & _ & E & _)|(_ & ->)]; [elim (Ny E)|auto].
Qed.
(* the ghost variable of the component takes the value *)
Lemma wr_assign a g a0 weak w hp E v k e :
  wr a g a0 weak w hp E -> In (v, k) (live a g) -> scalar_exp e ->
  wr a g a0 weak w (hset hp g k a0 (Some (eval_le e w))) ((if weak then d_weak_assign else d_assign) v e E).
Proof.
  intros (EX & w' & HW & R) I Se. split; [apply wr_excl; exact EX|].
  assert (Ev : eval_le e w' = eval_le e w) by (apply eval_le_ext; intros co u J; apply HW; eapply Se; eauto).
  rewrite <- Ev. destruct weak.
  - exists w'. split; auto. apply rb_comp_weak; auto.
  - exists (upd w' v (eval_le e w')). split; [|apply rb_comp_strong; auto].
    intros u Nu. rewrite upd_other; auto. intros ->. apply Nu. eapply live_rgn_name; eauto.
Qed.
(* the ghost variable of the component is forgotten *)
Lemma wr_forget a g a0 weak w hp E v k o :
  wr a g a0 weak w hp E -> In (v, k) (live a g) -> wr a g a0 weak w (hset hp g k a0 o) (e_forget E v).
Proof.
  intros (EX & w' & HW & R) I. split; [apply wr_excl; exact EX|]. exists w'. split; auto.
  apply (rb_forget _ _ _ v R (allowed_ne _ _ _ v)).
  intros v' z' N. apply allowed_hset_other. intros I'. apply N. eapply live_fun; eauto.
Qed.
(* the component has no value in the new cell, or no ghost variable *)
Lemma wr_keep a g a0 weak w hp E k o :
  wr a g a0 weak w hp E -> o = None \/ (forall u, ~ In (u, k) (live a g)) -> wr a g a0 weak w (hset hp g k a0 o) E.
Proof.
  intros (EX & w' & HW & R) H. split; [apply wr_excl; exact EX|]. exists w'. split; auto.
  apply (rb_shrink _ _ _ R). intros v z. destruct H as [->|NL]; [apply allowed_hset_none|apply allowed_hset_other, NL].
Qed.

(* the value operand of a store *)
Definition sval_kind (v : sval) : Prop :=
  match v with SVar x true => is_ref_var x | SVar x false => is_int_var x | _ => True end.
Definition sval_ok2 (g : var) (v : sval) : Prop :=
  match v with
  | SVar x true => is_ref_var x
  | SVar x false => is_int_var x
  | _ => True
  end /\
  (k_kind C g = VRgnInt -> sval_is_ref v = false) /\ (k_kind C g = VRgnRef -> sval_is_ref v = true).

Lemma sval_cell_agree v w c f : agree w c -> sval_kind v -> sval_cell v (m_st c) f -> sval_cell v w f.
Proof.
  intros AG K H. destruct v as [x [|]|k|]; cbn in *; auto.
  - rewrite (AG _ (ref_notrgn_ga _ K)), (AG _ (ref_notrgn_go _ K)), (AG _ (ref_notrgn_gz _ K)). exact H.
  - rewrite (AG _ (int_notrgn _ K)). exact H.
Qed.

Lemma live_int_only a g u k : live a g = [(g, PInt)] -> k <> PInt -> ~ In (u, k) (live a g).
Proof. intros E N I. rewrite E in I. destruct I as [J|[]]. inversion J. congruence. Qed.
Lemma live_ref_nooff a g u k : live a g = comps TRef (gv_ref C g) -> q_deref P = false -> k <> PAdr -> ~ In (u, k) (live a g).
Proof.
  intros E D N I. rewrite E, gv_ref_eq, D in I. cbn in I. destruct I as [J|[]]. inversion J. congruence.
Qed.

(* do_mem_write on a tracked region whose contents have the type of the value *)
Lemma rb_mem_write a hp w E g a0 v f strong :
  RBA (allowed (live a) hp w) E -> sval_kind v -> sval_cell v w f ->
  live_ty (typ a g) (k_kind C g) = Some (sval_rty v) ->
  (strong = true -> forall k y, y <> a0 -> hp g k y = None) ->
  exists w', (forall u, ~ rgn_name u -> w' u = w u) /\
    RBA (allowed (live a) (hwrite hp g a0 f) w') (mem_write C a (gv_of C a g) v (negb strong) E).
Proof.
  intros R K F LT EX. set (weak := negb strong).
  assert (W0 : wr a g a0 weak w hp E).
  { split; [|exists w; auto]. intros S. apply EX. destruct strong; [reflexivity|discriminate]. }
  enough (W : wr a g a0 weak w
                 (hset (hset (hset (hset hp g PInt a0 (f PInt)) g PAdr a0 (f PAdr)) g POff a0 (f POff)) g PSiz a0 (f PSiz))
                 (mem_write C a (gv_of C a g) v weak E)).
  { destruct W as (_ & w' & HW & RW). exists w'. split; auto. apply (rb_hp_ext _ _ _ _ _ RW). intros. apply hwrite_hset. }
  (* an integer: the value of [e] *)
  assert (INT : forall e, scalar_exp e -> f = cell_int (eval_le e w) -> sval_rty v = TInt ->
            wr a g a0 weak w (hset (hset (hset (hset hp g PInt a0 (f PInt)) g PAdr a0 (f PAdr)) g POff a0 (f POff)) g PSiz a0 (f PSiz))
               ((if weak then d_weak_assign else d_assign) g e E)).
  { intros e Se -> RT. rewrite RT in LT. destruct (gv_of_int_rgn _ _ LT) as [_ LV]. cbn [cell_int].
    repeat (apply wr_keep; [|left; reflexivity]). apply wr_assign; auto. rewrite LV. left; auto. }
  unfold sval_rty in LT. destruct v as [x [|]|k|]; cbn [sval_is_ref] in LT; cbn [sval_cell] in F.
  - (* a reference variable *)
    subst f. cbn [cell_ref]. destruct (gv_of_ref_rgn _ _ LT) as [-> LV].
    unfold mem_write. rewrite (gv_of_ref a x (proj2 K)), !gv_ref_eq. cbn [fst snd].
    pose proof (wr_keep _ _ _ _ _ _ _ PInt None W0 (or_introl eq_refl)) as W1.
    pose proof (wr_assign _ _ _ _ _ _ _ _ _ _ W1 (live_ref_adr _ _ LT) (le_var_scalar _ (ref_notrgn_ga _ K))) as W2.
    rewrite eval_le_var in W2. destruct (q_deref P) eqn:D.
    + pose proof (wr_assign _ _ _ _ _ _ _ _ _ _ W2 (live_ref_off _ _ LT D) (le_var_scalar _ (ref_notrgn_go _ K))) as W3.
      pose proof (wr_assign _ _ _ _ _ _ _ _ _ _ W3 (live_ref_siz _ _ LT D) (le_var_scalar _ (ref_notrgn_gz _ K))) as W4.
      rewrite !eval_le_var in W4. exact W4.
    + apply wr_keep; [apply wr_keep; [exact W2|]|]; right; intros u; apply live_ref_nooff; auto; discriminate.
  - (* an integer variable *)
    unfold mem_write. rewrite (gv_of_int a x K), (proj1 (gv_of_int_rgn _ _ LT)). cbn [fst gv_plain].
    apply INT; [apply le_var_scalar, int_notrgn, K | rewrite eval_le_var; exact F | reflexivity].
  - (* a constant *)
    unfold mem_write. rewrite (proj1 (gv_of_int_rgn _ _ LT)). cbn [fst gv_plain].
    apply INT; [apply le_const_scalar | rewrite eval_le_const; exact F | reflexivity].
  - (* null *)
    destruct F as (o & s & ->). cbn [cell_ref]. destruct (gv_of_ref_rgn _ _ LT) as [-> LV].
    unfold mem_write, os_forget. rewrite !gv_ref_eq. cbn [fst snd].
    pose proof (wr_keep _ _ _ _ _ _ _ PInt None W0 (or_introl eq_refl)) as W1.
    pose proof (wr_assign _ _ _ _ _ _ _ _ _ _ W1 (live_ref_adr _ _ LT) (le_const_scalar 0)) as W2.
    rewrite eval_le_const in W2. destruct (q_deref P) eqn:D.
    + apply wr_forget; [apply wr_forget; [exact W2|apply live_ref_off; auto]|apply live_ref_siz; auto].
    + apply wr_keep; [apply wr_keep; [exact W2|]|]; right; intros u; apply live_ref_nooff; auto; discriminate.
Qed.

Lemma live_vars_in_gv a g v k : In (v, k) (live a g) -> In v (gv_list (gv_of C a g)).
Proof.
  unfold live, live_of, gv_of. destruct (live_ty (typ a g) (k_kind C g)) as [[| |]|]; cbn [comps]; try contradiction.
  - intros [E|[]]. inversion E. unfold gv_list. left. reflexivity.
  - unfold gv_list. destruct (gv_of_ty C g (typ a g)) as [x [[o z]|]]; cbn.
    + intros [E|[E|[E|[]]]]; inversion E; auto.
    + intros [E|[]]; inversion E; auto.
Qed.

(* the dynamic type of g changes: the ghost variables it has afterwards are forgotten *)
Lemma rb_retype a a' hp w E g xs :
  RBA (allowed (live a) hp w) E ->
  (forall g', g' <> g -> live a' g' = live a g') ->
  (forall v k, In (v, k) (live a' g) -> In v xs) ->
  RBA (allowed (live a') hp w) (fold_left e_forget xs E).
Proof.
  intros R HO HX. apply (rb_forget_list xs _ _ _ R (allowed_ne _ _ _) (allowed_ne _ _ _)).
  intros v z NI [E0|(g' & k & x & I & H)]; [left; auto|right].
  destruct (N.eq_dec g' g) as [->|N]; [elim NI; eapply HX; eauto|].
  exists g', k, x. rewrite <- HO by auto. auto.
Qed.

(* a cell is written whose components are not summarised by any ghost variable *)
Lemma rb_write_notlive a hp w E g a0 f :
  RBA (allowed (live a) hp w) E -> (forall u k z, f k = Some z -> ~ In (u, k) (live a g)) ->
  RBA (allowed (live a) (hwrite hp g a0 f) w) E.
Proof.
  intros R NL. apply (rb_cells _ _ _ _ _ _ R). intros g' k x v z I H. split; auto.
  unfold hwrite in H. destruct (N.eqb_spec g' g) as [->|N]; cbn in H; auto.
  destruct (Z.eqb_spec x a0) as [->|Nx]; auto. elim (NL _ _ _ H I).
Qed.

Lemma store_side_rgn s g v st : s_rgn (store_side C s g v st) = s_rgn s.
Proof. unfold store_side. destruct st, v as [x [|]|k|]; rewrite ?set_tg_rgn, ?set_al_rgn; reflexivity. Qed.
Lemma store_side_base s g v st : s_base (store_side C s g v st) = s_base s.
Proof. unfold store_side. destruct st, v as [x [|]|k|]; rewrite ?set_tg_base, ?set_al_base; reflexivity. Qed.
Lemma store_side_alloc_info' s g i v st : s_alloc (set_info (store_side C s g v st) g i) = s_alloc (store_side C s g v st).
Proof. reflexivity. Qed.
Lemma set_al_info s g i v d : set_al C (set_info s g i) v d = set_info (set_al C s v d) g i.
Proof. unfold set_al. destruct (q_alloc _); reflexivity. Qed.
Lemma set_tg_info s g i v d : set_tg C (set_info s g i) v d = set_info (set_tg C s v d) g i.
Proof. unfold set_tg. destruct (q_tags _); reflexivity. Qed.
(* allocation sites and tags are updated independently of the region environment *)
Lemma store_side_info s g i g' v st : store_side C (set_info s g i) g' v st = set_info (store_side C s g' v st) g i.
Proof. unfold store_side. destruct st, v as [x [|]|k|]; rewrite ?set_al_info, ?set_tg_info; reflexivity. Qed.

(* the allocation sites and the tags ref_store gives the region: those of the value, joined with
   those of the region unless the update is strong *)
Definition store_al (s : rst2) (g : var) (v : sval) (strong : bool) : dset :=
  match v with
  | SNull => if strong then ds_empty else s_alloc s g
  | SVar x true => if strong then s_alloc s x else ds_join (s_alloc s g) (s_alloc s x)
  | _ => s_alloc s g
  end.
Definition store_tg (s : rst2) (g : var) (v : sval) (strong : bool) : dset :=
  match v with
  | SVar x _ => if strong then s_tags s x else ds_join (s_tags s g) (s_tags s x)
  | _ => s_tags s g
  end.
Lemma store_side_alloc s g v st u : s_alloc (store_side C s g v st) u = s_alloc (set_al C s g (store_al s g v st)) u.
Proof. unfold store_side, store_al. destruct st, v as [x [|]|k|]; rewrite ?set_tg_alloc, ?set_al_id; reflexivity. Qed.
Lemma store_side_tags s g v st u : s_tags (store_side C s g v st) u = s_tags (set_tg C s g (store_tg s g v st)) u.
Proof.
  unfold store_side, store_tg.
  destruct st, v as [x [|]|k|]; rewrite ?set_al_tags, ?set_tg_id; try reflexivity; rewrite !set_tg_get, set_al_tags; reflexivity.
Qed.

Lemma ig2_ext b c c' g : (forall k x, m_hp c' g k x = m_hp c g k x) -> igamma2 b c g -> igamma2 b c' g.
Proof.
  intros E. destruct b; cbn; auto.
  - intros H k x. rewrite E. apply H.
  - intros (k & x & z & H). exists k, x, z. rewrite E. exact H.
Qed.

(* everything but the base domain after a store *)
Lemma store_rest a c w g v strong a0 f T' E w' :
  rel2 a c w -> agree w c -> vk_is_rgn (k_kind C g) = true -> sval_kind v ->
  In a0 (maddrs c g) -> sval_cell v w f ->
  (strong = true -> forall k y, y <> a0 -> m_hp c g k y = None) ->
  (forall u, ~ rgn_name u -> w' u = w u) ->
  let S := set_info (store_side C a g v strong) g (cnt a g, BTop, T') in
  let c' := mkS (m_st c) (hwrite (m_hp c) g a0 f) (m_made c) (m_asite c) (m_vtg c) (hupd (m_htg c) g a0 (sval_tg v c)) in
  RBA (allowed (live S) (m_hp c') w') E ->
  relv2 (wbase S E) c'.
Proof.
  intros R AG Kg Kv AI F EXCL HW S c' HB.
  destruct (rb_nonbot _ _ w' HB (allowed_w _ _ _)) as (m & ->). exists w'.
  split; [intros u Nu; rewrite HW by auto; apply AG; auto|].
  (* what the new sites and tags of the region describe: the value, and the other cells if there are any *)
  assert (NEW_AL : forall ad, f PAdr = Some ad -> sgamma2 c (store_al a g v strong) ad).
  { intros ad Fa. unfold store_al.
    destruct v as [x [|]|k|]; cbn in F; [subst f|subst f; discriminate|subst f; discriminate|destruct F as (o & s & ->)];
      cbn in Fa; inversion Fa; subst ad; [|destruct strong; apply sg2_zero].
    pose proof (x_svar _ _ _ R x (proj2 Kv) (proj1 Kv)) as X. destruct strong; auto. apply sg2_join; auto. }
  assert (OLD_AL : strong = false -> forall ad, sgamma2 c (s_alloc a g) ad -> sgamma2 c (store_al a g v strong) ad).
  { intros -> ad X. unfold store_al. destruct v as [x [|]|k|]; auto. apply sg2_join; auto. }
  assert (NEW_TG : tgamma (store_tg a g v strong) (sval_tg v c)).
  { unfold store_tg. destruct v as [x isr|k|]; cbn [sval_tg]; try apply tg_nil.
    assert (K0 : vk_is_rgn (k_kind C x) = false) by (destruct isr; [apply ref_kind_nr|apply int_kind_nr]; auto).
    pose proof (x_tvar _ _ _ R x K0) as X. destruct strong; auto. apply tg_join; auto. }
  assert (OLD_TG : strong = false -> forall l, tgamma (s_tags a g) l -> tgamma (store_tg a g v strong) l).
  { intros -> l X. unfold store_tg. destruct v as [x isr|k|]; auto. apply tg_join; auto. }
  assert (FNE : exists k z, f k = Some z).
  { destruct v as [x [|]|k|]; cbn in F; [| | |destruct F as (o & s & F)]; subst f;
      [exists PAdr|exists PInt|exists PInt|exists PAdr]; eexists; reflexivity. }
  assert (NE : forall u, vk_is_rgn (k_kind C u) = false -> N.eqb u g = false).
  { intros u Ku. apply N.eqb_neq. intros ->. congruence. }
  subst S c'. constructor; cbn [s_base s_rgn s_alloc s_tags set_info m_hp m_htg].
  - exact HB.
  - intros g'. unfold cnt. cbn [s_rgn]. rewrite store_side_rgn. destruct (N.eq_dec g' g) as [->|N];
      [rewrite fupd_same|rewrite fupd_other by auto]; apply (x_count _ _ _ R).
  - intros g'. unfold ini. cbn [s_rgn]. rewrite store_side_rgn. destruct (N.eq_dec g' g) as [->|N]; [rewrite fupd_same; exact I|].
    rewrite fupd_other by auto. apply (ig2_ext _ c); [|apply (x_init _ _ _ R)]. intros k x. apply hwrite_other_rgn; auto.
  - intros g' k x z H. cbn [m_hp] in H. change (In x (maddrs c g')).
    destruct (N.eq_dec g' g) as [->|N]; [|rewrite hwrite_other_rgn in H by auto; eapply (x_wf _ _ _ R); eauto].
    destruct (Z.eq_dec x a0) as [->|Nx]; auto.
    rewrite hwrite_other_addr in H by auto. eapply (x_wf _ _ _ R); eauto.
  - intros p Kp Pp. assert (Kr : vk_is_rgn (k_kind C p) = false) by (rewrite Kp; reflexivity).
    rewrite store_side_alloc, set_al_get, (NE p Kr), HW by (apply notrgn_ga; auto).
    destruct (q_alloc P); apply (x_svar _ _ _ R); auto.
  - intros g' x ad Kg' H. rewrite store_side_alloc, set_al_get.
    destruct (q_alloc P) eqn:PA; [|rewrite (x_soff _ _ _ R PA); exact I].
    destruct (N.eqb_spec g' g) as [->|N]; [|rewrite hwrite_other_rgn in H by auto; eapply (x_srgn _ _ _ R); eauto].
    destruct (Z.eq_dec x a0) as [->|Nx]; [rewrite hwrite_same in H; exact (NEW_AL _ H)|].
    rewrite hwrite_other_addr in H by auto.
    destruct strong; [rewrite EXCL in H by auto; discriminate|]. exact (OLD_AL eq_refl _ (x_srgn _ _ _ R g x ad Kg' H)).
  - intros Off u. rewrite store_side_alloc, set_al_get, Off. apply (x_soff _ _ _ R Off).
  - apply (x_anull _ _ _ R).
  - intros u Ku. rewrite store_side_tags, set_tg_get, (NE u Ku). destruct (q_tags P); apply (x_tvar _ _ _ R); auto.
  - intros g' x Kg'. rewrite store_side_tags, set_tg_get.
    destruct (q_tags P) eqn:PT; [|rewrite (x_toff _ _ _ R PT); exact I].
    destruct (N.eqb_spec g' g) as [->|N]; [|rewrite hupd_other_rgn by auto; apply (x_trgn _ _ _ R); auto].
    destruct (Z.eq_dec x a0) as [->|Nx]; [rewrite hupd_same; exact NEW_TG|].
    rewrite hupd_other_addr by auto.
    destruct strong; [rewrite (x_tuw _ _ _ R g x) by auto; apply tg_nil | apply OLD_TG; auto; apply (x_trgn _ _ _ R); auto].
  - intros Off u. rewrite store_side_tags, set_tg_get, Off. apply (x_toff _ _ _ R Off).
  - intros g' x Hx.
    destruct (N.eq_dec g' g) as [->|N].
    + destruct (Z.eq_dec x a0) as [->|Nx].
      * destruct FNE as (k & z & Fk). specialize (Hx k). rewrite hwrite_same in Hx. congruence.
      * rewrite hupd_other_addr by auto. apply (x_tuw _ _ _ R). intros k. specialize (Hx k).
        rewrite hwrite_other_addr in Hx by auto. auto.
    + rewrite hupd_other_rgn by auto. apply (x_tuw _ _ _ R). intros k. specialize (Hx k).
      rewrite hwrite_other_rgn in Hx by auto. auto.
Qed.

Lemma u_free_sound a c w g p : rel2 a c w -> rel2 (u_free C g p a) c w.
Proof.
  intros R. unfold u_free. destruct R. constructor; rewrite ?set_al_base, ?set_al_tags; auto.
  - apply (rb_ext _ _ _ x_base0). intros v z. unfold Aof, live, typ. rewrite set_al_rgn. tauto.
  - intros g0. unfold cnt. rewrite set_al_rgn. apply x_count0.
  - intros g0. unfold ini. rewrite set_al_rgn. apply x_init0.
  - intros q Kq Pq. rewrite set_al_get. destruct (q_alloc P); auto. destruct (N.eqb q p); [exact I|auto].
  - intros g0 x ad K H. rewrite set_al_get. destruct (q_alloc P); eauto. destruct (N.eqb g0 p); [exact I|eauto].
  - intros Off v. rewrite set_al_get, Off. auto.
Qed.

Definition csetS := cst -> Prop.
Definition cgetS (cs : list csetS) (r : reg) : csetS := nth r cs (fun _ => False).
Fixpoint csetrS (cs : list csetS) (r : reg) (v : csetS) : list csetS :=
  match cs, r with
  | [], _ => []
  | _ :: t, O => v :: t
  | h :: t, S r' => h :: csetrS t r' v
  end.
Definition reg_of2 (o : rop2) : reg :=
  match o with
  | PTop r | PBot r | PCopy r _ | PInit r _ | PMk r _ _ _ _ | PFree r _ _ | PLd r _ _ _ | PSt r _ _ _
  | PGep r _ _ _ _ _ _ _ | PRcopy r _ _ | PRcast r _ _ | PAssumeRef r _ _ _ _ | PSelRef r _ _ _ _ _ _
  | PR2i r _ _ | PI2r r _ _ _ | PTag r _ _ | PIsDeref r _ | PAssign r _ _ | PArith r _ _ _ _ | PAssume r _
  | PHavoc r _ | PForget r _ | PProject r _ | PJoin r _ _ | PMeet r _ _ | PWiden r _ _ | PNarrow r _ _ => r
  end.
Definition minit (c : cst) : Prop :=
  mwf c /\ m_asite c 0 = None /\ (forall g x, (forall k, m_hp c g k x = None) -> m_htg c g x = []).
Definition cstepS2 (cs : list csetS) (o : rop2) : list csetS :=
  match o with
  | PTop r => csetrS cs r minit
  | PBot r => csetrS cs r (fun _ => False)
  | PCopy r s => csetrS cs r (cgetS cs s)
  | _ => csetrS cs (reg_of2 o) (fun c' => exists c, cgetS cs (reg_of2 o) c /\ cstep2 o c c')
  end.

(* side conditions: well-typed CrabIR and the canonical form of the expressions handed over by the
   front end; the operations outside the proved fragment are excluded *)
Definition op_ok2 (o : rop2) : Prop :=
  match o with
  | PTop _ | PBot _ | PCopy _ _ | PFree _ _ _ => True
  | PMk _ p g _ size => is_ref_var p /\ size_ok size
  | PLd _ x p g =>
    is_ref_var p /\ prog x = true /\ vk_is_rgn (k_kind C g) = true /\
    (k_kind C g = VRgnInt -> k_kind C x = VInt) /\ (k_kind C g = VRgnRef -> k_kind C x = VRef)
  | PGep _ p2 g2 p1 g1 off addr offe =>
    is_ref_var p2 /\ is_ref_var p1 /\ int_exp off /\ scalar_exp addr /\ scalar_exp offe /\
    (forall s, eval_le addr s = s (ga p1) + eval_le off s) /\ (forall s, eval_le offe s = s (go p1) + eval_le off s)
  | PAssumeRef _ rc ea eo ez =>
    rcst_ok2 rc ea eo ez /\ match rc with RUn _ p => is_ref_var p | RBin _ p q _ => is_ref_var p /\ is_ref_var q end
  | PR2i _ p x => is_ref_var p /\ is_int_var x
  | PI2r _ x g p => is_int_var x /\ is_ref_var p
  | PIsDeref _ b => is_int_var b
  | PAssign _ x e => is_int_var x /\ int_exp e
  | PArith _ _ x y z => is_int_var x /\ is_int_var y /\ (forall v, z = OVar v -> is_int_var v)
  | PAssume _ cs => forall k, In k cs -> wf_lc k /\ int_exp (lc_exp k)
  | PHavoc _ v => is_int_var v \/ is_ref_var v
  | _ => False
  end.

Definition rels2 (rs : list rval2) (cs : list csetS) : Prop :=
  length rs = length cs /\ forall r c, cgetS cs r c -> relv2 (wget rs r) c.

Lemma wget_wset rs r v r' : (r < length rs)%nat ->
  wget (wset rs r v) r' = if Nat.eqb r' r then v else wget rs r'.
Proof.
  revert r r'. induction rs as [|h t IH]; simpl; intros r r' L; [lia|].
  destruct r, r'; simpl; auto. apply IH. lia.
Qed.
Lemma wset_oob rs r v : (length rs <= r)%nat -> wset rs r v = rs.
Proof. revert r. induction rs as [|h t IH]; simpl; intros r L; auto. destruct r; [lia|]. f_equal. apply IH. lia. Qed.
Lemma cgetS_csetrS cs r v r' : (r < length cs)%nat ->
  cgetS (csetrS cs r v) r' = if Nat.eqb r' r then v else cgetS cs r'.
Proof.
  revert r r'. induction cs as [|h t IH]; simpl; intros r r' L; [lia|].
  destruct r, r'; simpl; auto. apply IH. lia.
Qed.
Lemma csetrS_oob cs r v : (length cs <= r)%nat -> csetrS cs r v = cs.
Proof. revert r. induction cs as [|h t IH]; simpl; intros r L; auto. destruct r; [lia|]. f_equal. apply IH. lia. Qed.
Lemma wset_length rs r v : length (wset rs r v) = length rs.
Proof. revert r. induction rs as [|h t IH]; simpl; intros r; auto. destruct r; simpl; auto. Qed.
Lemma csetrS_length cs r v : length (csetrS cs r v) = length cs.
Proof. revert r. induction cs as [|h t IH]; simpl; intros r; auto. destruct r; simpl; auto. Qed.

Lemma rels2_set rs cs r (a : rval2) (cv : csetS) :
  rels2 rs cs -> (forall c, cv c -> relv2 a c) -> rels2 (wset rs r a) (csetrS cs r cv).
Proof.
  intros [L R] H. split. { rewrite wset_length, csetrS_length; auto. }
  intros r' c. destruct (Nat.lt_ge_cases r (length rs)) as [I|O].
  - rewrite wget_wset by auto. rewrite cgetS_csetrS by lia. destruct (Nat.eqb r' r); auto.
  - rewrite wset_oob by auto. rewrite csetrS_oob by lia. auto.
Qed.
Lemma rels2_unary rs cs o f :
  rels2 rs cs ->
  (forall a c c' w, rel2 a c w -> agree w c -> cstep2 o c c' -> relv2 (f a) c') ->
  rels2 (wset rs (reg_of2 o) (lift2 f (wget rs (reg_of2 o))))
        (csetrS cs (reg_of2 o) (fun c' => exists c, cgetS cs (reg_of2 o) c /\ cstep2 o c c')).
Proof.
  intros R H. apply rels2_set; auto. intros c' (c & G & S).
  destruct R as [_ R]. specialize (R _ _ G). destruct (wget rs (reg_of2 o)) as [a|]; [|elim R].
  cbn [lift2]. destruct R as (w & AG & R). eapply H; eauto.
Qed.

Lemma rel2_top c : minit c -> rel2 s_top c (m_st c).
Proof.
  intros (W & A & U). constructor; cbn; auto.
  intros s _ k. apply gamma_top.
Qed.

Theorem pstep_sound rs cs o rs' :
  rels2 rs cs -> op_ok2 o -> pstep C rs o = Some rs' -> rels2 rs' (cstepS2 cs o).
Proof.
  intros R OK ST. pose proof R as [L RR].
  destruct o; cbn [pstep cstepS2 reg_of2 op_ok2] in *; try contradiction;
    try (inversion ST; subst rs'; clear ST).
  - (* top *) apply rels2_set; auto. intros c Hc. exists (m_st c). split; [intros v _; reflexivity|apply rel2_top; auto].
  - (* bot *) apply rels2_set; auto.
  - (* copy *) apply rels2_set; auto.
  - (* mk *) destruct OK. apply (rels2_unary rs cs (PMk r p g site size)); auto. intros. eapply u_mk_sound; eauto.
  - (* free *) apply (rels2_unary rs cs (PFree r g p)); auto. intros a c c' w Ra AG S. cbn in S. subst.
    exists w. split; auto. apply u_free_sound; auto.
  - (* load *) destruct OK as (K1 & K2 & K3 & K4 & K5).
    apply (rels2_unary rs cs (PLd r x p g)); auto. intros. eapply u_load_sound; eauto.
  - (* gep *) destruct OK as (K1 & K2 & K3 & K4 & K5 & K6 & K7).
    apply (rels2_unary rs cs (PGep r p2 g2 p1 g1 offset addr offe)); auto. intros a c c' w Ra AG S. cbn in S.
    eapply u_gep_sound; eauto.
  - (* ref_assume *) destruct OK as [K1 K2].
    apply (rels2_unary rs cs (PAssumeRef r c ea eo ez)); auto. intros a c0 c' w Ra AG S. cbn in S.
    eapply u_assume_ref_sound; eauto.
  - (* r2i *) destruct OK. apply (rels2_unary rs cs (PR2i r p x)); auto. intros. eapply u_r2i_sound; eauto.
  - (* i2r *) destruct OK. apply (rels2_unary rs cs (PI2r r x g p)); auto. intros. eapply u_i2r_sound; eauto.
  - (* is_dereferenceable *) apply (rels2_unary rs cs (PIsDeref r b)); auto. intros. eapply u_isderef_sound; eauto.
  - (* assign *) destruct OK. apply (rels2_unary rs cs (PAssign r x e)); auto. intros. eapply u_assign_sound; eauto.
  - (* arith *) destruct OK as (K1 & K2 & K3).
    apply (rels2_unary rs cs (PArith r op x y z)); auto. intros. eapply u_arith_sound; eauto.
  - (* assume *) apply (rels2_unary rs cs (PAssume r cs0)); auto. intros. eapply u_assume_sound; eauto.
  - (* havoc *) apply (rels2_unary rs cs (PHavoc r v)); auto. intros a c c' w Ra AG S. cbn in S.
    destruct OK; [eapply u_havoc_int_sound|eapply u_havoc_ref_sound]; eauto.
Qed.

Theorem region2_history_sound h : Forall op_ok2 h -> forall rs cs rs',
  rels2 rs cs -> prun C rs h = Some rs' -> rels2 rs' (fold_left cstepS2 h cs).
Proof.
  induction h as [|o t IH]; simpl; intros OK rs cs rs' R RUN.
  - inversion RUN; subst; auto.
  - inversion OK; subst. destruct (pstep C rs o) as [rs1|] eqn:ST; [|discriminate].
    eapply IH; eauto. eapply pstep_sound; eauto.
Qed.

Theorem o_at_sound rs cs r c x : rels2 rs cs -> cgetS cs r c -> is_int_var x ->
  gamma (o_at C (wget rs r) x) (m_st c x).
Proof.
  intros [_ R] G K. specialize (R _ _ G). destruct (wget rs r) as [a|]; [|elim R].
  destruct R as (w & AG & R). cbn [o_at]. rewrite (gv_of_int a x K). cbn [gv_var gv_plain fst].
  rewrite <- (AG _ (int_notrgn _ K)). apply (rel2_at _ _ _ _ R).
Qed.
Theorem o_addr_sound rs cs r c p : rels2 rs cs -> cgetS cs r c -> is_ref_var p ->
  gamma (o_at C (wget rs r) p) (m_st c (ga p)).
Proof.
  intros [_ R] G K. specialize (R _ _ G). destruct (wget rs r) as [a|]; [|elim R].
  destruct R as (w & AG & R). cbn [o_at]. rewrite (gv_of_ref a p (proj2 K)). unfold gv_var. fold (ga p).
  rewrite <- (AG _ (ref_notrgn_ga _ K)). apply (rel2_at _ _ _ _ R).
Qed.
Theorem o_null_sound rs cs r c p : rels2 rs cs -> cgetS cs r c -> is_ref_var p ->
  (o_null C (wget rs r) p = BTrue -> m_st c (ga p) = 0) /\ (o_null C (wget rs r) p = BFalse -> m_st c (ga p) <> 0).
Proof.
  intros [_ R] G K. specialize (R _ _ G). destruct (wget rs r) as [a|]; [|elim R].
  destruct R as (w & AG & R). cbn [o_null]. rewrite (null_of_ref a p (proj2 K)).
  rewrite <- (AG _ (ref_notrgn_ga _ K)). split; intros H.
  - eapply is_null_itv_true; [apply (rel2_at _ _ _ _ R)|exact H].
  - eapply is_null_itv_false; [apply (rel2_at _ _ _ _ R)|exact H].
Qed.
(* the offset and size ghost variables describe the ghost offset and size of the reference *)
Theorem o_offsize_sound rs cs r c p io iz : rels2 rs cs -> cgetS cs r c -> is_ref_var p ->
  o_offsize C (wget rs r) p = Some (io, iz) -> gamma io (m_st c (go p)) /\ gamma iz (m_st c (gz p)).
Proof.
  intros [_ R] G K Q. specialize (R _ _ G). destruct (wget rs r) as [a|]; [|elim R].
  destruct R as (w & AG & R). cbn [o_offsize] in Q. rewrite (gv_of_ref a p (proj2 K)), gv_ref_eq in Q. cbn [snd] in Q.
  destruct (q_deref P); [|discriminate]. inversion Q; subst. split.
  - rewrite <- (AG _ (ref_notrgn_go _ K)). apply (rel2_at _ _ _ _ R).
  - rewrite <- (AG _ (ref_notrgn_gz _ K)). apply (rel2_at _ _ _ _ R).
Qed.
Theorem o_sites_sound rs cs r c p ss : rels2 rs cs -> cgetS cs r c -> is_ref_var p ->
  o_sites (wget rs r) p = Some ss ->
  m_st c (ga p) = 0 \/ exists site, m_asite c (m_st c (ga p)) = Some site /\ In site ss.
Proof.
  intros [_ R] G K Q. specialize (R _ _ G). destruct (wget rs r) as [a|]; [|elim R].
  destruct R as (w & AG & R). cbn [o_sites] in Q. pose proof (x_svar _ _ _ R p (proj2 K) (proj1 K)) as X.
  rewrite Q in X. rewrite <- (AG _ (ref_notrgn_ga _ K)). exact X.
Qed.
(* is_dereferenceable: a positive answer means offset + sz <= size for the ghost offset and size *)
Theorem o_deref_sound rs cs r c p e : rels2 rs cs -> cgetS cs r c -> is_ref_var p ->
  scalar_exp e -> wf_le e -> o_deref C (wget rs r) p e = Some (Some true) ->
  forall w, (forall v, ~ rgn_name v -> w v = m_st c v) -> ~ eval_le e w < 0.
Proof.
  intros [_ R] G K Se We Q w0 HW0 LT. specialize (R _ _ G). destruct (wget rs r) as [a|]; [|elim R].
  destruct R as (w & AG & R). cbn [o_deref] in Q. inversion Q as [Q1]. clear Q. unfold a_deref in Q1.
  destruct (snd (gv_of C a p)); [|discriminate]. inversion Q1 as [Q2]. clear Q1.
  assert (B : RBA (Aof a c w) (d_add [mkLC STRICT e] (EMap (s_base a)))).
  { apply rb_add; [apply (x_base _ _ _ R)|]. intros k0 [<-|[]]. split; [exact We|split; [exact Se|]].
    unfold sat. cbn [lc_kind lc_exp]. erewrite eval_le_ext; [exact LT|].
    intros co v I. rewrite (AG _ (Se _ _ I)). symmetry. apply HW0. eapply Se; eauto. }
  destruct (rb_nonbot _ _ w B (allowed_w _ _ _)) as (m & Em). rewrite Em in Q2. discriminate.
Qed.
End Sound.

(* the theorems under one hypothesis on the naming scheme of the ghost variables *)
Definition naming_ok (C : rconf2) (prog : var -> bool) : Prop :=
  (forall v, prog v = false -> k_kind C v = VInt) /\
  (forall v, prog (k_adr C v) = false) /\ (forall v, prog (k_off C v) = false) /\
  (forall v, prog (k_siz C v) = false) /\ (forall v, prog (k_dup C v) = false) /\
  (forall a b, k_adr C a = k_adr C b -> a = b) /\ (forall a b, k_off C a = k_off C b -> a = b) /\
  (forall a b, k_siz C a = k_siz C b -> a = b) /\ (forall a b, k_dup C a = k_dup C b -> a = b) /\
  (forall a b, k_adr C a <> k_off C b) /\ (forall a b, k_adr C a <> k_siz C b) /\
  (forall a b, k_off C a <> k_siz C b) /\ (forall a b, k_dup C a <> k_adr C b) /\
  (forall a b, k_dup C a <> k_off C b) /\ (forall a b, k_dup C a <> k_siz C b).
Ltac with_naming L :=
  intros (H1 & H2 & H3 & H4 & H5 & H6 & H7 & H8 & H9 & H10 & H11 & H12 & H13 & H14 & H15); eapply L; eassumption.

Lemma nm_null C prog : naming_ok C prog -> forall rs cs r c p, rels2 C prog rs cs -> cgetS cs r c -> is_ref_var C prog p ->
  (o_null C (wget rs r) p = BTrue -> m_st c (ga C p) = 0) /\
  (o_null C (wget rs r) p = BFalse -> m_st c (ga C p) <> 0).
Proof. with_naming o_null_sound. Qed.
Lemma nm_offsize C prog : naming_ok C prog -> forall rs cs r c p io iz, rels2 C prog rs cs -> cgetS cs r c -> is_ref_var C prog p ->
  o_offsize C (wget rs r) p = Some (io, iz) -> gamma io (m_st c (go C p)) /\ gamma iz (m_st c (gz C p)).
Proof. with_naming o_offsize_sound. Qed.
Lemma nm_sites C prog : naming_ok C prog -> forall rs cs r c p ss, rels2 C prog rs cs -> cgetS cs r c -> is_ref_var C prog p ->
  o_sites (wget rs r) p = Some ss ->
  m_st c (ga C p) = 0 \/ exists site, m_asite c (m_st c (ga C p)) = Some site /\ In site ss.
Proof. with_naming o_sites_sound. Qed.

(* the known finding about meet: the history of checks/C15.py (two registers that hold the same
   memory, one with dynamic type region(ref) after a skipped store of an integer, the other with
   region(int)) ends in bottom *)
Definition exm_kind (v : var) : vk :=
  if N.leb v 2 then VInt else if N.eqb v 3 then VBool else if N.leb v 5 then VRef
  else if N.eqb v 6 then VRgnInt else if N.eqb v 7 then VRgnUnk else VInt.
Definition exm_C : rconf2 :=
  mkC2 (mkP2 false false false false) exm_kind (fun v => 100 + v)%N (fun v => 200 + v)%N (fun v => 300 + v)%N
       (fun v => 400 + v)%N [6%N; 7%N].
Definition exm_hist : list rop2 :=
  [PInit 0%nat 7%N; PMk 0%nat 4%N 7%N 1 (OCst 4); PCopy 1%nat 0%nat;
   PSt 0%nat 4%N 7%N SNull; PSt 0%nat 4%N 7%N SNull; PSt 0%nat 4%N 7%N (SCst 9);
   PSt 1%nat 4%N 7%N (SCst 9); PSt 1%nat 4%N 7%N (SCst 9); PMeet 2%nat 0%nat 1%nat].
Lemma meet_unknown_types_refuted :
  match prun exm_C [Some s_top; Some s_top; Some s_top] exm_hist with
  | Some [Some x; Some y; None] => true
  | _ => false
  end = true.
Proof. vm_compute. reflexivity. Qed.

(* non-vacuity: region_init is outside the proved fragment, so the example starts from top:
   p := make_ref(U, 16); q := gep(p, 4); x := ref_to_int(q); is q dereferenceable for 12 bytes?
   (variables: x = 1, p = 4, q = 5, U = 7; is_dereferenceable on) *)
Definition exd_C : rconf2 :=
  mkC2 (mkP2 true true true false) exm_kind (fun v => 100 + v)%N (fun v => 200 + v)%N (fun v => 300 + v)%N
       (fun v => 400 + v)%N [6%N; 7%N].
Definition exd_hist : list rop2 :=
  [PMk 0%nat 4%N 7%N 1 (OCst 16);
   PGep 0%nat 5%N 7%N 4%N 7%N (mkLE [] 4) (mkLE [(1, 104%N)] 4) (mkLE [(1, 204%N)] 4);
   PR2i 0%nat 5%N 1%N].
Example exd_abstract :
  match prun exd_C [Some s_top] exd_hist with
  | Some [Some s] =>
    (o_offsize exd_C (Some s) 5%N,
     o_deref exd_C (Some s) 5%N (mkLE [(-1, 205%N); (1, 305%N)] (-12)),
     o_deref exd_C (Some s) 5%N (mkLE [(-1, 205%N); (1, 305%N)] (-13)),
     s_alloc s 5%N)
  | _ => (None, None, None, None)
  end = (Some (iconst 4, iconst 16), Some (Some true), Some (Some false), Some [1]).
Proof. vm_compute. reflexivity. Qed.
