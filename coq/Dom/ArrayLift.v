(* ArrayLift.v — property C12, lifting clause, for the two array liftings that have a full
   mirror: array_smashing<interval_domain> (ArraySmash.v) and
   array_adaptive_domain<interval_domain> (ArrayAdapt.v).

   On straight-line NUMERICAL code (a history of scalar operations of the interval-domain
   language History.hop, no array statement) the scalar component of the array domain's
   value is, structurally, the value that the bare interval-domain model computes
   (History.hrun); bottom and at(v) are therefore reported alike.

   Embedding of the scalar operations ([alift]).  The register language of the two array
   mirrors (ArraySmash.ahop) has a constructor for: top, bottom, copy, assign, arithmetic
   apply, assume (+= of a constraint system, through the solver), forget, project, rename,
   expand, join, meet, widening, narrowing, widening with thresholds; scalars are passed as
   [VS x].
   Excluded from the theorems:
   - HWeakAssign, HBit, HCast, HSelect: the mirrors have no such operation (ahop has no
     constructor for weak_assign, the bitwise apply, the int-cast apply and select; in the
     C++ all four are plain delegations to the base domain).  They are excluded for BOTH
     liftings; [alift] sends them to a dummy operation.
   - for array_adaptive only, an HMeet one operand of which is top while the other one is
     not bottom ([meet_fine]; [adapt_ok] excludes every HMeet, [adapt_hist_ok] only those):
     array_adaptive_domain::operator& returns one operand
     itself when the other one is top, where the interval domain rebuilds the environment
     binding after binding.  In the association-list model of environments (ItvEnv.env)
     the rebuilt list holds the same bindings in another order, so the two values agree
     pointwise but are not the same term ([adapt_meet_not_structural] below; the patricia
     trees of the C++ are canonical, so there the two are the same tree).
   - for array_adaptive only, HRename with lists of different lengths:
     array_adaptive_domain::rename stops with CRAB_ERROR ([a_rename] = None).
   Everything else is covered, in particular the empty assume / project and, for
   array_smashing, meet and narrowing. *)
From Coq Require Import ZArith NArith List Bool Lia.
From CrabV Require Import Base.ZInf Scalar.Itv Ir.Syntax Dom.ItvEnv Dom.ItvSolver Dom.ItvDomain
     Dom.History Fix.Thresholds Dom.ItvEnvNoTop Dom.ArraySmash Dom.ArrayAdaptCore Dom.ArrayAdapt.
Import ListNotations.
Local Open Scope Z_scope.

Definition alift (o : hop) : ahop :=
  match o with
  | HTop r => ATop r | HBot r => ABot r | HCopy r s => ACopy r s
  | HAssign r x e => AAssign r x e
  | HArith r op x y z => AArith r op x y z
  | HAssume r cs => AAssume r cs
  | HForget r vs => AForget r (map VS vs)
  | HProject r vs => AProject r (map VS vs)
  | HRename r f t => ARename r (map VS f) (map VS t)
  | HExpand r x nx => AExpand r (VS x) (VS nx)
  | HJoin r s t => AJoin r s t
  | HMeet r s t => AMeet r s t
  | HWiden r s t => AWiden r s t
  | HNarrow r s t => ANarrow r s t
  | HWidenThr r s t ths => AWidenThr r s t ths
  (* no counterpart in the mirrors: excluded by [smash_ok] / [adapt_ok] *)
  | HWeakAssign r _ _ => ACopy r r
  | HBit r _ _ _ _ => ACopy r r
  | HCast r _ _ _ _ _ _ => ACopy r r
  | HSelect r _ _ _ _ => ACopy r r
  end.

(* numerical statements covered for array_smashing *)
Definition smash_ok (o : hop) : Prop :=
  match o with
  | HWeakAssign _ _ _ | HBit _ _ _ _ _ | HCast _ _ _ _ _ _ _ | HSelect _ _ _ _ _ => False
  | _ => True
  end.
(* numerical statements covered for array_adaptive *)
Definition adapt_ok (o : hop) : Prop :=
  match o with
  | HWeakAssign _ _ _ | HBit _ _ _ _ _ | HCast _ _ _ _ _ _ _ | HSelect _ _ _ _ _ => False
  | HMeet _ _ _ => False
  | HRename _ f t => length f = length t
  | _ => True
  end.

Lemma forget_scan_VS vs : forall l acc, forget_scan (map VS vs) l acc = (l, acc ++ vs).
Proof.
  induction vs as [|v r IH]; intros l acc; cbn [map forget_scan].
  - rewrite app_nil_r. reflexivity.
  - rewrite IH, <- app_assoc. reflexivity.
Qed.
Lemma project_scan_VS vs : forall l kv ka, project_scan (map VS vs) l kv ka = (kv ++ vs, ka).
Proof.
  induction vs as [|v r IH]; intros l kv ka; cbn [map project_scan].
  - rewrite app_nil_r. reflexivity.
  - rewrite IH, <- app_assoc. reflexivity.
Qed.
Definition vsp (q : var * var) : avar * avar := (VS (fst q), VS (snd q)).
Lemma combine_VS f : forall t, combine (map VS f) (map VS t) = map vsp (combine f t).
Proof.
  induction f as [|x f IH]; intros [|y t]; cbn [map combine]; try reflexivity.
  rewrite IH. reflexivity.
Qed.
Lemma rename_scan_VS ps : forall l ov nv,
  rename_scan (map vsp ps) l ov nv = (l, ov ++ map fst ps, nv ++ map snd ps).
Proof.
  induction ps as [|[x y] r IH]; intros l ov nv; cbn [map rename_scan vsp fst snd].
  - rewrite !app_nil_r. reflexivity.
  - rewrite IH, <- !app_assoc. reflexivity.
Qed.
Lemma combine_fst_snd {A B} (l : list (A * B)) : combine (map fst l) (map snd l) = l.
Proof. induction l as [|[a b] r IH]; cbn [map combine fst snd]; [|rewrite IH]; reflexivity. Qed.
Lemma e_rename_combine e f t :
  e_rename e (map fst (combine f t)) (map snd (combine f t)) = e_rename e f t.
Proof. unfold e_rename. rewrite combine_fst_snd. reflexivity. Qed.

Lemma s_forget_VS vs s : s_forget (map VS vs) s = mkA (a_la s) (d_forget vs (a_base s)).
Proof. unfold s_forget. rewrite forget_scan_VS. reflexivity. Qed.
Lemma s_project_VS vs s :
  s_project (map VS vs) s = mkA (la_project (a_la s) []) (e_project (a_base s) vs).
Proof. unfold s_project. rewrite project_scan_VS. reflexivity. Qed.
Lemma s_rename_VS f t s :
  s_rename (map VS f) (map VS t) s = mkA (a_la s) (e_rename (a_base s) f t).
Proof.
  unfold s_rename. rewrite combine_VS, rename_scan_VS. cbn [app].
  rewrite e_rename_combine. reflexivity.
Qed.

Lemma Forall2_nth {A B} (R : A -> B -> Prop) da db : R da db ->
  forall l1 l2, Forall2 R l1 l2 -> forall r, R (nth r l1 da) (nth r l2 db).
Proof.
  intros D l1 l2 F. induction F; intros [|r]; cbn [nth]; auto.
Qed.
Lemma Forall2_repeat {A B} (R : A -> B -> Prop) a b n : R a b -> Forall2 R (repeat a n) (repeat b n).
Proof. intros H. induction n; cbn [repeat]; constructor; auto. Qed.

Definition ssim (st : ast) (e : env) : Prop := a_base st = e.
Definition ssimr (rs : list ast) (es : list env) : Prop := Forall2 ssim rs es.

Lemma ssimr_get rs es r : ssimr rs es -> a_base (aget rs r) = rget es r.
Proof. intros H. unfold aget, rget. apply (Forall2_nth ssim s_top e_top); [reflexivity|exact H]. Qed.
Lemma ssimr_set rs es : ssimr rs es -> forall r v e, a_base v = e -> ssimr (aset rs r v) (rset es r e).
Proof.
  intros F. induction F; intros [|r] v e E; cbn [aset rset]; constructor; auto.
  apply IHF; exact E.
Qed.

Theorem smash_sim_step rs es o :
  ssimr rs es -> smash_ok o ->
  exists rs', astep rs (alift o) = Some rs' /\ ssimr rs' (hstep es o).
Proof.
  intros R OK.
  destruct o; cbn [smash_ok] in OK; try contradiction; cbn [alift astep hstep];
    (eexists; split; [reflexivity|]); (apply ssimr_set; [exact R|]);
    try (pose proof (ssimr_get rs es r R) as G);
    try (pose proof (ssimr_get rs es s R) as Gs);
    try (pose proof (ssimr_get rs es t R) as Gt).
  - (* top *) reflexivity.
  - (* bottom *) reflexivity.
  - (* copy *) exact Gs.
  - (* assign *) cbn [s_assign a_base]. rewrite G. reflexivity.
  - (* arith *) cbn [s_arith a_base]. rewrite G. reflexivity.
  - (* assume *) cbn [s_assume a_base]. rewrite G. reflexivity.
  - (* forget *) rewrite s_forget_VS. cbn [a_base]. rewrite G. reflexivity.
  - (* project *) rewrite s_project_VS. cbn [a_base]. rewrite G. reflexivity.
  - (* rename *) rewrite s_rename_VS. cbn [a_base]. rewrite G. reflexivity.
  - (* expand *) cbn [s_expand a_base]. rewrite G. reflexivity.
  - (* join *) cbn [s_join a_base]. rewrite Gs, Gt. reflexivity.
  - (* meet *) cbn [s_meet a_base]. rewrite Gs, Gt. reflexivity.
  - (* widening *) cbn [s_widen a_base]. rewrite Gs, Gt. reflexivity.
  - (* narrowing *) cbn [s_narrow a_base]. rewrite Gs, Gt. reflexivity.
  - (* widening with thresholds *) unfold s_widen_thr. cbn [a_base]. rewrite Gs, Gt. reflexivity.
Qed.

Theorem smash_sim_run h : forall rs es,
  ssimr rs es -> Forall smash_ok h ->
  exists rs', arun rs (map alift h) = Some rs' /\ ssimr rs' (hrun es h).
Proof.
  induction h as [|o r IH]; intros rs es R OK; cbn [map arun hrun fold_left].
  - exists rs. split; [reflexivity|exact R].
  - inversion OK; subst.
    destruct (smash_sim_step rs es o R H1) as (rs1 & E1 & R1). rewrite E1.
    apply (IH rs1 (hstep es o) R1 H2).
Qed.

(* C12, lifting clause, array_smashing<interval_domain> *)
Theorem smash_lifting_numerical h n :
  Forall smash_ok h ->
  exists rs, arun (repeat s_top n) (map alift h) = Some rs /\
    forall r,
      let st := aget rs r in
      let e := rget (hrun (repeat e_top n) h) r in
      a_base st = e /\ s_is_bottom st = e_is_bot e /\ forall v, s_at st v = e_at e v.
Proof.
  intros OK.
  destruct (smash_sim_run h (repeat s_top n) (repeat e_top n)) as (rs & E & R); auto.
  { apply Forall2_repeat. reflexivity. }
  exists rs. split; [exact E|]. intros r. cbv zeta.
  pose proof (ssimr_get rs _ r R) as G. unfold s_is_bottom, s_at. rewrite G. auto.
Qed.

(* no array has ever been mentioned: the array map and the ghost map stay empty *)
Definition dsim (d : adom) (e : env) : Prop :=
  (a_base (d_base d) = e /\ d_arrs d = [] /\ d_gh d = []) /\ ntbe e.
Definition dsimr (rs : list adom) (es : list env) : Prop := Forall2 dsim rs es.

Lemma dsim_top : dsim a_top e_top.
Proof. split; [auto|exact ntbe_top]. Qed.
Lemma dsimr_get rs es r : dsimr rs es -> dsim (dget rs r) (rget es r).
Proof. intros H. unfold dget, rget. apply (Forall2_nth dsim a_top e_top); [exact dsim_top|exact H]. Qed.
Lemma dsimr_set rs es : dsimr rs es -> forall r v e, dsim v e -> dsimr (dset rs r v) (rset es r e).
Proof.
  intros F. induction F; intros [|r] v e E; cbn [dset rset]; constructor; auto.
  apply IHF; exact E.
Qed.

(* a value whose maps are empty *)
Lemma dsim_mk b e : a_base b = e -> ntbe e -> dsim (mkD b [] []) e.
Proof. intros E N. split; auto. Qed.
Lemma dsim_with_base d e0 b e : dsim d e0 -> a_base b = e -> ntbe e -> dsim (with_base d b) e.
Proof. intros [(_ & A & G) _] E N. unfold with_base. rewrite A, G. apply dsim_mk; auto. Qed.
Lemma dsim_bot_top d e : dsim d e -> a_is_bottom d = e_is_bot e /\ a_is_top d = e_is_top e.
Proof. intros [(E & _) _]. unfold a_is_bottom, a_is_top, s_is_bottom, s_is_top. rewrite E. auto. Qed.

Lemma d_forget_early vs e : e_is_bot e || e_is_top e = true -> d_forget vs e = e.
Proof. intros B. unfold d_forget. rewrite B. reflexivity. Qed.
Lemma d_expand_early x nx e : e_is_bot e || e_is_top e = true -> d_expand x nx e = e.
Proof. intros B. unfold d_expand. rewrite B. reflexivity. Qed.
Lemma e_project_early vs e : e_is_bot e || e_is_top e = true -> e_project e vs = e.
Proof.
  destruct e as [|m]; cbn [e_is_bot e_is_top orb e_project]; [reflexivity|]. intros ->. reflexivity.
Qed.
Lemma e_rename_early f t e : e_is_bot e || e_is_top e = true -> e_rename e f t = e.
Proof.
  destruct e as [|m]; cbn [e_is_bot e_is_top orb e_rename]; [reflexivity|]. intros ->. reflexivity.
Qed.

Lemma fold_forget_VS vs : forall d,
  fold_left (fun acc v => match v with VA a => forget_array a acc | VS _ => acc end) (map VS vs) d = d.
Proof. induction vs as [|v r IH]; intros d; cbn [map fold_left]; auto. Qed.
Lemma filter_is_vs_VS vs : filter is_vs (map VS vs) = map VS vs.
Proof. induction vs as [|v r IH]; cbn [map filter is_vs]; [|rewrite IH]; reflexivity. Qed.

Lemma a_forget_VS vs d e : dsim d e -> dsim (a_forget (map VS vs) d) (d_forget vs e).
Proof.
  intros S. pose proof S as [(E & A & G) N]. destruct (dsim_bot_top d e S) as [B T].
  unfold a_forget. rewrite B, T.
  destruct (e_is_bot e || e_is_top e) eqn:X.
  - rewrite d_forget_early by exact X. exact S.
  - rewrite fold_forget_VS, filter_is_vs_VS, s_forget_VS.
    eapply dsim_with_base; [exact S| |].
    + cbn [a_base]. rewrite E. reflexivity.
    + apply ntbe_d_forget; exact N.
Qed.

Lemma a_project_VS vs d e : dsim d e -> dsim (a_project (map VS vs) d) (e_project e vs).
Proof.
  intros S. pose proof S as [(E & A & G) N]. destruct (dsim_bot_top d e S) as [B T].
  unfold a_project. rewrite B, T.
  destruct (e_is_bot e || e_is_top e) eqn:X.
  - rewrite e_project_early by exact X. exact S.
  - rewrite A, G. cbn [flat_map filter]. rewrite app_nil_r, filter_is_vs_VS, s_project_VS.
    apply dsim_mk.
    + cbn [a_base]. rewrite E. reflexivity.
    + apply ntbe_project; exact N.
Qed.

Lemma a_expand_VS x nx d e :
  dsim d e -> exists d', a_expand (VS x) (VS nx) d = Some d' /\ dsim d' (d_expand x nx e).
Proof.
  intros S. pose proof S as [(E & A & G) N]. destruct (dsim_bot_top d e S) as [B T].
  unfold a_expand. rewrite B, T.
  destruct (e_is_bot e || e_is_top e) eqn:X.
  - exists d. split; [reflexivity|]. rewrite d_expand_early by exact X. exact S.
  - eexists. split; [reflexivity|].
    eapply dsim_with_base; [exact S| |].
    + cbn [s_expand a_base]. rewrite E. reflexivity.
    + apply ntbe_d_expand; exact N.
Qed.

Lemma same_kind_vsp ps : forallb same_kind (map vsp ps) = true.
Proof. induction ps as [|q r IH]; cbn [map forallb vsp same_kind]; auto. Qed.
Lemma filter_vsp ps : filter (fun q : avar * avar => is_vs (fst q)) (map vsp ps) = map vsp ps.
Proof. induction ps as [|q r IH]; cbn [map filter vsp fst is_vs]; [|rewrite IH]; reflexivity. Qed.
Lemma rename_arrays_vsp ps : forall m g ov nv,
  rename_arrays (map vsp ps) m g ov nv = Some (m, g, ov, nv).
Proof. induction ps as [|q r IH]; intros m g ov nv; cbn [map rename_arrays vsp]; auto. Qed.
Lemma map_fst_vsp ps : map fst (map vsp ps) = map VS (map fst ps).
Proof. induction ps as [|q r IH]; cbn [map vsp fst]; [|rewrite IH]; reflexivity. Qed.
Lemma map_snd_vsp ps : map snd (map vsp ps) = map VS (map snd ps).
Proof. induction ps as [|q r IH]; cbn [map vsp snd]; [|rewrite IH]; reflexivity. Qed.

Lemma a_rename_VS f t d e :
  length f = length t -> dsim d e ->
  exists d', a_rename (map VS f) (map VS t) d = Some d' /\ dsim d' (e_rename e f t).
Proof.
  intros L S. pose proof S as [(E & A & G) N]. destruct (dsim_bot_top d e S) as [B T].
  unfold a_rename. rewrite B, T.
  destruct (e_is_bot e || e_is_top e) eqn:X.
  - exists d. split; [reflexivity|]. rewrite e_rename_early by exact X. exact S.
  - rewrite !map_length, L, Nat.eqb_refl. cbn [negb]. cbv zeta.
    rewrite combine_VS, same_kind_vsp. cbn [negb].
    rewrite filter_vsp, rename_arrays_vsp. cbn [obind].
    rewrite map_fst_vsp, map_snd_vsp, A, G, s_rename_VS, e_rename_combine.
    eexists. split; [reflexivity|]. apply dsim_mk.
    + cbn [a_base]. rewrite E. reflexivity.
    + apply ntbe_rename; exact N.
Qed.

(* the join-like operators with empty array maps *)
Lemma join_like_empty p op gop x y :
  d_arrs x = [] ->
  join_like p op gop x y = Some (mkD (op (d_base x) (d_base y)) [] (gop (d_gh x) (d_gh y))).
Proof. intros A. unfold join_like. rewrite A. reflexivity. Qed.

(* the interval domain's join with the empty environment *)
Lemma build_all_top g : (forall k, g k = itop) -> forall ks, build ks g [] = Some [].
Proof. intros H. induction ks as [|k r IH]; cbn [build]; [reflexivity|]. rewrite H. exact IH. Qed.
Lemma e_join_top_l y : e_is_bot y = false -> e_join e_top y = e_top.
Proof.
  destruct y as [|m]; [discriminate|]. intros _. cbn [e_join e_top]. unfold merge.
  rewrite build_all_top; [reflexivity|]. intros k. reflexivity.
Qed.
Lemma e_join_top_r x : e_is_bot x = false -> e_join x e_top = e_top.
Proof.
  destruct x as [|m]; [discriminate|]. intros _. cbn [e_join e_top]. unfold merge.
  rewrite build_all_top; [reflexivity|]. intros k. unfold comb. cbn [get].
  destruct (is_top (get m k)); reflexivity.
Qed.

(* a join-like operator on two values without arrays: the base values are combined, the maps
   stay empty *)
Lemma join_like_sim p op gop (eop : env -> env -> env) x y ex ey :
  dsim x ex -> dsim y ey -> gop [] [] = [] ->
  (forall a b, a_base (op a b) = eop (a_base a) (a_base b)) -> ntbe (eop ex ey) ->
  exists d, join_like p op gop x y = Some d /\ dsim d (eop ex ey).
Proof.
  intros [(Ex & Ax & Gx) _] [(Ey & _ & Gy) _] Hg Hop N.
  rewrite join_like_empty by exact Ax. eexists. split; [reflexivity|].
  rewrite Gx, Gy, Hg. apply dsim_mk; [|exact N]. rewrite Hop, Ex, Ey. reflexivity.
Qed.

Lemma a_join_sim p x y ex ey :
  dsim x ex -> dsim y ey -> exists d, a_join p x y = Some d /\ dsim d (e_join ex ey).
Proof.
  intros Sx Sy. pose proof Sx as [_ Nx]. pose proof Sy as [_ Ny].
  destruct (dsim_bot_top x ex Sx) as [Bx Tx]. destruct (dsim_bot_top y ey Sy) as [By Ty].
  unfold a_join. rewrite Bx, Tx, By, Ty.
  destruct (e_is_bot ey) eqn:By'.
  { exists x. split; [reflexivity|]. rewrite (e_is_bot_eq ey By').
    destruct ex; exact Sx. }
  destruct (e_is_top ex) eqn:Tx'.
  { exists x. split; [reflexivity|]. pose proof (ntbe_is_top ex Nx Tx') as ->.
    rewrite e_join_top_l by exact By'. exact Sx. }
  cbn [orb].
  destruct (e_is_bot ex) eqn:Bx'.
  { exists y. split; [reflexivity|]. rewrite (e_is_bot_eq ex Bx'). exact Sy. }
  destruct (e_is_top ey) eqn:Ty'.
  { exists y. split; [reflexivity|]. pose proof (ntbe_is_top ey Ny Ty') as ->.
    rewrite e_join_top_r by exact Bx'. exact Sy. }
  apply join_like_sim; auto. apply ntbe_join; assumption.
Qed.

(* widening, with or without thresholds: an operand that is bottom gives the other one *)
Lemma widen_like_sim p op (eop : env -> env -> env) x y ex ey :
  dsim x ex -> dsim y ey ->
  (forall e, eop e EBot = e) -> (forall e, eop EBot e = e) ->
  (forall a b, a_base (op a b) = eop (a_base a) (a_base b)) -> ntbe (eop ex ey) ->
  exists d, (if a_is_bottom y then Some x else if a_is_bottom x then Some y
             else join_like p op gh_join x y) = Some d /\ dsim d (eop ex ey).
Proof.
  intros Sx Sy Hr Hl Hop N.
  destruct (dsim_bot_top x ex Sx) as [Bx _]. destruct (dsim_bot_top y ey Sy) as [By _].
  rewrite Bx, By.
  destruct (e_is_bot ey) eqn:By'.
  { exists x. split; [reflexivity|]. rewrite (e_is_bot_eq ey By'), Hr. exact Sx. }
  destruct (e_is_bot ex) eqn:Bx'.
  { exists y. split; [reflexivity|]. rewrite (e_is_bot_eq ex Bx'), Hl. exact Sy. }
  apply join_like_sim; auto.
Qed.

Lemma a_widen_sim p x y ex ey :
  dsim x ex -> dsim y ey -> exists d, a_widen p x y = Some d /\ dsim d (e_widen ex ey).
Proof.
  intros Sx Sy. apply widen_like_sim; auto; try (intros []; reflexivity).
  apply ntbe_widen; [apply Sx|apply Sy].
Qed.

Lemma a_widen_thr_sim p ths x y ex ey :
  dsim x ex -> dsim y ey ->
  exists d, a_widen_thr p ths x y = Some d /\
            dsim d (e_widen_thr (thr_prev (mk_thresholds ths)) (thr_next (mk_thresholds ths)) ex ey).
Proof.
  intros Sx Sy. apply (widen_like_sim p (s_widen_thr ths)); auto; try (intros []; reflexivity).
  apply ntbe_widen_thr; [apply Sx|apply Sy].
Qed.

Lemma a_narrow_sim p x y ex ey :
  dsim x ex -> dsim y ey -> exists d, a_narrow p x y = Some d /\ dsim d (e_narrow ex ey).
Proof.
  intros Sx Sy.
  destruct (dsim_bot_top x ex Sx) as [Bx _]. destruct (dsim_bot_top y ey Sy) as [By _].
  unfold a_narrow. rewrite Bx, By.
  destruct (e_is_bot ex) eqn:Bx'.
  { exists x. split; [reflexivity|]. rewrite (e_is_bot_eq ex Bx') in *. exact Sx. }
  destruct (e_is_bot ey) eqn:By'.
  { exists y. split; [reflexivity|]. rewrite (e_is_bot_eq ey By') in *.
    destruct ex; exact Sy. }
  apply join_like_sim; auto. apply ntbe_narrow.
Qed.

(* meet: fine unless one operand is top and the other one is not bottom *)
Definition meet_fine (x y : env) : Prop :=
  e_is_bot x = true \/ e_is_bot y = true \/ (e_is_top x = false /\ e_is_top y = false).

Lemma e_is_top_bot e : e_is_bot e = true -> e_is_top e = false.
Proof. destruct e; [reflexivity|discriminate]. Qed.

Lemma a_meet_sim p x y ex ey :
  dsim x ex -> dsim y ey -> meet_fine ex ey ->
  exists d, a_meet p x y = Some d /\ dsim d (e_meet ex ey).
Proof.
  intros Sx Sy F. pose proof Sx as [(Ex & Ax & Gx) Nx]. pose proof Sy as [(Ey & Ay & Gy) Ny].
  destruct (dsim_bot_top x ex Sx) as [Bx Tx]. destruct (dsim_bot_top y ey Sy) as [By Ty].
  unfold a_meet. rewrite Bx, Tx, By, Ty.
  destruct (e_is_bot ex) eqn:Bx'.
  { exists x. split; [reflexivity|]. rewrite (e_is_bot_eq ex Bx') in *. exact Sx. }
  destruct (e_is_bot ey) eqn:By'.
  { rewrite (e_is_top_bot ey By'). cbn [orb]. rewrite orb_true_r.
    exists y. split; [reflexivity|]. rewrite (e_is_bot_eq ey By') in *. destruct ex; exact Sy. }
  destruct F as [F|[F|[F1 F2]]]; [congruence|congruence|].
  rewrite F1, F2. cbn [orb].
  rewrite Ax. cbn [am_meet_loop obind]. rewrite Ay. cbn [filter app].
  eexists. split; [reflexivity|]. rewrite Gx, Gy. cbn [gh_meet flat_map app]. apply dsim_mk.
  - cbn [s_meet a_base]. rewrite Ex, Ey. reflexivity.
  - apply ntbe_meet.
Qed.

(* the condition of a statement in the state it is run in *)
Definition adapt_ok_at (es : list env) (o : hop) : Prop :=
  match o with
  | HMeet _ s t => meet_fine (rget es s) (rget es t)
  | _ => adapt_ok o
  end.
Fixpoint adapt_hist_ok (es : list env) (h : list hop) : Prop :=
  match h with
  | [] => True
  | o :: r => adapt_ok_at es o /\ adapt_hist_ok (hstep es o) r
  end.
Lemma adapt_ok_ok_at es o : adapt_ok o -> adapt_ok_at es o.
Proof. destruct o; cbn [adapt_ok adapt_ok_at]; auto. intros []. Qed.
Lemma adapt_ok_hist_ok h : forall es, Forall adapt_ok h -> adapt_hist_ok es h.
Proof.
  induction h as [|o r IH]; intros es F; cbn [adapt_hist_ok]; [exact I|].
  inversion F; subst. split; [apply adapt_ok_ok_at; assumption|apply IH; assumption].
Qed.

(* writing a simulated value, total or partial, to a register *)
Lemma ret_sim rs es r d e : dsimr rs es -> dsim d e ->
  exists rs', Some (dset rs r d) = Some rs' /\ dsimr rs' (rset es r e).
Proof. intros R S. eexists. split; [reflexivity|]. apply dsimr_set; auto. Qed.
Lemma opt_sim rs es r (v : option adom) e : dsimr rs es -> (exists d, v = Some d /\ dsim d e) ->
  exists rs', match v with Some x => Some (dset rs r x) | None => None end = Some rs' /\
              dsimr rs' (rset es r e).
Proof. intros R (d & -> & S). apply ret_sim; auto. Qed.

Theorem adapt_sim_step p rs es o :
  dsimr rs es -> adapt_ok_at es o ->
  exists rs', dstep p rs (alift o) = Some rs' /\ dsimr rs' (hstep es o).
Proof.
  intros R OK.
  destruct o; cbn [adapt_ok_at adapt_ok] in OK; try contradiction; cbn [alift dstep hstep];
    try (pose proof (dsimr_get rs es r R) as G);
    try (pose proof (dsimr_get rs es s R) as Gs);
    try (pose proof (dsimr_get rs es t R) as Gt);
    (apply ret_sim || apply opt_sim); try exact R.
  - (* top *) exact dsim_top.
  - (* bottom *) apply dsim_mk; [reflexivity|exact I].
  - (* copy *) exact Gs.
  - (* assign *) pose proof G as [(E & _) N]. eapply dsim_with_base; [exact G| |].
    + cbn [s_assign a_base]. rewrite E. reflexivity.
    + apply ntbe_d_assign; exact N.
  - (* arith *) pose proof G as [(E & _) N]. eapply dsim_with_base; [exact G| |].
    + cbn [s_arith a_base]. rewrite E. reflexivity.
    + apply ntbe_set; exact N.
  - (* assume *) pose proof G as [(E & _) N]. eapply dsim_with_base; [exact G| |].
    + cbn [s_assume a_base]. rewrite E. reflexivity.
    + apply ntbe_d_add; exact N.
  - (* forget *) apply a_forget_VS; exact G.
  - (* project *) apply a_project_VS; exact G.
  - (* rename *) apply a_rename_VS; assumption.
  - (* expand *) apply a_expand_VS; exact G.
  - (* join *) apply a_join_sim; assumption.
  - (* meet *) apply a_meet_sim; assumption.
  - (* widening *) apply a_widen_sim; assumption.
  - (* narrowing *) apply a_narrow_sim; assumption.
  - (* widening with thresholds *) apply a_widen_thr_sim; assumption.
Qed.

Theorem adapt_sim_run p h : forall rs es,
  dsimr rs es -> adapt_hist_ok es h ->
  exists rs', drun p rs (map alift h) = Some rs' /\ dsimr rs' (hrun es h).
Proof.
  induction h as [|o r IH]; intros rs es R OK; cbn [map drun hrun fold_left].
  - exists rs. split; [reflexivity|exact R].
  - destruct OK as [H1 H2].
    destruct (adapt_sim_step p rs es o R H1) as (rs1 & E1 & R1). rewrite E1.
    apply (IH rs1 (hstep es o) R1 H2).
Qed.

(* C12, lifting clause, array_adaptive_domain<interval_domain>, any parameters; meets are
   allowed when, in the state they are run in, an operand is bottom or none is top *)
Theorem adapt_lifting_numerical_meet p h n :
  adapt_hist_ok (repeat e_top n) h ->
  exists rs, drun p (repeat a_top n) (map alift h) = Some rs /\
    forall r,
      let st := dget rs r in
      let e := rget (hrun (repeat e_top n) h) r in
      a_base (d_base st) = e /\ d_arrs st = [] /\ d_gh st = [] /\
      a_is_bottom st = e_is_bot e /\ forall v, a_at st v = e_at e v.
Proof.
  intros OK.
  destruct (adapt_sim_run p h (repeat a_top n) (repeat e_top n)) as (rs & E & R); auto.
  { apply Forall2_repeat. exact dsim_top. }
  exists rs. split; [exact E|]. intros r. cbv zeta.
  pose proof (dsimr_get rs _ r R) as [(G & A & H) _].
  unfold a_is_bottom, a_at, s_is_bottom, s_at. rewrite G. auto.
Qed.

(* the same without meet: a condition on the statements alone *)
Theorem adapt_lifting_numerical p h n :
  Forall adapt_ok h ->
  exists rs, drun p (repeat a_top n) (map alift h) = Some rs /\
    forall r,
      let st := dget rs r in
      let e := rget (hrun (repeat e_top n) h) r in
      a_base (d_base st) = e /\ d_arrs st = [] /\ d_gh st = [] /\
      a_is_bottom st = e_is_bot e /\ forall v, a_at st v = e_at e v.
Proof. intros OK. apply adapt_lifting_numerical_meet. apply adapt_ok_hist_ok. exact OK. Qed.

(* why meet is excluded: the two values are different terms ... *)
Definition r0 : reg := 0%nat.  Definition r1 : reg := 1%nat.
Definition r2 : reg := 2%nat.  Definition r3 : reg := 3%nat.
Definition meet_hist : list hop :=
  [HAssign r0 0%N (mkLE [] 5); HAssign r0 3%N (mkLE [] 7); HMeet r0 r0 r1].
Example adapt_meet_not_structural :
  exists rs, drun (mkP true false 8 8) (repeat a_top 2) (map alift meet_hist) = Some rs /\
    a_base (d_base (dget rs r0)) <> rget (hrun (repeat e_top 2) meet_hist) r0 /\
    forall v, In v [0%N; 3%N; 6%N] ->
      a_at (dget rs r0) v = e_at (rget (hrun (repeat e_top 2) meet_hist) r0) v.
Proof.
  eexists. split; [vm_compute; reflexivity|]. split.
  - vm_compute. intros H. discriminate H.
  - intros v [<-|[<-|[<-|[]]]]; vm_compute; reflexivity.
Qed.

Definition lift_hist : list hop :=
  [ HAssign r0 0%N (mkLE [] 0);                                   (* r0: x := 0 *)
    HAssign r0 3%N (mkLE [] 1);                                   (* r0: y := 1 *)
    HCopy r1 r0;
    HArith r1 OpAdd 0%N 0%N (OCst 1);                             (* r1: x := x + 1 *)
    HAssume r1 [mkLC INEQ (mkLE [(1, 0%N)] (-10))];               (* r1: x <= 10 *)
    HWiden r2 r0 r1;                                              (* r2 := r0 widen r1 *)
    HAssume r2 [mkLC INEQ (mkLE [(1, 0%N)] (-100))];              (* r2: x <= 100 *)
    HAssign r2 3%N (mkLE [(2, 0%N)] 3);                           (* r2: y := 2x + 3 *)
    HNarrow r2 r2 r1;
    HJoin r3 r2 r0;
    HExpand r3 3%N 6%N;
    HRename r3 [6%N] [9%N];
    HAssume r3 [];
    HProject r3 [0%N; 9%N];
    HForget r3 [0%N];
    HAssign r1 9%N (mkLE [] 300);
    HWidenThr r3 r3 r1 [16; 512];
    HBot r0;
    HJoin r0 r0 r2;
    HProject r1 [] ].
Example lift_hist_ok : Forall adapt_ok lift_hist /\ Forall smash_ok lift_hist.
Proof. split; repeat constructor. Qed.

(* a meet of two values that are not top is covered *)
Definition lift_hist_meet : list hop :=
  lift_hist ++ [HAssign r1 3%N (mkLE [] 50); HAssign r1 12%N (mkLE [] 1); HMeet r1 r0 r1].
Example lift_hist_meet_ok : adapt_hist_ok (repeat e_top 4) lift_hist_meet.
Proof. vm_compute. intuition. Qed.
