(* ItvEnvSound.v — concretisation of interval environments and soundness of the
   environment operations (the separate_domain layer of the interval domain). *)
From Coq Require Import ZArith List Bool Lia.
From CrabV Require Import Base.ZInf Scalar.Itv Scalar.ItvSound Ir.Syntax Dom.ItvEnv.
Import ListNotations.
Local Open Scope Z_scope.

Definition gmap (m : amap) (s : store) : Prop := forall k, gamma (get m k) (s k).
Definition genv (e : env) (s : store) : Prop :=
  match e with EBot => False | EMap m => gmap m s end.

Lemma get_remove_same m k : get (remove m k) k = itop.
Proof.
  induction m as [|[k' v] r IH]; simpl; auto.
  destruct (N.eqb k' k) eqn:E; simpl; auto. rewrite E. auto.
Qed.

Lemma get_remove_other m k k' : k' <> k -> get (remove m k) k' = get m k'.
Proof.
  intros H. induction m as [|[k0 v] r IH]; simpl; auto.
  destruct (N.eqb k0 k) eqn:E; simpl.
  - apply N.eqb_eq in E. subst. destruct (N.eqb_spec k k'); [congruence|auto].
  - destruct (N.eqb k0 k'); auto.
Qed.

Lemma is_top_gamma v z : is_top v = true -> gamma v z -> True.
Proof. auto. Qed.

(* put stores v, or nothing when v is top *)
Lemma get_put_same_sound m k v z : gamma v z -> gamma (get (put m k v) k) z.
Proof.
  intros G. unfold put. destruct (is_top v).
  - rewrite get_remove_same. apply gamma_top.
  - simpl. rewrite N.eqb_refl. auto.
Qed.

Lemma get_put_other m k v k' : k' <> k -> get (put m k v) k' = get m k'.
Proof.
  intros H. unfold put. destruct (is_top v).
  - apply get_remove_other; auto.
  - simpl. destruct (N.eqb_spec k k'); try congruence. apply get_remove_other; auto.
Qed.

(* membership after a change at k: the other keys as before, k by the new value *)
Lemma gmap_remove_at m s k : (forall k', k' <> k -> gamma (get m k') (s k')) -> gmap (remove m k) s.
Proof.
  intros G k'. destruct (N.eq_dec k' k) as [->|N].
  - rewrite get_remove_same. apply gamma_top.
  - rewrite get_remove_other by auto. auto.
Qed.

Lemma gmap_put_at m s k v :
  (forall k', k' <> k -> gamma (get m k') (s k')) -> gamma v (s k) -> gmap (put m k v) s.
Proof.
  intros G V k'. destruct (N.eq_dec k' k) as [->|N].
  - apply get_put_same_sound; auto.
  - rewrite get_put_other by auto. auto.
Qed.

Lemma gmap_upd_others m s k z : gmap m s -> forall k', k' <> k -> gamma (get m k') (upd s k z k').
Proof. intros G k' N. rewrite upd_other by auto. apply G. Qed.

Lemma genv_not_bot e s : genv e s -> e_is_bot e = false.
Proof. destruct e; simpl; auto; tauto. Qed.

Lemma genv_top s : genv e_top s.
Proof. intros k. simpl. apply gamma_top. Qed.

Lemma e_at_sound e s k : genv e s -> gamma (e_at e k) (s k).
Proof. destruct e; simpl; [tauto|]. auto. Qed.

Lemma e_set_sound e s x v z : genv e s -> gamma v z -> genv (e_set e x v) (upd s x z).
Proof.
  destruct e as [|m]; simpl; [tauto|]. intros G Gv. rewrite (gamma_not_bot _ _ Gv).
  apply gmap_put_at; [apply gmap_upd_others; auto|rewrite upd_same; auto].
Qed.

Lemma e_set_same_sound e s x v : genv e s -> gamma v (s x) -> genv (e_set e x v) s.
Proof.
  intros G Gv. destruct e as [|m]; simpl in *; [tauto|]. rewrite (gamma_not_bot _ _ Gv).
  apply gmap_put_at; auto.
Qed.

Lemma e_forget_sound e s x z : genv e s -> genv (e_forget e x) (upd s x z).
Proof.
  destruct e as [|m]; simpl; [tauto|]. intros G. apply gmap_remove_at, gmap_upd_others, G.
Qed.

Lemma genv_ext e s s' : (forall k, s k = s' k) -> genv e s -> genv e s'.
Proof. destruct e as [|m]; simpl; auto. intros E G k. rewrite <- E. apply G. Qed.

Lemma e_forget_keep e s x : genv e s -> genv (e_forget e x) s.
Proof.
  intros G. apply (genv_ext _ (upd s x (s x))).
  - intros k. destruct (N.eq_dec k x) as [->|N]; [apply upd_same|apply upd_other; auto].
  - apply e_forget_sound; auto.
Qed.

Lemma gmap_remove m s x z : gmap m s -> gmap (remove m x) (upd s x z).
Proof. intros G. apply (e_forget_sound (EMap m) s x z G). Qed.

Lemma e_join_key_sound e s x v z :
  genv e s -> (z = s x \/ gamma v z) -> (gamma v z \/ z = s x) ->
  gamma v z \/ z = s x -> True.
Proof. auto. Qed.

(* weak update: the new store either keeps x or takes a value described by v *)
Lemma e_join_key_sound_keep e s x v : genv e s -> is_bot v = false -> genv (e_join_key e x v) s.
Proof.
  destruct e as [|m]; simpl; [tauto|]. intros G B. rewrite B.
  assert (R : gmap (remove m x) s) by (apply gmap_remove_at; auto).
  destruct (is_top v); auto. destruct (is_top (get m x)); auto.
  apply gmap_put_at; auto. apply ijoin_sound_l, G.
Qed.

Lemma e_join_key_sound_new e s x v z : genv e s -> gamma v z -> genv (e_join_key e x v) (upd s x z).
Proof.
  destruct e as [|m]; simpl; [tauto|]. intros G Gv. rewrite (gamma_not_bot _ _ Gv).
  pose proof (gmap_remove m s x z G) as R.
  destruct (is_top v); auto. destruct (is_top (get m x)); auto.
  apply gmap_put_at; [apply gmap_upd_others; auto|]. rewrite upd_same. apply ijoin_sound_r, Gv.
Qed.

Lemma build_sound ks g : forall acc m (s : store),
  build ks g acc = Some m ->
  (forall k, gamma (g k) (s k)) -> gmap acc s -> gmap m s.
Proof.
  induction ks as [|k r IH]; simpl; intros acc m s H G A.
  - inversion H; subst; auto.
  - destruct (is_bot (g k)) eqn:B; try discriminate.
    apply (IH _ _ s H G). apply gmap_put_at; auto.
Qed.

Lemma build_none ks g : forall acc,
  build ks g acc = None <-> exists k, In k ks /\ is_bot (g k) = true.
Proof.
  induction ks as [|k0 r IH]; simpl; intros acc.
  - split; [discriminate|intros [k [[] _]]].
  - destruct (is_bot (g k0)) eqn:E; [split; eauto|].
    rewrite IH. split; intros [k [I B]]; exists k; [auto|].
    destruct I as [<-|I]; [congruence|auto].
Qed.

Lemma comb_sound_union f a b s k :
  (forall x y z, gamma x z \/ gamma y z -> gamma (f x y) z) ->
  gmap a s \/ gmap b s -> gamma (comb true true f a b k) (s k).
Proof.
  intros F G. unfold comb.
  destruct (is_top (get a k)); [apply gamma_top|].
  destruct (is_top (get b k)); [apply gamma_top|].
  apply F. destruct G as [G|G]; [left|right]; apply G.
Qed.

Lemma comb_sound_inter f a b s k :
  (forall x y z, gamma x z -> gamma y z -> gamma (f x y) z) ->
  gmap a s -> gmap b s -> gamma (comb false true f a b k) (s k).
Proof.
  intros F Ga Gb. unfold comb.
  destruct (is_top (get a k)); [apply Gb|].
  destruct (is_top (get b k)); [apply Ga|].
  apply F; auto.
Qed.

Lemma merge_sound ab f a b s : (forall k, gamma (comb ab true f a b k) (s k)) ->
  genv (match merge ab f a b with Some m => EMap m | None => EBot end) s.
Proof.
  intros C. unfold merge. destruct (build _ _ _) as [m|] eqn:E.
  - simpl. eapply build_sound; eauto. intros k; simpl; apply gamma_top.
  - apply build_none in E. destruct E as [k [_ B]]. rewrite (gamma_not_bot _ _ (C k)) in B.
    discriminate.
Qed.

Theorem e_join_sound a b s : genv a s \/ genv b s -> genv (e_join a b) s.
Proof.
  destruct a as [|x], b as [|y]; simpl; try tauto.
  intros G. apply merge_sound. intros k. apply comb_sound_union; auto.
  intros p q z [H|H]; [apply ijoin_sound_l|apply ijoin_sound_r]; auto.
Qed.

Theorem e_widen_sound a b s : genv a s \/ genv b s -> genv (e_widen a b) s.
Proof.
  destruct a as [|x], b as [|y]; simpl; try tauto.
  intros G. apply merge_sound. intros k. apply comb_sound_union; auto.
  intros p q z H. apply iwiden_sound; auto.
Qed.

Theorem e_widen_thr_sound gp gn a b s :
  (forall v, ble (gp v) v = true) -> (forall v, ble v (gn v) = true) ->
  genv a s \/ genv b s -> genv (e_widen_thr gp gn a b) s.
Proof.
  intros Hp Hn. destruct a as [|x], b as [|y]; simpl; try tauto.
  intros G. apply merge_sound. intros k. apply comb_sound_union; auto.
  intros p q z H. apply iwiden_thr_sound; auto.
Qed.

Theorem e_meet_sound a b s : genv a s -> genv b s -> genv (e_meet a b) s.
Proof.
  destruct a as [|x], b as [|y]; simpl; try tauto.
  intros Gx Gy. apply merge_sound. intros k. apply comb_sound_inter; auto.
  intros p q z H1 H2. apply imeet_exact; auto.
Qed.

Theorem e_narrow_sound a b s : genv a s -> genv b s -> genv (e_narrow a b) s.
Proof.
  destruct a as [|x], b as [|y]; simpl; try tauto.
  intros Gx Gy. apply merge_sound. intros k. apply comb_sound_inter; auto.
  intros p q z H1 H2. apply inarrow_sound; auto.
Qed.

Lemma get_not_key m k : ~ In k (keys m) -> get m k = itop.
Proof.
  induction m as [|[k' v] r IH]; simpl; auto. intros H.
  destruct (N.eqb_spec k' k); [tauto|]. apply IH. tauto.
Qed.

Theorem e_leq_sound a b s : e_leq a b = true -> genv a s -> genv b s.
Proof.
  destruct a as [|x], b as [|y]; simpl; try tauto; try discriminate.
  intros H G k. rewrite forallb_forall in H.
  destruct (in_dec N.eq_dec k (keys x ++ keys y)) as [I|I].
  - eapply ileq_sound; [apply H; exact I|apply G].
  - rewrite get_not_key. apply gamma_top. intros J. apply I. apply in_or_app. auto.
Qed.

Lemma ileq_top_any x : ileq x itop = true.
Proof.
  unfold ileq. destruct (is_bot x); auto. simpl. destruct (ub x); reflexivity.
Qed.

Theorem e_leq_refl a : e_leq a a = true.
Proof.
  destruct a as [|x]; simpl; auto. apply forallb_forall. intros k _. apply ileq_refl.
Qed.

Theorem e_leq_bot_l a : e_leq EBot a = true.
Proof. reflexivity. Qed.

Lemma e_is_bot_sound e s : e_is_bot e = true -> ~ genv e s.
Proof. destruct e; simpl; try discriminate. tauto. Qed.

Lemma fold_put_sound m vs s : gmap m s ->
  gmap (fold_right (fun k acc => put acc k (get m k)) [] vs) s.
Proof.
  intros G. induction vs as [|v r IH]; simpl.
  - intros k; simpl; apply gamma_top.
  - apply gmap_put_at; auto.
Qed.

Lemma is_top_gamma_all v z z' : is_top v = true -> gamma v z -> gamma v z'.
Proof.
  unfold is_top, gamma. destruct v as [l u]; simpl. intros T [G1 G2].
  destruct l, u; simpl in *; try discriminate; auto.
Qed.

Lemma all_top_gmap m s s' :
  forallb (fun k => is_top (get m k)) (keys m) = true -> gmap m s -> gmap m s'.
Proof.
  intros T G k. rewrite forallb_forall in T.
  destruct (in_dec N.eq_dec k (keys m)) as [I|I].
  - eapply is_top_gamma_all; [apply T; exact I|apply G].
  - rewrite get_not_key by auto. apply gamma_top.
Qed.

Theorem e_project_sound e vs s s' :
  genv e s -> (forall k, In k vs -> s' k = s k) -> genv (e_project e vs) s'.
Proof.
  destruct e as [|m]; simpl; [tauto|]. intros G A.
  destruct (forallb _ _) eqn:T.
  - simpl. eapply all_top_gmap; eauto.
  - simpl. induction vs as [|v r IH]; simpl.
    + intros k; simpl; apply gamma_top.
    + apply gmap_put_at.
      * intros k _. apply IH. intros k' I. apply A. right; auto.
      * rewrite A by (left; auto). apply G.
Qed.

(* rename: sequential moves; the concrete counterpart moves the value and leaves the old
   name unconstrained *)
Fixpoint rename_store (s : store) (ps : list (var * var)) (hv : list Z) : store :=
  match ps with
  | [] => s
  | (k, nk) :: r =>
    if N.eqb k nk then rename_store s r hv
    else rename_store (upd (upd s nk (s k)) k (hd 0 hv)) r (tl hv)
  end.

Lemma is_top_itop : is_top itop = true. Proof. reflexivity. Qed.

(* precondition of separate_domain::rename: the new names are distinct and not bound *)
Lemma rename_pairs_sound ps : forall m s hv,
  gmap m s -> NoDup (map snd ps) ->
  (forall p, In p ps -> is_top (get m (snd p)) = true) ->
  gmap (rename_pairs m ps) (rename_store s ps hv).
Proof.
  induction ps as [|[k nk] r IH]; cbn [rename_pairs rename_store map snd]; intros m s hv G ND TP; auto.
  inversion ND as [|? ? NI ND']; subst.
  assert (TP' : forall p, In p r -> is_top (get m (snd p)) = true).
  { intros p I. apply TP. right. exact I. }
  assert (Tnk : is_top (get m nk) = true) by (apply (TP (k, nk)); left; reflexivity).
  destruct (N.eqb_spec k nk) as [E|NE].
  { apply IH; auto. }
  destruct (is_top (get m k)) eqn:T.
  - apply IH; auto.
    intros k'. destruct (N.eq_dec k' k) as [->|N1].
    + rewrite upd_same. eapply is_top_gamma_all; [eassumption|apply G].
    + rewrite upd_other by auto. destruct (N.eq_dec k' nk) as [->|N2].
      * rewrite upd_same. eapply is_top_gamma_all; [eassumption|apply G].
      * rewrite upd_other by auto. apply G.
  - apply IH; auto.
    + apply gmap_remove_at. intros k' N1. rewrite upd_other by auto.
      cbn [get]. destruct (N.eqb_spec nk k').
      * subst. rewrite upd_same. apply G.
      * rewrite upd_other by auto. rewrite get_remove_other by auto. apply G.
    + intros p I. destruct (N.eq_dec (snd p) k) as [E|N1].
      * rewrite E, get_remove_same. reflexivity.
      * rewrite get_remove_other by auto. cbn [get].
        destruct (N.eqb_spec nk (snd p)) as [E|N2].
        -- exfalso. apply NI. rewrite E. apply in_map. auto.
        -- rewrite get_remove_other by auto. apply TP'. auto.
Qed.

Theorem e_rename_sound e from to s hv :
  genv e s -> NoDup to -> length from = length to ->
  (forall k, In k to -> is_top (e_at e k) = true) ->
  genv (e_rename e from to) (rename_store s (combine from to) hv).
Proof.
  destruct e as [|m]; simpl; [tauto|]. intros G ND L TP.
  assert (S : map snd (combine from to) = to).
  { revert to L ND TP. induction from as [|f fr IH]; intros [|t tr] L ND TP; simpl in *; try discriminate; auto.
    f_equal. apply IH; auto. inversion ND; auto. }
  destruct (forallb _ _) eqn:T.
  - simpl. eapply all_top_gmap; eauto.
  - simpl. apply rename_pairs_sound; auto.
    + rewrite S; auto.
    + intros p I. apply TP. rewrite <- S. apply in_map. auto.
Qed.

Theorem fold_forget_sound vs : forall e s s',
  genv e s -> (forall k, ~ In k vs -> s' k = s k) -> genv (fold_left e_forget vs e) s'.
Proof.
  induction vs as [|v r IH]; simpl; intros e s s' G A.
  - destruct e as [|m]; simpl in *; auto. intros k. rewrite A by (intros []). apply G.
  - apply (IH _ (upd s v (s' v))).
    + apply e_forget_sound; auto.
    + intros k NI. destruct (N.eq_dec k v) as [->|N].
      * rewrite upd_same. auto.
      * rewrite upd_other by auto. apply A. intros [E|I]; [congruence|contradiction].
Qed.
