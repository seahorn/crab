(* ArrayAdaptCoreSound.v — theorems about the cell algebra of the adaptive array domain
   (model: ArrayAdaptCore.v).

   1. overlap is intersection of byte ranges; with one element size and aligned offsets
      (the word-level assumption) two cells overlap only if they are the same cell.
   2. kill lemmas: a live cell that get_overlap_cells / get_overlap_cells_symbolic_offset
      does not return does not intersect the written range (constant index: under the
      word-level assumption; symbolic index: for equal sizes, for every value of the index
      described by the base domain).
   3. soundness of the store / load decision table on a value-level reading of an array
      state (cell -> interval, summary interval).  Smashing ([SSmash]) and the symbolic load
      need the hypothesis that every defined cell of the concrete array is tracked by a
      cell of the map ([tracked]); the symbolic load gets it from covers_all_offsets
      (fixes/arrays-5), the smashing store does NOT establish it: the code smashes whatever
      cells it tracks (this is the recorded finding of property C14 on array_adaptive). *)
From Coq Require Import ZArith NArith List Bool Lia.
From CrabV Require Import Base.ZInf Scalar.Itv Scalar.ItvSound Ir.Syntax Dom.ItvEnv Dom.ItvEnvSound
     Dom.ItvSolver Dom.ItvSolverSound Dom.ItvDomain Dom.ItvDomainSound Dom.ArrayAdaptCore.
Import ListNotations.
Local Open Scope Z_scope.

Arguments d_add : simpl never.

Definition ranges_meet (o1 s1 o2 s2 : Z) : Prop :=
  exists b, o1 <= b < o1 + s1 /\ o2 <= b < o2 + s2.

Theorem c_overlap_spec c o sz :
  c_overlap c o sz = true <-> c_rem c = false /\ ranges_meet (c_off c) (c_size c) o sz.
Proof.
  unfold c_overlap, ranges_meet. destruct (c_rem c).
  - split; [discriminate|intros [H _]; discriminate].
  - rewrite !andb_true_iff, !Z.ltb_lt, !Z.leb_le. split.
    + intros (((H1 & H2) & H3) & H4). split; auto.
      exists (Z.max (c_off c) o). lia.
    + intros (_ & b & H1 & H2). lia.
Qed.

(* the word-level assumption: one element size k, aligned non-negative offsets *)
Definition aligned (k o : Z) : Prop := 0 <= o /\ o mod k = 0.

Lemma aligned_ranges_meet k o1 o2 : 0 < k -> aligned k o1 -> aligned k o2 ->
  ranges_meet o1 k o2 k -> o1 = o2.
Proof.
  intros K [P1 A1] [P2 A2] (b & H1 & H2).
  apply Z.div_exact in A1; [|lia]. apply Z.div_exact in A2; [|lia].
  assert (o1 / k = o2 / k); [|nia].
  assert (o1 / k = b / k).
  { apply (Z.div_unique b k (o1 / k) (b - o1)); lia. }
  assert (o2 / k = b / k).
  { apply (Z.div_unique b k (o2 / k) (b - o2)); lia. }
  lia.
Qed.

Theorem aligned_overlap_same k c o : 0 < k -> c_size c = k -> aligned k (c_off c) -> aligned k o ->
  c_overlap c o k = true -> c_off c = o.
Proof.
  intros K S A1 A2 H. apply c_overlap_spec in H. destruct H as [_ H]. rewrite S in H.
  eapply aligned_ranges_meet; eauto.
Qed.

Definition wl (k : Z) (m : omap) : Prop := forall c, In c m -> c_size c = k /\ aligned k (c_off c).
Definition uniq (m : omap) : Prop :=
  NoDup m /\ forall c d, In c m -> In d m -> cell_eqb c d = true -> c = d.

Lemma cell_eqb_spec a b : cell_eqb a b = true <-> c_off a = c_off b /\ c_size a = c_size b.
Proof. unfold cell_eqb. rewrite andb_true_iff, !Z.eqb_eq. tauto. Qed.

Lemma om_get_some m o sz c : om_get m o sz = Some c -> In c m /\ c_off c = o /\ c_size c = sz.
Proof.
  induction m as [|h t IH]; simpl; [discriminate|].
  destruct ((c_off h =? o) && (c_size h =? sz)) eqn:E.
  - intros H. inversion H; subst. apply andb_true_iff in E. rewrite !Z.eqb_eq in E. tauto.
  - intros H. apply IH in H. destruct H as (H1 & H2 & H3). auto.
Qed.
Lemma om_get_none m o sz c : om_get m o sz = None -> In c m -> ~ (c_off c = o /\ c_size c = sz).
Proof.
  induction m as [|h t IH]; simpl; [tauto|].
  destruct ((c_off h =? o) && (c_size h =? sz)) eqn:E; [discriminate|].
  intros H [->|I]; auto. intros [E1 E2]. rewrite E1, E2, !Z.eqb_refl in E. discriminate.
Qed.

Lemma in_om_insert c m x : In x (om_insert c m) -> x = c \/ In x m.
Proof.
  induction m as [|h t IH]; simpl; [intros [E|[]]; auto|].
  destruct (cell_eqb h c); [simpl; tauto|]. destruct (cell_ltb c h); simpl.
  - intros [E|[E|I]]; auto.
  - intros [E|I]; auto. destruct (IH I); auto.
Qed.
Lemma om_insert_in c m x : In x m -> In x (om_insert c m).
Proof.
  induction m as [|h t IH]; simpl; [tauto|].
  destruct (cell_eqb h c); [simpl; tauto|]. destruct (cell_ltb c h); simpl; [tauto|].
  intros [E|I]; auto.
Qed.

Lemma in_om_scan m os o sz key : forall out x, In x (om_scan m os o sz key out) ->
  In x out \/ (In x m /\ c_overlap x o sz = true /\ cell_eqb x key = false).
Proof.
  induction os as [|g r IH]; intros out x H; [simpl in H; auto|].
  cbn [om_scan] in H.
  remember (filter (fun y => c_overlap y o sz) (om_group m g)) as hits eqn:F.
  destruct hits as [|h t]; auto.
  apply IH in H. destruct H as [H|H]; auto.
  apply in_app_or in H. destruct H as [H|H]; auto. right.
  apply filter_In in H. destruct H as [H1 H2]. rewrite F in H1.
  apply filter_In in H1. destruct H1 as [H1 H3]. unfold om_group in H1. apply filter_In in H1.
  rewrite negb_true_iff in H2. tauto.
Qed.

(* what get_overlap_cells returns overlaps the range and is not the cell (o, sz) itself *)
Theorem om_get_overlap_sound m o sz x : In x (om_get_overlap m o sz) ->
  In x m /\ c_overlap x o sz = true /\ ~ (c_off x = o /\ c_size x = sz).
Proof.
  (* the scan runs over [m] with, possibly, a temporary cell for the key (o, sz) *)
  assert (Q : forall key m', c_off key = o -> c_size key = sz ->
                (forall y, In y m' -> cell_eqb y key = true \/ In y m) ->
                forall back fwd, In x (om_scan m' fwd o sz key (om_scan m' back o sz key [])) ->
                In x m /\ c_overlap x o sz = true /\ ~ (c_off x = o /\ c_size x = sz)).
  { intros key m' E1 E2 SUB back fwd H.
    assert (R : In x m' /\ c_overlap x o sz = true /\ cell_eqb x key = false).
    { apply in_om_scan in H. destruct H as [H|H]; auto.
      apply in_om_scan in H. destruct H as [[]|H]; auto. }
    destruct R as (I & O & K). destruct (SUB x I) as [E|I']; [congruence|].
    split; auto. split; auto. intros [X Y].
    assert (cell_eqb x key = true) by (apply cell_eqb_spec; lia). congruence. }
  unfold om_get_overlap. destruct (om_get m o sz) as [c|] eqn:E.
  - apply om_get_some in E. destruct E as (_ & E1 & E2). apply Q; auto.
  - apply Q; auto. intros y I. apply in_om_insert in I. destruct I as [->|I]; auto.
    left. apply cell_eqb_spec. auto.
Qed.

(* kill lemma, constant index, word-level: every live cell other than (o, k) is disjoint
   from the written range (so what is not killed keeps its value) *)
Theorem const_store_kill_lemma k m o c : 0 < k -> wl k m -> aligned k o -> In c m ->
  c_off c <> o -> c_overlap c o k = false.
Proof.
  intros K W A I N. destruct (c_overlap c o k) eqn:E; auto.
  destruct (W c I) as [S AC]. exfalso. apply N. eapply aligned_overlap_same; eauto.
Qed.

Lemma wf_le_addc e k : wf_le e -> wf_le (le_addc e k).
Proof. unfold wf_le, le_addc. simpl. auto. Qed.

Lemma sym_test_sound slb sub dom b s : wf_le slb -> wf_le sub -> genv dom s ->
  eval_le slb s <= b <= eval_le sub s ->
  e_is_bot (sym_test slb sub dom b) = false.
Proof.
  intros W1 W2 G H. apply (genv_not_bot _ s). unfold sym_test. apply d_add_sound.
  - intros c [<-|[]]. split.
    + unfold wf_lc. simpl. apply wf_le_addc. apply wf_le_neg. auto.
    + unfold sat. simpl. rewrite eval_le_addc, eval_le_neg. lia.
  - apply d_add_sound; eauto.
    intros c [<-|[]]. split.
    + unfold wf_lc. simpl. apply wf_le_addc. auto.
    + unfold sat. simpl. rewrite eval_le_addc. lia.
Qed.

(* if the test answers "no" then for no index described by the base domain the symbolic
   range contains the first or the last byte of the cell *)
Theorem c_sym_overlap_false slb sub dom c s : wf_le slb -> wf_le sub -> c_rem c = false ->
  c_sym_overlap c slb sub dom = false -> genv dom s ->
  ~ (eval_le slb s <= c_off c <= eval_le sub s) /\
  ~ (eval_le slb s <= c_off c + c_size c - 1 <= eval_le sub s).
Proof.
  intros W1 W2 R H G. unfold c_sym_overlap in H. rewrite R in H.
  split; intros X.
  - rewrite (sym_test_sound slb sub dom _ s W1 W2 G X) in H. discriminate.
  - destruct (e_is_bot (sym_test slb sub dom (c_off c))); [|discriminate].
    rewrite (sym_test_sound slb sub dom _ s W1 W2 G X) in H. discriminate.
Qed.

(* for equal sizes the two tests decide the intersection of the ranges *)
Theorem c_sym_overlap_complete slb sub dom c s k : wf_le slb -> wf_le sub -> c_rem c = false ->
  0 < k -> c_size c = k -> eval_le sub s = eval_le slb s + k - 1 -> genv dom s ->
  ranges_meet (c_off c) k (eval_le slb s) k -> c_sym_overlap c slb sub dom = true.
Proof.
  intros W1 W2 R K S E G (b & H1 & H2).
  destruct (c_sym_overlap c slb sub dom) eqn:F; auto. exfalso.
  destruct (c_sym_overlap_false _ _ _ _ s W1 W2 R F G) as [N1 N2]. rewrite S in N2. lia.
Qed.

Lemma in_dedup x l : In x l -> In x (dedup l).
Proof.
  induction l as [|h t IH]; simpl; auto. intros [->|I].
  - destruct (dedup t) as [|h' r] eqn:D; [simpl; auto|].
    destruct (Z.eqb_spec x h'); [subst; simpl; auto|simpl; auto].
  - specialize (IH I). destruct (dedup t) as [|h' r]; [destruct IH|].
    destruct (h =? h'); simpl in *; tauto.
Qed.

Lemma group_single m c k : uniq m -> (forall d, In d m -> c_size d = k) -> In c m ->
  om_group m (c_off c) = [c].
Proof.
  intros [ND U] S I. unfold om_group.
  assert (A : forall d, In d (filter (fun d => c_off d =? c_off c) m) -> d = c).
  { intros d H. apply filter_In in H. destruct H as [Id E]. apply Z.eqb_eq in E.
    symmetry. apply U; auto. apply cell_eqb_spec. rewrite (S c I), (S d Id). auto. }
  assert (ND' : NoDup (filter (fun d => c_off d =? c_off c) m)) by (apply NoDup_filter; auto).
  assert (Ic : In c (filter (fun d => c_off d =? c_off c) m)).
  { apply filter_In. split; auto. apply Z.eqb_refl. }
  destruct (filter (fun d => c_off d =? c_off c) m) as [|h [|h2 t]]; simpl in *.
  - tauto.
  - f_equal. apply A. auto.
  - exfalso. assert (h = c) by (apply A; auto). assert (h2 = c) by (apply A; auto). subst.
    inversion ND'; subst. simpl in *. tauto.
Qed.

(* kill lemma, symbolic index, one cell size: a live cell that is not returned is disjoint
   from the written range for every value of the index described by the base domain *)
Theorem sym_store_kill_lemma m slb sub dom k c s : uniq m -> (forall d, In d m -> c_size d = k) ->
  0 < k -> wf_le slb -> wf_le sub -> In c m -> c_rem c = false ->
  ~ In c (om_get_overlap_sym m slb sub dom) -> genv dom s ->
  eval_le sub s = eval_le slb s + k - 1 ->
  ~ ranges_meet (c_off c) k (eval_le slb s) k.
Proof.
  intros U S K W1 W2 I R NI G E M. apply NI. unfold om_get_overlap_sym.
  apply in_flat_map. exists (c_off c). split.
  - unfold om_offsets. apply in_dedup. apply in_map. auto.
  - rewrite (group_single m c k U S I). simpl.
    rewrite (c_sym_overlap_complete slb sub dom c s k); simpl; auto.
Qed.

Theorem can_be_smashed_spec cells esz nz : can_be_smashed cells esz nz = true ->
  cells <> [] /\ forall c, In c cells -> c_size c = esz.
Proof.
  unfold can_be_smashed. destruct cells as [|c0 r]; [discriminate|].
  destruct (negb nz && negb (c_off c0 =? 0)); [discriminate|].
  intros H. split; [discriminate|]. intros c I. rewrite forallb_forall in H.
  specialize (H c I). apply andb_true_iff in H. destruct H as [H _]. apply Z.eqb_eq in H. auto.
Qed.

Lemma covers_from_spec cells esz : forall n o j, covers_from cells o esz n = true ->
  (0 <= j < Z.of_nat n) -> exists c, In c cells /\ c_off c = o + j * esz.
Proof.
  induction n as [|n IH]; intros o j H J; [lia|].
  cbn [covers_from] in H. apply andb_true_iff in H. destruct H as [H1 H2].
  destruct (Z.eq_dec j 0) as [->|N].
  - apply existsb_exists in H1. destruct H1 as (c & I & E). apply Z.eqb_eq in E.
    exists c. split; auto. lia.
  - destruct (IH (o + esz) (j - 1) H2) as (c & I & E); [lia|]. exists c. split; auto. lia.
Qed.

(* every aligned offset that the index can take is the offset of one of the cells *)
Theorem covers_all_offsets_sound cells idx esz i : 0 < esz ->
  covers_all_offsets cells idx esz = true -> gamma idx i -> aligned esz i ->
  exists c, In c cells /\ c_off c = i.
Proof.
  intros K H G [P A]. unfold covers_all_offsets in H.
  destruct (lb idx) as [|l|] eqn:L; try discriminate. destruct (ub idx) as [|u|] eqn:U; try discriminate.
  destruct (l <? 0) eqn:NL; [discriminate|]. apply Z.ltb_ge in NL.
  destruct G as [G1 G2]. rewrite L in G1. rewrite U in G2. simpl in G1, G2.
  apply Z.leb_le in G1. apply Z.leb_le in G2.
  rewrite (Z.quot_div_nonneg (l + esz - 1) esz) in H by lia.
  set (qo := (l + esz - 1) / esz) in *.
  assert (Q1 : esz * qo <= l + esz - 1) by (apply Z.mul_div_le; lia).
  assert (Q2 : l + esz - 1 < esz * Z.succ qo) by (apply Z.mul_succ_div_gt; lia).
  apply Z.div_exact in A; [|lia]. set (qi := i / esz) in *.
  assert (QQ : qo <= qi) by nia.
  set (o := qo * esz) in *.
  assert (OI : o <= i) by (unfold o; nia).
  destruct (Z.of_nat (length cells) <=? Z.quot (u - o) esz); [discriminate|].
  destruct (u <? o) eqn:UO; [apply Z.ltb_lt in UO; lia|]. apply Z.ltb_ge in UO.
  rewrite (Z.quot_div_nonneg (u - o) esz) in H by lia.
  assert (J : (i - o) / esz = qi - qo).
  { symmetry. apply (Z.div_unique (i - o) esz (qi - qo) 0); [lia|]. unfold o. nia. }
  destruct (covers_from_spec cells esz _ o (qi - qo) H) as (c & I & E).
  - rewrite Z2Nat.id by (pose proof (Z.div_pos (u - o) esz); lia). split; [lia|].
    assert ((i - o) / esz <= (u - o) / esz) by (apply Z.div_le_mono; lia). lia.
  - exists c. split; auto. rewrite E. unfold o. nia.
Qed.

(* [v_val o sz]: interval of the ghost variable of cell (o, sz); [v_sum]: of the summary *)
Record aval := mkV { v_st : astate; v_val : Z -> Z -> itv; v_sum : itv }.
Definition cval (a : aval) (c : cell) : itv := v_val a (c_off c) (c_size c).

Definition mem := Z -> option Z.
Definition mstore (mu : mem) (i v : Z) : mem := fun o => if o =? i then Some v else mu o.

(* the cells describe their cell of the array; the summary of a smashed array describes
   every defined cell *)
Definition gam (k : Z) (a : aval) (mu : mem) : Prop :=
  if as_smashed (v_st a)
  then as_esz (v_st a) = Some k -> forall o v, mu o = Some v -> gamma (v_sum a) v
  else forall c v, In c (as_map (v_st a)) -> mu (c_off c) = Some v -> gamma (cval a c) v.

(* every defined cell of the array is tracked by a cell of the map *)
Definition tracked (a : aval) (mu : mem) : Prop :=
  forall o, mu o <> None -> exists c, In c (as_map (v_st a)) /\ c_off c = o.

Definition join_vals (f : cell -> itv) (cs : list cell) : itv :=
  match cs with [] => ibot | c :: r => fold_left (fun acc d => ijoin acc (f d)) r (f c) end.

Lemma fold_join_acc (f : cell -> itv) r : forall acc x, gamma acc x ->
  gamma (fold_left (fun a d => ijoin a (f d)) r acc) x.
Proof. induction r as [|h t IH]; simpl; auto. intros acc x G. apply IH. apply ijoin_sound_l. auto. Qed.
Lemma fold_join_in (f : cell -> itv) r c : In c r -> forall acc x, gamma (f c) x ->
  gamma (fold_left (fun a d => ijoin a (f d)) r acc) x.
Proof.
  induction r as [|h t IH]; simpl; [tauto|]. intros [->|I] acc x G.
  - apply fold_join_acc. apply ijoin_sound_r. auto.
  - apply IH; auto.
Qed.
Lemma join_vals_in f cs c x : In c cs -> gamma (f c) x -> gamma (join_vals f cs) x.
Proof.
  destruct cs as [|h t]; simpl; [tauto|]. intros [->|I] G.
  - apply fold_join_acc. auto.
  - eapply fold_join_in; eauto.
Qed.

(* value-level effect of a store decision (val = interval of the stored value): killed cells
   are forgotten, the written cell gets val, smashing joins all cells and the value *)
Definition store_val (p : params) (a : aval) (d : store_decision) (esz : Z) (val : itv) : aval :=
  let st' := store_shape p (v_st a) d esz in
  match d with
  | SSmashedWeak => mkV st' (v_val a) (ijoin (v_sum a) val)
  | SSmashedForget => mkV st' (v_val a) itop
  | SCell o kill =>
    mkV st' (fun co cs => if (co =? o) && (cs =? esz) then val
                          else if existsb (fun d => (c_off d =? co) && (c_size d =? cs)) kill then itop
                               else v_val a co cs) (v_sum a)
  | SSmash cells => mkV st' (v_val a) (ijoin (join_vals (cval a) cells) val)
  | SKill cells =>
    mkV st' (fun co cs => if existsb (fun d => (c_off d =? co) && (c_size d =? cs)) cells then itop
                          else v_val a co cs) (v_sum a)
  end.

(* what a load decision returns *)
Definition load_val (a : aval) (d : load_decision) (esz : Z) : itv :=
  match d with
  | LSummary => v_sum a
  | LForget => itop
  | LCell o => match om_get (as_map (v_st a)) o esz with Some c => cval a c | None => itop end
  | LJoin cells => join_vals (cval a) cells
  end.

(* the shape functions only rearrange cells *)
Lemma in_kill_cells p cells m x : In x (kill_cells p cells m) ->
  exists y, In y m /\ c_off y = c_off x /\ c_size y = c_size x.
Proof.
  unfold kill_cells. destruct (p_smashable p).
  - revert m. induction cells as [|c r IH]; simpl; intros m H.
    + exists x. auto.
    + apply IH in H. destruct H as (y & I & E1 & E2).
      unfold om_remove in I. apply in_map_iff in I. destruct I as (z & Ez & Iz).
      exists z. split; auto. destruct (cell_eqb z c); subst y; simpl in *; lia.
  - revert m. induction cells as [|c r IH]; simpl; intros m H.
    + exists x. auto.
    + apply IH in H. destruct H as (y & I & E1 & E2).
      unfold om_erase in I. apply filter_In in I. destruct I as [I _]. exists y. auto.
Qed.

Lemma in_om_mk m o sz x : In x (snd (om_mk m o sz)) -> In x m \/ x = mkC o sz false.
Proof.
  unfold om_mk. destruct (om_get m o sz); simpl; auto.
  intros H. apply in_om_insert in H. tauto.
Qed.

Lemma as_set_cases old new : as_set old new = old \/ as_set old new = new.
Proof. unfold as_set. destruct (as_eqb old new); auto. Qed.

Lemma in_sym_in m slb sub dom x : In x (om_get_overlap_sym m slb sub dom) -> In x m.
Proof.
  unfold om_get_overlap_sym. intros H. apply in_flat_map in H. destruct H as (g & _ & H).
  destruct (largest (om_group m g) None); [|destruct H].
  destruct (c_sym_overlap c slb sub dom); [|destruct H].
  unfold om_group in H. apply filter_In in H. tauto.
Qed.

Lemma existsb_key_false (cells : list cell) c :
  existsb (fun d => (c_off d =? c_off c) && (c_size d =? c_size c)) cells = false -> ~ In c cells.
Proof.
  intros H I. assert (X : existsb (fun d => (c_off d =? c_off c) && (c_size d =? c_size c)) cells = true).
  { apply existsb_exists. exists c. split; auto. rewrite !Z.eqb_refl. auto. }
  congruence.
Qed.

Section Decisions.
Variable k : Z.
Hypothesis K : 0 < k.

(* the word-level assumption on the pre-state *)
Definition wf_state (a : aval) : Prop :=
  uniq (as_map (v_st a)) /\ wl k (as_map (v_st a)) /\ forall c, In c (as_map (v_st a)) -> c_rem c = false.

(* the access: its offset i is aligned, described by the interval idx of the index and by
   the symbolic bounds [slb, sub] = [index, index + k - 1] in some store of the base value *)
Record access (idx : itv) (slb sub : linexp) (dom : env) (i : Z) : Prop := {
  acc_aligned : aligned k i;
  acc_idx : gamma idx i;
  acc_wf : wf_le slb /\ wf_le sub;
  acc_sym : exists s, genv dom s /\ eval_le slb s = i /\ eval_le sub s = i + k - 1 }.

Lemma singleton_access idx n i : isingleton idx = Some n -> gamma idx i -> i = n.
Proof. intros H G. apply (isingleton_spec _ _ H). auto. Qed.

(* [gam] by cases *)
Lemma gam_summary st vals sum mu : as_smashed st = true ->
  (as_esz st = Some k -> forall o x, mu o = Some x -> gamma sum x) -> gam k (mkV st vals sum) mu.
Proof. intros S H. unfold gam. cbn [v_st v_sum]. rewrite S. exact H. Qed.
Lemma gam_cells st vals sum mu : as_smashed st = false ->
  (forall c x, In c (as_map st) -> mu (c_off c) = Some x -> gamma (vals (c_off c) (c_size c)) x) ->
  gam k (mkV st vals sum) mu.
Proof. intros S H. unfold gam. cbn [v_st]. rewrite S. exact H. Qed.
(* m_array_map.set keeps the old state or takes the new one *)
Lemma gam_as_set old new vals sum mu :
  gam k (mkV old vals sum) mu -> gam k (mkV new vals sum) mu -> gam k (mkV (as_set old new) vals sum) mu.
Proof. destruct (as_set_cases old new) as [-> | ->]; auto. Qed.

(* soundness of the decision table of array_store *)
Theorem store_decide_sound p a idx slb sub dom i v val mu :
  wf_state a -> access idx slb sub dom i -> gamma val v -> gam k a mu ->
  (match store_decide p (v_st a) idx slb sub dom k with SSmash _ => tracked a mu | _ => True end) ->
  gam k (store_val p a (store_decide p (v_st a) idx slb sub dom k) k val) (mstore mu i v).
Proof.
  intros (U & W & LIVE) A GV GM TR. unfold gam in GM.
  unfold store_decide in *. destruct (as_smashed (v_st a)) eqn:SM.
  - (* smashed: weak update of the summary, or the summary is forgotten *)
    destruct (size_consistent (v_st a) k); apply gam_summary; auto; intros ES o x M.
    + unfold mstore in M. destruct (o =? i).
      * inversion M; subst. apply ijoin_sound_r. auto.
      * apply ijoin_sound_l. apply (GM ES o x M).
    + apply gamma_top.
  - set (m := as_map (v_st a)) in *.
    (* constant index: the cell (i, k) gets the value, what is not killed keeps its own;
       by keys, since the new map holds the old cells, possibly marked, and the written one *)
    assert (CELL : forall kill, gam k (store_val p a (SCell i kill) k val) (mstore mu i v)).
    { intros kill. unfold store_val, store_shape.
      set (vals := fun co cs => if (co =? i) && (cs =? k) then val else _).
      assert (X : forall c x, (exists y, In y m /\ c_off y = c_off c /\ c_size y = c_size c) \/
                              (c_off c = i /\ c_size c = k) ->
                  mstore mu i v (c_off c) = Some x -> gamma (vals (c_off c) (c_size c)) x).
      { intros c x [(y & Iy & E1 & E2)|[E1 E2]] M; unfold vals, mstore in *.
        - destruct (W y Iy) as [SZ AL]. rewrite <- E2, SZ, Z.eqb_refl, andb_true_r.
          destruct (c_off c =? i); [inversion M; subst; auto|].
          destruct (existsb _ kill); [apply gamma_top|].
          rewrite <- E1 in *. rewrite <- SZ. apply (GM y x Iy M).
        - rewrite E1, E2, !Z.eqb_refl in *. inversion M; subst. auto. }
      apply gam_as_set; apply gam_cells; auto; intros c x I; apply X.
      - left. exists c. auto.
      - apply in_om_mk in I. destruct I as [I| ->]; [|right; auto].
        left. apply in_kill_cells in I. exact I. }
    (* symbolic index: a cell that is not killed is disjoint from the written range *)
    assert (KILL : gam k (store_val p a (SKill (om_get_overlap_sym m slb sub dom)) k val) (mstore mu i v)).
    { set (cells := om_get_overlap_sym m slb sub dom). unfold store_val, store_shape.
      set (vals := fun co cs => if existsb _ cells then itop else _).
      assert (X : forall y x, In y m -> mstore mu i v (c_off y) = Some x ->
                              gamma (vals (c_off y) (c_size y)) x).
      { intros y x Iy M. unfold vals.
        destruct (existsb _ cells) eqn:EX; [apply gamma_top|].
        apply existsb_key_false in EX. destruct (W y Iy) as [SZ AL].
        destruct A as [AA AI [W1 W2] (s & Gs & E1 & E2)].
        assert (N : ~ ranges_meet (c_off y) k (eval_le slb s) k).
        { apply (sym_store_kill_lemma m slb sub dom k y s); auto; [intros d Id; apply (W d Id)|lia]. }
        unfold mstore in M. destruct (Z.eqb_spec (c_off y) i) as [EQ|_]; [|apply (GM y x Iy M)].
        destruct N. rewrite E1, EQ. exists i. lia. }
      apply gam_as_set; apply gam_cells; auto. intros c x I M.
      apply in_kill_cells in I. destruct I as (y & Iy & E1 & E2). rewrite <- E1, <- E2 in *. auto. }
    (* smashing: the summary is the join of the cells and of the value *)
    assert (SMASH : tracked a mu -> gam k (store_val p a (SSmash m) k val) (mstore mu i v)).
    { intros T. unfold store_val, store_shape, as_set.
      replace (as_eqb (v_st a) (mkS true (Some k) [])) with false by (unfold as_eqb; rewrite SM; reflexivity).
      apply gam_summary; auto. intros _ o x M. unfold mstore in M. destruct (Z.eqb_spec o i).
      - inversion M; subst. apply ijoin_sound_r. auto.
      - apply ijoin_sound_l. destruct (T o) as (c & I & E); [congruence|].
        apply (join_vals_in _ _ c); auto. apply GM; auto. rewrite E. auto. }
    destruct (isingleton idx) as [n|] eqn:SG.
    + assert (i = n) by (eapply singleton_access; eauto; apply A). subst n.
      destruct (Z.of_nat (length m) <? p_max_size p); [apply CELL|].
      destruct (p_smashable p && can_be_smashed m k (p_nonzero p) && (Z.of_nat (length m) <=? p_max_smash p)); auto.
    + destruct (p_smashable p && can_be_smashed m k (p_nonzero p) && (Z.of_nat (length m) <=? p_max_smash p)); auto.
Qed.

(* soundness of the decision table of array_load: the value read is in the result *)
Theorem load_decide_sound p a idx slb sub dom i v mu :
  wf_state a -> access idx slb sub dom i -> gam k a mu -> mu i = Some v ->
  gamma (load_val a (load_decide p (v_st a) idx slb sub dom k) k) v.
Proof.
  intros (U & W & LIVE) A GM M. unfold load_decide. unfold gam in GM.
  destruct (as_smashed (v_st a)) eqn:SM.
  - unfold size_consistent. destruct (as_esz (v_st a)) as [e|] eqn:ES; [|apply gamma_top].
    destruct (Z.eqb_spec e k) as [EK|NK]; [|apply gamma_top].
    simpl. apply (GM ltac:(congruence) i v M).
  - destruct (isingleton idx) as [n|] eqn:SG.
    + assert (i = n) by (eapply singleton_access; eauto; apply A). subst n.
      destruct (om_get_overlap (as_map (v_st a)) i k); [|apply gamma_top].
      simpl. destruct (om_get (as_map (v_st a)) i k) as [c|] eqn:E; [|apply gamma_top].
      apply om_get_some in E. destruct E as (I & E1 & E2). apply GM; auto. rewrite E1. auto.
    + set (cells := om_get_overlap_sym (as_map (v_st a)) slb sub dom).
      destruct (p_smashable p && can_be_smashed cells k true && covers_all_offsets cells idx k) eqn:C;
        [|apply gamma_top].
      apply andb_true_iff in C. destruct C as [C1 C2].
      destruct (covers_all_offsets_sound cells idx k i K C2) as (c & I & E); try apply A.
      simpl. apply (join_vals_in _ _ c); auto. apply GM.
      * eapply in_sym_in; eauto.
      * rewrite E. auto.
Qed.

End Decisions.

(* The hypothesis [tracked] of the smashing store cannot be dropped.
   The array has the cell (0,4) = 5 and, untracked, the defined cell 8 = 2; a store of 7 at
   a symbolic index in [0,4] smashes the array: the summary [5,7] does not describe cell 8.
   (The same history on the real array_adaptive_domain: see known_findings.json.) *)
Definition rf_p : params := mkP true true 64 64.
Definition rf_a : aval :=
  mkV (mkS false (Some 0) [mkC 0 4 false]) (fun _ _ => iconst 5) itop.
Definition rf_dom : env := EMap [(0%N, mkI (Fin 0) (Fin 4))].
Definition rf_slb : linexp := mkLE [(1, 0%N)] 0.
Definition rf_sub : linexp := mkLE [(1, 0%N)] 3.
Definition rf_mu : mem := fun o => if o =? 0 then Some 5 else if o =? 8 then Some 2 else None.

Theorem smash_untracked_refuted :
  wf_state 4 rf_a /\ access 4 (mkI (Fin 0) (Fin 4)) rf_slb rf_sub rf_dom 0 /\
  gamma (iconst 7) 7 /\ gam 4 rf_a rf_mu /\
  store_decide rf_p (v_st rf_a) (mkI (Fin 0) (Fin 4)) rf_slb rf_sub rf_dom 4 = SSmash [mkC 0 4 false] /\
  ~ gam 4 (store_val rf_p rf_a (SSmash [mkC 0 4 false]) 4 (iconst 7)) (mstore rf_mu 0 7).
Proof.
  split; [|split; [|split; [|split; [|split]]]].
  - split; [|split].
    + split; [repeat constructor; simpl; tauto|]. intros c d [<-|[]] [<-|[]] _. auto.
    + intros c [<-|[]]. simpl. split; auto. split; [lia|reflexivity].
    + intros c [<-|[]]. auto.
  - constructor.
    + split; [lia|reflexivity].
    + split; reflexivity.
    + split; split; simpl; try (repeat constructor; simpl; tauto);
        intros c v [E|[]]; inversion E; lia.
    + exists (fun _ => 0). split; [|split; reflexivity].
      intros kk. simpl. destruct kk; simpl; split; reflexivity.
  - split; reflexivity.
  - unfold gam. simpl. intros c v [<-|[]]. simpl. intros H. inversion H. split; reflexivity.
  - vm_compute. reflexivity.
  - unfold gam. intros H.
    assert (X : gamma (v_sum (store_val rf_p rf_a (SSmash [mkC 0 4 false]) 4 (iconst 7))) 2).
    { revert H. vm_compute. intros H. apply (H eq_refl 8 2 eq_refl). }
    revert X. vm_compute. intros [X1 X2]. discriminate.
Qed.
