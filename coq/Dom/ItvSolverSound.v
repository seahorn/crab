(* ItvSolverSound.v — every propagation step of the linear interval solver keeps all
   concrete solutions: if s satisfies the constraints and is described by the input
   environment then it is described by the output, and the solver never answers bottom
   while such an s exists. *)
From Coq Require Import ZArith NArith List Bool Lia.
From CrabV Require Import Base.ZInf Scalar.Itv Scalar.ItvSound Scalar.ItvTight Ir.Syntax Dom.ItvEnv
     Dom.ItvEnvSound Dom.ItvSolver Dom.ItvSolverInv.
Import ListNotations.
Local Open Scope Z_scope.

(* canonical form kept by the C++ flat_map: one term per variable, no zero coefficient *)
Definition wf_le (e : linexp) : Prop :=
  NoDup (map snd (le_terms e)) /\ (forall c v, In (c, v) (le_terms e) -> c <> 0).
Definition wf_lc (c : lincst) : Prop := wf_le (lc_exp c).

Fixpoint sum_except (ts : list (Z * var)) (p : var) (s : store) : Z :=
  match ts with
  | [] => 0
  | (c, v) :: r => if N.eqb v p then sum_except r p s else c * s v + sum_except r p s
  end.

Lemma sum_except_notin ts p s : ~ In p (map snd ts) -> sum_except ts p s = eval_terms ts s.
Proof.
  induction ts as [|[c v] r IH]; simpl; auto. intros H.
  destruct (N.eqb_spec v p); [tauto|]. rewrite IH; tauto.
Qed.

Lemma eval_split ts c p s :
  NoDup (map snd ts) -> In (c, p) ts -> eval_terms ts s = c * s p + sum_except ts p s.
Proof.
  induction ts as [|[c' v] r IH]; simpl; [tauto|]. intros ND [E|I].
  - inversion E; subst. rewrite N.eqb_refl. inversion ND; subst.
    rewrite sum_except_notin; auto.
  - inversion ND as [|? ? NI ND']; subst. destruct (N.eqb_spec v p).
    + subst. exfalso. apply NI. change p with (snd (c, p)). apply in_map. auto.
    + rewrite (IH ND' I). lia.
Qed.

Lemma residual_loop_sound ts p m s : forall res r ops,
  gmap m s -> gamma res r ->
  gamma (fst (residual_loop ts p m res ops)) (r - sum_except ts p s).
Proof.
  induction ts as [|[c v] t IH]; simpl; intros res r ops G R.
  - replace (r - 0) with r by lia. auto.
  - destruct (N.eqb_spec v p); [apply IH; auto|].
    assert (R' : gamma (isub res (imul (iconst c) (get m v))) (r - c * s v)).
    { apply isub_sound; auto. apply imul_sound; [apply gamma_iconst; auto|apply G]. }
    destruct (is_top _) eqn:T.
    + simpl. eapply is_top_gamma_all; eauto.
    + replace (r - (c * s v + sum_except t p s)) with (r - c * s v - sum_except t p s) by lia.
      apply IH; auto.
Qed.

Definition good (s : store) : option sst -> Prop := holds (fun m => gmap m s) False.

Lemma s_refine_sound v i st s :
  gmap (s_map st) s -> gamma i (s v) -> good s (s_refine v i st).
Proof.
  intros G Gi. unfold s_refine.
  assert (M : gamma (imeet (get (s_map st) v) i) (s v)) by (apply imeet_exact; split; auto).
  rewrite (gamma_not_bot _ _ M).
  destruct (negb _); simpl; auto. apply gmap_put_at; auto.
Qed.

Lemma ineq_pos c x r : 0 < c -> c * x <= r -> x <= Z.quot r c.
Proof.
  intros Hc H. pose proof (Z.quot_rem' r c) as E.
  destruct (rem_range r c ltac:(lia)) as (A & _ & _). nia.
Qed.

Lemma ineq_neg c x r : c < 0 -> c * x <= r -> Z.quot r c <= x.
Proof.
  intros Hc H. pose proof (Z.quot_rem' r c) as E.
  destruct (rem_range r c ltac:(lia)) as (A & _ & _). nia.
Qed.

Lemma iconst_mul_singleton q c z : gamma (imul (mkI (Fin q) (Fin q)) (iconst c)) z -> z = q * c.
Proof.
  intros G.
  assert (W : ileq (imul (mkI (Fin q) (Fin q)) (iconst c)) (iconst (q * c)) = true).
  { apply ItvTight.imul_tight; try apply wf_iconst.
    intros x y Gx Gy. apply gamma_iconst in Gx. apply gamma_iconst in Gy. subst.
    apply gamma_iconst. auto. }
  apply (ileq_sound _ _ W) in G. apply gamma_iconst in G. auto.
Qed.

Lemma isingleton_shape a q : isingleton a = Some q -> a = mkI (Fin q) (Fin q).
Proof.
  unfold isingleton. destruct a as [l u]; simpl.
  destruct (negb _ && beqb l u) eqn:E; try discriminate.
  apply andb_true_iff in E. destruct E as [_ E]. apply beqb_eq in E. subst.
  destruct u; try discriminate. intros H; inversion H; auto.
Qed.

(* what [propagate_term] derives for the pivot x from the residual r, where c * x is compared
   with r: the quotient for an equation, a half line for an inequality, a trimmed interval
   for a disequation *)
Definition rhs_of (res : itv) (c : Z) : itv := if is_top res then itop else idiv res (iconst c).

Lemma rhs_eq_sound res c r x : c <> 0 -> gamma res r -> c * x = r -> gamma (rhs_of res c) x.
Proof.
  intros Hc R E. unfold rhs_of. destruct (is_top res); [apply gamma_top|].
  replace x with (Z.quot r c); [apply idiv_sound; auto; apply gamma_iconst; auto|].
  subst r. rewrite Z.mul_comm. apply Z.quot_mul; auto.
Qed.

Lemma rhs_le_sound res c r x : c <> 0 -> gamma res r -> c * x <= r ->
  gamma (if 0 <? c then ilower_half (rhs_of res c) else iupper_half (rhs_of res c)) x.
Proof.
  intros Hc R LE.
  assert (RQ : is_top res = false -> gamma (idiv res (iconst c)) (Z.quot r c)).
  { intros _. apply idiv_sound; auto. apply gamma_iconst; auto. }
  unfold rhs_of. destruct (0 <? c) eqn:CP; destruct (is_top res);
    try (apply gamma_imk; split; reflexivity).
  - apply Z.ltb_lt in CP. eapply ilower_half_sound; [apply RQ; auto|]. apply ineq_pos; auto.
  - apply Z.ltb_ge in CP. eapply iupper_half_sound; [apply RQ; auto|]. apply ineq_neg; auto; lia.
Qed.

Lemma rhs_trim_sound old res c r x : gamma old x -> gamma res r -> c * x <> r ->
  gamma (if (if is_top res then false else ieq (imul (rhs_of res c) (iconst c)) res)
         then itrim old (rhs_of res c) else old) x.
Proof.
  intros G R NE. unfold rhs_of. destruct (is_top res); [exact G|].
  destruct (ieq _ res) eqn:EX; [|exact G].
  destruct (isingleton (idiv res (iconst c))) as [q|] eqn:SG; [|unfold itrim; rewrite SG; exact G].
  apply (itrim_sound old _ x q G SG). intros ->. apply NE.
  rewrite (isingleton_shape _ _ SG) in EX. apply (ieq_sound _ _ EX) in R.
  apply iconst_mul_singleton in R. lia.
Qed.

Lemma propagate_term_sound cst c p st s :
  wf_lc cst -> In (c, p) (le_terms (lc_exp cst)) -> sat cst s ->
  gmap (s_map st) s -> good s (propagate_term cst c p st).
Proof.
  intros [ND NZ] I SAT G. unfold propagate_term.
  destruct (compute_residual cst p st) as [res ops] eqn:CR.
  assert (Hc : c <> 0) by (eapply NZ; eauto).
  set (r := - le_cst (lc_exp cst) - sum_except (le_terms (lc_exp cst)) p s).
  assert (R : gamma res r).
  { pose proof (residual_loop_sound (le_terms (lc_exp cst)) p (s_map st) s
                 (iconst (- le_cst (lc_exp cst))) (- le_cst (lc_exp cst)) (s_ops st) G
                 ltac:(apply gamma_iconst; auto)) as X.
    unfold compute_residual in CR. rewrite CR in X. exact X. }
  assert (EV : eval_le (lc_exp cst) s = c * s p - r).
  { unfold eval_le, r. rewrite (eval_split _ c p s ND I). lia. }
  fold (rhs_of res c). generalize (rhs_of res c) (rhs_eq_sound res c r (s p) Hc R)
    (rhs_le_sound res c r (s p) Hc R) (rhs_trim_sound (get (s_map st) p) res c r (s p) (G p) R).
  intros rhs Heq Hle Hne. unfold sat in SAT. rewrite EV in SAT. cbn [s_map s_refined s_ops].
  destruct (lc_kind cst).
  - apply s_refine_sound; auto. apply Heq. lia.
  - specialize (Hne ltac:(lia)). rewrite (gamma_not_bot _ _ Hne).
    destruct (negb _); cbn [good holds s_map]; auto. apply gmap_put_at; auto.
  - specialize (Hle ltac:(lia)). destruct (0 <? c); apply s_refine_sound; auto.
  - exact G.
Qed.

Lemma propagate_terms_sound cst s : wf_lc cst -> sat cst s ->
  forall ts st, (forall c p, In (c, p) ts -> In (c, p) (le_terms (lc_exp cst))) ->
  gmap (s_map st) s -> good s (propagate_terms cst ts st).
Proof.
  intros W SAT. induction ts as [|[c p] r IH]; simpl; intros st SUB G; auto.
  pose proof (propagate_term_sound cst c p st s W (SUB c p (or_introl eq_refl)) SAT G) as P.
  destruct (propagate_term cst c p st) as [st'|]; simpl in P; [|tauto].
  apply IH; auto.
Qed.

Lemma propagate_sound cst s st : wf_lc cst -> sat cst s ->
  gmap (s_map st) s -> good s (propagate cst st).
Proof. intros. apply propagate_terms_sound; auto. Qed.

Definition table_ok (table : list lincst) (s : store) : Prop :=
  forall c, In c table -> wf_lc c /\ sat c s.

Lemma preprocess_sound s : forall cs table opc,
  (forall c, In c cs -> wf_lc c /\ sat c s) -> table_ok table s ->
  p_contra (preprocess cs table opc) = false /\ table_ok (p_table (preprocess cs table opc)) s.
Proof.
  induction cs as [|c r IH]; simpl; intros table opc H T; auto.
  destruct (H c (or_introl eq_refl)) as [W S].
  destruct (lc_is_contradiction c) eqn:C.
  { exfalso. eapply lc_is_contradiction_sound; eauto. }
  assert (H' : forall c0, In c0 r -> wf_lc c0 /\ sat c0 s) by (intros; apply H; right; auto).
  destruct (lc_is_tautology c); [apply IH; auto|].
  assert (A : forall ext o, table_ok ext s ->
            p_contra (preprocess r (table ++ ext) o) = false /\
            table_ok (p_table (preprocess r (table ++ ext) o)) s).
  { intros ext o E. apply IH; auto. intros c' I. apply in_app_or in I. destruct I; auto. }
  destruct (lc_kind c) eqn:K; apply A.
  4: { (* a strict inequality enters the table as an inequality and a disequation *)
       intros c' [<-|[<-|[]]]; (split; [exact W|]); unfold sat in *; rewrite K in S; simpl; lia. }
  all: intros c' [<-|[]]; auto.
Qed.

Theorem solve_sound cs n m s :
  (forall c, In c cs -> wf_lc c /\ sat c s) -> gmap m s ->
  match solve cs n m with Some m' => gmap m' s | None => False end.
Proof.
  intros H G. destruct (preprocess_sound s cs [] 0%N H) as [PC PT]. { intros c []. }
  apply (solve_inv (fun m => gmap m s) False (fun c => wf_lc c /\ sat c s)); auto.
  - intros c st [W S]. apply propagate_sound; auto.
  - rewrite PC. discriminate.
Qed.

(* executable well-formedness test for constraints (used by examples and by the driver) *)
Fixpoint nodupb (l : list var) : bool :=
  match l with [] => true | h :: t => negb (existsb (N.eqb h) t) && nodupb t end.
Definition wf_lcb (c : lincst) : bool :=
  nodupb (map snd (le_terms (lc_exp c))) && forallb (fun p => negb (fst p =? 0)) (le_terms (lc_exp c)).

Lemma nodupb_sound l : nodupb l = true -> NoDup l.
Proof.
  induction l as [|h t IH]; simpl; intros H; [constructor|].
  apply andb_true_iff in H. destruct H as [H1 H2]. constructor; auto.
  intros I. apply negb_true_iff in H1.
  assert (existsb (N.eqb h) t = true) by (apply existsb_exists; exists h; split; auto; apply N.eqb_refl).
  congruence.
Qed.

Lemma wf_lcb_sound c : wf_lcb c = true -> wf_lc c.
Proof.
  unfold wf_lcb, wf_lc, wf_le. intros H. apply andb_true_iff in H. destruct H as [H1 H2]. split.
  - apply nodupb_sound; auto.
  - intros k v I. rewrite forallb_forall in H2. specialize (H2 _ I). simpl in H2.
    apply negb_true_iff in H2. apply Z.eqb_neq in H2. auto.
Qed.
