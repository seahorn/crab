(* OctSound.v — property C12 for the octagon specification (Dom/Oct.v) over the integers, for
   all dimensions, constants and histories:
   SOUNDNESS of every operation (every derived bound is implied by the constraints, including
   the integer tightening and the strengthening through the unary bounds; bottom only if there
   is no integer point), and EXACTNESS [oct_exact : C12_oct_exact_statement]:
     - the invariant [ozwf] (closed, coherent, unary entries even, strongly coherent) holds for
       top and is kept by every operation; the tight closure (tighten + test + strengthen) of a
       closed coherent matrix satisfies it (Bagnara-Hill-Zaffanella);
     - a closed coherent matrix whose tightened unary bounds are feasible has an integer point
       (variables are given values one by one), and the integer points of a matrix satisfying
       the invariant go as far as each entry allows ([owf_reached]: parity argument on the
       paths through the two added edges);
     - hence bottom <-> unsatisfiable, entails c <-> every integer point satisfies c, join is
       the least upper bound, assume / meet / forget / the assignments of the language are exact.
   The matrices are those of the zones; what Dom/ZoneSound.v proves of them for an arbitrary
   valuation of the nodes is read here at [oval s]. *)
From Coq Require Import ZArith NArith List Bool Lia Arith.
From CrabV Require Import Ir.Syntax Dom.Zone Dom.ZoneSound Dom.Oct.
Import ListNotations.
Local Open Scope Z_scope.

Arguments tab : simpl never.
Arguments mget : simpl never.
Arguments pairs : simpl never.

(* node 2v stands for +v, node 2v+1 for -v *)
Definition oval (s : store) (i : nat) : Z :=
  if Nat.even i then s (N.of_nat (Nat.div2 i)) else - s (N.of_nat (Nat.div2 i)).

Definition ogamma (z : zone) (s : store) : Prop := ggam (oval s) z.

Definition oedge_holds (s : store) (e : edge) : Prop :=
  let '(a, b, w) := e in oval s b - oval s a <= w.

Definition varof (i : nat) : var := N.of_nat (Nat.div2 i).

Lemma even_double k : Nat.even (2 * k) = true.
Proof. rewrite Nat.even_mul. reflexivity. Qed.
Lemma even_succ_double k : Nat.even (S (2 * k)) = false.
Proof. rewrite Nat.even_succ, <- Nat.negb_even, even_double. reflexivity. Qed.

Lemma oval_pnode s v : oval s (pnode v) = s v.
Proof. unfold oval, pnode. rewrite even_double, Nat.div2_double, N2Nat.id. reflexivity. Qed.
Lemma oval_nnode s v : oval s (nnode v) = - s v.
Proof. unfold oval, nnode. rewrite even_succ_double, Nat.div2_succ_double, N2Nat.id. reflexivity. Qed.
Lemma bar_pnode v : bar (pnode v) = nnode v.
Proof. unfold bar, pnode, nnode. rewrite even_double. reflexivity. Qed.
Lemma bar_nnode v : bar (nnode v) = pnode v.
Proof. unfold bar, pnode, nnode. rewrite even_succ_double. reflexivity. Qed.
Lemma varof_pnode v : varof (pnode v) = v.
Proof. unfold varof, pnode. rewrite Nat.div2_double, N2Nat.id. reflexivity. Qed.
Lemma varof_nnode v : varof (nnode v) = v.
Proof. unfold varof, nnode. rewrite Nat.div2_succ_double, N2Nat.id. reflexivity. Qed.

(* every node is one of the two nodes of its variable: the facts about [bar] follow from the
   six equations above *)
Lemma node_cases i : i = pnode (varof i) \/ i = nnode (varof i).
Proof.
  assert (P : exists k, i = (2 * k)%nat \/ i = S (2 * k)).
  { induction i as [|i [k [->| ->]]]; [exists O|exists k|exists (S k)]; auto. left. lia. }
  unfold varof, pnode, nnode. destruct P as [k [->| ->]].
  - left. rewrite Nat.div2_double, Nat2N.id. reflexivity.
  - right. rewrite Nat.div2_succ_double, Nat2N.id. reflexivity.
Qed.

Lemma oval_bar s i : oval s (bar i) = - oval s i.
Proof.
  destruct (node_cases i) as [E|E]; rewrite E, ?bar_pnode, ?bar_nnode, oval_pnode, oval_nnode; lia.
Qed.
Lemma bar_invol i : bar (bar i) = i.
Proof.
  destruct (node_cases i) as [E|E]; rewrite E, ?bar_pnode, ?bar_nnode, ?bar_pnode; reflexivity.
Qed.
Lemma bar_neq i : bar i <> i.
Proof.
  destruct (node_cases i) as [E|E]; rewrite E, ?bar_pnode, ?bar_nnode; unfold pnode, nnode; lia.
Qed.
Lemma varof_bar i : varof (bar i) = varof i.
Proof.
  destruct (node_cases i) as [E|E]; revert E; generalize (varof i); intros w ->;
    rewrite ?bar_pnode, ?bar_nnode, ?varof_pnode, ?varof_nnode; reflexivity.
Qed.
Lemma bar_inj i j : bar i = bar j -> i = j.
Proof. intros H. rewrite <- (bar_invol i), <- (bar_invol j). congruence. Qed.
Lemma bar_eqb i j : Nat.eqb (bar j) (bar i) = Nat.eqb i j.
Proof.
  destruct (Nat.eqb_spec i j) as [->|N]; [apply Nat.eqb_refl|].
  apply Nat.eqb_neq. intros X. apply bar_inj in X. congruence.
Qed.
Lemma bar_lt n i : Nat.even n = true -> ((bar i < n)%nat <-> (i < n)%nat).
Proof.
  intros E. apply Nat.even_spec in E. destruct E as [h ->].
  destruct (node_cases i) as [E|E]; rewrite E, ?bar_pnode, ?bar_nnode; unfold pnode, nnode; lia.
Qed.
Lemma pnode_lt n x : (nnode x < n)%nat -> (pnode x < n)%nat.
Proof. unfold pnode, nnode. lia. Qed.

(* a node other than the two nodes of v belongs to another variable *)
Lemma varof_neq v q : q <> pnode v -> q <> nnode v -> varof q <> v.
Proof. intros Hp Hn <-. destruct (node_cases q); congruence. Qed.

Lemma oval_ext s s' i : s' (varof i) = s (varof i) -> oval s' i = oval s i.
Proof. unfold oval. fold (varof i). intros ->. reflexivity. Qed.
Lemma oval_upd_other s v X i : varof i <> v -> oval (upd s v X) i = oval s i.
Proof. intros H. apply oval_ext, upd_other, H. Qed.
Lemma oval_upd_p s v X : oval (upd s v X) (pnode v) = X.
Proof. rewrite oval_pnode. apply upd_same. Qed.
Lemma oval_upd_n s v X : oval (upd s v X) (nnode v) = - X.
Proof. rewrite oval_nnode, upd_same. reflexivity. Qed.

Lemma ogamma_ext z s s' : store_eq s s' -> ogamma z s -> ogamma z s'.
Proof.
  intros E. unfold ogamma. destruct z as [|m]; simpl; auto. apply gfun_ext. intros i.
  apply oval_ext. symmetry. apply E.
Qed.

Lemma oval_lit s c v : unit_coef c = true -> oval s (lit c v) = c * s v.
Proof.
  unfold unit_coef, lit. destruct (Z.eqb_spec c 1); simpl.
  - intros _. subst. rewrite oval_pnode. lia.
  - destruct (Z.eqb_spec c (-1)); [|discriminate]. intros _. subst. rewrite oval_nnode. lia.
Qed.

Lemma oct_leq_edges_spec ts k es s :
  oct_leq_edges ts k = Some es -> (eval_terms ts s + k <= 0 <-> Forall (oedge_holds s) es).
Proof.
  unfold oct_leq_edges. destruct ts as [|[c x] [|[d y] [|]]]; try discriminate.
  - intros H. inversion H. rewrite Forall_cons_iff, Forall_nil_iff. simpl. lia.
  - destruct (unit_coef c) eqn:U; [|discriminate]. intros H. inversion H.
    rewrite Forall_cons_iff, Forall_nil_iff. cbn [oedge_holds eval_terms].
    rewrite oval_bar, (oval_lit s c x U). lia.
  - destruct (unit_coef c) eqn:U; [|discriminate]. destruct (unit_coef d) eqn:V; [|discriminate].
    intros H. inversion H. rewrite !Forall_cons_iff, Forall_nil_iff. cbn [oedge_holds eval_terms].
    rewrite !oval_bar, (oval_lit s c x U), (oval_lit s d y V). lia.
Qed.

Theorem oct_edges_spec c es s :
  oct_edges c = Some es -> (sat c s <-> Forall (oedge_holds s) es).
Proof.
  unfold oct_edges, sat, eval_le. destruct (lc_kind c).
  - destruct (oct_leq_edges (le_terms (lc_exp c)) (le_cst (lc_exp c))) as [e1|] eqn:E1; [|discriminate].
    destruct (oct_leq_edges (neg_terms (le_terms (lc_exp c))) (- le_cst (lc_exp c))) as [e2|] eqn:E2; [|discriminate].
    intros H. inversion H; subst. rewrite Forall_app.
    rewrite <- (oct_leq_edges_spec _ _ _ s E1), <- (oct_leq_edges_spec _ _ _ s E2).
    unfold neg_terms. rewrite eval_terms_neg. lia.
  - discriminate.
  - intros H. rewrite <- (oct_leq_edges_spec _ _ _ s H). lia.
  - intros H. rewrite <- (oct_leq_edges_spec _ _ _ s H). lia.
Qed.

Lemma half_bound a k : 2 * a <= k -> a <= k / 2.
Proof. intros. apply Z.div_le_lower_bound; lia. Qed.

(* two halves rounded down lose 2 only when both numbers are odd *)
Lemma half_sum x x' : 0 <= x + x' -> (Z.odd x = true -> Z.odd x' = true -> x + x' <> 0) ->
  0 <= x / 2 + x' / 2.
Proof.
  intros H N. pose proof (Z.div_mod x 2) as E. pose proof (Z.div_mod x' 2) as E'.
  rewrite Zmod_odd in E, E'. destruct (Z.odd x), (Z.odd x'); lia.
Qed.

(* integer tightening, the infeasibility test and the strengthening keep every integer point *)
Theorem o_close_sound n z s : ogamma z s -> ogamma (o_close n z) s.
Proof.
  unfold ogamma. destruct z as [|m]; cbn [ggam o_close]; auto. intros G.
  assert (T : gfun (mget (tighten_m n m)) (oval s)).
  { apply gfun_tab_sub. intros i j k. destruct (Nat.eqb_spec j (bar i)) as [->|]; [|apply G].
    pose proof (G i (bar i)) as G1. destruct (mget m i (bar i)) as [k0|]; [|discriminate].
    intros H. assert (K : k = 2 * (k0 / 2)) by congruence.
    specialize (G1 _ eq_refl). rewrite oval_bar in *.
    assert (- oval s i <= k0 / 2) by (apply half_bound; lia). lia. }
  destruct (unary_infeasible n (tighten_m n m)) eqn:U.
  - unfold unary_infeasible in U. apply existsb_exists in U. destruct U as [i [_ U]].
    apply negb_true_iff in U.
    assert (X : wleb (Some 0) (wadd (mget (tighten_m n m) i (bar i)) (mget (tighten_m n m) (bar i) i)) = true); [|congruence].
    apply wleb_spec. pose proof (T i (bar i)) as T1. pose proof (T (bar i) i) as T2.
    destruct (mget (tighten_m n m) i (bar i)), (mget (tighten_m n m) (bar i) i); cbn [wadd wle]; auto.
    specialize (T1 _ eq_refl). specialize (T2 _ eq_refl). rewrite oval_bar in *. lia.
  - apply gfun_tab_sub. intros i j k H. apply wmin_cases in H. destruct H as [H|H]; [exact (T _ _ _ H)|].
    pose proof (T i (bar i)) as T1. pose proof (T (bar j) j) as T2.
    destruct (mget (tighten_m n m) i (bar i)) as [k1|], (mget (tighten_m n m) (bar j) j) as [k2|]; inversion H.
    specialize (T1 _ eq_refl). specialize (T2 _ eq_refl). rewrite oval_bar in *.
    apply half_bound. lia.
Qed.

Theorem o_add_sound n c z s : ogamma z s -> sat c s -> ogamma (o_add n c z) s.
Proof.
  intros G H. unfold o_add. destruct (oct_edges c) as [es|] eqn:E; auto.
  apply o_close_sound, add_edges_sound; auto. apply (oct_edges_spec c es s E), H.
Qed.

Theorem o_assume_sound n cs : forall z s,
  ogamma z s -> Forall (fun c => sat c s) cs -> ogamma (o_assume n cs z) s.
Proof.
  unfold o_assume. induction cs as [|c r IH]; intros z s G F; simpl; auto.
  inversion F; subst. apply IH; auto. apply o_add_sound; auto.
Qed.

(* entails answers yes only if every integer point satisfies the constraint *)
Theorem o_entails_sound c z s : o_entails c z = true -> ogamma z s -> sat c s.
Proof.
  unfold o_entails, ogamma. destruct z as [|m]; simpl; [tauto|].
  destruct (oct_edges c) as [es|] eqn:E; [|discriminate].
  intros H G. apply (oct_edges_spec c es s E), (edges_test_sound _ m es H G).
Qed.

Theorem o_upper_sound z v s u : ogamma z s -> o_upper z v = Some u -> s v <= u.
Proof.
  unfold ogamma, o_upper. destruct z as [|m]; simpl; [tauto|]. intros G.
  pose proof (G (nnode v) (pnode v)) as G1. destruct (mget m (nnode v) (pnode v)); simpl; [|discriminate].
  intros H. inversion H; subst. specialize (G1 _ eq_refl). rewrite oval_pnode, oval_nnode in G1.
  apply half_bound. lia.
Qed.
Theorem o_lower_sound z v s l : ogamma z s -> o_lower z v = Some l -> l <= s v.
Proof.
  unfold ogamma, o_lower. destruct z as [|m]; simpl; [tauto|]. intros G.
  pose proof (G (pnode v) (nnode v)) as G1. destruct (mget m (pnode v) (nnode v)); simpl; [|discriminate].
  intros H. inversion H; subst. specialize (G1 _ eq_refl). rewrite oval_pnode, oval_nnode in G1.
  assert (- s v <= z / 2) by (apply half_bound; lia). lia.
Qed.

Theorem o_leq_sound n a b s : zdim n b -> o_leq n a b = true -> ogamma a s -> ogamma b s.
Proof. apply z_leq_sound. Qed.
Theorem o_join_sound n a b s : ogamma a s \/ ogamma b s -> ogamma (o_join n a b) s.
Proof. apply z_join_sound. Qed.
Theorem o_meet_sound n a b s : ogamma a s -> ogamma b s -> ogamma (o_meet n a b) s.
Proof. intros A B. apply o_close_sound, z_meet_sound; auto. Qed.

Theorem o_forget1_sound n z v s s' :
  ogamma z s -> (forall k, k <> v -> s' k = s k) -> ogamma (o_forget1 n z v) s'.
Proof.
  unfold ogamma. destruct z as [|m]; simpl; auto. intros G E.
  (* one node at a time: in between, node +v has its new value and node -v the old one *)
  set (g1 := fun i => if Nat.eqb i (pnode v) then oval s' i else oval s i).
  apply (forget_m_sound n _ (nnode v) g1).
  - apply (forget_m_sound n m (pnode v) (oval s)); auto.
    intros q Hq. unfold g1. destruct (Nat.eqb_spec q (pnode v)); congruence.
  - intros q Hq. unfold g1. destruct (Nat.eqb_spec q (pnode v)); auto.
    apply oval_ext, E, varof_neq; auto.
Qed.

Theorem o_forget_sound n vs : forall z s s',
  ogamma z s -> store_eq_off vs s s' -> ogamma (o_forget n vs z) s'.
Proof.
  unfold o_forget. induction vs as [|v r IH]; intros z s s' G E; simpl.
  - apply (ogamma_ext z s); auto. intros k. symmetry. apply E. auto.
  - apply (IH _ (upd s v (s' v)) s').
    + apply (o_forget1_sound n z v s); auto. intros k Hk. apply upd_other; auto.
    + intros k Hk. unfold upd. destruct (N.eqb_spec k v); [subst; auto|]. apply E. simpl.
      intros [X|X]; [congruence|tauto].
Qed.

(* the shift of [oshift_m] *)
Definition odelta (x : var) (k : Z) (i : nat) : Z :=
  if Nat.eqb i (pnode x) then k else if Nat.eqb i (nnode x) then - k else 0.

Lemma oval_shift s x k q : oval (upd s x (s x + k)) q = oval s q + odelta x k q.
Proof.
  unfold odelta. destruct (Nat.eqb_spec q (pnode x)); [subst; rewrite !oval_pnode, upd_same; lia|].
  destruct (Nat.eqb_spec q (nnode x)); [subst; rewrite !oval_nnode, upd_same; lia|].
  rewrite oval_upd_other by (apply varof_neq; auto). lia.
Qed.

Lemma oshift_sound n m x k s :
  gfun (mget m) (oval s) -> gfun (mget (oshift_m n m x k)) (oval (upd s x (s x + k))).
Proof.
  intros G. apply (gfun_ext _ (fun i => oval s i + odelta x k i)); [apply oval_shift|].
  apply (shift_sound n m (odelta x k)), G.
Qed.

Theorem o_assign_sound n x e z s s' :
  ogamma z s -> store_eq s' (upd s x (eval_le e s)) -> ogamma (o_assign n x e z) s'.
Proof.
  intros G E.
  assert (FG : ogamma (o_forget1 n z x) s').
  { apply (o_forget1_sound n z x s); auto. intros k Hk. rewrite E. apply upd_other; auto. }
  pose proof (E x) as Ex. rewrite upd_same in Ex. unfold eval_le in Ex.
  unfold o_assign. destruct (le_terms e) as [|[c y] [|]] eqn:T; auto.
  - apply o_add_sound; auto. unfold sat, eval_le; cbn [lc_kind lc_exp le_terms le_cst eval_terms].
    cbn [eval_terms] in Ex. lia.
  - destruct (unit_coef c) eqn:U; auto. destruct (N.eqb_spec x y).
    + subst y. destruct (Z.eqb_spec c 1); auto. subst c.
      destruct z as [|m]; [destruct G|]. apply (ogamma_ext _ (upd s x (s x + le_cst e))).
      * intros k. rewrite E. unfold upd. destruct (N.eqb k x); auto. unfold eval_le. rewrite T.
        cbn [eval_terms]. lia.
      * apply oshift_sound. exact G.
    + apply o_add_sound; auto. unfold sat, eval_le; cbn [lc_kind lc_exp le_terms le_cst eval_terms].
      cbn [eval_terms] in Ex. rewrite (E y), upd_other by congruence. lia.
Qed.

Theorem oct_sound_dom n : sound_dom (oct_dom n) ogamma (fun _ => True).
Proof.
  constructor; simpl.
  - intros s. apply z_top_ggam.
  - intros cs z s _ G F. apply o_assume_sound; auto.
  - intros x e z s s' G E. eapply o_assign_sound; eauto.
  - intros vs z s s' G E. eapply o_forget_sound; eauto.
  - intros a b s. apply o_join_sound.
  - intros a b s. apply o_meet_sound.
Qed.

(* constraints of the language over the variables of the matrix (at least one variable) *)
Definition o_ok (n : nat) (c : lincst) : Prop :=
  le_terms (lc_exp c) <> [] /\ exists es, oct_edges c = Some es /\ Forall (edge_in n) es.
(* assignments of the language: x := k, x := +-y + k (y <> x), x := x + k *)
Definition oa_ok (n : nat) (x : var) (e : linexp) : Prop :=
  (nnode x < n)%nat /\
  (le_terms e = [] \/
   exists c y, le_terms e = [(c, y)] /\ unit_coef c = true /\ (nnode y < n)%nat /\ (x <> y \/ c = 1)).

Definition coherent (f : nat -> nat -> wt) : Prop := forall i j, f i j = f (bar j) (bar i).
Definition tight (f : nat -> nat -> wt) : Prop :=
  forall i k, f i (bar i) = Some k -> exists h, k = 2 * h.
Definition scoh (f : nat -> nat -> wt) : Prop :=
  forall i j, wle (f i j) (whalf (wadd (f i (bar i)) (f (bar j) j))).

Definition owf (n : nat) (m : mat) : Prop :=
  mwf n m /\ coherent (mget m) /\ tight (mget m) /\ scoh (mget m).
Definition ozwf (n : nat) (z : zone) : Prop :=
  match z with ZBot => True | ZM m => owf n m end.

(* the mirrored valuation *)
Definition flip (g : nat -> Z) : nat -> Z := fun i => - g (bar i).

Lemma flip_flip g i : flip (flip g) i = g i.
Proof. unfold flip. rewrite bar_invol. lia. Qed.

Lemma flip_oval s i : flip (oval s) i = oval s i.
Proof. unfold flip. rewrite oval_bar. lia. Qed.

Lemma coherent_flip f g : coherent f -> gfun f g -> gfun f (flip g).
Proof.
  intros C G i j k E. unfold flip. rewrite (C i j) in E. specialize (G _ _ _ E). lia.
Qed.

Lemma wadd_comm (a b : wt) : wadd a b = wadd b a.
Proof. destruct a, b; cbn [wadd]; auto. f_equal. lia. Qed.

(* a closed matrix whose solutions are closed under mirroring is coherent: it has the
   solutions of its mirror image, which is closed too *)
Lemma coherent_of_flip n m : Nat.even n = true -> mwf n m ->
  (forall g, gfun (mget m) g -> gfun (mget m) (flip g)) -> coherent (mget m).
Proof.
  intros En W H. pose proof W as (S & D & C).
  set (f' := fun i j => mget m (bar j) (bar i)).
  assert (S' : support n f').
  { intros i j Hij. apply S. pose proof (bar_lt n i En). pose proof (bar_lt n j En). lia. }
  assert (W' : mwf n (tab n f')).
  { apply mwf_tab; [|intros i j k; unfold f'; rewrite wadd_comm; apply C].
    intros i Hi. apply D, bar_lt; auto. }
  assert (F : forall g, gfun (mget m) (flip g) <-> gfun f' g).
  { intros g. split; intros G i j k E.
    - specialize (G _ _ _ E). unfold flip in G. rewrite !bar_invol in G. lia.
    - unfold flip. pose proof (G (bar j) (bar i) k) as X. unfold f' in X.
      rewrite !bar_invol in X. specialize (X E). lia. }
  intros i j. rewrite (mwf_unique n m (tab n f') W W'), tab_ext; auto.
  intros g. rewrite (gfun_tab n f' g S'), <- F. split; [apply H|].
  intros G. apply H in G. revert G. apply gfun_ext. intros q. symmetry. apply flip_flip.
Qed.

Lemma whalf_mono a b : wle a b -> wle (whalf a) (whalf b).
Proof. destruct a, b; cbn [whalf wle]; try tauto. intros H. apply Z.div_le_mono; lia. Qed.

Definition wdbl (a : wt) : wt := match a with Some k => Some (2 * k) | None => None end.

Lemma whalf_dbl a b : whalf (wadd (wdbl a) (wdbl b)) = wadd a b.
Proof.
  destruct a as [a|], b as [b|]; cbn [wdbl wadd whalf]; auto. f_equal.
  replace (2 * a + 2 * b) with ((a + b) * 2) by lia. apply Z.div_mul. lia.
Qed.
Section Tighten.
  Variable f : nat -> nat -> wt.
  Hypothesis C : closed f.
  Hypothesis Co : coherent f.

  (* the tightened unary bound of node i, halved: the bound of the variable itself *)
  Definition uhalf (i : nat) : wt := match f i (bar i) with Some k => Some (k / 2) | None => None end.
  (* the entries after tightening, and after strengthening *)
  Definition Tf (i j : nat) : wt := if Nat.eqb j (bar i) then wdbl (uhalf i) else f i j.
  Definition Sf (i j : nat) : wt := wmin (f i j) (wadd (uhalf i) (uhalf (bar j))).

  Hypothesis Feas : forall i, wle (Some 0) (wadd (uhalf i) (uhalf (bar i))).

  (* strengthening absorbs the tightening: both replace f i (bar i) by 2 (f i (bar i) / 2) *)
  Lemma Sf_unary i : Sf i (bar i) = wdbl (uhalf i).
  Proof.
    unfold Sf, uhalf. rewrite bar_invol. destruct (f i (bar i)) as [k|]; cbn [wdbl wadd wmin]; auto.
    f_equal. pose proof (Z.mul_div_le k 2). lia.
  Qed.
  Lemma Sf_Tf i j : wmin (Tf i j) (wadd (uhalf i) (uhalf (bar j))) = Sf i j.
  Proof.
    unfold Tf. destruct (Nat.eqb_spec j (bar i)) as [->|]; [|reflexivity].
    rewrite Sf_unary, bar_invol. destruct (uhalf i); cbn [wdbl wadd wmin]; auto. f_equal. lia.
  Qed.

  Lemma half_step a b : (a <= 2 * b + 0)%Z -> True. Proof. auto. Qed.

  (* u i <= f i k + u k *)
  Lemma A1 i k : wle (uhalf i) (wadd (f i k) (uhalf k)).
  Proof.
    unfold uhalf. pose proof (C i (bar i) k) as H1. pose proof (C k (bar i) (bar k)) as H2.
    rewrite (Co (bar k) (bar i)) in H2. rewrite !bar_invol in H2.
    revert H1 H2. generalize (f i (bar i)) (f i k) (f k (bar i)) (f k (bar k)).
    intros a b c d. destruct a as [a|], b as [b|], c as [c|], d as [d|]; simpl; try tauto.
    intros H1 H2. assert (a <= 2 * b + d) by lia.
    assert (a / 2 <= (2 * b + d) / 2) by (apply Z.div_le_mono; lia).
    replace (2 * b + d) with (b * 2 + d) in H0 by lia. rewrite Z.div_add_l in H0 by lia. lia.
  Qed.

  (* u (bar j) <= u (bar k) + f k j *)
  Lemma A2 k j : wle (uhalf (bar j)) (wadd (uhalf (bar k)) (f k j)).
  Proof.
    pose proof (A1 (bar j) (bar k)) as H. rewrite (Co (bar j) (bar k)) in H. rewrite !bar_invol in H.
    revert H. generalize (uhalf (bar j)) (uhalf (bar k)) (f k j). wt_crush.
  Qed.

  (* the four ways of composing two strengthened entries: a path of f; a path into k, then
     the bound of its variable; the mirror image; two bounds that meet at k and bar k *)
  Lemma Sf_closed : closed Sf.
  Proof.
    intros i j k. unfold Sf. apply wle_wadd_wmin.
    - eapply wle_trans; [apply wmin_le_l|apply C].
    - eapply wle_trans; [apply wmin_le_r|]. generalize (A1 i k).
      generalize (uhalf i) (uhalf (bar j)) (f i k) (uhalf k). wt_crush.
    - eapply wle_trans; [apply wmin_le_r|]. generalize (A2 k j).
      generalize (uhalf i) (uhalf (bar j)) (uhalf (bar k)) (f k j). wt_crush.
    - eapply wle_trans; [apply wmin_le_r|]. generalize (Feas k).
      generalize (uhalf i) (uhalf (bar j)) (uhalf k) (uhalf (bar k)). wt_crush.
  Qed.
End Tighten.

Definition feasible (f : nat -> nat -> wt) : Prop :=
  forall i, wle (Some 0) (wadd (uhalf f i) (uhalf f (bar i))).

Lemma existsb_false {A} (p : A -> bool) l : existsb p l = false <-> forall x, In x l -> p x = false.
Proof.
  split.
  - intros H x I. destruct (p x) eqn:E; auto. rewrite <- H. symmetry. apply existsb_exists. eauto.
  - intros H. destruct (existsb p l) eqn:E; auto. apply existsb_exists in E.
    destruct E as (x & I & E). rewrite (H x I) in E. discriminate.
Qed.

Section CloseSpec.
  Variables (n : nat) (m : mat).
  Hypothesis En : Nat.even n = true.
  Hypothesis W : mwf n m.
  Hypothesis Co : coherent (mget m).
  Let f := mget m.

  Lemma uhalf_support i : (n <= i)%nat -> uhalf f i = None.
  Proof. intros H. unfold uhalf, f. rewrite (proj1 W); auto. Qed.

  Lemma tighten_entries i j : mget (tighten_m n m) i j = Tf f i j.
  Proof.
    unfold tighten_m. rewrite tab_ext.
    - unfold Tf, uhalf, f. destruct (Nat.eqb_spec j (bar i)) as [->|]; auto.
      destruct (mget m i (bar i)); reflexivity.
    - intros i' j' H. rewrite (proj1 W i' j' H). destruct (Nat.eqb j' (bar i')); reflexivity.
  Qed.

  Lemma Tf_unary i : Tf f i (bar i) = wdbl (uhalf f i).
  Proof. unfold Tf. rewrite Nat.eqb_refl. reflexivity. Qed.
  Lemma Tf_unary' j : Tf f (bar j) j = wdbl (uhalf f (bar j)).
  Proof. unfold Tf. rewrite bar_invol, Nat.eqb_refl. reflexivity. Qed.

  Lemma strengthen_entries i j : mget (strengthen_m n (tighten_m n m)) i j = Sf f i j.
  Proof.
    unfold strengthen_m. rewrite tab_ext.
    - rewrite !tighten_entries, Tf_unary, Tf_unary', whalf_dbl. apply Sf_Tf.
    - intros i' j' H. rewrite !tighten_entries, Tf_unary, Tf_unary', whalf_dbl, Sf_Tf.
      unfold Sf. replace (f i' j') with (@None Z) by (symmetry; apply (proj1 W), H). destruct H as [H|H].
      + rewrite (uhalf_support i' H). reflexivity.
      + rewrite (uhalf_support (bar j')) by (pose proof (bar_lt n j' En); lia).
        apply wadd_None_r.
  Qed.

  (* the test on node i compares the tightened bounds of its variable *)
  Lemma unary_test i :
    negb (wleb (Some 0) (wadd (mget (tighten_m n m) i (bar i)) (mget (tighten_m n m) (bar i) i))) = false <->
    wle (Some 0) (wadd (uhalf f i) (uhalf f (bar i))).
  Proof.
    rewrite negb_false_iff, wleb_spec, !tighten_entries, Tf_unary, Tf_unary'.
    generalize (uhalf f i) (uhalf f (bar i)). intros [a|] [b|]; cbn [wdbl wadd wle]; try tauto. lia.
  Qed.

  Lemma feas_of_check : unary_infeasible n (tighten_m n m) = false -> feasible f.
  Proof.
    intros U i. destruct (Nat.lt_ge_cases i n) as [Hi|Hi]; [|rewrite (uhalf_support i Hi); exact I].
    apply unary_test. apply (proj1 (existsb_false _ _) U), in_seq. lia.
  Qed.

  Lemma check_of_feas :
    (forall i, wle (Some 0) (wadd (uhalf f i) (uhalf f (bar i)))) ->
    unary_infeasible n (tighten_m n m) = false.
  Proof. intros H. apply existsb_false. intros i _. apply unary_test, H. Qed.

  (* the result of the tight closure satisfies the whole invariant *)
  Lemma o_close_owf : ozwf n (o_close n (ZM m)).
  Proof.
    cbn [o_close]. destruct (unary_infeasible n (tighten_m n m)) eqn:U; [exact I|].
    pose proof (feas_of_check U) as Fe. pose proof strengthen_entries as EQ.
    destruct W as (S & D & C). split; [split; [apply tab_support|split]|split; [|split]].
    - intros i Hi. rewrite EQ. unfold Sf. replace (f i i) with (Some 0) by (symmetry; apply D, Hi).
      generalize (Fe i). generalize (uhalf f i) (uhalf f (bar i)). wt_crush. f_equal. lia.
    - intros i j k. rewrite !EQ. apply (Sf_closed f C Co Fe).
    - intros i j. rewrite !EQ. unfold Sf, f. rewrite bar_invol, (wadd_comm (uhalf _ (bar j))), <- (Co i j).
      reflexivity.
    - intros i k. rewrite EQ, Sf_unary. destruct (uhalf f i) as [a|]; cbn [wdbl]; [|discriminate].
      intros H. inversion H. exists a. reflexivity.
    - intros i j. rewrite !EQ. pose proof (Sf_unary f (bar j)) as X. rewrite bar_invol in X.
      rewrite Sf_unary, X, whalf_dbl. apply wmin_le_r.
  Qed.

  (* ... and has the integer points of the matrix it was computed from *)
  Lemma o_close_gamma s : ogamma (o_close n (ZM m)) s <-> gfun f (oval s).
  Proof.
    split; [|apply (o_close_sound n (ZM m) s)].
    cbn [o_close]. destruct (unary_infeasible n (tighten_m n m)); [intros []|].
    unfold ogamma. cbn [ggam]. intros G i j k E.
    pose proof (G i j) as G1. rewrite strengthen_entries in G1. unfold Sf in G1.
    pose proof (wmin_le_l (f i j) (wadd (uhalf f i) (uhalf f (bar j)))) as L.
    destruct (wmin (f i j) _) as [k'|]; rewrite E in L; cbn [wle] in L; [|tauto].
    specialize (G1 _ eq_refl). lia.
  Qed.
End CloseSpec.

Lemma fold_min_le us : forall a u, In u (a :: us) -> fold_right Z.min a us <= u.
Proof.
  induction us as [|b us IH]; intros a u I; simpl in *.
  - destruct I as [<-|[]]; lia.
  - destruct I as [<-|[<-|I]].
    + specialize (IH a a (or_introl eq_refl)). lia.
    + lia.
    + specialize (IH a u (or_intror I)). lia.
Qed.
Lemma fold_max_ge ls : forall a l, In l (a :: ls) -> l <= fold_right Z.max a ls.
Proof.
  induction ls as [|b ls IH]; intros a l I; simpl in *.
  - destruct I as [<-|[]]; lia.
  - destruct I as [<-|[<-|I]].
    + specialize (IH a a (or_introl eq_refl)). lia.
    + lia.
    + specialize (IH a l (or_intror I)). lia.
Qed.
Lemma fold_max_in ls : forall a, In (fold_right Z.max a ls) (a :: ls).
Proof.
  induction ls as [|b ls IH]; intros a; simpl.
  - auto.
  - destruct (Z.max_spec b (fold_right Z.max a ls)) as [[_ M]|[_ M]]; rewrite M.
    + destruct (IH a) as [E|I]; auto.
    + auto.
Qed.

Lemma between (lows ups : list Z) :
  (forall l u, In l lows -> In u ups -> l <= u) ->
  exists X, (forall l, In l lows -> l <= X) /\ (forall u, In u ups -> X <= u).
Proof.
  intros H. destruct lows as [|l0 lows].
  - destruct ups as [|u0 ups].
    + exists 0. split; intros ? [].
    + exists (fold_right Z.min u0 ups). split; [intros ? []|]. intros u I. apply fold_min_le. auto.
  - exists (fold_right Z.max l0 lows). split.
    + intros l I. apply fold_max_ge. auto.
    + intros u I. apply H; auto. apply fold_max_in.
Qed.

(* the elements of an optional bound *)
Definition olist (o : wt) : list Z := match o with Some k => [k] | None => [] end.
Lemma in_olist o x : In x (olist o) <-> o = Some x.
Proof. destruct o; simpl; split; intros H; try tauto; try discriminate; [destruct H as [->|[]]; auto|inversion H; auto]. Qed.

Section OctExtend.
  Variable f : nat -> nat -> wt.
  Variable n : nat.
  Hypothesis C : closed f.
  Hypothesis Co : coherent f.
  Hypothesis Sup : support n f.

  Definition sat_onv (L : list var) (s : store) : Prop :=
    forall i j k, In (varof i) L -> In (varof j) L -> f i j = Some k -> oval s j - oval s i <= k.

  (* what the entry (p, a) and the unary bound of p allow at an assigned node a:
     2 val a <= f (bar a) a <= 2 f p a + f (bar p) p *)
  Lemma unary_compat L s p a ka ku : sat_onv L s -> In (varof a) L ->
    f p a = Some ka -> f (bar p) p = Some ku -> oval s a - ka <= ku / 2.
  Proof.
    intros S Ia Ea Eu.
    pose proof (C (bar a) a (bar p)) as T1. pose proof (C (bar p) a p) as T2.
    rewrite (Co (bar a) (bar p)), !bar_invol, Ea in T1. rewrite Ea, Eu in T2.
    destruct (f (bar p) a) as [w|]; cbn [wadd wle] in T2; [|tauto].
    destruct (f (bar a) a) as [kaa|] eqn:Eaa; cbn [wadd wle] in T1; [|tauto].
    pose proof (S (bar a) a kaa) as X. rewrite varof_bar, oval_bar in X. specialize (X Ia Ia Eaa).
    apply half_bound. lia.
  Qed.

  (* Extension to one more variable v.  Its value X has to lie between the bounds [lo] and [hi]
     that the nodes of the variables of L impose on node +v, as for zones, and between -(k/2)
     and k'/2 for the unary entries (+v, -v) and (-v, +v).  By coherence the entries at -v say
     the same. *)
  Lemma oct_extend (L : list var) (s : store) (v : var) :
    ~ In v L -> sat_onv L s ->
    wle (Some 0) (wadd (uhalf f (pnode v)) (uhalf f (nnode v))) ->
    wle (Some 0) (f (pnode v) (pnode v)) -> wle (Some 0) (f (nnode v) (nnode v)) ->
    exists X, sat_onv (v :: L) (upd s v X).
  Proof.
    intros NI S Fe Dp Dn. set (p := pnode v) in *. set (q := nnode v) in *.
    assert (Bp : bar p = q) by apply bar_pnode. assert (Bq : bar q = p) by apply bar_nnode.
    set (NL := filter (fun a => if in_dec N.eq_dec (varof a) L then true else false) (seq 0 n)).
    assert (InNL : forall a, In a NL <-> ((a < n)%nat /\ In (varof a) L)).
    { intros a. unfold NL. rewrite filter_In, in_seq.
      destruct (in_dec N.eq_dec (varof a) L); split; intros [A B]; try discriminate; split; auto; lia. }
    assert (SN : sat_on f NL (oval s)).
    { intros i j k Ii Ij. apply S; apply InNL; auto. }
    set (lows := olist (lo f (oval s) p NL) ++ olist (option_map Z.opp (whalf (f p q)))).
    set (ups := olist (hi f (oval s) p NL) ++ olist (whalf (f q p))).
    assert (COMPAT : forall l u, In l lows -> In u ups -> l <= u).
    { intros l u Il Iu. apply in_app_iff in Il, Iu. rewrite !in_olist in Il, Iu.
      destruct Il as [El|El], Iu as [Eu|Eu].
      - apply (lo_le_hi f C (oval s) p NL l u SN El Eu).
      - destruct (lo_attained f (oval s) p NL l El) as (a & ka & Ia & Ea & ->).
        destruct (f q p) as [ku|] eqn:Equ; inversion Eu.
        apply (unary_compat L s p a ka ku); auto; [apply InNL, Ia|rewrite Bp; auto].
      - (* the mirror image: the bound on node -v through (bar b) *)
        destruct (hi_attained f (oval s) p NL u Eu) as (b & kb & Ib & Eb & ->).
        destruct (f p q) as [kl|] eqn:Epq; inversion El.
        pose proof (unary_compat L s q (bar b) kb kl S) as X.
        rewrite varof_bar, oval_bar, Bq in X. rewrite (Co b p), Bp in Eb.
        specialize (X (proj2 (proj1 (InNL b) Ib)) Eb Epq). lia.
      - unfold uhalf in Fe. rewrite Bp, Bq in Fe.
        destruct (f p q) as [kl|], (f q p) as [ku|]; inversion El; inversion Eu.
        cbn [wadd wle] in Fe. lia. }
    destruct (between lows ups COMPAT) as [X [LO UP]]. exists X.
    (* the value of v respects its own bounds and every constraint with an assigned node *)
    assert (Lq : forall k, f p q = Some k -> - X - X <= k).
    { intros k E. assert (- (k / 2) <= X); [|pose proof (Z.mul_div_le k 2); lia].
      apply LO, in_app_iff. right. rewrite E. left; auto. }
    assert (Uq : forall k, f q p = Some k -> X - - X <= k).
    { intros k E. assert (X <= k / 2); [|pose proof (Z.mul_div_le k 2); lia].
      apply UP, in_app_iff. right. rewrite E. left; auto. }
    assert (IN : forall a b k, In (varof a) L -> f a b = Some k \/ f b a = Some k -> In a NL).
    { intros a b k Ia [E|E]; apply InNL; split; auto; apply (support_lt n f _ _ _ Sup E). }
    assert (Lp : forall a k, In (varof a) L -> f p a = Some k -> oval s a - X <= k).
    { intros a k Ia E. destruct (lo_ge f (oval s) p NL a k) as (l & El & Hl); eauto.
      assert (l <= X); [|lia]. apply LO, in_app_iff. left. apply in_olist, El. }
    assert (Up : forall a k, In (varof a) L -> f a p = Some k -> X - oval s a <= k).
    { intros a k Ia E. destruct (hi_le f (oval s) p NL a k) as (h & Eh & Hh); eauto.
      assert (X <= h); [|lia]. apply UP, in_app_iff. left. apply in_olist, Eh. }
    (* each node is +v, -v or a node of L *)
    assert (CS : forall a, In (varof a) (v :: L) -> a = p \/ a = q \/ In (varof a) L).
    { intros a [E|I]; auto. unfold p, q. rewrite E. destruct (node_cases a); auto. }
    assert (VO : forall a, In (varof a) L -> oval (upd s v X) a = oval s a).
    { intros a Ia. apply oval_upd_other. intros E. rewrite E in Ia. tauto. }
    assert (Vp : oval (upd s v X) p = X) by apply oval_upd_p.
    assert (Vq : oval (upd s v X) q = - X) by apply oval_upd_n.
    intros i j k Ii Ij E.
    destruct (CS i Ii) as [->|[->|Li]], (CS j Ij) as [->|[->|Lj]]; rewrite ?Vp, ?Vq, ?VO by auto.
    - rewrite E in Dp. cbn [wle] in Dp. lia.
    - apply Lq, E.
    - apply (Lp j k Lj E).
    - apply Uq, E.
    - rewrite E in Dn. cbn [wle] in Dn. lia.
    - (* f q j = f (bar j) p *)
      rewrite (Co q j), Bq in E. rewrite <- varof_bar in Lj. pose proof (Up _ k Lj E) as Y.
      rewrite oval_bar in Y. lia.
    - apply (Up i k Li E).
    - rewrite (Co i q), Bq in E. rewrite <- varof_bar in Li. pose proof (Lp _ k Li E) as Y.
      rewrite oval_bar in Y. lia.
    - apply (S i j k Li Lj E).
  Qed.
End OctExtend.

Lemma solution_onv f n : closed f -> coherent f -> support n f ->
  (forall i, wle (Some 0) (f i i)) -> feasible f ->
  forall L, NoDup L -> exists s, sat_onv f L s.
Proof.
  intros C Co Sup D Fe L. induction L as [|v L IH]; intros ND.
  - exists (fun _ => 0). intros i j k [].
  - inversion ND; subst. destruct (IH H2) as [s S].
    pose proof (Fe (pnode v)) as F. rewrite bar_pnode in F.
    destruct (oct_extend f n C Co Sup L s v H1 S F (D _) (D _)) as [X HX].
    exists (upd s v X). exact HX.
Qed.

Lemma var_range_in n i : (i < n)%nat -> In (varof i) (map N.of_nat (seq 0 n)).
Proof.
  intros H. unfold varof. apply in_map, in_seq. pose proof (Nat.div2_decr i i). lia.
Qed.

Lemma NoDup_map_of_nat l : NoDup l -> NoDup (map N.of_nat l).
Proof.
  intros ND. induction ND; simpl; constructor; auto.
  intros I. apply in_map_iff in I. destruct I as [y [E Iy]]. apply Nat2N.inj in E. subst. tauto.
Qed.

(* a closed coherent matrix whose tightened unary bounds are feasible has an integer point *)
Theorem oct_inhabited n m : mwf n m -> coherent (mget m) ->
  feasible (mget m) -> exists s, gfun (mget m) (oval s).
Proof.
  intros W Co Fe. pose proof W as (S & D & C).
  destruct (solution_onv (mget m) n C Co S (mwf_diag_nonneg n m W) Fe
              (map N.of_nat (seq 0 n)) (NoDup_map_of_nat _ (seq_NoDup n 0))) as [s G].
  exists s. intros i j k E. destruct (support_lt n _ i j k S E).
  apply (G i j k); auto; apply var_range_in; auto.
Qed.

Lemma tight_half f i k : tight f -> f i (bar i) = Some k -> k = 2 * (k / 2).
Proof.
  intros Ti E. destruct (Ti i k E) as [h ->]. rewrite (Z.mul_comm 2 h), Z.div_mul; lia.
Qed.

(* the invariant implies feasibility *)
Lemma owf_feasible n m : owf n m -> feasible (mget m).
Proof.
  intros ((S & D & C) & Co & Ti & Sc) i. unfold uhalf. rewrite bar_invol.
  pose proof (C i i (bar i)) as T.
  destruct (Nat.lt_ge_cases i n) as [Hi|Hi]; [|rewrite (S i (bar i)) by auto; exact I].
  rewrite D in T by auto.
  destruct (mget m i (bar i)) as [a|] eqn:Ea; [|exact I].
  destruct (mget m (bar i) i) as [b|] eqn:Eb; cbn [wadd wle] in *; [|exact I].
  pose proof (tight_half _ i a Ti Ea). pose proof (tight_half _ (bar i) b Ti) as Hb.
  rewrite bar_invol in Hb. specialize (Hb Eb). lia.
Qed.

Lemma owf_inhabited n m : owf n m -> exists s, gfun (mget m) (oval s).
Proof. intros W. apply (oct_inhabited n m); try apply W. apply (owf_feasible n m W). Qed.

Theorem oct_bottom_exact n z : ozwf n z ->
  (z_is_bot z = true <-> forall s, ~ ogamma z s).
Proof.
  intros W. destruct z as [|m]; simpl.
  - split; auto.
  - split; [discriminate|]. intros H. destruct (owf_inhabited n m W) as [s G]. destruct (H s G).
Qed.
Section Attain.
  Variable f : nat -> nat -> wt.
  Hypothesis C : closed f.
  Hypothesis Co : coherent f.
  Hypothesis Ti : tight f.
  Hypothesis Sc : scoh f.
  Variables (i j : nat) (k : Z).
  Hypothesis K : wle (Some k) (f i j).

  Definition f1 := upd_f f j i (- k).
  Definition f3 := upd_f f1 (bar i) (bar j) (- k).

  (* an odd unary entry of f3 can only come from the path through one new edge *)
  Lemma odd_entry a x : f3 a (bar a) = Some x -> Z.odd x = true ->
    exists qv rv, f a j = Some qv /\ f i (bar a) = Some rv /\ x = qv + rv - k.
  Proof.
    intros E O.
    pose proof (Sc i j) as S3.
    (* the candidates *)
    pose proof (Co a (bar i)) as C1. rewrite bar_invol in C1.       (* f a (bar i) = f i (bar a) *)
    pose proof (Co (bar j) (bar a)) as C2. rewrite !bar_invol in C2. (* f (bar j) (bar a) = f a j *)
    unfold f3, upd_f in E. fold (upd_f f j i (- k)) in E.
    assert (LO : wle (f3 a (bar a)) (wadd (wadd (f a j) (Some (- k))) (f i (bar a)))).
    { unfold f3, upd_f at 1. eapply wle_trans; [apply wmin_le_l|]. unfold f1, upd_f. apply wmin_le_r. }
    unfold f3, upd_f at 1 in LO. fold f1 in E, LO. rewrite E in LO.
    apply wmin_cases in E. destruct E as [E|E].
    - (* through f1 a (bar a) *)
      unfold f1, upd_f in E. apply wmin_cases in E. destruct E as [E|E].
      + destruct (Ti a x E) as [h ->]. rewrite Z.odd_mul in O. discriminate.
      + destruct (f a j) as [qv|], (f i (bar a)) as [rv|]; cbn [wadd] in E; inversion E.
        exists qv, rv. repeat split; auto. lia.
    - (* through both new edges *)
      unfold f1, upd_f in E. rewrite C1, C2 in E.
      apply Z.odd_spec in O. destruct O as [h Hx].
      assert (S3' : forall ui uj, f i (bar i) = Some ui -> f (bar j) j = Some uj -> 2 * k <= ui + uj).
      { intros ui uj Ui Uj. rewrite Ui, Uj in S3. cbn [wadd whalf] in S3.
        destruct (f i j) as [kij|]; cbn [wle] in *; [|tauto].
        destruct (Ti i ui Ui) as [a1 ->]. pose proof (Ti (bar j) uj) as T2. rewrite bar_invol in T2.
        destruct (T2 Uj) as [b1 ->]. replace (2 * a1 + 2 * b1) with ((a1 + b1) * 2) in S3 by lia.
        rewrite Z.div_mul in S3 by lia. lia. }
      destruct (f a j) as [qv|] eqn:Eq; destruct (f i (bar a)) as [rv|] eqn:Er;
        destruct (f i (bar i)) as [ui|] eqn:Ui; destruct (f (bar j) j) as [uj|] eqn:Uj;
        cbn [wadd wmin wle] in E, LO; try discriminate;
        try (destruct (Ti i ui Ui) as [a1 Ea1]);
        try (pose proof (Ti (bar j) uj) as T2; rewrite bar_invol in T2; destruct (T2 Uj) as [b1 Eb1]);
        try (pose proof (S3' _ _ eq_refl eq_refl) as S4);
        inversion E as [E'];
        try (exists qv, rv; repeat split; auto; lia); exfalso; lia.
  Qed.

  (* hence the tightened unary bounds of f3 stay feasible *)
  Hypothesis D3 : forall a, wle (Some 0) (wadd (f3 a (bar a)) (f3 (bar a) a)).

  Lemma f3_feasible : feasible f3.
  Proof.
    intros a. unfold uhalf. rewrite bar_invol.
    pose proof (D3 a) as D.
    destruct (f3 a (bar a)) as [x|] eqn:Ex; [|exact I].
    destruct (f3 (bar a) a) as [x'|] eqn:Ex'; [|exact I]. cbn [wadd wle] in *.
    apply half_sum; auto. intros Ox Ox' H0.
    (* both odd: each is a path through one new edge, and the sum cannot be 0 *)
    destruct (odd_entry a x Ex Ox) as [qv [rv [Eq [Er Hx]]]].
    pose proof (odd_entry (bar a) x') as OE. rewrite bar_invol in OE.
    destruct (OE Ex' Ox') as [qv' [rv' [Eq' [Er' Hx']]]].
    pose proof (C i j a) as T1. rewrite Er', Eq in T1.
    pose proof (C i j (bar a)) as T2. rewrite Er, Eq' in T2.
    pose proof (C i (bar i) a) as T3. rewrite Er' in T3. rewrite (Co a (bar i)), bar_invol, Er in T3.
    pose proof (C (bar j) j a) as T4. rewrite Eq in T4. rewrite (Co (bar j) a), bar_invol, Eq' in T4.
    pose proof (Sc i j) as S3.
    destruct (f i j) as [kij|]; cbn [wadd wle] in *; [|tauto].
    destruct (f i (bar i)) as [ui|] eqn:Ui; cbn [wle] in T3; [|tauto].
    destruct (f (bar j) j) as [uj|] eqn:Uj; cbn [wle] in T4; [|tauto].
    destruct (Ti i ui Ui) as [a1 ->]. pose proof (Ti (bar j) uj) as Tj. rewrite bar_invol in Tj.
    destruct (Tj Uj) as [b1 ->]. cbn [wadd whalf wle] in S3.
    replace (2 * a1 + 2 * b1) with ((a1 + b1) * 2) in S3 by lia. rewrite Z.div_mul in S3 by lia.
    apply Z.odd_spec in Ox. destruct Ox as [h Hh]. lia.
  Qed.
End Attain.

Lemma upd_f_ext f g a b w : (forall x y, f x y = g x y) -> forall x y, upd_f f a b w x y = upd_f g a b w x y.
Proof. intros H x y. unfold upd_f. rewrite !H. reflexivity. Qed.

(* the integer points go as far as each entry allows: add the edge j -> i of weight -k and its
   mirror image; the result is closed, coherent and, by the parity argument, feasible *)
Theorem owf_reached n m : Nat.even n = true -> owf n m -> reached oval n m.
Proof.
  intros En (Wm & Co & Ti & Sc) i j k Hi Hj K. pose proof Wm as (S & D & C).
  set (f := mget m) in *.
  assert (Hbi : (bar i < n)%nat) by (apply bar_lt; auto).
  assert (Hbj : (bar j < n)%nat) by (apply bar_lt; auto).
  set (m1 := tab n (upd_f f j i (- k))).
  assert (W1 : mwf n m1).
  { apply upd_mwf; auto. fold f. destruct (f i j); cbn [wadd wle] in *; auto. lia. }
  assert (EQ1 : forall x y, mget m1 x y = f1 f i j k x y) by (apply tab_ext, upd_support, S).
  set (m3 := tab n (upd_f (mget m1) (bar i) (bar j) (- k))).
  assert (W3 : mwf n m3).
  { apply upd_mwf; auto. rewrite EQ1. unfold f1, upd_f.
    rewrite <- (Co i j). pose proof (Sc i j) as S3. fold f in S3.
    destruct (f i j) as [kij|], (f (bar j) j) as [uj|], (f i (bar i)) as [ui|]; cbn [wadd wmin whalf wle] in *; try lia; try tauto.
    pose proof (Z.mul_div_le (ui + uj) 2 ltac:(lia)). lia. }
  assert (EQ3 : forall x y, mget m3 x y = f3 f i j k x y).
  { intros x y. unfold m3. rewrite tab_ext by (apply upd_support; apply W1).
    unfold f3. apply upd_f_ext. exact EQ1. }
  assert (G3 : forall g, gfun (mget m3) g <->
                         gfun f g /\ g i - g j <= - k /\ g (bar j) - g (bar i) <= - k).
  { intros g. unfold m3, m1, f. rewrite !upd_ggam by auto. tauto. }
  (* coherence by symmetry of the solutions *)
  assert (Co3 : coherent (mget m3)).
  { apply (coherent_of_flip n m3 En W3). intros g G. apply G3 in G. apply G3.
    split; [apply coherent_flip; tauto|]. unfold flip. rewrite !bar_invol. lia. }
  assert (Fe3 : feasible (mget m3)).
  { assert (D3 : forall a, wle (Some 0) (wadd (f3 f i j k a (bar a)) (f3 f i j k (bar a) a))).
    { intros a. rewrite <- !EQ3. pose proof (proj2 (proj2 W3) a a (bar a)) as T.
      pose proof (mwf_diag_nonneg n m3 W3 a) as T0. revert T T0.
      generalize (mget m3 a a) (wadd (mget m3 a (bar a)) (mget m3 (bar a) a)). wt_crush. }
    pose proof (f3_feasible f C Co Ti Sc i j k K D3) as F. intros a. specialize (F a).
    unfold uhalf in *. rewrite !EQ3. exact F. }
  destruct (oct_inhabited n m3 W3 Co3 Fe3) as [s G]. exists s.
  apply G3 in G. split; [tauto|lia].
Qed.

Corollary oct_entry_attained n m i j k : Nat.even n = true -> owf n m -> (i < n)%nat -> (j < n)%nat ->
  mget m i j = Some k -> exists s, gfun (mget m) (oval s) /\ oval s j - oval s i = k.
Proof. intros En W. apply (reached_attained oval n m), owf_reached; auto. Qed.

Lemma o_top_owf n : Nat.even n = true -> ozwf n (o_top n).
Proof.
  intros En. pose proof (z_top_wf n) as W. unfold o_top, z_top in *. cbn [zwf ozwf] in *.
  set (m := tab n (fun i j => if Nat.eqb i j then Some 0 else None)) in *.
  assert (Off : forall i, mget m i (bar i) = None).
  { intros i. unfold m. rewrite mget_tab, (proj2 (Nat.eqb_neq i (bar i))) by (intros X; exact (bar_neq i (eq_sym X))).
    destruct (_ && _); reflexivity. }
  split; auto. split; [|split].
  - (* every valuation is a solution *)
    apply (coherent_of_flip n m En W). intros g _. apply (z_top_ggam n (flip g)).
  - intros i k H. rewrite Off in H. discriminate.
  - intros i j. rewrite Off. apply wle_None.
Qed.

Definition mirror_closed (es : list edge) : Prop :=
  forall g, Forall (gedge_holds g) es -> Forall (gedge_holds (flip g)) es.

Lemma oct_leq_edges_mirror ts k es : ts <> [] -> oct_leq_edges ts k = Some es -> mirror_closed es.
Proof.
  unfold oct_leq_edges. destruct ts as [|[c x] [|[d y] [|]]]; try discriminate; try congruence; intros _.
  - destruct (unit_coef c); [|discriminate]. intros H. inversion H. intros g.
    rewrite !Forall_cons_iff, !Forall_nil_iff. unfold gedge_holds, flip. rewrite bar_invol. lia.
  - destruct (unit_coef c && unit_coef d); [|discriminate]. intros H. inversion H. intros g.
    rewrite !Forall_cons_iff, !Forall_nil_iff. unfold gedge_holds, flip. rewrite !bar_invol. lia.
Qed.

Lemma oct_edges_mirror c es : le_terms (lc_exp c) <> [] -> oct_edges c = Some es -> mirror_closed es.
Proof.
  intros NE. unfold oct_edges. destruct (lc_kind c).
  - destruct (oct_leq_edges (le_terms (lc_exp c)) (le_cst (lc_exp c))) as [e1|] eqn:E1; [|discriminate].
    destruct (oct_leq_edges (neg_terms (le_terms (lc_exp c))) (- le_cst (lc_exp c))) as [e2|] eqn:E2; [|discriminate].
    intros H. inversion H; subst. intros g F. apply Forall_app in F. destruct F as [F1 F2]. apply Forall_app. split.
    + apply (oct_leq_edges_mirror _ _ _ NE E1); auto.
    + refine (oct_leq_edges_mirror _ _ _ _ E2 g F2). unfold neg_terms. destruct (le_terms (lc_exp c)); simpl; congruence.
  - discriminate.
  - intros H. apply (oct_leq_edges_mirror _ _ _ NE H).
  - intros H. apply (oct_leq_edges_mirror _ _ _ NE H).
Qed.

(* closing a closed matrix whose solutions [Phi] are closed under mirroring: invariant and
   exact meaning *)
Lemma close_spec n z (Phi : (nat -> Z) -> Prop) : Nat.even n = true -> zwf n z ->
  (forall g, ggam g z <-> Phi g) -> (forall g, Phi g -> Phi (flip g)) ->
  ozwf n (o_close n z) /\ forall s, ogamma (o_close n z) s <-> Phi (oval s).
Proof.
  intros En W G M. destruct z as [|m2].
  - split; [exact I|]. intros s. apply (G (oval s)).
  - assert (Co2 : coherent (mget m2)).
    { apply (coherent_of_flip n m2 En W). intros g Gg. apply (G (flip g)), M, G, Gg. }
    split; [apply o_close_owf; auto|]. intros s. rewrite (o_close_gamma n m2 En W s). apply (G (oval s)).
Qed.

Theorem o_add_spec n c z : Nat.even n = true -> o_ok n c -> ozwf n z ->
  ozwf n (o_add n c z) /\ forall s, ogamma (o_add n c z) s <-> (ogamma z s /\ sat c s).
Proof.
  intros En (NE & es & E & F) W. unfold o_add. rewrite E.
  assert (Wz : zwf n z) by (destruct z; [exact I|apply W]).
  destruct (add_edges_spec n es z Wz F) as [W2 G2].
  destruct (close_spec n _ _ En W2 G2) as [W' G].
  - intros g [A B]. split; [|apply (oct_edges_mirror c es NE E), B].
    destruct z as [|m]; [destruct A|]. apply coherent_flip; auto. apply W.
  - split; auto. intros s. rewrite G, (oct_edges_spec c es s E). reflexivity.
Qed.

Theorem o_assume_spec n cs : Nat.even n = true -> forall z,
  Forall (o_ok n) cs -> ozwf n z ->
  ozwf n (o_assume n cs z) /\
  forall s, ogamma (o_assume n cs z) s <-> (ogamma z s /\ Forall (fun c => sat c s) cs).
Proof.
  intros En. exact (assume_list_spec (ozwf n) ogamma (o_add n) (o_ok n) (fun c z => o_add_spec n c z En) cs).
Qed.

Theorem o_entails_exact n c z : Nat.even n = true -> ozwf n z -> o_ok n c ->
  (o_entails c z = true <-> forall s, ogamma z s -> sat c s).
Proof.
  intros En W (NE & es & E & F). split; [intros H s G; eapply o_entails_sound; eauto|].
  intros H. unfold o_entails. destruct z as [|m]; auto. rewrite E.
  apply (edges_test_complete oval n m es (owf_reached n m En W) F).
  intros s G. apply (oct_edges_spec c es s E), H, G.
Qed.

Theorem o_join_owf n a b : ozwf n a -> ozwf n b -> ozwf n (o_join n a b).
Proof.
  unfold o_join. destruct a as [|x], b as [|y]; cbn [z_join ozwf]; auto.
  intros [Wx [Cx [Tx Sx]]] [Wy [Cy [Ty Sy]]].
  pose proof (z_join_wf n (ZM x) (ZM y) Wx Wy) as W. cbn [z_join zwf] in W.
  set (m := tab n (fun i j => wmax (mget x i j) (mget y i j))) in *.
  assert (E : forall i j, mget m i j = wmax (mget x i j) (mget y i j)).
  { intros i j. unfold m. apply tab_ext. intros i' j' H. rewrite (proj1 Wx) by auto. reflexivity. }
  split; auto. split; [|split].
  - intros i j. rewrite !E. rewrite (Cx i j), (Cy i j). reflexivity.
  - intros i k. rewrite E. destruct (mget x i (bar i)) as [a|] eqn:Ea, (mget y i (bar i)) as [b|] eqn:Eb;
      cbn [wmax]; try discriminate. intros H. inversion H.
    destruct (Tx i a Ea) as [ha ->]. destruct (Ty i b Eb) as [hb ->].
    destruct (Z.max_spec (2 * ha) (2 * hb)) as [[_ M]|[_ M]]; rewrite M; eauto.
  - intros i j. rewrite !E. apply wmax_lub; (eapply wle_trans; [apply Sx || apply Sy|]);
      apply whalf_mono, wadd_mono; apply wmax_le_l || apply wmax_le_r.
Qed.

Theorem o_join_least n a b c : Nat.even n = true -> ozwf n a -> ozwf n b -> zdim n c ->
  (forall s, ogamma a s -> ogamma c s) -> (forall s, ogamma b s -> ogamma c s) ->
  forall s, ogamma (o_join n a b) s -> ogamma c s.
Proof.
  intros En Wa Wb Dc Ha Hb s. unfold o_join. destruct a as [|x]; [cbn [z_join]; auto|].
  destruct b as [|y]; [cbn [z_join]; auto|]. destruct c as [|z].
  - destruct (owf_inhabited n x Wa) as [s0 G0]. destruct (Ha s0 G0).
  - apply (z_join_least_m oval n x y z); auto using owf_reached.
Qed.

Theorem o_meet_spec n a b : Nat.even n = true -> ozwf n a -> ozwf n b ->
  ozwf n (o_meet n a b) /\ forall s, ogamma (o_meet n a b) s <-> (ogamma a s /\ ogamma b s).
Proof.
  intros En Wa Wb. unfold o_meet.
  assert (Z : forall z, ozwf n z -> zwf n z /\ forall g, ggam g z -> ggam (flip g) z).
  { intros [|m] W; [split; [exact I|intros g []]|]. split; [apply W|]. intros g. apply coherent_flip. apply W. }
  destruct (z_meet_ggam n a b (proj1 (Z a Wa)) (proj1 (Z b Wb))) as [W G].
  apply (close_spec n _ _ En W G). intros g [A B]. split; apply Z; auto.
Qed.

(* the two nodes of v *)
Definition isnode (v : var) (i : nat) : bool := Nat.eqb i (pnode v) || Nat.eqb i (nnode v).

Lemma isnode_iff v i : isnode v i = true <-> varof i = v.
Proof.
  split.
  - intros H. apply orb_true_iff in H. destruct H as [H|H]; apply Nat.eqb_eq in H; subst;
      [apply varof_pnode|apply varof_nnode].
  - intros <-. unfold isnode. destruct (node_cases i) as [E|E]; rewrite <- E, Nat.eqb_refl;
      auto using orb_true_r.
Qed.
Lemma isnode_varof v i : varof i <> v -> isnode v i = false.
Proof. intros H. destruct (isnode v i) eqn:E; auto. apply isnode_iff in E. congruence. Qed.
Lemma isnode_bar v i : isnode v (bar i) = isnode v i.
Proof. apply eq_true_iff_eq. rewrite !isnode_iff, varof_bar. reflexivity. Qed.

Lemma o_forget_entries n m v : support n (mget m) -> forall i j,
  mget (forget_m n (forget_m n m (pnode v)) (nnode v)) i j = forget_f (isnode v) (mget m) i j.
Proof.
  intros S i j. rewrite forget_m_entries by apply tab_support.
  etransitivity; [|apply (forget_forget (fun i => Nat.eqb i (pnode v)))].
  unfold forget_f at 1 3. rewrite !forget_m_entries by auto. reflexivity.
Qed.

(* forgetting a set of nodes closed under [bar] keeps the octagon part of the invariant *)
Section ForgetInvariant.
  Variables (P : nat -> bool) (f : nat -> nat -> wt).
  Hypothesis PB : forall i, P (bar i) = P i.

  Lemma forget_unary i : forget_f P f i (bar i) = if P i then None else f i (bar i).
  Proof.
    unfold forget_f. rewrite (proj2 (Nat.eqb_neq i (bar i))) by (intros X; exact (bar_neq i (eq_sym X))).
    rewrite PB, orb_diag. reflexivity.
  Qed.

  Lemma forget_coherent : coherent f -> coherent (forget_f P f).
  Proof. intros Co i j. unfold forget_f. rewrite bar_eqb, !PB, (orb_comm (P j)), <- (Co i j). reflexivity. Qed.

  Lemma forget_tight : tight f -> tight (forget_f P f).
  Proof. intros Ti i k. rewrite forget_unary. destruct (P i); [discriminate|apply Ti]. Qed.

  Lemma forget_scoh : scoh f -> scoh (forget_f P f).
  Proof.
    intros Sc i j. pose proof (forget_unary (bar j)) as X. rewrite bar_invol, PB in X.
    rewrite forget_unary, X. destruct (P i) eqn:Pi; [apply wle_None|].
    destruct (P j) eqn:Pj; [rewrite wadd_None_r; apply wle_None|].
    rewrite forget_f_off by auto. apply Sc.
  Qed.
End ForgetInvariant.

Theorem o_forget1_owf n z v : ozwf n z -> ozwf n (o_forget1 n z v).
Proof.
  destruct z as [|m]; cbn [o_forget1 ozwf]; auto. intros (Wm & Co & Ti & Sc).
  pose proof (o_forget_entries n m v (proj1 Wm)) as E.
  split; [apply forget_m_mwf, forget_m_mwf, Wm|]. split; [|split]; intros i j; rewrite !E.
  - apply forget_coherent; auto using isnode_bar.
  - apply forget_tight; auto using isnode_bar.
  - apply forget_scoh; auto using isnode_bar.
Qed.

Theorem o_forget1_exact n z v s' : Nat.even n = true -> ozwf n z -> (nnode v < n)%nat ->
  (ogamma (o_forget1 n z v) s' <-> exists s, ogamma z s /\ forall k, k <> v -> s' k = s k).
Proof.
  intros En W Hv. split; [|intros (s & G & E); apply (o_forget1_sound n z v s s' G E)].
  destruct z as [|m]; [intros []|]. unfold ogamma. cbn [o_forget1 ggam]. intros G.
  pose proof W as (Wm & Co & Ti & Sc). pose proof Wm as (S & D & C).
  (* the other variables keep their value, v is given the value of the extension lemma *)
  set (L := filter (fun y => negb (N.eqb y v)) (map N.of_nat (seq 0 n))).
  assert (IL : forall y, In y L -> y <> v).
  { intros y I. apply filter_In in I. apply N.eqb_neq, negb_true_iff, I. }
  assert (SL : sat_onv (mget m) L s').
  { intros i j k Ii Ij E. apply (G i j k).
    rewrite o_forget_entries, forget_f_off; auto using isnode_varof. }
  pose proof (owf_feasible n m W (pnode v)) as Fe. rewrite bar_pnode in Fe.
  destruct (oct_extend (mget m) n C Co S L s' v (fun I => IL v I eq_refl) SL Fe
              (mwf_diag_nonneg n m Wm _) (mwf_diag_nonneg n m Wm _)) as [X HX].
  exists (upd s' v X). split; [|intros k Hk; symmetry; apply upd_other, Hk].
  intros i j k E. destruct (support_lt n _ i j k S E).
  assert (IN : forall a, (a < n)%nat -> In (varof a) (v :: L)).
  { intros a Ha. destruct (N.eq_dec (varof a) v) as [->|Na]; [left; auto|right].
    apply filter_In. split; [apply var_range_in; auto|]. apply negb_true_iff, N.eqb_neq, Na. }
  apply (HX i j k); auto.
Qed.

Theorem o_forget_owf n vs : forall z, ozwf n z -> ozwf n (o_forget n vs z).
Proof. exact (forget_list_wf (ozwf n) (o_forget1 n) (o_forget1_owf n) vs). Qed.

Theorem o_forget_exact n vs : Nat.even n = true -> forall z s', ozwf n z ->
  Forall (fun v => (nnode v < n)%nat) vs ->
  (ogamma (o_forget n vs z) s' <-> exists s, ogamma z s /\ store_eq_off vs s s').
Proof.
  intros En.
  exact (forget_list_exact (ozwf n) ogamma (o_forget1 n) _ ogamma_ext (o_forget1_owf n)
           (fun z v s' => o_forget1_exact n z v s' En) vs).
Qed.

Lemma odelta_bar x k i : odelta x k (bar i) = - odelta x k i.
Proof.
  unfold odelta. destruct (Nat.eqb_spec i (pnode x)) as [->|N1].
  - rewrite bar_pnode, Nat.eqb_refl. destruct (Nat.eqb_spec (nnode x) (pnode x)) as [E|E]; [|reflexivity].
    unfold pnode, nnode in E. lia.
  - destruct (Nat.eqb_spec i (nnode x)) as [->|N2].
    + rewrite bar_nnode, Nat.eqb_refl. lia.
    + pose proof (isnode_bar x i) as B. unfold isnode in B.
      rewrite (proj2 (Nat.eqb_neq _ _) N1), (proj2 (Nat.eqb_neq _ _) N2) in B.
      apply orb_false_iff in B. destruct B as [-> ->]. reflexivity.
Qed.

Lemma oshift_spec n m x k s' : support n (mget m) ->
  (gfun (mget (oshift_m n m x k)) (oval s') <-> gfun (mget m) (oval (upd s' x (s' x - k)))).
Proof.
  intros S. etransitivity; [apply (shift_ggam n m (odelta x k)), S|].
  assert (V : forall q, oval (upd s' x (s' x - k)) q = oval s' q - odelta x k q).
  { intros q. pose proof (oval_shift s' x (- k) q) as X. replace (s' x + - k) with (s' x - k) in X by lia.
    rewrite X. unfold odelta. destruct (Nat.eqb q (pnode x)); [lia|]. destruct (Nat.eqb q (nnode x)); lia. }
  split; apply gfun_ext; intros q; rewrite V; reflexivity.
Qed.

Lemma oshift_owf n m x k : owf n m -> owf n (oshift_m n m x k).
Proof.
  intros (Wm & Co & Ti & Sc).
  assert (E : forall i j, mget (oshift_m n m x k) i j = wadd (mget m i j) (Some (odelta x k j - odelta x k i))).
  { apply (tab_ext n (fun i j => wadd (mget m i j) (Some (odelta x k j - odelta x k i)))).
    intros i j H. rewrite (proj1 Wm) by auto. reflexivity. }
  split; [apply (shift_mwf n m (odelta x k)), Wm|split; [|split]].
  - intros i j. rewrite !E. rewrite (Co i j), !odelta_bar. f_equal. f_equal. lia.
  - intros i w. rewrite E. destruct (mget m i (bar i)) as [a|] eqn:Ea; cbn [wadd]; [|discriminate].
    intros H. inversion H. destruct (Ti i a Ea) as [h ->]. rewrite odelta_bar.
    exists (h - odelta x k i). lia.
  - intros i j. rewrite !E. rewrite !odelta_bar. pose proof (Sc i j) as S0. revert S0.
    generalize (mget m i j) (mget m i (bar i)) (mget m (bar j) j). intros a b c.
    destruct a as [a|], b as [b|], c as [c|]; cbn [wadd whalf wle]; try tauto. intros S0.
    replace (b + (- odelta x k i - odelta x k i) + (c + (odelta x k j - - odelta x k j)))
      with (b + c + (odelta x k j - odelta x k i) * 2) by lia.
    rewrite Z.div_add by lia. lia.
Qed.

Lemma o_ok_unary n x k : (nnode x < n)%nat -> o_ok n (mkLC EQ (mkLE [(1, x)] k)).
Proof.
  intros H. split; [simpl; congruence|]. eexists. split; [reflexivity|].
  pose proof (pnode_lt n x H). repeat constructor; cbn [lit Z.eqb]; rewrite ?bar_pnode, ?bar_nnode; auto.
Qed.

Lemma o_ok_binary n x c y k : (nnode x < n)%nat -> (nnode y < n)%nat -> unit_coef c = true ->
  o_ok n (mkLC EQ (mkLE [(1, x); (- c, y)] k)).
Proof.
  intros Hx Hy U. split; [simpl; congruence|].
  pose proof (pnode_lt n x Hx). pose proof (pnode_lt n y Hy).
  assert (U' : unit_coef (- c) = true).
  { unfold unit_coef in *. destruct (Z.eqb_spec c 1); [subst; reflexivity|].
    destruct (Z.eqb_spec c (-1)); [subst; reflexivity|discriminate]. }
  assert (U'' : unit_coef (- - c) = true) by (rewrite Z.opp_involutive; auto).
  unfold oct_edges, oct_leq_edges, neg_terms. cbn [lc_kind lc_exp le_terms le_cst map fst snd].
  change (unit_coef 1) with true. change (unit_coef (-1)) with true. rewrite U', U''. cbn [andb].
  eexists. split; [reflexivity|].
  assert (L : forall d z, (nnode z < n)%nat -> (lit d z < n)%nat /\ (bar (lit d z) < n)%nat).
  { intros d z Hz. pose proof (pnode_lt n z Hz). unfold lit. destruct (d =? 1); rewrite ?bar_pnode, ?bar_nnode; auto. }
  repeat constructor; cbn [app]; apply L; auto.
Qed.

Theorem o_assign_spec n x e z : Nat.even n = true -> oa_ok n x e -> ozwf n z ->
  ozwf n (o_assign n x e z) /\
  forall s', ogamma (o_assign n x e z) s' <->
             exists s, ogamma z s /\ store_eq s' (upd s x (eval_le e s)).
Proof.
  intros En [Hx F] W. unfold o_assign, eval_le.
  pose proof (o_forget1_owf n z x W) as Wf.
  pose proof (fun s' => o_forget1_exact n z x s' En W Hx) as FG.
  destruct F as [T|(c & y & T & U & Hy & XY)]; rewrite T; cbn [eval_terms].
  - (* x := k *)
    destruct (o_add_spec n _ _ En (o_ok_unary n x (- le_cst e) Hx) Wf) as [W' G]. split; auto.
    intros s'. rewrite <- (assign_by_forget (ogamma z) x (fun _ => 0 + le_cst e) s') by auto.
    rewrite G, FG. apply and_iff_compat_l. unfold sat, eval_le. cbn [lc_kind lc_exp le_terms le_cst eval_terms]. lia.
  - rewrite U. destruct (N.eqb_spec x y) as [<-|N].
    + (* x := x + k *)
      destruct XY as [XY|XY]; [congruence|]. subst c. cbn [Z.eqb].
      destruct z as [|m]; [split; [exact I|]; intros s'; split; [intros []|intros (s & [] & _)]|].
      split; [apply oshift_owf; auto|]. intros s'.
      assert (EQ : forall s : store, 1 * s x + 0 + le_cst e = s x + le_cst e) by (intros; lia).
      setoid_rewrite EQ. rewrite <- (assign_by_shift (ogamma (ZM m)) x (le_cst e) s' (ogamma_ext _)).
      apply oshift_spec, W.
    + (* x := c y + k *)
      destruct (o_add_spec n _ _ En (o_ok_binary n x c y (- le_cst e) Hx Hy U) Wf) as [W' G]. split; auto.
      intros s'. rewrite <- (assign_by_forget (ogamma z) x (fun s => c * s y + 0 + le_cst e) s').
      * rewrite G, FG. apply and_iff_compat_l. unfold sat, eval_le.
        cbn [lc_kind lc_exp le_terms le_cst eval_terms]. lia.
      * intros s E. rewrite (E y) by congruence. reflexivity.
Qed.

Theorem oct_exact_dom n : Nat.even n = true ->
  exact_dom (oct_dom n) (ozwf n) ogamma (o_ok n) (oa_ok n) (fun v => (nnode v < n)%nat).
Proof.
  intros En. constructor; cbn [oct_dom g_top g_bot g_assume g_assign g_forget g_join g_meet].
  - apply o_top_owf; auto.
  - apply (sd_top _ _ _ (oct_sound_dom n)).
  - exact I.
  - intros s [].
  - intros cs z F W. apply o_assume_spec; auto.
  - intros x e z O W. apply o_assign_spec; auto.
  - intros vs z F W. split; [apply o_forget_owf; auto|]. intros s'. apply o_forget_exact; auto.
  - intros a b Wa Wb. split; [apply o_join_owf; auto|]. split.
    + intros s. apply o_join_sound.
    + intros c Wc. apply o_join_least; auto. destruct c; [exact I|apply Wc].
  - intros a b Wa Wb. apply o_meet_spec; auto.
Qed.

(* Full statement of the octagon part of C12: there is an invariant, established by top and
   kept by every operation of the language, under which every operation is exact, bottom
   means "no integer point" and entails means "implied over the integers". *)
Definition C12_oct_exact_statement : Prop :=
  forall n, Nat.even n = true ->
  exists wf : zone -> Prop,
    exact_dom (oct_dom n) wf ogamma (o_ok n) (oa_ok n) (fun v => (nnode v < n)%nat) /\
    (forall z, wf z -> (z_is_bot z = true <-> forall s, ~ ogamma z s)) /\
    (forall z c, wf z -> o_ok n c -> (o_entails c z = true <-> forall s, ogamma z s -> sat c s)).

Theorem oct_exact : C12_oct_exact_statement.
Proof.
  intros n En. exists (ozwf n). split; [apply oct_exact_dom; auto|]. split.
  - intros z W. apply (oct_bottom_exact n z W).
  - intros z c W O. apply (o_entails_exact n c z En W O).
Qed.

Theorem oct_conjunction_exact n cs : Nat.even n = true -> Forall (o_ok n) cs ->
  let z := o_assume n cs (o_top n) in
  (z_is_bot z = true <-> forall s, ~ Forall (fun c => sat c s) cs) /\
  (forall c, o_ok n c ->
     (o_entails c z = true <-> forall s, Forall (fun c => sat c s) cs -> sat c s)).
Proof.
  intros En. apply (conjunction_exact _ _ _ _ _ _ (oct_exact_dom n En) z_is_bot o_entails).
  - intros z. apply oct_bottom_exact.
  - intros c z. apply o_entails_exact, En.
Qed.

(* non-vacuity: integer tightening derives x <= 0 from x + y <= 1 and x - y <= 0, and detects
   that x + y = 1, x - y = 0 has no integer point *)
Example oct_example :
  let z := o_assume 4 [mkLC INEQ (mkLE [(1, 0%N); (1, 1%N)] (-1)); mkLC INEQ (mkLE [(1, 0%N); (-1, 1%N)] 0)] (o_top 4) in
  z_is_bot z = false /\ o_upper z 0%N = Some 0 /\
  o_entails (mkLC INEQ (mkLE [(1, 0%N)] 0)) z = true /\
  o_entails (mkLC INEQ (mkLE [(1, 0%N)] 1)) z = false /\
  z_is_bot (o_assume 4 [mkLC EQ (mkLE [(1, 0%N); (1, 1%N)] (-1)); mkLC EQ (mkLE [(1, 0%N); (-1, 1%N)] 0)] (o_top 4)) = true.
Proof. vm_compute. repeat split; reflexivity. Qed.
