(* ItvExact.v — property C12 for the interval language (+-x <= k, < and = over the integers)
   on the MIRROR model of ikos::interval_domain (Dom/ItvDomain.v with the linear interval
   solver of Dom/ItvSolver.v): after assuming any list of constraints of the language the
   value is bottom exactly when they are unsatisfiable, its points are exactly the points
   of the old value that satisfy them, entails answers yes exactly when the constraint is
   implied, join is the least environment above both operands, meet and forget are exact.
   Unbounded: all environments whose stored intervals are well formed and non-empty (an
   invariant that the operations of the property keep: [ihrun_wf]), all constants, all lists
   of constraints. *)
From Coq Require Import ZArith NArith List Bool Lia.
From CrabV Require Import Base.ZInf Scalar.Itv Scalar.ItvSound Scalar.ItvTight Ir.Syntax
     Dom.ItvEnv Dom.ItvEnvSound Dom.ItvEnvWiden Dom.ItvSolver Dom.ItvSolverInv Dom.ItvSolverSound
     Dom.ItvDomain Dom.ItvDomainSound.
Import ListNotations.
Local Open Scope Z_scope.

Definition iwf (i : itv) : Prop := wf i /\ is_bot i = false.

Lemma iwf_top : iwf itop.
Proof. split; [apply wf_top|reflexivity]. Qed.

Lemma iwf_inhabited i : iwf i -> exists z, gamma i z.
Proof. intros [W B]. apply wf_inhabited; auto. Qed.

Lemma iwf_of_gamma i z : wf i -> gamma i z -> iwf i.
Proof. intros W G. split; auto. eapply gamma_not_bot; eauto. Qed.

(* the only good interval that tests top is [itop], so [put] stores good intervals as they are *)
Lemma iwf_is_top v : iwf v -> is_top v = true -> v = itop.
Proof.
  intros [W B] T. destruct (wf_nonbot _ W B) as (H1 & H2 & _).
  destruct v as [[] []]; simpl in *; try discriminate; try congruence. reflexivity.
Qed.

Lemma iwf_norm v : iwf v -> norm v = v.
Proof. intros W. unfold norm. destruct (is_top v) eqn:T; auto. symmetry. apply iwf_is_top; auto. Qed.

Definition mwfI (m : amap) : Prop := forall k, iwf (get m k).
Definition ewf (e : env) : Prop := match e with EBot => True | EMap m => mwfI m end.

Lemma get_put_iwf m k v : iwf v -> get (put m k v) k = v.
Proof. intros W. rewrite get_put_same. apply iwf_norm, W. Qed.

Lemma mwfI_put m k v : mwfI m -> iwf v -> mwfI (put m k v).
Proof.
  intros M W k'. destruct (N.eq_dec k' k) as [->|N].
  - rewrite get_put_iwf; auto.
  - rewrite get_put_other by auto. apply M.
Qed.

Lemma mwfI_remove m k : mwfI m -> mwfI (remove m k).
Proof.
  intros M k'. destruct (N.eq_dec k' k) as [->|N].
  - rewrite get_remove_same. apply iwf_top.
  - rewrite get_remove_other by auto. apply M.
Qed.

Lemma mwfI_nil : mwfI [].
Proof. intros k. apply iwf_top. Qed.

(* a representative of each stored interval *)
Definition pick_itv (i : itv) : Z :=
  match lb i, ub i with
  | Fin l, _ => l
  | _, Fin u => u
  | _, _ => 0
  end.

Lemma pick_itv_in i : iwf i -> gamma i (pick_itv i).
Proof.
  intros [W B]. destruct (wf_nonbot _ W B) as (H1 & H2 & H3).
  unfold gamma, pick_itv. destruct (lb i), (ub i); simpl in *; try congruence; auto;
    rewrite ?Z.leb_refl; auto.
Qed.

Lemma mwfI_inhabited m : mwfI m -> exists s, gmap m s.
Proof. intros M. exists (fun k => pick_itv (get m k)). intros k. apply pick_itv_in. apply M. Qed.

(* membership is independent per variable *)
Lemma gmap_upd m s k z : gmap m s -> gamma (get m k) z -> gmap m (upd s k z).
Proof.
  intros G Z k'. destruct (N.eq_dec k' k) as [->|N].
  - rewrite upd_same. auto.
  - rewrite upd_other by auto. apply G.
Qed.

(* bottom exactly when there is no store *)
Theorem e_bottom_exact e : ewf e -> (e_is_bot e = true <-> forall s, ~ genv e s).
Proof.
  destruct e as [|m]; simpl; intros W.
  - split; auto.
  - split; [discriminate|]. intros H. destruct (mwfI_inhabited m W) as [s G]. destruct (H s G).
Qed.

(* inclusion of the point sets is pointwise inclusion of the intervals *)
Lemma genv_incl_pointwise ma mc :
  mwfI ma -> (forall s, gmap ma s -> gmap mc s) ->
  forall k z, gamma (get ma k) z -> gamma (get mc k) z.
Proof.
  intros M H k z G. destruct (mwfI_inhabited ma M) as [s0 G0].
  specialize (H _ (gmap_upd ma s0 k z G0 G) k). rewrite upd_same in H. exact H.
Qed.

(* a merge that produces good intervals on the keys is [comb] at every key *)
Lemma merge_get ab f x y m :
  (forall k, In k (keys x ++ keys y) -> iwf (comb ab true f x y k)) ->
  merge ab f x y = Some m -> mwfI m /\ forall k, get m k = comb ab true f x y k.
Proof.
  unfold merge. intros W E.
  assert (G : forall k, get m k = comb ab true f x y k /\ iwf (get m k)).
  { intros k. destruct (build_get _ _ _ _ E k) as [I1 I2].
    destruct (in_dec N.eq_dec k (keys x ++ keys y)) as [I|I].
    - rewrite (I1 I), (iwf_norm _ (W k I)). auto.
    - rewrite (I2 I). split; [|apply iwf_top]. unfold comb.
      rewrite (get_not_key x k), (get_not_key y k) by (intros J; apply I, in_or_app; auto).
      destruct ab; reflexivity. }
  split; intros k; apply G.
Qed.

Lemma comb_join_iwf a b k : mwfI a -> mwfI b -> iwf (comb true true ijoin a b k).
Proof.
  intros A B. unfold comb. destruct (is_top (get a k)); [apply iwf_top|].
  destruct (is_top (get b k)); [apply iwf_top|].
  destruct (iwf_inhabited _ (A k)) as [z Z].
  apply (iwf_of_gamma _ z); [apply wf_ijoin; [apply A|apply B]|apply ijoin_sound_l; auto].
Qed.

Theorem e_join_wf a b : ewf a -> ewf b -> ewf (e_join a b).
Proof.
  destruct a as [|x], b as [|y]; simpl; auto. intros A B.
  destruct (merge true ijoin x y) as [m|] eqn:E; simpl; auto.
  apply (merge_get _ _ _ _ _ (fun k _ => comb_join_iwf x y k A B) E).
Qed.

Theorem e_join_least a b c : ewf a -> ewf b ->
  (forall s, genv a s -> genv c s) -> (forall s, genv b s -> genv c s) ->
  forall s, genv (e_join a b) s -> genv c s.
Proof.
  intros Wa Wb Ha Hb s. destruct a as [|x], b as [|y]; simpl; auto; try tauto.
  simpl in Wa, Wb. destruct (merge true ijoin x y) as [m|] eqn:E; simpl; [|tauto].
  intros Gm. destruct c as [|mc].
  - destruct (mwfI_inhabited x Wa) as [s0 G0]. destruct (Ha s0 G0).
  - simpl in *. intros k.
    pose proof (genv_incl_pointwise x mc Wa Ha k) as Pa.
    pose proof (genv_incl_pointwise y mc Wb Hb k) as Pb.
    specialize (Gm k).
    rewrite (proj2 (merge_get _ _ _ _ _ (fun k _ => comb_join_iwf x y k Wa Wb) E)) in Gm.
    unfold comb in Gm.
    destruct (is_top (get x k)) eqn:Tx.
    { apply Pa. rewrite (iwf_is_top _ (Wa k) Tx). exact Gm. }
    destruct (is_top (get y k)) eqn:Ty.
    { apply Pb. rewrite (iwf_is_top _ (Wb k) Ty). exact Gm. }
    assert (L : ileq (ijoin (get x k) (get y k)) (get mc k) = true).
    { apply ijoin_tight; [apply Wa|apply Wb|]. intros z [Z|Z]; auto. }
    apply (ileq_sound _ _ L). exact Gm.
Qed.

Lemma comb_meet_gamma a b k z : mwfI a -> mwfI b ->
  (gamma (comb false true imeet a b k) z <-> (gamma (get a k) z /\ gamma (get b k) z)).
Proof.
  intros A B. unfold comb. destruct (is_top (get a k)) eqn:Ta.
  - rewrite (iwf_is_top _ (A k) Ta). pose proof (gamma_top z). tauto.
  - destruct (is_top (get b k)) eqn:Tb.
    + rewrite (iwf_is_top _ (B k) Tb). pose proof (gamma_top z). tauto.
    + apply imeet_exact.
Qed.

Lemma comb_meet_wf a b k : mwfI a -> mwfI b -> wf (comb false true imeet a b k).
Proof.
  intros A B. unfold comb. destruct (is_top (get a k)); [apply B|].
  destruct (is_top (get b k)); [apply A|]. apply wf_imeet; [apply A|apply B].
Qed.

Theorem e_meet_exact a b : ewf a -> ewf b ->
  ewf (e_meet a b) /\ forall s, genv (e_meet a b) s <-> (genv a s /\ genv b s).
Proof.
  intros A B.
  assert (BACK : forall s, genv a s /\ genv b s -> genv (e_meet a b) s).
  { intros s [Ga Gb]. apply e_meet_sound; auto. }
  destruct a as [|x], b as [|y]; simpl in *; try (split; [exact I|intros; tauto]).
  destruct (merge false imeet x y) as [m|] eqn:E; simpl in *.
  - assert (W : forall k, In k (keys x ++ keys y) -> iwf (comb false true imeet x y k)).
    { intros k I. split; [apply comb_meet_wf; auto|].
      destruct (is_bot (comb false true imeet x y k)) eqn:Bk; auto.
      assert (N : merge false imeet x y = None) by (apply build_none; eauto). congruence. }
    destruct (merge_get _ _ _ _ _ W E) as [M G]. split; auto.
    intros s. split; [|apply BACK]. intros H.
    split; intros k; specialize (H k); rewrite G in H; apply comb_meet_gamma in H; tauto.
  - split; auto. intros s. split; [tauto|apply BACK].
Qed.

Definition off_eq (vs : list var) (s s' : store) : Prop := forall k, ~ In k vs -> s' k = s k.

Lemma fold_forget_spec vs : forall m,
  mwfI m ->
  match fold_left e_forget vs (EMap m) with
  | EBot => False
  | EMap m' => mwfI m' /\ forall k, get m' k = if in_dec N.eq_dec k vs then itop else get m k
  end.
Proof.
  induction vs as [|v r IH]; intros m M; simpl.
  - split; auto.
  - specialize (IH (remove m v) (mwfI_remove m v M)).
    destruct (fold_left e_forget r (EMap (remove m v))) as [|m']; auto.
    destruct IH as [M' G]. split; auto. intros k. rewrite G.
    destruct (in_dec N.eq_dec k r) as [I|I].
    + destruct (N.eq_dec v k); auto.
    + destruct (N.eq_dec v k) as [->|N].
      * apply get_remove_same.
      * apply get_remove_other. auto.
Qed.

Theorem d_forget_exact vs e : ewf e ->
  ewf (d_forget vs e) /\
  forall s', genv (d_forget vs e) s' <-> exists s, genv e s /\ off_eq vs s s'.
Proof.
  intros W.
  assert (BACK : forall s', (exists s, genv e s /\ off_eq vs s s') -> genv (d_forget vs e) s').
  { intros s' [s [Gs E]]. exact (d_forget_sound vs e s s' Gs E). }
  unfold d_forget in *. destruct e as [|m]; simpl in *.
  - split; auto. intros s'. split; [tauto|apply BACK].
  - destruct (forallb (fun k => is_top (get m k)) (keys m)) eqn:T.
    + split; auto. intros s'. split; [|apply BACK].
      intros G. exists s'. split; auto. intros k _. reflexivity.
    + pose proof (fold_forget_spec vs m W) as F.
      destruct (fold_left e_forget vs (EMap m)) as [|m']; [tauto|]. destruct F as [M' G].
      split; auto. intros s'. split; [|apply BACK].
      (* the forgotten variables take the values of any store of the old value *)
      intros Gs. destruct (mwfI_inhabited m W) as [s0 G0].
      exists (fun k => if in_dec N.eq_dec k vs then s0 k else s' k). split.
      * intros k. destruct (in_dec N.eq_dec k vs) as [I|I]; auto.
        specialize (Gs k). rewrite G in Gs. destruct (in_dec N.eq_dec k vs); tauto.
      * intros k Hk. destruct (in_dec N.eq_dec k vs); tauto.
Qed.

(* unit-coefficient one-variable constraints *)
Definition unit1 (a : Z) : Prop := a = 1 \/ a = -1.

(* entries of the solver's table: INEQ / EQ / DISEQ over one variable *)
Definition ut (t : lincst) (a : Z) (x : var) : Prop :=
  le_terms (lc_exp t) = [(a, x)] /\ unit1 a.

Lemma is_top_iconst q : is_top (iconst q) = false.
Proof. reflexivity. Qed.
Lemma imk_fin_same q : imk (Fin q) (Fin q) = iconst q.
Proof. unfold imk, bgt; simpl. rewrite Z.leb_refl. reflexivity. Qed.

(* one unfolding of [idiv_f] is enough: a singleton divisor never reaches the recursive case *)
Lemma idiv_unit q a : unit1 a -> idiv (iconst q) (iconst a) = iconst (a * q).
Proof.
  intros U. unfold idiv. generalize 3%nat. intros f. cbn [idiv_f].
  rewrite !is_bot_iconst, isingleton_iconst.
  destruct U as [-> | ->]; cbn [orb Z.eqb Z.ltb Z.compare Pos.eqb lb ub iconst bdiv].
  - f_equal; lia.
  - change (-1) with (- (1)). rewrite Z.quot_opp_r, Z.quot_1_r by discriminate.
    rewrite imk_fin_same. f_equal; lia.
Qed.

Lemma imul_iconst p a : imul (iconst p) (iconst a) = iconst (p * a).
Proof.
  unfold imul. rewrite !is_bot_iconst. cbn [orb lb ub iconst]. rewrite bmul_fin.
  unfold bmin4, bmax4, bmin, bmax. repeat rewrite ble_refl. apply imk_fin_same.
Qed.

Lemma ieq_iconst q : ieq (iconst q) (iconst q) = true.
Proof. unfold ieq. rewrite is_bot_iconst. simpl. rewrite Z.eqb_refl. reflexivity. Qed.

(* what one table entry does to the interval of its variable *)
Definition refine_itv (t : lincst) (a : Z) : itv :=
  let q := a * - le_cst (lc_exp t) in
  match lc_kind t with
  | EQ => iconst q
  | INEQ => if 0 <? a then ilower_half (iconst q) else iupper_half (iconst q)
  | _ => itop
  end.

Definition entry_itv (t : lincst) (a : Z) (old : itv) : itv :=
  match lc_kind t with
  | DISEQ => itrim old (iconst (a * - le_cst (lc_exp t)))
  | STRICT => old
  | _ => imeet old (refine_itv t a)
  end.

Lemma compute_residual_ut t a x st : ut t a x ->
  compute_residual t x st = (iconst (- le_cst (lc_exp t)), s_ops st).
Proof.
  intros [T _]. unfold compute_residual. rewrite T. simpl. rewrite N.eqb_refl. reflexivity.
Qed.

Lemma wf_ub_ne_MInf i : wf i -> ub i <> MInf.
Proof. intros [->|[_ [H _]]]; auto. simpl. congruence. Qed.
Lemma wf_lb_ne_PInf i : wf i -> lb i <> PInf.
Proof. intros [->|[H _]]; auto. simpl. congruence. Qed.

Lemma wf_itrim i j : wf i -> wf (itrim i j).
Proof.
  intros W. unfold itrim. destruct (isingleton j); auto.
  destruct (beqb (lb i) (Fin z)).
  - apply wf_imk; [congruence|apply wf_ub_ne_MInf; auto].
  - destruct (beqb (ub i) (Fin z)); auto.
    apply wf_imk; [apply wf_lb_ne_PInf; auto|congruence].
Qed.

Lemma itrim_sub i j z : gamma (itrim i j) z -> gamma i z.
Proof.
  unfold itrim. destruct (isingleton j); auto.
  destruct (beqb (lb i) (Fin z0)) eqn:E1.
  - intros G. apply gamma_imk_elim in G. destruct G as [G1 G2]. apply beqb_eq in E1.
    split; auto. rewrite E1. simpl in *. apply Z.leb_le. apply Z.leb_le in G1. lia.
  - destruct (beqb (ub i) (Fin z0)) eqn:E2; auto.
    intros G. apply gamma_imk_elim in G. destruct G as [G1 G2]. apply beqb_eq in E2.
    split; auto. rewrite E2. simpl in *. apply Z.leb_le. apply Z.leb_le in G2. lia.
Qed.

Lemma wf_refine_itv t a : wf (refine_itv t a).
Proof.
  unfold refine_itv. destruct (lc_kind t); try apply wf_top; try apply wf_iconst.
  destruct (0 <? a); unfold ilower_half, iupper_half; apply wf_imk; simpl; congruence.
Qed.

Lemma wf_entry_itv t a old : wf old -> wf (entry_itv t a old).
Proof.
  intros W. unfold entry_itv. destruct (lc_kind t); auto using wf_itrim, wf_imeet, wf_refine_itv.
Qed.

(* the solver writes the new interval [nw] of x unless it tests equal to the old one, and
   equal non-empty intervals are the same: either way x is now bound to [nw] and nothing
   else has changed *)
Definition sets (m : amap) (x : var) (nw : itv) (m' : amap) : Prop :=
  get m' x = nw /\ forall k, k <> x -> get m' k = get m k.

Lemma ieq_eq a b : is_bot a = false -> ieq a b = true -> a = b.
Proof.
  unfold ieq. intros -> H. apply andb_true_iff in H. destruct H as [H1 H2].
  apply beqb_eq in H1, H2. destruct a, b; simpl in *; congruence.
Qed.

Lemma sets_if_changed m x nw : iwf (get m x) -> iwf nw ->
  sets m x nw (if negb (ieq (get m x) nw) then put m x nw else m).
Proof.
  intros Wo Wn. destruct (ieq (get m x) nw) eqn:Q; cbn [negb].
  - split; auto. apply ieq_eq; auto. apply Wo.
  - split; [apply get_put_iwf; auto|intros k Hk; apply get_put_other; auto].
Qed.

(* s_refine: None iff the meet is empty; otherwise v is bound to the meet *)
Lemma s_refine_spec v i st : iwf (get (s_map st) v) -> wf i ->
  match s_refine v i st with
  | None => is_bot (imeet (get (s_map st) v) i) = true
  | Some st' => is_bot (imeet (get (s_map st) v) i) = false /\
                sets (s_map st) v (imeet (get (s_map st) v) i) (s_map st')
  end.
Proof.
  intros Wo Wi. unfold s_refine. set (old := get (s_map st) v).
  destruct (is_bot (imeet old i)) eqn:B; auto.
  assert (Wn : iwf (imeet old i)) by (split; auto; apply wf_imeet; auto; apply Wo).
  pose proof (sets_if_changed (s_map st) v _ Wo Wn) as S. fold old in S.
  destruct (negb (ieq old (imeet old i))); auto.
Qed.

(* after propagating a table entry: None iff the new interval is empty; otherwise x is bound
   to [entry_itv] *)
Lemma propagate_ut t a x st : ut t a x -> lc_kind t <> STRICT -> iwf (get (s_map st) x) ->
  match propagate t st with
  | None => is_bot (entry_itv t a (get (s_map st) x)) = true
  | Some st' => is_bot (entry_itv t a (get (s_map st) x)) = false /\
                sets (s_map st) x (entry_itv t a (get (s_map st) x)) (s_map st')
  end.
Proof.
  intros U NS Wo. pose proof U as [T Ua]. unfold propagate. rewrite T. cbn [propagate_terms].
  unfold propagate_term. rewrite (compute_residual_ut t a x st U). cbn [s_map s_refined s_ops].
  rewrite is_top_iconst. rewrite (idiv_unit _ a Ua). rewrite imul_iconst.
  replace (a * - le_cst (lc_exp t) * a) with (- le_cst (lc_exp t)) by (destruct Ua; subst; lia).
  rewrite ieq_iconst. unfold entry_itv.
  set (st0 := {| s_map := s_map st; s_refined := s_refined st; s_ops := s_ops st |}).
  set (old := get (s_map st) x) in *.
  assert (REF : forall i, wf i ->
    match (match s_refine x i st0 with Some st' => Some st' | None => None end) with
    | None => is_bot (imeet old i) = true
    | Some st' => is_bot (imeet old i) = false /\ sets (s_map st) x (imeet old i) (s_map st')
    end).
  { intros i Wi. pose proof (s_refine_spec x i st0 Wo Wi) as R. destruct (s_refine x i st0); auto. }
  destruct (lc_kind t) eqn:K; try congruence.
  - (* EQ *) unfold refine_itv. rewrite K. apply REF. apply wf_iconst.
  - (* DISEQ *)
    set (nw := itrim old (iconst (a * - le_cst (lc_exp t)))).
    destruct (is_bot nw) eqn:B; auto.
    assert (Wn : iwf nw) by (split; auto; apply wf_itrim; apply Wo).
    pose proof (sets_if_changed (s_map st) x nw Wo Wn) as S. fold old in S.
    destruct (negb (ieq old nw)); auto.
  - (* INEQ *)
    pose proof (wf_refine_itv t a) as Wr. unfold refine_itv in *. rewrite K in *.
    destruct (0 <? a); apply REF; auto.
Qed.

(* every step of the solver keeps the intervals well formed and only shrinks them *)
Definition shr (st st' : sst) : Prop :=
  forall k z, gamma (get (s_map st') k) z -> gamma (get (s_map st) k) z.
Definition entry (t : lincst) : Prop := exists a x, ut t a x /\ lc_kind t <> STRICT.

Lemma shr_refl st : shr st st. Proof. intros k z; auto. Qed.
Lemma shr_trans a b c : shr a b -> shr b c -> shr a c.
Proof. intros H1 H2 k z G. apply H1. apply H2. auto. Qed.
Lemma reset_shr st st' : shr (mkS (s_map st) [] (s_ops st)) st' -> shr st st'.
Proof. auto. Qed.

(* the invariant of ItvSolverInv: a well-formed map within that of [st] *)
Definition below (st : sst) (m' : amap) : Prop := mwfI m' /\ shr st (mkS m' [] 0%N).

Lemma below_refl st : mwfI (s_map st) -> below st (s_map st).
Proof. intros M. split; [exact M|exact (shr_refl st)]. Qed.
Lemma below_trans st st1 m : below st (s_map st1) -> below st1 m -> below st m.
Proof. intros [_ S1] [M S2]. split; [exact M|]. exact (shr_trans st st1 _ S1 S2). Qed.

Lemma entry_sub t a old z : gamma (entry_itv t a old) z -> gamma old z.
Proof.
  unfold entry_itv. destruct (lc_kind t); auto; try (intros G; apply imeet_exact in G; tauto).
  apply itrim_sub.
Qed.

Lemma propagate_below st0 t st : entry t -> below st0 (s_map st) ->
  holds (below st0) True (propagate t st).
Proof.
  intros [a [x [U NS]]] [M S]. pose proof (propagate_ut t a x st U NS (M x)) as P.
  destruct (propagate t st) as [st'|]; [|exact I]. destruct P as (B & E & O). split.
  - intros k. destruct (N.eq_dec k x) as [->|N]; [|rewrite O by auto; apply M].
    rewrite E. split; [apply wf_entry_itv, M|exact B].
  - intros k z Z. apply S. cbn [s_map] in *. destruct (N.eq_dec k x) as [->|N].
    + rewrite E in Z. eapply entry_sub; eauto.
    + rewrite <- O by auto. auto.
Qed.

(* the constraints of the language and their table entries *)
Definition lang1 (c : lincst) (a : Z) (x : var) : Prop := ut c a x /\ lc_kind c <> DISEQ.

Definition sat1 (c : lincst) (a z : Z) : Prop :=
  let v := a * z + le_cst (lc_exp c) in
  match lc_kind c with EQ => v = 0 | DISEQ => v <> 0 | INEQ => v <= 0 | STRICT => v < 0 end.

Lemma sat_sat1 c a x s : ut c a x -> (sat c s <-> sat1 c a (s x)).
Proof.
  intros [T _]. unfold sat, sat1, eval_le. rewrite T. cbn [eval_terms].
  replace (a * s x + 0 + le_cst (lc_exp c)) with (a * s x + le_cst (lc_exp c)) by lia. tauto.
Qed.

Definition blk (c : lincst) : list lincst :=
  match lc_kind c with
  | STRICT => [mkLC INEQ (lc_exp c); mkLC DISEQ (lc_exp c)]
  | _ => [c]
  end.

Lemma blk_entry c a x : lang1 c a x -> forall t, In t (blk c) -> entry t.
Proof.
  intros [[T U] ND] t I. unfold blk in I. exists a, x.
  destruct (lc_kind c) eqn:K; simpl in I; try congruence.
  - destruct I as [<-|[]]. split; [split; auto|congruence].
  - destruct I as [<-|[]]. split; [split; auto|congruence].
  - destruct I as [<-|[<-|[]]]; (split; [split; auto|simpl; congruence]).
Qed.

(* a point that bounds all points of an interval is its bound *)
Lemma ub_tight i q : (forall z, gamma i z -> z <= q) -> gamma i q -> ub i = Fin q.
Proof.
  intros H [G1 G2].
  assert (X : forall u, q <= u -> ble (Fin u) (ub i) = true -> u = q).
  { intros u Q Bu. enough (G : gamma i u) by (specialize (H u G); lia).
    split; auto. eapply ble_trans; [exact G1|]. apply Z.leb_le; auto. }
  destruct (ub i) as [|u|]; simpl in G2; try discriminate.
  - apply Z.leb_le in G2. rewrite (X u G2 (ble_refl _)). reflexivity.
  - specialize (X (q + 1) ltac:(lia) eq_refl). lia.
Qed.
Lemma lb_tight i q : (forall z, gamma i z -> q <= z) -> gamma i q -> lb i = Fin q.
Proof.
  intros H [G1 G2].
  assert (X : forall l, l <= q -> ble (lb i) (Fin l) = true -> l = q).
  { intros l Q Bl. enough (G : gamma i l) by (specialize (H l G); lia).
    split; auto. eapply ble_trans; [|exact G2]. apply Z.leb_le; auto. }
  destruct (lb i) as [|l|]; simpl in G1; try discriminate.
  - specialize (X (q - 1) ltac:(lia) eq_refl). lia.
  - apply Z.leb_le in G1. rewrite (X l G1 (ble_refl _)). reflexivity.
Qed.

Lemma gamma_lower_half q z : gamma (ilower_half (iconst q)) z <-> z <= q.
Proof. unfold ilower_half. rewrite gamma_imk. simpl. rewrite Z.leb_le. tauto. Qed.
Lemma gamma_upper_half q z : gamma (iupper_half (iconst q)) z <-> q <= z.
Proof. unfold iupper_half. rewrite gamma_imk. simpl. rewrite Z.leb_le. tauto. Qed.

(* trimming q off an interval whose points are all <= q (or all >= q) removes q *)
Lemma itrim_removes i q :
  ((forall z, gamma i z -> z <= q) \/ (forall z, gamma i z -> q <= z)) ->
  ~ gamma (itrim i (iconst q)) q.
Proof.
  intros H G. pose proof (itrim_sub _ _ _ G) as Gi.
  unfold itrim in G. rewrite isingleton_iconst in G.
  destruct H as [H|H].
  - rewrite (ub_tight i q H Gi) in G. simpl in G. rewrite Z.eqb_refl in G.
    destruct (beqb (lb i) (Fin q)); apply gamma_imk_elim in G; destruct G as [G1 G2]; simpl in *.
    + apply Z.leb_le in G1. lia.
    + apply Z.leb_le in G2. lia.
  - rewrite (lb_tight i q H Gi) in G. simpl in G. rewrite Z.eqb_refl in G.
    apply gamma_imk_elim in G. destruct G as [G _]. simpl in G. apply Z.leb_le in G. lia.
Qed.

Lemma refine_sat t a z : unit1 a -> lc_kind t = EQ \/ lc_kind t = INEQ ->
  gamma (refine_itv t a) z -> sat1 t a z.
Proof.
  intros U K. unfold refine_itv, sat1. destruct K as [-> | ->].
  - rewrite gamma_iconst. destruct U; subst; lia.
  - destruct U; subst a; cbn [Z.ltb Z.compare];
      rewrite ?gamma_lower_half, ?gamma_upper_half; lia.
Qed.

(* an EQ / INEQ entry leaves in the interval of its variable only points that satisfy it *)
Lemma propagate_refine t a x st st' : ut t a x -> lc_kind t = EQ \/ lc_kind t = INEQ ->
  iwf (get (s_map st) x) -> propagate t st = Some st' ->
  forall z, gamma (get (s_map st') x) z -> sat1 t a z.
Proof.
  intros U K W P z Z.
  pose proof (propagate_ut t a x st U ltac:(destruct K; congruence) W) as X.
  rewrite P in X. destruct X as (_ & E & _). rewrite E in Z.
  apply (refine_sat t a z (proj2 U) K). unfold entry_itv in Z.
  destruct K as [K|K]; rewrite K in Z; apply imeet_exact in Z; tauto.
Qed.

(* propagating the table entries of a constraint enforces it on the interval of its variable *)
Lemma block_enforce c a x st st' : lang1 c a x -> mwfI (s_map st) ->
  propagate_all (blk c) st = Some st' ->
  (forall z, gamma (get (s_map st') x) z -> sat1 c a z) /\ below st (s_map st').
Proof.
  intros L M E.
  pose proof (propagate_all_inv (below st) True entry (propagate_below st) (blk c) st
                (blk_entry c a x L) (below_refl st M)) as B.
  rewrite E in B. split; [|exact B]. destruct L as [U ND]. unfold blk in E.
  destruct (lc_kind c) eqn:K; try congruence; simpl in E.
  - destruct (propagate c st) as [st1|] eqn:P; inversion E; subst.
    apply (propagate_refine c a x st st' U (or_introl K) (M x) P).
  - destruct (propagate c st) as [st1|] eqn:P; inversion E; subst.
    apply (propagate_refine c a x st st' U (or_intror K) (M x) P).
  - (* STRICT: INEQ leaves points with a * z + k <= 0, then DISEQ trims the point with = 0 *)
    set (c1 := mkLC INEQ (lc_exp c)) in *. set (c2 := mkLC DISEQ (lc_exp c)) in *.
    destruct (propagate c1 st) as [st1|] eqn:P1; [|discriminate].
    pose proof (propagate_refine c1 a x st st1 U (or_intror eq_refl) (M x) P1) as H1.
    assert (E1 : entry c1) by (exists a, x; split; [exact U|simpl; congruence]).
    pose proof (propagate_below st c1 st E1 (below_refl st M)) as B1. rewrite P1 in B1.
    destruct (propagate c2 st1) as [st2|] eqn:P2; inversion E; subst st2.
    pose proof (propagate_ut c2 a x st1 U ltac:(simpl; congruence) (proj1 B1 x)) as X2.
    rewrite P2 in X2. destruct X2 as (_ & E2 & _).
    unfold entry_itv in E2. simpl in E2. set (q := a * - le_cst (lc_exp c)) in *.
    unfold sat1 in *. rewrite K. simpl in H1. intros z Z. rewrite E2 in Z.
    assert (NQ : z <> q).
    { intros ->. revert Z. apply itrim_removes.
      destruct U as [_ [-> | ->]]; [left|right]; intros y Y; specialize (H1 y Y); unfold q; lia. }
    specialize (H1 z (itrim_sub _ _ _ Z)). unfold q in NQ. destruct U as [_ [-> | ->]]; lia.
Qed.

(* preprocessing keeps exactly the blocks of the constraints *)
Definition lang (c : lincst) : Prop := exists a x, lang1 c a x.

Lemma lang_not_constant c : lang c -> le_is_constant (lc_exp c) = false.
Proof. intros [a [x [[T _] _]]]. unfold le_is_constant. rewrite T. reflexivity. Qed.

Lemma preprocess_lang : forall cs table opc, Forall lang cs ->
  p_table (preprocess cs table opc) = table ++ flat_map blk cs.
Proof.
  induction cs as [|c r IH]; intros table opc F; simpl.
  - rewrite app_nil_r. auto.
  - inversion F as [|? ? L F']; subst.
    unfold lc_is_contradiction, lc_is_tautology. rewrite (lang_not_constant c L). cbn [andb].
    unfold blk. destruct (lc_kind c) eqn:K; rewrite IH, <- app_assoc; auto.
Qed.

Lemma propagate_all_app l1 l2 st :
  propagate_all (l1 ++ l2) st =
  match propagate_all l1 st with Some st1 => propagate_all l2 st1 | None => None end.
Proof.
  revert st. induction l1 as [|t r IH]; intros st; simpl; auto.
  destruct (propagate t st); auto.
Qed.

Definition enforced (c : lincst) (st : sst) : Prop :=
  exists a x, lang1 c a x /\ forall z, gamma (get (s_map st) x) z -> sat1 c a z.

Lemma enforced_shr c st st' : enforced c st -> shr st st' -> enforced c st'.
Proof. intros [a [x [L H]]] S. exists a, x. split; auto. Qed.

Lemma flat_entry cs : Forall lang cs -> forall t, In t (flat_map blk cs) -> entry t.
Proof.
  intros F t I. apply in_flat_map in I. destruct I as [c [Ic It]].
  rewrite Forall_forall in F. destruct (F _ Ic) as [a [x L]]. apply (blk_entry c a x L t It).
Qed.

Lemma enforce_all : forall cs st st', Forall lang cs -> mwfI (s_map st) ->
  propagate_all (flat_map blk cs) st = Some st' ->
  (forall c, In c cs -> enforced c st') /\ below st (s_map st').
Proof.
  induction cs as [|c r IH]; intros st st' F M E; simpl in E.
  - inversion E; subst. split; [intros c []|apply below_refl; exact M].
  - inversion F as [|? ? [a [x L]] F']; subst. rewrite propagate_all_app in E.
    destruct (propagate_all (blk c) st) as [st1|] eqn:P; [|discriminate].
    destruct (block_enforce c a x st st1 L M P) as [H1 B1].
    destruct (IH _ _ F' (proj1 B1) E) as [H2 B2]. split; [|exact (below_trans _ _ _ B1 B2)].
    intros c' [<-|J]; auto. apply (enforced_shr c st1); [exists a, x; auto|apply B2].
Qed.

Lemma lang_wf_lc c : lang c -> wf_lc c.
Proof.
  intros [a [x [[T U] _]]]. unfold wf_lc, wf_le. rewrite T. simpl. split.
  - repeat constructor. simpl. tauto.
  - intros k v [E|[]]. inversion E; subst. destruct U; lia.
Qed.

(* the solver is exact on the language *)
Theorem solve_lang_exact cs max m : Forall lang cs -> mwfI m ->
  match solve cs max m with
  | None => forall s, gmap m s -> ~ Forall (fun c => sat c s) cs
  | Some m' => mwfI m' /\ forall s, gmap m' s <-> (gmap m s /\ Forall (fun c => sat c s) cs)
  end.
Proof.
  intros F M.
  assert (SOUND : forall s, gmap m s -> Forall (fun c => sat c s) cs ->
            match solve cs max m with Some m' => gmap m' s | None => False end).
  { intros s G A. apply solve_sound; auto. intros c I. rewrite Forall_forall in F, A.
    split; [apply lang_wf_lc|]; auto. }
  assert (X : forall m', solve cs max m = Some m' ->
            mwfI m' /\ (forall s, gmap m' s -> gmap m s /\ Forall (fun c => sat c s) cs)).
  { intros m' E. pose proof (preprocess_lang cs [] 0%N F) as PT.
    destruct (solve_first_pass entry cs max m m') as [st1 [P B]]; auto.
    { rewrite PT. apply flat_entry; auto. }
    rewrite PT in P. cbn [app] in P.
    (* the first pass enforces every constraint; the later steps only shrink intervals *)
    destruct (enforce_all cs (mkS m [] 0%N) st1 F M P) as [EN [M1 S1]].
    destruct (B (below st1) (propagate_below st1) (below_refl st1 M1)) as [M' S].
    split; auto. intros s G. split.
    - intros k. apply (S1 k). apply (S k). apply G.
    - apply Forall_forall. intros c Ic. destruct (EN c Ic) as [a [x [[U ND] H]]].
      apply (sat_sat1 c a x s U). apply H. apply (S x). apply G. }
  destruct (solve cs max m) as [m'|] eqn:E.
  - destruct (X m' eq_refl) as [M' H]. split; auto. intros s. split; auto.
    intros [G A]. apply (SOUND s G A).
  - intros s G A. apply (SOUND s G A).
Qed.

Lemma lang_not_diseq c : lang c -> ckind_eqb (lc_kind c) DISEQ = false.
Proof. intros [a [x [_ ND]]]. destruct (lc_kind c); auto. congruence. Qed.

Lemma fold_left_lang_ext (f : list lincst -> lincst -> list lincst) cs :
  (forall acc c, lang c -> f acc c = sys_add acc c) -> Forall lang cs ->
  forall acc, fold_left f cs acc = fold_left sys_add cs acc.
Proof.
  intros H F. induction F as [|c r L F IH]; intros acc; simpl; auto. rewrite H by auto. apply IH.
Qed.

Lemma d_add_lang_unfold m cs : Forall lang cs ->
  d_add cs (EMap m) = match solve (fold_left sys_add cs []) max_reduction_cycles m with
                      | None => EBot | Some m' => EMap m' end.
Proof.
  intros F. unfold d_add.
  match goal with |- context [fold_left ?f cs []] =>
    rewrite (fold_left_lang_ext f cs) by
      (auto; intros acc c L; cbv beta zeta; rewrite (lang_not_diseq c L); reflexivity) end.
  reflexivity.
Qed.

(* assuming constraints of the language is exact, and bottom means unsatisfiable *)
Theorem d_add_lang_exact cs e : Forall lang cs -> ewf e ->
  ewf (d_add cs e) /\
  forall s, genv (d_add cs e) s <-> (genv e s /\ Forall (fun c => sat c s) cs).
Proof.
  intros F W. destruct e as [|m].
  - split; [exact I|]. intros s. simpl. tauto.
  - rewrite (d_add_lang_unfold m cs F).
    set (pp := fold_left sys_add cs []).
    assert (EQ : forall P : lincst -> Prop, Forall P pp <-> Forall P cs).
    { intros P. rewrite !Forall_forall. split; intros H x I; apply H.
      - apply fold_sys_add_spec. auto.
      - apply fold_sys_add_spec in I. destruct I as [[]|I]; auto. }
    pose proof (solve_lang_exact pp max_reduction_cycles m (proj2 (EQ lang) F) W) as S.
    destruct (solve pp max_reduction_cycles m) as [m'|].
    + destruct S as [M' G]. split; auto. intros s. simpl. rewrite G, EQ. tauto.
    + split; [exact I|]. intros s. simpl. split; [tauto|]. intros [G A]. apply (S s G). apply EQ. auto.
Qed.

Theorem d_add_lang_bottom cs e : Forall lang cs -> ewf e ->
  (e_is_bot (d_add cs e) = true <-> forall s, genv e s -> ~ Forall (fun c => sat c s) cs).
Proof.
  intros F W. destruct (d_add_lang_exact cs e F W) as [W' G].
  rewrite (e_bottom_exact _ W'). split.
  - intros H s Gs A. apply (H s). apply G. auto.
  - intros H s Gs. apply G in Gs. destruct Gs as [Gs A]. apply (H s Gs A).
Qed.

Lemma unit1_opp a : unit1 a -> unit1 (- a).
Proof. intros [->| ->]; [right|left]; reflexivity. Qed.

Lemma lang1_ineq_of e a x : le_terms e = [(a, x)] -> unit1 a -> lang1 (mkLC INEQ e) a x.
Proof. intros T U. split; [split; auto|simpl; congruence]. Qed.

Lemma le_neg_terms e a x : le_terms e = [(a, x)] -> le_terms (le_neg e) = [(- a, x)].
Proof. intros T. unfold le_neg. simpl. rewrite T. reflexivity. Qed.

Lemma lc_negate_lang c a x : lang1 c a x -> lc_kind c <> EQ -> lang1 (lc_negate c) (- a) x.
Proof.
  intros [[T U] ND] NE. unfold lc_negate, lc_is_tautology, lc_is_contradiction.
  assert (NC : le_is_constant (lc_exp c) = false) by (unfold le_is_constant; rewrite T; reflexivity).
  rewrite NC. cbn [andb]. destruct (lc_kind c); try congruence.
  - apply lang1_ineq_of; [|apply unit1_opp; auto]. apply le_neg_terms. unfold le_addc. simpl. auto.
  - apply lang1_ineq_of; [|apply unit1_opp; auto]. apply le_neg_terms. auto.
Qed.

(* a one-variable constraint holds on a map iff it holds on the interval of its variable *)
Lemma sat_on_interval m c b x : mwfI m -> ut c b x ->
  ((forall s, gmap m s -> sat c s) <-> forall z, gamma (get m x) z -> sat1 c b z).
Proof.
  intros M U. split.
  - intros H z Z. destruct (mwfI_inhabited m M) as [s0 G0].
    specialize (H _ (gmap_upd m s0 x z G0 Z)). apply (sat_sat1 c b x _ U) in H.
    rewrite upd_same in H. exact H.
  - intros H s G. apply (sat_sat1 c b x s U). apply H, G.
Qed.

(* the test used by entails is exact for INEQ / STRICT of the language, and looks only at the
   interval of the variable of the constraint *)
Lemma entail_fn_exact mv m c a x : mwfI mv -> mwfI m -> get mv x = get m x ->
  lang1 c a x -> lc_kind c <> EQ ->
  (entail_fn (EMap mv) c = true <-> forall s, gmap m s -> sat c s).
Proof.
  intros Mv M Q L NE.
  rewrite (sat_on_interval m c a x M (proj1 L)), <- Q, <- (sat_on_interval mv c a x Mv (proj1 L)).
  unfold entail_fn, d_add0. cbn [fold_left]. unfold sys_add at 1. cbn [existsb app].
  pose proof (lc_negate_lang c a x L NE) as LN.
  assert (F : Forall lang [lc_negate c]) by (repeat constructor; exists (- a), x; auto).
  pose proof (solve_lang_exact [lc_negate c] max_reduction_cycles mv F Mv) as S.
  destruct (solve [lc_negate c] max_reduction_cycles mv) as [m'|]; simpl.
  - destruct S as [M' G]. split; [discriminate|]. intros H.
    destruct (mwfI_inhabited m' M') as [s Gs]. apply G in Gs. destruct Gs as [Gs A].
    inversion A; subst. apply lc_negate_spec in H2. destruct (H2 (H s Gs)).
  - split; auto. intros _ s Gs. destruct (sat_dec c s) as [Y|N]; auto.
    exfalso. apply (S s Gs). repeat constructor. apply lc_negate_spec. auto.
Qed.

Theorem d_entails_lang_exact c e : lang c -> ewf e ->
  (d_entails c e = true <-> forall s, genv e s -> sat c s).
Proof.
  intros [a [x L]] W. pose proof L as [[T U] ND]. unfold d_entails.
  destruct e as [|m]; cbn [e_is_bot].
  - split; auto. intros _ s [].
  - unfold lc_is_tautology, lc_is_contradiction.
    assert (NC : le_is_constant (lc_exp c) = false) by (unfold le_is_constant; rewrite T; reflexivity).
    rewrite NC. cbn [andb]. unfold lc_vars. rewrite T. cbn [map snd fold_left e_at].
    set (I := get m x). assert (WI : iwf I) by apply W.
    unfold e_set, e_top. destruct WI as [WI1 WI2]. rewrite WI2.
    set (mv := put [] x I).
    assert (Mv : mwfI mv) by (apply mwfI_put; [apply mwfI_nil|split; auto]).
    assert (X : forall c' b, lang1 c' b x -> lc_kind c' <> EQ ->
              (entail_fn (EMap mv) c' = true <-> forall s, gmap m s -> sat c' s)).
    { intros c' b. apply (entail_fn_exact mv m); auto. apply get_put_iwf. split; auto. }
    simpl genv.
    destruct (lc_kind c) eqn:K; try congruence; try (apply (X c a L); congruence).
    (* EQ: both inequalities *)
    set (c1 := mkLC INEQ (lc_exp c)). set (c2 := mkLC INEQ (le_neg (lc_exp c))).
    assert (L1 : lang1 c1 a x) by (apply lang1_ineq_of; auto).
    assert (L2 : lang1 c2 (- a) x) by (apply lang1_ineq_of; [apply le_neg_terms; auto|apply unit1_opp; auto]).
    pose proof (X c1 a L1 ltac:(simpl; congruence)) as E1.
    pose proof (X c2 (- a) L2 ltac:(simpl; congruence)) as E2.
    assert (SQ : forall s, sat c s <-> (sat c1 s /\ sat c2 s)).
    { intros s. unfold sat, c1, c2. rewrite K. simpl. rewrite eval_le_neg. lia. }
    destruct (entail_fn (EMap mv) c1) eqn:B1; cbn [negb].
    + rewrite E2. split; intros H s G; [apply SQ; split; [apply E1|]; auto|apply SQ; auto].
    + split; [discriminate|]. intros H. apply E1. intros s G. apply SQ. auto.
Qed.

From CrabV Require Import Dom.History.

(* the operations of the property: constraints of the language, joins, meets, forgets, copies *)
Definition ihop_ok (o : hop) : Prop :=
  match o with
  | HTop _ | HBot _ | HCopy _ _ | HForget _ _ | HJoin _ _ _ | HMeet _ _ _ => True
  | HAssume _ cs => Forall lang cs
  | _ => False
  end.

Lemma rget_ewf rs r : Forall ewf rs -> ewf (rget rs r).
Proof.
  intros F. unfold rget. revert r. induction F; intros [|r]; simpl; auto; apply mwfI_nil.
Qed.
Lemma rset_ewf rs r v : Forall ewf rs -> ewf v -> Forall ewf (rset rs r v).
Proof. intros F W. revert r. induction F; intros [|r]; simpl; auto. Qed.

Theorem ihstep_wf rs o : Forall ewf rs -> ihop_ok o -> Forall ewf (hstep rs o).
Proof.
  intros F O. destruct o; simpl in *; try tauto; apply rset_ewf; auto.
  - apply mwfI_nil.
  - apply rget_ewf; auto.
  - apply d_add_lang_exact; auto. apply rget_ewf; auto.
  - apply d_forget_exact. apply rget_ewf; auto.
  - apply e_join_wf; apply rget_ewf; auto.
  - apply e_meet_exact; apply rget_ewf; auto.
Qed.

(* the invariant holds after ANY history of such operations *)
Theorem ihrun_wf h : forall rs, Forall ewf rs -> Forall ihop_ok h -> Forall ewf (hrun rs h).
Proof.
  unfold hrun. induction h as [|o h IH]; intros rs F O; simpl; auto.
  inversion O; subst. apply IH; auto. apply ihstep_wf; auto.
Qed.

(* non-vacuity *)
Example itv_exact_example :
  let c1 := mkLC INEQ (mkLE [(1, 0%N)] (-5)) in          (* x <= 5 *)
  let c2 := mkLC STRICT (mkLE [(-1, 0%N)] 5) in          (* -x + 5 < 0, i.e. x > 5 *)
  lang c1 /\ lang c2 /\ ewf e_top /\
  e_is_bot (d_add [c1] e_top) = false /\ e_is_bot (d_add [c1; c2] e_top) = true /\
  d_entails (mkLC INEQ (mkLE [(1, 0%N)] (-7))) (d_add [c1] e_top) = true /\
  d_entails (mkLC INEQ (mkLE [(1, 0%N)] (-4))) (d_add [c1] e_top) = false.
Proof.
  repeat split; try (vm_compute; reflexivity); try apply mwfI_nil;
    try (eexists; eexists; split; [split; [reflexivity|]|simpl; congruence]; (left; reflexivity) || (right; reflexivity)).
Qed.

(* the first sentence of the property, literally: assume any conjunction from top *)
Theorem itv_conjunction_exact cs : Forall lang cs ->
  let e := d_add cs e_top in
  (e_is_bot e = true <-> forall s, ~ Forall (fun c => sat c s) cs) /\
  (forall c, lang c ->
     (d_entails c e = true <-> forall s, Forall (fun c => sat c s) cs -> sat c s)).
Proof.
  intros F e. destruct (d_add_lang_exact cs e_top F mwfI_nil) as [W G]. fold e in W, G.
  split.
  - unfold e. rewrite (d_add_lang_bottom cs e_top F mwfI_nil).
    split; intros H s; [apply H, genv_top|intros _; apply H].
  - intros c Lc. rewrite (d_entails_lang_exact c e Lc W). split; intros H s X.
    + apply H. apply G. split; [apply genv_top|auto].
    + apply H. apply G in X. tauto.
Qed.
