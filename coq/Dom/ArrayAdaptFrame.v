(* ArrayAdaptFrame.v — support lemmas for the interval-domain model: which variables can
   have a binding other than top after an operation ([nt]: "not top").  Used by
   ArrayAdaptSound.v to maintain the invariant that the ghost variable of a cell that the
   adaptive array domain does not track is unconstrained in the base value. *)
From Coq Require Import ZArith NArith List Bool Lia.
From CrabV Require Import Base.ZInf Scalar.Itv Scalar.ItvSound Ir.Syntax Dom.ItvEnv Dom.ItvEnvSound
     Dom.ItvSolver Dom.ItvDomain.
Import ListNotations.
Local Open Scope Z_scope.

Definition nt (e : env) (y : var) : Prop := is_top (e_at e y) = false.
Definition ntm (m : amap) (y : var) : Prop := is_top (get m y) = false.

Lemma nt_bot y : nt EBot y.
Proof. reflexivity. Qed.

Lemma ntm_remove m x y : ntm (remove m x) y -> y <> x /\ ntm m y.
Proof.
  unfold ntm. intros H. destruct (N.eq_dec y x) as [->|N].
  - rewrite get_remove_same in H. discriminate.
  - rewrite get_remove_other in H by auto. auto.
Qed.

Lemma ntm_put m x v y : ntm (put m x v) y -> y = x \/ ntm m y.
Proof.
  unfold ntm. intros H. destruct (N.eq_dec y x) as [->|N]; auto.
  rewrite get_put_other in H by auto. auto.
Qed.

Lemma ntm_put_same m x v : ntm (put m x v) x -> is_top v = false.
Proof.
  unfold ntm, put. destruct (is_top v) eqn:T; auto.
  rewrite get_remove_same. discriminate.
Qed.

Lemma nt_e_set e x v y : e_set e x v <> EBot -> nt (e_set e x v) y -> y = x \/ nt e y.
Proof.
  destruct e as [|m]; simpl; [congruence|]. destruct (is_bot v); [congruence|].
  intros _. apply ntm_put.
Qed.

Lemma nt_e_set_same e x v : e_set e x v <> EBot -> nt (e_set e x v) x -> is_top v = false.
Proof.
  destruct e as [|m]; simpl; [congruence|]. destruct (is_bot v); [congruence|].
  intros _. apply ntm_put_same.
Qed.

Lemma nt_e_forget e x y : e_forget e x <> EBot -> nt (e_forget e x) y -> y <> x /\ nt e y.
Proof. destruct e as [|m]; simpl; [congruence|]. intros _. apply ntm_remove. Qed.

Lemma e_forget_bot_iff e x : e_forget e x = EBot <-> e = EBot.
Proof. destruct e; simpl; split; congruence. Qed.

Lemma nt_e_join_key e x v y : e_join_key e x v <> EBot -> nt (e_join_key e x v) y -> nt e y.
Proof.
  destruct e as [|m]; simpl; [congruence|]. destruct (is_bot v); [congruence|].
  destruct (is_top v).
  - intros _ H. apply ntm_remove in H. tauto.
  - destruct (is_top (get m x)) eqn:T.
    + intros _ H. apply ntm_remove in H. tauto.
    + intros _ H. apply ntm_put in H. destruct H as [->|H]; auto.
Qed.

(* when the joined value is top the key becomes top *)
Lemma nt_e_join_key_val e x v : e_join_key e x v <> EBot -> nt (e_join_key e x v) x -> is_top v = false.
Proof.
  destruct e as [|m]; simpl; [congruence|]. destruct (is_bot v); [congruence|].
  destruct (is_top v); auto.
  intros _ H. apply ntm_remove in H. tauto.
Qed.

Lemma ntm_build ks g : forall acc m k, build ks g acc = Some m ->
  ntm m k -> (In k ks /\ is_top (g k) = false) \/ (~ In k ks /\ ntm acc k).
Proof.
  induction ks as [|h r IH]; simpl; intros acc m k H N.
  - inversion H; subst. auto.
  - destruct (is_bot (g h)); [discriminate|].
    destruct (IH _ _ _ H N) as [[I T]|[NI A]]; auto.
    destruct (N.eq_dec k h) as [->|NE].
    + left. split; auto. eapply ntm_put_same; eauto.
    + right. split; [intros [E|I]; [congruence|tauto]|]. apply ntm_put in A. destruct A; [congruence|auto].
Qed.

Lemma nt_merge_absorbing f a b m k : merge true f a b = Some m -> ntm m k -> ntm a k /\ ntm b k.
Proof.
  unfold merge. intros H N. destruct (ntm_build _ _ _ _ _ H N) as [[_ T]|[_ A]].
  - unfold comb in T. unfold ntm.
    destruct (is_top (get a k)); [discriminate|]. destruct (is_top (get b k)); [discriminate|]. auto.
  - unfold ntm in A. simpl in A. discriminate.
Qed.

(* e_join, e_widen and e_widen_thr are this merge for three interval operations *)
Lemma nt_merge_env f a b y
  (e := match a, b with
        | EBot, _ => b | _, EBot => a
        | EMap x, EMap z => match merge true f x z with Some m => EMap m | None => EBot end
        end) :
  e <> EBot -> nt e y -> nt a y /\ nt b y.
Proof.
  subst e. destruct a as [|x], b as [|z]; intros NB H; try (split; [reflexivity|exact H]);
    try (split; [exact H|reflexivity]).
  destruct (merge true f x z) as [m|] eqn:E; [|congruence]. apply (nt_merge_absorbing _ _ _ _ _ E H).
Qed.

Lemma nt_e_join a b y : e_join a b <> EBot -> nt (e_join a b) y -> nt a y /\ nt b y.
Proof. apply (nt_merge_env ijoin). Qed.
Lemma nt_e_widen a b y : e_widen a b <> EBot -> nt (e_widen a b) y -> nt a y /\ nt b y.
Proof. apply (nt_merge_env iwiden). Qed.
Lemma nt_e_widen_thr gp gn a b y :
  e_widen_thr gp gn a b <> EBot -> nt (e_widen_thr gp gn a b) y -> nt a y /\ nt b y.
Proof. apply (nt_merge_env (iwiden_thr gp gn)). Qed.

Lemma all_top_get m y : forallb (fun k => is_top (get m k)) (keys m) = true -> is_top (get m y) = true.
Proof.
  intros H. destruct (in_dec N.eq_dec y (keys m)) as [I|NI].
  - rewrite forallb_forall in H. apply H. auto.
  - rewrite get_not_key by auto. reflexivity.
Qed.

Lemma e_is_top_at e y : e_is_top e = true -> is_top (e_at e y) = true.
Proof. destruct e as [|m]; simpl; [discriminate|]. apply all_top_get. Qed.

Lemma nt_fold_forget vs : forall e y, fold_left e_forget vs e <> EBot ->
  nt (fold_left e_forget vs e) y -> ~ In y vs /\ nt e y.
Proof.
  induction vs as [|v r IH]; simpl; intros e y NB H; [tauto|].
  destruct (IH _ _ NB H) as [NI N].
  assert (NB' : e_forget e v <> EBot).
  { intros E. apply NB. rewrite E. clear. induction r; simpl; auto. }
  apply nt_e_forget in N; auto. split; [|tauto]. intros [E|I]; [subst; tauto|tauto].
Qed.

Lemma nt_d_forget vs e y : d_forget vs e <> EBot -> nt (d_forget vs e) y -> ~ In y vs /\ nt e y.
Proof.
  unfold d_forget. destruct (e_is_bot e) eqn:B; simpl.
  - destruct e; simpl in *; try discriminate. congruence.
  - destruct (e_is_top e) eqn:T.
    + intros _ H. unfold nt in H. rewrite (e_is_top_at e y T) in H. discriminate.
    + apply nt_fold_forget.
Qed.

Lemma nt_d_expand x nx e y : d_expand x nx e <> EBot -> nt (d_expand x nx e) y -> y = nx \/ nt e y.
Proof.
  unfold d_expand. destruct (e_is_bot e || e_is_top e); auto. apply nt_e_set.
Qed.

Lemma ntm_fold_put m vs : forall y, ntm (fold_right (fun k acc => put acc k (get m k)) [] vs) y ->
  In y vs /\ ntm m y.
Proof.
  induction vs as [|v r IH]; simpl; intros y H; [unfold ntm in H; simpl in H; discriminate|].
  destruct (N.eq_dec y v) as [->|NE].
  - split; auto. apply ntm_put_same in H. exact H.
  - apply ntm_put in H. destruct H as [E|H]; [congruence|]. destruct (IH _ H). auto.
Qed.

Lemma nt_e_project e vs y : e_project e vs <> EBot -> nt (e_project e vs) y -> In y vs /\ nt e y.
Proof.
  destruct e as [|m]; simpl; [congruence|].
  destruct (forallb _ _) eqn:T.
  - intros _ H. unfold nt in H. simpl in H. rewrite (all_top_get m y T) in H. discriminate.
  - intros _. apply ntm_fold_put.
Qed.

Lemma ntm_rename_pairs ps : forall m y, ntm (rename_pairs m ps) y ->
  In y (map snd ps) \/ (ntm m y /\ ~ In y (map fst ps)).
Proof.
  induction ps as [|[k nk] r IH]; cbn [rename_pairs map fst snd In]; intros m y H; auto.
  destruct (N.eqb_spec k nk) as [E|NE].
  - destruct (IH _ _ H) as [I|[N NI]]; auto.
    destruct (N.eq_dec y nk) as [->|NY]; auto. right. split; auto. intros [X|X]; [congruence|tauto].
  - destruct (is_top (get m k)) eqn:T.
    + destruct (IH _ _ H) as [I|[N NI]]; auto.
      right. split; auto. intros [X|X]; [|tauto]. subst. unfold ntm in N. congruence.
    + destruct (IH _ _ H) as [I|[N NI]]; auto.
      apply ntm_remove in N. destruct N as [N1 N2].
      unfold ntm in N2. cbn [get] in N2. destruct (N.eqb_spec nk y); [auto|].
      fold (ntm (remove m nk) y) in N2. apply ntm_remove in N2.
      right. split; [tauto|]. intros [X|X]; [congruence|tauto].
Qed.

Lemma in_snd_combine (from to : list var) y : In y (map snd (combine from to)) -> In y to.
Proof.
  intros H. apply in_map_iff in H. destruct H as ([a b] & E & I). simpl in E. subst b.
  eapply in_combine_r; eauto.
Qed.
Lemma in_fst_combine : forall (from to : list var) y, length from = length to -> In y from ->
  In y (map fst (combine from to)).
Proof.
  induction from as [|f fr IH]; intros [|t tr] y L I; simpl in *; try discriminate; try contradiction.
  destruct I as [E|I]; auto.
Qed.

Lemma nt_e_rename e from to y : e_rename e from to <> EBot -> nt (e_rename e from to) y ->
  In y to \/ (nt e y /\ (length from = length to -> ~ In y from)).
Proof.
  destruct e as [|m]; simpl; [congruence|].
  destruct (forallb _ _) eqn:T.
  - intros _ H. unfold nt in H. simpl in H. rewrite (all_top_get m y T) in H. discriminate.
  - intros _ H. apply ntm_rename_pairs in H. destruct H as [I|[N NI]].
    + left. eapply in_snd_combine; eauto.
    + right. split; auto. intros L I. apply NI. apply in_fst_combine; auto.
Qed.

(* the linear interval solver only refines the variables of its constraints *)
Section Solver.
Variable P : var -> Prop.
Variable m0 : amap.
Definition keeps (st : sst) : Prop := forall y, ntm (s_map st) y -> ntm m0 y \/ P y.

Lemma keeps_s_refine v i st st' : P v -> keeps st -> s_refine v i st = Some st' -> keeps st'.
Proof.
  unfold s_refine. intros Pv K H. destruct (is_bot _); [discriminate|].
  destruct (negb _); inversion H; subst; auto.
  intros y N. cbn [s_map] in N. apply ntm_put in N. destruct N as [->|N]; auto.
Qed.

Lemma keeps_propagate_term cst c pivot st st' : P pivot -> keeps st ->
  propagate_term cst c pivot st = Some st' -> keeps st'.
Proof.
  unfold propagate_term. intros Pv K H. destruct (compute_residual cst pivot st) as [res ops].
  set (st1 := mkS (s_map st) (s_refined st) ops) in *.
  assert (K1 : keeps st1) by exact K.
  destruct (lc_kind cst).
  - eapply keeps_s_refine; eauto.
  - cbn [s_map] in H. destruct (is_bot _); [discriminate|].
    inversion H; subst; clear H. destruct (negb _); cbn [s_map]; auto.
    intros y N. apply ntm_put in N. destruct N as [->|N]; auto.
  - destruct (0 <? c); eapply keeps_s_refine; eauto.
  - inversion H; subst; auto.
Qed.

Lemma keeps_propagate_terms cst : forall ts st st', (forall c v, In (c, v) ts -> P v) -> keeps st ->
  propagate_terms cst ts st = Some st' -> keeps st'.
Proof.
  induction ts as [|[c v] r IH]; simpl; intros st st' A K H; [inversion H; subst; auto|].
  destruct (propagate_term cst c v st) as [st1|] eqn:E; [|discriminate].
  apply (IH st1 st'); [intros c0 v0 I; apply (A c0 v0); auto| |exact H].
  apply (keeps_propagate_term cst c v st st1); auto. apply (A c v). auto.
Qed.

Definition cst_ok (c : lincst) : Prop := forall v, In v (lc_vars c) -> P v.

Lemma keeps_propagate cst st st' : cst_ok cst -> keeps st -> propagate cst st = Some st' -> keeps st'.
Proof.
  intros A. apply keeps_propagate_terms. intros c v I. apply A. unfold lc_vars.
  change v with (snd (c, v)). apply in_map. auto.
Qed.

Lemma keeps_propagate_all : forall table st st', (forall c, In c table -> cst_ok c) -> keeps st ->
  propagate_all table st = Some st' -> keeps st'.
Proof.
  induction table as [|c r IH]; simpl; intros st st' A K H; [inversion H; subst; auto|].
  destruct (propagate c st) as [st1|] eqn:E; [|discriminate].
  apply (IH st1 st'); [intros c0 I; apply A; auto| |exact H].
  apply (keeps_propagate c st st1); auto.
Qed.

Lemma keeps_small_loop table max : (forall c, In c table -> cst_ok c) ->
  forall fuel cycle st st', keeps st -> small_loop fuel table cycle max st = Some st' -> keeps st'.
Proof.
  intros A. induction fuel as [|f IH]; simpl; intros cycle st st' K H; [inversion H; subst; auto|].
  destruct (propagate_all table _) as [st1|] eqn:E; [|discriminate].
  assert (K1 : keeps st1) by (apply (keeps_propagate_all table _ st1 A) in E; auto).
  destruct (s_refined st1); [inversion H; subst; auto|].
  destruct (_ <=? _)%N; [apply (IH _ _ _ K1 H)|inversion H; subst; auto].
Qed.

Lemma keeps_propagate_idx table : (forall c, In c table -> cst_ok c) ->
  forall idx st st', keeps st -> propagate_idx table idx st = Some st' -> keeps st'.
Proof.
  intros A. induction idx as [|i r IH]; simpl; intros st st' K H; [inversion H; subst; auto|].
  destruct (nth_error table i) as [c|] eqn:N; [|apply (IH _ _ K H)].
  destruct (propagate c st) as [st1|] eqn:E; [|discriminate].
  apply (IH st1 st'); [|exact H]. apply (keeps_propagate c st st1); auto.
  apply A. eapply nth_error_In; eauto.
Qed.

Lemma keeps_process_vars table : (forall c, In c table -> cst_ok c) ->
  forall vs st st', keeps st -> process_vars table vs st = Some st' -> keeps st'.
Proof.
  intros A. induction vs as [|v r IH]; simpl; intros st st' K H; [inversion H; subst; auto|].
  destruct (propagate_idx table _ st) as [st1|] eqn:E; [|discriminate].
  apply (IH st1 st'); [|exact H]. exact (keeps_propagate_idx table A _ st st1 K E).
Qed.

Lemma keeps_large_loop table max : (forall c, In c table -> cst_ok c) ->
  forall fuel st st', keeps st -> large_loop fuel table max st = Some st' -> keeps st'.
Proof.
  intros A. induction fuel as [|f IH]; simpl; intros st st' K H; [inversion H; subst; auto|].
  destruct (process_vars table _ _) as [st1|] eqn:E; [|discriminate].
  assert (K1 : keeps st1) by (apply (keeps_process_vars table A _ _ st1) in E; auto).
  destruct (s_refined st1); [inversion H; subst; auto|].
  destruct (_ <=? _)%N; [apply (IH _ _ K1 H)|inversion H; subst; auto].
Qed.

Lemma preprocess_ok : forall cs table opc, (forall c, In c cs -> cst_ok c) ->
  (forall c, In c table -> cst_ok c) -> forall c, In c (p_table (preprocess cs table opc)) -> cst_ok c.
Proof.
  induction cs as [|c r IH]; simpl; intros table opc A B; auto.
  destruct (lc_is_contradiction c); [simpl; auto|].
  destruct (lc_is_tautology c); [apply IH; auto|].
  destruct (lc_kind c); apply IH; auto; intros c' I; apply in_app_or in I;
    (destruct I as [I|I]; [auto|]); simpl in I;
    repeat (destruct I as [<-|I]; [apply (A c); auto|]); try contradiction; apply (A c); auto.
Qed.
End Solver.

Lemma ntm_solve cs n m m' y : solve cs n m = Some m' -> ntm m' y ->
  ntm m y \/ exists c, In c cs /\ In y (lc_vars c).
Proof.
  set (P := fun v => exists c, In c cs /\ In v (lc_vars c)).
  unfold solve. destruct (p_contra _); [discriminate|].
  assert (T : forall c, In c (p_table (preprocess cs [] 0%N)) -> cst_ok P c).
  { apply preprocess_ok; [|intros c []]. intros c I v Iv. exists c. auto. }
  assert (K0 : keeps P m (mkS m [] 0%N)) by (intros z N; auto).
  intros H N.
  destruct (_ || _).
  - destruct (propagate_all _ _) as [st1|] eqn:E; [|discriminate].
    destruct (large_loop _ _ _ st1) as [st|] eqn:L; [|discriminate]. inversion H; subst.
    assert (K1 : keeps P m st1) by (eapply keeps_propagate_all; eauto).
    exact (keeps_large_loop P m _ _ T _ _ _ K1 L y N).
  - destruct (small_loop _ _ _ _ _) as [st|] eqn:L; [|discriminate]. inversion H; subst.
    exact (keeps_small_loop P m _ _ T _ _ _ _ K0 L y N).
Qed.

Lemma sys_add_in s c x : In x (sys_add s c) -> In x s \/ x = c.
Proof.
  unfold sys_add. destruct (existsb _ s); auto. intros H. apply in_app_or in H.
  destruct H as [H|[H|[]]]; auto.
Qed.

Lemma lower_disequality_vars e c out x : In x (lower_disequality e c out) ->
  In x out \/ (forall v, In v (lc_vars x) -> In v (lc_vars c)).
Proof.
  unfold lower_disequality. destruct (lc_kind c); auto.
  destruct (le_terms (lc_exp c)) as [|[nx vx] [|[ny vy] [|? ?]]] eqn:T; auto.
  destruct (_ && _); auto.
  assert (V : forall a b, (a = vx \/ a = vy) -> (b = vx \/ b = vy) ->
              forall v, In v (lc_vars (mkLC STRICT (le_var_minus_var a b))) -> In v (lc_vars c)).
  { intros a b Ha Hb v I. unfold lc_vars in *. rewrite T. simpl.
    unfold le_var_minus_var in I. cbn [lc_exp] in I.
    destruct Ha as [->| ->], Hb as [->| ->];
      (destruct (N.ltb _ _); [|try destruct (N.ltb _ _)]); simpl in I; intuition auto. }
  destruct (d_entails _ e).
  - intros H. apply sys_add_in in H. destruct H as [H| ->]; auto. right. apply V; auto.
  - destruct (d_entails _ e); auto.
    intros H. apply sys_add_in in H. destruct H as [H| ->]; auto. right. apply V; auto.
Qed.

Definition from_cs (cs : list lincst) (x : lincst) : Prop :=
  exists c, In c cs /\ forall v, In v (lc_vars x) -> In v (lc_vars c).

Lemma fold_lower_from e cs : forall l acc,
  (forall x, In x acc -> from_cs cs x) -> (forall c, In c l -> In c cs) ->
  forall x, In x (fold_left (fun acc c =>
               let acc := if ckind_eqb (lc_kind c) DISEQ then lower_disequality e c acc else acc in
               sys_add acc c) l acc) -> from_cs cs x.
Proof.
  induction l as [|c r IH]; simpl; intros acc A L x I; auto.
  refine (IH _ _ _ x I); auto. intros z Iz. apply sys_add_in in Iz. destruct Iz as [Iz| ->].
  - destruct (ckind_eqb _ _); auto. apply lower_disequality_vars in Iz.
    destruct Iz as [Iz|Iz]; auto. exists c. auto.
  - exists c. auto.
Qed.

Lemma nt_d_add cs e y : d_add cs e <> EBot -> nt (d_add cs e) y ->
  nt e y \/ exists c, In c cs /\ In y (lc_vars c).
Proof.
  unfold d_add. destruct e as [|m]; [congruence|].
  set (pp := fold_left _ cs []).
  assert (PP : forall x, In x pp -> from_cs cs x).
  { unfold pp. apply fold_lower_from; auto. intros x []. }
  destruct (solve pp _ m) as [m'|] eqn:E; [|congruence]. intros _ H.
  destruct (ntm_solve _ _ _ _ _ E H) as [N|(c & I & V)]; auto.
  right. destruct (PP c I) as (c0 & I0 & V0). exists c0. auto.
Qed.

Lemma nt_d_assign x ex e y : d_assign x ex e <> EBot -> nt (d_assign x ex e) y -> y = x \/ nt e y.
Proof. unfold d_assign. destruct (le_get_variable ex); apply nt_e_set. Qed.

Lemma nt_d_weak_assign x ex e y : d_weak_assign x ex e <> EBot -> nt (d_weak_assign x ex e) y -> nt e y.
Proof. unfold d_weak_assign. destruct (le_get_variable ex); apply nt_e_join_key. Qed.

Lemma nt_d_apply_arith op x a z e y : d_apply_arith op x a z e <> EBot ->
  nt (d_apply_arith op x a z e) y -> y = x \/ nt e y.
Proof. unfold d_apply_arith. apply nt_e_set. Qed.

Lemma le_get_variable_var v : le_get_variable (mkLE [(1, v)] 0) = Some v.
Proof. reflexivity. Qed.

(* an assignment from a variable that is top leaves the target top *)
Lemma nt_d_assign_var x v e : d_assign x (mkLE [(1, v)] 0) e <> EBot ->
  nt (d_assign x (mkLE [(1, v)] 0) e) x -> nt e v.
Proof.
  unfold d_assign. rewrite le_get_variable_var. intros NB H. apply nt_e_set_same in H; auto.
Qed.
Lemma nt_d_weak_assign_var x v e : d_weak_assign x (mkLE [(1, v)] 0) e <> EBot ->
  nt (d_weak_assign x (mkLE [(1, v)] 0) e) x -> nt e v.
Proof.
  unfold d_weak_assign. rewrite le_get_variable_var. intros NB H. apply nt_e_join_key_val in H; auto.
Qed.
