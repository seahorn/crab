(* RegionCore2Sound2.v — property C15 on the extended region-domain model (Dom/RegionCore2.v),
   second part: on top of Dom/RegionCore2Sound.v (same concrete semantics, same relation rel2 /
   rels2) this file proves
     - ref_store as a whole (u_store_sound): typed and unknown regions, tracked and untracked,
       strong and weak updates, the first store into an unknown region (the dynamic type is set),
       the reinterpreting store (region of integers -> region of references), the stores that are
       not written to the base domain (type top, an integer into a region of references);
     - join and widening of the extended state (w_join_sound, w_widen_sound).  The lattice
       operations need the invariant that no region has dynamic type bottom (tyok): in the C++ a
       region_info whose type is bottom is bottom, and the domain normalises to bottom; the
       invariant is preserved by every operation covered here (pstep_tyok; meet / narrowing break it);
     - region_init;
   and the history theorem over the larger operation set (region2_history_sound2), which has the
   relation of region2_history_sound and subsumes it (op_ok2_ok3, cstepS3_ok2, nm2_subsumes).
   NOT covered (stay outside op_ok3): region_copy, region_cast, select_ref, add_tag, operator-= on
   regions, forget, project, meet and narrowing (the latter two on purpose: known finding). *)
From Coq Require Import ZArith NArith List Bool Lia.
From CrabV Require Import Base.ZInf Scalar.Itv Scalar.ItvSound Scalar.SmallRange Scalar.Boolean
     Ir.Syntax Dom.ItvEnv Dom.ItvEnvSound Dom.ItvSolver Dom.ItvSolverSound Dom.ItvDomain
     Dom.ItvDomainSound Dom.RegionCore Dom.RegionCoreSound Dom.RegionCore2 Dom.RegionCore2Sound.
Import ListNotations.
Local Open Scope Z_scope.

Arguments d_add : simpl never.
Arguments d_assign : simpl never.
Arguments d_weak_assign : simpl never.
Arguments d_expand : simpl never.
Arguments d_apply_arith : simpl never.

(* instantiate the naming hypotheses of a lemma of RegionCore2Sound.v from the context *)
Ltac close L :=
  lazymatch type of L with
  | ?A -> ?B => first [ match goal with H : A |- _ => close (L H) end | exact L ]
  | _ => exact L
  end.

Lemma wset_same rs : forall r, wset rs r (wget rs r) = rs.
Proof.
  induction rs as [|h t IH]; intros r; simpl; auto.
  destruct r; simpl; auto. unfold wget in *. simpl. f_equal. apply IH.
Qed.

Section Sound2.
Variable C : rconf2.
Let P := k_params C.
Variable prog : var -> bool.
Hypothesis kind_np : forall v, prog v = false -> k_kind C v = VInt.
Hypothesis adr_np : forall v, prog (k_adr C v) = false.
Hypothesis off_np : forall v, prog (k_off C v) = false.
Hypothesis siz_np : forall v, prog (k_siz C v) = false.
Hypothesis dup_np : forall v, prog (k_dup C v) = false.
Hypothesis adr_inj : forall a b, k_adr C a = k_adr C b -> a = b.
Hypothesis off_inj : forall a b, k_off C a = k_off C b -> a = b.
Hypothesis siz_inj : forall a b, k_siz C a = k_siz C b -> a = b.
Hypothesis dup_inj : forall a b, k_dup C a = k_dup C b -> a = b.
Hypothesis adr_off : forall a b, k_adr C a <> k_off C b.
Hypothesis adr_siz : forall a b, k_adr C a <> k_siz C b.
Hypothesis off_siz : forall a b, k_off C a <> k_siz C b.
Hypothesis dup_adr : forall a b, k_dup C a <> k_adr C b.
Hypothesis dup_off : forall a b, k_dup C a <> k_off C b.
Hypothesis dup_siz : forall a b, k_dup C a <> k_siz C b.

Let store_rest_ := ltac:(close (store_rest C prog)).
Let rb_mem_write_ := ltac:(close (rb_mem_write C prog)).
Let ref_notrgn_ga_ := ltac:(close (ref_notrgn_ga C prog)).
Let sval_cell_agree_ := ltac:(close (sval_cell_agree C prog)).
Let pstep_sound_ := ltac:(close (pstep_sound C prog)).
Let live_vars_in_gv_ := ltac:(close (live_vars_in_gv C)).

Lemma live_set_info_other a g i g' : g' <> g -> live C (set_info a g i) g' = live C a g'.
Proof. intros N. unfold live, typ, set_info. cbn [s_rgn]. rewrite fupd_other by auto. reflexivity. Qed.
Lemma live_set_info_same a g i : live C (set_info a g i) g = live_of C g (i_ty i).
Proof. unfold live, typ, set_info. cbn [s_rgn]. rewrite fupd_same. reflexivity. Qed.
Lemma typ_set_info_same a g i : typ (set_info a g i) g = i_ty i.
Proof. unfold typ, set_info. cbn [s_rgn]. rewrite fupd_same. reflexivity. Qed.
Lemma live_set_info_keep a g c0 b0 g' : live C (set_info a g (c0, b0, i_ty (s_rgn a g))) g' = live C a g'.
Proof. apply live_set_info. reflexivity. Qed.
Lemma live_rgn_eq a a' : s_rgn a' = s_rgn a -> forall g, live C a' g = live C a g.
Proof. intros E g. rewrite (live_same_rgn C a a' E). reflexivity. Qed.

(* forgetting variables keeps the description *)
Lemma rb_forget_mono (A : vsets) E xs : RBA A E -> (forall v, exists z, A v z) -> RBA A (fold_left e_forget xs E).
Proof. intros R N. apply (rb_forget_list xs A E A R N N). auto. Qed.
Lemma rb_gv_forget_mono L hp w E gv : RBA (allowed L hp w) E -> RBA (allowed L hp w) (gv_forget gv E).
Proof. intros R. rewrite gv_forget_list. apply rb_forget_mono; auto. apply allowed_ne. Qed.

(* a strong update happens only when a0 is the only cell that may have been written *)
Lemma store_excl a c w g a0 :
  rel2 C prog a c w -> In a0 (maddrs c g) ->
  bv_is_false (i_ini (s_rgn a g)) || singleton_count (i_cnt (s_rgn a g)) = true ->
  forall k y, y <> a0 -> m_hp c g k y = None.
Proof.
  intros R AI S k y Ny. apply orb_true_iff in S. destruct S as [S|S].
  - pose proof (x_init C prog _ _ _ R g) as Ig. unfold ini in Ig.
    destruct (i_ini (s_rgn a g)); try discriminate. apply Ig.
  - destruct (m_hp c g k y) eqn:Hy; auto. elim Ny.
    exact (cg_singleton_addrs _ _ S (x_count C prog _ _ _ R g) _ _ (x_wf C prog _ _ _ R g k y _ Hy) AI).
Qed.
Lemma live_store_info a g i v st g' : live C (set_info (store_side C a g v st) g i) g' = live C (set_info a g i) g'.
Proof. apply live_rgn_eq. unfold set_info. cbn [s_rgn]. rewrite store_side_rgn. reflexivity. Qed.

(* what the decision of ref_store means for the ghost variables of the region *)
Lemma store_decide_cases kg t v :
  vk_is_rgn kg = true -> (kg = VRgnInt -> sval_is_ref v = false) -> (kg = VRgnRef -> sval_is_ref v = true) ->
  match store_decide C kg t v with
  | SAbort => True
  | SNoWrite ff => live_ty C t kg = None \/ (live_ty C t kg = Some TRef /\ sval_is_ref v = false)
  | SKeep => (tracked C kg t = true /\ live_ty C t kg = Some (sval_rty v)) \/
             (tracked C kg t = false /\ live_ty C t kg = None)
  | SFirst nt => nt = Ty (sval_rty v) /\ live_ty C nt kg = Some (sval_rty v)
  | SReint => live_ty C (Ty TRef) kg = Some TRef /\ sval_rty v = TRef
  end.
Proof.
  intros K KI KR. unfold store_decide, tracked_unk, tracked, live_ty, has_dyn, sval_rty.
  destruct kg; try discriminate.
  - rewrite (KI eq_refl), andb_false_r. cbn. auto.
  - rewrite (KR eq_refl), andb_false_r. cbn. auto.
  - destruct (q_skip (k_params C)); cbn; auto.
    destruct t as [| |[| |]], (sval_is_ref v); cbn; auto.
Qed.

Lemma u_store_sound a c c' w r p g v res :
  rel2 C prog a c w -> agree C w c -> is_ref_var C prog p -> vk_is_rgn (k_kind C g) = true ->
  sval_ok2 C prog g v -> cstep2 C (PSt r p g v) c c' -> u_store C p g v a = Some res -> relv2 C prog res c'.
Proof.
  intros R AG Kp Kg (Kv & KI & KR) ((A0 & AI) & f & F & ->) US. unfold u_store in US.
  rewrite <- (AG _ (ref_notrgn_ga_ _ Kp)) in *. set (a0 := w (ga C p)) in *.
  pose proof ltac:(close (null_of_nonzero C prog)) as NZ. rewrite (NZ a c w p R Kp A0) in US. clear NZ.
  pose proof (sval_cell_agree_ v w c f AG Kv F) as Fw.
  set (old := s_rgn a g) in *.
  set (strong := bv_is_false (i_ini old) || singleton_count (i_cnt old)) in *.
  assert (EXN : strong = true -> forall k y, y <> a0 -> m_hp c g k y = None).
  { intros S. eapply store_excl; eauto. }
  pose proof (x_base C prog _ _ _ R) as B. unfold Aof in B.
  set (c' := mkS (m_st c) (hwrite (m_hp c) g a0 f) (m_made c) (m_asite c) (m_vtg c) (hupd (m_htg c) g a0 (sval_tg v c))).
  (* everything but the base domain, when the region gets the type T' *)
  assert (REST : forall T' E0 w', (forall u, ~ rgn_name C u -> w' u = w u) ->
            RBA (allowed (live C (set_info a g (i_cnt old, BTop, T'))) (m_hp c') w') E0 ->
            relv2 C prog (wbase (set_info (store_side C a g v strong) g (i_cnt old, BTop, T')) E0) c').
  { intros T' E0 w' HW HB. apply (store_rest_ a c w g v strong a0 f T' E0 w'); auto.
    apply (rb_live_ext _ _ _ _ _ HB). intros g'. apply live_store_info. }
  (* the value is written to the ghost variables the region has under the type T' *)
  assert (WRITE : forall T' E0, let sn := set_info a g (i_cnt old, BTop, T') in
            RBA (allowed (live C sn) (m_hp c) w) E0 -> live_ty C T' (k_kind C g) = Some (sval_rty v) ->
            relv2 C prog (wbase (store_side C sn g v strong) (mem_write C sn (gv_of C sn g) v (negb strong) E0)) c').
  { intros T' E0 sn B0 LT.
    destruct (rb_mem_write_ sn (m_hp c) w _ g a0 v f strong B0 Kv Fw) as (w' & HW & HB); auto.
    { unfold sn. rewrite typ_set_info_same. exact LT. }
    unfold sn at 1. rewrite store_side_info. exact (REST T' _ w' HW HB). }
  (* the value is not written: no ghost variable of the region describes a component of the new cell *)
  assert (SKIP : (forall u k z, f k = Some z -> ~ In (u, k) (live_of C g (i_ty old))) ->
            RBA (allowed (live C (set_info a g (i_cnt old, BTop, i_ty old))) (m_hp c') w) (EMap (s_base a))).
  { intros NL. apply (rb_live_ext (live C a)); [|apply live_set_info_keep]. apply rb_write_notlive; auto. }
  pose proof (store_decide_cases (k_kind C g) (i_ty old) v Kg KI KR) as SD.
  destruct (store_decide C (k_kind C g) (i_ty old) v) as [|ff| |nt|] eqn:SDE; [discriminate| | | |];
    inversion US; subst res; clear US.
  - apply (REST (i_ty old) _ w (fun _ _ => eq_refl)).
    assert (B1 : RBA (allowed (live C (set_info a g (i_cnt old, BTop, i_ty old))) (m_hp c') w) (EMap (s_base a))).
    { apply SKIP. intros u k z Fk I. destruct SD as [SD|[SD NR]]; unfold live_of in I; rewrite SD in I; [exact I|].
      (* an integer into a region of references *)
      assert (k = PInt).
      { destruct v as [x [|]|k0|]; try discriminate; cbn in Fw; subst f; destruct k; try discriminate; auto. }
      subst k. cbn [comps] in I. destruct I as [J|I]; [discriminate|].
      destruct (snd (gv_of_ty C g (i_ty old))) as [[o z0]|]; [destruct I as [J|[J|[]]]|destruct I]; discriminate. }
    destruct ff; [apply rb_gv_forget_mono|]; exact B1.
  - (* the dynamic type does not change *)
    destruct SD as [[T LT]|[T LT]]; rewrite T.
    + apply WRITE; [|exact LT]. apply (rb_live_ext (live C a)); auto. apply live_set_info_keep.
    + rewrite store_side_info. apply (REST (i_ty old) _ w (fun _ _ => eq_refl)), SKIP.
      intros u k z _ I. unfold live_of in I. rewrite LT in I. exact I.
  - (* the first store sets the dynamic type: the ghost variables of the new type are forgotten *)
    destruct SD as [-> LT]. apply WRITE; [|exact LT].
    rewrite gv_forget_list. apply (rb_retype C a _ _ _ _ g _ B).
    + intros g' N. apply live_set_info_other; auto.
    + intros u k. apply live_vars_in_gv_.
  - (* a region of integers is reinterpreted as a region of references *)
    destruct SD as [LT SR]. apply WRITE; [|rewrite SR; exact LT].
    rewrite (gv_forget_list (gv_of C _ g)). apply (rb_retype C a _ _ _ _ g).
    + apply rb_gv_forget_mono. exact B.
    + intros g' N. apply live_set_info_other; auto.
    + intros u k. apply live_vars_in_gv_.
Qed.

Lemma u_init_sound a c c' w r g res :
  rel2 C prog a c w -> agree C w c -> vk_is_rgn (k_kind C g) = true ->
  cstep2 C (PInit r g) c c' -> u_init C g a = Some res -> relv2 C prog res c'.
Proof.
  intros R AG Kg -> U. unfold u_init in U. destruct (sr_leq (cnt a g) ROneOrMore); [discriminate|].
  inversion U; subst res; clear U.
  set (i0 := (RZero, BFalse, static_ty (k_kind C g))).
  set (S := set_tg C (set_al C (set_info a g i0) g ds_empty) g ds_empty).
  cbn [relv2]. exists w. split. { intros v N. cbn. apply AG; auto. }
  assert (ER : s_rgn S = fupd (s_rgn a) g i0).
  { unfold S. rewrite set_tg_rgn, set_al_rgn. reflexivity. }
  assert (EBs : s_base S = s_base a) by (unfold S; rewrite set_tg_base, set_al_base; reflexivity).
  assert (AL : forall u, u <> g -> s_alloc S u = s_alloc a u).
  { intros u N. unfold S. rewrite set_tg_alloc, set_al_get. destruct (q_alloc (k_params C)); auto.
    destruct (N.eqb_spec u g); [congruence|reflexivity]. }
  assert (TG : forall u, u <> g -> s_tags S u = s_tags a u).
  { intros u N. unfold S. rewrite set_tg_get, set_al_tags. destruct (q_tags (k_params C)); auto.
    destruct (N.eqb_spec u g); [congruence|reflexivity]. }
  constructor; cbn [m_hp m_made m_asite m_vtg m_htg m_st].
  - rewrite EBs. apply (rb_cells _ _ _ _ _ _ (x_base C prog _ _ _ R)). intros g' k x v z I Hx.
    cbn [m_hp] in Hx. unfold fupd in Hx. destruct (N.eqb_spec g' g) as [->|N]; [discriminate|]. split; auto.
    rewrite <- (live_set_info_other a g i0 g' N), <- (live_rgn_eq (set_info a g i0) S); auto.
  - intros g'. unfold cnt, mcreators. rewrite ER. cbn [m_made]. unfold fupd. destruct (N.eqb_spec g' g) as [->|N].
    + reflexivity.
    + apply (x_count C prog _ _ _ R).
  - intros g'. unfold ini. rewrite ER. destruct (N.eq_dec g' g) as [->|N].
    + rewrite fupd_same. cbn. intros k x. rewrite fupd_same. reflexivity.
    + rewrite fupd_other by auto. apply (ig2_ext _ c); [|apply (x_init C prog _ _ _ R)].
      intros k x. cbn [m_hp]. rewrite fupd_other by auto. reflexivity.
  - intros g' k x z H. cbn in H. unfold maddrs. cbn [m_made]. destruct (N.eq_dec g' g) as [->|N].
    + rewrite fupd_same in H. discriminate.
    + rewrite fupd_other in H by auto. rewrite fupd_other by auto. eapply (x_wf C prog _ _ _ R); eauto.
  - intros p Kp Pp. assert (p <> g) by (intros ->; rewrite Kp in Kg; discriminate).
    rewrite AL by auto. apply (x_svar C prog _ _ _ R); auto.
  - intros g' x ad Kg' H. destruct (N.eq_dec g' g) as [->|N]; [rewrite fupd_same in H; discriminate|].
    rewrite fupd_other in H by auto. rewrite AL by auto. eapply (x_srgn C prog _ _ _ R); eauto.
  - intros Off u. unfold S. rewrite set_tg_alloc, set_al_get, Off. apply (x_soff C prog _ _ _ R); auto.
  - apply (x_anull C prog _ _ _ R).
  - intros v Kv. assert (v <> g) by (intros ->; congruence). rewrite TG by auto. apply (x_tvar C prog _ _ _ R); auto.
  - intros g' x Kg'. destruct (N.eq_dec g' g) as [->|N].
    + rewrite fupd_same. apply tg_nil.
    + rewrite fupd_other, TG by auto. apply (x_trgn C prog _ _ _ R); auto.
  - intros Off u. unfold S. rewrite set_tg_get, Off, set_al_tags. apply (x_toff C prog _ _ _ R); auto.
  - intros g' x Hx. destruct (N.eq_dec g' g) as [->|N].
    + rewrite fupd_same. reflexivity.
    + rewrite fupd_other by auto. apply (x_tuw C prog _ _ _ R). intros k. specialize (Hx k).
      rewrite fupd_other in Hx by auto. auto.
Qed.

(* no region has dynamic type bottom (such a region_info is bottom in the C++, and the value
   normalises to bottom) *)
Definition tyok (a : rst2) : Prop := forall g, typ a g <> TyBot.
Definition tyokv (v : rval2) : Prop := match v with None => True | Some a => tyok a end.

Lemma ty_join_nb a b : a <> TyBot -> b <> TyBot -> ty_join a b <> TyBot.
Proof. destruct a as [| |[| |]], b as [| |[| |]]; cbn; congruence. Qed.
(* the join of two types other than bottom is the type of a tracked region only if both are that type *)
Lemma live_of_join g ta tb p : ta <> TyBot -> tb <> TyBot ->
  In p (live_of C g (ty_join ta tb)) -> In p (live_of C g ta) /\ In p (live_of C g tb).
Proof.
  intros Na Nb. unfold live_of, live_ty, gv_of_ty. destruct (k_kind C g); auto.
  unfold has_dyn. destruct (q_skip (k_params C)); [contradiction|].
  destruct ta as [| |[| |]], tb as [| |[| |]]; cbn; first [contradiction | auto].
Qed.

Lemma comb2_union fb a b c :
  (forall x y s, genv x s \/ genv y s -> genv (fb x y) s) ->
  tyok a -> tyok b ->
  relc C prog a c \/ relc C prog b c -> relv2 C prog (comb2 fb ri2_join ds_join a b) c.
Proof.
  intros FB Ta Tb H. unfold comb2.
  set (S := mkR2 [] (fun v => ri2_join (s_rgn a v) (s_rgn b v)) (fun v => ds_join (s_alloc a v) (s_alloc b v))
                 (fun v => ds_join (s_tags a v) (s_tags b v))).
  assert (X : exists w, agree C w c /\ (rel2 C prog a c w \/ rel2 C prog b c w)).
  { destruct H as [(w & AG & R)|(w & AG & R)]; exists w; auto. }
  destruct X as (w & AG & H').
  assert (LS : forall g p, In p (live C S g) -> In p (live C a g) /\ In p (live C b g)).
  { intros g p. apply live_of_join; [apply Ta|apply Tb]. }
  assert (HB : RBA (allowed (live C S) (m_hp c) w) (fb (EMap (s_base a)) (EMap (s_base b)))).
  { destruct H' as [R|R]; [apply (rb_mono (allowed (live C S) (m_hp c) w) (EMap (s_base a)))
                          |apply (rb_mono (allowed (live C S) (m_hp c) w) (EMap (s_base b)))]; auto;
      apply (rb_cells _ _ _ _ _ _ (x_base C prog _ _ _ R)); intros g k x v z I Hx; split; auto; apply (LS _ _ I). }
  apply (relv2_intro C prog S _ c w AG HB). intros m Em.
  constructor; cbn [s_base s_rgn s_alloc s_tags S].
  - rewrite <- Em. apply (rb_live_ext _ _ _ _ _ HB). apply live_rgn_eq. reflexivity.
  - intros g. unfold cnt. cbn [s_rgn ri2_join i_cnt fst]. apply cg_join.
    destruct H' as [R|R]; [left|right]; apply (x_count C prog _ _ _ R).
  - intros g. unfold ini. cbn [s_rgn ri2_join i_ini fst snd]. apply ig2_join.
    destruct H' as [R|R]; [left|right]; apply (x_init C prog _ _ _ R).
  - destruct H' as [R|R]; apply (x_wf C prog _ _ _ R).
  - intros p Kp Pp. apply sg2_join. destruct H' as [R|R]; [left|right]; apply (x_svar C prog _ _ _ R); auto.
  - intros g x ad Kg Hx. apply sg2_join. destruct H' as [R|R]; [left|right]; eapply (x_srgn C prog _ _ _ R); eauto.
  - intros Off v. destruct H' as [R|R]; rewrite (x_soff C prog _ _ _ R Off);
      [apply ds_join_none_l | apply ds_join_none_r].
  - destruct H' as [R|R]; apply (x_anull C prog _ _ _ R).
  - intros v Kv. apply tg_join. destruct H' as [R|R]; [left|right]; apply (x_tvar C prog _ _ _ R); auto.
  - intros g x Kg. apply tg_join. destruct H' as [R|R]; [left|right]; apply (x_trgn C prog _ _ _ R); auto.
  - intros Off v. destruct H' as [R|R]; rewrite (x_toff C prog _ _ _ R Off);
      [apply ds_join_none_l | apply ds_join_none_r].
  - destruct H' as [R|R]; apply (x_tuw C prog _ _ _ R).
Qed.

Lemma w_join_sound x y c :
  tyokv x -> tyokv y -> relv2 C prog x c \/ relv2 C prog y c -> relv2 C prog (w_join x y) c.
Proof.
  destruct x as [a|], y as [b|]; cbn [w_join relv2 tyokv]; try tauto.
  intros Ta Tb H. apply comb2_union; auto. intros; apply e_join_sound; auto.
Qed.
Lemma w_widen_sound x y c :
  tyokv x -> tyokv y -> relv2 C prog x c \/ relv2 C prog y c -> relv2 C prog (w_widen x y) c.
Proof.
  destruct x as [a|], y as [b|]; cbn [w_widen relv2 tyokv]; try tauto.
  intros Ta Tb H. apply comb2_union; auto. intros; apply e_widen_sound; auto.
Qed.

Lemma tyok_rgn a a' : s_rgn a' = s_rgn a -> tyok a -> tyok a'.
Proof. intros E T g. unfold typ. rewrite E. apply T. Qed.
Lemma tyok_wbase s E a' : wbase s E = Some a' -> tyok s -> tyok a'.
Proof. destruct E as [|m]; cbn; intros H; inversion H; subst. apply tyok_rgn. reflexivity. Qed.
Lemma tyok_set_al s v d : tyok s -> tyok (set_al C s v d).
Proof. apply tyok_rgn. apply set_al_rgn. Qed.
Lemma tyok_set_tg s v d : tyok s -> tyok (set_tg C s v d).
Proof. apply tyok_rgn. apply set_tg_rgn. Qed.
Lemma tyok_set_info s g i : tyok s -> i_ty i <> TyBot -> tyok (set_info s g i).
Proof.
  intros T N g'. unfold typ, set_info. cbn [s_rgn]. unfold fupd. destruct (N.eqb g' g); auto. apply T.
Qed.
Lemma tyok_store_side s g v st : tyok s -> tyok (store_side C s g v st).
Proof. apply tyok_rgn. apply store_side_rgn. Qed.
Lemma static_ty_nb k : static_ty k <> TyBot.
Proof. destruct k; discriminate. Qed.
Lemma tyok_top : tyok s_top.
Proof. intros g. cbn. discriminate. Qed.

Ltac peel H :=
  cbv zeta in H;
  repeat match type of H with
         | (if ?b then _ else _) = Some _ => destruct b
         | (match ?x with _ => _ end) = Some _ => destruct x
         | None = Some _ => discriminate H
         end.
Ltac tyS T :=
  repeat match goal with
         | |- tyok (if ?b then _ else _) => destruct b
         | |- tyok (set_al _ _ _ _) => apply tyok_set_al
         | |- tyok (set_tg _ _ _ _) => apply tyok_set_tg
         | |- tyok (store_side _ _ _ _ _) => apply tyok_store_side
         | |- tyok (set_info _ _ _) =>
           apply tyok_set_info; [|cbn [i_ty snd]; repeat first [rewrite set_al_rgn | rewrite set_tg_rgn];
                                  try first [apply T | apply static_ty_nb | discriminate]]
         end; try assumption.
Ltac tyW T H := peel H; (apply tyok_wbase in H; [exact H|]); tyS T.

Lemma u_havoc_tyok v a a' : tyok a -> u_havoc C v a = Some a' -> tyok a'.
Proof. intros T H. unfold u_havoc in H. tyW T H. Qed.

Lemma store_decide_first kg t v nt : store_decide C kg t v = SFirst nt -> nt <> TyBot.
Proof.
  unfold store_decide. destruct (tracked_unk C kg); [|discriminate].
  destruct t as [| |[| |]]; try discriminate.
  - intros H. inversion H. discriminate.
  - destruct (rty_eqb TInt (sval_rty v)); [discriminate|]. cbn. destruct (sval_is_ref v); discriminate.
  - destruct (rty_eqb TRef (sval_rty v)); discriminate.
Qed.

Lemma u_store_tyok p g v a a' : tyok a -> u_store C p g v a = Some (Some a') -> tyok a'.
Proof.
  intros T H. unfold u_store in H. cbv zeta in H.
  destruct (bv_is_true (null_of C a p)).
  { inversion H as [H1]. apply tyok_wbase in H1; auto. }
  destruct (store_decide C (k_kind C g) (i_ty (s_rgn a g)) v) eqn:SD; try discriminate;
    inversion H as [H1]; clear H; apply tyok_wbase in H1; auto; tyS T.
  eapply store_decide_first; eauto.
Qed.

Lemma u_mk_tyok p g site size a a' : tyok a -> u_mk C p g site size a = Some a' -> tyok a'.
Proof. intros T H. unfold u_mk in H. tyW T H. Qed.
Lemma u_load_tyok x p g a a' : tyok a -> u_load C x p g a = Some a' -> tyok a'.
Proof. intros T H. unfold u_load in H. tyW T H. Qed.
Lemma u_gep_tyok p2 g2 p1 g1 off ad oe a a' : tyok a -> u_gep C p2 g2 p1 g1 off ad oe a = Some a' -> tyok a'.
Proof. intros T H. unfold u_gep in H. tyW T H. Qed.
Lemma u_assume_ref_tyok c ea eo ez a a' : tyok a -> u_assume_ref C c ea eo ez a = Some a' -> tyok a'.
Proof. intros T H. unfold u_assume_ref in H. tyW T H. Qed.
Lemma u_r2i_tyok p x a a' : tyok a -> u_r2i C p x a = Some a' -> tyok a'.
Proof. intros T H. unfold u_r2i in H. tyW T H. Qed.
Lemma u_i2r_tyok x g p a a' : tyok a -> u_i2r C x g p a = Some a' -> tyok a'.
Proof. intros T H. unfold u_i2r in H. tyW T H. Qed.
Lemma u_isderef_tyok b a a' : tyok a -> u_isderef C b a = Some a' -> tyok a'.
Proof.
  intros T H. unfold u_isderef in H. destruct (q_deref (k_params C)).
  - eapply u_havoc_tyok; eauto.
  - inversion H; subst; auto.
Qed.
Lemma u_assign_tyok x e a a' : tyok a -> u_assign C x e a = Some a' -> tyok a'.
Proof. intros T H. unfold u_assign in H. tyW T H. Qed.
Lemma u_arith_tyok op x y z a a' : tyok a -> u_arith C op x y z a = Some a' -> tyok a'.
Proof. intros T H. unfold u_arith in H. tyW T H. Qed.
Lemma u_assume_tyok cs a a' : tyok a -> u_assume cs a = Some a' -> tyok a'.
Proof. intros T H. unfold u_assume in H. tyW T H. Qed.
Lemma u_free_tyok g p a : tyok a -> tyok (u_free C g p a).
Proof. intros T. unfold u_free. apply tyok_set_al; auto. Qed.

Lemma comb2_tyok fb a b r : tyok a -> tyok b -> comb2 fb ri2_join ds_join a b = Some r -> tyok r.
Proof.
  intros Ta Tb H. unfold comb2 in H. apply tyok_wbase in H; auto.
  intros g. unfold typ. cbn [s_rgn ri2_join i_ty snd]. apply ty_join_nb; [apply Ta|apply Tb].
Qed.
Lemma w_join_tyok x y : tyokv x -> tyokv y -> tyokv (w_join x y).
Proof.
  destruct x as [a|], y as [b|]; cbn [w_join tyokv]; auto. intros Ta Tb.
  destruct (comb2 e_join ri2_join ds_join a b) eqn:E; cbn; auto. exact (comb2_tyok _ _ _ _ Ta Tb E).
Qed.
Lemma w_widen_tyok x y : tyokv x -> tyokv y -> tyokv (w_widen x y).
Proof.
  destruct x as [a|], y as [b|]; cbn [w_widen tyokv]; auto. intros Ta Tb.
  destruct (comb2 e_widen ri2_join ds_join a b) eqn:E; cbn; auto. exact (comb2_tyok _ _ _ _ Ta Tb E).
Qed.

Lemma tyokv_wget rs r : Forall tyokv rs -> tyokv (wget rs r).
Proof.
  intros F. unfold wget. revert r. induction F as [|h t Hh Ht IH]; intros r; destruct r; cbn; auto; try apply tyok_top.
Qed.
Lemma tyokv_wset rs r v : Forall tyokv rs -> tyokv v -> Forall tyokv (wset rs r v).
Proof.
  intros F Hv. revert r. induction F as [|h t Hh Ht IH]; intros r; cbn; auto. destruct r; constructor; auto.
Qed.
Lemma tyokv_upd rs r f :
  (forall a a', tyok a -> f a = Some a' -> tyok a') -> Forall tyokv rs -> Forall tyokv (wset rs r (lift2 f (wget rs r))).
Proof.
  intros H F. apply tyokv_wset; auto. pose proof (tyokv_wget rs r F) as W.
  destruct (wget rs r) as [a|]; cbn; auto. destruct (f a) eqn:E; cbn; auto. eapply H; eauto.
Qed.

(* join and widening: the union of the two sets of states; everything else as in cstepS2 *)
Definition cstepS3 (cs : list csetS) (o : rop2) : list csetS :=
  match o with
  | PJoin r s t | PWiden r s t => csetrS cs r (fun c => cgetS cs s c \/ cgetS cs t c)
  | _ => cstepS2 C cs o
  end.
Definition op_ok3 (o : rop2) : Prop :=
  match o with
  | PSt _ p g v => is_ref_var C prog p /\ vk_is_rgn (k_kind C g) = true /\ sval_ok2 C prog g v
  | PJoin _ _ _ | PWiden _ _ _ => True
  | PInit _ g => vk_is_rgn (k_kind C g) = true
  | _ => op_ok2 C prog o
  end.
Lemma op_ok2_ok3 o : op_ok2 C prog o -> op_ok3 o.
Proof. destruct o; cbn; try contradiction; auto. Qed.
Lemma cstepS3_ok2 cs o : op_ok2 C prog o -> cstepS3 cs o = cstepS2 C cs o.
Proof. destruct o; cbn; try contradiction; reflexivity. Qed.

Lemma u_init_tyok g a a' : tyok a -> u_init C g a = Some (Some a') -> tyok a'.
Proof.
  intros T H. unfold u_init in H. destruct (sr_leq (cnt a g) ROneOrMore); [discriminate|].
  inversion H; subst. tyS T.
Qed.

Lemma pstep_tyok rs o rs' : op_ok3 o -> Forall tyokv rs -> pstep C rs o = Some rs' -> Forall tyokv rs'.
Proof.
  intros OK F ST. pose proof (tyokv_wget rs) as W.
  destruct o; cbn [pstep op_ok3 op_ok2] in *; try contradiction; try (inversion ST; subst rs'; clear ST).
  - apply tyokv_wset; auto. apply tyok_top.
  - apply tyokv_wset; auto.
  - apply tyokv_wset; auto.
  - specialize (W r F). destruct (wget rs r) as [s|]; [|inversion ST; subst; auto].
    destruct (u_init C g s) as [res|] eqn:US; [|discriminate]. inversion ST; subst rs'.
    apply tyokv_wset; auto. destruct res as [a'|]; cbn; auto. eapply u_init_tyok; eauto.
  - exact (tyokv_upd _ _ _ (u_mk_tyok p g site size) F).
  - apply tyokv_upd; auto. intros a a' T H. inversion H; subst. apply u_free_tyok; auto.
  - exact (tyokv_upd _ _ _ (u_load_tyok x p g) F).
  - specialize (W r F). destruct (wget rs r) as [s|]; [|inversion ST; subst; auto].
    destruct (u_store C p g v s) as [res|] eqn:US; [|discriminate]. inversion ST; subst rs'.
    apply tyokv_wset; auto. destruct res as [a'|]; cbn; auto. eapply u_store_tyok; eauto.
  - exact (tyokv_upd _ _ _ (u_gep_tyok p2 g2 p1 g1 offset addr offe) F).
  - exact (tyokv_upd _ _ _ (u_assume_ref_tyok c ea eo ez) F).
  - exact (tyokv_upd _ _ _ (u_r2i_tyok p x) F).
  - exact (tyokv_upd _ _ _ (u_i2r_tyok x g p) F).
  - exact (tyokv_upd _ _ _ (u_isderef_tyok b) F).
  - exact (tyokv_upd _ _ _ (u_assign_tyok x e) F).
  - exact (tyokv_upd _ _ _ (u_arith_tyok op x y z) F).
  - exact (tyokv_upd _ _ _ (u_assume_tyok cs) F).
  - exact (tyokv_upd _ _ _ (u_havoc_tyok v) F).
  - apply tyokv_wset; auto. apply w_join_tyok; auto.
  - apply tyokv_wset; auto. apply w_widen_tyok; auto.
Qed.

Theorem pstep_sound3 rs cs o rs' :
  rels2 C prog rs cs -> Forall tyokv rs -> op_ok3 o -> pstep C rs o = Some rs' ->
  rels2 C prog rs' (cstepS3 cs o).
Proof.
  intros R F OK ST. pose proof R as [L RR]. pose proof (tyokv_wget rs) as W.
  destruct o; try exact (pstep_sound_ rs cs _ rs' R OK ST); cbn [op_ok3 cstepS3] in *.
  - (* region_init *)
    cbn [pstep] in ST. cbn [cstepS2 reg_of2].
    destruct (wget rs r) as [s|] eqn:WR.
    + destruct (u_init C g s) as [res|] eqn:US; [|discriminate]. inversion ST; subst rs'.
      apply rels2_set; auto. intros c' (c0 & G & S). specialize (RR _ _ G). rewrite WR in RR.
      destruct RR as (w & AG & Rw). exact (u_init_sound s c0 c' w r g res Rw AG OK S US).
    + inversion ST; subst rs'. rewrite <- (wset_same rs r) at 1. apply rels2_set; auto.
      intros c' (c0 & G & S). specialize (RR _ _ G). rewrite WR in RR. elim RR.
  - (* store *)
    destruct OK as (K1 & K2 & K3). cbn [pstep] in ST. cbn [cstepS2 reg_of2].
    destruct (wget rs r) as [s|] eqn:WR.
    + destruct (u_store C p g v s) as [res|] eqn:US; [|discriminate]. inversion ST; subst rs'.
      apply rels2_set; auto. intros c' (c0 & G & S). specialize (RR _ _ G). rewrite WR in RR.
      destruct RR as (w & AG & Rw). exact (u_store_sound s c0 c' w r p g v res Rw AG K1 K2 K3 S US).
    + inversion ST; subst rs'. rewrite <- (wset_same rs r) at 1. apply rels2_set; auto.
      intros c' (c0 & G & S). specialize (RR _ _ G). rewrite WR in RR. elim RR.
  - (* join *)
    cbn [pstep] in ST. inversion ST; subst rs'. apply rels2_set; auto.
    intros c [G|G]; apply w_join_sound; auto.
  - (* widening *)
    cbn [pstep] in ST. inversion ST; subst rs'. apply rels2_set; auto.
    intros c [G|G]; apply w_widen_sound; auto.
Qed.

Theorem region2_history_sound2 h : Forall op_ok3 h -> forall rs cs rs',
  rels2 C prog rs cs -> Forall tyokv rs -> prun C rs h = Some rs' ->
  rels2 C prog rs' (fold_left cstepS3 h cs) /\ Forall tyokv rs'.
Proof.
  induction h as [|o t IH]; cbn [fold_left prun]; intros OK rs cs rs' R F RUN.
  - inversion RUN; subst; auto.
  - inversion OK as [|? ? Ho Ht]; subst. destruct (pstep C rs o) as [rs1|] eqn:ST; [|discriminate].
    apply (IH Ht rs1 (cstepS3 cs o) rs'); auto.
    + eapply pstep_sound3; eauto.
    + eapply pstep_tyok; eauto.
Qed.

(* the histories of region2_history_sound are histories of the larger machine with the same
   concrete semantics *)
Lemma fold_cstepS3_ok2 h : Forall (op_ok2 C prog) h -> forall cs, fold_left cstepS3 h cs = fold_left (cstepS2 C) h cs.
Proof.
  induction 1 as [|o t Ho Ht IH]; intros cs; simpl; auto. rewrite cstepS3_ok2 by auto. apply IH.
Qed.

End Sound2.

(* the theorems under the single hypothesis naming_ok (Dom/RegionCore2Sound.v) *)
Lemma nm2_history C prog : naming_ok C prog -> forall h, Forall (op_ok3 C prog) h -> forall rs cs rs',
  rels2 C prog rs cs -> Forall tyokv rs -> prun C rs h = Some rs' ->
  rels2 C prog rs' (fold_left (cstepS3 C) h cs) /\ Forall tyokv rs'.
Proof. with_naming region2_history_sound2. Qed.
Lemma nm_at C prog : naming_ok C prog -> forall rs cs r c x, rels2 C prog rs cs -> cgetS cs r c -> is_int_var C prog x ->
  gamma (o_at C (wget rs r) x) (m_st c x).
Proof. with_naming o_at_sound. Qed.

(* region2_history_sound is the restriction of region2_history_sound2 to the operations of op_ok2 *)
Lemma nm2_subsumes C prog : forall h, Forall (op_ok2 C prog) h ->
  Forall (op_ok3 C prog) h /\ forall cs, fold_left (cstepS3 C) h cs = fold_left (cstepS2 C) h cs.
Proof.
  intros h H. split.
  - eapply Forall_impl; [|exact H]. apply op_ok2_ok3.
  - apply (fold_cstepS3_ok2 C prog); auto.
Qed.

(* answers after any history over the larger set *)
Section Answers.
Variables (C : rconf2) (prog : var -> bool).
Hypothesis NM : naming_ok C prog.
Variables (h : list rop2) (rs rs' : list rval2) (cs : list csetS).
Hypothesis OK : Forall (op_ok3 C prog) h.
Hypothesis R0 : rels2 C prog rs cs.
Hypothesis T0 : Forall tyokv rs.
Hypothesis RUN : prun C rs h = Some rs'.
Let R' := proj1 (nm2_history C prog NM h OK rs cs rs' R0 T0 RUN).

Lemma hist2_at r c x : cgetS (fold_left (cstepS3 C) h cs) r c -> is_int_var C prog x ->
  gamma (o_at C (wget rs' r) x) (m_st c x).
Proof. intros G K. eapply nm_at; eauto. Qed.
Lemma hist2_null r c p : cgetS (fold_left (cstepS3 C) h cs) r c -> is_ref_var C prog p ->
  (o_null C (wget rs' r) p = BTrue -> m_st c (ga C p) = 0) /\
  (o_null C (wget rs' r) p = BFalse -> m_st c (ga C p) <> 0).
Proof. intros G K. eapply nm_null; eauto. Qed.
Lemma hist2_sites r c p ss : cgetS (fold_left (cstepS3 C) h cs) r c -> is_ref_var C prog p ->
  o_sites (wget rs' r) p = Some ss ->
  m_st c (ga C p) = 0 \/ exists site, m_asite c (m_st c (ga C p)) = Some site /\ In site ss.
Proof. intros G K. eapply nm_sites; eauto. Qed.
Lemma hist2_offsize r c p io iz : cgetS (fold_left (cstepS3 C) h cs) r c -> is_ref_var C prog p ->
  o_offsize C (wget rs' r) p = Some (io, iz) -> gamma io (m_st c (go C p)) /\ gamma iz (m_st c (gz C p)).
Proof. intros G K. eapply nm_offsize; eauto. Qed.
End Answers.

(* example: two references into an unknown region, two stores, a copy that stores again, join, load
   (variables: x = 1, p = 4, q = 5, U = 7) *)
Definition ex2_hist : list rop2 :=
  [PInit 0%nat 7%N; PMk 0%nat 4%N 7%N 1 (OCst 4); PMk 0%nat 5%N 7%N 2 (OCst 4);
   PSt 0%nat 4%N 7%N (SCst 5); PSt 0%nat 5%N 7%N (SCst 9); PCopy 1%nat 0%nat;
   PSt 1%nat 4%N 7%N (SCst 20); PJoin 0%nat 0%nat 1%nat; PLd 0%nat 1%N 4%N 7%N].
(* the ghost names of this configuration satisfy naming_ok: .address = 8 + 4v, .offset = 9 + 4v,
   .size = 10 + 4v, dup = 11 + 4v, program variables 0..7 *)
Definition ex2_C : rconf2 :=
  mkC2 (mkP2 true true true false) exm_kind (fun v => 8 + 4 * v)%N (fun v => 9 + 4 * v)%N (fun v => 10 + 4 * v)%N
       (fun v => 11 + 4 * v)%N [6%N; 7%N].
Definition ex2_prog (v : var) : bool := N.ltb v 8.
Example ex2_abstract :
  match prun ex2_C [Some s_top; Some s_top] ex2_hist with
  | Some [Some s; _] => Some (o_at ex2_C (Some s) 1%N, s_rgn s 7%N, s_alloc s 4%N)
  | _ => None
  end = Some (mkI (Fin 5) (Fin 20), (ROneOrMore, BTop, Ty TInt), Some [1; 1]).
Proof. vm_compute. reflexivity. Qed.
Lemma ex2_naming : naming_ok ex2_C ex2_prog.
Proof.
  unfold naming_ok, ex2_prog, ex2_C; cbn [k_kind k_adr k_off k_siz k_dup]. repeat split; intros; try (apply N.ltb_ge; lia); try lia.
  apply N.ltb_ge in H. unfold exm_kind.
  destruct (N.leb_spec v 2); [lia|]. destruct (N.eqb_spec v 3); [lia|]. destruct (N.leb_spec v 5); [lia|].
  destruct (N.eqb_spec v 6); [lia|]. destruct (N.eqb_spec v 7); [lia|]. reflexivity.
Qed.
Lemma ex2_ops_ok : Forall (op_ok3 ex2_C ex2_prog) ex2_hist.
Proof.
  unfold ex2_hist. repeat constructor; cbn; unfold is_ref_var, is_int_var, size_ok, sval_ok2; cbn;
    repeat split; auto; try discriminate; intros; try discriminate.
Qed.
