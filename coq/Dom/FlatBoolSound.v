(* FlatBoolSound.v — concretisation of the model of flat_boolean_numerical_domain<interval_domain>
   (FlatBool.v) over pairs of stores (integer variables, Boolean variables) and soundness of
   every operation, of the inclusion test, and of arbitrary operation histories over several
   registers (properties C03 / C04 for this domain); lifting clause of C12: on numerical code
   the numerical component evolves exactly like the interval-domain model. *)
From Coq Require Import ZArith NArith List Bool Lia.
From CrabV Require Import Base.ZInf Scalar.Itv Scalar.ItvSound Ir.Syntax Dom.ItvEnv Dom.ItvEnvSound
     Dom.ItvSolver Dom.ItvSolverSound Dom.ItvDomain Dom.ItvDomainSound Dom.History Dom.HistorySound
     Fix.Thresholds Fix.ThresholdsSound Dom.FlatBool.
Import ListNotations.
Local Open Scope Z_scope.

Arguments d_add : simpl never.
Arguments d_select : simpl never.
Arguments d_cast : simpl never.
Arguments d_entails : simpl never.

Section DSetFacts.
  Variable A : Type.
  Variables (aeqb altb : A -> A -> bool).
  Hypothesis aeqb_eq : forall x y, aeqb x y = true -> x = y.
  Hypothesis aeqb_refl : forall x, aeqb x x = true.

  Lemma mem_In x l : mem A aeqb x l = true -> In x l.
  Proof.
    unfold mem. intros H. apply existsb_exists in H. destruct H as (y & I & E).
    apply aeqb_eq in E. subst. exact I.
  Qed.
  Lemma In_mem x l : In x l -> mem A aeqb x l = true.
  Proof. intros I. apply existsb_exists. exists x. auto. Qed.

  Lemma ins_In x y l : In x (ins A aeqb altb y l) -> x = y \/ In x l.
  Proof.
    induction l as [|h t IH]; simpl.
    - intros [E|[]]; auto.
    - destruct (altb y h).
      + intros [E|I]; auto.
      + destruct (aeqb y h).
        * auto.
        * intros [E|I]; auto. destruct (IH I); auto.
  Qed.

  Lemma In_ins_old x y l : In x l -> In x (ins A aeqb altb y l).
  Proof.
    induction l as [|h t IH]; simpl; [intros []|].
    intros I. destruct (altb y h); [right; exact I|].
    destruct (aeqb y h); [exact I|].
    destruct I as [E|I]; [left; exact E|right; apply IH; exact I].
  Qed.

  Lemma In_ins_new y l : In y (ins A aeqb altb y l).
  Proof.
    induction l as [|h t IH]; simpl; auto.
    destruct (altb y h); [left; reflexivity|].
    destruct (aeqb y h) eqn:E; [apply aeqb_eq in E; subst; left; reflexivity|].
    right. exact IH.
  Qed.

  Lemma union_In x l2 : forall l1, In x (union A aeqb altb l1 l2) -> In x l1 \/ In x l2.
  Proof.
    unfold union. induction l2 as [|h t IH]; simpl; intros l1 I; auto.
    apply IH in I. destruct I as [I|I]; auto.
    apply ins_In in I. destruct I as [E|I]; auto.
  Qed.

  Lemma inter_In x l1 l2 : In x (inter A aeqb l1 l2) -> In x l1 /\ In x l2.
  Proof.
    unfold inter. intros I. apply filter_In in I. destruct I as [I M]. split; auto.
    apply mem_In. exact M.
  Qed.

  Lemma subset_In l1 l2 x : subset A aeqb l1 l2 = true -> In x l1 -> In x l2.
  Proof.
    unfold subset. intros S I. rewrite forallb_forall in S. apply mem_In. apply S. exact I.
  Qed.

  Lemma rem_In x y l : In y (rem A aeqb x l) -> In y l /\ aeqb x y = false.
  Proof.
    unfold rem. intros I. apply filter_In in I. destruct I as [I N]. split; auto.
    apply negb_true_iff in N. exact N.
  Qed.

  (* membership in a dual set ("all elements" contains everything) after each operation *)
  Lemma dv_at_rem x v y : v <> DVBot -> dv_at A aeqb y (dv_rem A aeqb x v) = true ->
    dv_at A aeqb y v = true /\ y <> x.
  Proof.
    destruct v as [|l]; [congruence|]. simpl. intros _ M. apply mem_In, rem_In in M.
    destruct M as [I N]. split; [apply In_mem; exact I|]. intros ->. rewrite aeqb_refl in N. discriminate.
  Qed.
  Lemma dv_at_add x v y : dv_at A aeqb y (dv_add A aeqb altb x v) = true ->
    y = x \/ dv_at A aeqb y v = true.
  Proof.
    destruct v as [|l]; simpl; auto. intros M. apply mem_In, ins_In in M.
    destruct M as [E|I]; [left; exact E|right; apply In_mem; exact I].
  Qed.
  Lemma dv_at_join a b y : dv_at A aeqb y (dv_join A aeqb a b) = true ->
    dv_at A aeqb y a = true /\ dv_at A aeqb y b = true.
  Proof using aeqb_eq aeqb_refl.
    unfold dv_join. destruct (dv_is_top a || dv_is_top b); [discriminate|].
    destruct a as [|la], b as [|lb]; simpl; auto. intros M. apply mem_In, inter_In in M.
    destruct M. split; apply In_mem; assumption.
  Qed.
  Lemma dv_at_leq a b y : dv_leq A aeqb a b = true -> dv_at A aeqb y b = true -> dv_at A aeqb y a = true.
  Proof.
    unfold dv_leq. destruct (dv_is_top b) eqn:Tb.
    { destruct b as [|[|h lb]]; discriminate. }
    destruct a as [|la]; [reflexivity|]. destruct b as [|lb]; [discriminate|]. cbn [dv_is_bot orb dv_at].
    intros S M. apply In_mem. eapply subset_In; [exact S|]. apply mem_In. exact M.
  Qed.

  (* a dual set all of whose elements have a property ("all elements" has none) *)
  Definition dv_all (P : A -> Prop) (v : dval A) : Prop :=
    match v with DVBot => False | DVSet l => forall a, In a l -> P a end.

  Lemma dv_all_top (P : A -> Prop) : dv_all P dv_top.
  Proof. intros a []. Qed.
  Lemma dv_all_single (P : A -> Prop) a : P a -> dv_all P (dv_single a).
  Proof. intros H b [<-|[]]. exact H. Qed.
  Lemma dv_all_not_bot (P : A -> Prop) v : dv_all P v -> v <> DVBot.
  Proof. destruct v; simpl; [intros []|discriminate]. Qed.
  Lemma dv_all_mono (P Q : A -> Prop) v : (forall a, P a -> Q a) -> dv_all P v -> dv_all Q v.
  Proof. destruct v; simpl; auto. Qed.
  Lemma dv_all_join (P : A -> Prop) x y : dv_all P x \/ dv_all P y -> dv_all P (dv_join A aeqb x y).
  Proof using aeqb_eq.
    unfold dv_join. destruct (dv_is_top x || dv_is_top y); [intros _; apply dv_all_top|].
    destruct x as [|lx], y as [|ly]; simpl; try (intros [H|H]; (destruct H || exact H)).
    intros H a I. apply inter_In in I. destruct I. destruct H as [H|H]; apply H; assumption.
  Qed.
  Lemma dv_all_meet (P : A -> Prop) x y : dv_all P x -> dv_all P y -> dv_all P (dv_meet A aeqb altb x y).
  Proof.
    destruct x as [|lx], y as [|ly]; simpl; try contradiction.
    intros Hx Hy a I. apply union_In in I. destruct I; auto.
  Qed.
  Lemma dv_all_leq (P : A -> Prop) x y : dv_leq A aeqb x y = true -> dv_all P x -> dv_all P y.
  Proof.
    unfold dv_leq. destruct (dv_is_top y) eqn:Ty.
    { destruct y as [|[|h ly]]; try discriminate. intros _ _. apply dv_all_top. }
    destruct x as [|lx]; [intros _ []|]. destruct y as [|ly]; [discriminate|]. cbn [dv_is_bot orb dv_all].
    intros S H a I. apply H. eapply subset_In; eauto.
  Qed.
  Lemma dv_all_filter (P : A -> Prop) q v : dv_all P v -> dv_all (fun a => P a /\ q a = true) (dv_filter q v).
  Proof. destruct v as [|l]; simpl; auto. intros H a I. apply filter_In in I. destruct I. split; [apply H|]; assumption. Qed.
  Lemma dv_all_rem (P : A -> Prop) x v : dv_all P v -> dv_all (fun a => P a /\ a <> x) (dv_rem A aeqb x v).
  Proof.
    destruct v as [|l]; simpl; auto. intros H a I. apply rem_In in I. destruct I as [I N].
    split; [apply H; exact I|]. intros ->. rewrite aeqb_refl in N. discriminate.
  Qed.
End DSetFacts.
Arguments dv_all {A} P v.

Lemma snd_combine (from to : list var) : length from = length to -> map snd (combine from to) = to.
Proof.
  revert to. induction from as [|f fr IH]; intros [|t tr] L; simpl in *; try discriminate; auto.
  f_equal. apply IH. lia.
Qed.
Lemma in_combine_fst {A B} (l : list A) (l' : list B) p : In p (combine l l') -> In (fst p) l.
Proof. destruct p. apply in_combine_l. Qed.
Lemma in_combine_snd {A B} (l : list A) (l' : list B) p : In p (combine l l') -> In (snd p) l'.
Proof. destruct p. apply in_combine_r. Qed.
Lemma combine_filter (isb : var -> bool) : forall from to : list var,
  length from = length to -> (forall p, In p (combine from to) -> isb (fst p) = isb (snd p)) ->
  combine (filter isb from) (filter isb to) = filter (fun p => isb (fst p)) (combine from to).
Proof.
  induction from as [|f fr IH]; intros [|t tr] L H; simpl in *; try discriminate; auto.
  pose proof (H (f, t) (or_introl eq_refl)) as E. simpl in E. rewrite <- E.
  destruct (isb f); simpl; [f_equal|]; apply IH; auto.
Qed.
Lemma NoDup_map_filter {A B} (g : A -> B) (P : A -> bool) l : NoDup (map g l) -> NoDup (map g (filter P l)).
Proof.
  induction l as [|h r IH]; simpl; intros ND; auto. inversion ND as [|? ? NI ND']; subst.
  destruct (P h); simpl; auto. constructor; auto.
  intros I. apply NI. apply in_map_iff in I. destruct I as (x & E & I). apply filter_In in I.
  apply in_map_iff. exists x. tauto.
Qed.

(* Environments are described pointwise: [R v x] = the abstract value v describes the concrete
   value x bound to the same key; [T : var -> X] is the concrete valuation. *)
Section SepSound.
  Variable V : Type.
  Variable O : vops V.
  Variable X : Type.
  Variable R : V -> X -> Prop.
  Hypothesis Htop : forall v, v_is_top O v = true -> v = vtop O.
  Hypothesis Htt : v_is_top O (vtop O) = true.
  Hypothesis Rtop : forall x, R (vtop O) x.
  Hypothesis Rbot : forall v x, v_is_bot O v = true -> ~ R v x.

  Definition gupd (T : var -> X) (k : var) (x : X) : var -> X :=
    fun y => if N.eqb y k then x else T y.
  Definition gsmap (m : smap V) (T : var -> X) : Prop := forall k, R (sget V O m k) (T k).
  Definition gsenv (e : senv V) (T : var -> X) : Prop :=
    match e with SBot => False | SMap m => gsmap m T end.

  Lemma gupd_same T k x : gupd T k x k = x.
  Proof. unfold gupd. rewrite N.eqb_refl. reflexivity. Qed.
  Lemma gupd_other T k x y : y <> k -> gupd T k x y = T y.
  Proof. unfold gupd. intros H. destruct (N.eqb_spec y k); congruence. Qed.

  Lemma sget_srem_same m k : sget V O (srem V m k) k = vtop O.
  Proof using.
    induction m as [|[k' v] r IH]; simpl; [reflexivity|].
    destruct (N.eqb k' k) eqn:E; simpl; [exact IH|]. rewrite E. exact IH.
  Qed.
  Lemma sget_srem_other m k k' : k' <> k -> sget V O (srem V m k) k' = sget V O m k'.
  Proof using.
    intros H. induction m as [|[k0 v] r IH]; simpl; [reflexivity|].
    destruct (N.eqb k0 k) eqn:E; simpl.
    - apply N.eqb_eq in E. subst. destruct (N.eqb_spec k k'); [congruence|exact IH].
    - destruct (N.eqb k0 k'); [reflexivity|exact IH].
  Qed.
  Lemma sget_sput_same m k v : sget V O (sput V O m k v) k = v.
  Proof.
    unfold sput. destruct (v_is_top O v) eqn:E.
    - rewrite sget_srem_same. symmetry. apply Htop. exact E.
    - simpl. rewrite N.eqb_refl. reflexivity.
  Qed.
  Lemma sget_sput_other m k v k' : k' <> k -> sget V O (sput V O m k v) k' = sget V O m k'.
  Proof.
    intros H. unfold sput. destruct (v_is_top O v).
    - apply sget_srem_other; auto.
    - simpl. destruct (N.eqb_spec k k'); try congruence. apply sget_srem_other; auto.
  Qed.
  Lemma sget_not_key m k : ~ In k (skeys V m) -> sget V O m k = vtop O.
  Proof.
    induction m as [|[k' v] r IH]; simpl; auto. intros H.
    destruct (N.eqb_spec k' k); [exfalso; apply H; left; auto|]. apply IH. tauto.
  Qed.

  Lemma gsenv_not_bot e T : gsenv e T -> s_is_bot e = false.
  Proof. destruct e; simpl; tauto. Qed.
  Lemma gs_top T : gsenv s_top T.
  Proof using Rtop. intros k. simpl. apply Rtop. Qed.
  Lemma gs_at e T k : gsenv e T -> R (s_at V O e k) (T k).
  Proof. destruct e; simpl; [tauto|]. auto. Qed.

  (* an environment all of whose bindings are top describes every valuation *)
  Lemma all_top_gsmap m T :
    forallb (fun k => v_is_top O (sget V O m k)) (skeys V m) = true -> gsmap m T.
  Proof.
    intros H k. rewrite forallb_forall in H.
    destruct (in_dec N.eq_dec k (skeys V m)) as [I|I].
    - rewrite (Htop _ (H k I)). apply Rtop.
    - rewrite sget_not_key by auto. apply Rtop.
  Qed.
  Lemma gs_is_top e T : s_is_top V O e = true -> gsenv e T.
  Proof. destruct e as [|m]; simpl; [discriminate|]. apply all_top_gsmap. Qed.
  Lemma s_is_top_at e k : s_is_top V O e = true -> s_at V O e k = vtop O.
  Proof.
    destruct e as [|m]; simpl; [discriminate|]. intros H. rewrite forallb_forall in H.
    destruct (in_dec N.eq_dec k (skeys V m)) as [I|I]; [apply Htop, H, I|apply sget_not_key, I].
  Qed.

  (* updates of one key: the valuation changes at most at that key *)
  Lemma gs_set_frame e T T' k v :
    gsenv e T -> R v (T' k) -> (forall k', k' <> k -> T' k' = T k') -> gsenv (s_set V O e k v) T'.
  Proof.
    destruct e as [|m]; simpl; [tauto|]. intros G Rv E.
    destruct (v_is_bot O v) eqn:B; [exfalso; eapply Rbot; eauto|].
    simpl. intros k'. destruct (N.eq_dec k' k) as [->|N].
    - rewrite sget_sput_same. exact Rv.
    - rewrite sget_sput_other, E by auto. apply G.
  Qed.
  Lemma gs_forget_frame e T T' k :
    gsenv e T -> (forall k', k' <> k -> T' k' = T k') -> gsenv (s_forget V e k) T'.
  Proof.
    destruct e as [|m]; simpl; [tauto|]. intros G E k'. destruct (N.eq_dec k' k) as [->|N].
    - rewrite sget_srem_same. apply Rtop.
    - rewrite sget_srem_other, E by auto. apply G.
  Qed.
  Lemma gs_set e T k v x : gsenv e T -> R v x -> gsenv (s_set V O e k v) (gupd T k x).
  Proof.
    intros G Rv. apply gs_set_frame with T; [exact G|rewrite gupd_same; exact Rv|].
    intros k'. apply gupd_other.
  Qed.
  Lemma gs_forget e T k x : gsenv e T -> gsenv (s_forget V e k) (gupd T k x).
  Proof. intros G. apply gs_forget_frame with T; [exact G|]. intros k'. apply gupd_other. Qed.

  (* the keys of vs that satisfy P are forgotten one after the other *)
  Lemma gs_forget_if (P : var -> bool) vs : forall e T T',
    gsenv e T -> (forall k, (In k vs -> P k = false) -> T' k = T k) ->
    gsenv (fold_left (fun e v => if P v then s_forget V e v else e) vs e) T'.
  Proof.
    induction vs as [|v r IH]; cbn [fold_left]; intros e T T' G A.
    - destruct e as [|m]; simpl in *; auto. intros k. rewrite A by (intros []). apply G.
    - destruct (P v) eqn:Pv.
      + apply (IH _ (gupd T v (T' v))); [apply gs_forget; exact G|].
        intros k H. destruct (N.eq_dec k v) as [->|N]; [rewrite gupd_same; reflexivity|].
        rewrite gupd_other by exact N. apply A. intros [E|I]; [congruence|auto].
      + apply (IH _ T); [exact G|]. intros k H. apply A. intros [<-|I]; auto.
  Qed.

  Lemma sbuild_get ks g : forall acc m, sbuild V O ks g acc = Some m ->
    forall k, sget V O m k = if in_dec N.eq_dec k ks then g k else sget V O acc k.
  Proof.
    induction ks as [|k0 r IH]; simpl; intros acc m H k.
    - inversion H; subst; auto.
    - destruct (v_is_bot O (g k0)); [discriminate|].
      rewrite (IH _ _ H k). destruct (in_dec N.eq_dec k r) as [I|I].
      + destruct (N.eq_dec k0 k); auto.
      + destruct (N.eq_dec k0 k) as [->|N].
        * apply sget_sput_same.
        * apply sget_sput_other. congruence.
  Qed.
  Lemma sbuild_none ks g : forall acc, sbuild V O ks g acc = None ->
    exists k, In k ks /\ v_is_bot O (g k) = true.
  Proof.
    induction ks as [|k0 r IH]; simpl; intros acc H; [discriminate|].
    destruct (v_is_bot O (g k0)) eqn:B.
    - exists k0. auto.
    - apply IH in H. destruct H as (k & I & Bk). exists k. auto.
  Qed.
  Lemma smerge_get ab f a b m : smerge V O ab f a b = Some m ->
    forall k, sget V O m k = scomb V O ab f a b k.
  Proof.
    unfold smerge. intros H k. rewrite (sbuild_get _ _ _ _ H k).
    destruct (in_dec N.eq_dec k (skeys V a ++ skeys V b)) as [I|I]; auto.
    simpl. unfold scomb.
    rewrite (sget_not_key a k), (sget_not_key b k) by (intros J; apply I; apply in_or_app; auto).
    rewrite Htt. destruct ab; reflexivity.
  Qed.
  (* a merge whose every combined value describes the valuation *)
  Lemma gs_smerge ab f x y T : (forall k, R (scomb V O ab f x y k) (T k)) ->
    gsenv (match smerge V O ab f x y with Some m => SMap m | None => SBot end) T.
  Proof.
    intros C. destruct (smerge V O ab f x y) as [m|] eqn:M.
    - intros k. rewrite (smerge_get _ _ _ _ _ M). apply C.
    - apply sbuild_none in M. destruct M as (k & _ & B). exfalso. eapply Rbot; [exact B|apply C].
  Qed.

  Lemma gs_join f a b T :
    (forall x y z, R x z \/ R y z -> R (f x y) z) ->
    gsenv a T \/ gsenv b T -> gsenv (s_join V O f a b) T.
  Proof.
    intros Hf G. destruct a as [|x], b as [|y]; simpl in *; try tauto.
    apply gs_smerge. intros k. unfold scomb.
    destruct (v_is_top O (sget V O x k)); [apply Rtop|].
    destruct (v_is_top O (sget V O y k)); [apply Rtop|].
    apply Hf. destruct G as [G|G]; [left|right]; apply G.
  Qed.
  Lemma gs_meet f a b T :
    (forall x y z, R x z -> R y z -> R (f x y) z) ->
    gsenv a T -> gsenv b T -> gsenv (s_meet V O f a b) T.
  Proof.
    intros Hf Ga Gb. destruct a as [|x], b as [|y]; simpl in *; try tauto.
    apply gs_smerge. intros k. unfold scomb.
    destruct (v_is_top O (sget V O x k)); [apply Gb|].
    destruct (v_is_top O (sget V O y k)); [apply Ga|].
    apply Hf; [apply Ga|apply Gb].
  Qed.
  Lemma gs_leq vleq a b T :
    (forall x y z, vleq x y = true -> R x z -> R y z) ->
    s_leq V O vleq a b = true -> gsenv a T -> gsenv b T.
  Proof.
    intros Hl. destruct a as [|x], b as [|y]; simpl; try tauto; try discriminate.
    intros L G k. rewrite forallb_forall in L.
    destruct (in_dec N.eq_dec k (skeys V x ++ skeys V y)) as [I|I].
    - eapply Hl; [apply L; exact I|apply G].
    - rewrite (sget_not_key y k) by (intros J; apply I; apply in_or_app; auto). apply Rtop.
  Qed.

  Lemma gs_project e vs T T' :
    gsenv e T -> (forall k, In k vs -> T' k = T k) -> gsenv (s_project V O e vs) T'.
  Proof.
    destruct e as [|m]; simpl; [tauto|]. intros G A.
    destruct (forallb _ _) eqn:E.
    - simpl. apply all_top_gsmap. exact E.
    - simpl. clear E. induction vs as [|v r IH]; simpl.
      + intros k. simpl. apply Rtop.
      + intros k. destruct (N.eq_dec k v) as [->|N].
        * rewrite sget_sput_same. rewrite A by (left; auto). apply G.
        * rewrite sget_sput_other by auto. apply IH. intros k' I. apply A. right; auto.
  Qed.

  (* rename: sequential moves *)
  Fixpoint grename (T : var -> X) (ps : list (var * var)) (hv : var -> X) : var -> X :=
    match ps with
    | [] => T
    | (k, nk) :: r =>
      if N.eqb k nk then grename T r hv
      else grename (gupd (gupd T nk (T k)) k (hv k)) r hv
    end.

  Lemma srename_pairs_sound ps : forall m T hv,
    gsmap m T -> NoDup (map snd ps) ->
    (forall p, In p ps -> v_is_top O (sget V O m (snd p)) = true) ->
    gsmap (srename_pairs V O m ps) (grename T ps hv).
  Proof.
    induction ps as [|[k nk] r IH]; cbn [srename_pairs grename map snd]; intros m T hv G ND TP; auto.
    inversion ND as [|? ? NI ND']; subst.
    assert (TP' : forall p, In p r -> v_is_top O (sget V O m (snd p)) = true).
    { intros p I. apply TP. right. exact I. }
    assert (Tnk : v_is_top O (sget V O m nk) = true) by (apply (TP (k, nk)); left; reflexivity).
    destruct (N.eqb_spec k nk) as [E|NE].
    { apply IH; auto. }
    destruct (v_is_top O (sget V O m k)) eqn:Tk.
    - apply IH; auto.
      intros k'. destruct (N.eq_dec k' k) as [->|N1].
      + rewrite gupd_same, (Htop _ Tk). apply Rtop.
      + rewrite gupd_other by auto. destruct (N.eq_dec k' nk) as [->|N2].
        * rewrite gupd_same, (Htop _ Tnk). apply Rtop.
        * rewrite gupd_other by auto. apply G.
    - apply IH; auto.
      + intros k'. destruct (N.eq_dec k' k) as [->|N1].
        * rewrite gupd_same. rewrite sget_srem_same. apply Rtop.
        * rewrite gupd_other by auto. rewrite sget_srem_other by auto.
          cbn [sget]. destruct (N.eqb_spec nk k').
          -- subst. rewrite gupd_same. apply G.
          -- rewrite gupd_other by auto. rewrite sget_srem_other by auto. apply G.
      + intros p I. destruct (N.eq_dec (snd p) k) as [E|N1].
        * rewrite E, sget_srem_same. exact Htt.
        * rewrite sget_srem_other by auto. cbn [sget].
          destruct (N.eqb_spec nk (snd p)) as [E|N2].
          -- exfalso. apply NI. rewrite E. apply in_map. auto.
          -- rewrite sget_srem_other by auto. apply TP'. auto.
  Qed.

  Lemma gs_rename e from to T hv :
    gsenv e T -> NoDup to -> length from = length to ->
    (forall k, In k to -> v_is_top O (s_at V O e k) = true) ->
    gsenv (s_rename V O e from to) (grename T (combine from to) hv).
  Proof using Htop Htt Rtop.
    destruct e as [|m]; simpl; [tauto|]. intros G ND L TP.
    pose proof (snd_combine from to L) as S.
    destruct (forallb _ _) eqn:E.
    - simpl. apply all_top_gsmap. exact E.
    - simpl. apply srename_pairs_sound; auto.
      + rewrite S; auto.
      + intros p I. apply TP. rewrite <- S. apply in_map. auto.
  Qed.

  (* pairs whose source is not bound can be dropped from a renaming *)
  Lemma srename_pairs_filter (P : var * var -> bool) ps : forall m,
    (forall p, In p ps -> P p = false -> v_is_top O (sget V O m (fst p)) = true) ->
    (forall p q, In p ps -> In q ps -> P p = false -> P q = true -> fst p <> snd q) ->
    srename_pairs V O m ps = srename_pairs V O m (filter P ps).
  Proof using Htt.
    induction ps as [|[k nk] r IH]; cbn [srename_pairs filter]; intros m H1 H2; auto.
    assert (H1' : forall m', (forall p, In p r -> P p = false -> v_is_top O (sget V O m' (fst p)) = true) ->
                  srename_pairs V O m' r = srename_pairs V O m' (filter P r)).
    { intros m' Hm. apply IH; auto. intros p q Ip Iq. apply H2; right; auto. }
    destruct (P (k, nk)) eqn:Pk; cbn [srename_pairs].
    - destruct (N.eqb k nk); [apply H1'; intros p I; apply H1; right; auto|].
      destruct (v_is_top O (sget V O m k)); [apply H1'; intros p I; apply H1; right; auto|].
      apply H1'. intros p I Pp.
      assert (N : fst p <> nk) by (apply (H2 p (k, nk)); [right; auto|left; auto|auto|auto]).
      destruct (N.eq_dec (fst p) k) as [->|N1]; [rewrite sget_srem_same; exact Htt|].
      rewrite sget_srem_other by auto. cbn [sget].
      destruct (N.eqb_spec nk (fst p)); [congruence|]. rewrite sget_srem_other by auto.
      apply H1; [right; auto|auto].
    - pose proof (H1 (k, nk) (or_introl eq_refl) Pk) as T. cbn [fst] in T. rewrite T.
      destruct (N.eqb k nk); apply H1'; intros p I; apply H1; right; auto.
  Qed.
  Lemma srename_filter_sound (P : var * var -> bool) ps m T hv :
    gsmap m T -> NoDup (map snd ps) ->
    (forall p, In p ps -> v_is_top O (sget V O m (snd p)) = true) ->
    gsmap (srename_pairs V O m (filter P ps)) (grename T (filter P ps) hv).
  Proof.
    intros G ND TP. apply srename_pairs_sound; [exact G|apply NoDup_map_filter, ND|].
    intros p I. apply filter_In in I. apply TP, I.
  Qed.
  (* a renaming of variables of several types, seen from the environment that binds only
     those selected by P *)
  Lemma gs_rename_filter (P : var * var -> bool) e from to T hv :
    gsenv e T -> NoDup to -> length from = length to ->
    (forall k, In k to -> v_is_top O (s_at V O e k) = true) ->
    (forall p, In p (combine from to) -> P p = false -> v_is_top O (s_at V O e (fst p)) = true) ->
    (forall p q, In p (combine from to) -> In q (combine from to) ->
                 P p = false -> P q = true -> fst p <> snd q) ->
    gsenv (s_rename V O e from to) (grename T (filter P (combine from to)) hv).
  Proof.
    destruct e as [|m]; simpl; [tauto|]. intros G ND L TP FP DJ.
    destruct (forallb _ _) eqn:E; [apply all_top_gsmap, E|]. simpl.
    rewrite (srename_pairs_filter P) by assumption.
    apply srename_filter_sound; [exact G|rewrite snd_combine; assumption|].
    intros p I. eapply TP, in_combine_snd, I.
  Qed.

  Lemma s_map_vals_get f m k : f (vtop O) = vtop O ->
    sget V O (fold_right (fun p acc => sput V O acc (fst p) (f (snd p))) [] m) k = f (sget V O m k).
  Proof.
    intros Ft. induction m as [|[k0 v0] r IH]; simpl; auto.
    destruct (N.eqb_spec k0 k) as [->|N].
    - apply sget_sput_same.
    - rewrite sget_sput_other by congruence. exact IH.
  Qed.
  Lemma gs_map_vals f e T : f (vtop O) = vtop O ->
    (forall v x, R v x -> R (f v) x) -> gsenv e T -> gsenv (s_map_vals V O f e) T.
  Proof using Htop Htt.
    intros Ft Hf. destruct e as [|m]; simpl; [tauto|]. intros G k.
    rewrite s_map_vals_get by auto. apply Hf. apply G.
  Qed.
  (* transform_if behind the guard all the memories use: nothing happens on bottom and top *)
  Lemma s_map_if_at f e k : f (vtop O) = vtop O -> e <> SBot ->
    s_at V O (if s_is_bot e || s_is_top V O e then e else s_map_vals V O f e) k = f (s_at V O e k).
  Proof.
    intros Ft NB. destruct e as [|m]; [congruence|]. cbn [s_is_bot orb].
    destruct (s_is_top V O (SMap m)) eqn:E; [|apply s_map_vals_get, Ft].
    rewrite s_is_top_at by exact E. symmetry. exact Ft.
  Qed.
End SepSound.

(* the same environment under another relation and another valuation *)
Lemma gsenv_mono V O X (R R' : V -> X -> Prop) e T T' :
  (forall k, R (s_at V O e k) (T k) -> R' (s_at V O e k) (T' k)) ->
  gsenv V O X R e T -> gsenv V O X R' e T'.
Proof. destruct e as [|m]; simpl; [tauto|]. intros H G k. apply H, G. Qed.

Lemma gs_map_if V O X (R R' : V -> X -> Prop) f e T :
  (forall v, v_is_top O v = true -> v = vtop O) -> v_is_top O (vtop O) = true ->
  f (vtop O) = vtop O -> (forall v x, R v x -> R' (f v) x) -> gsenv V O X R e T ->
  gsenv V O X R' (if s_is_bot e || s_is_top V O e then e else s_map_vals V O f e) T.
Proof.
  intros Htop Htt Ft Hf G. destruct e as [|m]; [destruct G|].
  assert (H : forall k, R' (s_at V O (if s_is_bot (SMap m) || s_is_top V O (SMap m) then SMap m
                                      else s_map_vals V O f (SMap m)) k) (T k)).
  { intros k. rewrite s_map_if_at by (auto; discriminate). apply Hf, G. }
  revert H. cbn [s_is_bot orb]. destruct (s_is_top V O (SMap m)); auto.
Qed.

Definition bstore := var -> bool.
Definition bupd (t : bstore) (x : var) (v : bool) : bstore := gupd bool t x v.
Definition b2z (b : bool) : Z := if b then 1 else 0.

Lemma bupd_same t x v : bupd t x v x = v.
Proof. apply gupd_same. Qed.
Lemma bupd_other t x v y : y <> x -> bupd t x v y = t y.
Proof. apply gupd_other. Qed.

Definition gbv (v : bval) (b : bool) : Prop :=
  match v with BvBot => False | BvTrue => b = true | BvFalse => b = false | BvTop => True end.
Definition gbenv (f : benv) (t : bstore) : Prop := gsenv bval bops bool gbv f t.

Lemma bops_Htop v : v_is_top bops v = true -> v = vtop bops.
Proof. destruct v; simpl; try discriminate; auto. Qed.
Lemma bops_Htt : v_is_top bops (vtop bops) = true. Proof. reflexivity. Qed.
Lemma bops_Rtop x : gbv (vtop bops) x. Proof. exact I. Qed.
Lemma bops_Rbot v x : v_is_bot bops v = true -> ~ gbv v x.
Proof. destruct v; simpl; try discriminate; auto. Qed.
#[local] Hint Resolve bops_Htop bops_Htt bops_Rtop bops_Rbot : fb.

(* remembered constraints of one Boolean variable whose value is x: every constraint is well
   formed and, if all its variables are unchanged since it was remembered, it holds exactly
   when the variable is true *)
Definition gcs (s : store) (u : vset) (v : cset) (x : bool) : Prop :=
  match v with
  | DVBot => False
  | DVSet l => forall c, In c l -> wf_lc c /\ (all_unchanged u c = true -> (x = true <-> sat c s))
  end.
Definition glin (l : lenv) (u : vset) (s : store) (t : bstore) : Prop :=
  gsenv cset cops bool (gcs s u) l t.

Lemma dv_Htop {A} (v : dval A) : dv_is_top v = true -> v = dv_top.
Proof. destruct v as [|[|a l]]; simpl; try discriminate; auto. Qed.
Lemma cops_Htop v : v_is_top cops v = true -> v = vtop cops.
Proof. apply dv_Htop. Qed.
Lemma cops_Htt : v_is_top cops (vtop cops) = true. Proof. reflexivity. Qed.
Lemma cops_Rtop s u x : gcs s u (vtop cops) x. Proof. intros c []. Qed.
Lemma cops_Rbot s u v x : v_is_bot cops v = true -> ~ gcs s u v x.
Proof. destruct v; simpl; try discriminate; auto. Qed.
#[local] Hint Resolve cops_Htop cops_Htt cops_Rtop cops_Rbot : fb.

(* Booleans implied by one Boolean variable whose value is x *)
Definition gvs (t : bstore) (v : vset) (x : bool) : Prop :=
  match v with DVBot => False | DVSet l => forall y, In y l -> x = true -> t y = true end.
Definition gbools (b : bbenv) (t : bstore) : Prop := gsenv vset vops_ bool (gvs t) b t.

Lemma vops_Htop v : v_is_top vops_ v = true -> v = vtop vops_.
Proof. apply dv_Htop. Qed.
Lemma vops_Htt : v_is_top vops_ (vtop vops_) = true. Proof. reflexivity. Qed.
Lemma vops_Rtop t x : gvs t (vtop vops_) x. Proof. intros y []. Qed.
Lemma vops_Rbot t v x : v_is_bot vops_ v = true -> ~ gvs t v x.
Proof. destruct v; simpl; try discriminate; auto. Qed.
#[local] Hint Resolve vops_Htop vops_Htt vops_Rtop vops_Rbot : fb.

Definition gprod (p : prod) (s : store) (t : bstore) : Prop :=
  match p with PBot => False | PPair f e => gbenv f t /\ genv e s end.

(* the concretisation: the product describes both stores; the memories hold on them *)
Definition gfb (st : fstate) (s : store) (t : bstore) : Prop :=
  gprod (f_prod st) s t /\ glin (f_lin st) (f_unch st) s t /\ gbools (f_bools st) t /\
  f_unch st <> DVBot.

Lemma gfb_mk p l b u s t :
  gprod p s t -> glin l u s t -> gbools b t -> u <> DVBot -> gfb (mkF p l b u) s t.
Proof. unfold gfb. auto. Qed.
(* the four parts of gfb for a state given by its fields *)
Ltac gfb_intro := apply gfb_mk; cbn [f_prod f_lin f_bools f_unch set_prod mark_changed].

Lemma gbenv_not_bot f t : gbenv f t -> s_is_bot f = false.
Proof. apply gsenv_not_bot. Qed.

Lemma gprod_not_bot p s t : gprod p s t -> p_is_bot p = false.
Proof.
  destruct p as [|f e]; simpl; [tauto|]. intros [G1 G2].
  rewrite (gbenv_not_bot _ _ G1), (genv_not_bot _ _ G2). reflexivity.
Qed.
Lemma gprod_canon p s t : gprod p s t -> canon p = p.
Proof. intros G. apply gprod_not_bot in G. destruct p; [reflexivity|]. simpl in *. rewrite G. reflexivity. Qed.
Lemma gprod_canon_intro p s t : gprod p s t -> gprod (canon p) s t.
Proof. intros G. rewrite (gprod_canon _ _ _ G). exact G. Qed.
Lemma gprod_canon_elim p s t : gprod (canon p) s t -> gprod p s t.
Proof.
  destruct p as [|f e]; simpl; auto. destruct (s_is_bot f || e_is_bot e); simpl; tauto.
Qed.
Lemma gprod_fst p s t : gprod p s t -> gbenv (p_fst p) t.
Proof. destruct p; simpl; tauto. Qed.
Lemma gprod_snd p s t : gprod p s t -> genv (p_snd p) s.
Proof. destruct p; simpl; tauto. Qed.

(* an operation on one component through the canonicalising accessor *)
Lemma gprod_on_fst' ff p s t t' :
  gprod p s t -> gbenv (ff (p_fst p)) t' -> gprod (p_on_fst ff p) s t'.
Proof.
  intros G H. unfold p_on_fst. rewrite (gprod_canon _ _ _ G).
  destruct p as [|f e]; simpl in *; [tauto|]. destruct G; split; auto.
Qed.
Lemma gprod_on_snd' fe p s s' t :
  gprod p s t -> genv (fe (p_snd p)) s' -> gprod (p_on_snd fe p) s' t.
Proof.
  intros G H. unfold p_on_snd. rewrite (gprod_canon _ _ _ G).
  destruct p as [|f e]; simpl in *; [tauto|]. destruct G; split; auto.
Qed.
Lemma gprod_on_fst ff p s t t' :
  gprod p s t -> (forall f, gbenv f t -> gbenv (ff f) t') -> gprod (p_on_fst ff p) s t'.
Proof. intros G H. apply gprod_on_fst' with t; [exact G|]. apply H. eapply gprod_fst; eauto. Qed.
Lemma gprod_on_snd fe p s s' t :
  gprod p s t -> (forall e, genv e s -> genv (fe e) s') -> gprod (p_on_snd fe p) s' t.
Proof. intros G H. apply gprod_on_snd' with s; [exact G|]. apply H. eapply gprod_snd; eauto. Qed.
Lemma p_fst_on_snd fe p s t : gprod p s t -> p_fst (p_on_snd fe p) = p_fst p.
Proof. intros G. unfold p_on_snd. rewrite (gprod_canon _ _ _ G). destruct p; reflexivity. Qed.
Lemma p_snd_on_fst ff p s t : gprod p s t -> p_snd (p_on_fst ff p) = p_snd p.
Proof. intros G. unfold p_on_fst. rewrite (gprod_canon _ _ _ G). destruct p; reflexivity. Qed.

(* an operation on each component, as in rename and expand *)
Lemma gprod_on_both' ff fe p s t s' t' :
  gprod p s t -> gbenv (ff (p_fst p)) t' -> genv (fe (p_snd p)) s' ->
  gprod (p_on_snd fe (p_on_fst ff p)) s' t'.
Proof.
  intros G Hf He. apply (gprod_on_snd' _ _ s); [apply (gprod_on_fst' _ _ s t); assumption|].
  rewrite (p_snd_on_fst _ _ _ _ G). exact He.
Qed.

Lemma gb_at f t k : gbenv f t -> gbv (be_at f k) (t k).
Proof. apply gs_at. Qed.
Lemma gb_set f t k v x : gbenv f t -> gbv v x -> gbenv (be_set f k v) (bupd t k x).
Proof. apply gs_set; auto with fb. Qed.
Lemma gb_set_same f t k v : gbenv f t -> gbv v (t k) -> gbenv (be_set f k v) t.
Proof. intros G Gv. apply (gs_set_frame _ _ _ gbv) with t; auto with fb. Qed.
Lemma gb_forget f t k x : gbenv f t -> gbenv (be_forget f k) (bupd t k x).
Proof. apply gs_forget; auto with fb. Qed.
Lemma gb_forget_same f t k : gbenv f t -> gbenv (be_forget f k) t.
Proof. intros G. apply (gs_forget_frame _ _ _ gbv) with t; auto with fb. Qed.

Lemma bv_join_sound x y z : gbv x z \/ gbv y z -> gbv (bv_join x y) z.
Proof. destruct x, y, z; simpl; intuition congruence. Qed.
Lemma bv_meet_sound x y z : gbv x z -> gbv y z -> gbv (bv_meet x y) z.
Proof. destruct x, y, z; simpl; intuition congruence. Qed.
Lemma bv_leq_sound x y z : bv_leq x y = true -> gbv x z -> gbv y z.
Proof. destruct x, y, z; simpl; intuition congruence. Qed.
Lemma bv_neg_sound x z : gbv x z -> gbv (bv_neg x) (negb z).
Proof. destruct x, z; simpl; intuition congruence. Qed.
Definition bool_sem (op : bool_op) (a b : bool) : bool :=
  match op with BAnd => a && b | BOr => a || b | BXor => xorb a b end.
Lemma bv_bin_sound op x y a b : gbv x a -> gbv y b -> gbv (bv_bin op x y) (bool_sem op a b).
Proof. destruct op, x, y, a, b; simpl; intuition congruence. Qed.

Lemma gb_join a b t : gbenv a t \/ gbenv b t -> gbenv (be_join a b) t.
Proof. apply gs_join; auto with fb. apply bv_join_sound. Qed.
Lemma gb_meet a b t : gbenv a t -> gbenv b t -> gbenv (be_meet a b) t.
Proof. apply gs_meet; auto with fb. apply bv_meet_sound. Qed.
Lemma gb_leq a b t : be_leq a b = true -> gbenv a t -> gbenv b t.
Proof. apply gs_leq; auto with fb. apply bv_leq_sound. Qed.

(* lattice operations of the product: the pair of the componentwise results, where [w] / [m]
   is the join, widening, meet or narrowing of the numerical component *)
Lemma gprod_pair_join (w : env -> env -> env) a b s t :
  (genv (p_snd a) s \/ genv (p_snd b) s -> genv (w (p_snd a) (p_snd b)) s) ->
  gprod a s t \/ gprod b s t ->
  gprod (PPair (be_join (p_fst a) (p_fst b)) (w (p_snd a) (p_snd b))) s t.
Proof.
  intros H G. split.
  - apply gb_join. destruct G as [G|G]; [left|right]; eapply gprod_fst; eauto.
  - apply H. destruct G as [G|G]; [left|right]; eapply gprod_snd; eauto.
Qed.
Lemma p_join_sound a b s t : gprod a s t \/ gprod b s t -> gprod (p_join a b) s t.
Proof.
  intros G. unfold p_join.
  destruct (p_is_bot a) eqn:Ba.
  { destruct G as [G|G]; auto. rewrite (gprod_not_bot _ _ _ G) in Ba. discriminate. }
  destruct (p_is_bot b) eqn:Bb.
  { destruct G as [G|G]; auto. rewrite (gprod_not_bot _ _ _ G) in Bb. discriminate. }
  apply gprod_canon_intro, gprod_pair_join; [apply e_join_sound|exact G].
Qed.
Lemma p_widen_sound a b s t : gprod a s t \/ gprod b s t -> gprod (p_widen a b) s t.
Proof. apply gprod_pair_join, e_widen_sound. Qed.
Lemma p_widen_thr_sound gp gn a b s t :
  (forall v, ble (gp v) v = true) -> (forall v, ble v (gn v) = true) ->
  gprod a s t \/ gprod b s t -> gprod (p_widen_thr gp gn a b) s t.
Proof. intros H1 H2. apply gprod_pair_join, e_widen_thr_sound; auto. Qed.

Lemma gprod_pair_meet (m : env -> env -> env) a b s t :
  (genv (p_snd a) s -> genv (p_snd b) s -> genv (m (p_snd a) (p_snd b)) s) ->
  gprod a s t -> gprod b s t ->
  gprod (if p_is_bot a || p_is_top b then a else if p_is_bot b || p_is_top a then b
         else canon (PPair (be_meet (p_fst a) (p_fst b)) (m (p_snd a) (p_snd b)))) s t.
Proof.
  intros H Ga Gb. destruct (p_is_bot a || p_is_top b); auto. destruct (p_is_bot b || p_is_top a); auto.
  apply gprod_canon_intro. split.
  - apply gb_meet; eapply gprod_fst; eauto.
  - apply H; eapply gprod_snd; eauto.
Qed.
Lemma p_meet_sound a b s t : gprod a s t -> gprod b s t -> gprod (p_meet a b) s t.
Proof. apply gprod_pair_meet, e_meet_sound. Qed.
Lemma p_narrow_sound a b s t : gprod a s t -> gprod b s t -> gprod (p_narrow a b) s t.
Proof. apply gprod_pair_meet, e_narrow_sound. Qed.
Lemma p_leq_sound a b s t : p_leq a b = true -> gprod a s t -> gprod b s t.
Proof.
  unfold p_leq. intros L G. rewrite (gprod_not_bot _ _ _ G) in L.
  destruct b as [|f e]; [discriminate|]. destruct (p_is_bot (PPair f e)); [discriminate|].
  apply andb_true_iff in L. destruct L as [L1 L2]. split.
  - eapply gb_leq; eauto. eapply gprod_fst; eauto.
  - eapply e_leq_sound; eauto. eapply gprod_snd; eauto.
Qed.

Lemma Neqb_true (x y : var) : N.eqb x y = true -> x = y.
Proof. apply N.eqb_eq. Qed.

Lemma sat_ext c s s' : (forall v, In v (lc_vars c) -> s' v = s v) -> (sat c s' <-> sat c s).
Proof.
  intros H. unfold sat. rewrite (eval_le_ext _ s' s); [tauto|]. intros co v I. apply H, (in_map snd _ _ I).
Qed.

(* m_unchanged_vars after each of its updates *)
Lemma vs_at_rem x u v : u <> DVBot -> vs_at v (vs_rem x u) = true -> vs_at v u = true /\ v <> x.
Proof. apply dv_at_rem; auto using Neqb_true, N.eqb_refl. Qed.
Lemma vs_at_add x u v : vs_at v (vs_add x u) = true -> v = x \/ vs_at v u = true.
Proof. apply dv_at_add; auto using Neqb_true, N.eqb_refl. Qed.
Lemma vs_at_join a b v : vs_at v (vs_join a b) = true -> vs_at v a = true /\ vs_at v b = true.
Proof. apply dv_at_join; auto using Neqb_true, N.eqb_refl. Qed.
Lemma vs_at_leq a b v : vs_leq a b = true -> vs_at v b = true -> vs_at v a = true.
Proof. apply dv_at_leq; auto using Neqb_true, N.eqb_refl. Qed.

Lemma au_spec u c : all_unchanged u c = true <-> forall v, In v (lc_vars c) -> vs_at v u = true.
Proof. apply forallb_forall. Qed.

Lemma fold_ins_In (v : var) l : forall acc, In v l \/ In v acc ->
  In v (fold_left (fun acc w => ins var N.eqb N.ltb w acc) l acc).
Proof.
  induction l as [|h r IH]; simpl; intros acc I; [tauto|]. apply IH.
  destruct I as [[->|I]|I]; auto; right; [apply In_ins_new; auto using Neqb_true, N.eqb_refl|apply In_ins_old; exact I].
Qed.
Lemma unch_covers_au u c : unch_covers u c = true -> all_unchanged u c = true.
Proof.
  intros H. apply au_spec. intros v I. apply (vs_at_leq _ _ v H).
  apply In_mem; [exact N.eqb_refl|]. apply fold_ins_In. auto.
Qed.
Lemma lc_vars_negate c : lc_vars (lc_negate c) = lc_vars c \/ lc_vars (lc_negate c) = [].
Proof.
  unfold lc_negate. destruct (lc_is_tautology c); [right; reflexivity|].
  destruct (lc_is_contradiction c); [right; reflexivity|].
  left. unfold lc_vars. destruct (lc_kind c); simpl; auto; rewrite map_map; simpl; reflexivity.
Qed.
Lemma constant_no_vars c : le_is_constant (lc_exp c) = true -> lc_vars c = [].
Proof. unfold le_is_constant, lc_vars. destruct (le_terms (lc_exp c)); [reflexivity|discriminate]. Qed.
Lemma au_negate u c : all_unchanged u (lc_negate c) = true -> all_unchanged u c = true.
Proof.
  unfold all_unchanged, lc_negate, lc_is_tautology, lc_is_contradiction.
  destruct (le_is_constant (lc_exp c)) eqn:K; [intros _; rewrite (constant_no_vars c K); reflexivity|].
  unfold lc_vars. destruct (lc_kind c); simpl; auto; rewrite map_map; auto.
Qed.

(* The memory of constraints survives a change of the integer store and of the set of
   unchanged variables as long as every variable still claimed unchanged was claimed so before
   and has kept its value. *)
Lemma gcs_frame s u s' u' v x :
  (forall w, vs_at w u' = true -> vs_at w u = true /\ s' w = s w) -> gcs s u v x -> gcs s' u' v x.
Proof.
  intros H. apply dv_all_mono. intros c [W E]. split; [exact W|]. intros A. rewrite au_spec in A.
  rewrite (sat_ext c s s') by (intros w I; apply H, A, I). apply E, au_spec. intros w I. apply H, A, I.
Qed.
Lemma glin_frame l u u' s s' t :
  (forall w, vs_at w u' = true -> vs_at w u = true /\ s' w = s w) -> glin l u s t -> glin l u' s' t.
Proof. intros H. apply gsenv_mono. intros k. apply gcs_frame, H. Qed.

Lemma glin_at l u s t k : glin l u s t -> gcs s u (l_at l k) (t k).
Proof. apply gs_at. Qed.
Lemma gbools_at b t k : gbools b t -> gvs t (bb_at b k) (t k).
Proof. apply (gs_at vset vops_ bool (gvs t)). Qed.

(* remove_constraints_if and its two uses *)
Lemma l_remove_if_at p l k : l <> SBot ->
  l_at (l_remove_if p l) k = dv_filter (fun c => negb (p c)) (l_at l k).
Proof. apply s_map_if_at; auto with fb. Qed.
Lemma glin_remove_if p l u s t : glin l u s t -> glin (l_remove_if p l) u s t.
Proof.
  apply gs_map_if; auto with fb. intros cs x G.
  eapply dv_all_mono; [|apply dv_all_filter, G]. intros c [H _]. exact H.
Qed.
Lemma mark_unchanged_sound v l u s t :
  glin l u s t -> u <> DVBot ->
  glin (fst (mark_unchanged v (l, u))) (snd (mark_unchanged v (l, u))) s t /\
  snd (mark_unchanged v (l, u)) <> DVBot.
Proof.
  intros G NU. unfold mark_unchanged. destruct (vs_at v u) eqn:A; cbn [fst snd]; [auto|]. split.
  - revert G. apply gs_map_if; auto with fb. intros cs x G.
    eapply dv_all_mono; [|apply dv_all_filter, G]. intros c [[W E] M]. split; [exact W|].
    rewrite au_spec. intros AU. apply E, au_spec. intros w I.
    destruct (vs_at_add _ _ _ (AU w I)) as [->|H]; [|exact H].
    (* a constraint that mentions v has been removed *)
    apply negb_true_iff in M. change (mem var N.eqb v (lc_vars c) = false) in M.
    rewrite (In_mem var N.eqb N.eqb_refl v _ I) in M. discriminate.
  - destruct u; [congruence|discriminate].
Qed.
Lemma mark_unchanged_fold vs : forall l u s t,
  glin l u s t -> u <> DVBot ->
  let lu := fold_left (fun lu w => mark_unchanged w lu) vs (l, u) in
  glin (fst lu) (snd lu) s t /\ snd lu <> DVBot.
Proof.
  induction vs as [|v r IH]; cbn [fold_left]; intros l u s t G NU; [simpl; auto|].
  destruct (mark_unchanged_sound v l u s t G NU) as [G1 N1].
  destruct (mark_unchanged v (l, u)) as [l1 u1]. cbn [fst snd] in *. apply IH; auto.
Qed.
(* applicable_constraints: what is kept holds whatever is unchanged afterwards *)
Lemma glin_applicable l u u' s t : glin l u s t -> glin (applicable u l) u' s t.
Proof.
  apply gs_map_if; auto with fb. intros cs x G.
  eapply dv_all_mono; [|apply dv_all_filter, G]. intros c [[W E] M].
  rewrite negb_involutive in M. split; auto.
Qed.

(* join, widening and widening with thresholds differ only in the product *)
Lemma gfb_joined p a b s t :
  (gprod (f_prod a) s t \/ gprod (f_prod b) s t -> gprod p s t) ->
  gfb a s t \/ gfb b s t ->
  gfb (mkF p (s_join cset cops cs_join (f_lin a) (f_lin b))
           (s_join vset vops_ vs_join (f_bools a) (f_bools b)) (vs_join (f_unch a) (f_unch b))) s t.
Proof.
  intros H G. gfb_intro.
  - apply H. destruct G as [G|G]; [left|right]; apply G.
  - apply gs_join; auto with fb.
    + intros x y z. apply dv_all_join, lc_eqb_eq.
    + destruct G as [G|G]; [left|right]; (eapply glin_frame; [|apply G]);
        intros w A; apply vs_at_join in A; tauto.
  - apply gs_join; auto with fb.
    + intros x y z. apply dv_all_join, Neqb_true.
    + destruct G as [G|G]; [left|right]; apply G.
  - unfold vs_join, dv_join. destruct (dv_is_top _ || dv_is_top _); [discriminate|].
    destruct G as [G|G]; destruct G as (_ & _ & _ & U), (f_unch a), (f_unch b); congruence.
Qed.
Theorem fb_join_sound a b s t : gfb a s t \/ gfb b s t -> gfb (fb_join a b) s t.
Proof. apply gfb_joined, p_join_sound. Qed.
Theorem fb_widen_sound a b s t : gfb a s t \/ gfb b s t -> gfb (fb_widen a b) s t.
Proof. apply gfb_joined, p_widen_sound. Qed.
Theorem fb_widen_thr_sound gp gn a b s t :
  (forall v, ble (gp v) v = true) -> (forall v, ble v (gn v) = true) ->
  gfb a s t \/ gfb b s t -> gfb (fb_widen_thr gp gn a b) s t.
Proof. intros H1 H2. apply gfb_joined, p_widen_thr_sound; auto. Qed.

(* so do meet and narrowing *)
Lemma gfb_met p a b s t :
  (gprod (f_prod a) s t -> gprod (f_prod b) s t -> gprod p s t) ->
  gfb a s t -> gfb b s t ->
  gfb (mkF p (s_meet cset cops cs_meet (applicable (f_unch a) (f_lin a)) (applicable (f_unch b) (f_lin b)))
           (s_meet vset vops_ vs_meet (f_bools a) (f_bools b)) (vs_meet (f_unch a) (f_unch b))) s t.
Proof.
  intros H (P1 & L1 & B1 & U1) (P2 & L2 & B2 & U2). gfb_intro; auto.
  - apply gs_meet; auto with fb; try (apply glin_applicable; assumption). intros x y z. apply dv_all_meet.
  - apply gs_meet; auto with fb. intros x y z. apply dv_all_meet.
  - destruct (f_unch a), (f_unch b); simpl; congruence.
Qed.
Theorem fb_meet_sound a b s t : gfb a s t -> gfb b s t -> gfb (fb_meet a b) s t.
Proof. apply gfb_met, p_meet_sound. Qed.
Theorem fb_narrow_sound a b s t : gfb a s t -> gfb b s t -> gfb (fb_narrow a b) s t.
Proof. apply gfb_met, p_narrow_sound. Qed.

(* representation invariant of the values built through the API: the set of unchanged
   variables is the "all variables" set only together with a bottom memory *)
Definition fb_inv (st : fstate) : Prop := f_unch st = DVBot -> f_lin st = SBot.

Theorem fb_leq_sound a b s t : fb_leq a b = true -> fb_inv b -> gfb a s t -> gfb b s t.
Proof.
  unfold fb_leq, fb_is_bot. intros L I (P & GL & GB & GU).
  rewrite (gprod_not_bot _ _ _ P) in L.
  destruct (p_is_bot (f_prod b)) eqn:Bb; [discriminate|].
  apply andb_true_iff in L. destruct L as [L L4].
  apply andb_true_iff in L. destruct L as [L L3].
  apply andb_true_iff in L. destruct L as [L1 L2].
  assert (NB : f_lin b <> SBot).
  { destruct (f_lin a); [destruct GL|]. destruct (f_lin b); discriminate. }
  split; [|split; [|split]].
  - eapply p_leq_sound; eauto.
  - apply orb_true_iff in L4. destruct L4 as [L4|L4]; [|apply gs_is_top; auto with fb].
    eapply gs_leq; [auto with fb.. | |exact L2|].
    + intros x y z. apply dv_all_leq, lc_eqb_eq.
    + eapply glin_frame; [|exact GL]. intros w A. split; [|reflexivity]. eapply vs_at_leq; eauto.
  - eapply gs_leq; [auto with fb.. | |exact L3|exact GB].
    intros x y z. apply dv_all_leq, Neqb_true.
  - intros E. apply NB, I, E.
Qed.

Lemma gvs_ext t t' v x : (forall k, t' k = t k) -> gvs t v x -> gvs t' v x.
Proof. intros E. apply dv_all_mono. intros y H X. rewrite E. auto. Qed.
Theorem gfb_ext st s s' t t' : (forall k, s' k = s k) -> (forall k, t' k = t k) ->
  gfb st s t -> gfb st s' t'.
Proof.
  intros Es Et (P & L & B & U). split; [|split; [|split]]; auto.
  - destruct (f_prod st) as [|f e]; [destruct P|]. destruct P as [P1 P2]. split.
    + revert P1. apply gsenv_mono. intros k. rewrite Et. auto.
    + apply (genv_ext _ s); auto.
  - revert L. apply gsenv_mono. intros k. rewrite Et. apply gcs_frame. auto.
  - revert B. apply gsenv_mono. intros k. rewrite Et. apply gvs_ext, Et.
Qed.

Lemma vs_rem_not_bot x u : u <> DVBot -> vs_rem x u <> DVBot.
Proof. destruct u; simpl; [congruence|discriminate]. Qed.

(* the variable x of the integer store is overwritten *)
Lemma glin_changed_var l u s s' t x :
  u <> DVBot -> (forall v, v <> x -> s' v = s v) -> glin l u s t -> glin l (vs_rem x u) s' t.
Proof. intros NU E. apply glin_frame. intros w A. apply vs_at_rem in A; auto. destruct A; auto. Qed.

Lemma fb_num_sound st s s' t x fe :
  gfb st s t -> (forall v, v <> x -> s' v = s v) ->
  (forall e, genv e s -> genv (fe e) s') ->
  gfb (mark_changed x (set_prod st (p_on_snd fe (f_prod st)))) s' t /\
  gfb (mark_changed x (set_prod st (canon (p_on_snd fe (f_prod st))))) s' t.
Proof.
  intros (P & L & B & U) E H.
  assert (P' : gprod (p_on_snd fe (f_prod st)) s' t) by (eapply gprod_on_snd; eauto).
  split; gfb_intro;
    eauto using gprod_canon_intro, vs_rem_not_bot, glin_changed_var.
Qed.

Lemma upd_other' s x z v : v <> x -> upd s x z v = s v.
Proof. apply upd_other. Qed.

Theorem fb_assign_sound x ex st s t :
  gfb st s t -> gfb (fb_assign x ex st) (upd s x (eval_le ex s)) t.
Proof.
  intros G. apply (fb_num_sound st s _ t x (d_assign x ex) G).
  - apply upd_other'.
  - intros e. apply d_assign_sound.
Qed.
Theorem fb_weak_assign_sound x ex st s t :
  gfb st s t -> gfb (fb_weak_assign x ex st) s t /\
                gfb (fb_weak_assign x ex st) (upd s x (eval_le ex s)) t.
Proof.
  intros G. split.
  - apply (fb_num_sound st s s t x (d_weak_assign x ex) G); auto.
    intros e Ge. apply d_weak_assign_sound; auto.
  - apply (fb_num_sound st s _ t x (d_weak_assign x ex) G); [apply upd_other'|].
    intros e Ge. apply d_weak_assign_sound; auto.
Qed.
Theorem fb_arith_sound op x y z st s t r :
  gfb st s t -> arith_sem op (s y) (operand_val z s) = Some r ->
  gfb (fb_arith op x y z st) (upd s x r) t.
Proof.
  intros G A. apply (fb_num_sound st s _ t x (d_apply_arith op x y z) G); [apply upd_other'|].
  intros e Ge. eapply d_apply_arith_sound; eauto.
Qed.
Theorem fb_bit_sound op x y z st s t r :
  gfb st s t -> bit_sem op (s y) (operand_val z s) = Some r ->
  gfb (fb_bit op x y z st) (upd s x r) t.
Proof.
  intros G A. apply (fb_num_sound st s _ t x (d_apply_bit op x y z) G); [apply upd_other'|].
  intros e Ge. eapply d_apply_bit_sound; eauto.
Qed.
Theorem fb_select_sound lhs c e1 e2 st s t :
  wf_lc c -> gfb st s t ->
  gfb (fb_select lhs c e1 e2 st) (upd s lhs (if satb c s then eval_le e1 s else eval_le e2 s)) t.
Proof.
  intros W G. apply (fb_num_sound st s _ t lhs (d_select lhs c e1 e2) G); [apply upd_other'|].
  intros e Ge. apply d_select_sound; auto.
Qed.
Theorem fb_add_sound cs st s t :
  (forall c, In c cs -> wf_lc c /\ sat c s) -> gfb st s t -> gfb (fb_add cs st) s t.
Proof.
  intros H G. unfold fb_add. destruct cs as [|c0 r]; auto.
  destruct G as (P & L & B & U). gfb_intro; auto.
  eapply gprod_on_snd; eauto. intros e Ge. apply d_add_sound; auto.
Qed.

Theorem fb_entails_sound c st s t : wf_lc c -> gfb st s t -> fb_entails c st = true -> sat c s.
Proof.
  intros W (P & _) E. unfold fb_entails in E. eapply d_entails_sound; eauto. eapply gprod_snd; eauto.
Qed.
Theorem fb_bool_at_sound st s t v : gfb st s t -> gbv (fb_bool_at st v) (t v).
Proof.
  intros (P & _). unfold fb_bool_at. rewrite (gprod_canon _ _ _ P). apply gb_at. eapply gprod_fst; eauto.
Qed.
Theorem fb_not_bot st s t : gfb st s t -> fb_is_bot st = false.
Proof. intros (P & _). unfold fb_is_bot. eapply gprod_not_bot; eauto. Qed.
(* at(v) = (what the Boolean component says about v as 0/1) meet (the interval of v): it
   describes the integer value of an integer variable (nothing Boolean is known about it) and the
   0/1 value of a Boolean variable (nothing numerical is known about it) *)
Theorem fb_at_sound_int st s t v : gfb st s t ->
  be_at (p_fst (f_prod st)) v = BvTop -> gamma (fb_at st v) (s v).
Proof.
  intros (P & _) E. unfold fb_at. rewrite E. cbn [bv_is_bot orb].
  pose proof (e_at_sound _ _ v (gprod_snd _ _ _ P)) as Ge.
  rewrite (gamma_not_bot _ _ Ge). exact Ge.
Qed.
Theorem fb_at_sound_bool st s t v : gfb st s t ->
  is_top (e_at (p_snd (f_prod st)) v) = true -> gamma (fb_at st v) (b2z (t v)).
Proof.
  intros (P & _) T. unfold fb_at.
  pose proof (gb_at _ _ v (gprod_fst _ _ _ P)) as Gb.
  pose proof (e_at_sound _ _ v (gprod_snd _ _ _ P)) as Ge.
  assert (Ga : forall z, gamma (e_at (p_snd (f_prod st)) v) z).
  { intros z. eapply is_top_gamma_all; eauto. }
  rewrite (gamma_not_bot _ _ Ge).
  destruct (be_at (p_fst (f_prod st)) v) eqn:E; simpl in Gb; try tauto; cbn [bv_is_bot orb].
  3: apply Ga.
  all: rewrite Gb; apply imeet_exact; split; [apply gamma_iconst; reflexivity|apply Ga].
Qed.

Lemma bb_remove_refs_at x b k : b <> SBot -> bb_at (bb_remove_refs x b) k = vs_rem x (bb_at b k).
Proof. apply s_map_if_at; auto with fb. Qed.

(* The Boolean variable x gets the value val: the memory of implied Booleans, whose keys
   already follow the new store while its sets still speak of t, drops every reference to x. *)
Lemma gbools_remove_refs b t x val :
  gsenv vset vops_ bool (gvs t) b (bupd t x val) -> gbools (bb_remove_refs x b) (bupd t x val).
Proof.
  apply gs_map_if; auto with fb. intros v z G.
  eapply dv_all_mono; [|apply dv_all_rem, G; exact N.eqb_refl].
  intros y [H N] Z. rewrite bupd_other by exact N. auto.
Qed.
Lemma gbools_set b t x v val :
  gbools b t -> gvs t v val -> gbools (bb_remove_refs x (bb_set b x v)) (bupd t x val).
Proof. intros G Gv. apply gbools_remove_refs, gs_set; auto with fb. Qed.
Lemma gbools_forget b t x val : gbools b t -> gbools (bb_remove_refs x (bb_forget b x)) (bupd t x val).
Proof. intros G. apply gbools_remove_refs, gs_forget; auto with fb. Qed.

(* the sets remembered for a Boolean whose value implies y, or y and z *)
Lemma gvs_implied b t y val : gbools b t -> (val = true -> t y = true) ->
  gvs t (vs_meet (bb_at b y) (dv_single y)) val.
Proof.
  intros G H. apply dv_all_meet; [|apply dv_all_single; exact H].
  eapply dv_all_mono; [|apply (gbools_at _ _ y G)]. auto.
Qed.
Lemma gvs_implied2 b t y z val : gbools b t -> (val = true -> t y = true /\ t z = true) ->
  gvs t (vs_meet (vs_meet (vs_meet (bb_at b y) (bb_at b z)) (dv_single y)) (dv_single z)) val.
Proof.
  intros G H. repeat apply dv_all_meet; try (apply dv_all_single; intros V; apply H, V).
  - eapply dv_all_mono; [|apply (gbools_at _ _ y G)]. intros w Hw V. apply Hw, H, V.
  - eapply dv_all_mono; [|apply (gbools_at _ _ z G)]. intros w Hw V. apply Hw, H, V.
Qed.

Lemma l_at_eq l k : l_at l k = s_at cset cops l k. Proof. reflexivity. Qed.
Lemma gcs_not_bot s u a x : gcs s u a x -> a <> DVBot.
Proof. apply dv_all_not_bot. Qed.
Lemma glin_set l u s t x v val :
  glin l u s t -> gcs s u v val -> glin (l_set l x v) u s (bupd t x val).
Proof. apply gs_set; auto with fb. Qed.
Lemma glin_forget l u s t x val : glin l u s t -> glin (l_forget l x) u s (bupd t x val).
Proof. apply gs_forget; auto with fb. Qed.

Lemma gcs_negate s u c b : gcs s u (DVSet [c]) b -> gcs s u (dv_single (lc_negate c)) (negb b).
Proof.
  intros G. destruct (G c (or_introl eq_refl)) as [W E]. apply dv_all_single. split.
  - apply wf_lc_negate. exact W.
  - intros A. apply au_negate in A. rewrite lc_negate_spec, <- (E A). destruct b; simpl; intuition congruence.
Qed.

Lemma glin_propagate l u s t x y neg :
  glin l u s t ->
  glin (l_propagate l x y neg) u s (bupd t x (if neg then negb (t y) else t y)).
Proof.
  intros G. pose proof (glin_at _ _ _ _ y G) as Gy. unfold l_propagate. destruct neg.
  - destruct (l_at l y) as [|[|c [|c1 r]]]; cbn [is_single]; auto using glin_forget.
    apply glin_set; auto. apply gcs_negate. exact Gy.
  - apply glin_set; auto.
Qed.

Definition set_bool_mem (st : fstate) (p : prod) (l : lenv) (b : bbenv) (u : vset) : fstate := mkF p l b u.

Lemma satb_false c s : ~ sat c s -> satb c s = false.
Proof. intros N. destruct (satb c s) eqn:S; [|reflexivity]. apply satb_spec in S. tauto. Qed.

Theorem fb_assign_bool_cst_sound x c st s t :
  wf_lc c -> gfb st s t -> gfb (fb_assign_bool_cst x c st) s (bupd t x (satb c s)).
Proof.
  intros W G. pose proof G as (P & L & B & U). unfold fb_assign_bool_cst.
  rewrite (fb_not_bot _ _ _ G).
  set (t' := bupd t x (satb c s)).
  assert (P1 : gprod (canon (p_on_fst (fun f => be_forget f x) (f_prod st))) s t').
  { apply gprod_canon_intro. eapply gprod_on_fst; eauto. intros f. apply gb_forget. }
  set (p1 := canon (p_on_fst (fun f => be_forget f x) (f_prod st))) in *.
  assert (Pset : forall v, gbv v (satb c s) -> gprod (p_on_fst (fun f => be_set f x v) p1) s t').
  { intros v Gv. eapply gprod_on_fst; eauto. intros f Gf. apply gb_set_same; auto.
    unfold t'. rewrite bupd_same. exact Gv. }
  pose proof (gbools_forget _ _ x (satb c s) B) as Bs.
  pose proof (glin_forget _ _ _ _ x (satb c s) L) as Lf.
  destruct (lc_is_tautology c) eqn:T.
  { gfb_intro; auto. apply Pset. apply satb_spec, lc_is_tautology_sound, T. }
  destruct (lc_is_contradiction c) eqn:C.
  { gfb_intro; auto. apply Pset. apply satb_false, lc_is_contradiction_sound, C. }
  pose proof (mark_unchanged_fold (lc_vars c) _ _ _ _ L U) as MF. cbv zeta in MF.
  destruct (fold_left (fun lu w => mark_unchanged w lu) (lc_vars c) (f_lin st, f_unch st)) as [l u].
  cbn [fst snd] in MF. destruct MF as [GL NU]. gfb_intro; auto.
  - apply Pset.
    assert (Ge : genv (p_snd (canon p1)) s) by (rewrite (gprod_canon _ _ _ P1); eapply gprod_snd; eauto).
    destruct (d_entails c (p_snd (canon p1))) eqn:E1; [eapply satb_spec, d_entails_sound; eauto|].
    destruct (d_entails (lc_negate c) (p_snd (canon p1))) eqn:E2; [|exact I].
    apply satb_false, lc_negate_spec. eapply d_entails_sound; eauto using wf_lc_negate.
  - apply glin_set; auto. apply dv_all_single. split; auto. intros _. apply satb_spec.
Qed.

Theorem fb_assign_bool_var_sound x y neg st s t :
  gfb st s t -> gfb (fb_assign_bool_var x y neg st) s (bupd t x (if neg then negb (t y) else t y)).
Proof.
  intros G. pose proof G as (P & L & B & U). unfold fb_assign_bool_var.
  rewrite (fb_not_bot _ _ _ G). gfb_intro; auto using glin_propagate.
  - apply gprod_canon_intro. eapply gprod_on_fst; eauto. intros f Gf. unfold be_assign_var.
    apply gb_set; auto. destruct neg; [apply bv_neg_sound|]; apply gb_at; exact Gf.
  - destruct neg.
    + apply gbools_forget, B.
    + apply gbools_set, gvs_implied; auto.
Qed.

Theorem fb_weak_assign_bool_cst_sound x c st s t :
  wf_lc c -> gfb st s t ->
  gfb (fb_weak_assign_bool_cst x c st) s t /\
  gfb (fb_weak_assign_bool_cst x c st) s (bupd t x (satb c s)).
Proof.
  intros W G. unfold fb_weak_assign_bool_cst. rewrite (fb_not_bot _ _ _ G).
  split; apply fb_join_sound; [left; exact G|right; apply fb_assign_bool_cst_sound; auto].
Qed.
Theorem fb_weak_assign_bool_var_sound x y neg st s t :
  gfb st s t ->
  gfb (fb_weak_assign_bool_var x y neg st) s t /\
  gfb (fb_weak_assign_bool_var x y neg st) s (bupd t x (if neg then negb (t y) else t y)).
Proof.
  intros G. unfold fb_weak_assign_bool_var. rewrite (fb_not_bot _ _ _ G).
  split; apply fb_join_sound; [left; exact G|right; apply fb_assign_bool_var_sound; auto].
Qed.

Theorem fb_apply_binary_bool_sound op x y z st s t :
  gfb st s t -> gfb (fb_apply_binary_bool op x y z st) s (bupd t x (bool_sem op (t y) (t z))).
Proof.
  intros G. pose proof G as (P & L & B & U). unfold fb_apply_binary_bool.
  rewrite (fb_not_bot _ _ _ G). gfb_intro; auto using glin_forget.
  - apply gprod_canon_intro. eapply gprod_on_fst; eauto. intros f Gf.
    apply gb_set; auto. apply bv_bin_sound; apply gb_at; exact Gf.
  - destruct op; try (apply gbools_forget, B).
    apply gbools_set, gvs_implied2; auto. apply andb_true_iff.
Qed.

Lemma gb_assume f t x neg : gbenv f t -> t x = negb neg -> gbenv (be_assume f x neg) t.
Proof.
  intros G E. unfold be_assume. apply gb_set_same; auto.
  pose proof (gb_at _ _ x G) as Gx. rewrite E in *.
  destruct neg, (be_at f x); simpl in *; auto; discriminate.
Qed.
Lemma add_if_unchanged_sound u c p s t :
  gprod p s t -> wf_lc c -> (all_unchanged u c = true -> sat c s) ->
  gprod (add_if_unchanged u c p) s t.
Proof.
  intros P W H. unfold add_if_unchanged. destruct (unch_covers u c) eqn:E; auto.
  eapply gprod_on_snd; eauto. intros e Ge. apply d_add_sound; auto.
  intros c' [<-|[]]. split; auto. apply H. apply unch_covers_au. exact E.
Qed.
Lemma bwd_reduction_sound l u x p s t :
  glin l u s t -> gprod p s t -> t x = true -> gprod (bwd_reduction l u x p) s t.
Proof.
  intros GL P X. unfold bwd_reduction.
  destruct (dv_is_top (l_at l x) || dv_is_bot (l_at l x)); auto.
  pose proof (glin_at _ _ _ _ x GL) as Gx. destruct (l_at l x) as [|cs]; simpl in *; [tauto|].
  revert p P. induction cs as [|c r IH]; simpl; intros p P; auto.
  apply IH.
  - intros c' I. apply Gx. right. exact I.
  - destruct (Gx c (or_introl eq_refl)) as [W E]. apply add_if_unchanged_sound; auto.
    intros A. apply E; auto.
Qed.
Lemma assume_fold_sound vs : forall p l u s t x,
  gprod p s t -> glin l u s t -> t x = true -> (forall v, In v vs -> t v = true) ->
  let pl := fold_left (fun pl v =>
                         let '(q, l0) := pl in
                         (p_on_fst (fun f => be_assume f v false) q,
                          l_set l0 x (cs_meet (l_at l0 x) (l_at l0 v)))) vs (p, l) in
  gprod (fst pl) s t /\ glin (snd pl) u s t.
Proof.
  induction vs as [|v r IH]; cbn [fold_left]; intros p l u s t x P L X H; [simpl; auto|].
  apply IH; auto.
  - eapply gprod_on_fst; eauto. intros f Gf. apply gb_assume; auto. simpl. apply H. left; reflexivity.
  - apply (gs_set_frame _ _ _ (gcs s u)) with t; auto with fb.
    apply dv_all_meet; [apply glin_at; exact L|].
    pose proof (glin_at _ _ _ _ v L) as Gv. rewrite (H v (or_introl eq_refl)) in Gv.
    rewrite X. exact Gv.
  - intros w I. apply H. right. exact I.
Qed.

Theorem fb_assume_bool_sound x neg st s t :
  gfb st s t -> t x = negb neg -> gfb (fb_assume_bool x neg st) s t.
Proof.
  intros G E. pose proof G as (P & L & B & U). unfold fb_assume_bool.
  rewrite (fb_not_bot _ _ _ G).
  assert (P1 : gprod (canon (p_on_fst (fun f => be_assume f x neg) (f_prod st))) s t).
  { apply gprod_canon_intro. eapply gprod_on_fst; eauto. intros f Gf. apply gb_assume; auto. }
  set (p := canon (p_on_fst (fun f => be_assume f x neg) (f_prod st))) in *.
  rewrite (gprod_not_bot _ _ _ P1).
  destruct neg; [gfb_intro; auto|].
  simpl in E.
  assert (HV : forall v, In v (dv_elems (bb_at (f_bools st) x)) -> t v = true).
  { intros v I. pose proof (gbools_at _ _ x B) as Gx.
    destruct (bb_at (f_bools st) x) as [|l]; simpl in *; [tauto|]. apply Gx; auto. }
  pose proof (assume_fold_sound _ p (f_lin st) (f_unch st) s t x P1 L E HV) as AF. cbv zeta in AF.
  destruct (fold_left _ (dv_elems (bb_at (f_bools st) x)) (p, f_lin st)) as [p1 l1].
  cbn [fst snd] in AF. destruct AF as [P2 L2].
  gfb_intro; auto. apply bwd_reduction_sound; auto.
Qed.

Lemma be_assume_bot f t x neg : gbenv f t -> s_is_bot (be_assume f x neg) = true -> t x = neg.
Proof.
  intros G. pose proof (gb_at _ _ x G) as Gx. unfold be_assume, be_set.
  destruct f as [|m]; simpl in *; [tauto|].
  destruct (sget bval bops m x), neg, (t x); simpl in *; try discriminate; try tauto; auto.
Qed.
Lemma gb_select f t lhs cond b1 b2 :
  gbenv f t -> gbenv (be_select f lhs cond b1 b2) (bupd t lhs (if t cond then t b1 else t b2)).
Proof.
  intros G. unfold be_select. rewrite (gbenv_not_bot _ _ G).
  destruct (N.eqb_spec b1 b2) as [->|N].
  { unfold be_assign_var. apply gb_set; auto. destruct (t cond); apply gb_at; exact G. }
  destruct (s_is_bot (be_assume f cond false)) eqn:A1.
  { rewrite (be_assume_bot _ _ _ _ G A1). apply gb_set; auto. apply gb_at; exact G. }
  destruct (s_is_bot (be_assume f cond true)) eqn:A2.
  { rewrite (be_assume_bot _ _ _ _ G A2). apply gb_set; auto. apply gb_at; exact G. }
  apply gb_set; auto. apply bv_join_sound. destruct (t cond); [left|right]; apply gb_at; exact G.
Qed.

Lemma bv_true_sound v b : bv_is_true v = true -> gbv v b -> b = true.
Proof. destruct v; simpl; try discriminate; auto. Qed.
Lemma bv_false_sound v b : bv_is_false v = true -> gbv v b -> b = false.
Proof. destruct v; simpl; try discriminate; auto. Qed.

Theorem fb_select_bool_sound lhs cond b1 b2 st s t :
  gfb st s t ->
  gfb (fb_select_bool lhs cond b1 b2 st) s (bupd t lhs (if t cond then t b1 else t b2)).
Proof.
  intros G. pose proof G as (P & L & B & U). unfold fb_select_bool.
  rewrite (fb_not_bot _ _ _ G).
  destruct (N.eqb_spec b1 b2) as [->|NE].
  { replace (if t cond then t b2 else t b2) with (t b2) by (destruct (t cond); reflexivity).
    apply (fb_assign_bool_var_sound lhs b2 false st s t G). }
  rewrite (gprod_canon _ _ _ P).
  pose proof (gprod_fst _ _ _ P) as GF.
  pose proof (gb_at _ _ cond GF) as Gc. pose proof (gb_at _ _ b1 GF) as G1. pose proof (gb_at _ _ b2 GF) as G2.
  set (f0 := p_fst (f_prod st)) in *.
  set (val := if t cond then t b1 else t b2).
  assert (PP : gprod (canon (p_on_fst (fun f => be_select f lhs cond b1 b2) (f_prod st))) s (bupd t lhs val)).
  { apply gprod_canon_intro. eapply gprod_on_fst; eauto. intros f. apply gb_select. }
  destruct (bv_is_true (be_at f0 cond)) eqn:CT.
  { assert (V : val = t b1) by (unfold val; rewrite (bv_true_sound _ _ CT Gc); reflexivity).
    gfb_intro; auto; rewrite V; [apply glin_set, glin_at|apply gbools_set, gvs_implied]; auto. }
  destruct (bv_is_false (be_at f0 cond)) eqn:CF.
  { assert (V : val = t b2) by (unfold val; rewrite (bv_false_sound _ _ CF Gc); reflexivity).
    gfb_intro; auto; rewrite V; [apply glin_set, glin_at|apply gbools_set, gvs_implied]; auto. }
  assert (LP : forall neg : bool, val = (if neg then negb (t cond) else t cond) ->
                 glin (l_propagate (f_lin st) lhs cond neg) (f_unch st) s (bupd t lhs val)).
  { intros neg ->. apply glin_propagate, L. }
  gfb_intro; auto.
  - destruct (bv_is_true (be_at f0 b1) && bv_is_false (be_at f0 b2)) eqn:C1.
    { apply andb_true_iff in C1. destruct C1 as [C1 C2]. apply (LP false). unfold val.
      rewrite (bv_true_sound _ _ C1 G1), (bv_false_sound _ _ C2 G2). destruct (t cond); reflexivity. }
    destruct (bv_is_false (be_at f0 b1) && bv_is_true (be_at f0 b2)) eqn:C2; [|apply glin_forget, L].
    apply andb_true_iff in C2. destruct C2 as [C2 C3]. apply (LP true). unfold val.
    rewrite (bv_false_sound _ _ C2 G1), (bv_true_sound _ _ C3 G2). destruct (t cond); reflexivity.
  - destruct (bv_is_false (be_at f0 b2)) eqn:C2.
    { apply gbools_set, gvs_implied2; auto. unfold val. rewrite (bv_false_sound _ _ C2 G2).
      destruct (t cond); intros X; try discriminate; auto. }
    destruct (bv_is_false (be_at f0 b1)) eqn:C1; [|apply gbools_forget, B].
    apply gbools_set, gvs_implied; auto. unfold val. rewrite (bv_false_sound _ _ C1 G1).
    destruct (t cond); intros X; try discriminate; auto.
Qed.

(* casts.  The three well-typed shapes: integer to integer, integer to Boolean (trunc: zero is
   false, non-zero is true), Boolean to integer (zext / sext: true is 1) *)
Lemma d_cast_from_bool_sound op dst src w e s v :
  genv e s -> 0 <= v <= 1 -> genv (d_cast op dst src false true w e) (upd s dst v).
Proof.
  intros G V. unfold d_cast. cbn [orb negb].
  assert (G1 : genv (e_forget e dst) (upd s dst v)) by (apply e_forget_sound; auto).
  destruct op; auto.
  repeat apply d_add_sound; auto;
    intros c [<-|[]]; (split; [apply wf_single; lia|]);
    unfold sat, eval_le; cbn [lc_kind lc_exp eval_terms le_terms le_cst]; rewrite upd_same; lia.
Qed.

Theorem fb_cast_int_sound op dst src w st s t v :
  gfb st s t -> v = s src -> cast_pre op false w v ->
  gfb (fb_cast op dst src false false w st) (upd s dst v) t.
Proof.
  intros G V C.
  assert (H : gfb (mark_changed dst (set_prod st (canon (p_on_snd (d_cast op dst src false false w) (f_prod st)))))
                  (upd s dst v) t).
  { apply (fb_num_sound st s _ t dst (d_cast op dst src false false w) G); [apply upd_other'|].
    intros e Ge. apply d_cast_sound; auto. }
  unfold fb_cast. destruct op; simpl; exact H.
Qed.
Theorem fb_cast_to_bool_sound dst src w st s t :
  gfb st s t -> gfb (fb_cast CTrunc dst src true false w st) s (bupd t dst (negb (s src =? 0))).
Proof.
  intros G. pose proof G as (P & L & B & U). unfold fb_cast. cbn [negb andb].
  rewrite (gprod_canon _ _ _ P).
  pose proof (e_at_sound _ _ src (gprod_snd _ _ _ P)) as Gi.
  set (i := e_at (p_snd (f_prod st)) src) in *.
  gfb_intro; auto using glin_forget.
  - eapply gprod_on_fst; eauto. intros f Gf. apply gb_set; auto.
    destruct (ieq i (iconst 0)) eqn:E1.
    { apply (ieq_sound _ _ E1) in Gi. apply gamma_iconst in Gi. rewrite Gi. reflexivity. }
    destruct (ileq (iconst 0) i) eqn:E2; simpl; [exact I|].
    destruct (Z.eqb_spec (s src) 0) as [Z|Z]; simpl; auto.
    exfalso. rewrite (ileq_complete (iconst 0) i) in E2; [discriminate|apply wf_iconst|].
    intros x Gx. apply gamma_iconst in Gx. subst x. rewrite <- Z. exact Gi.
  - apply gbools_forget, B.
Qed.
Theorem fb_cast_from_bool_sound op dst src w st s t :
  op <> CTrunc -> gfb st s t ->
  gfb (fb_cast op dst src false true w st) (upd s dst (b2z (t src))) t.
Proof.
  intros NT G. pose proof G as (P & L & B & U).
  assert (H : gfb (mark_changed dst (set_prod st
                (let p0 := canon (f_prod st) in
                 let bv := be_at (p_fst p0) src in
                 if bv_is_true bv then p_on_snd (d_assign dst (mkLE [] 1)) p0
                 else if bv_is_false bv then p_on_snd (d_assign dst (mkLE [] 0)) p0
                 else p_on_snd (d_cast op dst src false true w) p0))) (upd s dst (b2z (t src))) t).
  { cbv zeta. rewrite (gprod_canon _ _ _ P).
    pose proof (gb_at _ _ src (gprod_fst _ _ _ P)) as Gb.
    destruct (bv_is_true (be_at (p_fst (f_prod st)) src)) eqn:CT;
      [|destruct (bv_is_false (be_at (p_fst (f_prod st)) src)) eqn:CF];
      apply (fb_num_sound st s _ t dst _ G (upd_other' s dst _)); intros e Ge.
    - rewrite (bv_true_sound _ _ CT Gb). apply (d_assign_sound dst (mkLE [] 1) e s Ge).
    - rewrite (bv_false_sound _ _ CF Gb). apply (d_assign_sound dst (mkLE [] 0) e s Ge).
    - apply d_cast_from_bool_sound; auto. destruct (t src); simpl; lia. }
  unfold fb_cast. destruct op; try congruence; simpl; exact H.
Qed.

Lemma genv_top_any e s s' : e_is_top e = true -> genv e s -> genv e s'.
Proof. destruct e as [|m]; simpl; [tauto|]. intros H G. eapply all_top_gmap; eauto. Qed.
Lemma gfb_top_any st s t s' t' : fb_is_top st = true -> gfb st s t -> gfb st s' t'.
Proof.
  unfold fb_is_top. intros H (P & L & B & U).
  apply andb_true_iff in H. destruct H as [H H3]. apply andb_true_iff in H. destruct H as [H1 H2].
  split; [|split; [|split]]; auto; try (apply gs_is_top; auto with fb).
  destruct (f_prod st) as [|f e]; simpl in *; [tauto|].
  apply andb_true_iff in H1. destruct H1 as [T1 T2]. destruct P as [P1 P2]. split.
  - apply gs_is_top; auto with fb.
  - eapply genv_top_any; eauto.
Qed.
(* forget / project / rename / expand return a bottom or top argument as it is *)
Lemma gfb_guard st st' s t s' t' :
  gfb st s t -> gfb st' s' t' -> gfb (if fb_is_bot st || fb_is_top st then st else st') s' t'.
Proof.
  intros G G'. rewrite (fb_not_bot _ _ _ G). cbn [orb].
  destruct (fb_is_top st) eqn:T; [eapply gfb_top_any; eauto|exact G'].
Qed.
Lemma gfb_top s t : gfb fb_top s t.
Proof. gfb_intro; try (apply gs_top; auto with fb); [|discriminate]. split; [apply gs_top; auto with fb|apply genv_top]. Qed.

(* typed frame condition: outside vs nothing changes; a Boolean variable changes only in the
   Boolean store, an integer variable only in the integer store *)
Definition typed_frame (isb : var -> bool) (vs : list var) (s s' : store) (t t' : bstore) : Prop :=
  (forall k, ~ In k vs -> s' k = s k /\ t' k = t k) /\
  (forall k, isb k = true -> s' k = s k) /\ (forall k, isb k = false -> t' k = t k).

Lemma ge_forget_frame e s s' v : genv e s -> (forall k, k <> v -> s' k = s k) -> genv (e_forget e v) s'.
Proof.
  intros G E. apply (genv_ext _ (upd s v (s' v))).
  - intros k. destruct (N.eq_dec k v) as [->|N]; [rewrite upd_same|rewrite upd_other, E by auto]; reflexivity.
  - apply e_forget_sound. exact G.
Qed.

(* the memories after forget(vs) *)
Definition forget_mem (isb : var -> bool) (s : fstate) (v : var) : fstate :=
  if isb v then mkF (f_prod s) (l_forget (f_lin s) v) (bb_forget (f_bools s) v) (f_unch s)
  else mark_changed v s.

Lemma forget_mem_fold (isb : var -> bool) (vs : list var) : forall st,
  let st1 := fold_left (forget_mem isb) vs st in
  f_prod st1 = f_prod st /\
  f_lin st1 = fold_left (fun l v => if isb v then s_forget cset l v else l) vs (f_lin st) /\
  f_bools st1 = fold_left (fun b v => if isb v then s_forget vset b v else b) vs (f_bools st) /\
  f_unch st1 = fold_left (fun (u : vset) v => if isb v then u else vs_rem v u) vs (f_unch st).
Proof.
  induction vs as [|v r IH]; cbn [fold_left]; intros st; [simpl; auto|].
  destruct (IH (forget_mem isb st v)) as (H1 & H2 & H3 & H4). cbv zeta.
  rewrite H1, H2, H3, H4. unfold forget_mem. destruct (isb v); simpl; auto.
Qed.

(* the integer variables of vs leave the set of unchanged variables *)
Lemma unch_fold_spec (isb : var -> bool) (vs : list var) : forall (u : vset) w, u <> DVBot ->
  let u' := fold_left (fun (u : vset) v => if isb v then u else vs_rem v u) vs u in
  u' <> DVBot /\ (vs_at w u' = true -> vs_at w u = true /\ (In w vs -> isb w = true)).
Proof.
  induction vs as [|v r IH]; cbn [fold_left]; intros u w NU; cbv zeta.
  - split; [exact NU|]. intros H. split; [exact H|]. intros [].
  - destruct (isb v) eqn:T.
    + destruct (IH u w NU) as [H1 H2]. split; auto. intros A. destruct (H2 A) as [A1 A2]. split; auto.
      intros [<-|I]; auto.
    + destruct (IH (vs_rem v u) w (vs_rem_not_bot v u NU)) as [H1 H2]. split; auto.
      intros A. destruct (H2 A) as [A1 A2]. apply vs_at_rem in A1; auto. destruct A1 as [A1 A3].
      split; auto. intros [E|I]; [congruence|auto].
Qed.

Lemma fold_rem_bot (vs : list var) : fold_left (fun acc v => vs_rem v acc) vs DVBot = DVBot.
Proof. induction vs; simpl; auto. Qed.
Lemma fold_rem_top (vs : list var) : fold_left (fun acc v => vs_rem v acc) vs (@dv_top var) = dv_top.
Proof. induction vs; simpl; auto. Qed.
Lemma dv_all_fold_rem vs : forall (P : var -> Prop) v, dv_all P v ->
  dv_all (fun y => P y /\ ~ In y vs) (fold_left (fun acc x => vs_rem x acc) vs v).
Proof.
  induction vs as [|x r IH]; cbn [fold_left]; intros P v H.
  - revert H. apply dv_all_mono. intros y Py. split; [exact Py|intros []].
  - eapply dv_all_mono; [|apply IH, (dv_all_rem var N.eqb N.eqb_refl), H].
    intros y [[Py N] NI]. split; [exact Py|]. intros [E|I]; [apply N; symmetry; exact E|exact (NI I)].
Qed.

(* forget and havoc differ only in the product p *)
Lemma forget_mems_sound isb vs st p s t s' t' :
  gfb st s t -> typed_frame isb vs s s' t t' -> gprod p s' t' ->
  let st1 := fold_left (forget_mem isb) vs (set_prod st p) in
  let b := f_bools st1 in
  gfb (mkF (f_prod st1) (f_lin st1)
           (if s_is_bot b || bb_is_top b then b
            else s_map_vals vset vops_ (fun s0 => fold_left (fun acc v => vs_rem v acc) vs s0) b)
           (f_unch st1)) s' t'.
Proof.
  intros (P & L & B & U) (F1 & F2 & F3) PP.
  destruct (forget_mem_fold isb vs (set_prod st p)) as (H1 & H2 & H3 & H4). cbv zeta in *.
  rewrite H1, H2, H3, H4. cbn [set_prod f_prod f_lin f_bools f_unch].
  (* the Boolean store changes only at the Boolean variables of vs *)
  assert (KT : forall k, (In k vs -> isb k = false) -> t' k = t k).
  { intros k H. destruct (in_dec N.eq_dec k vs) as [I|I]; [apply F3, H, I|apply F1, I]. }
  apply gfb_mk.
  - exact PP.
  - eapply glin_frame; [|apply (gs_forget_if _ _ _ (gcs s (f_unch st))) with t; auto with fb].
    intros w A. apply (unch_fold_spec isb vs _ w U) in A. destruct A as [A1 A2]. split; [exact A1|].
    destruct (in_dec N.eq_dec w vs) as [I|I]; [apply F2, A2, I|apply F1, I].
  - apply (gs_map_if _ _ _ (gvs t)); auto with fb; [apply fold_rem_top| |].
    + intros v z Gv. eapply dv_all_mono; [|apply dv_all_fold_rem, Gv].
      intros y [Py N] Z. rewrite (proj2 (F1 y N)). auto.
    + apply (gs_forget_if _ _ _ (gvs t)) with t; auto with fb.
  - apply (unch_fold_spec isb vs _ 0%N U).
Qed.

Theorem fb_havoc_sound isb v st s t s' t' :
  gfb st s t -> typed_frame isb [v] s s' t t' -> gfb (fb_havoc isb v st) s' t'.
Proof.
  intros G F. pose proof G as (P & _). pose proof F as (F1 & _).
  assert (E : forall k, k <> v -> s' k = s k /\ t' k = t k) by (intros k N; apply F1; intros [E|[]]; congruence).
  apply (forget_mems_sound isb [v] st _ s t s' t' G F).
  eapply gprod_on_snd; [eapply gprod_on_fst; [exact P|]|].
  - intros f Gf. apply (gs_forget_frame _ _ _ gbv) with t; auto with fb. intros k N. apply E, N.
  - intros e Ge. apply ge_forget_frame with s; auto. intros k N. apply E, N.
Qed.

Theorem fb_forget_sound isb vs st s t s' t' :
  gfb st s t -> typed_frame isb vs s s' t t' -> gfb (fb_forget isb vs st) s' t'.
Proof.
  intros G F. pose proof G as (P & _). pose proof F as (F1 & _).
  unfold fb_forget. apply (gfb_guard _ _ s t); [exact G|].
  apply (forget_mems_sound isb vs st _ s t s' t' G F).
  eapply gprod_on_snd; [eapply gprod_on_fst; [exact P|]|].
  - intros f Gf. unfold be_forget_list. rewrite (gbenv_not_bot _ _ Gf). cbn [orb].
    destruct (be_is_top f) eqn:Tf; [apply gs_is_top; auto with fb|].
    apply (gs_forget_if _ _ _ gbv bops_Rtop (fun _ => true)) with t; [exact Gf|].
    intros k H. apply F1. intros I. discriminate (H I).
  - intros e Ge. eapply d_forget_sound; eauto. intros k NI. apply F1. exact NI.
Qed.

Theorem fb_project_sound vs st s t s' t' :
  gfb st s t -> (forall k, In k vs -> s' k = s k /\ t' k = t k) -> gfb (fb_project vs st) s' t'.
Proof.
  intros G F. pose proof G as (P & L & B & U).
  unfold fb_project. apply (gfb_guard _ _ s t); [exact G|].
  destruct vs as [|v0 r]; [apply gfb_top|].
  gfb_intro; try (apply gs_top; auto with fb); [|discriminate].
  eapply gprod_on_snd; [eapply gprod_on_fst; [exact P|]|].
  - intros f Gf. apply (gs_project _ _ _ gbv) with t; auto with fb. intros k I. apply F, I.
  - intros e Ge. eapply e_project_sound; eauto. intros k I. apply F. exact I.
Qed.

Theorem fb_normalize_sound st s t : gfb st s t -> gfb (fb_normalize st) s t.
Proof. intros (P & L & B & U). gfb_intro; auto. apply gprod_canon_intro. exact P. Qed.

Theorem fb_expand_bool_sound isb x nx st s t t2 :
  isb x = true -> is_top (e_at (p_snd (f_prod st)) x) = true ->
  gfb st s t -> gfb st s t2 -> gfb (fb_expand isb x nx st) s (bupd t nx (t2 x)).
Proof.
  intros T TX G G2. pose proof G as (P & L & B & U). pose proof G2 as (P2 & L2 & B2 & _).
  unfold fb_expand. apply (gfb_guard _ _ s t); [exact G|].
  rewrite T. gfb_intro; auto.
  - apply (gprod_on_both' _ _ _ s t); [exact P| |].
    + pose proof (gprod_fst _ _ _ P) as Gf. pose proof (gprod_fst _ _ _ P2) as Gf2.
      unfold be_expand. rewrite (gbenv_not_bot _ _ Gf). cbn [orb].
      destruct (be_is_top (p_fst (f_prod st))) eqn:Tf; [apply gs_is_top; auto with fb|].
      apply gb_set; auto. apply gb_at. exact Gf2.
    + pose proof (gprod_snd _ _ _ P) as Ge.
      unfold d_expand. rewrite (genv_not_bot _ _ Ge). cbn [orb].
      destruct (e_is_top (p_snd (f_prod st))); auto.
      apply e_set_same_sound; auto. eapply is_top_gamma_all; [exact TX|]. apply e_at_sound. exact Ge.
  - apply glin_set; auto. apply glin_at. exact L2.
  - apply gbools_forget, B.
Qed.

Theorem fb_expand_int_sound isb x nx st s t s2 :
  isb x = false -> be_at (p_fst (f_prod st)) x = BvTop ->
  gfb st s t -> gfb st s2 t -> (forall k, k <> x -> s2 k = s k) ->
  gfb (fb_expand isb x nx st) (upd s nx (s2 x)) t.
Proof.
  intros T TX G G2 E. pose proof G as (P & L & B & U). pose proof G2 as (P2 & L2 & B2 & _).
  unfold fb_expand. apply (gfb_guard _ _ s t); [exact G|].
  rewrite T. set (s' := upd s nx (s2 x)).
  assert (PP : gprod (p_on_snd (d_expand x nx) (p_on_fst (fun f => be_expand f x nx) (f_prod st))) s' t).
  { apply (gprod_on_both' _ _ _ s t); [exact P| |].
    - pose proof (gprod_fst _ _ _ P) as Gf.
      unfold be_expand. rewrite (gbenv_not_bot _ _ Gf). cbn [orb].
      destruct (be_is_top (p_fst (f_prod st))) eqn:Tf; auto.
      rewrite TX. apply gb_set_same; auto. exact I.
    - apply d_expand_sound; [eapply gprod_snd; eauto|].
      exists s2. repeat split; auto. eapply gprod_snd; eauto. }
  assert (L0 : glin (f_lin st) (vs_rem nx (f_unch st)) s' t).
  { apply (glin_changed_var _ _ s s' t nx); auto. apply upd_other'. }
  assert (U0 : vs_rem nx (f_unch st) <> DVBot) by (apply vs_rem_not_bot; exact U).
  destruct (vs_at x (f_unch st)); [|gfb_intro; auto].
  pose proof (mark_unchanged_sound nx _ _ _ _ L0 U0) as [ML MU].
  destruct (mark_unchanged nx (f_lin st, vs_rem nx (f_unch st))) as [l u]. gfb_intro; auto.
Qed.

Lemma rename_store_frame ps : forall s hv w,
  (forall p, In p ps -> w <> fst p /\ w <> snd p) -> rename_store s ps hv w = s w.
Proof.
  induction ps as [|[k nk] r IH]; cbn [rename_store]; intros s hv w H; auto.
  assert (H' : forall p, In p r -> w <> fst p /\ w <> snd p) by (intros p I; apply H; right; exact I).
  destruct (H (k, nk) (or_introl eq_refl)) as [N1 N2]. cbn [fst snd] in *.
  destruct (N.eqb k nk); [apply IH; exact H'|].
  rewrite IH by exact H'. rewrite !upd_other by auto. reflexivity.
Qed.
(* rename of variables of both types in one call; the maps of ItvEnv.v are the separate domain
   over intervals *)
Lemma rename_pairs_filter (P : var * var -> bool) ps m :
  (forall p, In p ps -> P p = false -> is_top (get m (fst p)) = true) ->
  (forall p q, In p ps -> In q ps -> P p = false -> P q = true -> fst p <> snd q) ->
  rename_pairs m ps = rename_pairs m (filter P ps).
Proof. exact (srename_pairs_filter itv (mkVops itv itop ibot is_top is_bot) eq_refl P ps m). Qed.
Lemma e_rename_filter_sound (P : var * var -> bool) e from to s hv :
  genv e s -> NoDup to -> length from = length to ->
  (forall k, In k to -> is_top (e_at e k) = true) ->
  (forall p, In p (combine from to) -> P p = false -> is_top (e_at e (fst p)) = true) ->
  (forall p q, In p (combine from to) -> In q (combine from to) ->
               P p = false -> P q = true -> fst p <> snd q) ->
  genv (e_rename e from to) (rename_store s (filter P (combine from to)) hv).
Proof.
  destruct e as [|m]; simpl; [tauto|]. intros G ND L TP FP DJ.
  destruct (forallb _ _) eqn:E; [eapply all_top_gmap; eauto|]. simpl.
  rewrite (rename_pairs_filter P) by assumption.
  apply rename_pairs_sound; [exact G|apply NoDup_map_filter; rewrite snd_combine; assumption|].
  intros p I. apply filter_In in I. eapply TP, in_combine_snd, I.
Qed.

Definition int_pairs (isb : var -> bool) (from to : list var) : list (var * var) :=
  filter (fun p => negb (isb (fst p))) (combine from to).
Definition bool_pairs (isb : var -> bool) (from to : list var) : list (var * var) :=
  filter (fun p => isb (fst p)) (combine from to).

Theorem fb_rename_sound (isb : var -> bool) (from to : list var) st s t hv hb :
  gfb st s t -> NoDup to -> length from = length to ->
  (forall p, In p (combine from to) -> isb (fst p) = isb (snd p)) ->
  (forall k, In k to -> be_at (p_fst (f_prod st)) k = BvTop /\
                        is_top (e_at (p_snd (f_prod st)) k) = true /\
                        dv_is_top (l_at (f_lin st) k) = true) ->
  (forall k, In k from -> if isb k then is_top (e_at (p_snd (f_prod st)) k) = true
                          else be_at (p_fst (f_prod st)) k = BvTop) ->
  gfb (fb_rename isb from to st) (rename_store s (int_pairs isb from to) hv)
      (grename bool t (bool_pairs isb from to) hb).
Proof.
  intros G ND LE TC FR WT. pose proof G as (P & L & B & U).
  unfold fb_rename. apply (gfb_guard _ _ s t); [exact G|].
  (* the sources of one type are not among the targets of the other type *)
  assert (DISJ : forall (b : bool) (p q : var * var), In q (combine from to) ->
                   isb (fst p) = b -> isb (fst q) = negb b -> fst p <> snd q).
  { intros b p q Iq E1 E2 EQ. rewrite (TC q Iq), <- EQ, E1 in E2. destruct b; discriminate. }
  gfb_intro.
  - apply (gprod_on_both' _ _ _ s t); [exact P| |].
    + apply (gs_rename_filter _ _ _ gbv); auto with fb; [eapply gprod_fst; eauto| | |].
      * intros k I. change (bv_is_top (be_at (p_fst (f_prod st)) k) = true).
        rewrite (proj1 (FR k I)). reflexivity.
      * intros p I Pp. pose proof (WT _ (in_combine_fst _ _ p I)) as W. rewrite Pp in W.
        change (bv_is_top (be_at (p_fst (f_prod st)) (fst p)) = true). rewrite W. reflexivity.
      * intros p q _ Iq Pp Pq. apply (DISJ false p q); auto.
    + apply e_rename_filter_sound; auto; [eapply gprod_snd; eauto| | |].
      * intros k I. apply FR, I.
      * intros p I Pp. apply negb_false_iff in Pp. pose proof (WT _ (in_combine_fst _ _ p I)) as W.
        rewrite Pp in W. exact W.
      * intros p q _ Iq Pp Pq. apply negb_false_iff in Pp. apply negb_true_iff in Pq.
        apply (DISJ true p q); auto.
  - assert (GL' : glin (s_rename cset cops (f_lin st) (filter isb from) (filter isb to)) (f_unch st) s
                       (grename bool t (bool_pairs isb from to) hb)).
    { unfold s_rename. destruct (f_lin st) as [|m] eqn:El; [destruct L|].
      destruct (forallb _ _) eqn:AT; [apply gs_is_top; auto with fb|].
      rewrite (combine_filter isb from to LE TC).
      apply (srename_filter_sound _ _ _ (gcs s (f_unch st))); auto with fb.
      - rewrite snd_combine; assumption.
      - intros p I. apply (FR _ (in_combine_snd _ _ p I)). }
    (* an integer variable that is renamed or overwritten is no longer unchanged *)
    eapply glin_frame; [|exact GL']. intros w A.
    apply (unch_fold_spec isb (from ++ to) _ w U) in A. destruct A as [A1 A2]. split; [exact A1|].
    apply rename_store_frame. intros p J. apply filter_In in J.
    destruct J as [J Pp]. apply negb_true_iff in Pp. split; intros ->.
    + rewrite A2 in Pp; [discriminate|]. apply in_or_app; left. eapply in_combine_fst, J.
    + rewrite (TC p J), A2 in Pp; [discriminate|]. apply in_or_app; right. eapply in_combine_snd, J.
  - apply gs_top; auto with fb.
  - apply (unch_fold_spec isb (from ++ to) _ 0%N U).
Qed.
Definition fcset := store -> bstore -> Prop.

Definition fcget (cs : list fcset) (r : reg) : fcset := nth r cs (fun _ _ => True).
Fixpoint fcsetr (cs : list fcset) (r : reg) (v : fcset) : list fcset :=
  match cs, r with
  | [], _ => []
  | _ :: t, O => v :: t
  | h :: t, S r' => h :: fcsetr t r' v
  end.

(* the concrete operation corresponding to each abstract one; [isb] gives the type of the
   variables: forgetting / renaming / expanding a Boolean variable acts on the Boolean store,
   an integer variable on the integer store *)
Definition fcstep (isb : var -> bool) (cs : list fcset) (o : fhop) : list fcset :=
  match o with
  | FTop r => fcsetr cs r (fun _ _ => True)
  | FBot r => fcsetr cs r (fun _ _ => False)
  | FCopy r s0 => fcsetr cs r (fcget cs s0)
  | FAssign r x e =>
    fcsetr cs r (fun s' t => exists s, fcget cs r s t /\ s' = upd s x (eval_le e s))
  | FWeakAssign r x e =>
    fcsetr cs r (fun s' t => exists s, fcget cs r s t /\ (s' = s \/ s' = upd s x (eval_le e s)))
  | FArith r op x y z =>
    fcsetr cs r (fun s' t => exists s v, fcget cs r s t /\
                   arith_sem op (s y) (operand_val z s) = Some v /\ s' = upd s x v)
  | FBit r op x y z =>
    fcsetr cs r (fun s' t => exists s v, fcget cs r s t /\
                   bit_sem op (s y) (operand_val z s) = Some v /\ s' = upd s x v)
  | FCast r op d sv db sb w =>
    if db then
      (* integer to Boolean: zero is false, non-zero is true *)
      fcsetr cs r (fun s t' => exists t, fcget cs r s t /\ t' = bupd t d (negb (s sv =? 0)))
    else if sb then
      (* Boolean to integer: true is 1 *)
      fcsetr cs r (fun s' t => exists s, fcget cs r s t /\ s' = upd s d (b2z (t sv)))
    else
      fcsetr cs r (fun s' t => exists s v, fcget cs r s t /\ v = s sv /\ cast_pre op false w v /\
                     s' = upd s d v)
  | FAssume r cl => fcsetr cs r (fun s t => fcget cs r s t /\ forall c, In c cl -> sat c s)
  | FSelect r l c e1 e2 =>
    fcsetr cs r (fun s' t => exists s, fcget cs r s t /\
                   s' = upd s l (if satb c s then eval_le e1 s else eval_le e2 s))
  | FForget r vs =>
    fcsetr cs r (fun s' t' => exists s t, fcget cs r s t /\ typed_frame isb vs s s' t t')
  | FHavoc r x =>
    fcsetr cs r (fun s' t' => exists s t, fcget cs r s t /\ typed_frame isb [x] s s' t t')
  | FProject r vs =>
    fcsetr cs r (fun s' t' => exists s t, fcget cs r s t /\
                   forall k, In k vs -> s' k = s k /\ t' k = t k)
  | FRename r f to =>
    fcsetr cs r (fun s' t' => exists s t hv hb, fcget cs r s t /\
                   s' = rename_store s (int_pairs isb f to) hv /\
                   t' = grename bool t (bool_pairs isb f to) hb)
  | FExpand r x nx =>
    if isb x then
      fcsetr cs r (fun s t' => exists t t2, fcget cs r s t /\ fcget cs r s t2 /\
                     (forall k, k <> x -> t2 k = t k) /\ t' = bupd t nx (t2 x))
    else
      fcsetr cs r (fun s' t => exists s s2, fcget cs r s t /\ fcget cs r s2 t /\
                     (forall k, k <> x -> s2 k = s k) /\ s' = upd s nx (s2 x))
  | FJoin r a b | FWiden r a b | FWidenThr r a b _ =>
    fcsetr cs r (fun s t => fcget cs a s t \/ fcget cs b s t)
  | FMeet r a b | FNarrow r a b =>
    fcsetr cs r (fun s t => fcget cs a s t /\ fcget cs b s t)
  | FNormalize r => cs
  | FBAssign r b c =>
    fcsetr cs r (fun s t' => exists t, fcget cs r s t /\ t' = bupd t b (satb c s))
  | FBWAssign r b c =>
    fcsetr cs r (fun s t' => exists t, fcget cs r s t /\ (t' = t \/ t' = bupd t b (satb c s)))
  | FBCopy r b b1 neg =>
    fcsetr cs r (fun s t' => exists t, fcget cs r s t /\
                   t' = bupd t b (if neg then negb (t b1) else t b1))
  | FBWCopy r b b1 neg =>
    fcsetr cs r (fun s t' => exists t, fcget cs r s t /\
                   (t' = t \/ t' = bupd t b (if neg then negb (t b1) else t b1)))
  | FBBin r op b b1 b2 =>
    fcsetr cs r (fun s t' => exists t, fcget cs r s t /\ t' = bupd t b (bool_sem op (t b1) (t b2)))
  | FBAssume r b neg => fcsetr cs r (fun s t => fcget cs r s t /\ t b = negb neg)
  | FBSelect r b bc b1 b2 =>
    fcsetr cs r (fun s t' => exists t, fcget cs r s t /\
                   t' = bupd t b (if t bc then t b1 else t b2))
  | FProbe r a b neg => fcsetr cs r (fun s t => fcget cs a s t /\ t b = negb neg)
  end.

(* side conditions under which an operation is in the modelled fragment: constraints in
   canonical form; casts between an integer and a Boolean in the direction the code
   handles; rename within its precondition (new names distinct and unbound, each of the type
   of the variable it replaces); expand / rename of variables that the component of the
   other type does not bind (i.e. well-typed use) *)
Definition fhop_ok (isb : var -> bool) (rs : list fstate) (o : fhop) : Prop :=
  match o with
  | FAssume _ cl => forall c, In c cl -> wf_lc c
  | FSelect _ _ c _ _ => wf_lc c
  | FBAssign _ _ c | FBWAssign _ _ c => wf_lc c
  | FCast _ op _ _ db sb _ =>
    (db = false /\ sb = false) \/ (db = true /\ sb = false /\ op = CTrunc) \/
    (db = false /\ sb = true /\ op <> CTrunc)
  | FRename r f to =>
    let st := frget rs r in
    NoDup to /\ length f = length to /\
    (forall p, In p (combine f to) -> isb (fst p) = isb (snd p)) /\
    (forall k, In k to -> be_at (p_fst (f_prod st)) k = BvTop /\
                          is_top (e_at (p_snd (f_prod st)) k) = true /\
                          dv_is_top (l_at (f_lin st) k) = true) /\
    (forall k, In k f -> if isb k then is_top (e_at (p_snd (f_prod st)) k) = true
                         else be_at (p_fst (f_prod st)) k = BvTop)
  | FExpand r x _ =>
    let st := frget rs r in
    if isb x then is_top (e_at (p_snd (f_prod st)) x) = true
    else be_at (p_fst (f_prod st)) x = BvTop
  | _ => True
  end.

Definition frel (rs : list fstate) (cs : list fcset) : Prop :=
  length rs = length cs /\ forall r s t, fcget cs r s t -> gfb (frget rs r) s t.

Lemma frget_frset rs r v r' :
  frget (frset rs r v) r' = if Nat.eqb r' r && Nat.ltb r (length rs) then v else frget rs r'.
Proof.
  revert r r'. induction rs as [|h t IH]; intros r r'; [simpl; rewrite andb_false_r; reflexivity|].
  destruct r, r'; try reflexivity. apply IH.
Qed.
Lemma fcget_fcsetr cs r v r' :
  fcget (fcsetr cs r v) r' = if Nat.eqb r' r && Nat.ltb r (length cs) then v else fcget cs r'.
Proof.
  revert r r'. induction cs as [|h t IH]; intros r r'; [simpl; rewrite andb_false_r; reflexivity|].
  destruct r, r'; try reflexivity. apply IH.
Qed.
Lemma frset_length rs r v : length (frset rs r v) = length rs.
Proof. revert r. induction rs as [|h t IH]; simpl; intros r; auto. destruct r; simpl; auto. Qed.
Lemma fcsetr_length cs r v : length (fcsetr cs r v) = length cs.
Proof. revert r. induction cs as [|h t IH]; simpl; intros r; auto. destruct r; simpl; auto. Qed.
Lemma frget_tops n r : frget (repeat fb_top n) r = fb_top.
Proof. apply nth_repeat. Qed.

Lemma frel_set rs cs r (a : fstate) (c : fcset) :
  frel rs cs -> (forall s t, c s t -> gfb a s t) -> frel (frset rs r a) (fcsetr cs r c).
Proof.
  intros [L R] H. split. { rewrite frset_length, fcsetr_length; auto. }
  intros r' s t. rewrite frget_frset, fcget_fcsetr, <- L. destruct (_ && _); auto.
Qed.

Theorem fstep_sound isb rs cs o :
  frel rs cs -> fhop_ok isb rs o -> frel (fstep isb rs o) (fcstep isb cs o).
Proof.
  intros R OK. pose proof R as [L RR].
  destruct o; cbn [fstep fcstep]; try (apply frel_set; [exact R|]).
  - intros sa ta _. apply gfb_top.
  - intros sa ta [].
  - intros sa ta C. apply RR; auto.
  - intros sa' ta (sa & C & ->). apply fb_assign_sound; auto.
  - intros sa' ta (sa & C & [->| ->]); apply fb_weak_assign_sound; auto.
  - intros sa' ta (sa & v & C & A & ->). eapply fb_arith_sound; eauto.
  - intros sa' ta (sa & v & C & A & ->). eapply fb_bit_sound; eauto.
  - cbn [fhop_ok] in OK. destruct OK as [[-> ->]|[(-> & -> & ->)|(-> & -> & NT)]]; apply frel_set; auto.
    + intros sa' ta (sa & v & C & V & P & ->). apply fb_cast_int_sound; auto.
    + intros sa ta' (ta & C & ->). apply fb_cast_to_bool_sound; auto.
    + intros sa' ta (sa & C & ->). apply fb_cast_from_bool_sound; auto.
  - intros sa ta [C S]. apply fb_add_sound; auto.
  - intros sa' ta (sa & C & ->). apply fb_select_sound; auto.
  - intros sa' ta' (sa & ta & C & F). eapply fb_forget_sound; eauto.
  - intros sa' ta' (sa & ta & C & F). eapply fb_project_sound; eauto.
  - cbn [fhop_ok] in OK. destruct OK as (ND & LE & TC & FR & WT).
    intros sa' ta' (sa & ta & hv & hb & C & -> & ->). apply fb_rename_sound; auto.
  - cbn [fhop_ok] in OK. destruct (isb x) eqn:TY; apply frel_set; auto.
    + intros sa ta' (ta & t2 & C & C2 & E & ->). apply fb_expand_bool_sound; auto.
    + intros sa' ta (sa & s2 & C & C2 & E & ->). apply fb_expand_int_sound; auto.
  - intros sa' ta' (sa & ta & C & F). eapply fb_havoc_sound; eauto.
  - intros sa ta [C|C]; apply fb_join_sound; auto.
  - intros sa ta [C1 C2]. apply fb_meet_sound; auto.
  - intros sa ta [C|C]; apply fb_widen_sound; auto.
  - intros sa ta [C1 C2]. apply fb_narrow_sound; auto.
  - intros sa ta C. apply fb_widen_thr_sound.
    + intros v. apply thr_prev_le. apply mk_thresholds_wf.
    + intros v. apply thr_next_ge. apply mk_thresholds_wf.
    + destruct C; auto.
  - (* normalize: the concrete states stay *)
    split. { rewrite frset_length. exact L. }
    intros r' sa ta C. rewrite frget_frset. destruct (Nat.eqb_spec r' r) as [->|N]; cbn [andb]; auto.
    destruct (_ <? _)%nat; auto. apply fb_normalize_sound; auto.
  - intros sa ta' (ta & C & ->). apply fb_assign_bool_cst_sound; auto.
  - intros sa ta' (ta & C & [->| ->]); apply fb_weak_assign_bool_cst_sound; auto.
  - intros sa ta' (ta & C & ->). apply fb_assign_bool_var_sound; auto.
  - intros sa ta' (ta & C & [->| ->]); apply fb_weak_assign_bool_var_sound; auto.
  - intros sa ta' (ta & C & ->). apply fb_apply_binary_bool_sound; auto.
  - intros sa ta [C E]. apply fb_assume_bool_sound; auto.
  - intros sa ta' (ta & C & ->). apply fb_select_bool_sound; auto.
  - intros sa ta [C E]. apply fb_assume_bool_sound; auto.
Qed.

Fixpoint fhist_ok (isb : var -> bool) (rs : list fstate) (h : list fhop) : Prop :=
  match h with
  | [] => True
  | o :: r => fhop_ok isb rs o /\ fhist_ok isb (fstep isb rs o) r
  end.

Theorem fhistory_sound isb h : forall rs cs,
  frel rs cs -> fhist_ok isb rs h -> frel (frun isb rs h) (fold_left (fcstep isb) h cs).
Proof.
  induction h as [|o r IH]; simpl; intros rs cs R OK; auto.
  destruct OK as [O1 O2]. apply IH; auto. apply fstep_sound; auto.
Qed.

Lemma frel_top n : frel (repeat fb_top n) (repeat (fun _ _ => True) n).
Proof.
  split. { rewrite !repeat_length; auto. }
  intros r s t _. rewrite frget_tops. apply gfb_top.
Qed.

(* The representation invariant fb_inv holds for every value built by a history, hence the
   inclusion test is sound on those values *)

Definition inv_lu (l : lenv) (u : vset) : Prop := u = DVBot -> l = SBot.

Lemma inv_rem l u x : inv_lu l u -> inv_lu l (vs_rem x u).
Proof. unfold inv_lu. destruct u; simpl; auto. discriminate. Qed.
Lemma inv_l_set l u x v : inv_lu l u -> inv_lu (l_set l x v) u.
Proof. unfold inv_lu. intros H E. rewrite (H E). reflexivity. Qed.
Lemma inv_l_forget l u x : inv_lu l u -> inv_lu (l_forget l x) u.
Proof. unfold inv_lu. intros H E. rewrite (H E). reflexivity. Qed.
Lemma inv_propagate l u x y neg : inv_lu l u -> inv_lu (l_propagate l x y neg) u.
Proof.
  intros H. unfold l_propagate. destruct neg; [destruct (is_single _)|];
    auto using inv_l_set, inv_l_forget.
Qed.
Lemma inv_mark_unchanged v l u : inv_lu l u ->
  inv_lu (fst (mark_unchanged v (l, u))) (snd (mark_unchanged v (l, u))).
Proof.
  intros H. unfold mark_unchanged. destruct (vs_at v u) eqn:A; simpl; auto.
  destruct u; simpl in *; [discriminate|]. intros E. discriminate.
Qed.
Lemma inv_mark_fold vs : forall l u, inv_lu l u ->
  let lu := fold_left (fun lu w => mark_unchanged w lu) vs (l, u) in inv_lu (fst lu) (snd lu).
Proof.
  induction vs as [|v r IH]; cbn [fold_left]; intros l u H; [exact H|].
  pose proof (inv_mark_unchanged v l u H) as H1.
  destruct (mark_unchanged v (l, u)) as [l1 u1]. cbn [fst snd] in H1. apply IH. exact H1.
Qed.
Lemma inv_join la ua lb ub : inv_lu la ua -> inv_lu lb ub ->
  inv_lu (s_join cset cops cs_join la lb) (vs_join ua ub).
Proof.
  unfold inv_lu, vs_join, dv_join. intros Ha Hb. destruct (dv_is_top ua || dv_is_top ub); [discriminate|].
  destruct ua, ub; try discriminate. intros _. rewrite Ha, Hb; reflexivity.
Qed.
Lemma applicable_bot u : applicable u SBot = SBot.
Proof. reflexivity. Qed.
Lemma inv_meet la ua lb ub : inv_lu la ua -> inv_lu lb ub ->
  inv_lu (s_meet cset cops cs_meet (applicable ua la) (applicable ub lb)) (vs_meet ua ub).
Proof.
  unfold inv_lu. intros Ha Hb. destruct ua; [rewrite Ha; reflexivity|].
  destruct ub; [|discriminate]. intros _. rewrite Hb by reflexivity. destruct (applicable _ la); reflexivity.
Qed.

(* every operation keeps it *)
Lemma fb_inv_top : fb_inv fb_top.
Proof. discriminate. Qed.
Lemma fb_inv_cast op d s db sb w st : fb_inv st -> fb_inv (fb_cast op d s db sb w st).
Proof.
  intros H. unfold fb_cast. destruct op; [destruct (negb sb && db); [apply inv_l_forget, H|]| |];
    try destruct (sb && negb db); apply inv_rem, H.
Qed.
Lemma fb_inv_add cs st : fb_inv st -> fb_inv (fb_add cs st).
Proof. destruct cs; auto. Qed.
Lemma fb_inv_join a b : fb_inv a -> fb_inv b -> fb_inv (fb_join a b).
Proof. apply inv_join. Qed.
Lemma fb_inv_assign_bool_cst x c st : fb_inv st -> fb_inv (fb_assign_bool_cst x c st).
Proof.
  intros H. unfold fb_assign_bool_cst. destruct (fb_is_bot st); auto.
  destruct (lc_is_tautology c); [apply inv_l_forget; exact H|].
  destruct (lc_is_contradiction c); [apply inv_l_forget; exact H|].
  pose proof (inv_mark_fold (lc_vars c) _ _ H) as MF. cbv zeta in MF.
  destruct (fold_left _ (lc_vars c) (f_lin st, f_unch st)) as [l u]. apply inv_l_set, MF.
Qed.
Lemma fb_inv_assign_bool_var x y neg st : fb_inv st -> fb_inv (fb_assign_bool_var x y neg st).
Proof. intros H. unfold fb_assign_bool_var. destruct (fb_is_bot st); auto. apply inv_propagate, H. Qed.
Lemma fb_inv_weak_assign_bool_cst x c st : fb_inv st -> fb_inv (fb_weak_assign_bool_cst x c st).
Proof.
  intros H. unfold fb_weak_assign_bool_cst. destruct (fb_is_bot st); auto using fb_inv_join, fb_inv_assign_bool_cst.
Qed.
Lemma fb_inv_weak_assign_bool_var x y neg st : fb_inv st -> fb_inv (fb_weak_assign_bool_var x y neg st).
Proof.
  intros H. unfold fb_weak_assign_bool_var. destruct (fb_is_bot st); auto using fb_inv_join, fb_inv_assign_bool_var.
Qed.
Lemma fb_inv_apply_binary_bool op x y z st : fb_inv st -> fb_inv (fb_apply_binary_bool op x y z st).
Proof. intros H. unfold fb_apply_binary_bool. destruct (fb_is_bot st); auto. apply inv_l_forget, H. Qed.
Lemma inv_assume_fold vs : forall (p : prod) l u x, inv_lu l u ->
  inv_lu (snd (fold_left (fun (pl : prod * lenv) v =>
                         let '(q, l0) := pl in
                         (p_on_fst (fun f => be_assume f v false) q,
                          l_set l0 x (cs_meet (l_at l0 x) (l_at l0 v)))) vs (p, l))) u.
Proof.
  induction vs as [|v r IH]; cbn [fold_left]; intros p l u x H; [exact H|].
  apply IH. apply inv_l_set. exact H.
Qed.
Lemma fb_inv_assume x neg st : fb_inv st -> fb_inv (fb_assume_bool x neg st).
Proof.
  intros H. unfold fb_assume_bool. destruct (fb_is_bot st); auto.
  destruct (p_is_bot _); [exact H|]. destruct neg; [exact H|].
  pose proof (inv_assume_fold (dv_elems (bb_at (f_bools st) x))
                (canon (p_on_fst (fun f => be_assume f x false) (f_prod st))) _ _ x H) as AF.
  destruct (fold_left _ (dv_elems (bb_at (f_bools st) x)) _) as [p1 l1]. exact AF.
Qed.
Lemma fb_inv_select_bool x c b1 b2 st : fb_inv st -> fb_inv (fb_select_bool x c b1 b2 st).
Proof.
  intros H. unfold fb_select_bool. destruct (fb_is_bot st); auto.
  destruct (N.eqb b1 b2); [apply fb_inv_assign_bool_var, H|]. cbv zeta.
  set (f0 := p_fst (canon (f_prod st))).
  destruct (bv_is_true (be_at f0 c)); [apply inv_l_set, H|].
  destruct (bv_is_false (be_at f0 c)); [apply inv_l_set, H|].
  destruct (bv_is_true (be_at f0 b1) && bv_is_false (be_at f0 b2)); [apply inv_propagate, H|].
  destruct (bv_is_false (be_at f0 b1) && bv_is_true (be_at f0 b2)); [apply inv_propagate, H|].
  apply inv_l_forget, H.
Qed.
(* the integer variables of vs leave the set of unchanged variables: it was not "all variables"
   if it is not afterwards *)
Lemma inv_unch_fold (isb : var -> bool) vs (l l' : lenv) u : inv_lu l u -> (l = SBot -> l' = SBot) ->
  inv_lu l' (fold_left (fun (u : vset) v => if isb v then u else vs_rem v u) vs u).
Proof.
  intros H HL E. apply HL, H. destruct u; [reflexivity|]. exfalso.
  apply (unch_fold_spec isb vs (DVSet l0) 0%N); [discriminate|exact E].
Qed.
Lemma fb_inv_forget isb vs st : fb_inv st -> fb_inv (fb_forget isb vs st).
Proof.
  intros H. unfold fb_forget. destruct (fb_is_bot st || fb_is_top st); auto.
  change (fun (s0 : fstate) (v : var) =>
            if isb v then mkF (f_prod s0) (l_forget (f_lin s0) v) (bb_forget (f_bools s0) v) (f_unch s0)
            else mark_changed v s0) with (forget_mem isb).
  set (p := p_on_snd (d_forget vs) (p_on_fst (fun f => be_forget_list f vs) (f_prod st))).
  destruct (forget_mem_fold isb vs (set_prod st p)) as (_ & H2 & _ & H4). cbv zeta in *.
  unfold fb_inv. cbn [f_lin f_unch]. rewrite H2, H4. apply inv_unch_fold with (f_lin st); [exact H|].
  cbn [set_prod f_lin]. intros ->. clear. induction vs as [|v r IH]; simpl; auto. destruct (isb v); exact IH.
Qed.
Lemma fb_inv_project vs st : fb_inv st -> fb_inv (fb_project vs st).
Proof.
  intros H. unfold fb_project. destruct (fb_is_bot _ || fb_is_top _); [exact H|]. destruct vs; exact fb_inv_top.
Qed.
Lemma fb_inv_rename isb from to st : fb_inv st -> fb_inv (fb_rename isb from to st).
Proof.
  intros H. unfold fb_rename. destruct (fb_is_bot _ || fb_is_top _); [exact H|].
  apply inv_unch_fold with (f_lin st); [exact H|]. intros ->. reflexivity.
Qed.
Lemma fb_inv_expand isb x nx st : fb_inv st -> fb_inv (fb_expand isb x nx st).
Proof.
  intros H. unfold fb_expand. destruct (fb_is_bot _ || fb_is_top _); [exact H|].
  destruct (isb x); [apply inv_l_set, H|]. destruct (vs_at x (f_unch st)); [|apply inv_rem, H].
  pose proof (inv_mark_unchanged nx _ _ (inv_rem _ _ nx H)) as MU.
  destruct (mark_unchanged nx (f_lin st, vs_rem nx (f_unch st))) as [l u]. exact MU.
Qed.
Lemma fb_inv_havoc isb x st : fb_inv st -> fb_inv (fb_havoc isb x st).
Proof. intros H. unfold fb_havoc. destruct (isb x); [apply inv_l_forget, H|apply inv_rem, H]. Qed.

Theorem fstep_inv isb rs o :
  (forall r, fb_inv (frget rs r)) -> forall r, fb_inv (frget (fstep isb rs o) r).
Proof.
  intros H.
  assert (S : forall r0 v, fb_inv v -> forall r, fb_inv (frget (frset rs r0 v) r)).
  { intros r0 v Hv r. rewrite frget_frset. destruct (_ && _); auto. }
  (* the numerical operations mark a variable as changed, the lattice operations combine the
     memories of two registers, bottom has a bottom memory, normalize keeps the memories *)
  destruct o; cbn [fstep]; apply S;
    try apply (inv_rem _ _ _ (H r)); try apply (inv_join _ _ _ _ (H s) (H t));
    try apply (inv_meet _ _ _ _ (H s) (H t)); try apply H; try (intros _; reflexivity);
    auto using fb_inv_top, fb_inv_cast, fb_inv_add, fb_inv_forget, fb_inv_project,
      fb_inv_rename, fb_inv_expand, fb_inv_havoc, fb_inv_assign_bool_cst,
      fb_inv_weak_assign_bool_cst, fb_inv_assign_bool_var, fb_inv_weak_assign_bool_var,
      fb_inv_apply_binary_bool, fb_inv_assume, fb_inv_select_bool.
Qed.

Theorem frun_inv isb h : forall rs,
  (forall r, fb_inv (frget rs r)) -> forall r, fb_inv (frget (frun isb rs h) r).
Proof.
  induction h as [|o r IH]; simpl; intros rs H; auto. apply IH. apply fstep_inv. exact H.
Qed.
Lemma inv_tops n r : fb_inv (frget (repeat fb_top n) r).
Proof. rewrite frget_tops. exact fb_inv_top. Qed.

(* C04 at the level of histories: if, after any history from top, the inclusion test between
   two registers answers yes, every concrete pair of stores of the first register is
   described by the second *)
Theorem fhistory_leq_sound isb h n a b s t :
  fhist_ok isb (repeat fb_top n) h ->
  fb_leq (frget (frun isb (repeat fb_top n) h) a) (frget (frun isb (repeat fb_top n) h) b) = true ->
  fcget (fold_left (fcstep isb) h (repeat (fun _ _ => True) n)) a s t ->
  gfb (frget (frun isb (repeat fb_top n) h) b) s t.
Proof.
  intros OK LE C.
  pose proof (fhistory_sound isb h _ _ (frel_top n) OK) as [_ R].
  eapply fb_leq_sound; eauto. apply frun_inv. apply inv_tops.
Qed.

Lemma sys_add_In acc c c1 : In c1 (sys_add acc c) -> In c1 acc \/ c1 = c.
Proof.
  unfold sys_add. destruct (existsb _ acc); auto. intros I.
  apply in_app_or in I. destruct I as [I|[<-|[]]]; auto.
Qed.
Lemma fold_sys_add_In cs : forall acc c, In c (fold_left sys_add cs acc) -> In c cs \/ In c acc.
Proof.
  induction cs as [|c0 r IH]; simpl; intros acc c I; auto.
  apply IH in I. destruct I as [I|I]; auto. apply sys_add_In in I. destruct I as [I| ->]; auto.
Qed.
Lemma be_bindings_In m p :
  In p (be_bindings m) -> snd p = sget bval bops m (fst p) /\ bv_is_top (snd p) = false.
Proof.
  unfold be_bindings. intros I. apply filter_In in I. destruct I as [I N].
  apply in_map_iff in I. destruct I as (k & <- & _). split; [reflexivity|apply negb_true_iff, N].
Qed.
(* what the Boolean component exports: "v = 1" for a true variable, "v = 0" for a false one *)
Definition bool_cst (t : bstore) (c : lincst) : Prop :=
  c = lc_true \/
  (exists v, c = mkLC EQ (mkLE [(1, v)] (-1)) /\ t v = true) \/
  (exists v, c = mkLC EQ (mkLE [(1, v)] 0) /\ t v = false).
Lemma be_to_csts_sound f t c : gbenv f t -> In c (be_to_csts f) -> bool_cst t c.
Proof.
  destruct f as [|m]; [simpl; tauto|]. intros G. unfold be_to_csts.
  destruct (be_is_top (SMap m)); [intros [<-|[]]; left; auto|].
  pose proof (be_bindings_In m) as HL.
  assert (HA : forall c, In c (@nil lincst) -> bool_cst t c) by (intros c0 []).
  revert HL HA. generalize (be_bindings m) as l, (@nil lincst) as acc.
  induction l as [|[v b] r IH]; simpl; intros acc HL HA I; auto.
  apply (IH _ (fun p J => HL p (or_intror J))) in I; auto.
  intros c1 I1. destruct (HL (v, b) (or_introl eq_refl)) as [E NT]. simpl in E, NT.
  pose proof (G v) as Gv. rewrite <- E in Gv.
  destruct b; simpl in *; try tauto; try discriminate.
  - apply sys_add_In in I1. destruct I1 as [I1| ->]; auto. right. right. exists v. auto.
  - apply sys_add_In in I1. destruct I1 as [I1| ->]; auto. right. left. exists v. auto.
Qed.

(* exported constraints: those of the numerical component hold on the integer store, those of
   the Boolean component say "v = 1" for a Boolean that is true and "v = 0" for one that is false *)
Theorem fb_to_csts_sound st s t c : gfb st s t -> In c (fb_to_csts st) -> sat c s \/ bool_cst t c.
Proof.
  intros (P & _) I. unfold fb_to_csts in I.
  apply fold_sys_add_In in I. destruct I as [I|I].
  - left. eapply d_to_csts_sound; eauto. eapply gprod_snd; eauto.
  - apply fold_sys_add_In in I. destruct I as [I|[]].
    right. eapply be_to_csts_sound; eauto. eapply gprod_fst; eauto.
Qed.

(* Lifting clause of C12:
   on numerical code the numerical component evolves exactly like the bare interval domain *)

Definition lift (o : hop) : fhop :=
  match o with
  | HTop r => FTop r | HBot r => FBot r | HCopy r s => FCopy r s
  | HAssign r x e => FAssign r x e
  | HWeakAssign r x e => FWeakAssign r x e
  | HArith r op x y z => FArith r op x y z
  | HBit r op x y z => FBit r op x y z
  | HCast r op d s db sb w => FCast r op d s db sb w
  | HAssume r cs => FAssume r cs
  | HSelect r l c e1 e2 => FSelect r l c e1 e2
  | HForget r vs => FForget r vs
  | HProject r vs => FProject r vs
  | HRename r f t => FRename r f t
  | HExpand r x nx => FExpand r x nx
  | HJoin r s t => FJoin r s t
  | HMeet r s t => FMeet r s t
  | HWiden r s t => FWiden r s t
  | HNarrow r s t => FNarrow r s t
  | HWidenThr r s t ths => FWidenThr r s t ths
  end.

(* the numerical statements covered: everything of the history language of the interval
   domain except casts that involve a Boolean, the empty assume / project, and meet /
   narrowing (basic_domain_product2 returns an operand unchanged when the other one is top,
   where the interval domain rebuilds the same environment) *)
Definition lift_ok (o : hop) : Prop :=
  match o with
  | HCast _ _ _ _ db sb _ => db = false /\ sb = false
  | HAssume _ cs => cs <> []
  | HProject _ vs => vs <> []
  | HMeet _ _ _ | HNarrow _ _ _ => False
  | _ => True
  end.

(* the product next to the value e of the interval domain: same numerical component, and a
   Boolean component that knows nothing (or both are bottom) *)
Definition psim (p : prod) (e : env) : Prop :=
  p_snd p = e /\ (p_fst p = s_top \/ (p_fst p = SBot /\ e = EBot)).
Definition sim (st : fstate) (e : env) : Prop := psim (f_prod st) e.

Lemma psim_is_bot p e : psim p e -> p_is_bot p = e_is_bot e.
Proof.
  intros [<- H]. destruct p as [|f e0]; simpl in *; auto.
  destruct H as [->|[-> ->]]; reflexivity.
Qed.
Lemma psim_canon p e : psim p e -> psim (canon p) e.
Proof.
  intros [<- H]. destruct p as [|f e0]; simpl in *; [split; auto|].
  destruct H as [->|[-> ->]]; simpl; [|split; auto]. destruct e0; split; simpl; auto.
Qed.
Lemma psim_on_snd fe p e : psim p e -> fe EBot = EBot -> psim (p_on_snd fe p) (fe e).
Proof.
  intros S FB. apply psim_canon in S. unfold p_on_snd. destruct S as [<- H].
  destruct (canon p) as [|f e0]; simpl in *; [rewrite FB; split; auto|].
  destruct H as [->|[-> ->]]; split; simpl; auto.
Qed.
Lemma psim_on_fst ff p e : psim p e -> ff s_top = s_top -> psim (p_on_fst ff p) e.
Proof.
  intros S FT. apply psim_canon in S. unfold p_on_fst. destruct S as [<- H].
  destruct (canon p) as [|f e0] eqn:C; simpl in *; [split; auto|].
  destruct H as [->|[-> ->]]; split; simpl; auto.
  destruct p as [|f1 e1]; simpl in C; [discriminate|]. destruct (s_is_bot f1 || e_is_bot e1) eqn:B; [discriminate|].
  inversion C; subst. discriminate.
Qed.
Lemma psim_pair_join (w : env -> env -> env) a b ea eb :
  w EBot EBot = EBot -> psim a ea -> psim b eb ->
  psim (PPair (be_join (p_fst a) (p_fst b)) (w (p_snd a) (p_snd b))) (w ea eb).
Proof.
  intros WB [E1 F1] [E2 F2]. rewrite E1, E2. split; [reflexivity|]. cbn [p_fst].
  destruct F1 as [->|[-> ->]], F2 as [->|[-> ->]]; simpl; auto.
Qed.
Lemma psim_join a b ea eb : psim a ea -> psim b eb -> psim (p_join a b) (e_join ea eb).
Proof.
  intros Sa Sb. unfold p_join. rewrite (psim_is_bot _ _ Sa), (psim_is_bot _ _ Sb).
  destruct ea as [|ma]; cbn [e_is_bot]; [exact Sb|].
  destruct eb as [|mb]; cbn [e_is_bot]; [exact Sa|].
  apply psim_canon, psim_pair_join; auto.
Qed.

Lemma be_join_tops : be_join s_top s_top = s_top. Proof. reflexivity. Qed.

Definition simr (rs : list fstate) (es : list env) : Prop :=
  length rs = length es /\ forall r, sim (frget rs r) (rget es r).

Lemma sim_top : sim fb_top e_top. Proof. split; simpl; auto. Qed.
Lemma simr_set rs es r v e : simr rs es -> sim v e -> simr (frset rs r v) (rset es r e).
Proof.
  intros [L H] S. split. { rewrite frset_length, rset_length. exact L. }
  intros r'. rewrite frget_frset. destruct (Nat.ltb_spec r (length rs)) as [I|O].
  - rewrite rget_rset, andb_true_r by lia. destruct (Nat.eqb r' r); auto.
  - rewrite andb_false_r, rset_oob by lia. auto.
Qed.

Lemma d_cast_bot op d s db sb w : d_cast op d s db sb w EBot = EBot.
Proof. unfold d_cast. rewrite d_assign_bot. destruct (negb (db || sb)), op, sb; reflexivity. Qed.
Lemma d_select_bot l c e1 e2 : d_select l c e1 e2 EBot = EBot. Proof. reflexivity. Qed.
Lemma d_add_bot cs : d_add cs EBot = EBot. Proof. reflexivity. Qed.

(* forget / project / rename / expand return their argument when it is bottom or top, and so
   does the interval domain *)
Lemma sim_guard st st' e (fe : env -> env) :
  sim st e -> (e_is_bot e || e_is_top e = true -> fe e = e) -> sim st' (fe e) ->
  sim (if fb_is_bot st || fb_is_top st then st else st') (fe e).
Proof.
  intros S H S'. destruct (fb_is_bot st || fb_is_top st) eqn:B; [|exact S']. rewrite H; auto.
  unfold fb_is_bot in B. rewrite (psim_is_bot _ _ S) in B.
  destruct (e_is_bot e); auto. simpl in *. unfold fb_is_top in B.
  apply andb_true_iff in B. destruct B as [B _]. apply andb_true_iff in B. destruct B as [B _].
  destruct S as [E _]. destruct (f_prod st) as [|f e0]; simpl in *; [discriminate|]. subst.
  apply andb_true_iff in B. tauto.
Qed.

Theorem sim_step isb rs es o :
  simr rs es -> lift_ok o -> simr (fstep isb rs (lift o)) (hstep es o).
Proof.
  intros R OK. pose proof R as [L H].
  (* what forget / project / rename / expand do to the product *)
  assert (FS : forall r ff fe, ff s_top = s_top -> fe EBot = EBot ->
             psim (p_on_snd fe (p_on_fst ff (f_prod (frget rs r)))) (fe (rget es r))).
  { intros r ff fe FT FB. apply psim_on_snd; [|exact FB]. apply psim_on_fst; [apply H|exact FT]. }
  destruct o; cbn [lift fstep hstep]; apply simr_set; auto.
  - apply sim_top.
  - split; simpl; auto.
  - apply psim_on_snd; [apply H|apply d_assign_bot].
  - apply psim_on_snd; [apply H|apply d_weak_assign_bot].
  - apply psim_canon, psim_on_snd; [apply H|reflexivity].
  - apply psim_canon, psim_on_snd; [apply H|reflexivity].
  - destruct OK as [-> ->]. unfold fb_cast.
    assert (X : psim (canon (p_on_snd (d_cast op dst src false false w) (f_prod (frget rs r))))
                     (d_cast op dst src false false w (rget es r))).
    { apply psim_canon, psim_on_snd; [apply H|apply d_cast_bot]. }
    destruct op; exact X.
  - unfold fb_add. destruct cs as [|c0 cr]; [simpl in OK; congruence|].
    apply psim_on_snd; [apply H|reflexivity].
  - apply psim_canon, psim_on_snd; [apply H|reflexivity].
  - unfold fb_forget. apply (sim_guard _ _ _ (d_forget vs)); [apply H|unfold d_forget; intros ->; reflexivity|].
    change (fun (s0 : fstate) (v : var) =>
            if isb v then mkF (f_prod s0) (l_forget (f_lin s0) v) (bb_forget (f_bools s0) v) (f_unch s0)
            else mark_changed v s0) with (forget_mem isb).
    unfold sim. cbn [f_prod].
    rewrite (proj1 (forget_mem_fold isb vs (set_prod (frget rs r) _))). apply FS; reflexivity.
  - unfold fb_project. apply (sim_guard _ _ _ (fun e => e_project e vs)); [apply H| |].
    { intros X. destruct (rget es r) as [|m]; auto. simpl in *. rewrite X. reflexivity. }
    destruct vs as [|v0 vr]; [simpl in OK; congruence|].
    apply (FS r _ (fun e => e_project e (v0 :: vr))); reflexivity.
  - unfold fb_rename. apply (sim_guard _ _ _ (fun e => e_rename e from to)); [apply H| |].
    { intros X. destruct (rget es r) as [|m]; auto. simpl in *. rewrite X. reflexivity. }
    apply (FS r _ (fun e => e_rename e from to)); reflexivity.
  - unfold fb_expand. apply (sim_guard _ _ _ (d_expand x nx)); [apply H|unfold d_expand; intros ->; reflexivity|].
    destruct (isb x); [|destruct (vs_at x (f_unch (frget rs r)));
                         [destruct (mark_unchanged nx _) as [l u]|]]; apply FS; reflexivity.
  - apply psim_join; apply H.
  - destruct OK.
  - apply (psim_pair_join e_widen); auto; apply H.
  - destruct OK.
  - apply (psim_pair_join (e_widen_thr _ _)); auto; apply H.
Qed.

Theorem sim_run isb h : forall rs es,
  simr rs es -> Forall lift_ok h -> simr (frun isb rs (map lift h)) (hrun es h).
Proof.
  induction h as [|o r IH]; simpl; intros rs es R OK; auto.
  inversion OK; subst. apply IH; auto. apply sim_step; auto.
Qed.
Lemma simr_tops n : simr (repeat fb_top n) (repeat e_top n).
Proof.
  split. { rewrite !repeat_length. reflexivity. }
  intros r. rewrite frget_tops. unfold rget. rewrite nth_repeat. apply sim_top.
Qed.

(* at(v) of the product is the interval of the interval domain (any bottom interval is
   printed as bottom) *)
Definition inorm (i : itv) : itv := if is_bot i then ibot else i.
Lemma sim_at st e v : sim st e -> fb_at st v = inorm (e_at e v).
Proof.
  intros [E F]. unfold fb_at, inorm. rewrite E.
  destruct F as [->|[-> ->]]; simpl; reflexivity.
Qed.

Theorem lifting_numerical isb h n r :
  Forall lift_ok h ->
  let st := frget (frun isb (repeat fb_top n) (map lift h)) r in
  let e := rget (hrun (repeat e_top n) h) r in
  p_snd (f_prod st) = e /\ fb_is_bot st = e_is_bot e /\ forall v, fb_at st v = inorm (e_at e v).
Proof.
  intros OK. cbv zeta.
  pose proof (sim_run isb h _ _ (simr_tops n) OK) as [_ S]. specialize (S r).
  split; [apply S|]. split; [apply psim_is_bot; exact S|]. intros v. apply sim_at. exact S.
Qed.

Theorem fhistory_sound_top isb h n :
  fhist_ok isb (repeat fb_top n) h ->
  frel (frun isb (repeat fb_top n) h) (fold_left (fcstep isb) h (repeat (fun _ _ => True) n)).
Proof. intros H. apply fhistory_sound; [apply frel_top|exact H]. Qed.

Theorem frel_bool_at rs cs r s t b : frel rs cs -> fcget cs r s t -> gbv (fb_bool_at (frget rs r) b) (t b).
Proof. intros [_ R] C. apply (fb_bool_at_sound _ s t). apply R. exact C. Qed.
Theorem frel_not_bot rs cs r s t : frel rs cs -> fcget cs r s t -> fb_is_bot (frget rs r) = false.
Proof. intros [_ R] C. eapply fb_not_bot. apply R. exact C. Qed.
Theorem frel_entails rs cs r s t c :
  frel rs cs -> fcget cs r s t -> wf_lc c -> fb_entails c (frget rs r) = true -> sat c s.
Proof. intros [_ R] C W E. eapply fb_entails_sound; eauto. Qed.
