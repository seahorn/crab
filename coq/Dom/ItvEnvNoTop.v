(* ItvEnvNoTop.v — representation invariant of the interval-domain model: an environment
   never STORES a top interval (separate_domain::set removes the binding instead), so the
   only environment that tests is_top is the empty one.  Preserved by every operation of
   the history language (History.hop), including the linear interval solver. *)
From Coq Require Import ZArith NArith List Bool Lia.
From CrabV Require Import Base.ZInf Scalar.Itv Ir.Syntax Dom.ItvEnv Dom.ItvSolver Dom.ItvSolverInv
     Dom.ItvDomain Dom.History Fix.Thresholds.
Import ListNotations.
Local Open Scope Z_scope.

Definition ntb (m : amap) : Prop := forall k v, In (k, v) m -> is_top v = false.
Definition ntbe (e : env) : Prop := match e with EBot => True | EMap m => ntb m end.

Lemma ntb_nil : ntb [].
Proof. intros k v []. Qed.
Lemma ntb_remove m k : ntb m -> ntb (remove m k).
Proof. intros H k' v I. unfold remove in I. apply filter_In in I. apply (H k' v). apply I. Qed.
Lemma ntb_cons m k v : is_top v = false -> ntb m -> ntb ((k, v) :: m).
Proof. intros T H k' v' [E|I]; [inversion E; subst; exact T|eapply H; eauto]. Qed.
Lemma ntb_put m k v : ntb m -> ntb (put m k v).
Proof.
  intros H. unfold put. destruct (is_top v) eqn:T.
  - apply ntb_remove; exact H.
  - apply ntb_cons; [exact T|apply ntb_remove; exact H].
Qed.

(* the only stored environment that is top is the empty one *)
Lemma ntb_all_top m : ntb m -> forallb (fun k => is_top (get m k)) (keys m) = true -> m = [].
Proof.
  destruct m as [|[k v] r]; [reflexivity|]. intros H F. exfalso.
  cbn [keys map fst forallb get] in F. rewrite N.eqb_refl in F.
  rewrite (H k v (or_introl eq_refl)) in F. discriminate F.
Qed.
Lemma ntbe_is_top e : ntbe e -> e_is_top e = true -> e = e_top.
Proof.
  destruct e as [|m]; simpl; [discriminate|]. intros H F. rewrite (ntb_all_top m H F). reflexivity.
Qed.
Lemma e_is_bot_eq e : e_is_bot e = true -> e = EBot.
Proof. destruct e; [reflexivity|discriminate]. Qed.

Lemma ntbe_top : ntbe e_top.
Proof. exact ntb_nil. Qed.

Lemma ntbe_set e k v : ntbe e -> ntbe (e_set e k v).
Proof.
  destruct e as [|m]; simpl; auto. intros H. destruct (is_bot v); simpl; auto. apply ntb_put; exact H.
Qed.
Lemma ntbe_forget e k : ntbe e -> ntbe (e_forget e k).
Proof. destruct e as [|m]; simpl; auto. apply ntb_remove. Qed.
Lemma ntbe_join_key e k v : ntbe e -> ntbe (e_join_key e k v).
Proof.
  destruct e as [|m]; simpl; auto. intros H.
  destruct (is_bot v); simpl; auto.
  destruct (is_top v); simpl; [apply ntb_remove; exact H|].
  destruct (is_top (get m k)); simpl; [apply ntb_remove; exact H|apply ntb_put; exact H].
Qed.

Lemma ntb_build g : forall ks acc m, build ks g acc = Some m -> ntb acc -> ntb m.
Proof.
  induction ks as [|k r IH]; simpl; intros acc m B H.
  - inversion B; subst; exact H.
  - destruct (is_bot (g k)); [discriminate|]. eapply IH; [exact B|]. apply ntb_put; exact H.
Qed.
Lemma ntbe_merge ab f x y : ntbe (match merge ab f x y with Some m => EMap m | None => EBot end).
Proof.
  unfold merge. destruct (build _ _ _) as [m|] eqn:B; [|exact I].
  exact (ntb_build _ _ _ _ B ntb_nil).
Qed.

Lemma ntbe_merge_like ab f a b :
  ntbe a -> ntbe b ->
  ntbe (match a, b with
        | EBot, _ => b | _, EBot => a
        | EMap x, EMap y => match merge ab f x y with Some m => EMap m | None => EBot end
        end).
Proof.
  destruct a as [|x], b as [|y]; simpl; auto. intros _ _. apply ntbe_merge.
Qed.
Lemma ntbe_join a b : ntbe a -> ntbe b -> ntbe (e_join a b).
Proof. apply ntbe_merge_like. Qed.
Lemma ntbe_widen a b : ntbe a -> ntbe b -> ntbe (e_widen a b).
Proof. apply ntbe_merge_like. Qed.
Lemma ntbe_widen_thr gp gn a b : ntbe a -> ntbe b -> ntbe (e_widen_thr gp gn a b).
Proof. apply ntbe_merge_like. Qed.
Lemma ntbe_meet a b : ntbe (e_meet a b).
Proof. destruct a as [|x], b as [|y]; simpl; auto. apply ntbe_merge. Qed.
Lemma ntbe_narrow a b : ntbe (e_narrow a b).
Proof. destruct a as [|x], b as [|y]; simpl; auto. apply ntbe_merge. Qed.

Lemma ntbe_project e vs : ntbe e -> ntbe (e_project e vs).
Proof.
  destruct e as [|m]; simpl; auto. intros H.
  destruct (forallb (fun k => is_top (get m k)) (keys m)); simpl; [exact H|].
  induction vs as [|v r IH]; simpl; [exact ntb_nil|apply ntb_put; exact IH].
Qed.

Lemma ntb_rename_pairs ps : forall m, ntb m -> ntb (rename_pairs m ps).
Proof.
  induction ps as [|[k nk] r IH]; cbn [rename_pairs]; intros m H; [exact H|].
  destruct (N.eqb k nk); [apply IH; exact H|].
  destruct (is_top (get m k)) eqn:T; [apply IH; exact H|].
  apply IH. apply ntb_remove. apply ntb_cons; [exact T|apply ntb_remove; exact H].
Qed.
Lemma ntbe_rename e f t : ntbe e -> ntbe (e_rename e f t).
Proof.
  destruct e as [|m]; simpl; auto. intros H.
  destruct (forallb (fun k => is_top (get m k)) (keys m)); simpl; [exact H|].
  apply ntb_rename_pairs; exact H.
Qed.

(* the solver only writes through put *)
Lemma s_refine_ntb v i st : ntb (s_map st) -> holds ntb True (s_refine v i st).
Proof.
  intros H. unfold s_refine. destruct (is_bot _); [exact I|].
  destruct (negb _); [apply ntb_put|]; exact H.
Qed.

Lemma propagate_term_ntb cst c pivot st :
  ntb (s_map st) -> holds ntb True (propagate_term cst c pivot st).
Proof.
  intros H. unfold propagate_term. destruct (compute_residual cst pivot st) as [res ops]. cbv zeta.
  destruct (lc_kind cst).
  - apply s_refine_ntb; exact H.
  - destruct (is_bot _); [exact I|]. destruct (negb _); [apply ntb_put|]; exact H.
  - destruct (0 <? c); apply s_refine_ntb; exact H.
  - exact H.
Qed.

Lemma propagate_ntb cst st : ntb (s_map st) -> holds ntb True (propagate cst st).
Proof.
  unfold propagate. generalize (le_terms (lc_exp cst)) as ts. intros ts. revert st.
  induction ts as [|[c v] r IH]; simpl; intros st H; [exact H|].
  pose proof (propagate_term_ntb cst c v st H) as P.
  destruct (propagate_term cst c v st); auto.
Qed.

Lemma solve_ntb cs mc m m' : solve cs mc m = Some m' -> ntb m -> ntb m'.
Proof.
  intros S H.
  pose proof (solve_inv ntb True (fun _ => True) cs mc m (fun c st _ => propagate_ntb c st)
                (fun _ => I) (fun _ _ => I) H) as X.
  rewrite S in X. exact X.
Qed.

Lemma ntbe_d_add cs e : ntbe e -> ntbe (d_add cs e).
Proof.
  destruct e as [|m]; simpl; auto. intros H.
  match goal with |- ntbe (match ?s with _ => _ end) => destruct s as [m'|] eqn:S end; simpl; auto.
  eapply solve_ntb; eauto.
Qed.
Lemma ntbe_d_assign x ex e : ntbe e -> ntbe (d_assign x ex e).
Proof. intros H. unfold d_assign. destruct (le_get_variable ex); apply ntbe_set; exact H. Qed.
Lemma ntbe_d_weak_assign x ex e : ntbe e -> ntbe (d_weak_assign x ex e).
Proof. intros H. unfold d_weak_assign. destruct (le_get_variable ex); apply ntbe_join_key; exact H. Qed.
Lemma ntbe_d_forget vs : forall e, ntbe e -> ntbe (d_forget vs e).
Proof.
  intros e H. unfold d_forget. destruct (e_is_bot e || e_is_top e); [exact H|].
  revert e H. induction vs as [|v r IH]; simpl; intros e H; [exact H|].
  apply IH. apply ntbe_forget; exact H.
Qed.
Lemma ntbe_d_expand x nx e : ntbe e -> ntbe (d_expand x nx e).
Proof.
  intros H. unfold d_expand. destruct (e_is_bot e || e_is_top e); [exact H|apply ntbe_set; exact H].
Qed.
Lemma ntbe_d_select l c e1 e2 e : ntbe e -> ntbe (d_select l c e1 e2 e).
Proof.
  intros H. unfold d_select. destruct (e_is_bot e); [exact H|].
  destruct (e_is_bot (d_add [c] e)); [apply ntbe_d_assign; exact H|].
  destruct (e_is_bot (d_add [lc_negate c] e)); [apply ntbe_d_assign; exact H|apply ntbe_set; exact H].
Qed.
Lemma ntbe_d_cast op d s db sb w e : ntbe e -> ntbe (d_cast op d s db sb w e).
Proof.
  intros H. unfold d_cast.
  assert (H1 : ntbe (if negb (db || sb) then d_assign d (mkLE [(1, s)] 0) e else e_forget e d)).
  { destruct (negb (db || sb)); [apply ntbe_d_assign|apply ntbe_forget]; exact H. }
  destruct op; try exact H1.
  destruct sb; repeat apply ntbe_d_add; exact H1.
Qed.

Definition ntbr (rs : list env) : Prop := Forall ntbe rs.

Lemma ntbr_get rs r : ntbr rs -> ntbe (rget rs r).
Proof.
  intros H. unfold rget. destruct (nth_in_or_default r rs e_top) as [I|E].
  - unfold ntbr in H. rewrite Forall_forall in H. apply H; exact I.
  - rewrite E. exact ntbe_top.
Qed.
Lemma ntbr_set : forall rs r v, ntbr rs -> ntbe v -> ntbr (rset rs r v).
Proof.
  induction rs as [|h t IH]; intros r v H V; simpl; [constructor|].
  inversion H; subst. destruct r; constructor; auto. apply IH; auto.
Qed.

(* each operation writes one register, with a value that its own lemma above covers *)
Theorem ntbr_hstep rs o : ntbr rs -> ntbr (hstep rs o).
Proof.
  intros H. destruct o; cbn [hstep]; unfold d_apply_arith, d_apply_bit; apply ntbr_set;
    auto using ntbr_get, ntbe_top, ntbe_d_assign, ntbe_d_weak_assign, ntbe_set, ntbe_d_cast,
      ntbe_d_add, ntbe_d_select, ntbe_d_forget, ntbe_project, ntbe_rename, ntbe_d_expand,
      ntbe_join, ntbe_meet, ntbe_widen, ntbe_narrow, ntbe_widen_thr.
  exact I.
Qed.

Theorem ntbr_hrun h : forall rs, ntbr rs -> ntbr (hrun rs h).
Proof.
  induction h as [|o r IH]; simpl; intros rs H; [exact H|]. apply IH. apply ntbr_hstep; exact H.
Qed.

Lemma ntbr_tops n : ntbr (repeat e_top n).
Proof. induction n; simpl; constructor; auto. exact ntbe_top. Qed.

(* consequence used by the lifting theorems: on a history from top, the is_top test
   recognises exactly the empty environment *)
Theorem hrun_is_top_empty h n r :
  e_is_top (rget (hrun (repeat e_top n) h) r) = true -> rget (hrun (repeat e_top n) h) r = e_top.
Proof. apply ntbe_is_top. apply ntbr_get. apply ntbr_hrun. apply ntbr_tops. Qed.
