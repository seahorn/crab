(* ArrayAdaptSound.v — property C14 on the mirror model of
   array_adaptive_domain<interval_domain> (Dom/ArrayAdapt.v).  A value describes a state
   ([Ga]) when its base value, a value of the smashing domain, describes it with every defined
   cell held by its ghost variable; the invariant [inv] says which ghost variables and
   summaries the base value may constrain.  Each operation preserves [inv] (through [supp],
   what an operation of the base domain may newly constrain) and is sound for [Ga];
   [dstep_sound] puts them together, [dstep_sound_tracked] carries along the invariant [trk]
   that makes smashing sound, [dhistory_sound_nonsmashable] needs neither. *)
From Coq Require Import ZArith NArith List Bool Lia.
From CrabV Require Import Base.ZInf Scalar.Itv Scalar.ItvSound Ir.Syntax Dom.ItvEnv Dom.ItvEnvSound
     Dom.ItvSolver Dom.ItvSolverSound Dom.ItvDomain Dom.ItvDomainSound Dom.History Dom.HistorySound
     Fix.Thresholds Fix.ThresholdsSound Dom.ArraySmash Dom.ArraySmashSound
     Dom.ArrayAdaptCore Dom.ArrayAdaptCoreSound Dom.ArrayAdapt Dom.ArrayAdaptFrame.
Import ListNotations.
Local Open Scope Z_scope.

Arguments d_add : simpl never.
Arguments d_assign : simpl never.
Arguments d_weak_assign : simpl never.
Arguments d_expand : simpl never.
Arguments d_forget : simpl never.
Arguments e_project : simpl never.
Arguments d_eval : simpl never.

Definition is_pv (x : var) : Prop := (x mod 6 = 0)%N.

Lemma pv_is_pv i : is_pv (pv i).
Proof.
  unfold is_pv, pv, sv. replace (3 * (2 * i))%N with (i * 6)%N by lia. apply N.mod_mul. discriminate.
Qed.
Lemma pv_prog x : is_pv x -> is_prog x.
Proof.
  unfold is_pv, is_prog. intros H.
  rewrite (N.div_mod x 6) by discriminate. rewrite H.
  replace (6 * (x / 6) + 0)%N with ((2 * (x / 6)) * 3)%N by lia. apply N.mod_mul. discriminate.
Qed.
Lemma cgv_mod a o sz : (cgv a o sz mod 6 = 3)%N.
Proof.
  unfold cgv, sv. set (n := npair a _).
  replace (3 * (2 * n + 1))%N with (3 + n * 6)%N by lia. rewrite N.mod_add by discriminate. reflexivity.
Qed.
Lemma cgv_prog a o sz : is_prog (cgv a o sz).
Proof. unfold cgv. apply sv_prog. Qed.
Lemma cgv_not_pv a o sz : ~ is_pv (cgv a o sz).
Proof. unfold is_pv. rewrite cgv_mod. discriminate. Qed.
Lemma pv_not_cgv x a o sz : is_pv x -> x <> cgv a o sz.
Proof. intros P E. subst. eapply cgv_not_pv; eauto. Qed.

Lemma npair_inj x y x' y' : npair x y = npair x' y' -> x = x' /\ y = y'.
Proof.
  unfold npair. intros H.
  assert (S : (x + y = x' + y')%N).
  { destruct (N.lt_trichotomy (x + y) (x' + y')) as [L|[E|L]]; auto; exfalso; nia. }
  rewrite S in H. assert (y = y') by lia. subst. split; lia.
Qed.

Lemma cgv_inj a o sz a' o' sz' : 0 <= o -> 0 <= sz -> 0 <= o' -> 0 <= sz' ->
  cgv a o sz = cgv a' o' sz' -> a = a' /\ o = o' /\ sz = sz'.
Proof.
  unfold cgv, sv. intros H1 H2 H3 H4 E.
  assert (E' : npair a (npair (Z.to_N o) (Z.to_N sz)) = npair a' (npair (Z.to_N o') (Z.to_N sz'))) by lia.
  apply npair_inj in E'. destruct E' as [-> E']. apply npair_inj in E'. destruct E' as [E1 E2].
  split; auto. split; lia.
Qed.

Lemma div2_sa a : N.div2 (sa a) = a.
Proof. unfold sa. apply N.div2_double. Qed.
Lemma div2_ta a : N.div2 (ta a) = a.
Proof.
  unfold ta. rewrite N.div2_div. replace (2 * a + 1)%N with (1 + a * 2)%N by lia.
  rewrite N.div_add by discriminate. reflexivity.
Qed.
Lemma even_sa a : N.even (sa a) = true.
Proof. unfold sa. rewrite N.even_mul. reflexivity. Qed.
Lemma even_ta a : N.even (ta a) = false.
Proof. unfold ta. rewrite N.add_comm. rewrite N.even_add_mul_2. reflexivity. Qed.
Lemma sa_inj a b : sa a = sa b -> a = b.
Proof. unfold sa. lia. Qed.
Lemma sa_not_ta a b : sa a <> ta b.
Proof. unfold sa, ta. lia. Qed.

Definition le_pv (e : linexp) : Prop := forall c v, In (c, v) (le_terms e) -> is_pv v.
Definition lc_pv (c : lincst) : Prop := le_pv (lc_exp c).
Definition agree_pv (s' s : store) : Prop := forall x, is_pv x -> s' x = s x.
Lemma le_pv_prog e : le_pv e -> le_prog e.
Proof. intros H c v I. apply pv_prog. eapply H; eauto. Qed.
Lemma eval_le_agree_pv e s' s : le_pv e -> agree_pv s' s -> eval_le e s' = eval_le e s.
Proof. intros P A. apply eval_le_ext. intros c v I. apply A. eapply P; eauto. Qed.

Lemma agree_pv_upd s' s x v : agree_pv s' s -> agree_pv (upd s' x v) (upd s x v).
Proof. intros A y P. destruct (N.eq_dec y x) as [->|NE]; [rewrite !upd_same|rewrite !upd_other by auto]; auto. Qed.

Section Adapt.

Variable esz : arr -> Z.
Variable onecell : arr -> option Z.
Hypothesis esz_pos : forall a, 0 < esz a.
Variable p : params.

(* the concrete semantics of the base domain: its arrays are [sa a] (the array itself) and
   [ta a] (the temporary array of a symbolic load) *)
Definition esz' (b : arr) : Z := esz (N.div2 b).
Definition one' (b : arr) : option Z := if N.even b then onecell (N.div2 b) else None.
Definition alignedb (k o : Z) : bool := (0 <=? o) && (o mod k =? 0).
Lemma alignedb_spec k o : alignedb k o = true <-> aligned k o.
Proof. unfold alignedb, aligned. rewrite andb_true_iff, Z.leb_le, Z.eqb_eq. tauto. Qed.
Lemma aligned_nonneg k o : aligned k o -> 0 <= o.
Proof. intros [H _]. auto. Qed.
(* only the cells at aligned offsets are ever read *)
Definition lift (mu : amem) : amem :=
  fun b i => if N.even b then (if alignedb (esz (N.div2 b)) i then mu (N.div2 b) i else None) else None.
Notation G' := (G esz' one').

Lemma esz'_sa a : esz' (sa a) = esz a.
Proof. unfold esz'. rewrite div2_sa. auto. Qed.
Lemma esz'_ta a : esz' (ta a) = esz a.
Proof. unfold esz'. rewrite div2_ta. auto. Qed.
Lemma lift_sa mu a i : lift mu (sa a) i = if alignedb (esz a) i then mu a i else None.
Proof. unfold lift. rewrite even_sa, div2_sa. auto. Qed.
Lemma even_is_sa b : N.even b = true -> b = sa (N.div2 b).
Proof.
  intros H. unfold sa. destruct b as [|q]; [reflexivity|]. destruct q; simpl in *; try discriminate; reflexivity.
Qed.
Lemma lift_some mu b i v : lift mu b i = Some v ->
  b = sa (N.div2 b) /\ aligned (esz (N.div2 b)) i /\ mu (N.div2 b) i = Some v.
Proof.
  unfold lift. destruct (N.even b) eqn:E; [|discriminate].
  destruct (alignedb _ i) eqn:A; [|discriminate]. intros H. split; [apply even_is_sa; auto|].
  split; auto. apply alignedb_spec; auto.
Qed.
Lemma lift_change mu mu1 a : same_mem_but a mu1 mu -> forall b i v, lift mu1 b i = Some v ->
  lift mu b i = Some v \/ (b = sa a /\ aligned (esz a) i /\ mu1 a i = Some v).
Proof.
  intros HM b i v H. destruct (lift_some _ _ _ _ H) as (E & AL & M).
  destruct (N.eq_dec (N.div2 b) a) as [Q|NQ].
  - right. rewrite Q in *. auto.
  - left. rewrite E, lift_sa. apply alignedb_spec in AL. rewrite AL. rewrite <- HM; auto.
Qed.
Lemma lift_ta mu a i : lift mu (ta a) i = None.
Proof. unfold lift. rewrite even_ta. auto. Qed.
Lemma cell_ok_sa a i : cell_ok one' (sa a) i <-> cell_ok onecell a i.
Proof. unfold cell_ok, one'. rewrite even_sa, div2_sa. tauto. Qed.
Lemma cell_ok_ta a i : cell_ok one' (ta a) i.
Proof. unfold cell_ok, one'. rewrite even_ta. auto. Qed.

Definition cells_in (s' : store) (mu : amem) : Prop :=
  forall a o v, aligned (esz a) o -> cell_ok onecell a o -> mu a o = Some v -> s' (cgv a o (esz a)) = v.

Definition Ga (d : adom) (c : cst) : Prop :=
  exists s', G' (d_base d) (s', lift (snd c)) /\ agree_pv s' (fst c) /\ cells_in s' (snd c).

Definition tracked_cell (d : adom) (a : arr) (o sz : Z) : Prop :=
  exists st, am_find (d_arrs d) a = Some st /\ as_smashed st = false /\
             (exists c, In c (as_map st) /\ c_off c = o /\ c_size c = sz) /\
             gh_has (d_gh d) a o sz = true.
Definition live (m : omap) : Prop := forall c, In c m -> c_rem c = false.
Definition Wf (d : adom) : Prop :=
  forall a st, am_find (d_arrs d) a = Some st -> wl (esz a) (as_map st) /\ live (as_map st).
Definition Tidy (d : adom) : Prop :=
  forall a o sz, 0 <= o -> 0 < sz -> nt (a_base (d_base d)) (cgv a o sz) -> tracked_cell d a o sz.
Definition Usum (d : adom) : Prop :=
  forall a k, la_at (a_la (d_base d)) (sa a) = BConst k ->
    (exists st, am_find (d_arrs d) a = Some st /\ as_smashed st = true) \/
    is_top (e_at (a_base (d_base d)) (ghost (sa a))) = true.
Definition inv (d : adom) : Prop := a_is_bottom d = true \/ (Wf d /\ Tidy d /\ Usum d).

Lemma Ga_not_bottom d c : Ga d c -> a_is_bottom d = false.
Proof. intros (s' & HG & _). unfold a_is_bottom. eapply G_not_bottom; eauto. Qed.

Lemma inv_nonbottom d : inv d -> a_is_bottom d = false -> Wf d /\ Tidy d /\ Usum d.
Proof. intros [B|H] NB; auto. congruence. Qed.

Lemma is_bottom_base d : a_is_bottom d = true <-> a_base (d_base d) = EBot.
Proof. unfold a_is_bottom, s_is_bottom. destruct (a_base (d_base d)); simpl; split; congruence. Qed.
Lemma not_bottom_base d : a_is_bottom d = false <-> a_base (d_base d) <> EBot.
Proof. rewrite <- is_bottom_base. destruct (a_is_bottom d); split; congruence. Qed.

Lemma inv_intro d : (a_base (d_base d) <> EBot -> Wf d /\ Tidy d /\ Usum d) -> inv d.
Proof.
  intros H. destruct (a_is_bottom d) eqn:B; [left; auto|right]. apply H. apply not_bottom_base. exact B.
Qed.

(* what Tidy and Usum say about an array whose state is known *)
Lemma Tidy_cell d a st o sz : Tidy d -> am_find (d_arrs d) a = Some st -> 0 <= o -> 0 < sz ->
  nt (a_base (d_base d)) (cgv a o sz) ->
  as_smashed st = false /\ gh_has (d_gh d) a o sz = true /\
  exists c, In c (as_map st) /\ c_off c = o /\ c_size c = sz.
Proof.
  intros T F H1 H2 N. destruct (T a o sz H1 H2 N) as (st0 & F0 & S & C & GH).
  rewrite F in F0. inversion F0; subst st0. auto.
Qed.

Lemma Usum_top d a st k : Usum d -> am_find (d_arrs d) a = Some st -> as_smashed st = false ->
  la_at (a_la (d_base d)) (sa a) = BConst k -> is_top (e_at (a_base (d_base d)) (ghost (sa a))) = true.
Proof. intros U F S L. destruct (U a k L) as [(st0 & F0 & S0)|X]; [congruence|auto]. Qed.

Lemma Ga_at d s mu x : Ga d (s, mu) -> is_pv x -> gamma (a_at d x) (s x).
Proof.
  intros (s' & HG & A & _) P. unfold a_at. cbn [fst] in A. rewrite <- (A x P).
  apply (G_at esz' one' _ _ x HG). apply pv_prog; auto.
Qed.

(* variables that are top in the base value can take any value *)
Lemma G_upd_tops st s s1 mu : G' st (s, mu) ->
  (forall x, s1 x <> s x -> is_prog x /\ is_top (e_at (a_base st) x) = true) ->
  G' st (s1, mu).
Proof.
  intros (L & S & (w & Gw & A) & C) H. split; auto. split; auto. split; auto.
  exists (fun x => if Z.eq_dec (s1 x) (s x) then w x else s1 x). split.
  - destruct (a_base st) as [|m] eqn:E; [exact Gw|]. intros k. simpl in Gw.
    destruct (Z.eq_dec (s1 k) (s k)) as [Q|Q]; [apply Gw|].
    destruct (H k Q) as [_ T]. simpl in T. eapply is_top_gamma_all; eauto.
  - intros x P. cbn [fst] in *. destruct (Z.eq_dec (s1 x) (s x)) as [Q|Q]; auto.
    rewrite Q. apply A; auto.
Qed.

(* the contents of an array can change where the base value claims nothing about it *)
Lemma G_mem_change st s mu mu1 : G' st (s, mu) ->
  (forall b i v, mu1 b i = Some v -> mu b i = Some v \/ (forall k, la_at (a_la st) b <> BConst k) \/
                                     is_top (e_at (a_base st) (ghost b)) = true) ->
  G' st (s, mu1).
Proof.
  intros (L & S & W & C) H. split; auto. split; auto. split; auto.
  intros b k i v Lb O M. cbn [snd] in *. destruct (H b i v M) as [E|[E|E]].
  - eapply C; eauto.
  - exfalso. eapply E; eauto.
  - destruct W as (w & Gw & _). eapply is_top_gamma_all; eauto. apply e_at_sound; eauto.
Qed.

Lemma G_la st c : G' st c -> a_la st <> LBot.
Proof. intros (L & _). auto. Qed.
Lemma G_base_not_bot st c : G' st c -> a_base st <> EBot.
Proof. intros (_ & _ & (w & Gw & _) & _) E. rewrite E in Gw. exact Gw. Qed.

Lemma G_eval st s' mu s e : G' st (s', mu) -> agree_pv s' s -> le_pv e ->
  gamma (d_eval e (a_base st)) (eval_le e s).
Proof.
  intros (_ & _ & (w & Gw & A) & _) AP P.
  rewrite <- (eval_le_agree_pv e s' s P AP).
  rewrite <- (eval_le_agree e w s') by (auto using le_pv_prog).
  apply d_eval_sound; auto.
Qed.

Lemma G_singleton st s' mu s e n : G' st (s', mu) -> agree_pv s' s -> le_pv e ->
  isingleton (d_eval e (a_base st)) = Some n -> eval_le e s = n.
Proof.
  intros HG AP P H. apply (isingleton_spec _ _ H). eapply G_eval; eauto.
Qed.

Lemma G_check st s' mu s e k : G' st (s', mu) -> agree_pv s' s -> le_pv e ->
  check_elem_size e (a_base st) = Some k -> eval_le e s = k.
Proof.
  intros HG AP P H. unfold check_elem_size in H.
  destruct (isingleton (d_eval e (a_base st))) as [n|] eqn:E; [|discriminate].
  destruct (_ && _); inversion H; subst. eapply G_singleton; eauto.
Qed.

(* a store of the base value in which the index has its concrete value *)
Lemma G_witness_eval st s' mu s e : G' st (s', mu) -> agree_pv s' s -> le_pv e ->
  exists w, genv (a_base st) w /\ eval_le e w = eval_le e s.
Proof.
  intros (_ & _ & (w & Gw & A) & _) AP P. exists w. split; auto.
  rewrite (eval_le_agree e w s') by (auto using le_pv_prog). apply eval_le_agree_pv; auto.
Qed.

Lemma am_find_remove_same m a : am_find (am_remove m a) a = None.
Proof.
  induction m as [|[b st] r IH]; simpl; auto. destruct (N.eqb_spec b a); simpl; auto.
  destruct (N.eqb_spec b a); try congruence; auto.
Qed.
Lemma am_find_remove_other m a b : b <> a -> am_find (am_remove m a) b = am_find m b.
Proof.
  intros N. induction m as [|[c st] r IH]; simpl; auto. destruct (N.eqb_spec c a); simpl.
  - subst. destruct (N.eqb_spec a b); try congruence; auto.
  - rewrite IH; auto.
Qed.
(* the state that [am_set] leaves for the array *)
Definition set_state (old : option astate) (st : astate) : astate :=
  match old with Some o => as_set o st | None => st end.
Lemma am_find_set_same m a st :
  am_find (am_set m a st) a = Some (match am_find m a with Some old => as_set old st | None => st end).
Proof. unfold am_set. destruct (am_find m a); simpl; rewrite N.eqb_refl; auto. Qed.
Lemma am_find_set_other m a st b : b <> a -> am_find (am_set m a st) b = am_find m b.
Proof.
  intros N. unfold am_set. destruct (am_find m a); simpl; destruct (N.eqb_spec a b); try congruence; auto.
  apply am_find_remove_other; auto.
Qed.

Lemma gh_find_erase_all_same g a : gh_find (gh_erase_all g a) a = None.
Proof.
  induction g as [|[b l] r IH]; simpl; auto. destruct (N.eqb_spec b a); simpl; auto.
  destruct (N.eqb_spec b a); try congruence; auto.
Qed.
Lemma gh_find_erase_all_other g a b : b <> a -> gh_find (gh_erase_all g a) b = gh_find g b.
Proof.
  intros N. induction g as [|[c l] r IH]; simpl; auto. destruct (N.eqb_spec c a); simpl.
  - subst. destruct (N.eqb_spec a b); try congruence; auto.
  - rewrite IH; auto.
Qed.
Lemma gh_find_put_same g a l : gh_find (gh_put g a l) a = Some l.
Proof. unfold gh_put. simpl. rewrite N.eqb_refl. auto. Qed.
Lemma gh_find_put_other g a l b : b <> a -> gh_find (gh_put g a l) b = gh_find g b.
Proof.
  intros N. unfold gh_put. simpl. destruct (N.eqb_spec a b); try congruence.
  apply gh_find_erase_all_other; auto.
Qed.

Lemma ck_eqb_spec x y : ck_eqb x y = true <-> x = y.
Proof.
  unfold ck_eqb. rewrite andb_true_iff, !Z.eqb_eq. destruct x, y; simpl. split; [intros []; subst; auto|].
  intros H; inversion H; auto.
Qed.

Lemma gh_has_in g a o sz : gh_has g a o sz = true <-> In (o, sz) (gh_cells g a).
Proof.
  unfold gh_has. rewrite existsb_exists. split.
  - intros (x & I & E). apply ck_eqb_spec in E. subst. auto.
  - intros I. exists (o, sz). split; auto. apply ck_eqb_spec. auto.
Qed.

Lemma gh_has_insert g a o sz b o' sz' :
  gh_has (gh_insert g a o sz) b o' sz' = true <-> (b = a /\ o' = o /\ sz' = sz) \/ gh_has g b o' sz' = true.
Proof.
  unfold gh_insert. destruct (gh_has g a o sz) eqn:H.
  - split; auto. intros [(-> & -> & ->)|X]; auto.
  - rewrite !gh_has_in. unfold gh_cells. destruct (N.eq_dec b a) as [->|N].
    + rewrite gh_find_put_same. fold (gh_cells g a). rewrite in_app_iff. simpl. split.
      * intros [I|[E|[]]]; auto. inversion E; subst. auto.
      * intros [(_ & -> & ->)|I]; auto.
    + rewrite gh_find_put_other by auto. split; auto. intros [(E & _)|I]; [congruence|auto].
Qed.

Lemma gh_has_erase g a o sz b o' sz' :
  gh_has (gh_erase g a o sz) b o' sz' = true <->
  gh_has g b o' sz' = true /\ ~ (b = a /\ o' = o /\ sz' = sz).
Proof.
  unfold gh_erase. destruct (gh_find g a) as [l|] eqn:F.
  - rewrite !gh_has_in. unfold gh_cells. destruct (N.eq_dec b a) as [->|N].
    + rewrite gh_find_put_same, F. rewrite filter_In. rewrite negb_true_iff. split.
      * intros [I E]. split; auto. intros (_ & -> & ->).
        assert (X : ck_eqb (o, sz) (o, sz) = true) by (apply ck_eqb_spec; auto). congruence.
      * intros [I NE]. split; auto. destruct (ck_eqb (o, sz) (o', sz')) eqn:E; auto.
        apply ck_eqb_spec in E. inversion E; subst. exfalso. apply NE. auto.
    + rewrite gh_find_put_other by auto. split; [intros I; split; auto; intros (E & _); congruence|tauto].
  - split; [|tauto]. intros H. split; auto. intros (-> & -> & ->).
    rewrite gh_has_in in H. unfold gh_cells in H. rewrite F in H. destruct H.
Qed.

Lemma gh_has_erase_all g a b o sz :
  gh_has (gh_erase_all g a) b o sz = true <-> gh_has g b o sz = true /\ b <> a.
Proof.
  rewrite !gh_has_in. unfold gh_cells. destruct (N.eq_dec b a) as [->|N].
  - rewrite gh_find_erase_all_same. simpl. tauto.
  - rewrite gh_find_erase_all_other by auto. tauto.
Qed.

Lemma gh_has_erase_ghosts a cells : forall g b o sz,
  gh_has (erase_ghosts a cells g) b o sz = true <->
  gh_has g b o sz = true /\ ~ (b = a /\ exists c, In c cells /\ c_off c = o /\ c_size c = sz).
Proof.
  unfold erase_ghosts. induction cells as [|c r IH]; simpl; intros g b o sz.
  - split; [intros H; split; auto; intros (_ & c & [] & _)|tauto].
  - rewrite IH, gh_has_erase. split.
    + intros ((H & N1) & N2). split; auto. intros (E & c' & [<-|I] & E1 & E2).
      * apply N1. auto.
      * apply N2. split; auto. exists c'. auto.
    + intros (H & N). split; [split; auto|].
      * intros (E & E1 & E2). apply N. split; auto. exists c. auto.
      * intros (E & c' & I & E1 & E2). apply N. split; auto. exists c'. auto.
Qed.

(* as_set keeps one of the two states; when it keeps the old one the keys are the same *)
Lemma om_leq_in m1 m2 c : om_leq m1 m2 = true -> In c m1 ->
  exists c', In c' m2 /\ c_off c' = c_off c /\ c_size c' = c_size c.
Proof.
  unfold om_leq. rewrite forallb_forall. intros H I. specialize (H c I).
  destruct (om_get m2 (c_off c) (c_size c)) as [c'|] eqn:E; [|discriminate].
  apply om_get_some in E. exists c'. tauto.
Qed.

Lemma as_set_nonsmashed old new : as_smashed old = false -> as_smashed new = false ->
  as_smashed (as_set old new) = false /\
  (forall c, In c (as_map (as_set old new)) -> In c (as_map old) \/ In c (as_map new)) /\
  (forall c, In c (as_map new) ->
     exists c', In c' (as_map (as_set old new)) /\ c_off c' = c_off c /\ c_size c' = c_size c).
Proof.
  intros O N. unfold as_set. destruct (as_eqb old new) eqn:E.
  - split; auto. split; auto. intros c I. unfold as_eqb in E. rewrite O in E.
    apply andb_true_iff in E. destruct E as [_ E]. apply andb_true_iff in E. destruct E as [_ E].
    eapply om_leq_in; eauto.
  - split; auto. split; auto. intros c I. exists c. auto.
Qed.

Lemma as_set_smashed old new : as_smashed old <> as_smashed new -> as_set old new = new.
Proof.
  intros H. unfold as_set, as_eqb. destruct (as_smashed old), (as_smashed new); simpl; auto; congruence.
Qed.

(* lookup_array_state *)
Lemma lookup_spec d a st d1 : lookup d a = (st, d1) ->
  d_base d1 = d_base d /\ d_gh d1 = d_gh d /\ am_find (d_arrs d1) a = Some st /\
  (forall b, b <> a -> am_find (d_arrs d1) b = am_find (d_arrs d) b) /\
  (am_find (d_arrs d) a = Some st \/ (am_find (d_arrs d) a = None /\ st = new_state)).
Proof.
  unfold lookup. destruct (am_find (d_arrs d) a) as [st0|] eqn:E; intros H; inversion H; subst; clear H.
  - repeat split; auto.
  - cbn [d_base d_gh d_arrs]. split; auto. split; auto. split; [simpl; rewrite N.eqb_refl; auto|].
    split; [|auto]. intros b N. simpl. destruct (N.eqb_spec a b); congruence.
Qed.

Lemma tracked_lookup d a st d1 b o sz : lookup d a = (st, d1) ->
  (tracked_cell d1 b o sz <-> tracked_cell d b o sz).
Proof.
  intros H. destruct (lookup_spec _ _ _ _ H) as (B & Gh & F & O & C).
  unfold tracked_cell. rewrite Gh. destruct (N.eq_dec b a) as [->|N].
  - destruct C as [C|[C ->]].
    + rewrite F, C. tauto.
    + rewrite F, C. split.
      * intros (st0 & E & _ & (c & I & _) & _). inversion E; subst. destruct I.
      * intros (st0 & E & _). discriminate.
  - rewrite O by auto. tauto.
Qed.

Lemma lookup_inv d a st d1 : lookup d a = (st, d1) -> inv d -> inv d1.
Proof.
  intros H [B|(W & T & U)]; [left|right].
  - destruct (lookup_spec _ _ _ _ H) as (E & _). unfold a_is_bottom. rewrite E. auto.
  - destruct (lookup_spec _ _ _ _ H) as (B & Gh & F & O & C). split; [|split].
    + intros b st0 Fb. destruct (N.eq_dec b a) as [->|N].
      * rewrite F in Fb. inversion Fb; subst. destruct C as [C|[C ->]]; [eauto|].
        split; intros c [].
      * rewrite O in Fb by auto. eauto.
    + intros b o sz H1 H2 N. rewrite B in N. apply (tracked_lookup _ _ _ _ b o sz H). auto.
    + intros b k L. rewrite B in *. destruct (U b k L) as [(st0 & E & S)|X]; auto.
      left. destruct (N.eq_dec b a) as [->|N].
      * destruct C as [C|[C _]]; [|congruence]. exists st. rewrite C in E. inversion E; subst. auto.
      * exists st0. rewrite O by auto. auto.
Qed.

Lemma lookup_Ga d a st d1 c : lookup d a = (st, d1) -> Ga d c -> Ga d1 c.
Proof.
  intros H (s' & HG & R). destruct (lookup_spec _ _ _ _ H) as (B & _).
  exists s'. rewrite B. auto.
Qed.

Lemma lookup_nonsmashed_new d a st d1 : lookup d a = (st, d1) ->
  am_find (d_arrs d) a = None -> st = new_state.
Proof.
  intros H N. destruct (lookup_spec _ _ _ _ H) as (_ & _ & _ & _ & [C|[_ C]]); auto. congruence.
Qed.

Definition forgotten (a : arr) (g : gmap_t) (cells : list cell) (y : var) : Prop :=
  exists c, In c cells /\ gh_hasc g a c = true /\ y = cgc a c.

Lemma forget_ghosts_la a g cells : forall b, a_la (forget_ghosts a g cells b) = a_la b.
Proof.
  unfold forget_ghosts. induction cells as [|c r IH]; simpl; intros b; auto.
  rewrite IH. destruct (gh_hasc g a c); auto.
Qed.

Lemma forget_ghosts_bot a g cells : forall b,
  a_base (forget_ghosts a g cells b) = EBot <-> a_base b = EBot.
Proof.
  unfold forget_ghosts. induction cells as [|c r IH]; simpl; intros b; [tauto|].
  rewrite IH. destruct (gh_hasc g a c); [|tauto]. simpl. apply e_forget_bot_iff.
Qed.

Lemma forget_ghosts_nt a g cells : forall b y,
  a_base (forget_ghosts a g cells b) <> EBot -> nt (a_base (forget_ghosts a g cells b)) y ->
  nt (a_base b) y /\ ~ forgotten a g cells y.
Proof.
  unfold forget_ghosts. induction cells as [|c r IH]; simpl; intros b y NB H.
  - split; auto. intros (c & [] & _).
  - destruct (IH _ _ NB H) as [N NF]. destruct (gh_hasc g a c) eqn:GH.
    + simpl in N. apply nt_e_forget in N.
      * destruct N as [N1 N2]. split; auto. intros (c' & [<-|I] & G1 & E); [congruence|].
        apply NF. exists c'. auto.
      * intros E. apply NB. fold (forget_ghosts a g r (mkA (a_la b) (e_forget (a_base b) (cgc a c)))).
        apply forget_ghosts_bot. exact E.
    + split; auto. intros (c' & [<-|I] & G1 & E); [congruence|]. apply NF. exists c'. auto.
Qed.

Lemma forget_ghosts_top a g cells b y :
  a_base b <> EBot -> forgotten a g cells y -> is_top (e_at (a_base (forget_ghosts a g cells b)) y) = true.
Proof.
  intros NB F. destruct (is_top _) eqn:T; auto. exfalso.
  assert (NB' : a_base (forget_ghosts a g cells b) <> EBot) by (rewrite forget_ghosts_bot; auto).
  destruct (forget_ghosts_nt a g cells b y NB' T) as [_ NF]. auto.
Qed.

(* the forgotten ghosts can take any value *)
Lemma forget_ghosts_sound a g cells : forall b s s1 mu, G' b (s, mu) ->
  (forall x, s1 x <> s x -> forgotten a g cells x) ->
  G' (forget_ghosts a g cells b) (s1, mu).
Proof.
  unfold forget_ghosts. induction cells as [|c r IH]; simpl; intros b s s1 mu HG H.
  - assert (E : forall x, s1 x = s x).
    { intros x. destruct (Z.eq_dec (s1 x) (s x)); auto. destruct (H x n) as (c & [] & _). }
    eapply G_upd_tops; eauto. intros x N. elim N. auto.
  - destruct (gh_hasc g a c) eqn:GH.
    + apply (IH _ (upd s (cgc a c) (s1 (cgc a c)))).
      * apply (s_forget1_sound _ _ (VS (cgc a c)) b s mu); auto.
        -- simpl. apply cgv_prog.
        -- intros x N. apply upd_other. congruence.
      * intros x N. destruct (N.eq_dec x (cgc a c)) as [->|NE]; [rewrite upd_same in N; congruence|].
        rewrite upd_other in N by auto. destruct (H x N) as (c' & [<-|I] & G1 & E); [congruence|].
        exists c'. auto.
    + apply (IH _ s); auto. intros x N. destruct (H x N) as (c' & [<-|I] & G1 & E); [congruence|].
      exists c'. auto.
Qed.

Lemma kill_eq a cells om b g :
  kill p a cells om b g = (kill_cells p cells om, forget_ghosts a g cells b,
                           if p_smashable p then g else erase_ghosts a cells g).
Proof.
  unfold kill. destruct cells; auto. unfold kill_cells, forget_ghosts, erase_ghosts. simpl.
  destruct (p_smashable p); auto.
Qed.

Lemma om_get_in m c : In c m -> exists c', om_get m (c_off c) (c_size c) = Some c'.
Proof.
  induction m as [|h t IH]; simpl; [tauto|]. intros [->|I].
  - rewrite !Z.eqb_refl. simpl. eauto.
  - destruct (_ && _); eauto.
Qed.

Lemma om_leq_intro m1 m2 :
  (forall c, In c m1 -> exists c', In c' m2 /\ c_off c' = c_off c /\ c_size c' = c_size c) ->
  om_leq m1 m2 = true.
Proof.
  intros H. unfold om_leq. apply forallb_forall. intros c I.
  destruct (H c I) as (c' & I' & E1 & E2). destruct (om_get_in _ _ I') as (c'' & E).
  rewrite E1, E2 in E. rewrite E. auto.
Qed.

Lemma om_remove_keys c m x : In x (om_remove c m) ->
  exists y, In y m /\ c_off y = c_off x /\ c_size y = c_size x.
Proof.
  unfold om_remove. intros H. apply in_map_iff in H. destruct H as (z & E & I).
  exists z. split; auto. destruct (cell_eqb z c); subst; auto.
Qed.
Lemma om_remove_keys_rev c m y : In y m ->
  exists x, In x (om_remove c m) /\ c_off x = c_off y /\ c_size x = c_size y.
Proof.
  intros I. unfold om_remove.
  exists (if cell_eqb y c then mkC (c_off y) (c_size y) true else y). split.
  - apply in_map_iff. exists y. auto.
  - destruct (cell_eqb y c); auto.
Qed.

Lemma fold_remove_keys_rev cells : forall m y, In y m ->
  exists x, In x (fold_left (fun acc c => om_remove c acc) cells m) /\ c_off x = c_off y /\ c_size x = c_size y.
Proof.
  induction cells as [|c r IH]; simpl; intros m y I; [eauto|].
  destruct (om_remove_keys_rev c m y I) as (x & Ix & E1 & E2).
  destruct (IH _ _ Ix) as (z & Iz & F1 & F2). exists z. split; auto. split; congruence.
Qed.

(* smashable: the cells are only marked, and the array map keeps the old binding *)
Lemma kill_smashable_keeps st cells : p_smashable p = true -> as_smashed st = false ->
  as_set st (mkS false (as_esz st) (kill_cells p cells (as_map st))) = st.
Proof.
  intros S N. unfold as_set. replace (as_eqb st _) with true; auto. symmetry.
  unfold as_eqb. cbn [as_smashed as_map]. rewrite N. simpl.
  apply andb_true_iff. split; apply om_leq_intro.
  - intros c I. unfold kill_cells. rewrite S. apply fold_remove_keys_rev. auto.
  - intros c I. apply in_kill_cells in I. destruct I as (y & Iy & E1 & E2). eauto.
Qed.

(* not smashable: the cells with the keys of the killed ones are erased *)
Lemma in_fold_erase cells : forall m x, In x (fold_left (fun acc c => om_erase c acc) cells m) <->
  In x m /\ forall c, In c cells -> cell_eqb x c = false.
Proof.
  induction cells as [|c r IH]; simpl; intros m x; [split; [intros H; split; auto; intros c []|tauto]|].
  rewrite IH. unfold om_erase. rewrite filter_In, negb_true_iff. split.
  - intros ((I & E) & H). split; auto. intros c' [<-|I']; auto.
  - intros (I & H). split; [split; auto|]; auto.
Qed.

Lemma kill_cells_sub cells m x : p_smashable p = false -> In x (kill_cells p cells m) ->
  In x m /\ forall c, In c cells -> cell_eqb x c = false.
Proof. intros S. unfold kill_cells. rewrite S. apply in_fold_erase. Qed.
Lemma kill_cells_keep cells m x : p_smashable p = false -> In x m ->
  (forall c, In c cells -> cell_eqb x c = false) -> In x (kill_cells p cells m).
Proof. intros S I H. unfold kill_cells. rewrite S. apply in_fold_erase. auto. Qed.

(* word-level maps: an aligned access overlaps no other cell *)
Lemma wl_no_overlap k m n : 0 < k -> wl k m -> aligned k n -> om_get_overlap m n k = [].
Proof.
  intros K W A. destruct (om_get_overlap m n k) as [|x r] eqn:E; auto. exfalso.
  assert (I : In x (om_get_overlap m n k)) by (rewrite E; simpl; auto).
  apply om_get_overlap_sound in I. destruct I as (I & O & NK).
  destruct (W x I) as [S AL]. apply NK. split; auto.
  eapply aligned_overlap_same; eauto.
Qed.

Lemma om_insert_has c m : exists c', In c' (om_insert c m) /\ c_off c' = c_off c /\ c_size c' = c_size c.
Proof.
  induction m as [|h t IH]; simpl; [exists c; auto|].
  destruct (cell_eqb h c) eqn:Q.
  - apply cell_eqb_spec in Q. exists h. simpl. tauto.
  - destruct (cell_ltb c h); [exists c; simpl; auto|].
    destruct IH as (c' & I & E). exists c'. simpl. auto.
Qed.

Lemma in_om_mk_new m o sz : exists c, In c (snd (om_mk m o sz)) /\ c_off c = o /\ c_size c = sz.
Proof.
  unfold om_mk. destruct (om_get m o sz) as [c|] eqn:E; simpl.
  - apply om_get_some in E. exists c. tauto.
  - apply (om_insert_has (mkC o sz false) m).
Qed.

Lemma in_om_mk_old m o sz c : In c m -> In c (snd (om_mk m o sz)).
Proof.
  unfold om_mk. destruct (om_get m o sz); simpl; auto. apply om_insert_in.
Qed.

Lemma la_at_set_other l t k t' : t' <> t -> la_at (la_set l t k) t' = la_at l t'.
Proof.
  intros N. destruct l as [|m]; simpl; auto. destruct (N.eqb_spec t t'); [congruence|].
  rewrite lget_lremove_other by auto. auto.
Qed.
Lemma la_at_forget_other l t t' : t' <> t -> la_at (la_forget l t) t' = la_at l t'.
Proof.
  intros N. destruct l as [|m]; simpl; auto. rewrite lget_lremove_other by auto. auto.
Qed.
Lemma la_at_forget_same l t k : la_at (la_forget l t) t <> BConst k.
Proof. destruct l as [|m]; simpl; [discriminate|]. rewrite lget_lremove_same. discriminate. Qed.

Lemma ghost_neq_cgv t a o sz : ghost t <> cgv a o sz.
Proof. intros E. pose proof (cgv_prog a o sz) as P. rewrite <- E in P. eapply ghost_not_prog; eauto. Qed.
Lemma gcopy_neq_cgv t a o sz : gcopy t <> cgv a o sz.
Proof.
  intros E. pose proof (cgv_prog a o sz) as P. rewrite <- E in P. red in P. rewrite gcopy_mod in P. discriminate.
Qed.
Lemma ghost_neq_pv t x : is_pv x -> x <> ghost t.
Proof. intros P. apply prog_not_ghost. apply pv_prog; auto. Qed.

Lemma s_forget1_VA_la t b t' : t' <> t -> la_at (a_la (s_forget1 (VA t) b)) t' = la_at (a_la b) t'.
Proof. intros N. simpl. destruct (la_at (a_la b) t); simpl; auto. apply la_at_forget_other; auto. Qed.
Lemma s_forget1_VA_la_same t b k : la_at (a_la (s_forget1 (VA t) b)) t <> BConst k.
Proof.
  simpl. destruct (la_at (a_la b) t) eqn:E; simpl; try congruence. apply la_at_forget_same.
Qed.
Lemma s_forget1_bot v b : a_base b = EBot -> a_base (s_forget1 v b) = EBot.
Proof.
  intros E. destruct v as [x|t]; simpl; [rewrite E; auto|].
  destruct (la_at (a_la b) t); simpl; auto. rewrite E. auto.
Qed.

Lemma d_assign_bot_gen x ex e : e = EBot -> d_assign x ex e = EBot.
Proof. intros ->. apply d_assign_bot. Qed.

Lemma s_array_store_bot t ez val strong b b' : s_array_store t ez val strong b = Some b' ->
  a_base b = EBot -> a_base b' = EBot.
Proof.
  unfold s_array_store. intros H E. rewrite E in H. destruct (check_elem_size ez EBot); [|discriminate].
  destruct (equal_size _ _ _); inversion H; subst; cbn [a_base]; auto.
  destruct strong; [apply d_assign_bot|apply d_weak_assign_bot].
Qed.

Lemma tracked_other_arr b1 m g b2 a st' g' a0 o sz : a0 <> a ->
  (forall o sz, gh_has g' a0 o sz = true <-> gh_has g a0 o sz = true) ->
  (tracked_cell (mkD b2 (am_set m a st') g') a0 o sz <-> tracked_cell (mkD b1 m g) a0 o sz).
Proof.
  intros N H. unfold tracked_cell. cbn [d_arrs d_gh]. rewrite am_find_set_other by auto.
  split; intros (st0 & F & S & C & GH); exists st0; (split; [auto|split; [auto|split; [auto|apply H; auto]]]).
Qed.

Lemma is_top_nt e y : is_top (e_at e y) = true \/ nt e y.
Proof. unfold nt. destruct (is_top (e_at e y)); auto. Qed.

Lemma is_top_mono e e' y : (nt e' y -> nt e y) -> is_top (e_at e y) = true -> is_top (e_at e' y) = true.
Proof. intros H T. destruct (is_top_nt e' y) as [Y|Y]; auto. apply H in Y. unfold nt in Y. congruence. Qed.

(* what an operation of the base domain may constrain.
   [supp X T b b']: [b'] constrains no scalar variable that [b] leaves unconstrained, except
   those of [X], and summarises no array that [b] does not, except those of [T] *)
Definition supp (X : var -> Prop) (T : arr -> Prop) (b b' : ast) : Prop :=
  (a_base b = EBot -> a_base b' = EBot) /\
  (a_base b' <> EBot -> forall y, nt (a_base b') y -> X y \/ nt (a_base b) y) /\
  (forall t k, la_at (a_la b') t = BConst k -> T t \/ la_at (a_la b) t = BConst k).

Section Supp.
Variable X : var -> Prop.
Variable T : arr -> Prop.

Lemma supp_refl b : supp X T b b.
Proof. split; auto. Qed.

Lemma supp_trans b b1 b2 : supp X T b b1 -> supp X T b1 b2 -> supp X T b b2.
Proof.
  intros (B1 & N1 & L1) (B2 & N2 & L2). split; [auto|split].
  - intros NB y N. destruct (N2 NB y N) as [H|H]; auto.
  - intros t k L. destruct (L2 t k L) as [H|H]; auto.
Qed.

Lemma supp_top b b' y : supp X T b b' -> a_base b' <> EBot -> ~ X y ->
  is_top (e_at (a_base b) y) = true -> is_top (e_at (a_base b') y) = true.
Proof. intros (_ & SN & _) NB NX. apply is_top_mono. intros N. destruct (SN NB y N); tauto. Qed.

Lemma supp_assign x e b : X x -> supp X T b (s_assign x e b).
Proof.
  intros Hx. split; [|split]; simpl; auto.
  - intros ->. apply d_assign_bot.
  - intros NB y N. apply nt_d_assign in N; auto. destruct N as [->|N]; auto.
Qed.

Lemma supp_forget1 v b : supp X T b (s_forget1 v b).
Proof.
  split; [apply s_forget1_bot|split].
  - intros NB y N. right. destruct v as [x|t]; simpl in *; [apply nt_e_forget in N; tauto|].
    destruct (la_at (a_la b) t); simpl in *; auto. apply nt_e_forget in N; tauto.
  - intros t k L. right. destruct v as [x|t0]; [exact L|]. destruct (N.eq_dec t t0) as [->|NE].
    + elim (s_forget1_VA_la_same _ _ _ L).
    + rewrite s_forget1_VA_la in L; auto.
Qed.

Lemma supp_array_store t ez val strong b b' : s_array_store t ez val strong b = Some b' ->
  X (ghost t) -> T t -> supp X T b b'.
Proof.
  intros H Hx Ht. split; [exact (s_array_store_bot _ _ _ _ _ _ H)|]. revert H. unfold s_array_store.
  destruct (check_elem_size ez (a_base b)) as [k|]; [|discriminate].
  assert (LA : forall t' k0, la_at (if strong then la_set (a_la b) t k else a_la b) t' = BConst k0 ->
                 T t' \/ la_at (a_la b) t' = BConst k0).
  { intros t' k0 L. destruct (N.eq_dec t' t) as [->|NE]; auto. destruct strong; auto.
    rewrite la_at_set_other in L; auto. }
  destruct (equal_size _ t k); intros [= <-]; cbn [a_base a_la]; split; auto.
  intros NB y N. destruct strong; [apply nt_d_assign in N|apply nt_d_weak_assign in N]; auto;
    destruct N as [->|N]; auto.
Qed.

Lemma supp_array_load lhs t ez b b' : s_array_load lhs t ez b = Some b' -> X lhs -> supp X T b b'.
Proof.
  unfold s_array_load. intros H Hx. split.
  { intros E. rewrite E in H. destruct (check_elem_size ez EBot); [|discriminate].
    destruct (equal_size _ _ _); injection H as <-; reflexivity. }
  destruct (check_elem_size ez (a_base b)) as [k|]; [|discriminate].
  destruct (equal_size _ t k); injection H as <-; cbn [a_base a_la]; split; auto;
    intros NB y N; apply nt_e_forget in N; auto; destruct N as [N1 N]; auto.
  (* the copy of the summarised variable is forgotten again *)
  assert (NB1 : d_assign lhs (le_var (gcopy t)) (d_expand (ghost t) (gcopy t) (a_base b)) <> EBot).
  { intros E. apply NB. rewrite E. reflexivity. }
  apply nt_d_assign in N; auto. destruct N as [->|N]; auto.
  apply nt_d_expand in N; [destruct N; [congruence|auto]|].
  intros E. apply NB1. rewrite E. apply d_assign_bot.
Qed.

Lemma supp_smash_loop t ez a g : forall cells first b nog b1,
  smash_loop t ez a g first cells b = Some (nog, b1) -> X (ghost t) -> T t -> supp X T b b1.
Proof.
  induction cells as [|c r IH]; intros first b nog b1 H Hx Ht; simpl in H.
  - inversion H; subst. apply supp_refl.
  - destruct (gh_hasc g a c); [|inversion H; subst; apply supp_refl].
    destruct (s_array_store t ez (le_var (cgc a c)) first b) as [b'|] eqn:ST; [|discriminate].
    eapply supp_trans; [eapply supp_array_store; eauto|eapply IH; eauto].
Qed.

Lemma supp_forget_ghosts a g cells b : supp X T b (forget_ghosts a g cells b).
Proof.
  split; [apply forget_ghosts_bot|split].
  - intros NB y N. right. eapply forget_ghosts_nt; eauto.
  - intros t k L. rewrite forget_ghosts_la in L. auto.
Qed.

(* the invariant when only the base value changes: what is newly constrained or summarised
   belongs to smashed arrays *)
Lemma inv_supp d b' : Wf d -> Tidy d -> Usum d -> supp X T (d_base d) b' ->
  (forall a o sz, ~ X (cgv a o sz)) ->
  (forall a k, la_at (a_la b') (sa a) = BConst k -> X (ghost (sa a)) \/ T (sa a) ->
     exists st, am_find (d_arrs d) a = Some st /\ as_smashed st = true) ->
  inv (with_base d b').
Proof.
  intros W Ti U (_ & SN & SL) HX HS. apply inv_intro. cbn [with_base d_base d_arrs]. intros NB.
  split; [exact W|split].
  - intros a o sz H1 H2 N. apply (Ti a o sz H1 H2). destruct (SN NB _ N) as [H|H]; auto. elim (HX _ _ _ H).
  - intros a k L. destruct (SL _ _ L) as [H|L0]; [left; eauto|].
    destruct (is_top_nt (a_base b') (ghost (sa a))) as [Y|Y]; auto.
    destruct (SN NB _ Y) as [H|Y0]; [left; eauto|].
    destruct (U a k L0) as [Z|Z]; auto. unfold nt in Y0. congruence.
Qed.

(* the same when an array that is not smashed (or has no state: [old = None]) gets the state
   [st'] too: the ghost variables that are newly constrained, and those of the cells of the
   array that stay constrained, belong to tracked cells *)
Lemma inv_update_supp d1 a old st' b' g' :
  Wf d1 -> Tidy d1 -> Usum d1 -> am_find (d_arrs d1) a = old ->
  match old with Some st => as_smashed st = false | None => True end ->
  (wl (esz a) (as_map (set_state old st')) /\ live (as_map (set_state old st'))) ->
  (forall a0, a0 <> a -> forall o sz, gh_has g' a0 o sz = true <-> gh_has (d_gh d1) a0 o sz = true) ->
  supp X T (d_base d1) b' ->
  (forall a0 o sz, 0 <= o -> 0 < sz -> a_base b' <> EBot -> nt (a_base b') (cgv a0 o sz) ->
     X (cgv a0 o sz) \/ (a0 = a /\ nt (a_base (d_base d1)) (cgv a o sz)) ->
     tracked_cell (mkD b' (am_set (d_arrs d1) a st') g') a0 o sz) ->
  (forall a0, X (ghost (sa a0)) \/ T (sa a0) -> a0 = a /\ as_smashed (set_state old st') = true) ->
  inv (mkD b' (am_set (d_arrs d1) a st') g').
Proof.
  intros W Ti U F S WS GH (_ & SN & SL) TR SM. apply inv_intro. cbn [d_base d_arrs]. intros NB.
  assert (FA : am_find (am_set (d_arrs d1) a st') a = Some (set_state old st')).
  { rewrite am_find_set_same, F. reflexivity. }
  assert (TOP : forall k, la_at (a_la (d_base d1)) (sa a) = BConst k ->
            is_top (e_at (a_base (d_base d1)) (ghost (sa a))) = true).
  { intros k L. destruct (U a k L) as [(st & F0 & S0)|Z]; auto. rewrite F in F0. rewrite F0 in S. congruence. }
  split; [|split].
  - intros a0 st0 F0. cbn [d_arrs] in F0. destruct (N.eq_dec a0 a) as [->|N]; [rewrite FA in F0; injection F0 as <-; exact WS|].
    rewrite am_find_set_other in F0 by auto. eauto.
  - intros a0 o sz H1 H2 N. destruct (SN NB _ N) as [H|H]; [apply TR; auto|].
    destruct (N.eq_dec a0 a) as [->|NA]; [apply TR; auto|].
    apply (tracked_other_arr (d_base d1) (d_arrs d1) (d_gh d1) b' a st' g' a0 o sz NA (GH a0 NA)).
    specialize (Ti a0 o sz H1 H2 H). destruct d1; exact Ti.
  - intros a0 k L.
    assert (NEW : X (ghost (sa a0)) \/ T (sa a0) ->
              exists st, am_find (am_set (d_arrs d1) a st') a0 = Some st /\ as_smashed st = true).
    { intros H. destruct (SM a0 H) as [-> S2]. eauto. }
    destruct (SL _ _ L) as [H|L0]; [left; auto|].
    destruct (is_top_nt (a_base b') (ghost (sa a0))) as [Y|Y]; auto.
    destruct (SN NB _ Y) as [H|Y0]; [left; auto|]. unfold nt in Y0.
    destruct (N.eq_dec a0 a) as [->|NA]; [rewrite (TOP k L0) in Y0; discriminate|].
    destruct (U a0 k L0) as [(st0 & F0 & S0)|Z]; [|congruence].
    left. exists st0. cbn [d_arrs]. rewrite am_find_set_other by auto. auto.
Qed.

End Supp.

Definition cell_okb (a : arr) (o : Z) : bool := match onecell a with Some j => o =? j | None => true end.
Lemma cell_okb_spec a o : cell_okb a o = true <-> cell_ok onecell a o.
Proof. unfold cell_okb, cell_ok. destruct (onecell a); [apply Z.eqb_eq|tauto]. Qed.

(* a store that holds the value of every defined cell in its ghost variable *)
Definition nrange (x : N) : list N := map N.of_nat (seq 0 (S (N.to_nat x))).
Lemma in_nrange y x : (y <= x)%N -> In y (nrange x).
Proof.
  intros H. unfold nrange. apply in_map_iff. exists (N.to_nat y). split; [apply N2Nat.id|].
  apply in_seq. lia.
Qed.
Lemma npair_ge x y : (x <= npair x y /\ y <= npair x y)%N.
Proof. unfold npair. split; nia. Qed.

Definition decode (x : var) : option (arr * N) :=
  find (fun q => N.eqb (cgv (fst q) (Z.of_N (snd q)) (esz (fst q))) x) (list_prod (nrange x) (nrange x)).

Lemma decode_some x a n : decode x = Some (a, n) -> x = cgv a (Z.of_N n) (esz a).
Proof. unfold decode. intros H. apply find_some in H. destruct H as [_ H]. apply N.eqb_eq in H. auto. Qed.

Lemma decode_cgv a o : 0 <= o -> decode (cgv a o (esz a)) = Some (a, Z.to_N o).
Proof.
  intros PO. unfold decode. set (x := cgv a o (esz a)).
  destruct (find _ _) as [[a' n']|] eqn:F.
  - apply find_some in F. destruct F as [_ F]. apply N.eqb_eq in F. cbn [fst snd] in F.
    pose proof (esz_pos a). pose proof (esz_pos a').
    apply cgv_inj in F; try lia. destruct F as (-> & E & _). f_equal. f_equal. lia.
  - exfalso. assert (IN : In (a, Z.to_N o) (list_prod (nrange x) (nrange x))).
    { apply in_prod; apply in_nrange.
      - unfold x, cgv, sv. pose proof (npair_ge a (npair (Z.to_N o) (Z.to_N (esz a)))). lia.
      - unfold x, cgv, sv. pose proof (npair_ge a (npair (Z.to_N o) (Z.to_N (esz a)))).
        pose proof (npair_ge (Z.to_N o) (Z.to_N (esz a))). lia. }
    pose proof (find_none _ _ F _ IN) as X. cbn [fst snd] in X. rewrite Z2N.id in X by auto.
    unfold x in X. rewrite N.eqb_refl in X. discriminate.
Qed.

Definition cstore (s : store) (mu : amem) : store :=
  fun x => match decode x with
           | Some (a, n) =>
             if alignedb (esz a) (Z.of_N n) && cell_okb a (Z.of_N n)
             then match mu a (Z.of_N n) with Some v => v | None => s x end
             else s x
           | None => s x
           end.

Lemma cstore_cells s mu : cells_in (cstore s mu) mu.
Proof.
  intros a o v AL O M. unfold cstore. rewrite decode_cgv by (eapply aligned_nonneg; eauto).
  rewrite Z2N.id by (eapply aligned_nonneg; eauto).
  apply alignedb_spec in AL. apply cell_okb_spec in O. rewrite AL, O, M. reflexivity.
Qed.

Lemma cstore_diff s mu x : cstore s mu x <> s x ->
  exists a o v, x = cgv a o (esz a) /\ aligned (esz a) o /\ cell_ok onecell a o /\ mu a o = Some v /\
                cstore s mu x = v.
Proof.
  unfold cstore. destruct (decode x) as [[a n]|] eqn:D; [|congruence].
  destruct (alignedb _ _) eqn:AL; [|simpl; congruence]. destruct (cell_okb _ _) eqn:O; [|simpl; congruence].
  simpl. destruct (mu a (Z.of_N n)) as [v|] eqn:M; [|congruence]. intros _.
  exists a, (Z.of_N n), v. split; [apply decode_some; auto|]. split; [apply alignedb_spec; auto|].
  split; [apply cell_okb_spec; auto|]. auto.
Qed.

Lemma cstore_pv s mu : agree_pv (cstore s mu) s.
Proof.
  intros x P. destruct (Z.eq_dec (cstore s mu x) (s x)) as [E|NE]; auto.
  destruct (cstore_diff _ _ _ NE) as (a & o & v & -> & _). elim (cgv_not_pv _ _ _ P).
Qed.

(* a described state stays described when the contents of cells whose ghost variable is
   unconstrained change *)
Lemma Ga_intro d' s s' mu1 : G' (d_base d') (s', lift mu1) -> agree_pv s' s ->
  (forall a o v, aligned (esz a) o -> cell_ok onecell a o -> mu1 a o = Some v ->
     s' (cgv a o (esz a)) = v \/ is_top (e_at (a_base (d_base d')) (cgv a o (esz a))) = true) ->
  Ga d' (s, mu1).
Proof.
  intros G1 AP H. exists (cstore s' mu1). cbn [fst snd]. split; [|split].
  - apply (G_upd_tops _ s'); auto. intros x N.
    destruct (cstore_diff _ _ _ N) as (a & o & v & -> & AL & O & M & E).
    split; [apply cgv_prog|]. destruct (H a o v AL O M) as [X|X]; [congruence|auto].
  - intros x P. rewrite cstore_pv by auto. auto.
  - apply cstore_cells.
Qed.

(* such are the ghost variables of the cells that the state does not track *)
Lemma Ga_intro_tops d' s s' mu1 : inv d' -> G' (d_base d') (s', lift mu1) -> agree_pv s' s ->
  (forall a o v, aligned (esz a) o -> cell_ok onecell a o -> mu1 a o = Some v ->
     s' (cgv a o (esz a)) = v \/ ~ tracked_cell d' a o (esz a)) ->
  Ga d' (s, mu1).
Proof.
  intros I G1 AP H. apply (Ga_intro d' s s'); auto. intros a o v AL O M.
  destruct (H a o v AL O M) as [X|X]; auto. right.
  destruct (inv_nonbottom _ I (G_not_bottom _ _ _ _ G1)) as (_ & T & _).
  destruct (is_top_nt (a_base (d_base d')) (cgv a o (esz a))) as [Y|Y]; auto.
  elim X. apply T; auto. eapply aligned_nonneg; eauto.
Qed.

Lemma Ga_shrink d s mu mu0 : Ga d (s, mu) -> (forall b o v, mu0 b o = Some v -> mu b o = Some v) ->
  Ga d (s, mu0).
Proof.
  intros (s' & G0 & AP & C) H. exists s'. cbn [fst snd] in *. split; [|split]; auto.
  - apply (G_mem_change _ _ (lift mu)); auto. intros b i v M. left. unfold lift in *.
    destruct (N.even b); auto. destruct (alignedb _ _); auto.
  - intros a o v AL O M. eapply C; eauto.
Qed.

Lemma Ga_mem_ext d s mu mu' : same_mem mu' mu -> Ga d (s, mu) -> Ga d (s, mu').
Proof. intros E HG. apply (Ga_shrink d s mu _ HG). intros b o v M. rewrite <- E. exact M. Qed.
Lemma Ga_post d (c : cst) s mu : fst c = s -> same_mem (snd c) mu -> Ga d (s, mu) -> Ga d c.
Proof. destruct c as [s1 mu1]. intros <-. apply Ga_mem_ext. Qed.

(* one cell is written; its ghost variable holds the value or is unconstrained *)
Lemma Ga_write d' a i v s s' mu mu1 : G' (d_base d') (s', lift mu1) -> agree_pv s' s ->
  (forall a0 o w, a0 <> a \/ o <> i -> aligned (esz a0) o -> cell_ok onecell a0 o -> mu a0 o = Some w ->
     s' (cgv a0 o (esz a0)) = w) ->
  s' (cgv a i (esz a)) = v \/ is_top (e_at (a_base (d_base d')) (cgv a i (esz a))) = true ->
  same_mem_but a mu1 mu -> (forall j, mu1 a j = if j =? i then Some v else mu a j) ->
  Ga d' (s, mu1).
Proof.
  intros G1 AP C HI HM HA. apply (Ga_intro d' s s'); auto. intros a0 o w AL O M.
  destruct (N.eq_dec a0 a) as [->|NA]; [|rewrite HM in M by auto; left; apply (C a0 o w); auto].
  rewrite HA in M. destruct (Z.eqb_spec o i) as [->|NO]; [inversion M; subst; auto|left; apply (C a o w); auto].
Qed.

(* the memory of the base domain under a change of the array [a] *)
Lemma lift_same_but a mu1 mu : same_mem_but a mu1 mu -> same_mem_but (sa a) (lift mu1) (lift mu).
Proof.
  intros HM t i N. unfold lift. destruct (N.even t) eqn:EV; auto.
  rewrite HM; auto. intros E. apply N. rewrite (even_is_sa _ EV), E. auto.
Qed.

Lemma lift_write a mu1 mu i v : aligned (esz a) i ->
  (forall j, mu1 a j = if j =? i then Some v else mu a j) ->
  forall j, lift mu1 (sa a) j = if j =? i then Some v else lift mu (sa a) j.
Proof.
  intros AL HA j. rewrite !lift_sa, HA. destruct (Z.eqb_spec j i) as [->|NE]; auto.
  apply alignedb_spec in AL. rewrite AL. auto.
Qed.

(* nothing is claimed about the contents of an array that the base value does not summarise *)
Lemma G_unsummarised b s mu mu1 a : G' b (s, lift mu) -> same_mem_but a mu1 mu ->
  (forall k, la_at (a_la b) (sa a) = BConst k -> is_top (e_at (a_base b) (ghost (sa a))) = true) ->
  G' b (s, lift mu1).
Proof.
  intros HG HM H. apply (G_mem_change _ _ (lift mu)); auto. intros t i v M.
  destruct (lift_change _ _ _ HM t i v M) as [E|(-> & _)]; auto. right.
  destruct (la_at (a_la b) (sa a)) as [|k|] eqn:L; [left|right; eauto|left]; congruence.
Qed.

Lemma inv_top : inv a_top.
Proof.
  right. split; [|split].
  - intros a st F. discriminate.
  - intros a o sz _ _ N. unfold nt in N. simpl in N. discriminate.
  - intros a k L. simpl in L. discriminate.
Qed.

Lemma Ga_top c : Ga a_top c.
Proof.
  destruct c as [s mu]. apply (Ga_intro_tops a_top s s mu inv_top).
  - apply G_top.
  - intros x _. auto.
  - intros a o v _ _ _. right. intros (st & F & _). discriminate.
Qed.

(* static side conditions of the array operations (word-level assumption) *)
Definition szok (d : adom) (a : arr) (e : linexp) : Prop :=
  forall k, check_elem_size e (a_base (d_base d)) = Some k -> k = esz a.
Definition idxok (d : adom) (a : arr) (idx : linexp) : Prop :=
  forall n, isingleton (d_eval idx (a_base (d_base d))) = Some n -> aligned (esz a) n.

Lemma tracked_same_arr b' m g' a st st' o sz : am_find m a = Some st ->
  as_smashed st = false -> as_smashed st' = false ->
  (exists c, In c (as_map st') /\ c_off c = o /\ c_size c = sz) ->
  gh_has g' a o sz = true ->
  tracked_cell (mkD b' (am_set m a st') g') a o sz.
Proof.
  intros F S S' (c & I & E1 & E2) GH. exists (as_set st st'). cbn [d_arrs d_gh].
  rewrite am_find_set_same, F. destruct (as_set_nonsmashed st st' S S') as (X1 & X2 & X3).
  split; auto. split; auto. split; auto.
  destruct (X3 c I) as (c' & I' & F1 & F2). exists c'. split; auto. split; congruence.
Qed.

Lemma forgotten_cell a g cells c o sz : In c cells -> c_off c = o -> c_size c = sz ->
  gh_has g a o sz = true -> forgotten a g cells (cgv a o sz).
Proof. intros I <- <- H. exists c. split; [auto|split; [exact H|reflexivity]]. Qed.

Lemma smashed_ghost_top d a st o sz : Tidy d -> am_find (d_arrs d) a = Some st -> as_smashed st = true ->
  0 <= o -> 0 < sz -> is_top (e_at (a_base (d_base d)) (cgv a o sz)) = true.
Proof.
  intros T F S H1 H2. destruct (is_top_nt (a_base (d_base d)) (cgv a o sz)) as [Y|Y]; auto.
  destruct (Tidy_cell d a st o sz T F H1 H2 Y) as (S0 & _). congruence.
Qed.

Lemma Wf_as_set k st st' : wl k (as_map st) /\ live (as_map st) -> wl k (as_map st') /\ live (as_map st') ->
  wl k (as_map (as_set st st')) /\ live (as_map (as_set st st')).
Proof. intros H H'. destruct (as_set_cases st st') as [-> | ->]; auto. Qed.

Lemma om_mk_wf k m n : wl k m /\ live m -> aligned k n ->
  wl k (snd (om_mk m n k)) /\ live (snd (om_mk m n k)).
Proof.
  intros [WL LV] AL. split; intros c I; apply in_om_mk in I; destruct I as [I| ->]; auto.
Qed.

(* a cell gets a ghost variable: array_store and array_load at a constant index *)
Lemma new_cell_inv d1 a st n x e :
  Wf d1 -> Tidy d1 -> Usum d1 -> am_find (d_arrs d1) a = Some st -> as_smashed st = false ->
  aligned (esz a) n -> x = cgv a n (esz a) \/ is_pv x ->
  inv (set_arr d1 a (mkS false (as_esz st) (snd (om_mk (as_map st) n (esz a))))
               (s_assign x e (d_base d1)) (gh_insert (d_gh d1) a n (esz a))).
Proof.
  intros W T U F S AL HX. unfold set_arr.
  set (st' := mkS false (as_esz st) (snd (om_mk (as_map st) n (esz a)))).
  apply (inv_update_supp (eq x) (fun _ => False) d1 a (Some st) st'); cbn [set_state]; auto.
  - apply Wf_as_set; [|apply om_mk_wf; auto]; apply (W a st F).
  - intros a0 N o sz. rewrite gh_has_insert. split; auto. intros [(E & _)|H]; [congruence|auto].
  - apply supp_assign; auto.
  - intros a0 o sz H1 H2 _ _ [E|[-> N]].
    + destruct HX as [->|P]; [|subst x; elim (cgv_not_pv _ _ _ P)].
      apply cgv_inj in E; [|apply (aligned_nonneg _ _ AL)|pose proof (esz_pos a); lia|lia|lia].
      destruct E as (<- & <- & <-). apply (tracked_same_arr _ _ _ a st st'); auto.
      * apply in_om_mk_new.
      * apply gh_has_insert. auto.
    + destruct (Tidy_cell d1 a st o sz T F H1 H2 N) as (_ & GH & c & I & E).
      apply (tracked_same_arr _ _ _ a st st'); auto.
      * exists c. split; auto. apply in_om_mk_old. auto.
      * apply gh_has_insert. auto.
  - intros a0 [E|[]].
    destruct HX as [->|P]; [elim (ghost_neq_cgv _ _ _ _ (eq_sym E))|elim (ghost_neq_pv _ _ P E)].
Qed.

Lemma cgv_cell_neq a o a' o' : aligned (esz a) o -> aligned (esz a') o' -> (a <> a' \/ o <> o') ->
  cgv a o (esz a) <> cgv a' o' (esz a').
Proof.
  intros [H1 _] [H2 _] N E. pose proof (esz_pos a). pose proof (esz_pos a').
  apply cgv_inj in E; [destruct E as (E1 & E2 & _); tauto|lia|lia|lia|lia].
Qed.

Lemma cells_in_other s' mu g v : cells_in s' mu ->
  (forall a o, aligned (esz a) o -> g <> cgv a o (esz a)) -> cells_in (upd s' g v) mu.
Proof. intros C H a o w AL O M. rewrite upd_other by (apply not_eq_sym; apply H; auto). eapply C; eauto. Qed.

Lemma const_store_Ga d1 a st n val s mu mu1 :
  Usum d1 -> am_find (d_arrs d1) a = Some st -> as_smashed st = false ->
  aligned (esz a) n -> le_pv val ->
  Ga d1 (s, mu) ->
  same_mem_but a mu1 mu ->
  (forall i, mu1 a i = if i =? n then Some (eval_le val s) else mu a i) ->
  forall m' g',
  Ga (mkD (s_assign (cgv a n (esz a)) val (d_base d1)) m' g') (s, mu1).
Proof.
  intros U F S AL PV (s' & HG & AP & C) HM HA m' g'. cbn [fst snd] in *.
  set (g := cgv a n (esz a)). set (b' := s_assign g val (d_base d1)).
  assert (G1 : G' b' (upd s' g (eval_le val s), lift mu)).
  { rewrite <- (eval_le_agree_pv val s' s) by auto.
    apply s_assign_sound; auto. apply cgv_prog. apply le_pv_prog; auto. }
  apply (Ga_write (mkD b' m' g') a n (eval_le val s) s (upd s' g (eval_le val s)) mu); auto.
  - (* nothing is claimed about the summarised variable of an array that is not smashed *)
    apply (G_unsummarised _ _ mu _ a); auto. intros k L.
    apply (supp_top (eq g) (fun _ => False) (d_base d1) b');
      [apply supp_assign; auto|apply (G_base_not_bot _ _ G1)|apply not_eq_sym; apply ghost_neq_cgv|].
    exact (Usum_top d1 a st k U F S L).
  - intros x P. rewrite upd_other by (apply pv_not_cgv; auto). auto.
  - intros a0 o w N AL0 O M. rewrite upd_other; [eapply C; eauto|]. apply cgv_cell_neq; auto.
  - left. apply upd_same.
Qed.

(* smashing: the cells are stored one after the other into a summarised variable *)

Lemma check_elem_size_genv e b w k : check_elem_size e b = Some k -> genv b w -> eval_le e w = k.
Proof.
  unfold check_elem_size. destruct (isingleton (d_eval e b)) as [n|] eqn:E; [|discriminate].
  destruct (_ && _); intros H; inversion H; subst. intros G0.
  apply (isingleton_spec _ _ E). apply d_eval_sound; auto.
Qed.

Lemma upd_upd_same (w : store) x z z' : forall y, upd (upd w x z) x z' y = upd w x z' y.
Proof. intros y. unfold upd. destruct (N.eqb y x); auto. Qed.
Lemma upd_id (w : store) x : forall y, upd w x (w x) y = w y.
Proof. intros y. unfold upd. destruct (N.eqb_spec y x); subst; auto. Qed.

Section SmashLoop.
Variable t : arr.
Variable ez : linexp.
Variable a : arr.
Variable g : gmap_t.
Variable k : Z.
Hypothesis ez_noghost : forall c v, In (c, v) (le_terms ez) -> v <> ghost t.

Lemma smash_loop_spec : forall cells first b nog b1 w0,
  genv (a_base b) w0 -> eval_le ez w0 = k -> a_la b <> LBot ->
  (first = false -> la_at (a_la b) t = BConst k) ->
  smash_loop t ez a g first cells b = Some (nog, b1) ->
  (forall w, genv (a_base b) w -> exists z, genv (a_base b1) (upd w (ghost t) z)) /\
  (nog = false -> forall c, In c cells ->
     forall w, genv (a_base b) w -> genv (a_base b1) (upd w (ghost t) (w (cgc a c)))) /\
  (first = false -> forall w, genv (a_base b) w -> genv (a_base b1) w) /\
  a_la b1 <> LBot /\
  (forall k0, la_at (a_la b1) t = BConst k0 -> k0 = k \/ la_at (a_la b) t = BConst k0).
Proof.
  assert (ID : forall e w, genv e w -> exists z, genv e (upd w (ghost t) z)).
  { intros e w Gw. exists (w (ghost t)). eapply genv_ext; [|exact Gw]. intros y. symmetry. apply upd_id. }
  induction cells as [|c r IH]; intros first b nog b1 w0 G0 E0 NL FL H.
  - simpl in H. inversion H; subst. split; [|split; [|split; [|split]]]; auto. intros _ c0 [].
  - cbn [smash_loop] in H. destruct (gh_hasc g a c) eqn:GH.
    2:{ inversion H; subst. split; [|split; [|split; [|split]]]; auto; discriminate. }
    destruct (s_array_store t ez (le_var (cgc a c)) first b) as [b'|] eqn:ST; [|discriminate].
    cbn [obind] in H.
    unfold s_array_store in ST. destruct (check_elem_size ez (a_base b)) as [k'|] eqn:CK; [|discriminate].
    assert (k' = k) by (rewrite <- E0; symmetry; eapply check_elem_size_genv; eauto). subst k'.
    assert (EQ : equal_size (if first then la_set (a_la b) t k else a_la b) t k = true).
    { apply equal_size_spec. destruct first; [|auto]. rewrite la_at_set by auto. rewrite N.eqb_refl. auto. }
    rewrite EQ in ST. inversion ST; subst b'; clear ST.
    set (l' := if first then la_set (a_la b) t k else a_la b) in *.
    set (e' := if first then d_assign (ghost t) (le_var (cgc a c)) (a_base b)
               else d_weak_assign (ghost t) (le_var (cgc a c)) (a_base b)) in *.
    assert (STEP : forall w, genv (a_base b) w -> genv e' (upd w (ghost t) (w (cgc a c)))).
    { intros w Gw. unfold e'. destruct first.
      - pose proof (d_assign_sound (ghost t) (le_var (cgc a c)) _ _ Gw) as X. rewrite eval_le_var in X. exact X.
      - pose proof (proj2 (d_weak_assign_sound (ghost t) (le_var (cgc a c)) _ _ Gw)) as X.
        rewrite eval_le_var in X. exact X. }
    assert (KEEP : first = false -> forall w, genv (a_base b) w -> genv e' w).
    { intros -> w Gw. unfold e'. apply (proj1 (d_weak_assign_sound (ghost t) (le_var (cgc a c)) _ _ Gw)). }
    assert (NL' : l' <> LBot) by (unfold l'; destruct first; auto; apply la_set_not_bot; auto).
    assert (LT : la_at l' t = BConst k).
    { unfold l'. destruct first; auto. rewrite la_at_set by auto. rewrite N.eqb_refl. auto. }
    specialize (IH false (mkA l' e') nog b1 (upd w0 (ghost t) (w0 (cgc a c)))).
    cbn [a_base a_la] in IH.
    destruct IH as (A1 & B1 & K1 & C3 & C4); auto.
    { rewrite eval_le_upd_notin; auto. }
    split; [|split; [|split; [|split]]]; auto.
    + intros w Gw. destruct (A1 _ (STEP w Gw)) as (z & Gz). exists z.
      eapply genv_ext; [|exact Gz]. intros y. apply upd_upd_same.
    + intros NOG c0 [<-|I0] w Gw; [apply K1; auto|].
      pose proof (B1 NOG c0 I0 _ (STEP w Gw)) as X.
      rewrite upd_other in X by (apply not_eq_sym; apply ghost_neq_cgv).
      eapply genv_ext; [|exact X]. intros y. apply upd_upd_same.
    + intros k0 L0. destruct (C4 k0 L0) as [X|X]; auto. rewrite LT in X. inversion X. auto.
Qed.

End SmashLoop.

(* symbolic index: the cells that may be written are all returned *)
Lemma largest_in : forall cs acc r, largest cs acc = Some r -> In r cs \/ acc = Some r.
Proof.
  induction cs as [|c t IH]; simpl; intros acc r H; auto.
  apply IH in H. destruct H as [H|H]; auto.
  destruct acc as [l|]; [destruct (cell_ltb l c)|]; inversion H; subst; auto.
Qed.
Lemma largest_some : forall cs acc, cs <> [] \/ acc <> None -> largest cs acc <> None.
Proof.
  induction cs as [|c t IH]; simpl; intros acc H.
  - destruct H as [H|H]; [congruence|auto].
  - apply IH. right. destruct acc as [l|]; [destruct (cell_ltb l c)|]; discriminate.
Qed.

Lemma sym_kill_complete m slb sub dom k c w :
  (forall d, In d m -> c_size d = k /\ c_rem d = false) -> 0 < k -> wf_le slb -> wf_le sub ->
  In c m -> genv dom w -> eval_le sub w = eval_le slb w + k - 1 ->
  ranges_meet (c_off c) k (eval_le slb w) k ->
  In c (om_get_overlap_sym m slb sub dom).
Proof.
  intros SZ K W1 W2 I Gw E M. unfold om_get_overlap_sym. apply in_flat_map.
  exists (c_off c). split.
  - unfold om_offsets. apply in_dedup. apply in_map. auto.
  - assert (IG : In c (om_group m (c_off c))).
    { unfold om_group. apply filter_In. split; auto. apply Z.eqb_refl. }
    destruct (largest (om_group m (c_off c)) None) as [l|] eqn:L.
    + apply largest_in in L. destruct L as [L|L]; [|discriminate].
      unfold om_group in L. apply filter_In in L. destruct L as [Il El]. apply Z.eqb_eq in El.
      destruct (SZ l Il) as [S1 R1].
      rewrite (c_sym_overlap_complete slb sub dom l w k); auto. rewrite El. auto.
    + exfalso. revert L. apply largest_some. left. intros X. rewrite X in IG. destruct IG.
Qed.

(* array_store, index not constant (or too many cells), no smashing *)
Definition sym_cells (st : astate) (idx : linexp) (k : Z) (b : ast) : list cell :=
  om_get_overlap_sym (as_map st) idx (le_addc idx (k - 1)) (a_base b).

Lemma kill_store_inv d1 a st cells :
  Wf d1 -> Tidy d1 -> Usum d1 -> am_find (d_arrs d1) a = Some st -> as_smashed st = false ->
  (forall c, In c cells -> In c (as_map st)) ->
  inv (set_arr d1 a (mkS false (as_esz st) (kill_cells p cells (as_map st)))
               (forget_ghosts a (d_gh d1) cells (d_base d1))
               (if p_smashable p then d_gh d1 else erase_ghosts a cells (d_gh d1))).
Proof.
  intros W T U F S SUB. unfold set_arr.
  set (st' := mkS false (as_esz st) (kill_cells p cells (as_map st))).
  destruct (W a st F) as [WL LV].
  apply (inv_update_supp (fun _ => False) (fun _ => False) d1 a (Some st) st'); cbn [set_state]; auto.
  - destruct (p_smashable p) eqn:SM.
    + unfold st'. rewrite kill_smashable_keeps; auto.
    + apply Wf_as_set; auto.
      split; intros c I; apply kill_cells_sub in I; auto; [apply WL|apply LV]; tauto.
  - intros a0 N o sz. destruct (p_smashable p); [tauto|]. rewrite gh_has_erase_ghosts.
    split; [tauto|]. intros H. split; auto. intros (E & _). congruence.
  - apply supp_forget_ghosts.
  - intros a0 o sz H1 H2 NB N [[]|[-> N0]].
    destruct (Tidy_cell d1 a st o sz T F H1 H2 N0) as (_ & GH & c & I & E1 & E2).
    apply forget_ghosts_nt in N; auto. destruct N as [_ NF].
    (* the cell is not among the killed ones: its ghost variable would have been forgotten *)
    assert (NK : forall c', In c' cells -> cell_eqb c c' = false).
    { intros c' I'. destruct (cell_eqb c c') eqn:Q; auto. exfalso. apply cell_eqb_spec in Q.
      destruct Q as [Q1 Q2]. apply NF. apply (forgotten_cell a _ cells c'); auto; congruence. }
    apply (tracked_same_arr _ _ _ a st st'); auto.
    + unfold st'. cbn [as_map]. destruct (p_smashable p) eqn:SM.
      * unfold kill_cells. rewrite SM. destruct (fold_remove_keys_rev cells _ c I) as (x & Ix & X1 & X2).
        exists x. split; auto. split; congruence.
      * exists c. split; auto. apply kill_cells_keep; auto.
    + destruct (p_smashable p); auto. apply gh_has_erase_ghosts. split; auto.
      intros (_ & c' & I' & Q1 & Q2). specialize (NK c' I').
      assert (X : cell_eqb c c' = true) by (apply cell_eqb_spec; split; congruence). congruence.
  - intros a0 [[]|[]].
Qed.

(* after the kill the ghost of every cell that the store may write is unconstrained *)
Lemma kill_store_top d1 a st idx w :
  Wf d1 -> Tidy d1 -> am_find (d_arrs d1) a = Some st -> as_smashed st = false ->
  wf_le idx -> genv (a_base (d_base d1)) w -> aligned (esz a) (eval_le idx w) ->
  is_top (e_at (a_base (forget_ghosts a (d_gh d1) (sym_cells st idx (esz a) (d_base d1)) (d_base d1)))
               (cgv a (eval_le idx w) (esz a))) = true.
Proof.
  intros W T F S WI Gw AL. set (i := eval_le idx w). set (k := esz a).
  set (cells := sym_cells st idx k (d_base d1)).
  destruct (is_top_nt (a_base (forget_ghosts a (d_gh d1) cells (d_base d1))) (cgv a i k)) as [Y|Y]; auto.
  exfalso. assert (K : 0 < k) by apply esz_pos.
  apply forget_ghosts_nt in Y.
  2:{ rewrite forget_ghosts_bot. intros E. rewrite E in Gw. exact Gw. }
  destruct Y as [N NF].
  destruct (Tidy_cell d1 a st i k T F (aligned_nonneg _ _ AL) K N) as (_ & GH & c & I & E1 & E2).
  destruct (W a st F) as [WL LV].
  apply NF. apply (forgotten_cell a _ cells c); auto. unfold cells, sym_cells.
  apply (sym_kill_complete (as_map st) idx (le_addc idx (k - 1)) (a_base (d_base d1)) k c w);
    [intros d0 I0; split; [apply (WL d0 I0)|apply (LV d0 I0)] | exact K | exact WI
    | apply wf_le_addc; exact WI | exact I | exact Gw | rewrite eval_le_addc; lia
    | rewrite E1; exists i; unfold i; lia].
Qed.

Lemma kill_store_Ga d1 a st idx val s mu mu1 m' g' :
  Wf d1 -> Tidy d1 -> Usum d1 -> am_find (d_arrs d1) a = Some st -> as_smashed st = false ->
  wf_le idx -> le_pv idx -> aligned (esz a) (eval_le idx s) ->
  Ga d1 (s, mu) -> same_mem_but a mu1 mu ->
  (forall i, mu1 a i = if i =? eval_le idx s then Some (eval_le val s) else mu a i) ->
  Ga (mkD (forget_ghosts a (d_gh d1) (sym_cells st idx (esz a) (d_base d1)) (d_base d1)) m' g') (s, mu1).
Proof.
  intros W T U F S WI PI AL (s' & HG & AP & C) HM HA. cbn [fst snd] in *.
  set (cells := sym_cells st idx (esz a) (d_base d1)).
  set (b1 := forget_ghosts a (d_gh d1) cells (d_base d1)).
  destruct (G_witness_eval _ _ _ _ idx HG AP PI) as (w & Gw & EW).
  assert (G1 : G' b1 (s', lift mu)).
  { apply (forget_ghosts_sound _ _ _ _ s'); auto. intros x N. elim N. auto. }
  apply (Ga_write (mkD b1 m' g') a (eval_le idx s) (eval_le val s) s s' mu); auto.
  - apply (G_unsummarised _ _ mu _ a); auto. intros k L. cbn [d_base] in L. unfold b1 in L. rewrite forget_ghosts_la in L.
    apply (supp_top (fun _ => False) (fun _ => False) (d_base d1) b1);
      [apply supp_forget_ghosts|apply (G_base_not_bot _ _ G1)|tauto|exact (Usum_top d1 a st k U F S L)].
  - right. cbn [d_base]. rewrite <- EW. apply kill_store_top; auto. rewrite EW. auto.
Qed.

(* the base value after operations that only touch one summarised variable *)
Lemma G_transfer st st2 s' mu mu2 t : G' st (s', mu) -> a_la st2 <> LBot ->
  (forall w, genv (a_base st) w -> exists z, genv (a_base st2) (upd w (ghost t) z)) ->
  (forall t' k, la_at (a_la st2) t' = BConst k -> t' = t \/ la_at (a_la st) t' = BConst k) ->
  same_mem_but t mu2 mu ->
  (forall k, la_at (a_la st2) t = BConst k ->
     k = esz' t /\ forall i v, cell_ok one' t i -> mu2 t i = Some v -> gamma (e_at (a_base st2) (ghost t)) v) ->
  G' st2 (s', mu2).
Proof.
  intros (L & S & (w & Gw & A) & C) L2 TR LA MU SUM. split; auto. split; [|split].
  - intros t' k H. destruct (N.eq_dec t' t) as [->|N]; [apply (proj1 (SUM k H))|].
    destruct (LA _ _ H); [congruence|eauto].
  - destruct (TR w Gw) as (z & Gz). exists (upd w (ghost t) z). split; auto.
    apply agree_upd_nonprog; auto. apply ghost_not_prog.
  - intros t' k i v H O M. cbn [snd] in *. destruct (N.eq_dec t' t) as [->|N]; [apply (proj2 (SUM k H) i v O M)|].
    destruct (LA _ _ H) as [?|H0]; [congruence|]. rewrite MU in M by auto.
    assert (G1 : genv (a_base st) (upd w (ghost t') v)) by (apply genv_upd; auto; eapply C; eauto).
    destruct (TR _ G1) as (z & Gz). pose proof (e_at_sound _ _ (ghost t') Gz) as X.
    rewrite upd_other in X by (intros E; apply ghost_inj in E; congruence). rewrite upd_same in X. exact X.
Qed.

(* the summary is dropped afterwards: the contents of the array may change *)
Lemma G_transfer_forget st st2 s' mu mu2 t : G' st (s', mu) -> a_la st2 <> LBot ->
  (forall w, genv (a_base st) w -> exists z, genv (a_base st2) (upd w (ghost t) z)) ->
  (forall t' k, la_at (a_la st2) t' = BConst k -> t' = t \/ la_at (a_la st) t' = BConst k) ->
  same_mem_but t mu2 mu ->
  G' (s_forget1 (VA t) st2) (s', mu2).
Proof.
  intros HG L2 TR LA MU. apply (G_transfer st _ s' mu _ t); auto.
  - simpl. destruct (la_at (a_la st2) t); simpl; auto. apply la_forget_not_bot; auto.
  - intros w1 G1. destruct (TR _ G1) as (z & Gz). exists z. simpl.
    destruct (la_at (a_la st2) t); simpl; auto.
    eapply genv_ext; [|apply (e_forget_sound _ _ (ghost t) z Gz)]. intros y. apply upd_upd_same.
  - intros t' k L. destruct (N.eq_dec t' t) as [->|N]; auto. rewrite s_forget1_VA_la in L by auto. auto.
  - intros k L. elim (s_forget1_VA_la_same _ _ _ L).
Qed.

(* smash_loop into the summarised variable of [t]: afterwards [t] may hold the values of the
   ghost variables of the cells, if every cell had one; nothing once the summary is dropped *)
Lemma smash_loop_sound t ez a g cells b nog b1 s' mu mu2 :
  G' b (s', mu) -> le_prog ez -> eval_le ez s' = esz' t -> same_mem_but t mu2 mu ->
  smash_loop t ez a g true cells b = Some (nog, b1) ->
  G' (s_forget1 (VA t) b1) (s', mu2) /\
  ((forall i v, cell_ok one' t i -> mu2 t i = Some v ->
      nog = false /\ exists c, In c cells /\ s' (cgc a c) = v) -> G' b1 (s', mu2)).
Proof.
  intros HG PE EZ HM LOOP. pose proof HG as (L0 & S0 & (w & Gw & Aw) & _). cbn [fst] in Aw.
  assert (EW : eval_le ez w = esz' t) by (rewrite (eval_le_agree ez w s'); auto).
  assert (NG : forall c v, In (c, v) (le_terms ez) -> v <> ghost t).
  { intros c v I. apply prog_not_ghost. eapply PE; eauto. }
  destruct (smash_loop_spec t ez a g (esz' t) NG cells true b nog b1 w Gw EW L0 ltac:(discriminate) LOOP)
    as (A1 & B1 & _ & C3 & C4).
  destruct (supp_smash_loop (eq (ghost t)) (eq t) _ _ _ _ _ _ _ _ _ LOOP eq_refl eq_refl) as (_ & _ & C1).
  assert (LA : forall t' k, la_at (a_la b1) t' = BConst k -> t' = t \/ la_at (a_la b) t' = BConst k).
  { intros t' k L. destruct (C1 t' k L); auto. }
  split; [apply (G_transfer_forget b _ s' mu); auto|].
  intros SUM. apply (G_transfer b _ s' mu _ t); auto. intros k0 L. split.
  - destruct (C4 k0 L) as [X|X]; auto.
  - intros i v O M. destruct (SUM i v O M) as (NOG & c & I & <-).
    pose proof (e_at_sound _ _ (ghost t) (B1 NOG c I w Gw)) as Y. rewrite upd_same in Y.
    rewrite (Aw (cgc a c)) in Y by apply cgv_prog. exact Y.
Qed.

Definition all_tracked (d : adom) (a : arr) (mu : amem) : Prop :=
  forall o v, aligned (esz a) o -> cell_ok onecell a o -> mu a o = Some v -> tracked_cell d a o (esz a).

(* then the ghost variables of the cells hold all the contents of the array *)
Lemma all_tracked_cells d a st s' mu : am_find (d_arrs d) a = Some st -> all_tracked d a mu -> cells_in s' mu ->
  forall i v, cell_ok one' (sa a) i -> lift mu (sa a) i = Some v -> exists c, In c (as_map st) /\ s' (cgc a c) = v.
Proof.
  intros F TR C i v O M. rewrite lift_sa in M. destruct (alignedb (esz a) i) eqn:AB; [|discriminate].
  apply alignedb_spec in AB. apply cell_ok_sa in O.
  destruct (TR i v AB O M) as (st0 & F0 & _ & (c & I & E1 & E2) & _). rewrite F in F0. inversion F0; subst st0.
  exists c. split; auto. unfold cgc. rewrite E1, E2. exact (C a i v AB O M).
Qed.

(* the array becomes smashed and its cells lose their ghost variables; whatever else was
   done concerned its summarised variable only *)
Lemma smashed_inv d1 a st eo b2 :
  Wf d1 -> Tidy d1 -> Usum d1 -> am_find (d_arrs d1) a = Some st -> as_smashed st = false ->
  supp (eq (ghost (sa a))) (eq (sa a)) (d_base d1) b2 ->
  inv (mkD (forget_ghosts a (d_gh d1) (as_map st) b2) (am_set (d_arrs d1) a (mkS true eo []))
           (erase_ghosts a (as_map st) (d_gh d1))).
Proof.
  intros W T U F S SP. set (st' := mkS true eo []).
  assert (AS : as_set st st' = st') by (apply as_set_smashed; rewrite S; discriminate).
  apply (inv_update_supp (eq (ghost (sa a))) (eq (sa a)) d1 a (Some st) st'); cbn [set_state]; auto.
  - rewrite AS. split; intros c [].
  - intros a0 N o sz. rewrite gh_has_erase_ghosts. split; [tauto|]. intros H. split; auto. intros (E & _). congruence.
  - eapply supp_trans; [exact SP|apply supp_forget_ghosts].
  - intros a0 o sz H1 H2 NB N [E|[-> N0]]; [elim (ghost_neq_cgv _ _ _ _ E)|]. exfalso.
    destruct (Tidy_cell d1 a st o sz T F H1 H2 N0) as (_ & GH & c & I & E1 & E2).
    apply forget_ghosts_nt in N; auto. destruct N as [_ NF]. apply NF. apply (forgotten_cell a _ _ c); auto.
  - intros a0 [E|E]; [apply ghost_inj in E|]; apply sa_inj in E; subst a0; rewrite AS; auto.
Qed.

Lemma smash_store_inv d1 a st ez val strong nb b2 :
  Wf d1 -> Tidy d1 -> Usum d1 -> am_find (d_arrs d1) a = Some st -> as_smashed st = false ->
  smash_loop (sa a) ez a (d_gh d1) true (as_map st) (d_base d1) = Some nb ->
  (if fst nb then Some (s_forget1 (VA (sa a)) (snd nb)) else s_array_store (sa a) ez val strong (snd nb)) = Some b2 ->
  inv (set_arr d1 a (mkS true (Some (esz a)) []) (forget_ghosts a (d_gh d1) (as_map st) b2)
               (erase_ghosts a (as_map st) (d_gh d1))).
Proof.
  intros W T U F S LOOP B2. destruct nb as [nog b1]. cbn [fst snd] in B2. unfold set_arr.
  apply smashed_inv; auto. apply supp_trans with b1; [eapply supp_smash_loop; eauto|].
  destruct nog; [|eapply supp_array_store; eauto].
  assert (b2 = s_forget1 (VA (sa a)) b1) as -> by congruence. apply supp_forget1.
Qed.

Lemma cells_nonempty_of_smash st k : smash_cond p st k = true -> as_map st <> [].
Proof.
  unfold smash_cond. intros H. apply andb_true_iff in H. destruct H as [H _].
  apply andb_true_iff in H. destruct H as [_ H]. apply can_be_smashed_spec in H. tauto.
Qed.

(* array_store of the base domain on the array [sa a] *)
Lemma sa_store_sound a ez idx val strong b b' s s' mu mu1 : G' b (s', lift mu) -> agree_pv s' s ->
  le_pv ez -> le_pv val -> eval_le ez s = esz a -> aligned (esz a) (eval_le idx s) ->
  (strong = true -> onecell a = Some (eval_le idx s)) -> same_mem_but a mu1 mu ->
  (forall i, mu1 a i = if i =? eval_le idx s then Some (eval_le val s) else mu a i) ->
  s_array_store (sa a) ez val strong b = Some b' -> G' b' (s', lift mu1).
Proof.
  intros HG AP PE PV SZ AL ST HM HA H.
  apply (s_array_store_sound esz' one' (sa a) ez (eval_le idx s) val strong b b' s' (lift mu) (lift mu1));
    auto using le_pv_prog, lift_same_but.
  - rewrite esz'_sa. rewrite (eval_le_agree_pv ez s' s); auto.
  - intros X. unfold one'. rewrite even_sa, div2_sa. auto.
  - rewrite (eval_le_agree_pv val s' s) by auto. apply lift_write; auto.
Qed.

Lemma smash_store_Ga d1 a st ez idx val strong nb b2 s mu mu1 :
  Wf d1 -> Tidy d1 -> Usum d1 -> am_find (d_arrs d1) a = Some st -> as_smashed st = false ->
  le_pv ez -> le_pv val -> eval_le ez s = esz a -> aligned (esz a) (eval_le idx s) ->
  (strong = true -> onecell a = Some (eval_le idx s)) ->
  Ga d1 (s, mu) -> all_tracked d1 a mu -> same_mem_but a mu1 mu ->
  (forall i, mu1 a i = if i =? eval_le idx s then Some (eval_le val s) else mu a i) ->
  smash_loop (sa a) ez a (d_gh d1) true (as_map st) (d_base d1) = Some nb ->
  (if fst nb then Some (s_forget1 (VA (sa a)) (snd nb)) else s_array_store (sa a) ez val strong (snd nb)) = Some b2 ->
  Ga (set_arr d1 a (mkS true (Some (esz a)) []) (forget_ghosts a (d_gh d1) (as_map st) b2)
              (erase_ghosts a (as_map st) (d_gh d1))) (s, mu1).
Proof.
  intros W T U F S PE PV SZ AL ST HGa TR HM HA LOOP B2.
  pose proof (smash_store_inv _ _ _ _ _ _ _ _ W T U F S LOOP B2) as INV.
  destruct HGa as (s' & HG & AP & C). destruct nb as [nog b1]. cbn [fst snd] in *.
  assert (EZ : eval_le ez s' = esz' (sa a)) by (rewrite esz'_sa, (eval_le_agree_pv ez s' s); auto).
  (* the base value after the final store / the removal of the summary *)
  assert (G2 : G' b2 (s', lift mu1)).
  { destruct nog.
    - assert (b2 = s_forget1 (VA (sa a)) b1) as -> by congruence.
      apply (smash_loop_sound _ _ _ _ _ _ _ _ _ _ _ HG (le_pv_prog _ PE) EZ (lift_same_but _ _ _ HM) LOOP).
    - apply (sa_store_sound a ez idx val strong b1 b2 s s' mu mu1); auto.
      (* every cell is tracked: the loop has stored its ghost variable into the summary *)
      apply (smash_loop_sound _ _ _ _ _ _ _ _ _ _ (lift mu) HG (le_pv_prog _ PE) EZ (fun _ _ _ => eq_refl) LOOP).
      intros i v O M. split; auto. apply (all_tracked_cells d1 a st s' mu F TR C i v O M). }
  set (d' := set_arr d1 a (mkS true (Some (esz a)) []) (forget_ghosts a (d_gh d1) (as_map st) b2)
                     (erase_ghosts a (as_map st) (d_gh d1))) in *.
  assert (G3 : G' (d_base d') (s', lift mu1)).
  { unfold d', set_arr. cbn [d_base]. apply (forget_ghosts_sound _ _ _ _ s'); auto. intros x N. elim N. auto. }
  apply (Ga_write d' a (eval_le idx s) (eval_le val s) s s' mu); auto.
  - right. destruct (inv_nonbottom _ INV (G_not_bottom _ _ _ _ G3)) as (_ & T' & _).
    apply (smashed_ghost_top d' a (mkS true (Some (esz a)) [])); auto.
    + unfold d', set_arr. cbn [d_arrs]. rewrite am_find_set_same, F.
      rewrite as_set_smashed by (rewrite S; discriminate). reflexivity.
    + apply (aligned_nonneg _ _ AL).
Qed.

Lemma with_base_same d : with_base d (d_base d) = d.
Proof. destruct d; reflexivity. Qed.

Lemma lookup_live d a st d1 : lookup d a = (st, d1) -> inv d -> a_is_bottom d = false ->
  Wf d1 /\ Tidy d1 /\ Usum d1 /\ am_find (d_arrs d1) a = Some st /\ d_base d1 = d_base d.
Proof.
  intros LK I B. destruct (lookup_spec _ _ _ _ LK) as (EB & _ & F & _).
  destruct (inv_nonbottom d1 (lookup_inv _ _ _ _ LK I)) as (W & T & U); auto.
  unfold a_is_bottom. rewrite EB. exact B.
Qed.

(* store_nonconst: all the cells are smashed, then the store goes into the summary, or the
   cells that may be written are killed *)
Lemma store_nonconst_cases a ez idx val strong k st d1 d' :
  store_nonconst p a ez idx val strong k st d1 = Some d' ->
  if smash_cond p st k then
    exists nb b2, smash_loop (sa a) ez a (d_gh d1) true (as_map st) (d_base d1) = Some nb /\
      (if fst nb then Some (s_forget1 (VA (sa a)) (snd nb)) else s_array_store (sa a) ez val strong (snd nb))
      = Some b2 /\
      d' = set_arr d1 a (mkS true (Some k) []) (forget_ghosts a (d_gh d1) (as_map st) b2)
                   (erase_ghosts a (as_map st) (d_gh d1))
  else d' = set_arr d1 a (mkS false (as_esz st) (kill_cells p (sym_cells st idx k (d_base d1)) (as_map st)))
                    (forget_ghosts a (d_gh d1) (sym_cells st idx k (d_base d1)) (d_base d1))
                    (if p_smashable p then d_gh d1 else erase_ghosts a (sym_cells st idx k (d_base d1)) (d_gh d1)).
Proof.
  unfold store_nonconst. destruct (smash_cond p st k).
  - destruct (smash_loop _ _ _ _ _ _ _) as [nb|]; [|discriminate]. cbn [obind].
    destruct (if fst nb then _ else _) as [b2|] eqn:B2; [|discriminate]. cbn [obind]. intros [= <-].
    exists nb, b2. auto.
  - rewrite kill_eq. intros [= <-]. reflexivity.
Qed.

(* an operation of the base domain on the summarised variable of a smashed array *)
Lemma smashed_op_inv d1 a st b' : Wf d1 -> Tidy d1 -> Usum d1 ->
  am_find (d_arrs d1) a = Some st -> as_smashed st = true ->
  supp (eq (ghost (sa a))) (eq (sa a)) (d_base d1) b' -> inv (with_base d1 b').
Proof.
  intros W T U F S SP. apply (inv_supp _ _ d1 b' W T U SP).
  - intros a0 o sz E. elim (ghost_neq_cgv _ _ _ _ E).
  - intros a0 k _ [E|E]; [apply ghost_inj in E|]; apply sa_inj in E; subst a0; eauto.
Qed.

Lemma Ga_szok d s mu a ez : Ga d (s, mu) -> le_pv ez -> eval_le ez s = esz a -> szok d a ez.
Proof. intros (s' & G0 & AP & _) PE SZ k CK. rewrite <- SZ. symmetry. eapply G_check; eauto. Qed.
Lemma Ga_singleton d s mu e n : Ga d (s, mu) -> le_pv e ->
  isingleton (d_eval e (a_base (d_base d))) = Some n -> eval_le e s = n.
Proof. intros (s' & G0 & AP & _). exact (G_singleton _ _ _ _ _ _ G0 AP). Qed.
Lemma Ga_idxok d s mu a idx : Ga d (s, mu) -> le_pv idx -> aligned (esz a) (eval_le idx s) -> idxok d a idx.
Proof. intros HG PI AL n SG. rewrite <- (Ga_singleton _ _ _ _ _ HG PI SG). exact AL. Qed.

(* the paths of array_store on a value that is not bottom, the state of the array looked up:
   the summary of a smashed array is written or forgotten; a cell is written (a constant index
   and room for a cell: no other cell overlaps an aligned one); store_nonconst *)
Lemma store_cases a ez idx val strong d d' st d1 :
  a_is_bottom d = false -> szok d a ez -> idxok d a idx -> lookup d a = (st, d1) -> wl (esz a) (as_map st) ->
  a_array_store p a ez idx val strong d = Some d' ->
  if as_smashed st then
    exists b', d' = with_base d1 b' /\
      (s_array_store (sa a) ez val strong (d_base d1) = Some b' \/ b' = s_forget1 (VA (sa a)) (d_base d1))
  else
    (exists n, isingleton (d_eval idx (a_base (d_base d1))) = Some n /\ aligned (esz a) n /\
       Z.of_nat (length (as_map st)) < p_max_size p /\
       d' = set_arr d1 a (mkS false (as_esz st) (snd (om_mk (as_map st) n (esz a))))
                    (s_assign (cgv a n (esz a)) val (d_base d1)) (gh_insert (d_gh d1) a n (esz a))) \/
    ((forall n, isingleton (d_eval idx (a_base (d_base d1))) = Some n ->
                p_max_size p <= Z.of_nat (length (as_map st))) /\
     store_nonconst p a ez idx val strong (esz a) st d1 = Some d').
Proof.
  intros B SZ IX LK WL H. unfold a_array_store in H. rewrite B in H.
  destruct (check_elem_size ez (a_base (d_base d))) as [k|] eqn:CK; [|discriminate]. cbn [obind] in H.
  rewrite (SZ k CK), LK in H. unfold idxok in IX. rewrite <- (proj1 (lookup_spec _ _ _ _ LK)) in IX.
  destruct (as_smashed st).
  - destruct (size_consistent st (esz a)); [|injection H as <-; eauto].
    destruct (s_array_store (sa a) ez val strong (d_base d1)) as [b'|]; [|discriminate]. injection H as <-. eauto.
  - destruct (isingleton (d_eval idx (a_base (d_base d1)))) as [n|]; [|right; split; [discriminate|exact H]].
    destruct (Z.ltb_spec (Z.of_nat (length (as_map st))) (p_max_size p)) as [LT|GE].
    + left. exists n. specialize (IX n eq_refl).
      rewrite (wl_no_overlap (esz a) (as_map st) n (esz_pos a) WL IX) in H. cbn [kill] in H.
      injection H as <-. auto.
    + right. split; [intros n0 E0; exact GE|exact H].
Qed.

Lemma store_inv a ez idx val strong d d' : inv d -> szok d a ez -> idxok d a idx ->
  a_array_store p a ez idx val strong d = Some d' -> inv d'.
Proof.
  intros I SZ IX H. destruct (a_is_bottom d) eqn:B; [unfold a_array_store in H; rewrite B in H; inversion H; subst; auto|].
  destruct (lookup d a) as [st d1] eqn:LK.
  destruct (lookup_live _ _ _ _ LK I B) as (W & T & U & F & EB).
  pose proof (store_cases _ _ _ _ _ _ _ _ _ B SZ IX LK (proj1 (W a st F)) H) as CS.
  destruct (as_smashed st) eqn:S.
  - destruct CS as (b' & -> & SB). eapply smashed_op_inv; eauto.
    destruct SB as [ST| ->]; [eapply supp_array_store; eauto|apply supp_forget1].
  - destruct CS as [(n & SG & AL & LT & ->)|[NC H2]]; [apply new_cell_inv; auto|].
    apply store_nonconst_cases in H2. destruct (smash_cond p st (esz a)).
    + destruct H2 as (nb & b2 & LOOP & B2 & ->). eapply smash_store_inv; eauto.
    + subst d'. apply kill_store_inv; auto. intros c J. eapply in_sym_in; eauto.
Qed.

Lemma all_tracked_lookup d a st d1 a0 mu : lookup d a = (st, d1) ->
  all_tracked d a0 mu -> all_tracked d1 a0 mu.
Proof. intros LK H o v AL O M. apply (tracked_lookup _ _ _ _ a0 o (esz a0) LK). eauto. Qed.

(* the hypothesis of a store that may smash the array (smashable setting, array not smashed,
   index not a constant or max_array_size cells already): every defined cell is tracked *)
Definition tracked_for_store (d : adom) (a : arr) (idx : linexp) (mu : amem) : Prop :=
  forall st, am_find (d_arrs d) a = Some st -> as_smashed st = false ->
    (forall n, isingleton (d_eval idx (a_base (d_base d))) = Some n ->
               p_max_size p <= Z.of_nat (length (as_map st))) ->
    p_smashable p = true -> all_tracked d a mu.

Lemma store_Ga a ez idx val strong d d' s mu mu1 : inv d ->
  le_pv ez -> le_pv idx -> wf_le idx -> le_pv val -> eval_le ez s = esz a -> aligned (esz a) (eval_le idx s) ->
  (strong = true -> onecell a = Some (eval_le idx s)) ->
  Ga d (s, mu) -> tracked_for_store d a idx mu -> same_mem_but a mu1 mu ->
  (forall i, mu1 a i = if i =? eval_le idx s then Some (eval_le val s) else mu a i) ->
  a_array_store p a ez idx val strong d = Some d' -> Ga d' (s, mu1).
Proof.
  intros I PE PI WI PV SZ AL STR HG TR HM HA H. pose proof (Ga_not_bottom _ _ HG) as B.
  destruct (lookup d a) as [st d1] eqn:LK.
  pose proof (lookup_Ga _ _ _ _ _ LK HG) as HG1.
  destruct (lookup_live _ _ _ _ LK I B) as (W & T & U & F & EB).
  pose proof (store_cases _ _ _ _ _ _ _ _ _ B (Ga_szok _ _ _ _ _ HG PE SZ) (Ga_idxok _ _ _ _ _ HG PI AL) LK
                (proj1 (W a st F)) H) as CS.
  destruct (as_smashed st) eqn:S.
  - (* smashed: every ghost variable of the array is unconstrained *)
    destruct CS as (b' & -> & SB). destruct HG1 as (s' & G0 & AP & C). cbn [fst snd] in *.
    assert (FIN : G' b' (s', lift mu1) -> supp (eq (ghost (sa a))) (eq (sa a)) (d_base d1) b' ->
              Ga (with_base d1 b') (s, mu1)).
    { intros G1 SP. apply (Ga_write _ a (eval_le idx s) (eval_le val s) s s' mu); auto.
      right. apply (supp_top _ _ _ _ _ SP); [apply (G_base_not_bot _ _ G1)|apply ghost_neq_cgv|].
      apply (smashed_ghost_top d1 a st); auto. apply (aligned_nonneg _ _ AL). }
    destruct SB as [ST| ->]; apply FIN.
    + apply (sa_store_sound a ez idx val strong (d_base d1) b' s s' mu mu1); auto.
    + eapply supp_array_store; eauto.
    + apply (s_forget1_sound esz' one' (VA (sa a)) (d_base d1) s' (lift mu)); simpl; auto.
      intros t' i0 N. apply (lift_same_but a mu1 mu HM). congruence.
    + apply supp_forget1.
  - destruct CS as [(n & SG & _ & LT & ->)|[NC H2]].
    + assert (EN : eval_le idx s = n) by (destruct HG1 as (s' & G0 & AP & _); eapply G_singleton; eauto).
      subst n. unfold set_arr. apply (const_store_Ga d1 a st (eval_le idx s) val s mu mu1); auto.
    + apply store_nonconst_cases in H2. destruct (smash_cond p st (esz a)) eqn:SC.
      2:{ subst d'. apply (kill_store_Ga d1 a st idx val s mu mu1); auto. }
      destruct H2 as (nb & b2 & LOOP & B2 & ->).
      refine (smash_store_Ga d1 a st ez idx val strong nb b2 s mu mu1 W T U F S PE PV SZ AL STR HG1 _ HM HA LOOP B2).
      (* the hypothesis on tracked cells, for the state that was looked up *)
      destruct (lookup_spec _ _ _ _ LK) as (_ & _ & _ & _ & [FD|[FD ->]]).
      * apply (all_tracked_lookup _ _ _ _ _ _ LK). apply (TR st); auto.
        -- rewrite <- EB. exact NC.
        -- unfold smash_cond in SC. destruct (p_smashable p); auto.
      * apply cells_nonempty_of_smash in SC. simpl in SC. congruence.
Qed.

(* the paths of array_load on a value that is not bottom: [lhs] is forgotten; it gets the summary
   of a smashed array; it gets the ghost variable of a cell (constant index); the cells that may
   be read are smashed into the temporary array [ta a], from which [lhs] is read *)
Lemma load_cases lhs a ez idx d d' st d1 :
  a_is_bottom d = false -> szok d a ez -> idxok d a idx -> lookup d a = (st, d1) -> wl (esz a) (as_map st) ->
  a_array_load p lhs a ez idx d = Some d' ->
  d' = with_base d1 (s_forget1 (VS lhs) (d_base d1)) \/
  (as_smashed st = true /\ exists b', s_array_load lhs (sa a) ez (d_base d1) = Some b' /\ d' = with_base d1 b') \/
  (as_smashed st = false /\ exists n, isingleton (d_eval idx (a_base (d_base d1))) = Some n /\
     d' = set_arr d1 a (mkS false (as_esz st) (snd (om_mk (as_map st) n (esz a))))
                  (s_assign lhs (le_var (cgv a n (esz a))) (d_base d1)) (gh_insert (d_gh d1) a n (esz a))) \/
  (as_smashed st = false /\
   covers_all_offsets (sym_cells st idx (esz a) (d_base d1)) (d_eval idx (a_base (d_base d1))) (esz a) = true /\
   exists nog b1 b2,
     smash_loop (ta a) ez a (d_gh d1) true (sym_cells st idx (esz a) (d_base d1)) (d_base d1) = Some (nog, b1) /\
     (if nog then Some (s_forget1 (VS lhs) b1) else s_array_load lhs (ta a) ez b1) = Some b2 /\
     d' = with_base d1 (s_forget1 (VA (ta a)) b2)).
Proof.
  intros B SZ IX LK WL H. unfold a_array_load in H. rewrite B in H.
  destruct (check_elem_size ez (a_base (d_base d))) as [k|] eqn:CK; [|discriminate]. cbn [obind] in H.
  rewrite (SZ k CK), LK in H. unfold idxok in IX. rewrite <- (proj1 (lookup_spec _ _ _ _ LK)) in IX.
  destruct (as_smashed st).
  - destruct (size_consistent st (esz a)); [|left; congruence].
    destruct (s_array_load lhs (sa a) ez (d_base d1)) as [b'|]; [|discriminate]. injection H as <-.
    right. left. split; auto. exists b'. auto.
  - destruct (isingleton (d_eval idx (a_base (d_base d1)))) as [n|].
    + rewrite (wl_no_overlap (esz a) (as_map st) n (esz_pos a) WL (IX n eq_refl)) in H. injection H as <-.
      right. right. left. split; auto. exists n. auto.
    + fold (sym_cells st idx (esz a) (d_base d1)) in H. destruct (_ && _) eqn:COND; [|left; congruence].
      apply andb_true_iff in COND. destruct COND as [_ COV].
      destruct (smash_loop _ _ _ _ _ _ _) as [[nog b1]|]; [|discriminate]. cbn [obind fst snd] in H.
      destruct (if nog then _ else _) as [b2|] eqn:B2; [|discriminate]. cbn [obind] in H. injection H as <-.
      right. right. right. split; auto. split; auto. exists nog, b1, b2. auto.
Qed.

Lemma load_inv lhs a ez idx d d' : inv d -> is_pv lhs -> szok d a ez -> idxok d a idx ->
  a_array_load p lhs a ez idx d = Some d' -> inv d'.
Proof.
  intros I PL SZ IX H. destruct (a_is_bottom d) eqn:B; [unfold a_array_load in H; rewrite B in H; inversion H; subst; auto|].
  destruct (lookup d a) as [st d1] eqn:LK.
  destruct (lookup_live _ _ _ _ LK I B) as (W & T & U & F & EB).
  (* apart from the constant index, only [lhs] and the temporary array are concerned *)
  assert (SP : forall b', supp (fun y => y = lhs \/ y = ghost (ta a)) (eq (ta a)) (d_base d1) b' ->
             inv (with_base d1 b')).
  { intros b' SP. apply (inv_supp _ _ d1 b' W T U SP).
    - intros a0 o sz [E|E]; [elim (pv_not_cgv _ _ _ _ PL (eq_sym E))|elim (ghost_neq_cgv _ _ _ _ (eq_sym E))].
    - intros a0 k _ [[E|E]|E]; exfalso.
      + elim (ghost_neq_pv _ _ PL (eq_sym E)).
      + apply ghost_inj in E. elim (sa_not_ta _ _ E).
      + elim (sa_not_ta _ _ (eq_sym E)). }
  destruct (load_cases _ _ _ _ _ _ _ _ B SZ IX LK (proj1 (W a st F)) H)
    as [->|[(S & b' & LD & ->)|[(S & n & SG & ->)|(S & _ & nog & b1 & b2 & LOOP & B2 & ->)]]].
  - apply SP. apply supp_forget1.
  - apply SP. eapply supp_array_load; eauto.
  - apply new_cell_inv; auto. apply IX. rewrite <- EB. exact SG.
  - apply SP. apply supp_trans with b2; [apply supp_trans with b1|apply supp_forget1].
    + eapply supp_smash_loop; eauto.
    + destruct nog; [|eapply supp_array_load; eauto].
      assert (b2 = s_forget1 (VS lhs) b1) as -> by congruence. apply supp_forget1.
Qed.

Lemma load_Ga lhs a ez idx d d' s mu v : inv d -> is_pv lhs ->
  le_pv ez -> le_pv idx -> wf_le idx -> eval_le ez s = esz a ->
  aligned (esz a) (eval_le idx s) -> cell_ok onecell a (eval_le idx s) -> mu a (eval_le idx s) = Some v ->
  Ga d (s, mu) -> a_array_load p lhs a ez idx d = Some d' -> Ga d' (upd s lhs v, mu).
Proof.
  intros I PL PE PI WI SZ AL OK MV HG H. pose proof (Ga_not_bottom _ _ HG) as B.
  destruct (lookup d a) as [st d1] eqn:LK.
  destruct (lookup_live _ _ _ _ LK I B) as (W & T & U & F & EB). destruct (W a st F) as [WL _].
  destruct (lookup_Ga _ _ _ _ _ LK HG) as (s' & G0 & AP & C). cbn [fst snd] in *.
  set (i := eval_le idx s) in *.
  assert (FIN : forall b' m' g', G' b' (upd s' lhs v, lift mu) -> Ga (mkD b' m' g') (upd s lhs v, mu)).
  { intros b' m' g' G1. exists (upd s' lhs v). cbn [d_base fst snd]. split; auto. split.
    - apply agree_pv_upd; auto.
    - intros a0 o w0 AL0 O M. rewrite upd_other by (apply not_eq_sym, pv_not_cgv; auto). eapply C; eauto. }
  assert (FG : forall b mu', G' b (s', mu') -> G' (s_forget1 (VS lhs) b) (upd s' lhs v, mu')).
  { intros b mu' Gb. apply (s_forget1_sound esz' one' (VS lhs) b s' mu'); simpl; auto.
    - apply pv_prog; auto.
    - intros x N. apply upd_other. congruence. }
  (* reading the cell [i] of an array [t] of the base value *)
  assert (LD : forall t b b' mu', s_array_load lhs t ez b = Some b' -> G' b (s', mu') -> esz' t = esz a ->
            cell_ok one' t i -> mu' t i = Some v -> G' b' (upd s' lhs v, mu')).
  { intros t b b' mu' E Gb ET O M.
    apply (s_array_load_sound esz' one' lhs t ez b b' s' mu' i v); auto using pv_prog, le_pv_prog.
    rewrite ET, (eval_le_agree_pv ez s' s); auto. }
  destruct (load_cases _ _ _ _ _ _ _ _ B (Ga_szok _ _ _ _ _ HG PE SZ) (Ga_idxok _ _ _ _ _ HG PI AL) LK WL H)
    as [->|[(S & b' & E & ->)|[(S & n & SG & ->)|(S & COV & nog & b1 & b2 & LOOP & B2 & ->)]]]; apply FIN; auto.
  - apply (LD (sa a) _ _ _ E G0); [apply esz'_sa|apply cell_ok_sa; auto|].
    rewrite lift_sa. apply alignedb_spec in AL. rewrite AL. auto.
  - assert (EN : i = n) by (eapply G_singleton; eauto). subst n.
    pose proof (s_assign_sound esz' one' lhs (le_var (cgv a i (esz a))) (d_base d1) s' (lift mu) G0
                  (pv_prog _ PL)) as X.
    rewrite eval_le_var in X. rewrite (C a i v AL OK MV) in X. apply X.
    intros c0 v0 [E|[]]. inversion E; subst. apply cgv_prog.
  - set (cells := sym_cells st idx (esz a) (d_base d1)) in *.
    assert (CSUB : forall c, In c cells -> In c (as_map st)) by (intros c J; eapply in_sym_in; eauto).
    (* the memory of the temporary array: the cells that were smashed into it *)
    set (mux := fun (t' : arr) (o : Z) =>
                  if N.eqb t' (ta a)
                  then (if existsb (fun c => c_off c =? o) cells && cell_okb a o && negb nog then mu a o else None)
                  else lift mu t' o).
    assert (HMX : same_mem_but (ta a) mux (lift mu)).
    { intros t' o N. unfold mux. destruct (N.eqb_spec t' (ta a)); [congruence|auto]. }
    assert (G1 : G' b1 (s', mux)).
    { refine (proj2 (smash_loop_sound _ _ _ _ _ _ _ _ _ _ mux G0 (le_pv_prog _ PE) _ HMX LOOP) _).
      { rewrite esz'_ta, (eval_le_agree_pv ez s' s); auto. }
      intros i0 v0 _ M. unfold mux in M. rewrite N.eqb_refl in M.
      destruct (existsb _ cells) eqn:EX; [|discriminate]. destruct (cell_okb a i0) eqn:OB; [|discriminate].
      destruct nog; [discriminate|]. split; auto. cbn [negb andb] in M.
      apply existsb_exists in EX. destruct EX as (c & J & E). apply Z.eqb_eq in E.
      apply cell_okb_spec in OB. destruct (WL c (CSUB c J)) as [SZc ALc]. exists c. split; auto.
      unfold cgc. rewrite SZc, E. rewrite E in ALc. exact (C a i0 v0 ALc OB M). }
    apply (s_forget1_sound esz' one' (VA (ta a)) b2 (upd s' lhs v) mux); simpl; auto.
    2:{ intros t' i0 N. symmetry. apply HMX. congruence. }
    destruct nog; [assert (b2 = s_forget1 (VS lhs) b1) as -> by congruence; auto|].
    apply (LD (ta a) _ _ _ B2 G1); [apply esz'_ta|apply cell_ok_ta|].
    unfold mux. rewrite N.eqb_refl.
    assert (GI : gamma (d_eval idx (a_base (d_base d1))) i) by (eapply G_eval; eauto).
    destruct (covers_all_offsets_sound cells _ (esz a) i (esz_pos a) COV GI AL) as (c & J & E).
    replace (existsb (fun c0 => c_off c0 =? i) cells) with true.
    + apply cell_okb_spec in OK. rewrite OK. simpl. auto.
    + symmetry. apply existsb_exists. exists c. split; auto. apply Z.eqb_eq. auto.
Qed.

Definition arr_smashed (d : adom) (a : arr) : Prop :=
  exists st, am_find (d_arrs d) a = Some st /\ as_smashed st = true.

(* The invariant that makes smashing sound: every defined cell of an array that is not
   smashed is tracked (a cell of the offset map with a ghost variable).  The code does not
   maintain it in general (known finding: C14_adaptive_smash_untracked_refuted); it is
   preserved by the operations below. *)
Definition trk (d : adom) (c : cst) : Prop := forall a, arr_smashed d a \/ all_tracked d a (snd c).

(* the invariant looks at the array map, the ghost map and the memory only *)
Lemma trk_frame d d' c c' : d_arrs d' = d_arrs d -> d_gh d' = d_gh d -> same_mem (snd c') (snd c) ->
  trk d c -> trk d' c'.
Proof.
  intros EA EG EM H a. destruct (H a) as [(st & F & S)|X]; [left; exists st; rewrite EA; auto|right].
  intros o v AL O M. rewrite EM in M. destruct (X o v AL O M) as (st & F & S & C & GH).
  exists st. rewrite EA, EG. auto.
Qed.

Lemma trk_mem_ext d s mu mu' : same_mem mu' mu -> trk d (s, mu) -> trk d (s, mu').
Proof. exact (trk_frame d d (s, mu) (s, mu') eq_refl eq_refl). Qed.

(* one array changes: the others keep their tracked cells *)
Lemma trk_update d1 a st st' b' g' s s1 mu mu1 :
  trk d1 (s, mu) -> am_find (d_arrs d1) a = Some st ->
  (forall a0, a0 <> a -> forall o sz, gh_has g' a0 o sz = true <-> gh_has (d_gh d1) a0 o sz = true) ->
  same_mem_but a mu1 mu ->
  (arr_smashed (mkD b' (am_set (d_arrs d1) a st') g') a \/
   all_tracked (mkD b' (am_set (d_arrs d1) a st') g') a mu1) ->
  trk (mkD b' (am_set (d_arrs d1) a st') g') (s1, mu1).
Proof.
  intros H F GH HM HA a0. destruct (N.eq_dec a0 a) as [->|NA]; auto.
  destruct (H a0) as [(st0 & F0 & S0)|X].
  - left. exists st0. cbn [d_arrs]. rewrite am_find_set_other by auto. auto.
  - right. intros o v AL O M. cbn [snd] in *. rewrite HM in M by auto.
    apply (tracked_other_arr (d_base d1) (d_arrs d1) (d_gh d1) b' a st' g' a0 o (esz a0) NA (GH a0 NA)).
    specialize (X o v AL O M). exact X.
Qed.

Lemma trk_lookup d a st d1 c : lookup d a = (st, d1) -> trk d c -> trk d1 c.
Proof.
  intros LK H a0. destruct (lookup_spec _ _ _ _ LK) as (EB & EG & F & FO & FD).
  destruct (H a0) as [(st0 & F0 & S0)|X].
  - left. exists st0. split; auto. destruct (N.eq_dec a0 a) as [->|NA]; [|rewrite FO; auto].
    destruct FD as [FD|[FD _]]; congruence.
  - right. eapply all_tracked_lookup; eauto.
Qed.

Lemma new_cell_trk d1 a st n b' s s1 mu mu1 :
  trk d1 (s, mu) -> am_find (d_arrs d1) a = Some st -> as_smashed st = false ->
  same_mem_but a mu1 mu -> (forall o v, mu1 a o = Some v -> o = n \/ mu a o = Some v) ->
  trk (set_arr d1 a (mkS false (as_esz st) (snd (om_mk (as_map st) n (esz a)))) b' (gh_insert (d_gh d1) a n (esz a)))
      (s1, mu1).
Proof.
  intros TK F S HM HA. unfold set_arr. set (st' := mkS false (as_esz st) (snd (om_mk (as_map st) n (esz a)))).
  apply (trk_update d1 a st st' _ _ s s1 mu mu1); auto.
  - intros a0 N o sz. rewrite gh_has_insert. split; auto. intros [(E & _)|X]; [congruence|auto].
  - right. destruct (TK a) as [(st0 & F0 & S0)|ALLT]; [congruence|].
    intros o v AL O M. destruct (HA o v M) as [->|M0].
    + apply (tracked_same_arr _ _ _ a st st'); auto; [apply in_om_mk_new|apply gh_has_insert; auto].
    + destruct (ALLT o v AL O M0) as (st0 & F0 & S0 & (c & J & E1 & E2) & GH).
      rewrite F in F0. inversion F0; subst st0. apply (tracked_same_arr _ _ _ a st st'); auto.
      * exists c. split; auto. apply in_om_mk_old. auto.
      * apply gh_has_insert. auto.
Qed.

(* the cells with a ghost variable *)
Definition tcells (d : adom) (a : arr) (st : astate) : list cell := filter (gh_hasc (d_gh d) a) (as_map st).

(* executable side condition of a store: when it neither updates one cell nor smashes the
   array (the cells that may be written are only killed), every offset that the index can
   take is the offset of a tracked cell *)
Definition store_keeps (d : adom) (a : arr) (idx : linexp) : Prop :=
  match am_find (d_arrs d) a with
  | Some st =>
    as_smashed st = true \/
    (exists n, isingleton (d_eval idx (a_base (d_base d))) = Some n /\
               Z.of_nat (length (as_map st)) < p_max_size p) \/
    smash_cond p st (esz a) = true \/
    covers_all_offsets (tcells d a st) (d_eval idx (a_base (d_base d))) (esz a) = true
  | None => exists n, isingleton (d_eval idx (a_base (d_base d))) = Some n /\ 0 < p_max_size p
  end.

Lemma store_trk a ez idx val strong d d' s mu mu1 : p_smashable p = true -> inv d ->
  le_pv idx -> aligned (esz a) (eval_le idx s) -> szok d a ez ->
  Ga d (s, mu) -> trk d (s, mu) -> store_keeps d a idx ->
  same_mem_but a mu1 mu ->
  (forall i, mu1 a i = if i =? eval_le idx s then Some (eval_le val s) else mu a i) ->
  a_array_store p a ez idx val strong d = Some d' -> trk d' (s, mu1).
Proof.
  intros SM I PI AL SZ HG TK KEEP HM HA H. pose proof (Ga_not_bottom _ _ HG) as B.
  destruct (lookup d a) as [st d1] eqn:LK.
  pose proof (lookup_Ga _ _ _ _ _ LK HG) as HG1. pose proof (trk_lookup _ _ _ _ _ LK TK) as TK1.
  destruct (lookup_live _ _ _ _ LK I B) as (W & T & U & F & EB).
  destruct (lookup_spec _ _ _ _ LK) as (_ & EG & _ & _ & FD).
  pose proof (store_cases _ _ _ _ _ _ _ _ _ B SZ (Ga_idxok _ _ _ _ _ HG PI AL) LK (proj1 (W a st F)) H) as CS.
  set (i := eval_le idx s) in *.
  destruct (as_smashed st) eqn:S.
  - (* smashed: the array map does not change *)
    destruct CS as (b' & -> & _). intros a0. destruct (N.eq_dec a0 a) as [->|NA].
    + left. exists st. auto.
    + destruct (TK1 a0) as [Y|Y]; [left; exact Y|right].
      intros o v AL0 O M. cbn [snd] in *. rewrite HM in M by auto.
      destruct (Y o v AL0 O M) as (st0 & F0 & S0 & C0 & GH). exists st0. auto.
  - assert (ALLT : all_tracked d1 a mu).
    { destruct (TK1 a) as [(st0 & F0 & S0)|Y]; [congruence|auto]. }
    destruct CS as [(n & SG & _ & LT & ->)|[NC H2]].
    + apply (new_cell_trk d1 a st n _ s s mu mu1); auto. intros o v M. rewrite HA in M.
      rewrite <- (Ga_singleton _ _ _ _ _ HG1 PI SG). destruct (o =? i) eqn:Q; [left; apply Z.eqb_eq; exact Q|auto].
    + apply store_nonconst_cases in H2. destruct (smash_cond p st (esz a)) eqn:SC.
      * destruct H2 as (nb & b2 & _ & _ & ->). unfold set_arr.
        apply (trk_update d1 a st _ _ _ s s mu mu1); auto.
        -- intros a0 N o sz. rewrite gh_has_erase_ghosts. split; [tauto|]. intros X. split; auto. intros (E & _). congruence.
        -- left. exists (mkS true (Some (esz a)) []). cbn [d_arrs]. rewrite am_find_set_same, F.
           rewrite as_set_smashed by (rewrite S; discriminate). auto.
      * rewrite SM in H2. subst d'. unfold set_arr. set (cells := sym_cells st idx (esz a) (d_base d1)).
        apply (trk_update d1 a st _ _ _ s s mu mu1); auto; [tauto|].
        right.
        (* the array state is the old one: what was tracked still is; the written cell is covered *)
        assert (KEEPT : forall o, tracked_cell d1 a o (esz a) ->
                  tracked_cell (mkD (forget_ghosts a (d_gh d1) cells (d_base d1))
                                    (am_set (d_arrs d1) a (mkS false (as_esz st) (kill_cells p cells (as_map st)))) (d_gh d1)) a o (esz a)).
        { intros o (st0 & F0 & S0 & C0 & GH). rewrite F in F0. inversion F0; subst st0.
          exists st. cbn [d_arrs d_gh]. rewrite am_find_set_same, F. rewrite kill_smashable_keeps by auto. auto. }
        intros o v AL0 O M. rewrite HA in M. destruct (Z.eqb_spec o i) as [->|NO]; [|apply KEEPT; eauto].
        apply KEEPT.
        unfold store_keeps in KEEP. destruct FD as [FD|[FD ->]].
        -- rewrite FD in KEEP. destruct KEEP as [X|[(n & SG & LT)|[X|COV]]]; try congruence.
           ++ exfalso. rewrite <- EB in SG. specialize (NC n SG). lia.
           ++ rewrite <- EB in COV.
              assert (GI : gamma (d_eval idx (a_base (d_base d1))) i).
              { destruct HG1 as (s' & G0 & AP & _). eapply G_eval; eauto. }
              destruct (covers_all_offsets_sound _ _ (esz a) i (esz_pos a) COV GI AL) as (c & J & E).
              unfold tcells in J. apply filter_In in J. destruct J as [J GH].
              destruct (W a st F) as [WL _]. destruct (WL c J) as [S1 _].
              exists st. rewrite <- EG in GH. split; auto. split; auto. split; [exists c; auto|].
              unfold gh_hasc in GH. rewrite E, S1 in GH. auto.
        -- rewrite FD in KEEP. destruct KEEP as (n & SG & LT). exfalso. rewrite <- EB in SG.
           specialize (NC n SG). simpl in NC. lia.
Qed.

Lemma load_trk lhs a ez idx d d' s s1 mu : inv d -> szok d a ez -> le_pv idx ->
  aligned (esz a) (eval_le idx s) -> Ga d (s, mu) -> trk d (s, mu) ->
  a_array_load p lhs a ez idx d = Some d' -> trk d' (s1, mu).
Proof.
  intros I SZ PI AL HG TK H. pose proof (Ga_not_bottom _ _ HG) as B.
  destruct (lookup d a) as [st d1] eqn:LK.
  pose proof (trk_lookup _ _ _ _ _ LK TK) as TK1.
  destruct (lookup_live _ _ _ _ LK I B) as (W & T & U & F & EB).
  assert (BASE : forall b', trk (with_base d1 b') (s1, mu)).
  { intros b'. apply (trk_frame d1 _ (s, mu)); auto. intros b o. auto. }
  destruct (load_cases _ _ _ _ _ _ _ _ B SZ (Ga_idxok _ _ _ _ _ HG PI AL) LK (proj1 (W a st F)) H)
    as [->|[(S & b' & _ & ->)|[(S & n & SG & ->)|(S & _ & nog & b1 & b2 & _ & _ & ->)]]]; auto.
  apply (new_cell_trk d1 a st n _ s s1 mu mu); auto. intros b o N. auto.
Qed.

Lemma forget_scan_gen vs l acc l' rm : forget_scan vs l acc = (l', rm) ->
  (forall b k, la_at l' b = BConst k -> la_at l b = BConst k /\ ~ In (VA b) vs) /\
  (forall x, In x acc \/ In (VS x) vs -> In x rm).
Proof.
  destruct l as [|m].
  - revert acc. induction vs as [|v r IH]; simpl; intros acc H.
    + inversion H; subst. split; [simpl; discriminate|]. intros x [I|[]]; auto.
    + destruct v as [x|a]; simpl in H.
      * destruct (IH _ H) as [A B].
        split; [intros b k Hb; destruct (A b k Hb) as [X _]; simpl in X; discriminate|].
        intros y [I|[E|I]]; apply B; auto.
        -- left. apply in_or_app. auto.
        -- inversion E; subst. left. apply in_or_app. simpl. auto.
      * destruct (IH _ H) as [A B].
        split; [intros b k Hb; destruct (A b k Hb) as [X _]; simpl in X; discriminate|].
        intros y [I|[E|I]]; try discriminate; apply B; auto.
  - intros H. destruct (forget_scan_spec vs (LMap m) acc l' rm ltac:(discriminate) H) as (_ & A & B). auto.
Qed.

Lemma s_forget_bot vs b : a_base b = EBot -> a_base (s_forget vs b) = EBot.
Proof.
  unfold s_forget. destruct (forget_scan vs (a_la b) []) as [l' rm]. cbn [a_base]. intros ->. reflexivity.
Qed.
Lemma s_forget_supp vs b y : a_base (s_forget vs b) <> EBot -> nt (a_base (s_forget vs b)) y ->
  ~ In (VS y) vs /\ nt (a_base b) y.
Proof.
  unfold s_forget. destruct (forget_scan vs (a_la b) []) as [l' rm] eqn:FS. cbn [a_base].
  intros NB N. apply nt_d_forget in N; auto. destruct N as [NI N]. split; auto.
  intros J. apply NI. apply (proj2 (forget_scan_gen _ _ _ _ _ FS)). auto.
Qed.
Lemma s_forget_la vs b t k : la_at (a_la (s_forget vs b)) t = BConst k ->
  la_at (a_la b) t = BConst k /\ ~ In (VA t) vs.
Proof.
  unfold s_forget. destruct (forget_scan vs (a_la b) []) as [l' rm] eqn:FS.
  apply (proj1 (forget_scan_gen _ _ _ _ _ FS)).
Qed.

Lemma supp_forget X T vs b : supp X T b (s_forget vs b).
Proof.
  split; [apply s_forget_bot|split].
  - intros NB y N. right. eapply s_forget_supp; eauto.
  - intros t k L. right. eapply s_forget_la; eauto.
Qed.

Lemma ghosts_of_in g a cells c : In c cells -> gh_hasc g a c = true -> In (cgc a c) (ghosts_of g a cells).
Proof.
  intros I H. unfold ghosts_of. apply in_flat_map. exists c. split; auto. rewrite H. simpl. auto.
Qed.
Lemma in_ghosts_of g a cells x : In x (ghosts_of g a cells) -> exists c, In c cells /\ x = cgc a c.
Proof.
  unfold ghosts_of. intros H. apply in_flat_map in H. destruct H as (c & I & H).
  destruct (gh_hasc g a c); [|destruct H]. destruct H as [<-|[]]. eauto.
Qed.

Definition fa_vars (a : arr) (st : astate) (g : gmap_t) : list avar :=
  if as_smashed st then [VA (sa a)] else map VS (ghosts_of g a (as_map st)).

Lemma tracked_removed b' m g a a0 o sz : a0 <> a ->
  (tracked_cell (mkD b' (am_remove m a) (gh_erase_all g a)) a0 o sz <-> tracked_cell (mkD b' m g) a0 o sz).
Proof.
  intros N. unfold tracked_cell. cbn [d_arrs d_gh]. rewrite am_find_remove_other by auto.
  split; intros (st0 & F & S & C & GH); exists st0; (split; [auto|split; [auto|split; [auto|]]]).
  - apply gh_has_erase_all in GH. tauto.
  - apply gh_has_erase_all. auto.
Qed.

Lemma forget_array_inv a d : inv d -> inv (forget_array a d).
Proof.
  intros I. unfold forget_array. destruct (lookup d a) as [st d1] eqn:LK.
  fold (fa_vars a st (d_gh d1)). set (vars := fa_vars a st (d_gh d1)).
  apply inv_intro. cbn [d_base]. intros NB.
  assert (B : a_is_bottom d = false).
  { apply not_bottom_base. intros E. apply NB. apply s_forget_bot.
    rewrite (proj1 (lookup_spec _ _ _ _ LK)). exact E. }
  destruct (lookup_live _ _ _ _ LK I B) as (W & T & U & F & _). split; [|split].
  - intros a0 st0 F0. cbn [d_arrs] in F0. destruct (N.eq_dec a0 a) as [->|NA].
    + rewrite am_find_remove_same in F0. discriminate.
    + rewrite am_find_remove_other in F0 by auto. eauto.
  - intros a0 o sz H1 H2 N. cbn [d_base] in N. apply s_forget_supp in N; auto. destruct N as [NI N].
    pose proof (T a0 o sz H1 H2 N) as TC.
    destruct (N.eq_dec a0 a) as [->|NA]; [exfalso|apply tracked_removed; auto].
    (* the ghost variables of the cells of [a] are among the forgotten ones *)
    destruct (Tidy_cell d1 a st o sz T F H1 H2 N) as (S0 & GH & c & J & E1 & E2).
    apply NI. unfold vars, fa_vars. rewrite S0. apply in_map. rewrite <- E1, <- E2 in *.
    exact (ghosts_of_in _ a _ c J GH).
  - intros a0 k L. cbn [d_base d_arrs] in *. destruct (s_forget_la _ _ _ _ L) as [L0 NV].
    destruct (U a0 k L0) as [(st0 & F0 & S0)|X].
    + left. destruct (N.eq_dec a0 a) as [->|NA].
      * exfalso. rewrite F in F0. inversion F0; subst st0. apply NV. unfold vars, fa_vars. rewrite S0. simpl. auto.
      * exists st0. rewrite am_find_remove_other by auto. auto.
    + right. revert X. apply is_top_mono. intros Y. eapply s_forget_supp; eauto.
Qed.

Lemma untracked_removed b' m g a o sz : ~ tracked_cell (mkD b' (am_remove m a) (gh_erase_all g a)) a o sz.
Proof. intros (st0 & F & _). cbn [d_arrs] in F. rewrite am_find_remove_same in F. discriminate. Qed.

Lemma forget_array_Ga a d s mu mu1 : inv d -> Ga d (s, mu) -> same_mem_but a mu1 mu ->
  Ga (forget_array a d) (s, mu1).
Proof.
  intros I HG HM. pose proof (forget_array_inv a d I) as I'.
  unfold forget_array in *. destruct (lookup d a) as [st d1] eqn:LK.
  destruct (lookup_live _ _ _ _ LK I (Ga_not_bottom _ _ HG)) as (W & T & U & F & _).
  fold (fa_vars a st (d_gh d1)) in *. set (vars := fa_vars a st (d_gh d1)) in *.
  destruct (lookup_Ga _ _ _ _ _ LK HG) as (s' & G0 & AP & C). cbn [fst snd] in *.
  apply (Ga_intro_tops _ s s' mu1 I'); auto.
  - cbn [d_base].
    (* the summary of a smashed array is forgotten; otherwise nothing is claimed about it *)
    destruct (as_smashed st) eqn:S.
    + apply (s_forget_sound esz' one' vars (d_base d1) s' (lift mu)); auto.
      intros t' i0 N. apply (lift_same_but a mu1 mu HM). intros E. apply N.
      unfold vars, fa_vars. rewrite S, E. simpl. auto.
    + assert (G1 : G' (s_forget vars (d_base d1)) (s', lift mu)).
      { apply (s_forget_sound esz' one' vars (d_base d1) s' (lift mu)); auto. }
      apply (G_unsummarised _ _ mu _ a); auto. intros k L. destruct (s_forget_la _ _ _ _ L) as [L0 _].
      apply (supp_top (fun _ => False) (fun _ => False) (d_base d1));
        [apply supp_forget|apply (G_base_not_bot _ _ G1)|tauto|exact (Usum_top d1 a st k U F S L0)].
  - intros a0 o v AL O M. destruct (N.eq_dec a0 a) as [->|NA].
    + right. apply untracked_removed.
    + left. rewrite HM in M by auto. eapply C; eauto.
Qed.

Definition is_pvb (x : var) : bool := (x mod 6 =? 0)%N.
Lemma is_pvb_spec x : is_pvb x = true <-> is_pv x.
Proof. unfold is_pvb, is_pv. apply N.eqb_eq. Qed.
Definition pmix (s1 s' : store) : store := fun x => if is_pvb x then s1 x else s' x.
Lemma pmix_pv s1 s' : agree_pv (pmix s1 s') s1.
Proof. intros x P. unfold pmix. apply is_pvb_spec in P. rewrite P. auto. Qed.
Lemma pmix_other s1 s' x : ~ is_pv x -> pmix s1 s' x = s' x.
Proof. intros P. unfold pmix. destruct (is_pvb x) eqn:E; auto. apply is_pvb_spec in E. tauto. Qed.
Lemma pmix_cells s1 s' mu : cells_in s' mu -> cells_in (pmix s1 s') mu.
Proof. intros C a o v AL O M. rewrite pmix_other by apply cgv_not_pv. eapply C; eauto. Qed.

(* an operation of the base domain whose support is within the program scalars *)
Lemma scalar_supp_inv d b' : inv d -> supp is_pv (fun _ => False) (d_base d) b' -> inv (with_base d b').
Proof.
  intros I SP. destruct (a_is_bottom d) eqn:B.
  - left. apply is_bottom_base. apply (proj1 SP). apply is_bottom_base. exact B.
  - destruct (inv_nonbottom _ I B) as (W & T & U). apply (inv_supp _ _ d b' W T U SP).
    + intros a o sz. apply cgv_not_pv.
    + intros a k _ [P|[]]. exfalso. apply pv_prog in P. eapply ghost_not_prog; eauto.
Qed.

Lemma scalar_op_inv d b' : inv d ->
  (a_base (d_base d) = EBot -> a_base b' = EBot) ->
  a_la b' = a_la (d_base d) ->
  (forall y, a_base b' <> EBot -> nt (a_base b') y -> is_pv y \/ nt (a_base (d_base d)) y) ->
  inv (with_base d b').
Proof.
  intros I BOT LA SUP. apply scalar_supp_inv; auto. split; [auto|split].
  - intros NB y N. auto.
  - intros t k L. rewrite LA in L. auto.
Qed.

Lemma scalar_op_Ga d b' s s1 mu : Ga d (s, mu) ->
  (forall s', G' (d_base d) (s', lift mu) -> agree_pv s' s ->
     exists s1', G' b' (s1', lift mu) /\ agree_pv s1' s1 /\ (forall x, ~ is_pv x -> s1' x = s' x)) ->
  Ga (with_base d b') (s1, mu).
Proof.
  intros (s' & G0 & AP & C) H. destruct (H s' G0 AP) as (s1' & G1 & AP1 & K).
  exists s1'. cbn [with_base d_base fst snd]. split; auto. split; auto.
  intros a o v AL O M. rewrite K by apply cgv_not_pv. eapply C; eauto.
Qed.

Lemma assign_inv x e d : inv d -> is_pv x -> inv (with_base d (s_assign x e (d_base d))).
Proof.
  intros I P. apply scalar_supp_inv; auto. apply supp_assign; auto.
Qed.
Lemma assign_Ga x e d s mu : is_pv x -> le_pv e -> Ga d (s, mu) ->
  Ga (with_base d (s_assign x e (d_base d))) (upd s x (eval_le e s), mu).
Proof.
  intros P PE HG. apply (scalar_op_Ga d _ s); auto. intros s' G0 AP.
  exists (upd s' x (eval_le e s')). split; [|split].
  - apply s_assign_sound; auto. apply pv_prog; auto. apply le_pv_prog; auto.
  - rewrite (eval_le_agree_pv e s' s) by auto. apply agree_pv_upd; auto.
  - intros y NP. apply upd_other. intros ->. auto.
Qed.

Definition operand_pv (z : operand) : Prop := match z with OVar v => is_pv v | OCst _ => True end.
Lemma arith_inv op x y z d : inv d -> is_pv x -> inv (with_base d (s_arith op x y z (d_base d))).
Proof.
  intros I P. apply scalar_op_inv; auto.
  - intros E. simpl. rewrite E. reflexivity.
  - intros w NB N. simpl in N, NB. apply nt_d_apply_arith in N; auto. destruct N as [->|N]; auto.
Qed.
Lemma arith_Ga op x y z d s mu v : is_pv x -> is_pv y -> operand_pv z -> Ga d (s, mu) ->
  arith_sem op (s y) (operand_val z s) = Some v ->
  Ga (with_base d (s_arith op x y z (d_base d))) (upd s x v, mu).
Proof.
  intros Px Py Pz HG AS. apply (scalar_op_Ga d _ s); auto. intros s' G0 AP.
  exists (upd s' x v). split; [|split].
  - apply s_arith_sound; auto; try (apply pv_prog; auto).
    + destruct z; simpl in *; auto. apply pv_prog; auto.
    + rewrite (AP y Py). replace (operand_val z s') with (operand_val z s); auto.
      destruct z; simpl in *; auto. symmetry. auto.
  - apply agree_pv_upd; auto.
  - intros w NP. apply upd_other. intros ->. auto.
Qed.

Lemma assume_inv cs d : inv d -> (forall c, In c cs -> lc_pv c) ->
  inv (with_base d (s_assume cs (d_base d))).
Proof.
  intros I P. apply scalar_op_inv; auto.
  - intros E. simpl. rewrite E. reflexivity.
  - intros y NB N. simpl in N, NB. apply nt_d_add in N; auto. destruct N as [N|(c & Ic & Iy)]; auto.
    left. unfold lc_vars in Iy. apply in_map_iff in Iy. destruct Iy as ([k v] & E & J). simpl in E. subst v.
    eapply (P c Ic); eauto.
Qed.
Lemma assume_Ga cs d s mu : (forall c, In c cs -> wf_lc c /\ lc_pv c) -> Ga d (s, mu) ->
  (forall c, In c cs -> sat c s) -> Ga (with_base d (s_assume cs (d_base d))) (s, mu).
Proof.
  intros P HG SAT. apply (scalar_op_Ga d _ s); auto. intros s' G0 AP.
  exists s'. split; [|split]; auto.
  apply s_assume_sound; auto.
  - intros c I. destruct (P c I). split; auto. unfold lc_prog. apply le_pv_prog; auto.
  - intros c I. destruct (P c I) as [_ PV]. unfold sat. rewrite (eval_le_agree_pv (lc_exp c) s' s); auto.
    apply SAT; auto.
Qed.

Lemma forget1_scalar_inv x d : inv d -> inv (with_base d (s_forget1 (VS x) (d_base d))).
Proof.
  intros I. apply scalar_supp_inv; auto. apply supp_forget1.
Qed.
Lemma forget1_scalar_Ga x d s s1 mu : is_pv x -> Ga d (s, mu) -> (forall y, y <> x -> s1 y = s y) ->
  Ga (with_base d (s_forget1 (VS x) (d_base d))) (s1, mu).
Proof.
  intros P HG H. apply (scalar_op_Ga d _ s); auto. intros s' G0 AP.
  exists (upd s' x (s1 x)). split; [|split].
  - apply (s_forget1_sound esz' one' (VS x) (d_base d) s' (lift mu)); simpl; auto.
    + apply pv_prog; auto.
    + intros y N. apply upd_other. congruence.
  - intros y Py. destruct (N.eq_dec y x) as [->|NE]; [apply upd_same|].
    rewrite upd_other by auto. rewrite H by auto. auto.
  - intros y NP. apply upd_other. intros ->. auto.
Qed.

Lemma expand_scalar_inv x y d : inv d -> is_pv y -> inv (with_base d (s_expand (VS x) (VS y) (d_base d))).
Proof.
  intros I P. apply scalar_op_inv; auto.
  - intros E. simpl. rewrite E. reflexivity.
  - intros w NB N. simpl in N, NB. apply nt_d_expand in N; auto. destruct N as [->|N]; auto.
Qed.
Lemma expand_scalar_Ga x y d s mu : is_pv x -> is_pv y -> Ga d (s, mu) ->
  Ga (with_base d (s_expand (VS x) (VS y) (d_base d))) (upd s y (s x), mu).
Proof.
  intros Px Py HG. apply (scalar_op_Ga d _ s); auto. intros s' G0 AP.
  exists (upd s' y (s' x)). split; [|split].
  - apply s_expand_scalar_sound; auto; apply pv_prog; auto.
  - rewrite (AP x Px). apply agree_pv_upd; auto.
  - intros w NP. apply upd_other. intros ->. auto.
Qed.

(* a value whose base is top describes every state *)
Lemma Ga_of_top d c c1 : a_is_top d = true -> Ga d c -> Ga d c1.
Proof.
  intros TOP (s' & G0 & _). destruct c1 as [s1 mu1].
  assert (AT : forall x, is_top (e_at (a_base (d_base d)) x) = true).
  { intros x. apply e_is_top_at. exact TOP. }
  set (s1' := fun x => if is_progb x then cstore s1 mu1 x else s' x).
  exists s1'. cbn [fst snd]. split; [|split].
  - apply (G_mem_change _ _ (lift (snd c))).
    + apply (G_upd_tops _ s'); [destruct c; exact G0|]. intros x N. split; auto.
      unfold s1' in N. destruct (is_progb x) eqn:E; [apply is_progb_spec; auto|congruence].
    + intros b i v _. right. right. apply AT.
  - intros x P. unfold s1'. pose proof (pv_prog x P) as Q. apply is_progb_spec in Q. rewrite Q.
    apply cstore_pv; auto.
  - intros a o v AL O M. unfold s1'. pose proof (cgv_prog a o (esz a)) as Q. apply is_progb_spec in Q.
    rewrite Q. eapply cstore_cells; eauto.
Qed.

Definition avar_pv (v : avar) : Prop := match v with VS x => is_pv x | VA _ => True end.

Definition fa_fold (vs : list avar) (d : adom) : adom :=
  fold_left (fun acc v => match v with VA a => forget_array a acc | VS _ => acc end) vs d.

Lemma fa_fold_inv vs : forall d, inv d -> inv (fa_fold vs d).
Proof.
  unfold fa_fold. induction vs as [|v r IH]; simpl; intros d I; auto.
  apply IH. destruct v; auto. apply forget_array_inv; auto.
Qed.

Lemma fa_fold_Ga vs s mu1 : forall d mu, inv d -> Ga d (s, mu) ->
  (forall a i, ~ In (VA a) vs -> mu1 a i = mu a i) -> Ga (fa_fold vs d) (s, mu1).
Proof.
  unfold fa_fold. induction vs as [|v r IH]; simpl; intros d mu I HG H.
  - apply (Ga_shrink d s mu); auto. intros b o v M. rewrite <- H; auto.
  - destruct v as [x|a].
    + apply (IH d mu); auto. intros a i N. apply H. intros [E|J]; [discriminate|auto].
    + set (mu2 := fun b i => if N.eqb b a then mu1 b i else mu b i).
      apply (IH (forget_array a d) mu2).
      * apply forget_array_inv; auto.
      * apply (forget_array_Ga a d s mu mu2); auto. intros b i N. unfold mu2.
        destruct (N.eqb_spec b a); [congruence|auto].
      * intros b i N. unfold mu2. destruct (N.eqb_spec b a) as [->|NE]; auto.
        apply H. intros [E|J]; [inversion E; congruence|auto].
Qed.

Lemma forget_inv vs d : inv d -> inv (a_forget vs d).
Proof.
  intros I. unfold a_forget. destruct (a_is_bottom d || a_is_top d); auto.
  fold (fa_fold vs d). apply scalar_supp_inv; [apply fa_fold_inv; auto|apply supp_forget].
Qed.

Lemma forget_Ga vs d s mu s1 mu1 : inv d -> (forall v, In v vs -> avar_pv v) -> Ga d (s, mu) ->
  (forall x, ~ In (VS x) vs -> s1 x = s x) -> (forall a i, ~ In (VA a) vs -> mu1 a i = mu a i) ->
  Ga (a_forget vs d) (s1, mu1).
Proof.
  intros I PV HG HS HM. unfold a_forget. destruct (a_is_top d) eqn:TOP.
  { rewrite orb_true_r. eapply Ga_of_top; eauto. }
  rewrite (Ga_not_bottom _ _ HG). cbn [orb]. fold (fa_fold vs d).
  pose proof (fa_fold_Ga vs s mu1 d mu I HG HM) as (s' & G0 & AP & C). cbn [fst snd] in *.
  exists (pmix s1 s'). cbn [with_base d_base fst snd]. split; [|split].
  - apply (s_forget_sound esz' one' _ _ s' (lift mu1)); auto. intros x N.
    destruct (is_pvb x) eqn:P.
    + unfold pmix. rewrite P. apply is_pvb_spec in P. rewrite (AP x P). apply HS.
      intros J. apply N. apply filter_In. split; auto.
    + apply pmix_other. intros Q. apply is_pvb_spec in Q. congruence.
  - apply pmix_pv.
  - apply pmix_cells; auto.
Qed.

Lemma forget1_inv v d : inv d -> inv (a_forget1 v d).
Proof.
  intros I. unfold a_forget1. destruct (a_is_bottom d); auto. destruct v as [x|a].
  - apply forget1_scalar_inv; auto.
  - apply forget_array_inv; auto.
Qed.

Lemma forget1_Ga v d s mu s1 mu1 : inv d -> avar_pv v -> Ga d (s, mu) ->
  (forall x, VS x <> v -> s1 x = s x) -> (forall a i, VA a <> v -> mu1 a i = mu a i) ->
  Ga (a_forget1 v d) (s1, mu1).
Proof.
  intros I PV HG HS HM. unfold a_forget1. rewrite (Ga_not_bottom _ _ HG). destruct v as [x|a].
  - apply (Ga_shrink _ s1 mu).
    + apply (forget1_scalar_Ga x d s s1 mu); auto. intros y N. apply HS. congruence.
    + intros b o v M. rewrite <- HM; auto. discriminate.
  - assert (E : Ga (forget_array a d) (s, mu1)).
    { apply (forget_array_Ga a d s mu mu1); auto. intros b i N. apply HM. congruence. }
    destruct E as (s' & G0 & AP & C). exists s'. cbn [fst snd] in *. split; [|split]; auto.
    intros x P. rewrite AP by auto. symmetry. apply HS. discriminate.
Qed.

Lemma d_eval_k i e : d_eval (le_k i) e = iconst i.
Proof. reflexivity. Qed.
Lemma szok_k d a : szok d a (le_k (esz a)).
Proof.
  intros k H. unfold check_elem_size in H. rewrite d_eval_k, isingleton_iconst in H.
  destruct (_ && _); inversion H; auto.
Qed.
Lemma idxok_k d a i : aligned (esz a) i -> idxok d a (le_k i).
Proof. intros AL n H. rewrite d_eval_k, isingleton_iconst in H. inversion H; subst; auto. Qed.
Lemma le_pv_k i : le_pv (le_k i).
Proof. intros c v []. Qed.
Lemma wf_le_k i : wf_le (le_k i).
Proof. split; [constructor|intros c v []]. Qed.
Lemma eval_le_k i s : eval_le (le_k i) s = i.
Proof. reflexivity. Qed.
Lemma aligned_step k i : 0 < k -> aligned k i -> aligned k (i + k).
Proof.
  intros K [P M]. split; [lia|]. rewrite <- Z.add_mod_idemp_r by lia. rewrite Z.mod_same by lia.
  rewrite Z.add_0_r. auto.
Qed.

(* the concrete range store: n cells i, i+step, ... get the value v *)
Fixpoint cwrite (mu : amem) (a : arr) (i step v : Z) (n : nat) : amem :=
  match n with
  | O => mu
  | S n' => cwrite (fun b o => if N.eqb b a && (o =? i) then Some v else mu b o) a (i + step) step v n'
  end.
Definition rcount (l u k : Z) : nat := if u <? l then O else Z.to_nat (Z.quot (u - l) k + 1).

Lemma cwrite_other mu a i step v n b o : b <> a -> cwrite mu a i step v n b o = mu b o.
Proof.
  revert mu i. induction n as [|n IH]; simpl; intros mu i N; auto.
  rewrite IH by auto. destruct (N.eqb_spec b a); [congruence|auto].
Qed.

Definition cells_len (d : adom) (a : arr) : Z :=
  match am_find (d_arrs d) a with Some st => Z.of_nat (length (as_map st)) | None => 0 end.
(* the cells of the range find room in the array *)
Definition room (d : adom) (a : arr) (n : Z) : Prop := arr_smashed d a \/ cells_len d a + n <= p_max_size p.

Lemma om_insert_length c m : (length (om_insert c m) <= S (length m))%nat.
Proof.
  induction m as [|h t IH]; simpl; auto. destruct (cell_eqb h c); simpl; [lia|].
  destruct (cell_ltb c h); simpl; lia.
Qed.
Lemma om_mk_length m o sz : (length (snd (om_mk m o sz)) <= S (length m))%nat.
Proof. unfold om_mk. destruct (om_get m o sz); simpl; [lia|apply om_insert_length]. Qed.

Lemma as_set_length old new : (length (as_map (as_set old new)) <= Nat.max (length (as_map old)) (length (as_map new)))%nat.
Proof. unfold as_set. destruct (as_eqb old new); lia. Qed.

(* a store at a constant aligned index into an array with room: the array keeps room *)
Lemma store_room a val i d d' n : inv d -> aligned (esz a) i -> room d a (n + 1) -> 0 <= n ->
  a_array_store p a (le_k (esz a)) (le_k i) val false d = Some d' -> room d' a n.
Proof.
  intros I AL R PN H. destruct (a_is_bottom d) eqn:B.
  { unfold a_array_store in H. rewrite B in H. inversion H; subst. destruct R as [R|R]; [left; auto|right; lia]. }
  destruct (lookup d a) as [st d1] eqn:LK.
  destruct (lookup_live _ _ _ _ LK I B) as (W & _ & _ & F & _).
  destruct (lookup_spec _ _ _ _ LK) as (_ & _ & _ & _ & FD).
  pose proof (store_cases _ _ _ _ _ _ _ _ _ B (szok_k d a) (idxok_k d a i AL) LK (proj1 (W a st F)) H) as CS.
  destruct (as_smashed st) eqn:S.
  - destruct CS as (b' & -> & _). left. exists st. auto.
  - assert (LEN : Z.of_nat (length (as_map st)) + (n + 1) <= p_max_size p).
    { destruct R as [(st0 & F0 & S0)|R].
      - destruct FD as [FD|[FD _]]; congruence.
      - unfold cells_len in R. destruct FD as [FD|[FD ->]]; rewrite FD in R; simpl in *; lia. }
    destruct CS as [(n0 & _ & _ & _ & ->)|[NC _]].
    + right. unfold cells_len, set_arr. cbn [d_arrs]. rewrite am_find_set_same, F.
      pose proof (as_set_length st (mkS false (as_esz st) (snd (om_mk (as_map st) n0 (esz a))))) as X.
      cbn [as_map] in X. pose proof (om_mk_length (as_map st) n0 (esz a)). lia.
    + specialize (NC i). rewrite d_eval_k, isingleton_iconst in NC. specialize (NC eq_refl). lia.
Qed.

Lemma range_loop_inv a val : forall n i d d', inv d -> aligned (esz a) i ->
  range_loop p a (le_k (esz a)) val i (esz a) n d = Some d' -> inv d'.
Proof.
  induction n as [|n IH]; simpl; intros i d d' I AL H; [inversion H; subst; auto|].
  destruct (a_array_store p a (le_k (esz a)) (le_k i) val false d) as [d1|] eqn:ST; [|discriminate].
  cbn [obind] in H. apply (IH (i + esz a) d1 d'); auto.
  - eapply store_inv; eauto; [apply szok_k|apply idxok_k; auto].
  - apply aligned_step; auto.
Qed.

(* with room in the array every store of a range takes the path that updates one cell *)
Lemma room_keeps d a i n : room d a (n + 1) -> 0 <= n -> store_keeps d a (le_k i).
Proof.
  intros R PN. unfold store_keeps. rewrite d_eval_k, isingleton_iconst.
  destruct (am_find (d_arrs d) a) as [st|] eqn:F.
  - destruct (as_smashed st) eqn:S; auto. right. left. exists i. split; auto.
    destruct R as [(st0 & F0 & S0)|R]; [congruence|]. unfold cells_len in R. rewrite F in R. lia.
  - exists i. split; auto. destruct R as [(st0 & F0 & S0)|R]; [congruence|].
    unfold cells_len in R. rewrite F in R. lia.
Qed.

Lemma range_loop_sound a val s : le_pv val -> forall n i d d' mu, inv d -> aligned (esz a) i ->
  room d a (Z.of_nat n) -> Ga d (s, mu) ->
  range_loop p a (le_k (esz a)) val i (esz a) n d = Some d' ->
  Ga d' (s, cwrite mu a i (esz a) (eval_le val s) n) /\
  (p_smashable p = true -> trk d (s, mu) -> trk d' (s, cwrite mu a i (esz a) (eval_le val s) n)).
Proof.
  intros PV. induction n as [|n IH]; cbn [range_loop cwrite]; intros i d d' mu I AL R HG H;
    [inversion H; subst; auto|].
  destruct (a_array_store p a (le_k (esz a)) (le_k i) val false d) as [d1|] eqn:ST; [|discriminate].
  cbn [obind] in H.
  assert (R1 : room d a (Z.of_nat n + 1)) by (replace (Z.of_nat n + 1) with (Z.of_nat (S n)) by lia; exact R).
  set (mu1 := fun b o => if N.eqb b a && (o =? i) then Some (eval_le val s) else mu b o).
  assert (HM : same_mem_but a mu1 mu).
  { intros b o N. unfold mu1. destruct (N.eqb_spec b a); [congruence|auto]. }
  assert (HA : forall o, mu1 a o = if o =? eval_le (le_k i) s then Some (eval_le val s) else mu a o).
  { intros o. unfold mu1. rewrite N.eqb_refl. reflexivity. }
  destruct (IH (i + esz a) d1 d' mu1) as [G T]; auto.
  - eapply store_inv; eauto; [apply szok_k|apply idxok_k; auto].
  - apply aligned_step; auto.
  - eapply store_room; eauto. lia.
  - apply (store_Ga a (le_k (esz a)) (le_k i) val false d d1 s mu mu1); auto using le_pv_k, wf_le_k; [discriminate|].
    (* with room the store never takes the smashing path *)
    intros st F S NC _. exfalso. specialize (NC i). rewrite d_eval_k, isingleton_iconst in NC.
    specialize (NC eq_refl). destruct R1 as [(st0 & F0 & S0)|R1]; [congruence|].
    unfold cells_len in R1. rewrite F in R1. lia.
  - split; auto. intros SM TK. apply T; auto.
    apply (store_trk a (le_k (esz a)) (le_k i) val false d d1 s mu mu1); auto using le_pv_k, szok_k.
    apply (room_keeps d a i (Z.of_nat n)); auto. lia.
Qed.

(* static side condition of a range store / initialisation: constant element size; when the
   bounds are constants the lower one is aligned and the cells find room in the array *)
Definition range_ok (d : adom) (a : arr) (ez lb ub : linexp) : Prop :=
  ez = le_k (esz a) /\
  forall l u, isingleton (d_eval lb (a_base (d_base d))) = Some l ->
              isingleton (d_eval ub (a_base (d_base d))) = Some u -> l <= u ->
              aligned (esz a) l /\ Z.quot (u - l) (esz a) <= p_max_size p /\
              (a_is_bottom d = false -> room d a (Z.quot (u - l) (esz a) + 1)).

Lemma room_quot d a n : a_is_bottom d = false -> room d a (n + 1) -> 0 <= n ->
  arr_smashed d a \/ n < p_max_size p.
Proof.
  intros B [R|R] P; auto. right. unfold cells_len in R. destruct (am_find (d_arrs d) a); lia.
Qed.

Lemma store_range_reduce a lb ub val d d' l u :
  a_is_bottom d = false ->
  isingleton (d_eval lb (a_base (d_base d))) = Some l ->
  isingleton (d_eval ub (a_base (d_base d))) = Some u -> l <= u ->
  Z.quot (u - l) (esz a) <= p_max_size p ->
  a_array_store_range p a (le_k (esz a)) lb ub val d = Some d' ->
  range_loop p a (le_k (esz a)) val l (esz a) (rcount l u (esz a)) d = Some d'.
Proof.
  intros B SL SU LU Q H. unfold a_array_store_range in H. rewrite B in H.
  destruct (check_elem_size _ _) as [k|] eqn:CK; [|discriminate]. cbn [obind] in H.
  rewrite (szok_k d a k CK) in *. rewrite SL, SU in H.
  replace (u <? l) with false in H by (symmetry; apply Z.ltb_ge; lia).
  replace (p_max_size p <? Z.quot (u - l) (esz a)) with false in H by (symmetry; apply Z.ltb_ge; lia).
  replace (u <? l) with false in H by (symmetry; apply Z.ltb_ge; lia).
  unfold rcount. replace (u <? l) with false by (symmetry; apply Z.ltb_ge; lia).
  destruct (range_loop _ _ _ _ _ _ _ _) as [d1|]; [|discriminate]. cbn [obind] in H.
  rewrite Z.ltb_irrefl in H. exact H.
Qed.

Lemma store_range_cases a lb ub val d d' : a_is_bottom d = false ->
  a_array_store_range p a (le_k (esz a)) lb ub val d = Some d' ->
  (d' = forget_array a d /\
   forall l u, ~ (isingleton (d_eval lb (a_base (d_base d))) = Some l /\
                  isingleton (d_eval ub (a_base (d_base d))) = Some u)) \/
  exists l u, isingleton (d_eval lb (a_base (d_base d))) = Some l /\
              isingleton (d_eval ub (a_base (d_base d))) = Some u /\ (u < l /\ d' = d \/ l <= u).
Proof.
  intros B H. unfold a_array_store_range in H. rewrite B in H.
  destruct (check_elem_size _ _) as [k|]; [|discriminate]. cbn [obind] in H.
  destruct (isingleton (d_eval lb _)) as [l|]; [|left; split; [congruence|intros l u [X _]; discriminate]].
  destruct (isingleton (d_eval ub _)) as [u|]; [|left; split; [congruence|intros l0 u [_ X]; discriminate]].
  right. exists l, u. split; auto. split; auto.
  destruct (Z.ltb_spec u l); [left; split; auto; congruence|right; auto].
Qed.

Lemma store_range_inv a ez lb ub val d d' : inv d -> range_ok d a ez lb ub ->
  a_array_store_range p a ez lb ub val d = Some d' -> inv d'.
Proof.
  intros I [-> R] H. destruct (a_is_bottom d) eqn:B.
  { unfold a_array_store_range in H. rewrite B in H. inversion H; subst; auto. }
  destruct (store_range_cases _ _ _ _ _ _ B H) as [[-> _]|(l & u & SL & SU & [[LT ->]|GE])];
    auto using forget_array_inv.
  destruct (R l u SL SU GE) as (AL & Q & RM).
  apply store_range_reduce with (l := l) (u := u) in H; auto.
  eapply range_loop_inv; eauto.
Qed.

Lemma store_range_sound a ez lb ub val d d' s mu mu1 : inv d -> range_ok d a ez lb ub ->
  le_pv lb -> le_pv ub -> le_pv val -> Ga d (s, mu) ->
  same_mem mu1 (cwrite mu a (eval_le lb s) (esz a) (eval_le val s) (rcount (eval_le lb s) (eval_le ub s) (esz a))) ->
  a_array_store_range p a ez lb ub val d = Some d' ->
  Ga d' (s, mu1) /\
  (* when a bound is not a constant the array is forgotten and nothing is tracked any more *)
  (p_smashable p = true -> trk d (s, mu) ->
   (exists l u, isingleton (d_eval lb (a_base (d_base d))) = Some l /\
                isingleton (d_eval ub (a_base (d_base d))) = Some u) -> trk d' (s, mu1)).
Proof.
  intros I [-> R] PL PU PV HG HM H. pose proof (Ga_not_bottom _ _ HG) as B.
  destruct (store_range_cases _ _ _ _ _ _ B H) as [[-> NC]|(l & u & SL & SU & CASES)].
  { split; [|intros _ _ (l & u & C); elim (NC l u C)]. apply forget_array_Ga with (mu := mu); auto.
    intros b o N. rewrite HM. apply cwrite_other; auto. }
  rewrite (Ga_singleton _ _ _ _ _ HG PL SL), (Ga_singleton _ _ _ _ _ HG PU SU) in HM.
  destruct CASES as [[LT ->]|GE].
  { assert (E : same_mem mu1 mu).
    { intros b o. rewrite HM. unfold rcount. replace (u <? l) with true by (symmetry; apply Z.ltb_lt; auto).
      reflexivity. }
    split; [exact (Ga_mem_ext _ _ _ _ E HG)|intros _ TK _; exact (trk_mem_ext _ _ _ _ E TK)]. }
  destruct (R l u SL SU GE) as (AL & Q & RM).
  apply store_range_reduce with (l := l) (u := u) in H; auto.
  destruct (range_loop_sound a val s PV (rcount l u (esz a)) l d d' mu I AL) as [G T]; auto.
  { unfold rcount. replace (u <? l) with false by (symmetry; apply Z.ltb_ge; lia).
    rewrite Z2Nat.id; [apply RM; auto|]. pose proof (Z.quot_pos (u - l) (esz a)). pose proof (esz_pos a). lia. }
  split; [exact (Ga_mem_ext _ _ _ _ HM G)|intros SM TK _; exact (trk_mem_ext _ _ _ _ HM (T SM TK))].
Qed.

(* array_init: the old cells are killed, then the range is stored *)
Definition init_ok (d : adom) (a : arr) (ez lb ub : linexp) : Prop :=
  exists l u, lb = le_k l /\ ub = le_k u /\ range_ok d a ez lb ub.

Lemma filter_len {A} (f : A -> bool) l : (length (filter f l) <= length l)%nat.
Proof. induction l as [|h t IH]; simpl; auto. destruct (f h); simpl; lia. Qed.

Lemma kill_cells_length cells m : (length (kill_cells p cells m) <= length m)%nat.
Proof.
  unfold kill_cells. destruct (p_smashable p).
  - revert m. induction cells as [|c r IH]; simpl; intros m; auto.
    etransitivity; [apply IH|]. unfold om_remove. rewrite map_length. auto.
  - revert m. induction cells as [|c r IH]; simpl; intros m; auto.
    etransitivity; [apply IH|]. unfold om_erase. apply filter_len.
Qed.

Definition init_kill (a : arr) (st : astate) (d1 : adom) : adom :=
  if as_smashed st then d1 else
  match as_map st with
  | [] => d1
  | cells => let '(om1, b1, g1) := kill p a cells cells (d_base d1) (d_gh d1) in
             set_arr d1 a (mkS false (as_esz st) om1) b1 g1
  end.

Lemma init_kill_eq a st d1 : am_find (d_arrs d1) a = Some st ->
  init_kill a st d1 = d1 \/
  (as_smashed st = false /\
   init_kill a st d1 = set_arr d1 a (mkS false (as_esz st) (kill_cells p (as_map st) (as_map st)))
                               (forget_ghosts a (d_gh d1) (as_map st) (d_base d1))
                               (if p_smashable p then d_gh d1 else erase_ghosts a (as_map st) (d_gh d1))).
Proof.
  intros F. unfold init_kill. destruct (as_smashed st); auto. destruct (as_map st) as [|c r] eqn:E; auto.
Qed.

Lemma init_kill_inv a st d1 : inv d1 -> a_is_bottom d1 = false -> am_find (d_arrs d1) a = Some st ->
  inv (init_kill a st d1).
Proof.
  intros I B F. destruct (init_kill_eq a st d1 F) as [E|[S E]]; rewrite E; auto.
  destruct (inv_nonbottom _ I B) as (W & T & U). apply kill_store_inv; auto.
Qed.

Lemma init_kill_room a st d1 n : am_find (d_arrs d1) a = Some st -> room d1 a n -> room (init_kill a st d1) a n.
Proof.
  intros F R. destruct (init_kill_eq a st d1 F) as [E|[S E]]; rewrite E; auto.
  destruct R as [(st0 & F0 & S0)|R]; [congruence|]. right.
  unfold cells_len in *. rewrite F in R. unfold set_arr. cbn [d_arrs]. rewrite am_find_set_same, F.
  pose proof (as_set_length st (mkS false (as_esz st) (kill_cells p (as_map st) (as_map st)))) as X.
  cbn [as_map] in X. pose proof (kill_cells_length (as_map st) (as_map st)). lia.
Qed.

Lemma init_kill_Ga a st d1 s mu : am_find (d_arrs d1) a = Some st -> Ga d1 (s, mu) ->
  Ga (init_kill a st d1) (s, mu).
Proof.
  intros F HG. destruct (init_kill_eq a st d1 F) as [E|[S E]]; rewrite E; auto.
  destruct HG as (s' & G0 & AP & C). exists s'. unfold set_arr. cbn [d_base fst snd] in *.
  split; [|split]; auto. apply (forget_ghosts_sound _ _ _ _ s'); auto. intros x N. elim N. auto.
Qed.

Lemma array_init_unfold a ez lb ub val d : a_is_bottom d = false ->
  a_array_init p a ez lb ub val d =
  let '(st, d1) := lookup d a in a_array_store_range p a ez lb ub val (init_kill a st d1).
Proof.
  intros B. unfold a_array_init, init_kill. rewrite B. destruct (lookup d a) as [st d1]. reflexivity.
Qed.

Lemma range_ok_const d d2 a ez l u : range_ok d a ez (le_k l) (le_k u) ->
  (a_is_bottom d2 = false -> a_is_bottom d = false) ->
  (forall n, room d a n -> room d2 a n) -> range_ok d2 a ez (le_k l) (le_k u).
Proof.
  intros [E R] B RM. split; auto. intros l0 u0 H1 H2 LU. rewrite d_eval_k, isingleton_iconst in H1, H2.
  assert (X1 : isingleton (d_eval (le_k l) (a_base (d_base d))) = Some l0)
    by (rewrite d_eval_k, isingleton_iconst; auto).
  assert (X2 : isingleton (d_eval (le_k u) (a_base (d_base d))) = Some u0)
    by (rewrite d_eval_k, isingleton_iconst; auto).
  destruct (R l0 u0 X1 X2 LU) as (AL & Q & RR). split; auto.
Qed.

Lemma init_range_ok d a st d1 ez l u : lookup d a = (st, d1) -> a_is_bottom d = false ->
  range_ok d a ez (le_k l) (le_k u) -> range_ok (init_kill a st d1) a ez (le_k l) (le_k u).
Proof.
  intros LK B R. destruct (lookup_spec _ _ _ _ LK) as (_ & _ & F & _ & FD).
  apply (range_ok_const d); auto. intros n RM. apply init_kill_room; auto.
  destruct RM as [(st0 & F0 & S0)|RM].
  - left. exists st0. destruct FD as [FD|[FD _]]; [|congruence]. rewrite FD in F0. inversion F0; subst. auto.
  - right. unfold cells_len in *. rewrite F. destruct FD as [FD|[FD ->]]; rewrite FD in RM; simpl; auto.
Qed.

Lemma init_inv a ez lb ub val d d' : inv d -> init_ok d a ez lb ub ->
  a_array_init p a ez lb ub val d = Some d' -> inv d'.
Proof.
  intros I (l & u & -> & -> & R) H. destruct (a_is_bottom d) eqn:B.
  { unfold a_array_init in H. rewrite B in H. inversion H; subst; auto. }
  rewrite array_init_unfold in H by auto. destruct (lookup d a) as [st d1] eqn:LK.
  destruct (lookup_live _ _ _ _ LK I B) as (_ & _ & _ & F & EB).
  eapply store_range_inv; [|eapply init_range_ok; eauto|exact H].
  apply init_kill_inv; auto; [eapply lookup_inv; eauto|unfold a_is_bottom; rewrite EB; exact B].
Qed.

Lemma init_kill_trk a st d1 s mu mu0 : p_smashable p = true -> am_find (d_arrs d1) a = Some st ->
  trk d1 (s, mu) -> same_mem_but a mu0 mu -> (forall o, mu0 a o = None) ->
  trk (init_kill a st d1) (s, mu0).
Proof.
  intros SM F TK HM HN. destruct (init_kill_eq a st d1 F) as [E|[S E]]; rewrite E.
  - intros a0. destruct (N.eq_dec a0 a) as [->|NA].
    + right. intros o v _ _ M. cbn [snd] in M. rewrite HN in M. discriminate.
    + destruct (TK a0) as [X|X]; auto. right. intros o v AL O M. cbn [snd] in *. rewrite HM in M by auto. eauto.
  - unfold set_arr. rewrite SM. apply (trk_update d1 a st _ _ _ s s mu mu0); auto; [tauto|].
    right. intros o v _ _ M. rewrite HN in M. discriminate.
Qed.

Lemma init_sound a ez lb ub val d d' s mu mu1 : inv d -> init_ok d a ez lb ub -> le_pv val -> Ga d (s, mu) ->
  same_mem mu1 (cwrite (fun b' o' => if N.eqb b' a then None else mu b' o') a (eval_le lb s) (esz a)
                       (eval_le val s) (rcount (eval_le lb s) (eval_le ub s) (esz a))) ->
  a_array_init p a ez lb ub val d = Some d' ->
  Ga d' (s, mu1) /\ (p_smashable p = true -> trk d (s, mu) -> trk d' (s, mu1)).
Proof.
  intros I (l & u & -> & -> & R) PV HG HM H. pose proof (Ga_not_bottom _ _ HG) as B.
  rewrite array_init_unfold in H by auto. destruct (lookup d a) as [st d1] eqn:LK.
  pose proof (lookup_inv _ _ _ _ LK I) as I1. pose proof (lookup_Ga _ _ _ _ _ LK HG) as HG1.
  destruct (lookup_live _ _ _ _ LK I B) as (_ & _ & _ & F & EB).
  set (mu0 := fun b' o' => if N.eqb b' a then None else mu b' o') in *.
  destruct (store_range_sound a ez (le_k l) (le_k u) val (init_kill a st d1) d' s mu0 mu1) as [G T];
    auto using le_pv_k; [|eapply init_range_ok; eauto| |].
  - apply init_kill_inv; auto. unfold a_is_bottom. rewrite EB. exact B.
  - apply (Ga_shrink _ s mu); [apply init_kill_Ga; auto|].
    intros b o v M. unfold mu0 in M. destruct (N.eqb b a); [discriminate|auto].
  - split; auto. intros SM TK. apply T; auto.
    + apply (init_kill_trk a st d1 s mu mu0); auto.
      * exact (trk_lookup _ _ _ _ _ LK TK).
      * intros b o N. unfold mu0. destruct (N.eqb_spec b a); [congruence|auto].
      * intros o. unfold mu0. rewrite N.eqb_refl. auto.
    + exists l, u. rewrite !d_eval_k, !isingleton_iconst. auto.
Qed.

Section Assign.
Variables lhs rhs : arr.
Hypothesis NE : lhs <> rhs.

Definition asg_base (cells : list cell) (b : ast) : ast :=
  fold_left (fun acc c => s_assign (cgc lhs c) (le_var (cgc rhs c)) acc) cells b.
Definition asg_gh (cells : list cell) (g : gmap_t) : gmap_t :=
  fold_left (fun acc c => gh_insert acc lhs (c_off c) (c_size c)) cells g.
Definition asg_om (cells : list cell) (m : omap) : omap :=
  fold_left (fun acc c => snd (om_mk acc (c_off c) (c_size c))) cells m.
Definition asg_store (cells : list cell) (s' : store) : store :=
  fold_left (fun acc c => upd acc (cgc lhs c) (acc (cgc rhs c))) cells s'.

Lemma supp_asg_base (X : var -> Prop) T cells : (forall c, In c cells -> X (cgc lhs c)) ->
  forall b, supp X T b (asg_base cells b).
Proof.
  unfold asg_base. induction cells as [|c r IH]; simpl; intros HX b; [apply supp_refl|].
  eapply supp_trans; [apply supp_assign; auto|apply IH; auto].
Qed.

Lemma asg_gh_has cells : forall g b o sz, gh_has (asg_gh cells g) b o sz = true <->
  (b = lhs /\ exists c, In c cells /\ c_off c = o /\ c_size c = sz) \/ gh_has g b o sz = true.
Proof.
  unfold asg_gh. induction cells as [|c r IH]; simpl; intros g b o sz.
  - split; auto. intros [(_ & c & [] & _)|H]; auto.
  - rewrite IH, gh_has_insert. split.
    + intros [(E & c' & I & E1 & E2)|[(E & E1 & E2)|H]]; auto.
      * left. split; auto. exists c'. auto.
      * left. split; auto. exists c. auto.
    + intros [(E & c' & [<-|I] & E1 & E2)|H].
      * right. left. auto.
      * left. split; auto. exists c'. auto.
      * auto.
Qed.

Lemma asg_om_in cells : forall m x, In x (asg_om cells m) ->
  In x m \/ exists c, In c cells /\ x = mkC (c_off c) (c_size c) false.
Proof.
  unfold asg_om. induction cells as [|c r IH]; simpl; intros m x H; auto.
  destruct (IH _ _ H) as [J|(c' & I & E)]; [|right; eauto].
  apply in_om_mk in J. destruct J as [J| ->]; auto. right. exists c. auto.
Qed.
Lemma asg_om_has cells : forall m c, In c cells ->
  exists x, In x (asg_om cells m) /\ c_off x = c_off c /\ c_size x = c_size c.
Proof.
  unfold asg_om.
  assert (K : forall l m0 y, In y m0 -> In y (fold_left (fun acc c => snd (om_mk acc (c_off c) (c_size c))) l m0)).
  { induction l as [|h t IHl]; simpl; intros m0 y J; auto. apply IHl. apply in_om_mk_old. auto. }
  induction cells as [|c0 r IH]; intros m c I; [destruct I|]. simpl. destruct I as [<-|I].
  - destruct (in_om_mk_new m (c_off c0) (c_size c0)) as (x & Ix & E1 & E2). exists x. split; auto.
  - apply IH. auto.
Qed.

Lemma asg_sound cells : forall b s' mu', G' b (s', mu') -> G' (asg_base cells b) (asg_store cells s', mu').
Proof.
  unfold asg_base, asg_store. induction cells as [|c r IH]; simpl; intros b s' mu' HG; auto.
  apply IH. pose proof (s_assign_sound esz' one' (cgc lhs c) (le_var (cgc rhs c)) b s' mu' HG (cgv_prog _ _ _)) as X.
  rewrite eval_le_var in X. apply X. intros c0 v0 [E|[]]. inversion E; subst. apply cgv_prog.
Qed.

Lemma asg_store_spec cells : (forall c, In c cells -> 0 <= c_off c /\ 0 < c_size c) ->
  forall s', (forall x, (forall c, In c cells -> x <> cgc lhs c) -> asg_store cells s' x = s' x) /\
             (forall c, In c cells -> asg_store cells s' (cgc lhs c) = s' (cgc rhs c)).
Proof.
  intros POS.
  assert (DIFF : forall c c', In c cells -> In c' cells -> cgc rhs c' <> cgc lhs c).
  { intros c c' I I' E. unfold cgc in E. destruct (POS c I), (POS c' I').
    apply cgv_inj in E; [destruct E as (E & _); congruence|lia|lia|lia|lia]. }
  unfold asg_store. revert POS DIFF. induction cells as [|c r IH]; intros POS DIFF s'; simpl.
  - split; auto. intros c [].
  - assert (POS' : forall c0, In c0 r -> 0 <= c_off c0 /\ 0 < c_size c0) by (intros; apply POS; simpl; auto).
    assert (DIFF' : forall c0 c', In c0 r -> In c' r -> cgc rhs c' <> cgc lhs c0) by (intros; apply DIFF; simpl; auto).
    destruct (IH POS' DIFF' (upd s' (cgc lhs c) (s' (cgc rhs c)))) as [A B]. split.
    + intros x H. rewrite A by (intros c0 I0; apply H; auto). apply upd_other. apply H. auto.
    + intros c0 [<-|I0].
      * destruct (in_dec N.eq_dec (cgc lhs c) (map (cgc lhs) r)) as [J|NJ].
        -- apply in_map_iff in J. destruct J as (c1 & E1 & I1). pose proof (B c1 I1) as X.
           rewrite E1 in X. rewrite X. rewrite upd_other by (apply DIFF; simpl; auto).
           (* the same ghost of lhs: the same cell key, hence the same ghost of rhs *)
           unfold cgc in E1. destruct (POS c (or_introl eq_refl)), (POS c1 (or_intror I1)).
           apply cgv_inj in E1; [|lia|lia|lia|lia]. destruct E1 as (_ & E2 & E3). unfold cgc. rewrite E2, E3. auto.
        -- rewrite A; [apply upd_same|]. intros c1 I1 E. apply NJ. rewrite E. apply in_map. auto.
      * rewrite B by auto. apply upd_other. apply DIFF; simpl; auto.
Qed.

End Assign.

Definition layout_ok (lhs rhs : arr) : Prop :=
  esz lhs = esz rhs /\ forall i, cell_ok onecell lhs i -> cell_ok onecell rhs i.

Lemma assign_unfold lhs rhs d : a_is_bottom d = false -> lhs <> rhs ->
  a_array_assign p lhs rhs d =
  let d1 := forget_array lhs d in
  let '(st, d2) := lookup d1 rhs in
  if negb (as_smashed st) then
    let cells := filter (gh_hasc (d_gh d2) rhs) (as_map st) in
    mkD (asg_base lhs rhs cells (d_base d2)) (am_set (d_arrs d2) lhs (mkS false (as_esz st) (asg_om cells [])))
        (asg_gh lhs cells (d_gh d2))
  else if p_smashable p then
    mkD (s_array_assign (sa lhs) (sa rhs) (d_base d2)) (am_set (d_arrs d2) lhs st) (d_gh d2)
  else d2.
Proof.
  intros B N. unfold a_array_assign. rewrite B. destruct (N.eqb_spec lhs rhs); [congruence|]. reflexivity.
Qed.

Lemma supp_array_assign (X : var -> Prop) (T : arr -> Prop) l r b : X (ghost l) -> T l -> supp X T b (s_array_assign l r b).
Proof.
  intros HX HT. unfold s_array_assign. destruct (la_at (a_la b) r) as [|k|]; try apply supp_forget1.
  split; [|split]; cbn [a_base a_la].
  - intros ->. apply d_assign_bot.
  - intros NB y N. apply nt_d_assign in N; auto. destruct N as [->|N]; auto.
  - intros t k0 L. destruct (N.eq_dec t l) as [->|NE]; auto. rewrite la_at_set_other in L; auto.
Qed.

Lemma forget_array_absent a d : am_find (d_arrs (forget_array a d)) a = None /\
  (forall o sz, gh_has (d_gh (forget_array a d)) a o sz = false).
Proof.
  unfold forget_array. destruct (lookup d a) as [st d1]. cbn [d_arrs d_gh]. split.
  - apply am_find_remove_same.
  - intros o sz. destruct (gh_has _ a o sz) eqn:E; auto. apply gh_has_erase_all in E. tauto.
Qed.

Lemma arr_assign_inv lhs rhs d : inv d -> layout_ok lhs rhs -> inv (a_array_assign p lhs rhs d).
Proof.
  intros I [SZ LO]. destruct (a_is_bottom d) eqn:B; [unfold a_array_assign; rewrite B; auto|].
  destruct (N.eq_dec lhs rhs) as [E|NE]; [unfold a_array_assign; rewrite B; subst; rewrite N.eqb_refl; auto|].
  rewrite assign_unfold by auto. cbv zeta.
  pose proof (forget_array_inv lhs d I) as I1. destruct (forget_array_absent lhs d) as [AB _].
  set (d1 := forget_array lhs d) in *.
  destruct (lookup d1 rhs) as [st d2] eqn:LK.
  destruct (lookup_spec _ _ _ _ LK) as (EB & EG & F & FO & FD).
  assert (AB2 : am_find (d_arrs d2) lhs = None) by (rewrite FO by auto; exact AB).
  set (cells := filter (gh_hasc (d_gh d2) rhs) (as_map st)).
  pose proof (supp_array_assign (eq (ghost (sa lhs))) (eq (sa lhs)) (sa lhs) (sa rhs) (d_base d2) eq_refl eq_refl) as SP1.
  assert (SP2 : supp (fun y => exists c, In c cells /\ y = cgc lhs c) (fun _ => False) (d_base d2)
                     (asg_base lhs rhs cells (d_base d2))) by (apply supp_asg_base; eauto).
  destruct (lookup_inv _ _ _ _ LK I1) as [B2|(W & T & U)].
  { (* the base value is bottom: so is the result *)
    apply is_bottom_base in B2.
    destruct (negb (as_smashed st)); [|destruct (p_smashable p); [|left; apply is_bottom_base; exact B2]];
      left; apply is_bottom_base; cbn [d_base]; [apply (proj1 SP2 B2)|apply (proj1 SP1 B2)]. }
  (* [lhs] has no state and no tracked cell before *)
  assert (NOL : forall o sz, 0 <= o -> 0 < sz -> ~ nt (a_base (d_base d2)) (cgv lhs o sz)).
  { intros o sz H1 H2 N. destruct (T lhs o sz H1 H2 N) as (st0 & F0 & _). congruence. }
  destruct (W rhs st F) as [WL LV].
  destruct (as_smashed st) eqn:S; cbn [negb].
  - destruct (p_smashable p); [|right; auto].
    apply (inv_update_supp (eq (ghost (sa lhs))) (eq (sa lhs)) d2 lhs None st _ _ W T U AB2); cbn [set_state]; auto.
    + rewrite SZ. auto.
    + tauto.
    + intros a0 o sz H1 H2 _ _ [E|[-> N]]; [elim (ghost_neq_cgv _ _ _ _ E)|elim (NOL o sz H1 H2 N)].
    + intros a0 [E|E]; [apply ghost_inj in E|]; apply sa_inj in E; auto.
  - assert (CS : forall c, In c cells -> In c (as_map st) /\ gh_hasc (d_gh d2) rhs c = true).
    { intros c J. apply filter_In in J. auto. }
    apply (inv_update_supp (fun y => exists c, In c cells /\ y = cgc lhs c) (fun _ => False) d2 lhs None
             (mkS false (as_esz st) (asg_om cells [])) _ _ W T U AB2);
      cbn [set_state as_map]; auto.
    + split; intros x J; apply asg_om_in in J; destruct J as [[]|(c & Ic & ->)]; [|reflexivity].
      simpl. rewrite SZ. apply WL. apply CS; auto.
    + intros a0 NA o sz. rewrite asg_gh_has. split; auto. intros [(E & _)|H]; [congruence|auto].
    + intros a0 o sz H1 H2 _ _ [(c & Ic & E)|[-> N]]; [|elim (NOL o sz H1 H2 N)].
      unfold cgc in E. destruct (CS c Ic) as [Jc Gc]. destruct (WL c Jc) as [S1 [P1 _]].
      apply cgv_inj in E; [|lia|lia|lia|pose proof (esz_pos rhs); lia]. destruct E as (-> & -> & ->).
      exists (mkS false (as_esz st) (asg_om cells [])). cbn [d_arrs d_gh].
      rewrite am_find_set_same, AB2. split; auto. split; auto. split.
      * cbn [as_map]. apply asg_om_has; auto.
      * apply asg_gh_has. left. split; auto. exists c. auto.
    + intros a0 [(c & _ & E)|[]]. elim (ghost_neq_cgv _ _ _ _ E).
Qed.

Lemma arr_assign_Ga lhs rhs d s mu mu1 : inv d -> layout_ok lhs rhs -> Ga d (s, mu) ->
  same_mem_but lhs mu1 mu -> (forall i, mu1 lhs i = mu rhs i) ->
  Ga (a_array_assign p lhs rhs d) (s, mu1).
Proof.
  intros I [SZ LO] HG HM HL. pose proof (Ga_not_bottom _ _ HG) as B.
  destruct (N.eq_dec lhs rhs) as [E|NE].
  { unfold a_array_assign. rewrite B. subst. rewrite N.eqb_refl. apply (Ga_shrink d s mu _ HG).
    intros b o v M. destruct (N.eq_dec b rhs) as [->|N]; [rewrite <- HL|rewrite <- HM]; auto. }
  rewrite assign_unfold by auto. cbv zeta.
  pose proof (forget_array_inv lhs d I) as I1.
  pose proof (forget_array_Ga lhs d s mu mu1 I HG HM) as HG1.
  set (d1 := forget_array lhs d) in *.
  destruct (lookup d1 rhs) as [st d2] eqn:LK.
  destruct (lookup_live _ _ _ _ LK I1 (Ga_not_bottom _ _ HG1)) as (W & T & U & F & _).
  destruct (lookup_Ga _ _ _ _ _ LK HG1) as (s' & G0 & AP & C). cbn [fst snd] in *.
  destruct (as_smashed st) eqn:S; cbn [negb].
  - destruct (p_smashable p); [|exists s'; auto].
    exists s'. cbn [d_base fst snd]. split; [|split]; auto.
    apply (s_array_assign_sound esz' one' (sa lhs) (sa rhs) (d_base d2) s' (lift mu1) (lift mu1)); auto.
    + split; [rewrite !esz'_sa; auto|]. intros i O. apply cell_ok_sa. apply LO. apply cell_ok_sa. auto.
    + intros t' i N. auto.
    + intros i. rewrite !lift_sa, SZ, HL. destruct (alignedb (esz rhs) i); auto.
      symmetry. apply HM. auto.
  - set (cells := filter (gh_hasc (d_gh d2) rhs) (as_map st)).
    destruct (W rhs st F) as [WL LV].
    assert (CS : forall c, In c cells -> In c (as_map st)) by (intros c J; apply filter_In in J; tauto).
    assert (POS : forall c, In c cells -> 0 <= c_off c /\ 0 < c_size c).
    { intros c J. destruct (WL c (CS c J)) as [S1 [P1 _]]. pose proof (esz_pos rhs). lia. }
    destruct (asg_store_spec lhs rhs NE cells POS s') as [SA SB].
    exists (asg_store lhs rhs cells s'). cbn [d_base fst snd]. split; [|split].
    + apply asg_sound. auto.
    + intros x P. rewrite SA; auto. intros c _ E. unfold cgc in E. subst x. eapply cgv_not_pv; eauto.
    + intros a o v AL O M.
      destruct (in_dec N.eq_dec (cgv a o (esz a)) (map (cgc lhs) cells)) as [J|NJ].
      * apply in_map_iff in J. destruct J as (c & E & Ic). rewrite <- E. rewrite SB by auto.
        unfold cgc in E. destruct (POS c Ic). pose proof (esz_pos a).
        apply cgv_inj in E; [|lia|lia|eapply aligned_nonneg; eauto|lia]. destruct E as (<- & E1 & E2).
        (* the cell of lhs holds what the same cell of rhs holds *)
        rewrite HL in M. unfold cgc. rewrite E1. destruct (WL c (CS c Ic)) as [S1 _].
        rewrite S1. rewrite SZ in AL. apply (C rhs o v AL (LO o O)). rewrite HM by auto. exact M.
      * rewrite SA; [eapply C; eauto|]. intros c Ic E. apply NJ. rewrite E. apply in_map. auto.
Qed.

Lemma as_set_same st : as_set st st = st.
Proof. unfold as_set. destruct (as_eqb st st); auto. Qed.

Lemma am_set_none m a st st' b : am_find m a = Some st ->
  (am_find (am_set m a st') b = None <-> am_find m b = None).
Proof.
  intros F. destruct (N.eq_dec b a) as [->|N].
  - rewrite am_find_set_same, F. split; discriminate.
  - rewrite am_find_set_other by auto. tauto.
Qed.

(* the invariant looks at the array map through am_find only *)
Lemma inv_arrs_ext b m m' g : (forall a, am_find m' a = am_find m a) -> inv (mkD b m g) -> inv (mkD b m' g).
Proof.
  intros E [B|(W & T & U)]; [left; exact B|right]. split; [|split].
  - intros a st F. cbn [d_arrs] in F. rewrite E in F. exact (W a st F).
  - intros a o sz H1 H2 N. destruct (T a o sz H1 H2 N) as (st & F & X). exists st. cbn [d_arrs] in *. rewrite E. auto.
  - intros a k L. destruct (U a k L) as [(st & F & S)|X]; [left|right; exact X].
    exists st. cbn [d_arrs] in *. rewrite E. auto.
Qed.

(* smash_other_loop is smash_loop on the cells before the first one that cannot be smashed *)
Lemma smash_other_loop_prefix a k g : forall cells first b ok b1,
  (forall c, In c cells -> c_size c = esz a) ->
  smash_other_loop a k g first cells b = Some (ok, b1) ->
  exists pre, (ok = true -> pre = cells) /\ (forall c, In c pre -> In c cells) /\
              smash_loop (sa a) (le_k (esz a)) a g first pre b = Some (false, b1).
Proof.
  assert (NIL : forall cells first b, exists pre : list cell, (false = true -> pre = cells) /\
            (forall c, In c pre -> In c cells) /\
            smash_loop (sa a) (le_k (esz a)) a g first pre b = Some (false, b)).
  { intros cells first b. exists nil. split; [discriminate|]. split; [intros c F; destruct F|reflexivity]. }
  induction cells as [|c r IH]; intros first b ok b1 SZ H; cbn [smash_other_loop] in H.
  - inversion H; subst. exists nil. split; auto.
  - destruct (negb ((0 <=? c_off c) && (c_off c mod k =? 0))).
    { inversion H; subst. apply NIL. }
    destruct (gh_hasc g a c) eqn:GH.
    2:{ inversion H; subst. apply NIL. }
    rewrite (SZ c (or_introl eq_refl)) in H.
    destruct (s_array_store (sa a) (le_k (esz a)) (le_var (cgc a c)) first b) as [b'|] eqn:ST; [|discriminate].
    cbn [obind] in H. destruct (IH false b' ok b1) as (pre & P1 & P2 & P3); auto.
    { intros c0 I0. apply SZ. simpl. auto. }
    exists (c :: pre). split; [intros X; rewrite P1; auto|]. split.
    + intros c0 [<-|I0]; simpl; auto.
    + simpl. rewrite GH, ST. cbn [obind]. exact P3.
Qed.

Lemma smash_other_loop_bot a k g : forall cells first b ok b1,
  smash_other_loop a k g first cells b = Some (ok, b1) -> a_base b = EBot -> a_base b1 = EBot.
Proof.
  induction cells as [|c r IH]; intros first b ok b1 H E; cbn [smash_other_loop] in H.
  - inversion H; subst; auto.
  - destruct (negb _); [inversion H; subst; auto|]. destruct (gh_hasc g a c); [|inversion H; subst; auto].
    destruct (s_array_store _ _ _ _ _) as [b'|] eqn:ST; [|discriminate]. cbn [obind] in H.
    eapply IH; eauto. eapply s_array_store_bot; eauto.
Qed.

(* one side of array_state::join: the state is smashed with the element size of the other
   side, or left alone *)
Definition side_step (a : arr) (st : astate) (other : astate) (g : gmap_t) (b : ast)
  : option (astate * gmap_t * ast) :=
  if negb (as_smashed st) && as_smashed other then smash_array p a (as_esz other) st g b
  else Some (st, g, b).

Lemma sides_steps a x y gl bl gr br x' y' gl1 bl1 gr1 br1 :
  sides p a x y gl bl gr br = Some (x', y', (gl1, bl1), (gr1, br1)) ->
  side_step a x y gl bl = Some (x', gl1, bl1) /\ side_step a y x gr br = Some (y', gr1, br1).
Proof.
  unfold sides, side_step. destruct (as_smashed x), (as_smashed y); simpl; intros H.
  - inversion H; subst; auto.
  - destruct (smash_array p a (as_esz x) y gr br) as [[[y0 g0] b0]|]; [|discriminate].
    simpl in H. inversion H; subst; auto.
  - destruct (smash_array p a (as_esz y) x gl bl) as [[[x0 g0] b0]|]; [|discriminate].
    simpl in H. inversion H; subst; auto.
  - inversion H; subst; auto.
Qed.

(* nothing happens, or the cells are stored one after the other into the summary: all of
   them, and the array is smashed, or a prefix, and the partial summary is forgotten *)
Lemma side_step_cases a st other g b st' g1 b1 : side_step a st other g b = Some (st', g1, b1) ->
  (st' = st /\ g1 = g /\ b1 = b) \/
  (as_smashed st = false /\ as_smashed other = true /\ exists k ok bb,
     as_map st <> [] /\ smash_other_loop a k g true (as_map st) b = Some (ok, bb) /\
     st' = (if ok then mkS true (Some k) [] else st) /\
     g1 = (if ok then erase_ghosts a (as_map st) g else g) /\
     b1 = (if ok then forget_ghosts a g (as_map st) bb else s_forget1 (VA (sa a)) bb)).
Proof.
  unfold side_step. destruct (negb (as_smashed st) && as_smashed other) eqn:C; [|intros H; inversion H; auto].
  apply andb_true_iff in C. destruct C as [S SO]. apply negb_true_iff in S.
  unfold smash_array. destruct (as_map st) as [|c0 r] eqn:EM; [intros H; inversion H; auto|].
  destruct (_ <? _); [intros H; inversion H; auto|].
  destruct (_ && _); [intros H; inversion H; auto|].
  destruct (as_esz other) as [k|]; [|intros H; inversion H; auto].
  destruct (0 <? k); [|intros H; inversion H; auto].
  destruct (smash_other_loop a k g true (c0 :: r) b) as [[ok bb]|] eqn:LOOP; [|discriminate].
  cbn [obind fst snd]. intros H. right. split; auto. split; auto. exists k, ok, bb.
  split; [discriminate|]. split; auto. destruct ok; inversion H; auto.
Qed.

Lemma side_step_bot a st other g b st' g1 b1 : side_step a st other g b = Some (st', g1, b1) ->
  a_base b = EBot -> a_base b1 = EBot.
Proof.
  intros H E. destruct (side_step_cases _ _ _ _ _ _ _ _ H) as [(_ & _ & ->)|(_ & _ & k & ok & bb & _ & LOOP & Q)]; auto.
  pose proof (smash_other_loop_bot _ _ _ _ _ _ _ _ LOOP E).
  destruct Q as (_ & _ & ->). destruct ok; [apply forget_ghosts_bot|apply s_forget1_bot]; auto.
Qed.

Lemma side_step_state a st other g b st' g1 b1 : side_step a st other g b = Some (st', g1, b1) ->
  st' = st \/ (as_smashed st = false /\ as_smashed other = true /\ as_smashed st' = true).
Proof.
  intros H. destruct (side_step_cases _ _ _ _ _ _ _ _ H) as [(-> & _)|(S & SO & k & ok & bb & _ & _ & -> & _)]; auto.
  destruct ok; auto.
Qed.

(* the hypothesis under which smashing a side is sound: where the state is not smashed and
   the other operand (array map [O]) has a smashed one, every defined cell is tracked *)
Definition tracked_where (O : amap_t) (d : adom) (mu : amem) : Prop :=
  forall a st y, am_find (d_arrs d) a = Some st -> am_find O a = Some y ->
    as_smashed st = false -> as_smashed y = true -> all_tracked d a mu.

(* [d'] is [d] with some arrays smashed, each because [O] has it smashed: the other arrays
   keep their state and their ghosts ... *)
Definition side_shape (O : amap_t) (d d' : adom) : Prop :=
  (forall a, am_find (d_arrs d') a = None <-> am_find (d_arrs d) a = None) /\
  (forall a st st', am_find (d_arrs d) a = Some st -> am_find (d_arrs d') a = Some st' ->
     (st' = st /\ forall o sz, gh_has (d_gh d) a o sz = true -> gh_has (d_gh d') a o sz = true) \/
     (as_smashed st = false /\ as_smashed st' = true /\
      exists y, am_find O a = Some y /\ as_smashed y = true)).
(* ... and [d'] describes what [d] describes *)
Definition side_rel (O : amap_t) (d d' : adom) : Prop :=
  side_shape O d d' /\
  (forall s' mu, G' (d_base d) (s', lift mu) -> cells_in s' mu -> tracked_where O d mu ->
     G' (d_base d') (s', lift mu)).

Lemma side_rel_refl O d : side_rel O d d.
Proof.
  split; auto. split; [tauto|]. intros a st st' F F'. left. split; [congruence|auto].
Qed.

Lemma side_rel_trans O d d1 d2 : side_rel O d d1 -> side_rel O d1 d2 -> side_rel O d d2.
Proof.
  intros ((K1 & S1) & T1) ((K2 & S2) & T2). split; [split|].
  - intros a. rewrite K2. apply K1.
  - intros a st st2 F F2. destruct (am_find (d_arrs d1) a) as [st1|] eqn:F1; [|apply K1 in F1; congruence].
    destruct (S1 a st st1 F F1) as [[-> G1]|(U & S & Y)].
    + destruct (S2 a st st2 F1 F2) as [[-> G2]|X]; auto.
    + right. split; auto. split; auto. destruct (S2 a st1 st2 F1 F2) as [[-> _]|(U2 & _)]; [auto|congruence].
  - intros s' mu G0 C TR. apply T2; auto.
    (* an array that [d1] has not smashed is as in [d], with all its ghosts *)
    intros a st1 y F1 FO U SY. destruct (am_find (d_arrs d) a) as [st|] eqn:F; [|apply K1 in F; congruence].
    destruct (S1 a st st1 F F1) as [[-> G1]|(_ & S & _)]; [|congruence].
    intros o v AL OK M. destruct (TR a st y F FO U SY o v AL OK M) as (st0 & F0 & S0 & C0 & GH).
    exists st. rewrite F in F0. inversion F0; subst st0. auto.
Qed.

Lemma side_step_spec O dv a st other st' g1 b1 :
  inv dv -> am_find (d_arrs dv) a = Some st -> am_find O a = Some other ->
  side_step a st other (d_gh dv) (d_base dv) = Some (st', g1, b1) ->
  as_set st st' = st' /\ inv (mkD b1 (am_set (d_arrs dv) a st') g1) /\
  side_rel O dv (mkD b1 (am_set (d_arrs dv) a st') g1).
Proof.
  intros I F FO H. pose proof (side_step_bot _ _ _ _ _ _ _ _ H) as BOT.
  assert (SAME : forall a0, am_find (am_set (d_arrs dv) a st) a0 = am_find (d_arrs dv) a0).
  { intros a0. destruct (N.eq_dec a0 a) as [->|NA]; [|apply am_find_set_other; auto].
    rewrite am_find_set_same, F, as_set_same. auto. }
  assert (ISAME : inv (mkD (d_base dv) (am_set (d_arrs dv) a st) (d_gh dv))).
  { apply (inv_arrs_ext _ (d_arrs dv)); auto. }
  destruct (side_step_cases _ _ _ _ _ _ _ _ H) as [(-> & -> & ->)|(S & SO & k & ok & bb & NEQ & LOOP & Q1 & Q2 & Q3)].
  { split; [apply as_set_same|]. split; auto. split; auto. split; cbn [d_arrs d_gh].
    - intros a0. rewrite SAME. tauto.
    - intros a0 s0 s1 F0 F1. rewrite SAME, F0 in F1. inversion F1; subst. auto. }
  assert (AS : as_set st st' = st').
  { destruct ok; subst st'; [apply as_set_smashed; rewrite S; discriminate|apply as_set_same]. }
  split; auto.
  (* what does not depend on the base value *)
  assert (SHAPE : side_shape O dv (mkD b1 (am_set (d_arrs dv) a st') g1)).
  { split; cbn [d_arrs d_gh]; [intros a0; eapply am_set_none; eauto|]. intros a0 s0 s1 F0 F1. destruct (N.eq_dec a0 a) as [->|NA].
    - rewrite am_find_set_same, F, AS in F1. rewrite F in F0. inversion F0; inversion F1; subst s0 s1.
      destruct ok; subst st' g1; [right; eauto|left; auto].
    - rewrite am_find_set_other, F0 in F1 by auto. inversion F1; subst s1. left. split; auto.
      intros o sz GH. destruct ok; subst g1; auto.
      apply gh_has_erase_ghosts. split; auto. intros (E & _). congruence. }
  destruct I as [B|(W & T & U)].
  { apply is_bottom_base in B. split; [left; apply is_bottom_base; auto|]. split; auto.
    intros s' mu (_ & _ & (w & Gw & _) & _). rewrite B in Gw. elim Gw. }
  destruct (W a st F) as [WL LV].
  destruct (smash_other_loop_prefix a k (d_gh dv) _ _ _ _ _ (fun c I0 => proj1 (WL c I0)) LOOP)
    as (pre & P1 & P2 & P3).
  pose proof (supp_smash_loop (eq (ghost (sa a))) (eq (sa a)) _ _ _ _ _ _ _ _ _ P3 eq_refl eq_refl) as SP.
  assert (SOUND := fun s' mu G0 => smash_loop_sound (sa a) (le_k (esz a)) a (d_gh dv) pre (d_base dv) false bb
                                     s' (lift mu) (lift mu) G0 (le_pv_prog _ (le_pv_k _)) (eq_sym (esz'_sa a))
                                     (fun _ _ _ => eq_refl) P3).
  destruct ok; subst st' g1 b1.
  - specialize (P1 eq_refl). subst pre. split; [apply smashed_inv; auto|].
    split; auto. intros s' mu G0 C TR. apply (forget_ghosts_sound _ _ _ _ s'); [|intros x N; elim N; auto].
    apply (SOUND s' mu G0). intros i v OK M. split; auto.
    exact (all_tracked_cells dv a st s' mu F (TR a st other F FO S SO) C i v OK M).
  - (* not smashed: the partial summary is forgotten *)
    split; [|split]; auto; [|intros s' mu G0 _ _; apply (SOUND s' mu G0)].
    apply (inv_arrs_ext _ (d_arrs dv)); [exact SAME|].
    apply (inv_supp (eq (ghost (sa a))) (eq (sa a)) dv _ W T U).
    + eapply supp_trans; [exact SP|apply supp_forget1].
    + intros a0 o sz E. elim (ghost_neq_cgv _ _ _ _ E).
    + intros a0 k0 L [E|E]; [apply ghost_inj in E|]; apply sa_inj in E; subst a0;
        elim (s_forget1_VA_la_same _ _ _ L).
Qed.

Lemma in_cs_union x y c : In c (cs_union x y) -> In c x \/ In c y.
Proof.
  unfold cs_union. revert x. induction y as [|h t IH]; simpl; intros x H; auto.
  apply IH in H. destruct H as [H|H]; auto. apply in_om_insert in H. destruct H as [->|H]; auto.
Qed.
Lemma cs_union_l x y c : In c x -> In c (cs_union x y).
Proof.
  unfold cs_union. revert x. induction y as [|h t IH]; simpl; intros x H; auto.
  apply IH. apply om_insert_in. auto.
Qed.
Lemma cs_union_r x y c : In c y -> exists c', In c' (cs_union x y) /\ c_off c' = c_off c /\ c_size c' = c_size c.
Proof.
  unfold cs_union. revert x. induction y as [|h t IH]; simpl; intros x H; [destruct H|].
  destruct H as [->|H]; [|apply IH; auto].
  destruct (om_insert_has c x) as (c' & I & E). exists c'. split; auto.
  fold (cs_union (om_insert c x) t). apply cs_union_l. auto.
Qed.
Lemma in_om_offsets m c : In c m -> In (c_off c) (om_offsets m).
Proof. intros I. unfold om_offsets. apply in_dedup. apply in_map. auto. Qed.
Lemma in_om_group m o c : In c (om_group m o) <-> In c m /\ c_off c = o.
Proof. unfold om_group. rewrite filter_In, Z.eqb_eq. tauto. Qed.

Definition jbranch (pref : bool) (X Y : list cell) : list cell :=
  match X, Y with
  | [], Y => Y
  | X, [] => X
  | X, Y => if pref && keys_sub X Y then Y else cs_union X Y
  end.
Lemma jbranch_in pref X Y c : In c (jbranch pref X Y) -> In c X \/ In c Y.
Proof.
  unfold jbranch. destruct X as [|hx tx]; auto. destruct Y as [|hy ty]; auto.
  destruct (pref && _); auto. apply in_cs_union.
Qed.
Lemma keys_sub_in X Y c : keys_sub X Y = true -> In c X ->
  exists c', In c' Y /\ c_off c' = c_off c /\ c_size c' = c_size c.
Proof.
  unfold keys_sub. rewrite forallb_forall. intros H I. specialize (H c I).
  apply existsb_exists in H. destruct H as (c' & I' & E). apply cell_eqb_spec in E.
  exists c'. split; auto. split; symmetry; tauto.
Qed.
Lemma jbranch_l pref X Y c : In c X -> exists c', In c' (jbranch pref X Y) /\ c_off c' = c_off c /\ c_size c' = c_size c.
Proof.
  intros I. unfold jbranch. destruct X as [|hx tx]; [destruct I|]. destruct Y as [|hy ty]; [exists c; auto|].
  destruct (pref && keys_sub _ _) eqn:E.
  - apply andb_true_iff in E. destruct E as [_ E]. eapply keys_sub_in; eauto.
  - exists c. split; auto. apply cs_union_l. auto.
Qed.
Lemma jbranch_r pref X Y c : In c Y -> exists c', In c' (jbranch pref X Y) /\ c_off c' = c_off c /\ c_size c' = c_size c.
Proof.
  intros I. unfold jbranch. destruct X as [|hx tx]; [exists c; auto|]. destruct Y as [|hy ty]; [destruct I|].
  destruct (pref && keys_sub _ _); [exists c; auto|]. apply cs_union_r. auto.
Qed.

Lemma om_join_p_eq a b : om_join_p a b =
  flat_map (fun o => jbranch (left_leaf_first (om_offsets a) (om_offsets b) o) (om_group a o) (om_group b o))
           (om_offsets (cs_union a b)).
Proof.
  unfold om_join_p. apply flat_map_ext. intros o. unfold jbranch.
  destruct (om_group a o), (om_group b o); reflexivity.
Qed.

Lemma in_om_join_p a b c : In c (om_join_p a b) -> In c a \/ In c b.
Proof.
  rewrite om_join_p_eq. intros H. apply in_flat_map in H. destruct H as (o & _ & H).
  apply jbranch_in in H. destruct H as [H|H]; apply in_om_group in H; tauto.
Qed.
Lemma om_join_p_l a b c : In c a -> exists c', In c' (om_join_p a b) /\ c_off c' = c_off c /\ c_size c' = c_size c.
Proof.
  intros I. rewrite om_join_p_eq.
  destruct (jbranch_l (left_leaf_first (om_offsets a) (om_offsets b) (c_off c)) (om_group a (c_off c)) (om_group b (c_off c)) c)
    as (c' & I' & E); [apply in_om_group; auto|].
  exists c'. split; auto. apply in_flat_map. exists (c_off c). split; auto.
  apply in_om_offsets. apply cs_union_l. auto.
Qed.
Lemma om_join_p_r a b c : In c b -> exists c', In c' (om_join_p a b) /\ c_off c' = c_off c /\ c_size c' = c_size c.
Proof.
  intros I. rewrite om_join_p_eq.
  destruct (jbranch_r (left_leaf_first (om_offsets a) (om_offsets b) (c_off c)) (om_group a (c_off c)) (om_group b (c_off c)) c)
    as (c' & I' & E); [apply in_om_group; auto|].
  exists c'. split; auto. apply in_flat_map. exists (c_off c). split; auto.
  destruct (cs_union_r a b c I) as (c2 & I2 & E1 & E2). rewrite <- E1. apply in_om_offsets. auto.
Qed.

(* what the result state of one array has to do with the (possibly smashed) operands *)
Definition jres (x' y' res : astate) : Prop :=
  as_smashed res = (as_smashed x' || as_smashed y') /\
  (forall c, In c (as_map res) -> In c (as_map x') \/ In c (as_map y')) /\
  (as_smashed res = false -> forall c, In c (as_map x') \/ In c (as_map y') ->
     exists c', In c' (as_map res) /\ c_off c' = c_off c /\ c_size c' = c_size c).

Lemma jres_join x' y' : jres x' y' (st_join x' y').
Proof.
  unfold st_join. split; [reflexivity|]. cbn [as_map as_smashed]. split.
  - apply in_om_join_p.
  - intros _ c [I|I]; [apply om_join_p_l|apply om_join_p_r]; auto.
Qed.

Lemma as_eqb_keys z x : as_eqb z x = true -> as_smashed z = as_smashed x /\
  (as_smashed z = false -> forall c, In c (as_map z) ->
     exists c', In c' (as_map x) /\ c_off c' = c_off c /\ c_size c' = c_size c).
Proof.
  unfold as_eqb. intros H. apply andb_true_iff in H. destruct H as [H1 H2].
  assert (E : as_smashed z = as_smashed x) by (destruct (as_smashed z), (as_smashed x); simpl in H1; congruence).
  split; auto. intros S c I. rewrite S in H2. apply andb_true_iff in H2. destruct H2 as [H2 _].
  eapply om_leq_in; eauto.
Qed.

(* the patricia merge keeps an operand that is == to the join *)
Lemma jres_eqb x' y' z : as_eqb (st_join x' y') z = true ->
  (forall c, In c (as_map z) -> In c (as_map x') \/ In c (as_map y')) -> jres x' y' z.
Proof.
  intros E SUB. destruct (as_eqb_keys _ _ E) as [F K]. destruct (jres_join x' y') as (J1 & J2 & J3).
  split; [congruence|]. split; auto.
  intros S c I. rewrite <- F in S. destruct (J3 S c I) as (c' & I' & E1 & E2).
  destruct (K S c' I') as (c2 & I2 & F1 & F2). exists c2. split; auto. split; congruence.
Qed.

Lemma am_find_in_list m a st : am_find m a = Some st -> In (a, st) m.
Proof.
  induction m as [|[b s0] r IH]; simpl; [discriminate|]. destruct (N.eqb_spec b a) as [->|N]; auto.
  intros H; inversion H; subst; auto.
Qed.
Lemma am_find_in_pair m a st : NoDup (map fst m) -> In (a, st) m -> am_find m a = Some st.
Proof.
  induction m as [|[b s0] r IH]; simpl; intros ND I; [destruct I|]. inversion ND; subst.
  destruct I as [E|I].
  - inversion E; subst. rewrite N.eqb_refl. auto.
  - destruct (N.eqb_spec b a) as [->|N]; auto. exfalso. apply H1. change a with (fst (a, st)). apply in_map. auto.
Qed.

Section JoinLoop.
Variables kx ky : list Z.

(* the state that the patricia merge keeps for array [a] when the join of the states is [z] *)
Definition jpick (a : arr) (x y z : astate) : astate :=
  if left_leaf_first kx ky (Z.of_N a) then (if as_eqb z x then x else z) else (if as_eqb z y then y else z).

Lemma jpick_jres a x y x' y' :
  x' = x \/ (as_smashed x = false /\ as_smashed y = true /\ as_smashed x' = true) ->
  y' = y \/ (as_smashed y = false /\ as_smashed x = true /\ as_smashed y' = true) ->
  jres x' y' (jpick a x y (st_join x' y')).
Proof.
  intros XC YC. unfold jpick. destruct (left_leaf_first kx ky (Z.of_N a)).
  - destruct (as_eqb (st_join x' y') x) eqn:Q; [|apply jres_join].
    destruct XC as [->|(SX & _ & SX')]; [apply (jres_eqb _ _ _ Q); auto|].
    destruct (as_eqb_keys _ _ Q) as [F _]. cbn [st_join as_smashed] in F. rewrite SX', SX in F. discriminate.
  - destruct (as_eqb (st_join x' y') y) eqn:Q; [|apply jres_join].
    destruct YC as [->|(SY & _ & SY')]; [apply (jres_eqb _ _ _ Q); auto|].
    destruct (as_eqb_keys _ _ Q) as [F _]. cbn [st_join as_smashed] in F. rewrite SY', SY, orb_true_r in F. discriminate.
Qed.

Lemma am_join_loop_cons a x r ym gl bl gr br m L R :
  am_join_loop p kx ky ((a, x) :: r) ym gl bl gr br = Some (m, L, R) ->
  match am_find ym a with
  | None => am_join_loop p kx ky r ym gl bl gr br = Some (m, L, R)
  | Some y => exists x' y' gl1 bl1 gr1 br1 m0,
      side_step a x y gl bl = Some (x', gl1, bl1) /\ side_step a y x gr br = Some (y', gr1, br1) /\
      am_join_loop p kx ky r ym gl1 bl1 gr1 br1 = Some (m0, L, R) /\
      m = (a, jpick a x y (st_join x' y')) :: m0
  end.
Proof.
  cbn [am_join_loop]. destruct (am_find ym a) as [y|]; auto.
  destruct (sides p a x y gl bl gr br) as [[[[x' y'] [gl1 bl1]] [gr1 br1]]|] eqn:SD; [|discriminate].
  cbn [obind]. destruct (am_join_loop p kx ky r ym gl1 bl1 gr1 br1) as [[[m0 L0] R0]|] eqn:LP; [|discriminate].
  cbn [obind]. intros H. inversion H; subst. destruct (sides_steps _ _ _ _ _ _ _ _ _ _ _ _ _ SD) as [S1 S2].
  exists x', y', gl1, bl1, gr1, br1, m0. auto.
Qed.

(* a smashed state in the result comes from a smashed state in an operand *)
Lemma am_join_loop_smashed : forall xs ym gl bl gr br m L R,
  am_join_loop p kx ky xs ym gl bl gr br = Some (m, L, R) ->
  forall a res, am_find m a = Some res -> as_smashed res = true ->
  exists x y, In (a, x) xs /\ am_find ym a = Some y /\ as_smashed x || as_smashed y = true.
Proof.
  induction xs as [|[a x] r IH]; intros ym gl bl gr br m L R H b res F SR.
  - inversion H; subst. discriminate.
  - apply am_join_loop_cons in H. destruct (am_find ym a) as [y|] eqn:FY.
    2:{ destruct (IH _ _ _ _ _ _ _ _ H b res F SR) as (x0 & y0 & I0 & X). exists x0, y0. split; [right|]; auto. }
    destruct H as (x' & y' & gl1 & bl1 & gr1 & br1 & m0 & S1 & S2 & LP & ->). cbn [am_find] in F.
    destruct (N.eqb_spec a b) as [<-|NA].
    2:{ destruct (IH _ _ _ _ _ _ _ _ LP b res F SR) as (x0 & y0 & I0 & X). exists x0, y0. split; [right|]; auto. }
    exists x, y. split; [left; auto|]. split; auto. inversion F; subst res. clear F.
    destruct (as_smashed x) eqn:SX, (as_smashed y) eqn:SY; auto. exfalso.
    destruct (side_step_state _ _ _ _ _ _ _ _ S1) as [->|(_ & X & _)]; [|congruence].
    destruct (side_step_state _ _ _ _ _ _ _ _ S2) as [->|(_ & X & _)]; [|congruence].
    unfold jpick, st_join in SR. destruct (left_leaf_first _ _ _); [destruct (as_eqb _ x)|destruct (as_eqb _ y)];
      cbn [as_smashed] in SR; rewrite ?SX, ?SY in SR; discriminate.
Qed.

(* the result, relative to the operands after the smashing of their sides; [XM] is the
   array map of the left operand before the loop *)
Lemma am_join_loop_spec XM : forall xs ym gl bl gr br m gl' bl' gr' br' AL AR,
  am_join_loop p kx ky xs ym gl bl gr br = Some (m, (gl', bl'), (gr', br')) ->
  NoDup (map fst xs) -> inv (mkD bl AL gl) -> inv (mkD br AR gr) ->
  (forall a x, In (a, x) xs -> am_find XM a = Some x /\ am_find AL a = Some x /\ am_find AR a = am_find ym a) ->
  exists AL' AR',
    inv (mkD bl' AL' gl') /\ inv (mkD br' AR' gr') /\
    side_rel ym (mkD bl AL gl) (mkD bl' AL' gl') /\ side_rel XM (mkD br AR gr) (mkD br' AR' gr') /\
    (forall a, ~ In a (map fst xs) -> am_find AL' a = am_find AL a /\ am_find AR' a = am_find AR a) /\
    (forall a res, am_find m a = Some res ->
       exists x' y', am_find AL' a = Some x' /\ am_find AR' a = Some y' /\ jres x' y' res) /\
    (forall a x y, In (a, x) xs -> am_find ym a = Some y -> am_find m a <> None).
Proof.
  induction xs as [|[a x] r IH]; intros ym gl bl gr br m gl' bl' gr' br' AL AR H ND IL IR ORIG.
  - inversion H; subst. exists AL, AR. split; auto. split; auto. split; [apply side_rel_refl|].
    split; [apply side_rel_refl|]. split; auto. split; [discriminate|]. intros a x y [].
  - inversion ND as [|? ? NI ND']; subst. apply am_join_loop_cons in H.
    assert (ORIG' : forall a0 x0, In (a0, x0) r ->
              a0 <> a /\ am_find XM a0 = Some x0 /\ am_find AL a0 = Some x0 /\ am_find AR a0 = am_find ym a0).
    { intros a0 x0 I0. split; [|apply ORIG; right; auto]. intros ->. apply NI. apply (in_map fst _ _ I0). }
    destruct (ORIG a x (or_introl eq_refl)) as (FX & FL & FR). destruct (am_find ym a) as [y|] eqn:FY.
    2:{ destruct (IH _ _ _ _ _ _ _ _ _ _ AL AR H ND' IL IR (fun a0 x0 I0 => proj2 (ORIG' a0 x0 I0)))
          as (AL' & AR' & I1 & I2 & R1 & R2 & FRM & M1 & M2).
        exists AL', AR'. split; auto. split; auto. split; auto. split; auto.
        split; [intros a0 N0; apply FRM; intros J; apply N0; right; auto|]. split; auto.
        intros a0 x0 y0 [E|I0] F0; [inversion E; subst; congruence|eauto]. }
    destruct H as (x' & y' & gl1 & bl1 & gr1 & br1 & m0 & S1 & S2 & LP & ->).
    destruct (side_step_spec ym (mkD bl AL gl) a x y x' gl1 bl1 IL FL FY S1) as (EX & IL1 & RL).
    destruct (side_step_spec XM (mkD br AR gr) a y x y' gr1 br1 IR FR FX S2) as (EY & IR1 & RR).
    cbn [d_arrs d_gh d_base] in *.
    destruct (IH _ _ _ _ _ _ _ _ _ _ (am_set AL a x') (am_set AR a y') LP ND' IL1 IR1)
      as (AL' & AR' & I1 & I2 & R1 & R2 & FRM & M1 & M2).
    { intros a0 x0 I0. destruct (ORIG' a0 x0 I0) as (NA & X). rewrite !am_find_set_other by auto. exact X. }
    exists AL', AR'. split; auto. split; auto.
    split; [eapply side_rel_trans; eauto|]. split; [eapply side_rel_trans; eauto|]. split; [|split].
    + intros a0 N0. destruct (FRM a0) as [E1 E2]; [intros J; apply N0; right; auto|].
      rewrite E1, E2, !am_find_set_other; auto; intros ->; apply N0; left; auto.
    + intros a0 res F0. cbn [am_find] in F0. destruct (N.eqb_spec a a0) as [<-|NA]; [|apply M1; auto].
      inversion F0; subst res. destruct (FRM a NI) as [E1 E2]. exists x', y'.
      rewrite E1, E2, !am_find_set_same, FL, FR, EX, EY. split; auto. split; auto.
      apply jpick_jres; eapply side_step_state; eauto.
    + intros a0 x0 y0 [E|I0] F0; cbn [am_find].
      * inversion E; subst. rewrite N.eqb_refl. discriminate.
      * destruct (N.eqb a a0); [discriminate|eauto].
Qed.

End JoinLoop.

Lemma gh_join_has gl gr a o sz : gh_has gl a o sz = true -> gh_has gr a o sz = true ->
  gh_has (gh_join gl gr) a o sz = true.
Proof.
  intros HL HR. unfold gh_join. rewrite gh_has_in in HL. apply gh_has_in. unfold gh_cells in *.
  induction gl as [|[b l] r IH]; simpl in *; [destruct HL|].
  destruct (N.eqb_spec b a) as [->|N].
  - set (l' := filter (fun k => gh_has gr a (fst k) (snd k)) l).
    assert (I : In (o, sz) l') by (apply filter_In; auto).
    destruct l' as [|h t] eqn:E; [destruct I|]. simpl. rewrite N.eqb_refl. exact I.
  - destruct (filter (fun k : Z * Z => gh_has gr b (fst k) (snd k)) l) as [|h t]; simpl; [apply IH; auto|].
    destruct (N.eqb_spec b a); [congruence|apply IH; auto].
Qed.

Definition jreg (x y : adom) : Prop :=
  forall m gl bl gr br,
    am_join_loop p (zkeys (d_arrs x)) (zkeys (d_arrs y)) (d_arrs x) (d_arrs y)
                 (d_gh x) (d_base x) (d_gh y) (d_base y) = Some (m, (gl, bl), (gr, br)) ->
    a_base bl <> EBot /\ a_base br <> EBot /\ a_la bl <> LBot /\ a_la br <> LBot.

Lemma am_find_in m a st : am_find m a = Some st -> In a (map fst m).
Proof. intros F. apply (in_map fst _ _ (am_find_in_list _ _ _ F)). Qed.

(* a join is the operation of the base domain on the operands after the smashing of their
   sides; the states of the arrays that both have are joined *)
Lemma join_like_spec op gop x y d' : inv x -> inv y -> NoDup (map fst (d_arrs x)) -> jreg x y ->
  join_like p op gop x y = Some d' ->
  exists m x' y', d' = mkD (op (d_base x') (d_base y')) m (gop (d_gh x') (d_gh y')) /\
    inv x' /\ inv y' /\ side_rel (d_arrs y) x x' /\ side_rel (d_arrs x) y y' /\
    (a_base (d_base x') <> EBot /\ a_base (d_base y') <> EBot /\
     a_la (d_base x') <> LBot /\ a_la (d_base y') <> LBot) /\
    (forall a res, am_find m a = Some res ->
       exists sx sy, am_find (d_arrs x') a = Some sx /\ am_find (d_arrs y') a = Some sy /\ jres sx sy res) /\
    (forall a sx sy, am_find (d_arrs x') a = Some sx -> am_find (d_arrs y') a = Some sy ->
       exists res, am_find m a = Some res /\ jres sx sy res).
Proof.
  intros IX IY ND REG H. unfold join_like in H.
  destruct (am_join_loop _ _ _ _ _ _ _ _ _) as [[[m [gl bl]] [gr br]]|] eqn:LP; [|discriminate].
  cbn [obind] in H. inversion H; subst d'. clear H.
  destruct (am_join_loop_spec _ _ (d_arrs x) _ _ _ _ _ _ _ _ _ _ _ (d_arrs x) (d_arrs y) LP ND IX IY)
    as (AL' & AR' & I1 & I2 & R1 & R2 & _ & M1 & M2).
  { intros a st I. pose proof (am_find_in_pair _ _ _ ND I). auto. }
  exists m, (mkD bl AL' gl), (mkD br AR' gr). split; auto. split; auto. split; auto. split; auto. split; auto.
  split; [exact (REG _ _ _ _ _ LP)|]. split; auto. cbn [d_arrs].
  intros a sx sy FX FY. destruct (am_find m a) as [res|] eqn:FM.
  - destruct (M1 a res FM) as (sx2 & sy2 & FX2 & FY2 & J). exists res. split; auto. congruence.
  - destruct R1 as [[K1 _] _], R2 as [[K2 _] _]. cbn [d_arrs] in *.
    destruct (am_find (d_arrs x) a) as [x0|] eqn:FX0; [|apply K1 in FX0; congruence].
    destruct (am_find (d_arrs y) a) as [y0|] eqn:FY0; [|apply K2 in FY0; congruence].
    elim (M2 a x0 y0 (am_find_in_list _ _ _ FX0) FY0 FM).
Qed.

Section JoinLike.
Variable eop : env -> env -> env.
Hypothesis eop_nt : forall a b y, eop a b <> EBot -> nt (eop a b) y -> nt a y /\ nt b y.
Hypothesis eop_sound : forall a b s, genv a s \/ genv b s -> genv (eop a b) s.
Definition jop (a b : ast) : ast := mkA (la_join (a_la a) (a_la b)) (eop (a_base a) (a_base b)).

Lemma join_like_inv x y d' : inv x -> inv y -> NoDup (map fst (d_arrs x)) -> jreg x y ->
  join_like p jop gh_join x y = Some d' -> inv d'.
Proof.
  intros IX IY ND REG H.
  destruct (join_like_spec _ _ _ _ _ IX IY ND REG H)
    as (m & x' & y' & -> & I1 & I2 & _ & _ & (NBL & NBR & NLL & NLR) & M1 & M2).
  destruct (eop (a_base (d_base x')) (a_base (d_base y'))) as [|m'] eqn:EB.
  { left. apply is_bottom_base. exact EB. }
  assert (NBE : eop (a_base (d_base x')) (a_base (d_base y')) <> EBot) by (rewrite EB; discriminate).
  destruct I1 as [B1|(W1 & T1 & U1)]; [apply is_bottom_base in B1; congruence|].
  destruct I2 as [B2|(W2 & T2 & U2)]; [apply is_bottom_base in B2; congruence|].
  right. split; [|split].
  - intros a res F. destruct (M1 a res F) as (sx & sy & FX & FY & J1 & J2 & J3).
    destruct (W1 a sx FX) as [WL1 LV1]. destruct (W2 a sy FY) as [WL2 LV2]. split.
    + intros c I. destruct (J2 c I); [apply WL1|apply WL2]; auto.
    + intros c I. destruct (J2 c I); [apply LV1|apply LV2]; auto.
  - intros a o sz H1 H2 N. destruct (eop_nt _ _ _ NBE N) as [N1 N2].
    destruct (T1 a o sz H1 H2 N1) as (sx & FX & SX & (c1 & IC1 & E1 & E2) & GX).
    destruct (T2 a o sz H1 H2 N2) as (sy & FY & SY & _ & GY).
    destruct (M2 a sx sy FX FY) as (res & FM & J1 & J2 & J3).
    assert (SR : as_smashed res = false) by (rewrite J1, SX, SY; auto).
    destruct (J3 SR c1 (or_introl IC1)) as (c' & I' & G1 & G2).
    exists res. split; auto. split; auto. split.
    + exists c'. split; auto. split; congruence.
    + apply gh_join_has; auto.
  - intros a k L. cbn [d_base jop a_la a_base d_arrs] in *.
    assert (TOPJ : is_top (e_at (a_base (d_base x')) (ghost (sa a))) = true \/
                   is_top (e_at (a_base (d_base y')) (ghost (sa a))) = true ->
                   is_top (e_at (eop (a_base (d_base x')) (a_base (d_base y'))) (ghost (sa a))) = true).
    { intros X. destruct (is_top_nt (eop (a_base (d_base x')) (a_base (d_base y'))) (ghost (sa a))) as [Y|Y]; auto.
      destruct (eop_nt _ _ _ NBE Y) as [Y1 Y2]. unfold nt in *. destruct X; congruence. }
    destruct (U1 a k (la_join_const_l _ _ _ _ NLL L)) as [(sx & FX & SX)|X]; [|right; apply TOPJ; auto].
    destruct (U2 a k (la_join_const_r _ _ _ _ NLR L)) as [(sy & FY & SY)|X]; [|right; apply TOPJ; auto].
    destruct (M2 a sx sy FX FY) as (res & FM & J1 & _).
    left. exists res. split; auto. rewrite J1, SX. auto.
Qed.

(* the result describes what an operand describes *)
Lemma join_like_Ga x y d' s mu : inv x -> inv y -> NoDup (map fst (d_arrs x)) -> jreg x y ->
  (Ga x (s, mu) /\ tracked_where (d_arrs y) x mu) \/ (Ga y (s, mu) /\ tracked_where (d_arrs x) y mu) ->
  join_like p jop gh_join x y = Some d' -> Ga d' (s, mu).
Proof.
  intros IX IY ND REG HC H.
  destruct (join_like_spec _ _ _ _ _ IX IY ND REG H)
    as (m & x' & y' & -> & _ & _ & (_ & TL) & (_ & TR) & (_ & _ & NLL & NLR) & _).
  assert (X : exists s', (G' (d_base x') (s', lift mu) \/ G' (d_base y') (s', lift mu)) /\
                         agree_pv s' s /\ cells_in s' mu).
  { destruct HC as [[(s' & G0 & AP & C) T]|[(s' & G0 & AP & C) T]]; exists s'; cbn [fst snd] in *; auto. }
  destruct X as (s' & G0 & AP & C). exists s'. cbn [d_base fst snd]. split; auto.
  replace (d_base x') with (mkA (a_la (d_base x')) (a_base (d_base x'))) in G0 by (destruct (d_base x'); auto).
  replace (d_base y') with (mkA (a_la (d_base y')) (a_base (d_base y'))) in G0 by (destruct (d_base y'); auto).
  apply (G_union esz' one' eop _ _ _ eop_sound G0).
Qed.

End JoinLike.

Lemma thr_sound ths a b s : genv a s \/ genv b s ->
  genv (e_widen_thr (thr_prev (mk_thresholds ths)) (thr_next (mk_thresholds ths)) a b) s.
Proof.
  apply e_widen_thr_sound.
  - intros v. apply thr_prev_le. apply mk_thresholds_wf.
  - intros v. apply thr_next_ge. apply mk_thresholds_wf.
Qed.

Inductive jkind := JJoin | JWiden | JThr (ths : list Z).
Definition jk_eop (k : jkind) : env -> env -> env :=
  match k with
  | JJoin => e_join | JWiden => e_widen
  | JThr ths => e_widen_thr (thr_prev (mk_thresholds ths)) (thr_next (mk_thresholds ths))
  end.
Definition jk_run (k : jkind) (x y : adom) : option adom :=
  match k with JJoin => a_join p x y | JWiden => a_widen p x y | JThr ths => a_widen_thr p ths x y end.

Lemma jk_nt k a b y : jk_eop k a b <> EBot -> nt (jk_eop k a b) y -> nt a y /\ nt b y.
Proof. destruct k; simpl; [apply nt_e_join|apply nt_e_widen|apply nt_e_widen_thr]. Qed.
Lemma jk_sound k a b s : genv a s \/ genv b s -> genv (jk_eop k a b) s.
Proof. destruct k; simpl; [apply e_join_sound|apply e_widen_sound|apply thr_sound]. Qed.

(* the shortcuts: an operand is returned when the other is bottom or it is top itself *)
Lemma jk_shortcuts k x y :
  (jk_run k x y = Some x /\ (a_is_bottom y = true \/ a_is_top x = true)) \/
  (jk_run k x y = Some y /\ (a_is_bottom x = true \/ a_is_top y = true)) \/
  (a_is_bottom x = false /\ a_is_bottom y = false /\
   jk_run k x y = join_like p (jop (jk_eop k)) gh_join x y).
Proof.
  destruct k; simpl; unfold a_join, a_widen, a_widen_thr.
  - destruct (a_is_bottom y) eqn:BY; simpl; auto. destruct (a_is_top x); simpl; auto.
    destruct (a_is_bottom x) eqn:BX; simpl; auto. destruct (a_is_top y); simpl; auto.
  - destruct (a_is_bottom y) eqn:BY; simpl; auto. destruct (a_is_bottom x) eqn:BX; simpl; auto.
  - destruct (a_is_bottom y) eqn:BY; simpl; auto. destruct (a_is_bottom x) eqn:BX; simpl; auto.
Qed.

Lemma jk_cases k x y : jk_run k x y = Some x \/ jk_run k x y = Some y \/
  (a_is_bottom x = false /\ a_is_bottom y = false /\
   jk_run k x y = join_like p (jop (jk_eop k)) gh_join x y).
Proof. destruct (jk_shortcuts k x y) as [[Q _]|[[Q _]|Q]]; auto. Qed.

Lemma jk_inv k x y d' : inv x -> inv y -> NoDup (map fst (d_arrs x)) -> jreg x y ->
  jk_run k x y = Some d' -> inv d'.
Proof.
  intros IX IY ND REG H. destruct (jk_cases k x y) as [E|[E|(BX & BY & E)]]; rewrite E in H.
  - inversion H; subst; auto.
  - inversion H; subst; auto.
  - exact (join_like_inv (jk_eop k) (jk_nt k) x y d' IX IY ND REG H).
Qed.

(* sizes recorded by the base domain *)
Definition Lsz (d : adom) : Prop :=
  a_is_bottom d = true \/
  (a_la (d_base d) <> LBot /\ forall b k, la_at (a_la (d_base d)) b = BConst k -> k = esz' b).
(* a value that is top has an empty environment (separate_domain::set never binds top) *)
Definition top_empty (d : adom) : Prop := a_is_top d = true -> a_base (d_base d) = EMap [].

Lemma Ga_top_any d c : Lsz d -> top_empty d -> a_is_top d = true -> Ga d c.
Proof.
  intros LS TE TOP. specialize (TE TOP). destruct LS as [B|[NL SZ]]; [apply is_bottom_base in B; congruence|].
  destruct c as [s mu]. exists (cstore s mu). cbn [fst snd]. split; [|split].
  - split; auto. split; auto. split.
    + exists (cstore s mu). split; [|intros x _; auto]. rewrite TE. intros k. simpl. apply gamma_top.
    + intros b k i v L O M. rewrite TE. simpl. apply gamma_top.
  - apply cstore_pv.
  - apply cstore_cells.
Qed.

Lemma jk_Ga k x y d' s mu : inv x -> inv y -> NoDup (map fst (d_arrs x)) -> jreg x y ->
  Lsz x -> Lsz y -> top_empty x -> top_empty y ->
  (Ga x (s, mu) /\ tracked_where (d_arrs y) x mu) \/ (Ga y (s, mu) /\ tracked_where (d_arrs x) y mu) ->
  jk_run k x y = Some d' -> Ga d' (s, mu).
Proof.
  intros IX IY ND REG LX LY TX TY HC H.
  destruct (jk_shortcuts k x y) as [[Q W]|[[Q W]|(_ & _ & Q)]]; rewrite Q in H.
  - inversion H; subst d'. destruct HC as [[HG _]|[HG _]]; auto.
    destruct W as [W|W]; [rewrite (Ga_not_bottom _ _ HG) in W; discriminate|apply Ga_top_any; auto].
  - inversion H; subst d'. destruct HC as [[HG _]|[HG _]]; auto.
    destruct W as [W|W]; [rewrite (Ga_not_bottom _ _ HG) in W; discriminate|apply Ga_top_any; auto].
  - exact (join_like_Ga (jk_eop k) (jk_sound k) x y d' s mu IX IY ND REG HC H).
Qed.

Lemma rename_scalar_eq x y d : a_is_bottom d || a_is_top d = false ->
  a_rename [VS x] [VS y] d = Some (mkD (s_rename [VS x] [VS y] (d_base d)) (d_arrs d) (d_gh d)).
Proof. intros H. unfold a_rename. rewrite H. reflexivity. Qed.

Lemma s_rename_scalar_la x y b : a_la (s_rename [VS x] [VS y] b) = a_la b.
Proof. reflexivity. Qed.
Lemma s_rename_scalar_base x y b : a_base (s_rename [VS x] [VS y] b) = e_rename (a_base b) [x] [y].
Proof. reflexivity. Qed.

Lemma rename_scalar_inv x y d d' : inv d -> is_pv y -> a_rename [VS x] [VS y] d = Some d' -> inv d'.
Proof.
  intros I P H. destruct (a_is_bottom d || a_is_top d) eqn:E.
  { unfold a_rename in H. rewrite E in H. inversion H; subst; auto. }
  rewrite rename_scalar_eq in H by auto. inversion H; subst d'.
  change (inv (with_base d (s_rename [VS x] [VS y] (d_base d)))).
  apply scalar_op_inv; auto.
  - intros EB. rewrite s_rename_scalar_base, EB. reflexivity.
  - intros w NB N. rewrite s_rename_scalar_base in N, NB. apply nt_e_rename in N; auto.
    destruct N as [[<-|[]]|[N _]]; auto.
Qed.

Lemma rename_scalar_Ga x y d d' s mu h : is_pv x -> is_pv y ->
  is_top (e_at (a_base (d_base d)) y) = true -> Ga d (s, mu) ->
  a_rename [VS x] [VS y] d = Some d' -> Ga d' (rename_store s [(x, y)] [h], mu).
Proof.
  intros Px Py TY HG H. destruct (a_is_top d) eqn:TOP.
  { unfold a_rename in H. rewrite TOP, orb_true_r in H. inversion H; subst. eapply Ga_of_top; eauto. }
  rewrite rename_scalar_eq in H by (rewrite (Ga_not_bottom _ _ HG); auto). inversion H; subst d'.
  change (Ga (with_base d (s_rename [VS x] [VS y] (d_base d))) (rename_store s [(x, y)] [h], mu)).
  apply (scalar_op_Ga d _ s); auto. intros s' G0 AP.
  exists (rename_store s' [(x, y)] [h]). split; [|split].
  - apply s_rename_scalar_sound; auto; apply pv_prog; auto.
  - intros w Pw. rewrite !rename_store_one. destruct (N.eqb x y); [apply AP; auto|].
    destruct (N.eqb w x); auto. destruct (N.eqb w y); apply AP; auto.
  - intros w NP. rewrite rename_store_one. destruct (N.eqb x y); auto.
    destruct (N.eqb_spec w x) as [->|_]; [tauto|]. destruct (N.eqb_spec w y) as [->|_]; [tauto|]. auto.
Qed.

Lemma expand_inv x y d d' : inv d -> is_pv y -> a_expand (VS x) (VS y) d = Some d' -> inv d'.
Proof.
  intros I P H. unfold a_expand in H. destruct (a_is_bottom d || a_is_top d); inversion H; subst; auto.
  apply expand_scalar_inv; auto.
Qed.
Lemma expand_Ga x y d d' s mu : is_pv x -> is_pv y -> Ga d (s, mu) ->
  a_expand (VS x) (VS y) d = Some d' -> Ga d' (upd s y (s x), mu).
Proof.
  intros Px Py HG H. unfold a_expand in H. destruct (a_is_top d) eqn:TOP.
  { rewrite orb_true_r in H. inversion H; subst. eapply Ga_of_top; eauto. }
  rewrite (Ga_not_bottom _ _ HG) in H. cbn [orb] in H. inversion H; subst.
  apply expand_scalar_Ga; auto.
Qed.

(* the operations on scalars leave the array map and the ghost map alone *)
Definition same_arrays (d d' : adom) : Prop := d_arrs d' = d_arrs d /\ d_gh d' = d_gh d.

Lemma rename_scalar_frame x y d d' : a_rename [VS x] [VS y] d = Some d' -> same_arrays d d'.
Proof.
  intros H. destruct (a_is_bottom d || a_is_top d) eqn:E.
  - unfold a_rename in H. rewrite E in H. inversion H; subst. split; auto.
  - rewrite rename_scalar_eq in H by auto. inversion H; subst. split; auto.
Qed.
Lemma expand_frame v nv d d' : a_expand v nv d = Some d' -> same_arrays d d'.
Proof.
  unfold a_expand. destruct (_ || _); [intros H; inversion H; subst; split; auto|].
  destruct v, nv; intros H; inversion H; subst; split; auto.
Qed.
Lemma forget1_scalar_frame x d : same_arrays d (a_forget1 (VS x) d).
Proof. unfold a_forget1. destruct (a_is_bottom d); split; auto. Qed.
Lemma forget_scalars_frame vs d : (forall a, ~ In (VA a) vs) -> same_arrays d (a_forget vs d).
Proof.
  intros NA. unfold a_forget. destruct (_ || _); [split; auto|]. fold (fa_fold vs d).
  replace (fa_fold vs d) with d; [split; auto|].
  unfold fa_fold. revert d. induction vs as [|v t IH]; simpl; intros d; auto.
  destruct v as [x|a]; [apply IH; intros a I; apply (NA a); right; auto|]. elim (NA a). left. auto.
Qed.

Lemma dget_dset rs r v r' : (r < length rs)%nat ->
  dget (dset rs r v) r' = if Nat.eqb r' r then v else dget rs r'.
Proof.
  revert r r'. induction rs as [|h t IH]; simpl; intros r r' L; [lia|].
  destruct r, r'; simpl; auto. apply IH. lia.
Qed.
Lemma dset_oob rs r v : (length rs <= r)%nat -> dset rs r v = rs.
Proof. revert r. induction rs as [|h t IH]; simpl; intros r L; auto. destruct r; [lia|]. f_equal. apply IH. lia. Qed.
Lemma dset_length rs r v : length (dset rs r v) = length rs.
Proof. revert r. induction rs as [|h t IH]; simpl; intros r; auto. destruct r; simpl; auto. Qed.

Definition rel (rs : list adom) (cs : list cset) : Prop :=
  length rs = length cs /\ (forall r, inv (dget rs r)) /\ forall r c, cget cs r c -> Ga (dget rs r) c.

Lemma rel_set rs cs r d (c : cset) : rel rs cs -> inv d -> (forall x, c x -> Ga d x) ->
  rel (dset rs r d) (csetr cs r c).
Proof.
  intros (L & I & R) ID H. split; [rewrite dset_length, csetr_length; auto|].
  destruct (Nat.lt_ge_cases r (length rs)) as [LT|GE].
  - split.
    + intros r'. rewrite dget_dset by auto. destruct (Nat.eqb r' r); auto.
    + intros r' x. rewrite dget_dset by auto. rewrite cget_csetr by lia. destruct (Nat.eqb r' r); auto.
  - rewrite dset_oob by auto. rewrite csetr_oob by lia. auto.
Qed.

(* concrete steps: those of ArraySmashSound, with aligned accesses and the precise
   reading of array_init / array_store_range (the cells lb, lb+sz, ... <= ub) *)
Definition cstepA (cs : list cset) (o : ahop) : list cset :=
  match o with
  | AInit r a e lb ub val =>
    csetr cs r (fun c' => exists s mu, cget cs r (s, mu) /\ eval_le e s = esz a /\ fst c' = s /\
      forall b o, snd c' b o =
        cwrite (fun b' o' => if N.eqb b' a then None else mu b' o') a (eval_le lb s) (esz a) (eval_le val s)
               (rcount (eval_le lb s) (eval_le ub s) (esz a)) b o)
  | ARange r a e lb ub val =>
    csetr cs r (fun c' => exists s mu, cget cs r (s, mu) /\ eval_le e s = esz a /\ fst c' = s /\
      forall b o, snd c' b o =
        cwrite mu a (eval_le lb s) (esz a) (eval_le val s) (rcount (eval_le lb s) (eval_le ub s) (esz a)) b o)
  | ALoad r lhs a e idx =>
    csetr cs r (fun c' => exists s mu v, cget cs r (s, mu) /\ eval_le e s = esz a /\
                  aligned (esz a) (eval_le idx s) /\
                  cell_ok onecell a (eval_le idx s) /\ mu a (eval_le idx s) = Some v /\
                  fst c' = upd s lhs v /\ same_mem (snd c') mu)
  | AStore r a e idx val strong =>
    csetr cs r (fun c' => exists s mu, cget cs r (s, mu) /\ eval_le e s = esz a /\
                  aligned (esz a) (eval_le idx s) /\
                  (strong = true -> onecell a = Some (eval_le idx s)) /\
                  fst c' = s /\ same_mem_but a (snd c') mu /\
                  forall i, snd c' a i = if i =? eval_le idx s then Some (eval_le val s) else mu a i)
  | _ => cstep esz onecell cs o
  end.

Definition join_ok (X Y : adom) (cX cY : cset) : Prop :=
  NoDup (map fst (d_arrs X)) /\ jreg X Y /\ Lsz X /\ Lsz Y /\ top_empty X /\ top_empty Y /\
  (forall s mu, cX (s, mu) -> forall a st sy, am_find (d_arrs X) a = Some st -> am_find (d_arrs Y) a = Some sy ->
      as_smashed st = false -> as_smashed sy = true -> all_tracked X a mu) /\
  (forall s mu, cY (s, mu) -> forall a st sy, am_find (d_arrs X) a = Some st -> am_find (d_arrs Y) a = Some sy ->
      as_smashed sy = false -> as_smashed st = true -> all_tracked Y a mu).

Definition hop_okA (rs : list adom) (cs : list cset) (o : ahop) : Prop :=
  match o with
  | AAssign _ x e => is_pv x /\ le_pv e
  | AArith _ _ x y z => is_pv x /\ is_pv y /\ operand_pv z
  | AAssume _ cl => forall c, In c cl -> wf_lc c /\ lc_pv c
  | AForget _ vs => forall v, In v vs -> avar_pv v
  | AForget1 _ v => avar_pv v
  | AProject _ _ => False
  | AExpand _ (VS x) (VS y) => is_pv x /\ is_pv y
  | AExpand _ _ _ => False
  | ARename r [VS x] [VS y] => is_pv x /\ is_pv y /\ is_top (e_at (a_base (d_base (dget rs r))) y) = true
  | ARename _ _ _ => False
  | AInit r a e lb ub val => init_ok (dget rs r) a e lb ub /\ le_pv val
  | ALoad r lhs a e idx =>
    is_pv lhs /\ le_pv e /\ le_pv idx /\ wf_le idx /\ szok (dget rs r) a e /\ idxok (dget rs r) a idx
  | AStore r a e idx val _ =>
    le_pv e /\ le_pv idx /\ wf_le idx /\ le_pv val /\ szok (dget rs r) a e /\ idxok (dget rs r) a idx /\
    (forall s mu, cget cs r (s, mu) -> tracked_for_store (dget rs r) a idx mu)
  | ARange r a e lb ub val => range_ok (dget rs r) a e lb ub /\ le_pv lb /\ le_pv ub /\ le_pv val
  | ACopyArr _ lhs rhs => layout_ok lhs rhs
  | AJoin _ s t | AWiden _ s t | AWidenThr _ s t _ => join_ok (dget rs s) (dget rs t) (cget cs s) (cget cs t)
  | AMeet _ _ _ | ANarrow _ _ _ => False
  | _ => True
  end.

Lemma inv_bot : inv a_bot.
Proof. left. reflexivity. Qed.

Lemma jk_rel k rs cs r s t d' : rel rs cs -> join_ok (dget rs s) (dget rs t) (cget cs s) (cget cs t) ->
  jk_run k (dget rs s) (dget rs t) = Some d' ->
  rel (dset rs r d') (csetr cs r (fun c => cget cs s c \/ cget cs t c)).
Proof.
  intros R (ND & REG & LX & LY & TX & TY & TR1 & TR2) E. pose proof R as (_ & RI & RG).
  apply rel_set; auto; [exact (jk_inv k _ _ _ (RI s) (RI t) ND REG E)|].
  intros [s0 mu] C. apply (jk_Ga k (dget rs s) (dget rs t) d' s0 mu); auto.
  destruct C as [C|C]; [left|right]; split; auto.
  - exact (TR1 s0 mu C).
  - intros a st y F1 F2. exact (TR2 s0 mu C a y st F2 F1).
Qed.

Theorem dstep_sound rs cs o rs' :
  rel rs cs -> hop_okA rs cs o -> dstep p rs o = Some rs' -> rel rs' (cstepA cs o).
Proof.
  intros R OK H. pose proof R as (L & RI & RG).
  destruct o; cbn [dstep cstepA cstep hop_okA] in *.
  - inversion H; subst. apply rel_set; auto. apply inv_top. intros c _. apply Ga_top.
  - inversion H; subst. apply rel_set; auto. apply inv_bot. intros c [].
  - inversion H; subst. apply rel_set; auto.
  - inversion H; subst. destruct OK as [P1 P2]. apply rel_set; auto.
    + apply assign_inv; auto.
    + intros c (s & mu & C & E1 & E2). apply (Ga_post _ c _ mu E1 E2).
      apply assign_Ga; auto.
  - inversion H; subst. destruct OK as (P1 & P2 & P3). apply rel_set; auto.
    + apply arith_inv; auto.
    + intros c (s & mu & v & C & AS & E1 & E2). apply (Ga_post _ c _ mu E1 E2).
      eapply arith_Ga; eauto.
  - inversion H; subst. apply rel_set; auto.
    + apply assume_inv; auto. intros c I. apply (OK c I).
    + intros [s mu] [C S]. apply assume_Ga; auto.
  - inversion H; subst. apply rel_set; auto.
    + apply forget_inv; auto.
    + intros [s1 mu1] (s & mu & C & E1 & E2). apply (forget_Ga vs (dget rs r) s mu s1 mu1); auto.
  - inversion H; subst. apply rel_set; auto.
    + apply forget1_inv; auto.
    + intros [s1 mu1] (s & mu & C & E1 & E2). apply (forget1_Ga v (dget rs r) s mu s1 mu1); auto.
  - destruct OK.
  - destruct v as [x|a], nv as [y|b]; try destruct OK.
    destruct (a_expand (VS x) (VS y) (dget rs r)) as [d'|] eqn:E; inversion H; subst.
    apply rel_set; auto.
    + eapply expand_inv; eauto.
    + intros c (s & mu & C & E1 & E2). apply (Ga_post _ c _ mu E1 E2).
      eapply expand_Ga; eauto.
  - destruct from as [|[x|a] [|? ?]]; try tauto; destruct to as [|[y|b] [|? ?]]; try tauto.
    destruct OK as (P1 & P2 & P3).
    destruct (a_rename [VS x] [VS y] (dget rs r)) as [d'|] eqn:E; inversion H; subst.
    apply rel_set; auto.
    + eapply rename_scalar_inv; eauto.
    + intros c (s & mu & h & C & E1 & E2). apply (Ga_post _ c _ mu E1 E2).
      eapply rename_scalar_Ga; eauto.
  - destruct OK as [P1 P2].
    destruct (a_array_init p a esz0 lb ub val (dget rs r)) as [d'|] eqn:E; inversion H; subst.
    apply rel_set; auto.
    + eapply init_inv; eauto.
    + intros [s1 mu1] (s & mu & C & SZ & E1 & E2). cbn [fst snd] in *. subst s1.
      exact (proj1 (init_sound a esz0 lb ub val (dget rs r) d' s mu mu1 (RI r) P1 P2 (RG r _ C) E2 E)).
  - destruct OK as (P1 & P2 & P3 & P4 & P5 & P6).
    destruct (a_array_load p lhs a esz0 idx (dget rs r)) as [d'|] eqn:E; inversion H; subst.
    apply rel_set; auto.
    + eapply load_inv; eauto.
    + intros c (s & mu & v & C & SZ & AL & O & M & E1 & E2). apply (Ga_post _ c _ mu E1 E2).
      exact (load_Ga lhs a esz0 idx (dget rs r) d' s mu v (RI r) P1 P2 P3 P4 SZ AL O M (RG r _ C) E).
  - destruct OK as (P1 & P2 & P3 & P4 & P5 & P6 & P7).
    destruct (a_array_store p a esz0 idx val strong (dget rs r)) as [d'|] eqn:E; inversion H; subst.
    apply rel_set; auto.
    + eapply store_inv; eauto.
    + intros [s1 mu1] (s & mu & C & SZ & AL & ST & E1 & E2 & E3). cbn [fst snd] in *. subst s1.
      exact (store_Ga a esz0 idx val strong (dget rs r) d' s mu mu1 (RI r) P1 P2 P3 P4 SZ AL ST (RG r _ C)
               (P7 s mu C) E2 E3 E).
  - destruct OK as (P1 & P2 & P3 & P4).
    destruct (a_array_store_range p a esz0 lb ub val (dget rs r)) as [d'|] eqn:E; inversion H; subst.
    apply rel_set; auto.
    + eapply store_range_inv; eauto.
    + intros [s1 mu1] (s & mu & C & SZ & E1 & E2). cbn [fst snd] in *. subst s1.
      exact (proj1 (store_range_sound a esz0 lb ub val (dget rs r) d' s mu mu1 (RI r) P1 P2 P3 P4 (RG r _ C) E2 E)).
  - inversion H; subst. apply rel_set; auto.
    + apply arr_assign_inv; auto.
    + intros [s1 mu1] (s & mu & C & E1 & E2 & E3). cbn [fst snd] in *. subst s1.
      apply (arr_assign_Ga lhs rhs (dget rs r) s mu mu1); auto.
  - destruct (a_join p (dget rs s) (dget rs t)) as [d'|] eqn:E; inversion H; subst.
    exact (jk_rel JJoin rs cs r s t d' R OK E).
  - destruct OK.
  - destruct (a_widen p (dget rs s) (dget rs t)) as [d'|] eqn:E; inversion H; subst.
    exact (jk_rel JWiden rs cs r s t d' R OK E).
  - destruct OK.
  - destruct (a_widen_thr p ths (dget rs s) (dget rs t)) as [d'|] eqn:E; inversion H; subst.
    exact (jk_rel (JThr ths) rs cs r s t d' R OK E).
Qed.

Fixpoint hist_okA (rs : list adom) (cs : list cset) (h : list ahop) : Prop :=
  match h with
  | [] => True
  | o :: r => hop_okA rs cs o /\
              match dstep p rs o with Some rs' => hist_okA rs' (cstepA cs o) r | None => True end
  end.

Theorem dhistory_sound h : forall rs cs rs',
  rel rs cs -> hist_okA rs cs h -> drun p rs h = Some rs' -> rel rs' (fold_left cstepA h cs).
Proof.
  induction h as [|o r IH]; simpl; intros rs cs rs' R OK H.
  - inversion H; subst; auto.
  - destruct OK as [O1 O2]. destruct (dstep p rs o) as [rs1|] eqn:E; [|discriminate].
    eapply IH; eauto. eapply dstep_sound; eauto.
Qed.

Lemma dget_repeat_top n r : dget (repeat a_top n) r = a_top.
Proof. apply nth_repeat. Qed.

Lemma rel_tops n (c : cset) : rel (repeat a_top n) (repeat c n).
Proof.
  split; [rewrite !repeat_length; auto|]. split; intros r; rewrite dget_repeat_top; [apply inv_top|].
  intros x _. apply Ga_top.
Qed.
Lemma rel_top n : rel (repeat a_top n) (repeat (fun _ => True) n).
Proof. apply rel_tops. Qed.

(* every value read from a cell is in the abstract value of the variable receiving the load *)
Theorem dload_value_sound rs cs r lhs a e idx rs' :
  rel rs cs -> hop_okA rs cs (ALoad r lhs a e idx) ->
  dstep p rs (ALoad r lhs a e idx) = Some rs' -> (r < length rs)%nat ->
  forall s mu v, cget cs r (s, mu) ->
    eval_le e s = esz a -> aligned (esz a) (eval_le idx s) -> cell_ok onecell a (eval_le idx s) ->
    mu a (eval_le idx s) = Some v ->
    gamma (a_at (dget rs' r) lhs) v.
Proof.
  intros R OK RUN LT s mu v C SZ AL O M.
  pose proof (dstep_sound _ _ _ _ R OK RUN) as (LEN & _ & R').
  destruct R as (L & _). destruct OK as (IS & _).
  specialize (R' r (upd s lhs v, mu)). cbn [cstepA] in R'.
  rewrite cget_csetr in R' by lia. rewrite Nat.eqb_refl in R'.
  assert (GG : Ga (dget rs' r) (upd s lhs v, mu)).
  { apply R'. exists s, mu, v. split; [exact C|]. split; [exact SZ|]. split; [exact AL|]. split; [exact O|].
    split; [exact M|]. split; [reflexivity|]. intros b i. reflexivity. }
  pose proof (Ga_at _ _ _ lhs GG IS) as X. rewrite upd_same in X. exact X.
Qed.

Theorem dreach_not_bottom rs cs r c : rel rs cs -> cget cs r c -> a_is_bottom (dget rs r) = false.
Proof. intros (_ & _ & R) C. eapply Ga_not_bottom; eauto. Qed.

Theorem dreach_at_sound rs cs r s mu x : rel rs cs -> cget cs r (s, mu) -> is_pv x ->
  gamma (a_at (dget rs r) x) (s x).
Proof. intros (_ & _ & R) C P. apply (Ga_at _ _ _ x (R _ _ C) P). Qed.

(* the invariant through a join of values that track the same cells *)
Definition shape_ok (X Y : adom) : Prop :=
  (forall a, am_find (d_arrs X) a = None <-> am_find (d_arrs Y) a = None) /\
  (forall a x y, am_find (d_arrs X) a = Some x -> am_find (d_arrs Y) a = Some y ->
     as_smashed x = false -> as_smashed y = false ->
     forall o sz, gh_has (d_gh X) a o sz = true <-> gh_has (d_gh Y) a o sz = true).

Lemma join_like_trk eop x y d' s mu : inv x -> inv y -> NoDup (map fst (d_arrs x)) -> jreg x y ->
  shape_ok x y -> trk x (s, mu) \/ trk y (s, mu) ->
  join_like p (jop eop) gh_join x y = Some d' -> trk d' (s, mu).
Proof.
  intros IX IY ND REG [SK SG] TK H.
  destruct (join_like_spec _ _ _ _ _ IX IY ND REG H)
    as (m & x' & y' & -> & _ & _ & ((K1 & S1) & _) & ((K2 & S2) & _) & _ & M1 & M2).
  intros a. destruct (am_find (d_arrs x) a) as [xa|] eqn:FX.
  - destruct (am_find (d_arrs y) a) as [ya|] eqn:FY; [|apply SK in FY; congruence].
    destruct (am_find (d_arrs x') a) as [sx|] eqn:FX'; [|apply K1 in FX'; congruence].
    destruct (am_find (d_arrs y') a) as [sy|] eqn:FY'; [|apply K2 in FY'; congruence].
    destruct (M2 a sx sy FX' FY') as (res & FM & J1 & J2 & J3).
    destruct (as_smashed res) eqn:SR; [left; exists res; auto|]. right.
    symmetry in J1. apply orb_false_iff in J1. destruct J1 as [SX SY].
    (* neither side was smashed: the states and the ghosts are those of the operands *)
    destruct (S1 a xa sx FX FX') as [[-> GX]|(_ & X & _)]; [|congruence].
    destruct (S2 a ya sy FY FY') as [[-> GY]|(_ & X & _)]; [|congruence].
    intros o v AL O M. cbn [snd] in M.
    assert (TC : exists c, (In c (as_map xa) \/ In c (as_map ya)) /\ c_off c = o /\ c_size c = esz a /\
                           gh_has (d_gh x) a o (esz a) = true /\ gh_has (d_gh y) a o (esz a) = true).
    { destruct TK as [TK|TK]; (destruct (TK a) as [(st0 & F0 & S0)|AT]; [congruence|]);
        destruct (AT o v AL O M) as (st0 & F0 & S0 & (c & J & E1 & E2) & GH);
        [rewrite FX in F0|rewrite FY in F0]; inversion F0; subst st0; exists c;
        (split; [auto|]); (split; [auto|]); (split; [auto|]); split; auto; apply (SG a xa ya); auto. }
    destruct TC as (c & J & E1 & E2 & G1 & G2).
    destruct (J3 eq_refl c J) as (c' & I' & F1 & F2).
    exists res. cbn [d_arrs d_gh]. split; auto. split; auto. split.
    + exists c'. split; auto. split; congruence.
    + apply gh_join_has; auto.
  - assert (FY : am_find (d_arrs y) a = None) by (apply SK; auto).
    right. intros o v AL O M. cbn [snd] in M. exfalso.
    destruct TK as [TK|TK]; (destruct (TK a) as [(st0 & F0 & S0)|AT]; [congruence|]);
      destruct (AT o v AL O M) as (st0 & F0 & _); congruence.
Qed.

Lemma jk_trk k x y d' s mu : inv x -> inv y -> NoDup (map fst (d_arrs x)) -> jreg x y ->
  shape_ok x y -> a_is_top x = false -> a_is_top y = false ->
  (Ga x (s, mu) /\ trk x (s, mu)) \/ (Ga y (s, mu) /\ trk y (s, mu)) ->
  jk_run k x y = Some d' -> trk d' (s, mu).
Proof.
  intros IX IY ND REG SH TX TY HC H.
  destruct (jk_shortcuts k x y) as [[Q [W|W]]|[[Q [W|W]]|(_ & _ & Q)]]; rewrite Q in H; try congruence.
  - (* y describes nothing *)
    inversion H; subst d'. destruct HC as [[_ T]|[HG _]]; auto.
    rewrite (Ga_not_bottom _ _ HG) in W. discriminate.
  - inversion H; subst d'. destruct HC as [[HG _]|[_ T]]; auto.
    rewrite (Ga_not_bottom _ _ HG) in W. discriminate.
  - refine (join_like_trk (jk_eop k) x y d' s mu IX IY ND REG SH _ H). destruct HC as [[_ T]|[_ T]]; auto.
Qed.

(* soundness with the invariant carried along (smashable settings) *)
Definition relT (rs : list adom) (cs : list cset) : Prop :=
  rel rs cs /\ forall r c, (r < length rs)%nat -> cget cs r c -> trk (dget rs r) c.

Definition scalar_var (v : avar) : Prop := exists x, v = VS x /\ is_pv x.

Definition joinT_ok (X Y : adom) : Prop :=
  NoDup (map fst (d_arrs X)) /\ jreg X Y /\ Lsz X /\ Lsz Y /\ shape_ok X Y /\
  a_is_top X = false /\ a_is_top Y = false.

(* side conditions that only look at the abstract state; the operations that lose track of
   defined cells (top, forget / project / rename / copy of arrays, joins of values that track different
   cells) are not covered here *)
Definition hop_okT (rs : list adom) (o : ahop) : Prop :=
  match o with
  | AJoin _ s t | AWiden _ s t | AWidenThr _ s t _ =>
    joinT_ok (dget rs s) (dget rs t) /\ (s < length rs)%nat /\ (t < length rs)%nat
  | ABot _ => True
  | ACopy _ s => (s < length rs)%nat
  | AAssign _ x e => is_pv x /\ le_pv e
  | AArith _ _ x y z => is_pv x /\ is_pv y /\ operand_pv z
  | AAssume _ cl => forall c, In c cl -> wf_lc c /\ lc_pv c
  | AForget _ vs => forall v, In v vs -> scalar_var v
  | AForget1 _ v => scalar_var v
  | AExpand _ (VS x) (VS y) => is_pv x /\ is_pv y
  | ARename r [VS x] [VS y] => is_pv x /\ is_pv y /\ is_top (e_at (a_base (d_base (dget rs r))) y) = true
  | AInit r a e lb ub val => init_ok (dget rs r) a e lb ub /\ le_pv val
  | ALoad r lhs a e idx =>
    is_pv lhs /\ le_pv e /\ le_pv idx /\ wf_le idx /\ szok (dget rs r) a e /\ idxok (dget rs r) a idx
  | AStore r a e idx val _ =>
    le_pv e /\ le_pv idx /\ wf_le idx /\ le_pv val /\ szok (dget rs r) a e /\ idxok (dget rs r) a idx /\
    store_keeps (dget rs r) a idx /\ (r < length rs)%nat
  | ARange r a e lb ub val =>
    range_ok (dget rs r) a e lb ub /\ le_pv lb /\ le_pv ub /\ le_pv val /\
    (a_is_bottom (dget rs r) = false ->
     exists l u, isingleton (d_eval lb (a_base (d_base (dget rs r)))) = Some l /\
                 isingleton (d_eval ub (a_base (d_base (dget rs r)))) = Some u)
  | _ => False
  end.

Lemma trk_tracked_for_store d a idx s mu : trk d (s, mu) -> tracked_for_store d a idx mu.
Proof.
  intros TK st F S _ _. destruct (TK a) as [(st0 & F0 & S0)|X]; [congruence|exact X].
Qed.

Lemma joinT_join_ok rs cs s t : relT rs cs -> joinT_ok (dget rs s) (dget rs t) ->
  (s < length rs)%nat -> (t < length rs)%nat ->
  join_ok (dget rs s) (dget rs t) (cget cs s) (cget cs t).
Proof.
  intros [R TK] (ND & REG & LX & LY & SH & TX & TY) LS LT.
  split; auto. split; auto. split; auto. split; auto.
  split; [intros E; congruence|]. split; [intros E; congruence|]. split.
  - intros s0 mu C a st sy F FY S SY. destruct (TK s _ LS C a) as [(st0 & F0 & S0)|X]; auto. congruence.
  - intros s0 mu C a st sy F FY S SY. destruct (TK t _ LT C a) as [(st0 & F0 & S0)|X]; auto. congruence.
Qed.

Lemma hop_okT_A rs cs o : relT rs cs -> hop_okT rs o -> hop_okA rs cs o.
Proof.
  intros RT OK. pose proof RT as [R TK]. destruct o; cbn [hop_okT hop_okA] in *; try tauto; auto.
  - intros v I. destruct (OK v I) as (x & -> & P). exact P.
  - destruct OK as (x & -> & P). exact P.
  - destruct OK as (P1 & P2 & P3 & P4 & P5 & P6 & P7 & P8). repeat (split; auto).
    intros s mu C. apply (trk_tracked_for_store _ _ _ s). apply TK; auto.
  - destruct OK as (J & LS & LT). apply joinT_join_ok; auto.
  - destruct OK as (J & LS & LT). apply joinT_join_ok; auto.
  - destruct OK as (J & LS & LT). apply joinT_join_ok; auto.
Qed.

(* a property of the reached states of every register, after one register is set *)
Lemma regs_set (Q : adom -> cst -> Prop) rs cs r d (c : cset) : length rs = length cs ->
  (forall r' x, (r' < length rs)%nat -> cget cs r' x -> Q (dget rs r') x) ->
  ((r < length rs)%nat -> forall x, c x -> Q d x) ->
  forall r' x, (r' < length (dset rs r d))%nat -> cget (csetr cs r c) r' x -> Q (dget (dset rs r d) r') x.
Proof.
  intros L H HD r' x LR. rewrite dset_length in LR. destruct (Nat.lt_ge_cases r (length rs)) as [LT|GE].
  - rewrite dget_dset by auto. rewrite cget_csetr by lia. destruct (Nat.eqb r' r); auto.
  - rewrite dset_oob by auto. rewrite csetr_oob by lia. auto.
Qed.

Lemma relT_set rs cs r d (c : cset) : relT rs cs -> inv d -> (forall x, c x -> Ga d x) ->
  (forall x, c x -> trk d x) -> relT (dset rs r d) (csetr cs r c).
Proof.
  intros [R TK] I HG HT. split; [apply rel_set; auto|]. destruct R as (L & _). apply regs_set; auto.
Qed.

Lemma jk_relT k rs cs s t d' : relT rs cs -> joinT_ok (dget rs s) (dget rs t) /\ (s < length rs)%nat /\ (t < length rs)%nat ->
  jk_run k (dget rs s) (dget rs t) = Some d' -> forall x, cget cs s x \/ cget cs t x -> trk d' x.
Proof.
  intros [(L & RI & RG) TK] ((ND & REG & LX & LY & SH & TX & TY) & LS & LT) E [s0 mu] C.
  apply (jk_trk k (dget rs s) (dget rs t) d' s0 mu); auto.
  destruct C as [C|C]; [left|right]; split; auto.
Qed.

Theorem dstep_sound_tracked rs cs o rs' : p_smashable p = true ->
  relT rs cs -> hop_okT rs o -> dstep p rs o = Some rs' -> relT rs' (cstepA cs o).
Proof.
  intros SM RT OK H. pose proof (hop_okT_A _ _ _ RT OK) as OKA.
  pose proof RT as [R TK]. split; [exact (dstep_sound _ _ _ _ R OKA H)|]. pose proof R as (L & RI & RG).
  (* a step that leaves the arrays, the ghosts and the memory alone *)
  assert (FR : forall r d' c c', (r < length rs)%nat -> cget cs r c -> d_arrs d' = d_arrs (dget rs r) ->
            d_gh d' = d_gh (dget rs r) -> same_mem (snd c') (snd c) -> trk d' c').
  { intros r d' c c' LT C EA EG EM. exact (trk_frame _ _ c c' EA EG EM (TK r c LT C)). }
  destruct o; cbn [dstep cstepA cstep hop_okT] in *; try (exfalso; exact OK).
  - inversion H; subst. apply regs_set; auto. intros LT x [].
  - inversion H; subst. apply regs_set; auto.
  - inversion H; subst. apply regs_set; auto. intros LT c (s & mu & C & E1 & E2). exact (FR r _ _ c LT C eq_refl eq_refl E2).
  - inversion H; subst. apply regs_set; auto. intros LT c (s & mu & v & C & AS & E1 & E2).
    exact (FR r _ _ c LT C eq_refl eq_refl E2).
  - inversion H; subst. apply regs_set; auto. intros LT c [C S]. apply (FR r _ c c LT C); auto. intros b i. auto.
  - inversion H; subst. apply regs_set; auto. intros LT c (s & mu & C & E1 & E2).
    destruct (forget_scalars_frame vs (dget rs r)) as [EA EG].
    { intros a I. destruct (OK _ I) as (x & E & _). discriminate. }
    apply (FR r _ (s, mu) c LT C); auto. intros b i. apply E2. intros I. destruct (OK _ I) as (x & E & _). discriminate.
  - inversion H; subst. apply regs_set; auto. intros LT c (s & mu & C & E1 & E2). destruct OK as (x & -> & P).
    destruct (forget1_scalar_frame x (dget rs r)) as [EA EG].
    apply (FR r _ (s, mu) c LT C); auto. intros b i. apply E2. discriminate.
  - destruct v as [x|a], nv as [y|b]; try destruct OK.
    destruct (a_expand (VS x) (VS y) (dget rs r)) as [d'|] eqn:E; inversion H; subst.
    apply regs_set; auto. intros LT c (s & mu & C & E1 & E2).
    destruct (expand_frame _ _ _ _ E) as [EA EG]. exact (FR r _ _ c LT C EA EG E2).
  - destruct from as [|[x|a] [|? ?]]; try tauto; destruct to as [|[y|b] [|? ?]]; try tauto.
    destruct (a_rename [VS x] [VS y] (dget rs r)) as [d'|] eqn:E; inversion H; subst.
    apply regs_set; auto. intros LT c (s & mu & h & C & E1 & E2).
    destruct (rename_scalar_frame _ _ _ _ E) as [EA EG]. exact (FR r _ _ c LT C EA EG E2).
  - destruct OK as [P1 P2].
    destruct (a_array_init p a esz0 lb ub val (dget rs r)) as [d'|] eqn:E; inversion H; subst.
    apply regs_set; auto. intros LT [s1 mu1] (s & mu & C & SZ & E1 & E2). cbn [fst snd] in *. subst s1.
    exact (proj2 (init_sound a esz0 lb ub val (dget rs r) d' s mu mu1 (RI r) P1 P2 (RG r _ C) E2 E) SM (TK r _ LT C)).
  - destruct OK as (P1 & P2 & P3 & P4 & P5 & P6).
    destruct (a_array_load p lhs a esz0 idx (dget rs r)) as [d'|] eqn:E; inversion H; subst.
    apply regs_set; auto. intros LT c (s & mu & v & C & SZ & AL & O & M & E1 & E2).
    apply (trk_frame d' _ (fst c, mu)); auto.
    exact (load_trk lhs a esz0 idx (dget rs r) d' s _ mu (RI r) P5 P3 AL (RG r _ C) (TK r _ LT C) E).
  - destruct OK as (P1 & P2 & P3 & P4 & P5 & P6 & P7 & P8).
    destruct (a_array_store p a esz0 idx val strong (dget rs r)) as [d'|] eqn:E; inversion H; subst.
    apply regs_set; auto. intros LT [s1 mu1] (s & mu & C & SZ & AL & ST & E1 & E2 & E3).
    cbn [fst snd] in *. subst s1.
    exact (store_trk a esz0 idx val strong (dget rs r) d' s mu mu1 SM (RI r) P2 AL P5 (RG r _ C) (TK r _ LT C) P7 E2 E3 E).
  - destruct OK as (P1 & P2 & P3 & P4 & P5).
    destruct (a_array_store_range p a esz0 lb ub val (dget rs r)) as [d'|] eqn:E; inversion H; subst.
    apply regs_set; auto. intros LT [s1 mu1] (s & mu & C & SZ & E1 & E2). cbn [fst snd] in *. subst s1.
    refine (proj2 (store_range_sound a esz0 lb ub val (dget rs r) d' s mu mu1 (RI r) P1 P2 P3 P4 (RG r _ C) E2 E) SM (TK r _ LT C) _).
    apply P5. eapply Ga_not_bottom. apply (RG r _ C).
  - destruct (a_join p (dget rs s) (dget rs t)) as [d'|] eqn:E; inversion H; subst.
    apply regs_set; auto. intros _. exact (jk_relT JJoin rs cs s t d' RT OK E).
  - destruct (a_widen p (dget rs s) (dget rs t)) as [d'|] eqn:E; inversion H; subst.
    apply regs_set; auto. intros _. exact (jk_relT JWiden rs cs s t d' RT OK E).
  - destruct (a_widen_thr p ths (dget rs s) (dget rs t)) as [d'|] eqn:E; inversion H; subst.
    apply regs_set; auto. intros _. exact (jk_relT (JThr ths) rs cs s t d' RT OK E).
Qed.

Fixpoint hist_okT (rs : list adom) (h : list ahop) : Prop :=
  match h with
  | [] => True
  | o :: r => hop_okT rs o /\ match dstep p rs o with Some rs' => hist_okT rs' r | None => True end
  end.

Theorem dhistory_sound_tracked h : p_smashable p = true -> forall rs cs rs',
  relT rs cs -> hist_okT rs h -> drun p rs h = Some rs' -> relT rs' (fold_left cstepA h cs).
Proof.
  intros SM. induction h as [|o r IH]; simpl; intros rs cs rs' R OK H.
  - inversion H; subst; auto.
  - destruct OK as [O1 O2]. destruct (dstep p rs o) as [rs1|] eqn:E; [|discriminate].
    eapply IH; eauto. eapply dstep_sound_tracked; eauto.
Qed.

(* executions start with no cell defined *)
Definition empty_mem : cset := fun c => forall a o, snd c a o = None.

Lemma relT_top n : relT (repeat a_top n) (repeat empty_mem n).
Proof.
  split; [apply rel_tops|]. intros r c LT C a. rewrite repeat_length in LT. right. intros o v _ _ M.
  unfold cget in C. rewrite nth_indep with (d' := empty_mem), nth_repeat in C by (rewrite repeat_length; auto).
  rewrite C in M. discriminate.
Qed.

End Adapt.

(* Settings that are not smashable (is_smashable = false): no array is ever smashed, the
   hypothesis on tracked cells is never needed. *)
Section NoSmash.
Variable esz : arr -> Z.
Variable onecell : arr -> option Z.
Hypothesis esz_pos : forall a, 0 < esz a.
Variable p : params.
Hypothesis NS : p_smashable p = false.

Definition nosmash (d : adom) : Prop := forall a st, am_find (d_arrs d) a = Some st -> as_smashed st = false.

Lemma nosmash_lookup d a st d1 : lookup d a = (st, d1) -> nosmash d -> nosmash d1 /\ as_smashed st = false.
Proof.
  intros LK H. destruct (lookup_spec _ _ _ _ LK) as (_ & _ & F & FO & FD).
  assert (S : as_smashed st = false) by (destruct FD as [FD|[_ ->]]; [eapply H; eauto|reflexivity]).
  split; auto. intros b st0 F0. destruct (N.eq_dec b a) as [->|N]; [congruence|]. rewrite FO in F0 by auto. eauto.
Qed.

Lemma nosmash_set d a st' b' g' : nosmash d -> as_smashed st' = false -> nosmash (set_arr d a st' b' g').
Proof.
  intros H S c st0 F0. cbn [set_arr d_arrs] in F0. destruct (N.eq_dec c a) as [->|N].
  - rewrite am_find_set_same in F0. destruct (am_find (d_arrs d) a) as [old|] eqn:F; inversion F0; subst; auto.
    destruct (as_set_cases old st') as [-> | ->]; eauto.
  - rewrite am_find_set_other in F0 by auto. eauto.
Qed.

Lemma nosmash_same d d' : same_arrays d d' -> nosmash d -> nosmash d'.
Proof. intros [E _] H a st F. rewrite E in F. eauto. Qed.
Lemma nosmash_base d b' : nosmash d -> nosmash (with_base d b').
Proof. apply nosmash_same. split; auto. Qed.

Lemma smash_cond_false st k : smash_cond p st k = false.
Proof. unfold smash_cond. rewrite NS. reflexivity. Qed.

Lemma nosmash_store a ez idx val strong d d' : nosmash d ->
  a_array_store p a ez idx val strong d = Some d' -> nosmash d'.
Proof.
  intros H E. unfold a_array_store in E. destruct (a_is_bottom d); [inversion E; subst; auto|].
  destruct (check_elem_size _ _) as [k|]; [|discriminate]. cbn [obind] in E.
  destruct (lookup d a) as [st d1] eqn:LK. destruct (nosmash_lookup _ _ _ _ LK H) as [H1 S]. rewrite S in E.
  assert (NC : forall d2, store_nonconst p a ez idx val strong k st d1 = Some d2 -> nosmash d2).
  { intros d2 E2. unfold store_nonconst in E2. rewrite smash_cond_false in E2.
    destruct (kill _ _ _ _ _ _) as [[om1 b1] g1]. inversion E2; subst. apply nosmash_set; auto. }
  destruct (isingleton _) as [n|]; [|eauto]. destruct (_ <? _); [|eauto].
  destruct (kill _ _ _ _ _ _) as [[om1 b1] g1]. inversion E; subst. apply nosmash_set; auto.
Qed.

Lemma nosmash_load lhs a ez idx d d' : nosmash d -> a_array_load p lhs a ez idx d = Some d' -> nosmash d'.
Proof.
  intros H E. unfold a_array_load in E. destruct (a_is_bottom d); [inversion E; subst; auto|].
  destruct (check_elem_size _ _) as [k|]; [|discriminate]. cbn [obind] in E.
  destruct (lookup d a) as [st d1] eqn:LK. destruct (nosmash_lookup _ _ _ _ LK H) as [H1 S]. rewrite S in E.
  destruct (isingleton _) as [n|].
  - destruct (om_get_overlap _ _ _); inversion E; subst; [|apply nosmash_base; auto].
    apply nosmash_set; auto.
  - rewrite NS in E. cbn [andb] in E. inversion E; subst. apply nosmash_base; auto.
Qed.

Lemma nosmash_forget_array a d : nosmash d -> nosmash (forget_array a d).
Proof.
  intros H. unfold forget_array. destruct (lookup d a) as [st d1] eqn:LK.
  destruct (nosmash_lookup _ _ _ _ LK H) as [H1 S]. intros b st0 F0. cbn [d_arrs] in F0.
  destruct (N.eq_dec b a) as [->|N]; [rewrite am_find_remove_same in F0; discriminate|].
  rewrite am_find_remove_other in F0 by auto. eauto.
Qed.

Lemma nosmash_range_loop a ez val : forall n i step d d', nosmash d ->
  range_loop p a ez val i step n d = Some d' -> nosmash d'.
Proof.
  induction n as [|n IH]; simpl; intros i step d d' H E; [inversion E; subst; auto|].
  destruct (a_array_store p a ez (le_k i) val false d) as [d1|] eqn:ST; [|discriminate]. cbn [obind] in E.
  apply (IH (i + step) step d1 d'); [exact (nosmash_store _ _ _ _ _ _ _ H ST)|exact E].
Qed.

Lemma nosmash_range a ez lb ub val d d' : nosmash d ->
  a_array_store_range p a ez lb ub val d = Some d' -> nosmash d'.
Proof.
  intros H E. unfold a_array_store_range in E. destruct (a_is_bottom d); [inversion E; subst; auto|].
  destruct (check_elem_size _ _) as [k|]; [|discriminate]. cbn [obind] in E.
  destruct (isingleton (d_eval lb _)) as [l|]; [|inversion E; subst; apply nosmash_forget_array; auto].
  destruct (isingleton (d_eval ub _)) as [u|]; [|inversion E; subst; apply nosmash_forget_array; auto].
  destruct (u <? l); [inversion E; subst; auto|].
  destruct (range_loop _ _ _ _ _ _ _ _) as [d1|] eqn:RL; [|discriminate]. cbn [obind] in E.
  pose proof (nosmash_range_loop _ _ _ _ _ _ _ _ H RL) as H1.
  destruct (_ <? u); [|inversion E; subst; auto].
  destruct (a_is_bottom d1); [inversion E; subst; auto|].
  destruct (lookup d1 a) as [st d2] eqn:LK. destruct (nosmash_lookup _ _ _ _ LK H1) as [H2 S]. rewrite S in E.
  destruct (kill _ _ _ _ _ _) as [[om1 b1] g1]. inversion E; subst. apply nosmash_set; auto.
Qed.

Lemma nosmash_init a ez lb ub val d d' : nosmash d -> a_array_init p a ez lb ub val d = Some d' -> nosmash d'.
Proof.
  intros H E. unfold a_array_init in E. destruct (a_is_bottom d); [inversion E; subst; auto|].
  destruct (lookup d a) as [st d1] eqn:LK. destruct (nosmash_lookup _ _ _ _ LK H) as [H1 S]. rewrite S in E.
  eapply nosmash_range; [|exact E]. destruct (as_map st) as [|c r]; auto.
  destruct (kill _ _ _ _ _ _) as [[om1 b1] g1]. apply nosmash_set; auto.
Qed.

Lemma nosmash_assign lhs rhs d : nosmash d -> nosmash (a_array_assign p lhs rhs d).
Proof.
  intros H. unfold a_array_assign. destruct (a_is_bottom d); auto. destruct (N.eqb lhs rhs); auto.
  pose proof (nosmash_forget_array lhs d H) as H1.
  destruct (lookup (forget_array lhs d) rhs) as [st d2] eqn:LK.
  destruct (nosmash_lookup _ _ _ _ LK H1) as [H2 S]. rewrite S. cbn [negb].
  apply (nosmash_set d2); auto.
Qed.

Lemma nosmash_forget vs d : nosmash d -> nosmash (a_forget vs d).
Proof.
  intros H. unfold a_forget. destruct (_ || _); auto. apply nosmash_base.
  clear - H NS. revert d H. induction vs as [|v r IH]; simpl; intros d H; auto.
  apply IH. destruct v; auto. apply nosmash_forget_array; auto.
Qed.

Lemma in_list_am_find m a st : In (a, st) m -> exists st0, am_find m a = Some st0.
Proof.
  induction m as [|[b s0] r IH]; simpl; [tauto|]. intros [E|I].
  - inversion E; subst. rewrite N.eqb_refl. eauto.
  - destruct (N.eqb b a); eauto.
Qed.

Lemma nosmash_jk k x y d' : nosmash x -> nosmash y -> NoDup (map fst (d_arrs x)) ->
  jk_run p k x y = Some d' -> nosmash d'.
Proof.
  intros HX HY ND E. destruct (jk_cases p k x y) as [Q|[Q|(_ & _ & Q)]]; rewrite Q in E.
  - inversion E; subst; auto.
  - inversion E; subst; auto.
  - unfold join_like in E. destruct (am_join_loop _ _ _ _ _ _ _ _ _) as [[[m l] r]|] eqn:LP; [|discriminate].
    cbn [obind] in E. destruct l as [gl bl], r as [gr br]. inversion E; subst. intros a res F. cbn [d_arrs] in F.
    destruct (as_smashed res) eqn:SR; auto.
    destruct (am_join_loop_smashed p _ _ _ _ _ _ _ _ _ _ _ LP a res F SR) as (sx & sy & I & FY & S).
    rewrite (HX a sx (am_find_in_pair _ _ _ ND I)), (HY a sy FY) in S. discriminate.
Qed.

Definition nosmash_all (rs : list adom) : Prop := forall r, nosmash (dget rs r).

Lemma nosmash_top : nosmash a_top.
Proof. intros a st F. discriminate. Qed.

Lemma nosmash_dset rs r d : nosmash_all rs -> nosmash d -> nosmash_all (dset rs r d).
Proof.
  intros H D r'. destruct (Nat.lt_ge_cases r (length rs)) as [LT|GE].
  - rewrite dget_dset by auto. destruct (Nat.eqb r' r); auto.
  - rewrite dset_oob by auto. auto.
Qed.

(* side conditions without the hypothesis on tracked cells *)
Definition join_okB (X Y : adom) : Prop :=
  NoDup (map fst (d_arrs X)) /\ jreg p X Y /\ Lsz esz X /\ Lsz esz Y /\ top_empty X /\ top_empty Y.

Definition hop_okB (rs : list adom) (o : ahop) : Prop :=
  match o with
  | AStore r a e idx val _ =>
    le_pv e /\ le_pv idx /\ wf_le idx /\ le_pv val /\ szok esz (dget rs r) a e /\ idxok esz (dget rs r) a idx
  | AJoin _ s t | AWiden _ s t | AWidenThr _ s t _ => join_okB (dget rs s) (dget rs t)
  | _ => hop_okA esz onecell p rs [] o
  end.

Lemma join_okB_ok X Y cX cY : nosmash X -> nosmash Y -> join_okB X Y -> join_ok esz onecell p X Y cX cY.
Proof.
  intros HX HY (ND & REG & LX & LY & TX & TY). repeat (split; auto).
  - intros s0 mu C a st sy F FY S SY. rewrite (HY a sy FY) in SY. discriminate.
  - intros s0 mu C a st sy F FY S SY. rewrite (HX a st F) in SY. discriminate.
Qed.

Lemma hop_okB_A rs cs o : nosmash_all rs -> hop_okB rs o -> hop_okA esz onecell p rs cs o.
Proof.
  intros H OK. destruct o; cbn [hop_okB hop_okA] in *; auto; [|apply join_okB_ok; auto ..].
  destruct OK as (P1 & P2 & P3 & P4 & P5 & P6). repeat (split; auto).
  intros s mu C st F S NC SM. congruence.
Qed.

Lemma dstep_nosmash rs o rs' : nosmash_all rs -> hop_okB rs o -> dstep p rs o = Some rs' -> nosmash_all rs'.
Proof.
  intros H OK E. destruct o; cbn [dstep hop_okB hop_okA] in *.
  - inversion E; subst. apply nosmash_dset; auto. apply nosmash_top.
  - inversion E; subst. apply nosmash_dset; auto. apply nosmash_top.
  - inversion E; subst. apply nosmash_dset; auto.
  - inversion E; subst. apply nosmash_dset; auto. apply nosmash_base; auto.
  - inversion E; subst. apply nosmash_dset; auto. apply nosmash_base; auto.
  - inversion E; subst. apply nosmash_dset; auto. apply nosmash_base; auto.
  - inversion E; subst. apply nosmash_dset; auto. apply nosmash_forget; auto.
  - inversion E; subst. apply nosmash_dset; auto. destruct v as [x|a].
    + exact (nosmash_same _ _ (forget1_scalar_frame x _) (H r)).
    + unfold a_forget1. destruct (a_is_bottom _); auto. apply nosmash_forget_array; auto.
  - destruct OK.
  - destruct (a_expand v nv (dget rs r)) as [d'|] eqn:Q; inversion E; subst. apply nosmash_dset; auto.
    exact (nosmash_same _ _ (expand_frame _ _ _ _ Q) (H r)).
  - destruct from as [|[x|a] [|? ?]]; try tauto; destruct to as [|[y|b] [|? ?]]; try tauto.
    destruct (a_rename [VS x] [VS y] (dget rs r)) as [d'|] eqn:Q; inversion E; subst. apply nosmash_dset; auto.
    exact (nosmash_same _ _ (rename_scalar_frame _ _ _ _ Q) (H r)).
  - destruct (a_array_init p a esz0 lb ub val (dget rs r)) as [d'|] eqn:Q; inversion E; subst.
    apply nosmash_dset; auto. eapply nosmash_init; eauto.
  - destruct (a_array_load p lhs a esz0 idx (dget rs r)) as [d'|] eqn:Q; inversion E; subst.
    apply nosmash_dset; auto. eapply nosmash_load; eauto.
  - destruct (a_array_store p a esz0 idx val strong (dget rs r)) as [d'|] eqn:Q; inversion E; subst.
    apply nosmash_dset; auto. eapply nosmash_store; eauto.
  - destruct (a_array_store_range p a esz0 lb ub val (dget rs r)) as [d'|] eqn:Q; inversion E; subst.
    apply nosmash_dset; auto. eapply nosmash_range; eauto.
  - inversion E; subst. apply nosmash_dset; auto. apply nosmash_assign; auto.
  - destruct OK as (ND & _). destruct (a_join p (dget rs s) (dget rs t)) as [d'|] eqn:Q; inversion E; subst.
    apply nosmash_dset; auto. apply (nosmash_jk JJoin (dget rs s) (dget rs t)); auto.
  - destruct OK.
  - destruct OK as (ND & _). destruct (a_widen p (dget rs s) (dget rs t)) as [d'|] eqn:Q; inversion E; subst.
    apply nosmash_dset; auto. apply (nosmash_jk JWiden (dget rs s) (dget rs t)); auto.
  - destruct OK.
  - destruct OK as (ND & _). destruct (a_widen_thr p ths (dget rs s) (dget rs t)) as [d'|] eqn:Q; inversion E; subst.
    apply nosmash_dset; auto. apply (nosmash_jk (JThr ths) (dget rs s) (dget rs t)); auto.
Qed.

Fixpoint hist_okB (rs : list adom) (h : list ahop) : Prop :=
  match h with
  | [] => True
  | o :: r => hop_okB rs o /\ match dstep p rs o with Some rs' => hist_okB rs' r | None => True end
  end.

(* every history: no hypothesis on the concrete executions *)
Theorem dhistory_sound_nonsmashable h : forall rs cs rs',
  rel esz onecell rs cs -> nosmash_all rs -> hist_okB rs h -> drun p rs h = Some rs' ->
  rel esz onecell rs' (fold_left (cstepA esz onecell) h cs) /\ nosmash_all rs'.
Proof.
  induction h as [|o r IH]; simpl; intros rs cs rs' R H OK E.
  - inversion E; subst; auto.
  - destruct OK as [O1 O2]. destruct (dstep p rs o) as [rs1|] eqn:Q; [|discriminate].
    apply (IH rs1 (cstepA esz onecell cs o) rs'); auto.
    + exact (dstep_sound esz onecell esz_pos p rs cs o rs1 R (hop_okB_A rs cs o H O1) Q).
    + exact (dstep_nosmash rs o rs1 H O1 Q).
Qed.

Lemma nosmash_all_top n : nosmash_all (repeat a_top n).
Proof. intros r. rewrite dget_repeat_top. apply nosmash_top. Qed.

End NoSmash.

(* Non-vacuity: the shape of a loop.  Register 0 holds the loop head (the array initialised
   cell by cell), register 1 the body, whose store at a symbolic index smashes the array;
   the widening of the head with the body smashes the head's side too (array_state::join).
   The history is admissible for the theorem with the invariant; its abstract run and a
   state reached concretely are given. *)
Definition ex_esz : arr -> Z := fun _ => 4.
Definition ex_one : arr -> option Z := fun _ => None.
Definition ex_p : params := mkP true true 64 64.
Definition ex_A : arr := 5%N.
Definition ex_hist : list ahop :=
  [ AInit 0%nat ex_A (le_k 4) (le_k 0) (le_k 12) (le_k 5);
    ACopy 1%nat 0%nat;
    AAssume 1%nat [mkLC INEQ (mkLE [(-1, pv 1)] 0); mkLC INEQ (mkLE [(1, pv 1)] (-8))];
    AStore 1%nat ex_A (le_k 4) (le_var (pv 1)) (le_k 7) false;
    AWiden 0%nat 0%nat 1%nat;
    ALoad 0%nat (pv 0) ex_A (le_k 4) (le_k 8) ].
Definition ex_rs0 : list adom := [a_top; a_top].
Definition ex_op (i : nat) : ahop := nth i ex_hist (ABot 0%nat).
Definition ex_next (rs : list adom) (i : nat) : list adom :=
  match dstep ex_p rs (ex_op i) with Some r => r | None => [] end.

Definition ex_rs1 : list adom := Eval vm_compute in ex_next ex_rs0 0.
Definition ex_rs2 : list adom := Eval vm_compute in ex_next ex_rs1 1.
Definition ex_rs3 : list adom := Eval vm_compute in ex_next ex_rs2 2.
Definition ex_rs4 : list adom := Eval vm_compute in ex_next ex_rs3 3.
Definition ex_rs5 : list adom := Eval vm_compute in ex_next ex_rs4 4.
Definition ex_rs6 : list adom := Eval vm_compute in ex_next ex_rs5 5.

Lemma ex_step1 : dstep ex_p ex_rs0 (ex_op 0) = Some ex_rs1. Proof. vm_compute. reflexivity. Qed.
Lemma ex_step2 : dstep ex_p ex_rs1 (ex_op 1) = Some ex_rs2. Proof. vm_compute. reflexivity. Qed.
Lemma ex_step3 : dstep ex_p ex_rs2 (ex_op 2) = Some ex_rs3. Proof. vm_compute. reflexivity. Qed.
Lemma ex_step4 : dstep ex_p ex_rs3 (ex_op 3) = Some ex_rs4. Proof. vm_compute. reflexivity. Qed.
Lemma ex_step5 : dstep ex_p ex_rs4 (ex_op 4) = Some ex_rs5. Proof. vm_compute. reflexivity. Qed.
Lemma ex_step6 : dstep ex_p ex_rs5 (ex_op 5) = Some ex_rs6. Proof. vm_compute. reflexivity. Qed.

(* the body smashes the array, the widening smashes the head and widens the summary: the load returns [5, +oo] *)
Example ex_run : drun ex_p ex_rs0 ex_hist = Some ex_rs6 /\
  a_at (dget ex_rs6 0%nat) (pv 0) = mkI (Fin 5) PInf /\
  (exists st, am_find (d_arrs (dget ex_rs4 0%nat)) ex_A = Some st /\ as_smashed st = false) /\
  (exists st, am_find (d_arrs (dget ex_rs4 1%nat)) ex_A = Some st /\ as_smashed st = true) /\
  (exists st, am_find (d_arrs (dget ex_rs6 0%nat)) ex_A = Some st /\ as_smashed st = true).
Proof.
  split; [vm_compute; reflexivity|]. split; [vm_compute; reflexivity|].
  split; [|split]; eexists; split; vm_compute; reflexivity.
Qed.

Lemma ex_esz_pos : forall a, 0 < ex_esz a.
Proof. intros a. reflexivity. Qed.
Lemma ex_le_pv_var i : le_pv (le_var (pv i)).
Proof. intros c v [E|[]]. inversion E; subst. apply pv_is_pv. Qed.

Example ex_hist_okT : hist_okT ex_esz ex_p ex_rs0 ex_hist.
Proof.
  unfold ex_hist. cbn [hist_okT].
  change (AInit 0%nat ex_A (le_k 4) (le_k 0) (le_k 12) (le_k 5)) with (ex_op 0).
  change (ACopy 1%nat 0%nat) with (ex_op 1).
  change (AAssume 1%nat [mkLC INEQ (mkLE [(-1, pv 1)] 0); mkLC INEQ (mkLE [(1, pv 1)] (-8))]) with (ex_op 2).
  change (AStore 1%nat ex_A (le_k 4) (le_var (pv 1)) (le_k 7) false) with (ex_op 3).
  change (AWiden 0%nat 0%nat 1%nat) with (ex_op 4).
  change (ALoad 0%nat (pv 0) ex_A (le_k 4) (le_k 8)) with (ex_op 5).
  rewrite ex_step1, ex_step2, ex_step3, ex_step4, ex_step5, ex_step6.
  split; [|split; [|split; [|split; [|split; [|split; [|exact I]]]]]].
  - unfold ex_op, ex_hist. cbn [nth hop_okT]. split; [|apply le_pv_k]. exists 0, 12. split; auto. split; auto. split; auto.
    intros l u H1 H2 LU. rewrite d_eval_k, isingleton_iconst in H1, H2. inversion H1; inversion H2; subst.
    split; [split; [lia|reflexivity]|]. split; [vm_compute; discriminate|].
    intros _. right. vm_compute. discriminate.
  - unfold ex_op, ex_hist. cbn [nth hop_okT]. simpl. lia.
  - unfold ex_op, ex_hist. cbn [nth hop_okT]. intros c [<-|[<-|[]]]; split.
    + split; [repeat constructor; simpl; tauto|]. intros k v [E|[]]. inversion E. lia.
    + intros k v [E|[]]. inversion E; subst. apply pv_is_pv.
    + split; [repeat constructor; simpl; tauto|]. intros k v [E|[]]. inversion E. lia.
    + intros k v [E|[]]. inversion E; subst. apply pv_is_pv.
  - (* the symbolic store: the array is smashed *)
    unfold ex_op, ex_hist. cbn [nth hop_okT]. split; [apply le_pv_k|]. split; [apply ex_le_pv_var|].
    split; [split; [repeat constructor; simpl; tauto|intros k v [E|[]]; inversion E; lia]|].
    split; [apply le_pv_k|]. split; [apply (szok_k ex_esz)|].
    split; [intros n H; vm_compute in H; discriminate|].
    split; [|simpl; lia].
    unfold store_keeps. simpl. right. right. left. vm_compute. reflexivity.
  - (* the widening of the head (not smashed) with the body (smashed) *)
    unfold ex_op, ex_hist. cbn [nth hop_okT]. split; [|simpl; lia].
    split; [simpl; repeat constructor; simpl; tauto|].
    split.
    { intros m gl bl gr br H. vm_compute in H. inversion H; subst. repeat split; discriminate. }
    split.
    { right. split; [simpl; discriminate|]. intros b k H. simpl in H. discriminate. }
    split.
    { right. split; [simpl; discriminate|]. intros b k H. unfold dget, ex_rs4 in H.
      cbn [nth d_base a_la la_at lget] in H. destruct (N.eqb 10 b); inversion H. reflexivity. }
    split.
    { split.
      - intros a. unfold dget, ex_rs4. cbn [nth d_arrs am_find]. destruct (N.eqb 5 a); split; auto; discriminate.
      - intros a x y FX FY SX SY. unfold dget, ex_rs4 in FY. cbn [nth d_arrs am_find] in FY.
        destruct (N.eqb 5 a); inversion FY; subst. simpl in SY. discriminate. }
    split; vm_compute; reflexivity.
  - (* the load from the smashed array *)
    unfold ex_op, ex_hist. cbn [nth hop_okT]. split; [apply pv_is_pv|]. split; [apply le_pv_k|]. split; [apply le_pv_k|].
    split; [split; [constructor|intros k v []]|]. split; [apply (szok_k ex_esz)|].
    apply (idxok_k ex_esz). split; [lia|reflexivity].
Qed.

(* a concrete execution through the body: v1 = 4, the store writes A[4] := 7, after the
   widening the load reads A[8] = 5 *)
Example ex_hist_reached :
  exists c, cget (fold_left (cstepA ex_esz ex_one) ex_hist [empty_mem; empty_mem]) 0%nat c /\ fst c (pv 0) = 5.
Proof.
  set (s0 := fun x : var => if N.eqb x (pv 1) then 4 else 0).
  set (mu0 := fun (b : arr) (o : Z) => @None Z).
  set (mu1 := cwrite (fun b' o' => if N.eqb b' ex_A then None else mu0 b' o') ex_A 0 4 5 (rcount 0 12 4)).
  set (mu2 := fun (b : arr) (o : Z) => if N.eqb b ex_A && (o =? 4) then Some 7 else mu1 b o).
  exists (upd s0 (pv 0) 5, mu2). split; [|apply upd_same].
  unfold ex_hist. cbn [fold_left cstepA cstep cget csetr nth].
  exists s0, mu2, 5. split.
  - (* the widening: the state comes from the body *)
    right.
    exists s0, mu1. split.
    + split.
      * exists s0, mu0. split; [intros a o; reflexivity|]. split; [reflexivity|]. split; [reflexivity|].
        intros b o. reflexivity.
      * intros c [<-|[<-|[]]]; unfold sat; simpl; vm_compute; discriminate.
    + split; [reflexivity|]. split; [split; [vm_compute; discriminate|reflexivity]|].
      split; [discriminate|]. split; [reflexivity|]. split.
      * intros b o N. cbn [snd]. unfold mu2. destruct (N.eqb_spec b ex_A); [congruence|reflexivity].
      * intros i. cbn [snd]. unfold mu2. rewrite N.eqb_refl. simpl. reflexivity.
  - split; [reflexivity|]. split; [split; [vm_compute; discriminate|reflexivity]|].
    split; [exact I|]. split; [vm_compute; reflexivity|]. split; [reflexivity|]. intros b o. reflexivity.
Qed.
