(* ArraySmashSound.v — property C14 on the model of array_smashing<interval_domain>.

   Concrete semantics (word-level, as array_smashing.hpp documents): a state is a store of
   the scalars together with a memory [arr -> Z -> option Z] (byte offset -> value; [None]
   = the cell was never defined).  Every array [a] has ONE element size [esz a]: an array
   operation whose element-size expression does not evaluate to [esz a] has no successor
   state.  [onecell a = Some j] is the promise made by the client that sets
   is_strong_update (cfg.hpp: "only makes sense if lb = ub"; array_smashing updates the
   summary strongly): the array has the single cell [j]; accesses that break the promise
   (a load or a strong store at another offset) have no successor state.

   THEOREM [ahistory_sound]: for every history over several registers (initialisations,
   strong/weak/range stores, loads, copies, forget/project/expand, the numerical operations,
   joins and widenings in any interleaving) every state reached by the corresponding
   concrete operations is described by the abstract value of its register; in particular
   every value read from a cell is in gamma (at lhs) after the load ([aload_value_sound])
   and no reached state is bottom ([areach_not_bottom]).  Meet/narrowing are mirrored by the
   model (ArraySmash.v) but are outside the theorem ([hop_ok]); rename is covered for one
   variable at a time (what the generators produce), within its documented precondition. *)
From Coq Require Import ZArith NArith List Bool Lia.
From CrabV Require Import Base.ZInf Scalar.Itv Scalar.ItvSound Ir.Syntax Dom.ItvEnv Dom.ItvEnvSound
     Dom.ItvSolver Dom.ItvSolverSound Dom.ItvDomain Dom.ItvDomainSound Dom.History Dom.HistorySound
     Fix.Thresholds Fix.ThresholdsSound Dom.ArraySmash.
Import ListNotations.
Local Open Scope Z_scope.

Arguments d_add : simpl never.
Arguments d_assign : simpl never.
Arguments d_weak_assign : simpl never.
Arguments d_expand : simpl never.
Arguments d_forget : simpl never.
Arguments e_project : simpl never.

Definition is_prog (v : var) : Prop := (v mod 3 = 0)%N.
Definition is_progb (v : var) : bool := (v mod 3 =? 0)%N.
Lemma is_progb_spec v : is_progb v = true <-> is_prog v.
Proof. unfold is_progb, is_prog. apply N.eqb_eq. Qed.

Lemma ghost_mod a : (ghost a mod 3 = 1)%N.
Proof. unfold ghost. rewrite N.add_comm, N.mul_comm, N.mod_add by discriminate. reflexivity. Qed.
Lemma gcopy_mod a : (gcopy a mod 3 = 2)%N.
Proof. unfold gcopy. rewrite N.add_comm, N.mul_comm, N.mod_add by discriminate. reflexivity. Qed.
Lemma sv_prog x : is_prog (sv x).
Proof. unfold is_prog, sv. rewrite N.mul_comm. apply N.mod_mul. discriminate. Qed.
Lemma prog_not_ghost x a : is_prog x -> x <> ghost a.
Proof. intros P E. subst. red in P. rewrite ghost_mod in P. discriminate. Qed.
Lemma prog_not_gcopy x a : is_prog x -> x <> gcopy a.
Proof. intros P E. subst. red in P. rewrite gcopy_mod in P. discriminate. Qed.
Lemma ghost_not_gcopy a b : ghost a <> gcopy b.
Proof. intros E. pose proof (ghost_mod a) as H. rewrite E, gcopy_mod in H. discriminate. Qed.
Lemma ghost_inj a b : ghost a = ghost b -> a = b.
Proof. unfold ghost. lia. Qed.
Lemma ghost_not_prog a : ~ is_prog (ghost a).
Proof. intros P. red in P. rewrite ghost_mod in P. discriminate. Qed.

Lemma genv_upd e s x v : genv e s -> gamma (e_at e x) v -> genv e (upd s x v).
Proof.
  destruct e as [|m]; simpl; auto. intros G H k. destruct (N.eq_dec k x) as [->|N].
  - rewrite upd_same. auto.
  - rewrite upd_other by auto. apply G.
Qed.

(* expressions over program variables *)
Definition le_prog (e : linexp) : Prop := forall c v, In (c, v) (le_terms e) -> is_prog v.
Definition lc_prog (c : lincst) : Prop := le_prog (lc_exp c).
Definition agree (s' s : store) : Prop := forall x, is_prog x -> s' x = s x.

Lemma eval_le_agree e s' s : le_prog e -> agree s' s -> eval_le e s' = eval_le e s.
Proof. intros P A. apply eval_le_ext. intros c v I. apply A. eapply P; eauto. Qed.
Lemma sat_agree c s' s : lc_prog c -> agree s' s -> sat c s -> sat c s'.
Proof. intros P A. unfold sat. rewrite (eval_le_agree _ s' s); auto. Qed.

Lemma agree_upd s' s x v : agree s' s -> agree (upd s' x v) (upd s x v).
Proof.
  intros A k P. destruct (N.eq_dec k x) as [->|N]; [rewrite !upd_same|rewrite !upd_other by auto]; auto.
Qed.
Lemma agree_upd_nonprog s' s x v : agree s' s -> ~ is_prog x -> agree (upd s' x v) s.
Proof. intros A NP k P. rewrite upd_other; auto. intros ->. auto. Qed.

(* keys are unique in the environments built by the operations; what the proofs need is
   only [lget], so no invariant on the representation is required *)
Lemma lget_lremove_same m a : lget (lremove m a) a = None.
Proof.
  induction m as [|[b k] r IH]; simpl; auto. destruct (N.eqb_spec b a); simpl; auto.
  destruct (N.eqb_spec b a); try congruence; auto.
Qed.
Lemma lget_lremove_other m a b : b <> a -> lget (lremove m a) b = lget m b.
Proof.
  intros N. induction m as [|[c k] r IH]; simpl; auto. destruct (N.eqb_spec c a); simpl.
  - subst. destruct (N.eqb_spec a b); try congruence; auto.
  - rewrite IH; auto.
Qed.

Lemma la_at_set l a k b : l <> LBot ->
  la_at (la_set l a k) b = if N.eqb a b then BConst k else la_at l b.
Proof.
  destruct l as [|m]; [congruence|]. intros _. simpl. destruct (N.eqb_spec a b); auto.
  rewrite lget_lremove_other by auto. auto.
Qed.
Lemma la_set_not_bot l a k : l <> LBot -> la_set l a k <> LBot.
Proof. destruct l; simpl; congruence. Qed.
Lemma la_at_forget l a b : l <> LBot ->
  la_at (la_forget l a) b = if N.eqb a b then BTop else la_at l b.
Proof.
  destruct l as [|m]; [congruence|]. intros _. simpl. destruct (N.eqb_spec a b).
  - subst. rewrite lget_lremove_same. auto.
  - rewrite lget_lremove_other by auto. auto.
Qed.
Lemma la_forget_not_bot l a : l <> LBot -> la_forget l a <> LBot.
Proof. destruct l; simpl; congruence. Qed.
Lemma equal_size_spec l a k : equal_size l a k = true <-> la_at l a = BConst k.
Proof.
  destruct l as [|m]; simpl; [split; discriminate|]. destruct (lget m a) as [k'|].
  - rewrite Z.eqb_eq. split; intros H; [subst; auto|inversion H; auto].
  - split; discriminate.
Qed.
Lemma la_at_const_not_bot l a k : la_at l a = BConst k -> l <> LBot.
Proof. destruct l; simpl; congruence. Qed.

Lemma lget_in m a k : lget m a = Some k -> In (a, k) m.
Proof.
  induction m as [|[b kb] r IH]; simpl; [discriminate|]. destruct (N.eqb_spec b a).
  - intros H. inversion H; subst. auto.
  - auto.
Qed.
Lemma in_lget m a k : In (a, k) m -> exists k', lget m a = Some k'.
Proof.
  induction m as [|[b kb] r IH]; simpl; [tauto|]. intros [E|I].
  - inversion E; subst. rewrite N.eqb_refl. eauto.
  - destruct (N.eqb b a); eauto.
Qed.

Lemma lget_filter_some (f : arr * Z -> bool) m a k :
  lget (filter f m) a = Some k -> In (a, k) m /\ f (a, k) = true.
Proof. intros H. apply lget_in in H. apply filter_In in H. auto. Qed.
Lemma lget_filter (f : arr * Z -> bool) m a k :
  lget (filter f m) a = Some k -> exists k', lget m a = Some k'.
Proof. intros H. apply lget_filter_some in H. eapply in_lget, H. Qed.

(* the join keeps a size only if both sides have it *)
Lemma lm_join_get x y a k : lget (lm_join x y) a = Some k -> lget x a = Some k /\ lget y a = Some k.
Proof.
  unfold lm_join. intros H. apply lget_filter_some in H. destruct H as [I F]. cbn [fst snd] in F.
  apply in_map_iff in I. destruct I as (b & E & I). inversion E; subst. clear E.
  apply in_map_iff in I. destruct I as ([b' kb] & E & I). simpl in E. subst b'.
  apply in_lget in I. destruct I as [kx X]. rewrite X in *.
  destruct (lget y a) as [ky|]; [|discriminate]. apply Z.eqb_eq in F. subst. auto.
Qed.

Lemma la_join_const_l x y a k : x <> LBot -> la_at (la_join x y) a = BConst k -> la_at x a = BConst k.
Proof.
  destruct x as [|mx]; [congruence|]. intros _. destruct y as [|my]; simpl; auto.
  destruct (lget (lm_join mx my) a) as [k'|] eqn:E; [|discriminate]. intros H. inversion H; subst.
  apply lm_join_get in E. destruct E as [E _]. rewrite E. auto.
Qed.
Lemma la_join_const_r x y a k : y <> LBot -> la_at (la_join x y) a = BConst k -> la_at y a = BConst k.
Proof.
  destruct y as [|my]; [congruence|]. intros _. destruct x as [|mx]; simpl; auto.
  destruct (lget (lm_join mx my) a) as [k'|] eqn:E; [|discriminate]. intros H. inversion H; subst.
  apply lm_join_get in E. destruct E as [_ E]. rewrite E. auto.
Qed.
Lemma la_join_not_bot_l x y : x <> LBot -> la_join x y <> LBot.
Proof. destruct x, y; simpl; congruence. Qed.
Lemma la_join_not_bot_r x y : y <> LBot -> la_join x y <> LBot.
Proof. destruct x, y; simpl; congruence. Qed.

Section Smash.

Variable esz : arr -> Z.
Variable onecell : arr -> option Z.

Definition amem := arr -> Z -> option Z.
Definition cst := (store * amem)%type.
Definition cset := cst -> Prop.

Definition cell_ok (a : arr) (i : Z) : Prop :=
  match onecell a with Some j => i = j | None => True end.

Definition G (st : ast) (c : cst) : Prop :=
  a_la st <> LBot /\
  (forall a k, la_at (a_la st) a = BConst k -> k = esz a) /\
  (exists s', genv (a_base st) s' /\ agree s' (fst c)) /\
  (forall a k i v, la_at (a_la st) a = BConst k -> cell_ok a i -> snd c a i = Some v ->
                   gamma (e_at (a_base st) (ghost a)) v).

Lemma G_not_bottom st c : G st c -> s_is_bottom st = false.
Proof. intros (_ & _ & (s' & Gs & _) & _). unfold s_is_bottom. eapply genv_not_bot; eauto. Qed.

Lemma G_at st c x : G st c -> is_prog x -> gamma (s_at st x) (fst c x).
Proof.
  intros (_ & _ & (s' & Gs & A) & _) P. unfold s_at. rewrite <- (A x P). apply e_at_sound; auto.
Qed.

(* The proofs go through stores described by the base value.  The summarised variable of an
   array of known size can hold any of its defined cells: some described store agrees with the
   state on the program scalars and has the value of the cell in the ghost of [a]. *)
Lemma G_cell st s mu a k i v : G st (s, mu) ->
  la_at (a_la st) a = BConst k -> cell_ok a i -> mu a i = Some v ->
  exists w, genv (a_base st) w /\ agree w s /\ w (ghost a) = v.
Proof.
  intros (_ & _ & (s' & Gs & A) & C) L O M. exists (upd s' (ghost a) v). split; [|split].
  - apply genv_upd; auto. apply (C a k i v); auto.
  - apply agree_upd_nonprog; auto. apply ghost_not_prog.
  - apply upd_same.
Qed.

(* and conversely *)
Lemma G_intro st s mu :
  a_la st <> LBot ->
  (forall a k, la_at (a_la st) a = BConst k -> k = esz a) ->
  (exists w, genv (a_base st) w /\ agree w s) ->
  (forall a k i v, la_at (a_la st) a = BConst k -> cell_ok a i -> mu a i = Some v ->
                   exists w, genv (a_base st) w /\ w (ghost a) = v) ->
  G st (s, mu).
Proof.
  intros L S W C. split; auto. split; auto. split; auto.
  intros a k i v La O M. destruct (C a k i v La O M) as (w & Gw & <-). apply e_at_sound; auto.
Qed.

Lemma G_eta st c : G st c -> G (mkA (a_la st) (a_base st)) c.
Proof. destruct st; auto. Qed.

(* Generic step: the new value [st'] is justified by a store transformer [F] that is sound on
   every described store, acts on program variables like the concrete step, and under which
   every cell of an array of known size is the image of a described ghost. *)
Lemma G_step st st' s mu s1 mu1 (F : store -> store) :
  G st (s, mu) ->
  a_la st' <> LBot ->
  (forall a k, la_at (a_la st') a = BConst k -> k = esz a) ->
  (forall w, genv (a_base st) w -> agree w s -> genv (a_base st') (F w) /\ agree (F w) s1) ->
  (forall a k i v, la_at (a_la st') a = BConst k -> cell_ok a i -> mu1 a i = Some v ->
     exists w, genv (a_base st) w /\ agree w s /\ F w (ghost a) = v) ->
  G st' (s1, mu1).
Proof.
  intros (_ & _ & (w & Gw & A) & _) L S FS C. apply G_intro; auto.
  - exists (F w). auto.
  - intros a k i v La O M. destruct (C a k i v La O M) as (w' & Gw' & A' & E).
    exists (F w'). split; auto. apply FS; auto.
Qed.

(* the description looks at the program scalars and at the arrays of known size only *)
Lemma G_ext st s mu (c : cst) : G st (s, mu) -> agree (fst c) s ->
  (forall a k i, la_at (a_la st) a = BConst k -> snd c a i = mu a i) -> G st c.
Proof.
  intros (L & S & (w & Gw & A) & C) A1 K. split; auto. split; auto. split.
  - exists w. split; auto. intros x P. rewrite A, A1; auto.
  - intros a k i v La O M. rewrite (K a k i La) in M. eapply C; eauto.
Qed.

Lemma agree_refl s : agree s s.
Proof. intros x _. reflexivity. Qed.

(* the value may be weakened *)
Lemma G_weaken st st' c : G st c -> a_la st' <> LBot ->
  (forall a k, la_at (a_la st') a = BConst k -> la_at (a_la st) a = BConst k) ->
  (forall w, genv (a_base st) w -> genv (a_base st') w) -> G st' c.
Proof.
  destruct c as [s mu]. intros HG L K B. pose proof HG as (_ & S & (w & Gw & A) & _).
  apply G_intro; eauto.
  intros a k i v La O M. destruct (G_cell _ _ _ _ _ _ _ HG (K _ _ La) O M) as (w' & Gw' & _ & E). eauto.
Qed.

(* An operation that only loses information: the program scalars become those of [s1], the
   arrays whose size is still known keep their cells.  [mix s1 w] is the described store [w]
   with the program scalars of [s1]. *)
Definition mix (s1 w : store) : store := fun v => if is_progb v then s1 v else w v.
Lemma mix_prog s1 w x : is_prog x -> mix s1 w x = s1 x.
Proof. intros P. unfold mix. apply is_progb_spec in P. rewrite P. auto. Qed.
Lemma mix_nonprog s1 w x : ~ is_prog x -> mix s1 w x = w x.
Proof.
  intros P. unfold mix. destruct (is_progb x) eqn:E; auto. apply is_progb_spec in E. tauto.
Qed.
Lemma mix_keep s1 w s k : agree w s -> (is_prog k -> s1 k = s k) -> mix s1 w k = w k.
Proof.
  intros A H. unfold mix. destruct (is_progb k) eqn:P; auto. apply is_progb_spec in P.
  rewrite H, A; auto.
Qed.

Lemma G_keep st st' s mu s1 mu1 : G st (s, mu) -> a_la st' <> LBot ->
  (forall a k, la_at (a_la st') a = BConst k ->
               la_at (a_la st) a = BConst k /\ forall i, mu1 a i = mu a i) ->
  (forall w, genv (a_base st) w -> agree w s -> genv (a_base st') (mix s1 w)) ->
  G st' (s1, mu1).
Proof.
  intros HG L K FS. pose proof HG as (_ & S & _).
  apply (G_step st st' s mu s1 mu1 (mix s1)); auto.
  - intros a k H. apply (S a). apply K; auto.
  - intros w Gw A. split; auto. intros x P. apply mix_prog; auto.
  - intros a k i v La O M. destruct (K a k La) as [La0 E]. rewrite E in M.
    destruct (G_cell _ _ _ _ _ _ _ HG La0 O M) as (w & Gw & A & Ev).
    exists w. rewrite mix_nonprog by apply ghost_not_prog. auto.
Qed.

(* An operation of the base domain that leaves the ghosts alone. *)
Lemma G_base_op st s mu b' s1 (F : store -> store) :
  G st (s, mu) ->
  (forall w, genv (a_base st) w -> agree w s -> genv b' (F w) /\ agree (F w) s1) ->
  (forall w a, F w (ghost a) = w (ghost a)) ->
  G (mkA (a_la st) b') (s1, mu).
Proof.
  intros HG FS K. pose proof HG as (L & S & _). apply (G_step st _ s mu s1 mu F); auto.
  intros a k i v La O M. destruct (G_cell _ _ _ _ _ _ _ HG La O M) as (w & Gw & A & E).
  exists w. rewrite K. auto.
Qed.

Definition cget (cs : list cset) (r : reg) : cset := nth r cs (fun _ => True).
Fixpoint csetr (cs : list cset) (r : reg) (v : cset) : list cset :=
  match cs, r with
  | [], _ => []
  | _ :: t, O => v :: t
  | h :: t, S r' => h :: csetr t r' v
  end.

Definition same_mem (mu' mu : amem) : Prop := forall a i, mu' a i = mu a i.
Definition same_mem_but (b : arr) (mu' mu : amem) : Prop := forall a i, a <> b -> mu' a i = mu a i.

Definition cstep (cs : list cset) (o : ahop) : list cset :=
  match o with
  | ATop r => csetr cs r (fun _ => True)
  | ABot r => csetr cs r (fun _ => False)
  | ACopy r s => csetr cs r (cget cs s)
  | AAssign r x e =>
    csetr cs r (fun c' => exists s mu, cget cs r (s, mu) /\
                  fst c' = upd s x (eval_le e s) /\ same_mem (snd c') mu)
  | AArith r op x y z =>
    csetr cs r (fun c' => exists s mu v, cget cs r (s, mu) /\
                  arith_sem op (s y) (operand_val z s) = Some v /\
                  fst c' = upd s x v /\ same_mem (snd c') mu)
  | AAssume r cl =>
    csetr cs r (fun c' => cget cs r c' /\ forall c, In c cl -> sat c (fst c'))
  | AForget r vs =>
    csetr cs r (fun c' => exists s mu, cget cs r (s, mu) /\
                  (forall x, ~ In (VS x) vs -> fst c' x = s x) /\
                  (forall a i, ~ In (VA a) vs -> snd c' a i = mu a i))
  | AForget1 r v =>
    csetr cs r (fun c' => exists s mu, cget cs r (s, mu) /\
                  (forall x, VS x <> v -> fst c' x = s x) /\
                  (forall a i, VA a <> v -> snd c' a i = mu a i))
  | AProject r vs =>
    csetr cs r (fun c' => exists s mu, cget cs r (s, mu) /\
                  (forall x, In (VS x) vs -> fst c' x = s x) /\
                  (forall a i, In (VA a) vs -> snd c' a i = mu a i))
  | AExpand r (VS x) (VS y) =>
    csetr cs r (fun c' => exists s mu, cget cs r (s, mu) /\
                  fst c' = upd s y (s x) /\ same_mem (snd c') mu)
  | AExpand r (VA a) (VA b) =>
    csetr cs r (fun c' => exists s mu, cget cs r (s, mu) /\ fst c' = s /\
                  same_mem_but b (snd c') mu /\ forall i, snd c' b i = mu a i)
  | AExpand r _ _ => csetr cs r (fun _ => False)        (* CRAB_ERROR in the code *)
  | ARename r [VS x] [VS y] =>
    (* one scalar: the value moves, the old name becomes arbitrary *)
    csetr cs r (fun c' => exists s mu h, cget cs r (s, mu) /\
                  fst c' = rename_store s [(x, y)] [h] /\ same_mem (snd c') mu)
  | ARename r [VA a] [VA b] =>
    csetr cs r (fun c' => exists s mu, cget cs r (s, mu) /\ fst c' = s /\
                  (forall c i, c <> a -> c <> b -> snd c' c i = mu c i) /\
                  forall i, snd c' b i = mu a i)
  | ARename r _ _ => csetr cs r (fun _ => False)        (* lists: outside the theorem, see hop_ok *)
  | AInit r a e _ _ val =>
    (* every cell that is defined after the initialisation holds val (this covers the
       reading "cells lb, lb+sz, .. <= ub" of cfg.hpp as well as the constant array) *)
    csetr cs r (fun c' => exists s mu, cget cs r (s, mu) /\ eval_le e s = esz a /\
                  fst c' = s /\ same_mem_but a (snd c') mu /\
                  forall i v, snd c' a i = Some v -> v = eval_le val s)
  | ALoad r lhs a e idx =>
    csetr cs r (fun c' => exists s mu v, cget cs r (s, mu) /\ eval_le e s = esz a /\
                  cell_ok a (eval_le idx s) /\ mu a (eval_le idx s) = Some v /\
                  fst c' = upd s lhs v /\ same_mem (snd c') mu)
  | AStore r a e idx val strong =>
    csetr cs r (fun c' => exists s mu, cget cs r (s, mu) /\ eval_le e s = esz a /\
                  (strong = true -> onecell a = Some (eval_le idx s)) /\
                  fst c' = s /\ same_mem_but a (snd c') mu /\
                  forall i, snd c' a i = if i =? eval_le idx s then Some (eval_le val s) else mu a i)
  | ARange r a e _ _ val =>
    (* any set of cells is overwritten with val *)
    csetr cs r (fun c' => exists s mu, cget cs r (s, mu) /\ eval_le e s = esz a /\
                  fst c' = s /\ same_mem_but a (snd c') mu /\
                  forall i, snd c' a i = mu a i \/ snd c' a i = Some (eval_le val s))
  | ACopyArr r lhs rhs =>
    csetr cs r (fun c' => exists s mu, cget cs r (s, mu) /\ fst c' = s /\
                  same_mem_but lhs (snd c') mu /\ forall i, snd c' lhs i = mu rhs i)
  | AJoin r s t | AWiden r s t | AWidenThr r s t _ =>
    csetr cs r (fun c => cget cs s c \/ cget cs t c)
  | AMeet r s t | ANarrow r s t =>
    csetr cs r (fun c => cget cs s c /\ cget cs t c)
  end.

(* side conditions: expressions range over program scalars and are in the canonical form
   of the C++ containers; an array copy is between arrays of the same layout; meet,
   narrowing and the renaming of several variables at once are outside the theorem *)
Definition avar_prog (v : avar) : Prop := match v with VS x => is_prog x | VA _ => True end.
Definition operand_prog (z : operand) : Prop := match z with OVar v => is_prog v | OCst _ => True end.
Definition same_layout (dst src : arr) : Prop :=
  esz dst = esz src /\ forall i, cell_ok dst i -> cell_ok src i.

Definition hop_ok (rs : list ast) (o : ahop) : Prop :=
  match o with
  | AAssign _ x e => is_prog x /\ le_prog e
  | AArith _ _ x y z => is_prog x /\ is_prog y /\ operand_prog z
  | AAssume _ cl => forall c, In c cl -> wf_lc c /\ lc_prog c
  | AForget _ vs | AProject _ vs => forall v, In v vs -> avar_prog v
  | AForget1 _ v => avar_prog v
  | AExpand _ (VS x) (VS y) => is_prog x /\ is_prog y
  | AExpand r (VA a) (VA b) =>
    (* the new variable of expand is fresh: nothing is recorded about it *)
    same_layout b a /\ forall k, la_at (a_la (aget rs r)) b <> BConst k
  | AExpand _ _ _ => True
  | ARename r [VS x] [VS y] =>
    (* documented precondition of rename: the new name is not bound *)
    is_prog x /\ is_prog y /\ is_top (e_at (a_base (aget rs r)) y) = true
  | ARename r [VA a] [VA b] =>
    same_layout b a /\ (forall k, la_at (a_la (aget rs r)) b <> BConst k) /\
    is_top (e_at (a_base (aget rs r)) (ghost b)) = true
  | ARename _ _ _ => False
  | AInit _ _ e _ _ val => le_prog e /\ le_prog val
  | ALoad _ lhs _ e idx => is_prog lhs /\ le_prog e /\ le_prog idx
  | AStore _ _ e idx val _ => le_prog e /\ le_prog idx /\ le_prog val
  | ARange _ _ e _ _ val => le_prog e /\ le_prog val
  | ACopyArr _ lhs rhs => same_layout lhs rhs
  | AMeet _ _ _ | ANarrow _ _ _ => False
  | _ => True
  end.

Definition rel (rs : list ast) (cs : list cset) : Prop :=
  length rs = length cs /\ forall r c, cget cs r c -> G (aget rs r) c.

Lemma aget_aset rs r v r' : (r < length rs)%nat ->
  aget (aset rs r v) r' = if Nat.eqb r' r then v else aget rs r'.
Proof.
  revert r r'. induction rs as [|h t IH]; simpl; intros r r' L; [lia|].
  destruct r, r'; simpl; auto. apply IH. lia.
Qed.
Lemma aset_oob rs r v : (length rs <= r)%nat -> aset rs r v = rs.
Proof. revert r. induction rs as [|h t IH]; simpl; intros r L; auto. destruct r; [lia|]. f_equal. apply IH. lia. Qed.
Lemma cget_csetr cs r v r' : (r < length cs)%nat ->
  cget (csetr cs r v) r' = if Nat.eqb r' r then v else cget cs r'.
Proof.
  revert r r'. induction cs as [|h t IH]; simpl; intros r r' L; [lia|].
  destruct r, r'; simpl; auto. apply IH. lia.
Qed.
Lemma csetr_oob cs r v : (length cs <= r)%nat -> csetr cs r v = cs.
Proof. revert r. induction cs as [|h t IH]; simpl; intros r L; auto. destruct r; [lia|]. f_equal. apply IH. lia. Qed.
Lemma aset_length rs r v : length (aset rs r v) = length rs.
Proof. revert r. induction rs as [|h t IH]; simpl; intros r; auto. destruct r; simpl; auto. Qed.
Lemma csetr_length cs r v : length (csetr cs r v) = length cs.
Proof. revert r. induction cs as [|h t IH]; simpl; intros r; auto. destruct r; simpl; auto. Qed.

Lemma rel_set rs cs r (a : ast) (c : cset) :
  rel rs cs -> (forall x, c x -> G a x) -> rel (aset rs r a) (csetr cs r c).
Proof.
  intros [L R] H. split. { rewrite aset_length, csetr_length; auto. }
  intros r' s. destruct (Nat.lt_ge_cases r (length rs)) as [I|O].
  - rewrite aget_aset by auto. rewrite cget_csetr by lia. destruct (Nat.eqb r' r); auto.
  - rewrite aset_oob by auto. rewrite csetr_oob by lia. auto.
Qed.
(* An operation that overwrites the summary of [a] with [f w] and leaves the other arrays
   alone. *)
Lemma G_set_summary st s mu a k b' mu1 (f : store -> Z) :
  G st (s, mu) -> k = esz a ->
  (forall w, genv (a_base st) w -> genv b' (upd w (ghost a) (f w))) ->
  same_mem_but a mu1 mu ->
  (forall i v, cell_ok a i -> mu1 a i = Some v ->
               exists w, genv (a_base st) w /\ agree w s /\ f w = v) ->
  G (mkA (la_set (a_la st) a k) b') (s, mu1).
Proof.
  intros HG -> FS HM C. pose proof HG as (L & S & _).
  apply (G_step st _ s mu s mu1 (fun w => upd w (ghost a) (f w)) HG); cbn [a_la a_base].
  - apply la_set_not_bot; auto.
  - intros c kc H. rewrite la_at_set in H by auto. destruct (N.eqb_spec a c) as [<-|]; [congruence|auto].
  - intros w Gw A. split; auto. apply agree_upd_nonprog; auto. apply ghost_not_prog.
  - intros c kc i v Lc O M. rewrite la_at_set in Lc by auto. destruct (N.eqb_spec a c) as [<-|N].
    + destruct (C i v O M) as (w & Gw & A & E). exists w. rewrite upd_same. auto.
    + rewrite HM in M by auto. destruct (G_cell _ _ _ _ _ _ _ HG Lc O M) as (w & Gw & A & E).
      exists w. rewrite upd_other by (intros X; apply ghost_inj in X; congruence). auto.
Qed.

Lemma check_elem_size_sound st s mu e k : G st (s, mu) -> le_prog e ->
  check_elem_size e (a_base st) = Some k -> eval_le e s = k.
Proof.
  intros (_ & _ & (s' & Gs & A) & _) P H.
  unfold check_elem_size in H. destruct (isingleton (d_eval e (a_base st))) as [n|] eqn:E; [|discriminate].
  destruct ((0 <? n) && (n <=? 9223372036854775807)); inversion H; subst.
  rewrite <- (eval_le_agree e s' s P A).
  apply (isingleton_spec _ _ E). apply d_eval_sound; auto.
Qed.

Lemma G_top c : G s_top c.
Proof.
  apply G_intro; simpl; try discriminate.
  exists (fst c). split; [apply genv_top|apply agree_refl].
Qed.

Lemma s_assign_sound x e st s mu : G st (s, mu) -> is_prog x -> le_prog e ->
  G (s_assign x e st) (upd s x (eval_le e s), mu).
Proof.
  intros HG Px Pe. unfold s_assign.
  apply (G_base_op st s mu _ _ (fun w => upd w x (eval_le e w))); auto.
  - intros w Gw A. split; [apply d_assign_sound; auto|].
    rewrite (eval_le_agree e w s) by auto. apply agree_upd; auto.
  - intros w a. apply upd_other, not_eq_sym, prog_not_ghost; auto.
Qed.

Lemma operand_val_agree z s0 s : operand_prog z -> agree s0 s -> operand_val z s0 = operand_val z s.
Proof. destruct z; simpl; auto. Qed.

Lemma s_arith_sound op x y z st s mu v : G st (s, mu) -> is_prog x -> is_prog y -> operand_prog z ->
  arith_sem op (s y) (operand_val z s) = Some v -> G (s_arith op x y z st) (upd s x v, mu).
Proof.
  intros HG Px Py Pz H. unfold s_arith.
  apply (G_base_op st s mu _ _ (fun w => upd w x v)); auto.
  - intros w Gw A. split; [|apply agree_upd; auto].
    apply d_apply_arith_sound; auto. rewrite (A y Py), (operand_val_agree z w s); auto.
  - intros w a. apply upd_other, not_eq_sym, prog_not_ghost; auto.
Qed.

Lemma s_assume_sound cl st s mu : G st (s, mu) ->
  (forall c, In c cl -> wf_lc c /\ lc_prog c) -> (forall c, In c cl -> sat c s) ->
  G (s_assume cl st) (s, mu).
Proof.
  intros HG W S. unfold s_assume.
  apply (G_base_op st s mu _ _ (fun w => w)); auto.
  intros w Gw A. split; auto. apply d_add_sound; auto.
  intros c I. destruct (W c I) as [W1 W2]. split; auto. eapply sat_agree; eauto.
Qed.

Lemma forget_scan_spec vs : forall l acc l' rm, l <> LBot -> forget_scan vs l acc = (l', rm) ->
  l' <> LBot /\
  (forall b k, la_at l' b = BConst k -> la_at l b = BConst k /\ ~ In (VA b) vs) /\
  (forall x, In x acc \/ In (VS x) vs -> In x rm).
Proof.
  induction vs as [|v r IH]; cbn [forget_scan]; intros l acc l' rm NB H.
  - inversion H; subst. split; auto. split; [intros; split; auto|]. intros x [I|[]]; auto.
  - (* the head turns [(l, acc)] into some [(l1, acc1)] *)
    assert (ST : exists l1 acc1, forget_scan r l1 acc1 = (l', rm) /\ l1 <> LBot /\
              (forall b k, la_at l1 b = BConst k -> la_at l b = BConst k /\ VA b <> v) /\
              (forall x, In x acc \/ VS x = v -> In x acc1)).
    { destruct v as [x|a]; [|destruct (la_at l a) as [|ka|] eqn:La]; do 2 eexists; (split; [exact H|]).
      2, 4: split; auto; split; [intros b k Hb; split; [auto|congruence]|]; intros y [I|E]; [auto|discriminate].
      - split; auto. split; [intros; split; [auto|discriminate]|].
        intros y [I|E]; apply in_or_app; [auto|]. inversion E. simpl. auto.
      - split; [apply la_forget_not_bot; auto|]. split.
        + intros b k Hb. rewrite la_at_forget in Hb by auto. destruct (N.eqb_spec a b); [discriminate|].
          split; [auto|congruence].
        + intros y [I|E]; [apply in_or_app; auto|discriminate]. }
    destruct ST as (l1 & acc1 & H1 & N1 & Q & A). destruct (IH _ _ _ _ N1 H1) as (N2 & C & R).
    split; auto. split.
    + intros b k Hb. destruct (C b k Hb) as [C1 C2]. destruct (Q b k C1) as [Q1 Q2].
      split; auto. intros [E|I]; [congruence|auto].
    + intros y [I|[E|I]]; apply R; auto.
Qed.

Lemma s_forget_sound vs st s mu s1 mu1 : G st (s, mu) ->
  (forall x, ~ In (VS x) vs -> s1 x = s x) ->
  (forall a i, ~ In (VA a) vs -> mu1 a i = mu a i) ->
  G (s_forget vs st) (s1, mu1).
Proof.
  intros HG HS HM. pose proof HG as (L & _).
  unfold s_forget. destruct (forget_scan vs (a_la st) []) as [l' rm] eqn:E.
  destruct (forget_scan_spec vs _ _ _ _ L E) as (N1 & CC & R).
  apply (G_keep st _ s mu _ _ HG); auto.
  - intros a k H. destruct (CC a k H). auto.
  - intros w Gw A. eapply d_forget_sound; eauto. intros k NI.
    apply (mix_keep _ _ s); auto. intros _. apply HS. intros I. apply NI, R. auto.
Qed.

Lemma s_forget1_sound v st s mu s1 mu1 : G st (s, mu) -> avar_prog v ->
  (forall x, VS x <> v -> s1 x = s x) ->
  (forall a i, VA a <> v -> mu1 a i = mu a i) ->
  G (s_forget1 v st) (s1, mu1).
Proof.
  intros HG _ HS HM. pose proof HG as (L & _). destruct v as [x|a]; cbn [s_forget1].
  - apply (G_keep st _ s mu _ _ HG); auto.
    + intros a k H. split; auto. intros i. apply HM. discriminate.
    + intros w Gw A. apply (genv_ext _ (upd w x (mix s1 w x))); [|apply e_forget_sound; auto].
      intros k. destruct (N.eq_dec k x) as [->|N]; [apply upd_same|]. rewrite upd_other by auto.
      symmetry. apply (mix_keep _ _ s); auto. intros _. apply HS. congruence.
  - assert (S1 : agree s1 s) by (intros y _; apply HS; discriminate).
    (* unless the size of [a] is known nothing changes, and nothing is known about [a] *)
    assert (U : (forall k, la_at (a_la st) a <> BConst k) -> G st (s1, mu1)).
    { intros NC. apply (G_ext st s mu); auto. intros b k i Lb. apply HM. intros E.
      inversion E; subst. exact (NC k Lb). }
    destruct (la_at (a_la st) a) as [|ka|] eqn:La; [apply U; discriminate| |apply U; discriminate].
    apply (G_keep st _ s mu _ _ HG); cbn [a_la a_base].
    + apply la_forget_not_bot; auto.
    + intros b k H. rewrite la_at_forget in H by auto. destruct (N.eqb_spec a b); [discriminate|].
      split; auto. intros i. apply HM. congruence.
    + intros w Gw A. apply (genv_ext _ w); [|apply e_forget_keep; auto].
      intros k. symmetry. apply (mix_keep _ _ s); auto.
Qed.

Lemma project_scan_vars vs l : forall kv ka x, In x (fst (project_scan vs l kv ka)) ->
  In x kv \/ In (VS x) vs \/ exists a, x = ghost a /\ In (VA a) vs.
Proof.
  induction vs as [|v r IH]; simpl; intros kv ka x I; auto.
  destruct v as [y|a]; [|destruct (la_at l a)]; apply IH in I; destruct I as [I|[I|(b & -> & I)]];
    rewrite ?in_app_iff in I; simpl in I; intuition (subst; eauto 7).
Qed.
Lemma project_scan_arrs vs l : forall kv ka a, In a (snd (project_scan vs l kv ka)) ->
  In a ka \/ In (VA a) vs.
Proof.
  induction vs as [|v r IH]; simpl; intros kv ka b I; auto.
  destruct v as [y|a]; [|destruct (la_at l a)]; apply IH in I; rewrite ?in_app_iff in I; simpl in I;
    intuition (subst; eauto).
Qed.

Lemma lget_filter_key (g : arr -> bool) m a k :
  lget (filter (fun p => g (fst p)) m) a = Some k -> lget m a = Some k /\ g a = true.
Proof.
  induction m as [|[b kb] r IH]; simpl; [discriminate|]. destruct (g b) eqn:Gb; simpl.
  - destruct (N.eqb_spec b a); [subst; intros H; split; auto|auto].
  - intros H. destruct (IH H) as [H1 H2]. destruct (N.eqb_spec b a); [congruence|auto].
Qed.

Lemma la_project_const l keep a k : la_at (la_project l keep) a = BConst k ->
  la_at l a = BConst k /\ In a keep.
Proof.
  destruct l as [|m]; simpl; [discriminate|].
  destruct (lget (filter (fun p => existsb (N.eqb (fst p)) keep) m) a) as [k'|] eqn:E; [|discriminate].
  intros H. inversion H; subst.
  apply (lget_filter_key (fun b => existsb (N.eqb b) keep)) in E. destruct E as [E F].
  rewrite E. split; auto.
  apply existsb_exists in F. destruct F as (b & Ib & Eb). apply N.eqb_eq in Eb. subst b. auto.
Qed.

Lemma s_project_sound vs st s mu s1 mu1 : G st (s, mu) ->
  (forall x, In (VS x) vs -> s1 x = s x) ->
  (forall a i, In (VA a) vs -> mu1 a i = mu a i) ->
  G (s_project vs st) (s1, mu1).
Proof.
  intros HG HS HM. pose proof HG as (L & _).
  unfold s_project. destruct (project_scan vs (a_la st) [] []) as [kv ka] eqn:E.
  pose proof (project_scan_vars vs (a_la st) [] []) as P1.
  pose proof (project_scan_arrs vs (a_la st) [] []) as P2. rewrite E in P1, P2.
  apply (G_keep st _ s mu _ _ HG); cbn [a_la a_base].
  - destruct (a_la st); simpl; congruence.
  - intros a k H. apply la_project_const in H. destruct H as [H I].
    destruct (P2 a I) as [[]|J]. auto.
  - intros w Gw A. eapply e_project_sound; eauto. intros k I.
    destruct (P1 k I) as [[]|[J|(b & -> & J)]].
    + apply (mix_keep _ _ s); auto.
    + apply mix_nonprog, ghost_not_prog.
Qed.

Lemma s_expand_scalar_sound x y st s mu : G st (s, mu) -> is_prog x -> is_prog y ->
  G (s_expand (VS x) (VS y) st) (upd s y (s x), mu).
Proof.
  intros HG Px Py. simpl.
  apply (G_base_op st s mu _ _ (fun w => upd w y (w x))); auto.
  - intros w Gw A. split.
    + apply d_expand_sound; auto. exists w. auto.
    + rewrite (A x Px). apply agree_upd; auto.
  - intros w a. apply upd_other, not_eq_sym, prog_not_ghost; auto.
Qed.

Lemma s_expand_array_sound a b st s mu mu1 : G st (s, mu) -> same_layout b a ->
  (forall k, la_at (a_la st) b <> BConst k) ->
  same_mem_but b mu1 mu -> (forall i, mu1 b i = mu a i) ->
  G (s_expand (VA a) (VA b) st) (s, mu1).
Proof.
  intros HG [SZ LO] FR HM HB. pose proof HG as (_ & S & _). cbn [s_expand].
  (* nothing is recorded about [b] (the new variable of expand is fresh: documented use "make
     a NEW copy"), so the old value describes the new state; this is what the code returns
     when the size of [a] is unknown *)
  assert (U : G st (s, mu1)).
  { apply (G_ext st s mu); auto using agree_refl. intros c k i Lc. apply HM. intros ->. exact (FR k Lc). }
  destruct (la_at (a_la st) a) as [|ka|] eqn:La; auto.
  apply (G_set_summary st s mu b ka _ mu1 (fun w => w (ghost a))); auto.
  - rewrite SZ. eauto.
  - intros w Gw. apply d_expand_sound; auto. exists w. auto.
  - intros i v O M. rewrite HB in M. apply (G_cell st s mu a ka i v); auto.
Qed.

Lemma eval_le_var g s : eval_le (le_var g) s = s g.
Proof. unfold eval_le, le_var. cbn [eval_terms le_terms le_cst]. lia. Qed.

Lemma e_rename_one_sound e x y s h : genv e s -> is_top (e_at e y) = true ->
  genv (e_rename e [x] [y]) (rename_store s [(x, y)] [h]).
Proof.
  intros G T. apply (e_rename_sound e [x] [y] s [h]); auto.
  - repeat constructor. simpl. tauto.
  - intros k [<-|[]]. auto.
Qed.

Lemma rename_store_one s x y h k :
  rename_store s [(x, y)] [h] k =
  if N.eqb x y then s k else if N.eqb k x then h else if N.eqb k y then s x else s k.
Proof.
  cbn [rename_store hd tl]. destruct (N.eqb_spec x y); auto.
Qed.

Lemma s_rename_scalar_sound x y st s mu h : G st (s, mu) -> is_prog x -> is_prog y ->
  is_top (e_at (a_base st) y) = true ->
  G (s_rename [VS x] [VS y] st) (rename_store s [(x, y)] [h], mu).
Proof.
  intros HG Px Py T. unfold s_rename. cbn [combine rename_scan app].
  apply (G_base_op st s mu _ _ (fun w => rename_store w [(x, y)] [h])); auto.
  - intros w Gw A. split; [apply e_rename_one_sound; auto|].
    intros k Pk. rewrite !rename_store_one. destruct (N.eqb x y); [apply A; auto|].
    destruct (N.eqb k x); auto. destruct (N.eqb k y); apply A; auto.
  - intros w a. rewrite rename_store_one. destruct (N.eqb x y); auto.
    destruct (N.eqb_spec (ghost a) x) as [E1|_]; [exfalso; apply (prog_not_ghost x a Px); auto|].
    destruct (N.eqb_spec (ghost a) y) as [E2|_]; [exfalso; apply (prog_not_ghost y a Py); auto|]. auto.
Qed.

(* renaming the ghost of [a] into the ghost of another array [b], seen on the ghosts *)
Lemma rename_ghost w a b h c : a <> b ->
  rename_store w [(ghost a, ghost b)] [h] (ghost c) =
  if N.eqb c a then h else if N.eqb c b then w (ghost a) else w (ghost c).
Proof.
  intros NE. rewrite rename_store_one.
  destruct (N.eqb_spec (ghost a) (ghost b)) as [E|_]; [apply ghost_inj in E; contradiction|].
  destruct (N.eqb_spec c a) as [->|NA]; [rewrite N.eqb_refl; auto|].
  destruct (N.eqb_spec (ghost c) (ghost a)) as [E|_]; [apply ghost_inj in E; contradiction|].
  destruct (N.eqb_spec c b) as [->|NB]; [rewrite N.eqb_refl; auto|].
  destruct (N.eqb_spec (ghost c) (ghost b)) as [E|_]; [apply ghost_inj in E; contradiction|auto].
Qed.

Lemma s_rename_array_sound a b st s mu mu1 : G st (s, mu) -> same_layout b a ->
  (forall k, la_at (a_la st) b <> BConst k) -> is_top (e_at (a_base st) (ghost b)) = true ->
  (forall c i, c <> a -> c <> b -> mu1 c i = mu c i) -> (forall i, mu1 b i = mu a i) ->
  G (s_rename [VA a] [VA b] st) (s, mu1).
Proof.
  intros HG [SZ LO] FR T HM HB. pose proof HG as (L & S & (s' & Gs & A) & _).
  unfold s_rename. cbn [combine rename_scan].
  (* unknown size: the code does nothing *)
  assert (U : (forall k, la_at (a_la st) a <> BConst k) ->
              G (mkA (a_la st) (e_rename (a_base st) [] [])) (s, mu1)).
  { intros NC. replace (e_rename (a_base st) [] []) with (a_base st).
    - apply G_eta. apply (G_ext st s mu); auto using agree_refl.
      intros c k i Lc. apply HM; intros ->; [exact (NC k Lc)|exact (FR k Lc)].
    - unfold e_rename. destruct (a_base st) as [|m]; auto. simpl. destruct (forallb _ _); auto. }
  destruct (la_at (a_la st) a) as [|ka|] eqn:La; [apply U; discriminate| |apply U; discriminate].
  cbn [rename_scan app].
  assert (NE : a <> b) by (intros ->; exact (FR ka La)).
  set (R := fun h w => rename_store w [(ghost a, ghost b)] [h]).
  assert (GR : forall h w, genv (a_base st) w -> genv (e_rename (a_base st) [ghost a] [ghost b]) (R h w)).
  { intros h w Gw. apply e_rename_one_sound; auto. }
  apply G_intro; cbn [a_la a_base].
  - apply la_set_not_bot; auto.
  - intros c k H. rewrite la_at_set in H by auto. destruct (N.eqb_spec b c); [|auto].
    inversion H; subst. rewrite SZ. apply (S a); auto.
  - exists (R 0 s'). split; auto.
    intros k Pk. unfold R. rewrite rename_store_one. destruct (N.eqb (ghost a) (ghost b)); [apply A; auto|].
    destruct (N.eqb_spec k (ghost a)) as [->|_]; [destruct (ghost_not_prog a Pk)|].
    destruct (N.eqb_spec k (ghost b)) as [->|_]; [destruct (ghost_not_prog b Pk)|]. apply A; auto.
  - intros c k i v Lc O M. rewrite la_at_set in Lc by auto.
    destruct (N.eqb_spec b c) as [<-|NB]; [|destruct (N.eq_dec c a) as [->|NA]].
    + (* the new array: its cells are those of a *)
      rewrite HB in M. destruct (G_cell _ _ _ _ _ _ _ HG La (LO i O) M) as (w & Gw & _ & E).
      exists (R 0 w). split; auto. unfold R. rewrite rename_ghost by auto.
      destruct (N.eqb_spec b a); [congruence|]. rewrite N.eqb_refl. auto.
    + (* the old name: arbitrary contents, its ghost has been renamed away *)
      exists (R v s'). split; auto. unfold R. rewrite rename_ghost by auto. rewrite N.eqb_refl. auto.
    + rewrite HM in M by auto. destruct (G_cell _ _ _ _ _ _ _ HG Lc O M) as (w & Gw & _ & E).
      exists (R 0 w). split; auto. unfold R. rewrite rename_ghost by auto.
      destruct (N.eqb_spec c a); [contradiction|]. destruct (N.eqb_spec c b); [congruence|auto].
Qed.

(* array_init and the strong store: the summary of [a] becomes [val]; sound when every defined
   cell of [a] then holds the value of [val] *)
Lemma overwrite_sound a val st s mu mu1 : G st (s, mu) -> le_prog val ->
  same_mem_but a mu1 mu -> (forall i v, cell_ok a i -> mu1 a i = Some v -> v = eval_le val s) ->
  G (mkA (la_set (a_la st) a (esz a)) (d_assign (ghost a) val (a_base st))) (s, mu1).
Proof.
  intros HG Pv HM HA. pose proof HG as (_ & _ & (w & Gw & A) & _).
  apply (G_set_summary st s mu a _ _ mu1 (eval_le val)); auto.
  - intros w0 G0. apply d_assign_sound; auto.
  - intros i v O M. exists w. split; auto. split; auto.
    rewrite (eval_le_agree val w s) by auto. symmetry. eauto.
Qed.

Lemma s_array_init_sound a e val st st' s mu mu1 : G st (s, mu) -> le_prog e -> le_prog val ->
  eval_le e s = esz a -> s_array_init a e val st = Some st' ->
  same_mem_but a mu1 mu -> (forall i v, mu1 a i = Some v -> v = eval_le val s) ->
  G st' (s, mu1).
Proof.
  intros HG Pe Pv SZ H HM HA.
  unfold s_array_init in H. destruct (check_elem_size e (a_base st)) as [k|] eqn:CK; [|discriminate].
  rewrite <- (check_elem_size_sound _ _ _ _ _ HG Pe CK), SZ in H. inversion H; subst st'.
  apply (overwrite_sound a val st s mu); eauto.
Qed.

Lemma s_array_load_sound lhs a e st st' s mu i v : G st (s, mu) -> is_prog lhs -> le_prog e ->
  eval_le e s = esz a -> cell_ok a i -> mu a i = Some v ->
  s_array_load lhs a e st = Some st' -> G st' (upd s lhs v, mu).
Proof.
  intros HG Pl Pe SZ O M H. pose proof HG as (_ & _ & _ & C).
  unfold s_array_load in H. destruct (check_elem_size e (a_base st)) as [k|] eqn:CK; [|discriminate].
  (* in both cases the base value describes the stores with [v] in [lhs] *)
  assert (B : forall b', (forall w, genv (a_base st) w -> genv b' (upd w lhs v)) ->
                         G (mkA (a_la st) b') (upd s lhs v, mu)).
  { intros b' FS. apply (G_base_op st s mu _ _ (fun w => upd w lhs v)); auto.
    - intros w Gw A. split; auto. apply agree_upd; auto.
    - intros w c. apply upd_other, not_eq_sym, prog_not_ghost; auto. }
  destruct (equal_size (a_la st) a k) eqn:EQ; inversion H; subst st'; apply B; intros w Gw.
  - apply equal_size_spec in EQ.
    assert (CV : gamma (e_at (a_base st) (ghost a)) v) by (eapply (C a k i v); eauto).
    (* the copy receives the cell, [lhs] the copy, the copy its old value *)
    apply (genv_ext _ (upd (upd (upd w (gcopy a) v) lhs v) (gcopy a) (w (gcopy a)))).
    + intros x. destruct (N.eq_dec x (gcopy a)) as [->|N1]; [rewrite upd_same|rewrite upd_other by auto].
      * symmetry. apply upd_other, not_eq_sym, prog_not_gcopy; auto.
      * destruct (N.eq_dec x lhs) as [->|N2]; [rewrite !upd_same; auto|rewrite !upd_other by auto; auto].
    + apply e_forget_sound.
      assert (G1 : genv (d_expand (ghost a) (gcopy a) (a_base st)) (upd w (gcopy a) v)).
      { apply d_expand_sound; auto. exists (upd w (ghost a) v). split; [apply genv_upd; auto|].
        split; [intros k0 N; apply upd_other; auto|rewrite upd_same; auto]. }
      pose proof (d_assign_sound lhs (le_var (gcopy a)) _ _ G1) as G2.
      rewrite eval_le_var, upd_same in G2. exact G2.
  - apply e_forget_sound; auto.
Qed.

(* a weak update of the ghost of [a]: the cells of the other arrays and the old cells of [a]
   are kept, the new value is added *)
Lemma weak_update_sound a val st s mu mu1 k : G st (s, mu) -> le_prog val ->
  la_at (a_la st) a = BConst k ->
  same_mem_but a mu1 mu -> (forall i, mu1 a i = mu a i \/ mu1 a i = Some (eval_le val s)) ->
  G (mkA (a_la st) (d_weak_assign (ghost a) val (a_base st))) (s, mu1).
Proof.
  intros HG Pv La HM HA. pose proof HG as (L & S & (s' & Gs & A) & _).
  apply G_intro; auto.
  - exists s'. split; auto. apply d_weak_assign_sound; auto.
  - intros c kc i v Lc O M.
    assert (OLD : mu c i = Some v -> exists w, genv (d_weak_assign (ghost a) val (a_base st)) w /\ w (ghost c) = v).
    { intros M0. destruct (G_cell _ _ _ _ _ _ _ HG Lc O M0) as (w & Gw & _ & E).
      exists w. split; auto. apply d_weak_assign_sound; auto. }
    destruct (N.eq_dec c a) as [->|N]; [|rewrite HM in M by auto; auto].
    destruct (HA i) as [E|E]; rewrite E in M; auto.
    inversion M; subst v. exists (upd s' (ghost a) (eval_le val s')). split.
    + apply d_weak_assign_sound; auto.
    + rewrite upd_same. apply eval_le_agree; auto.
Qed.

(* a store that the domain ignores because it has not recorded the size of the array *)
Lemma ignored_update_sound a k st s mu mu1 : G st (s, mu) -> k = esz a ->
  equal_size (a_la st) a k = false -> same_mem_but a mu1 mu -> G st (s, mu1).
Proof.
  intros HG -> EQ HM. pose proof HG as (_ & S & _).
  apply (G_ext st s mu); auto using agree_refl. intros c kc i Lc. apply HM. intros ->.
  rewrite (S a kc Lc) in Lc. apply equal_size_spec in Lc. congruence.
Qed.

Lemma s_array_store_sound a e idx val strong st st' s mu mu1 : G st (s, mu) ->
  le_prog e -> le_prog val -> eval_le e s = esz a ->
  (strong = true -> onecell a = Some idx) ->
  same_mem_but a mu1 mu ->
  (forall i, mu1 a i = if i =? idx then Some (eval_le val s) else mu a i) ->
  s_array_store a e val strong st = Some st' -> G st' (s, mu1).
Proof.
  intros HG Pe Pv SZ ST HM HA H. pose proof HG as (L & _).
  unfold s_array_store in H. destruct (check_elem_size e (a_base st)) as [k|] eqn:CK; [|discriminate].
  assert (EK : k = esz a) by (rewrite <- SZ; symmetry; eapply check_elem_size_sound; eauto). subst k.
  destruct strong.
  - assert (EQ : equal_size (la_set (a_la st) a (esz a)) a (esz a) = true).
    { apply equal_size_spec. rewrite la_at_set by auto. rewrite N.eqb_refl. auto. }
    rewrite EQ in H. inversion H; subst st'.
    apply (overwrite_sound a val st s mu); auto. intros i v O M.
    unfold cell_ok in O. rewrite (ST eq_refl) in O. subst i. rewrite HA, Z.eqb_refl in M. congruence.
  - destruct (equal_size (a_la st) a (esz a)) eqn:EQ; inversion H; subst st'.
    + apply equal_size_spec in EQ. eapply weak_update_sound; eauto.
      intros i. rewrite HA. destruct (i =? idx); auto.
    + apply G_eta. apply (ignored_update_sound a (esz a) st s mu); auto.
Qed.

Lemma s_array_store_range_sound a e val st st' s mu mu1 : G st (s, mu) ->
  le_prog e -> le_prog val -> eval_le e s = esz a ->
  same_mem_but a mu1 mu -> (forall i, mu1 a i = mu a i \/ mu1 a i = Some (eval_le val s)) ->
  s_array_store_range a e val st = Some st' -> G st' (s, mu1).
Proof.
  intros HG Pe Pv SZ HM HA H.
  unfold s_array_store_range in H. destruct (check_elem_size e (a_base st)) as [k|] eqn:CK; [|discriminate].
  assert (EK : k = esz a) by (rewrite <- SZ; symmetry; eapply check_elem_size_sound; eauto).
  destruct (equal_size (a_la st) a k) eqn:EQ; inversion H; subst st'.
  - apply equal_size_spec in EQ. eapply weak_update_sound; eauto.
  - apply (ignored_update_sound a k st s mu); auto.
Qed.

Lemma s_array_assign_sound lhs rhs st s mu mu1 : G st (s, mu) -> same_layout lhs rhs ->
  same_mem_but lhs mu1 mu -> (forall i, mu1 lhs i = mu rhs i) ->
  G (s_array_assign lhs rhs st) (s, mu1).
Proof.
  intros HG [SZ LO] HM HL. pose proof HG as (_ & S & _).
  assert (FG : G (s_forget1 (VA lhs) st) (s, mu1)).
  { apply (s_forget1_sound (VA lhs) st s mu); simpl; auto. intros a i N. apply HM. congruence. }
  unfold s_array_assign. destruct (la_at (a_la st) rhs) as [|k|] eqn:La; auto.
  apply (G_set_summary st s mu lhs k _ mu1 (fun w => w (ghost rhs))); auto.
  - rewrite SZ. eauto.
  - intros w Gw. pose proof (d_assign_sound (ghost lhs) (le_var (ghost rhs)) _ _ Gw) as G1.
    rewrite eval_le_var in G1. exact G1.
  - intros i v O M. rewrite HL in M. apply (G_cell st s mu rhs k i v); auto.
Qed.

Lemma G_union (op : env -> env -> env) X Y c :
  (forall a b s, genv a s \/ genv b s -> genv (op a b) s) ->
  G X c \/ G Y c ->
  G (mkA (la_join (a_la X) (a_la Y)) (op (a_base X) (a_base Y))) c.
Proof.
  intros OP [HG|HG]; pose proof HG as (L & _).
  - apply (G_weaken X); cbn [a_la a_base]; auto.
    + apply la_join_not_bot_l; auto.
    + intros a k. apply la_join_const_l; auto.
  - apply (G_weaken Y); cbn [a_la a_base]; auto.
    + apply la_join_not_bot_r; auto.
    + intros a k. apply la_join_const_r; auto.
Qed.

Lemma s_join_sound X Y c : G X c \/ G Y c -> G (s_join X Y) c.
Proof. apply G_union. apply e_join_sound. Qed.
Lemma s_widen_sound X Y c : G X c \/ G Y c -> G (s_widen X Y) c.
Proof. apply G_union. apply e_widen_sound. Qed.
Lemma s_widen_thr_sound ths X Y c : G X c \/ G Y c -> G (s_widen_thr ths X Y) c.
Proof.
  apply G_union. intros a b s. apply e_widen_thr_sound.
  - intros v. apply thr_prev_le. apply mk_thresholds_wf.
  - intros v. apply thr_next_ge. apply mk_thresholds_wf.
Qed.

Lemma rel_set_opt rs cs r (v : option ast) (c : cset) rs' : rel rs cs ->
  (forall a, v = Some a -> forall x, c x -> G a x) ->
  match v with Some x => Some (aset rs r x) | None => None end = Some rs' -> rel rs' (csetr cs r c).
Proof. intros R H E. destruct v as [a|]; [|discriminate]. injection E as <-. apply rel_set; auto. Qed.

Theorem astep_sound rs cs o rs' :
  rel rs cs -> hop_ok rs o -> astep rs o = Some rs' -> rel rs' (cstep cs o).
Proof.
  intros R OK H. pose proof R as [L RR].
  (* a state that differs from a described one by equal memories is described *)
  assert (EXT : forall st s mu c, G st (s, mu) -> fst c = s -> same_mem (snd c) mu -> G st c).
  { intros st s mu c HG E1 E2. apply (G_ext st s mu); auto. rewrite E1. apply agree_refl. }
  (* every operation writes one register: what is left is that the value written describes the
     states of the concrete step (for a copy there is nothing to show) *)
  destruct o; cbn [astep cstep hop_ok] in *;
    try (injection H as <-; apply rel_set; auto); try (refine (rel_set_opt _ _ _ _ _ _ R _ H); intros st' E).
  - intros c _. apply G_top.
  - intros c [].
  - (* assign *)
    intros c (s & mu & C & E1 & E2). destruct OK.
    eapply EXT; [|exact E1|exact E2]. apply s_assign_sound; auto.
  - intros c (s & mu & v & C & AS & E1 & E2). destruct OK as (? & ? & ?).
    eapply EXT; [|exact E1|exact E2]. apply s_arith_sound; auto.
  - intros [s mu] [C S]. apply s_assume_sound; auto.
  - (* forget *)
    intros [s1 mu1] (s & mu & C & E1 & E2). apply (s_forget_sound vs (aget rs r) s mu s1 mu1); auto.
  - intros [s1 mu1] (s & mu & C & E1 & E2). apply (s_forget1_sound v (aget rs r) s mu s1 mu1); auto.
  - intros [s1 mu1] (s & mu & C & E1 & E2). apply (s_project_sound vs (aget rs r) s mu s1 mu1); auto.
  - (* expand *)
    destruct v as [x|a], nv as [y|b]; cbn [s_expand cstep hop_ok] in *; injection H as <-; apply rel_set; auto.
    + intros c (s & mu & C & E1 & E2). destruct OK.
      eapply EXT; [|exact E1|exact E2]. apply s_expand_scalar_sound; auto.
    + intros c [].
    + intros c [].
    + intros [s1 mu1] (s & mu & C & E1 & E2 & E3). cbn [fst snd] in *. subst s1.
      destruct OK as [LY FR]. apply (s_expand_array_sound a b (aget rs r) s mu mu1); auto.
  - (* rename of one variable *)
    destruct from as [|[x|a] [|? ?]]; try tauto; destruct to as [|[y|b] [|? ?]]; try tauto;
      cbn [cstep hop_ok] in *; injection H as <-; apply rel_set; auto.
    + intros c (s & mu & h & C & E1 & E2). destruct OK as (P1 & P2 & P3).
      eapply EXT; [|exact E1|exact E2]. apply s_rename_scalar_sound; auto.
    + intros [s1 mu1] (s & mu & C & E1 & E2 & E3). cbn [fst snd] in *. subst s1.
      destruct OK as (P1 & P2 & P3). apply (s_rename_array_sound a b (aget rs r) s mu mu1); auto.
  - (* array_init *)
    intros [s1 mu1] (s & mu & C & SZ & E1 & E2 & E3). cbn [fst snd] in *. subst s1.
    destruct OK as [P1 P2]. apply (s_array_init_sound a esz0 val (aget rs r) st' s mu mu1); auto.
  - intros c (s & mu & v & C & SZ & O & M & E1 & E2). destruct OK as (? & ? & ?).
    eapply EXT; [|exact E1|exact E2].
    apply (s_array_load_sound lhs a esz0 (aget rs r) st' s mu (eval_le idx s) v); auto.
  - intros [s1 mu1] (s & mu & C & SZ & ST & E1 & E2 & E3). cbn [fst snd] in *. subst s1.
    destruct OK as (P1 & P2 & P3).
    apply (s_array_store_sound a esz0 (eval_le idx s) val strong (aget rs r) st' s mu mu1); auto.
  - intros [s1 mu1] (s & mu & C & SZ & E1 & E2 & E3). cbn [fst snd] in *. subst s1.
    destruct OK as [P1 P2]. apply (s_array_store_range_sound a esz0 val (aget rs r) st' s mu mu1); auto.
  - intros [s1 mu1] (s & mu & C & E1 & E2 & E3).
    cbn [fst snd] in *. subst s1. apply (s_array_assign_sound lhs rhs (aget rs r) s mu mu1); auto.
  - intros c [C|C]; apply s_join_sound; auto.
  - destruct OK.
  - intros c [C|C]; apply s_widen_sound; auto.
  - destruct OK.
  - intros c [C|C]; apply s_widen_thr_sound; auto.
Qed.

(* a history is admissible when each step meets its side condition in the state where it is
   applied *)
Fixpoint hist_ok (rs : list ast) (h : list ahop) : Prop :=
  match h with
  | [] => True
  | o :: r => hop_ok rs o /\ match astep rs o with Some rs' => hist_ok rs' r | None => True end
  end.

Theorem ahistory_sound h : forall rs cs rs',
  rel rs cs -> hist_ok rs h -> arun rs h = Some rs' -> rel rs' (fold_left cstep h cs).
Proof.
  induction h as [|o r IH]; simpl; intros rs cs rs' R OK H.
  - inversion H; subst; auto.
  - destruct OK as [O1 O2]. destruct (astep rs o) as [rs1|] eqn:E; [|discriminate].
    eapply IH; eauto. eapply astep_sound; eauto.
Qed.

Lemma rel_top n : rel (repeat s_top n) (repeat (fun _ => True) n).
Proof.
  split. { rewrite !repeat_length; auto. }
  intros r c _. unfold aget. rewrite nth_repeat. apply G_top.
Qed.

(* every value read from a cell is in the abstract value of the variable receiving the load *)
Theorem aload_value_sound rs cs r lhs a e idx rs' :
  rel rs cs -> hop_ok rs (ALoad r lhs a e idx) ->
  astep rs (ALoad r lhs a e idx) = Some rs' -> (r < length rs)%nat ->
  forall s mu v, cget cs r (s, mu) ->
    eval_le e s = esz a -> cell_ok a (eval_le idx s) -> mu a (eval_le idx s) = Some v ->
    gamma (s_at (aget rs' r) lhs) v.
Proof.
  intros R OK RUN LT s mu v C SZ O M.
  pose proof (astep_sound _ _ _ _ R OK RUN) as [LEN R'].
  destruct R as [L _]. destruct OK as (IS & _).
  specialize (R' r (upd s lhs v, mu)). cbn [cstep] in R'.
  rewrite cget_csetr in R' by lia. rewrite Nat.eqb_refl in R'.
  assert (GG : G (aget rs' r) (upd s lhs v, mu)).
  { apply R'. exists s, mu, v. repeat split; auto. }
  pose proof (G_at _ _ lhs GG IS) as X. cbn [fst] in X. rewrite upd_same in X. exact X.
Qed.

(* array operations never turn a reached state into bottom *)
Theorem areach_not_bottom rs cs r c : rel rs cs -> cget cs r c -> s_is_bottom (aget rs r) = false.
Proof. intros [_ R] C. eapply G_not_bottom; eauto. Qed.

Theorem areach_at_sound rs cs r s mu x : rel rs cs -> cget cs r (s, mu) -> is_prog x ->
  gamma (s_at (aget rs r) x) (s x).
Proof. intros [_ R] C P. apply (G_at _ _ x (R _ _ C) P). Qed.

End Smash.

(* Non-vacuity: a history whose hypotheses hold, with a reached concrete state. *)
Definition ex_esz : arr -> Z := fun _ => 4.
Definition ex_one : arr -> option Z := fun _ => None.
Definition ex_k (n : Z) : linexp := mkLE [] n.
Definition ex_hist : list ahop :=
  [ AInit 0%nat 0%N (ex_k 4) (ex_k 0) (ex_k 12) (ex_k 5);
    AStore 0%nat 0%N (ex_k 4) (le_var (sv 1)) (ex_k 7) false;
    ALoad 0%nat (sv 0) 0%N (ex_k 4) (ex_k 8) ].

Example ex_hist_ok : hist_ok ex_esz ex_one [s_top] ex_hist.
Proof.
  assert (K : forall n, le_prog (ex_k n)) by (intros n c v []).
  assert (V : le_prog (le_var (sv 1))).
  { intros c v [E|[]]. inversion E; subst. apply sv_prog. }
  cbn [hist_ok ex_hist hop_ok]. repeat split; auto; try apply sv_prog.
  all: vm_compute; auto.
Qed.

Example ex_hist_run :
  exists rs', arun [s_top] ex_hist = Some rs' /\
              s_at (aget rs' 0%nat) (sv 0) = mkI (Fin 5) (Fin 7).
Proof. eexists. split; vm_compute; reflexivity. Qed.

Example ex_hist_reached :
  exists c, cget (fold_left (cstep ex_esz ex_one) ex_hist [fun _ => True]) 0%nat c /\ fst c (sv 0) = 5.
Proof.
  set (s0 := fun _ : var => 0).
  set (mu1 := fun (a : arr) (i : Z) => if N.eqb a 0 then Some 5 else None).
  set (mu2 := fun (a : arr) (i : Z) => if N.eqb a 0 then (if i =? 0 then Some 7 else Some 5) else None).
  exists (upd s0 (sv 0) 5, mu2). split; [|apply upd_same].
  cbn [fold_left ex_hist cstep cget csetr nth].
  exists s0, mu2, 5. repeat split; auto.
  exists s0, mu1. repeat split; auto.
  - exists s0, (fun _ _ => None). repeat split; auto.
    + intros a i N. unfold mu1. cbn [snd]. destruct (N.eqb a 0) eqn:E; auto. apply N.eqb_eq in E. congruence.
    + intros i v H. unfold mu1 in H. cbn in H. inversion H. reflexivity.
  - discriminate.
  - intros a i N. unfold mu1, mu2. cbn [snd]. destruct (N.eqb a 0) eqn:E; auto. apply N.eqb_eq in E. congruence.
Qed.

(* Property C14 as a statement about an array domain given by its history machine. *)
Record array_domain := mkAD {
  ad_val : Type;
  ad_top : ad_val;
  ad_step : list ad_val -> ahop -> option (list ad_val);
  ad_get : list ad_val -> reg -> ad_val;
  ad_at : ad_val -> var -> itv;
  ad_is_bottom : ad_val -> bool;
  (* side conditions of an operation in a state (canonical expressions over program
     variables, fresh names, operations of the modelled fragment) *)
  ad_ok : (arr -> Z) -> (arr -> option Z) -> list ad_val -> ahop -> Prop }.

Fixpoint ad_run (D : array_domain) (rs : list (ad_val D)) (h : list ahop) : option (list (ad_val D)) :=
  match h with
  | [] => Some rs
  | o :: r => match ad_step D rs o with Some rs' => ad_run D rs' r | None => None end
  end.
Fixpoint ad_hist_ok (D : array_domain) esz onecell (rs : list (ad_val D)) (h : list ahop) : Prop :=
  match h with
  | [] => True
  | o :: r => ad_ok D esz onecell rs o /\
              match ad_step D rs o with Some rs' => ad_hist_ok D esz onecell rs' r | None => True end
  end.

(* For every element-size assignment, every set of one-cell arrays, every number of
   registers and every admissible history started from top: every state reached by the
   concrete operations is described (so the value a load has just read is in at(lhs)), and
   its register is not bottom. *)
Definition C14_statement (D : array_domain) : Prop :=
  forall esz onecell n h rs,
    ad_hist_ok D esz onecell (repeat (ad_top D) n) h ->
    ad_run D (repeat (ad_top D) n) h = Some rs ->
    forall r s mu, cget (fold_left (cstep esz onecell) h (repeat (fun _ => True) n)) r (s, mu) ->
      ad_is_bottom D (ad_get D rs r) = false /\
      forall x, is_prog x -> gamma (ad_at D (ad_get D rs r) x) (s x).

Definition smash_interval : array_domain :=
  mkAD ast s_top astep aget s_at s_is_bottom hop_ok.

Lemma ad_run_smash rs h : ad_run smash_interval rs h = arun rs h.
Proof. revert rs. induction h as [|o r IH]; simpl; auto. intros rs. destruct (astep rs o); auto. Qed.
Lemma ad_hist_ok_smash esz onecell rs h :
  ad_hist_ok smash_interval esz onecell rs h <-> hist_ok esz onecell rs h.
Proof.
  revert rs. induction h as [|o r IH]; simpl; [tauto|]. intros rs.
  destruct (astep rs o) as [rs'|]; [rewrite IH|]; tauto.
Qed.

Theorem smash_interval_C14 : C14_statement smash_interval.
Proof.
  intros esz onecell n h rs OK RUN r s mu C.
  rewrite ad_run_smash in RUN. apply ad_hist_ok_smash in OK.
  pose proof (ahistory_sound esz onecell h _ _ _ (rel_top esz onecell n) OK RUN) as R.
  split.
  - eapply areach_not_bottom; eauto.
  - intros x P. eapply areach_at_sound; eauto.
Qed.
