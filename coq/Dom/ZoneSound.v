(* ZoneSound.v — property C12 for the zones specification (Dom/Zone.v): every operation is
   SOUND and EXACT over the integers, for all dimensions, constants and histories:
     - the invariant [zwf] (closed matrix, zero diagonal) is preserved by every operation;
     - a closed consistent matrix has an integer point, and its integer points go as far as
       each entry allows ([reached]: a point attaining each finite entry, points exceeding any
       bound at an infinite one; potential construction);
     - hence: bottom <-> unsatisfiable, entails c <-> every point satisfies c, at(v) is the
       tightest interval, inclusion test <-> inclusion of the point sets, join is the least
       upper bound among all bound matrices, meet / assume / forget / assignments are exact.
   The facts about matrices are stated for arbitrary valuations of the nodes ([gfun], [ggam]);
   zones read them at [val s], the octagons (Dom/OctSound.v) at their own valuation. *)
From Coq Require Import ZArith NArith List Bool Lia Arith.
From CrabV Require Import Ir.Syntax Dom.Zone.
Import ListNotations.
Local Open Scope Z_scope.

Arguments tab : simpl never.
Arguments mget : simpl never.
Arguments pairs : simpl never.
Arguments node : simpl never.

Definition wle (a b : wt) : Prop :=
  match a, b with
  | _, None => True
  | None, Some _ => False
  | Some x, Some y => x <= y
  end.

Lemma wleb_spec a b : wleb a b = true <-> wle a b.
Proof. destruct a, b; simpl; try tauto; try (split; [discriminate|tauto]). apply Z.leb_le. Qed.

Lemma wle_trans a b c : wle a b -> wle b c -> wle a c.
Proof. destruct a, b, c; simpl; try tauto; lia. Qed.

(* for an inequality between bounds that have been generalised to variables: cases on each
   being finite, then linear arithmetic *)
Ltac wt_destruct :=
  repeat match goal with
         | x : wt |- _ => destruct x
         | x : option Z |- _ => destruct x
         end.
Ltac wt_crush := intros; wt_destruct; cbn [wle wadd wmin wmax] in *; try tauto; try lia.

Lemma wmin_le_l a b : wle (wmin a b) a.
Proof. wt_crush. Qed.
Lemma wmin_le_r a b : wle (wmin a b) b.
Proof. wt_crush. Qed.
Lemma wmin_cases a b x : wmin a b = Some x -> a = Some x \/ b = Some x.
Proof.
  destruct a as [a|], b as [b|]; cbn [wmin]; intros H; inversion H; auto.
  destruct (Z.min_spec a b) as [[_ M]|[_ M]]; rewrite M; auto.
Qed.

Lemma wmax_le_l a b : wle a (wmax a b).
Proof. wt_crush. Qed.
Lemma wmax_le_r a b : wle b (wmax a b).
Proof. wt_crush. Qed.
Lemma wmax_lub a b c : wle a c -> wle b c -> wle (wmax a b) c.
Proof. wt_crush. Qed.
Lemma wadd_mono a a' b b' : wle a a' -> wle b b' -> wle (wadd a b) (wadd a' b').
Proof. wt_crush. Qed.

(* a bound on the sum for each choice of the minima bounds the sum of the minima *)
Lemma wle_wadd_wmin x a b c d :
  wle x (wadd a c) -> wle x (wadd a d) -> wle x (wadd b c) -> wle x (wadd b d) ->
  wle x (wadd (wmin a b) (wmin c d)).
Proof. wt_crush. Qed.

Lemma nth_map_seq {A} (g : nat -> A) (d : A) n i :
  nth i (map g (seq 0 n)) d = if (i <? n)%nat then g i else d.
Proof.
  destruct (Nat.ltb_spec i n).
  - rewrite (nth_indep _ d (g O)) by (rewrite map_length, seq_length; auto).
    rewrite map_nth, seq_nth; auto.
  - apply nth_overflow. rewrite map_length, seq_length. auto.
Qed.

Lemma mget_tab n f i j :
  mget (tab n f) i j = if ((i <? n) && (j <? n))%nat then f i j else None.
Proof.
  unfold mget, tab. rewrite nth_map_seq.
  destruct (i <? n)%nat; simpl.
  - rewrite nth_map_seq. reflexivity.
  - destruct j; reflexivity.
Qed.

Lemma mget_tab_lt n f i j : (i < n)%nat -> (j < n)%nat -> mget (tab n f) i j = f i j.
Proof. intros Hi Hj. rewrite mget_tab, (proj2 (Nat.ltb_lt i n) Hi), (proj2 (Nat.ltb_lt j n) Hj). reflexivity. Qed.

Definition support (n : nat) (f : nat -> nat -> wt) : Prop :=
  forall i j, (n <= i \/ n <= j)%nat -> f i j = None.

Lemma support_lt n f i j k : support n f -> f i j = Some k -> (i < n /\ j < n)%nat.
Proof.
  intros S E. destruct (Nat.lt_ge_cases i n), (Nat.lt_ge_cases j n); auto;
    rewrite S in E by auto; discriminate.
Qed.

Lemma tab_support n f : support n (mget (tab n f)).
Proof.
  intros i j H. rewrite mget_tab.
  destruct (Nat.ltb_spec i n), (Nat.ltb_spec j n); simpl; auto; lia.
Qed.

Lemma tab_ext n f : support n f -> forall i j, mget (tab n f) i j = f i j.
Proof.
  intros S i j. rewrite mget_tab.
  destruct (Nat.ltb_spec i n), (Nat.ltb_spec j n); simpl; auto; symmetry; apply S; lia.
Qed.

Lemma in_pairs n i j : In (i, j) (pairs n) <-> (i < n /\ j < n)%nat.
Proof.
  unfold pairs. rewrite in_flat_map. split.
  - intros [x [Hx H]]. apply in_map_iff in H. destruct H as [y [E Hy]]. inversion E; subst.
    apply in_seq in Hx, Hy. lia.
  - intros [Hi Hj]. exists i. split; [apply in_seq; lia|]. apply in_map_iff. exists j.
    split; auto. apply in_seq; lia.
Qed.

Definition val (s : store) (i : nat) : Z := match i with O => 0 | S k => s (N.of_nat k) end.

Lemma val_node s v : val s (node v) = s v.
Proof. unfold node, val. rewrite N2Nat.id. reflexivity. Qed.

Definition gfun (f : nat -> nat -> wt) (g : nat -> Z) : Prop :=
  forall i j k, f i j = Some k -> g j - g i <= k.
Definition gmat (m : mat) (s : store) : Prop := gfun (mget m) (val s).
Definition gamma (z : zone) (s : store) : Prop :=
  match z with ZBot => False | ZM m => gmat m s end.
(* the meaning under an arbitrary valuation of the nodes: [gamma z s] is [ggam (val s) z] *)
Definition ggam (g : nat -> Z) (z : zone) : Prop :=
  match z with ZBot => False | ZM m => gfun (mget m) g end.

Definition gedge_holds (g : nat -> Z) (e : edge) : Prop := let '(a, b, w) := e in g b - g a <= w.
Definition edge_in (n : nat) (e : edge) : Prop :=
  let '(a, b, w) := e in (a < n /\ b < n)%nat.

Lemma gfun_ext f g g' : (forall i, g' i = g i) -> gfun f g -> gfun f g'.
Proof. intros E G i j k F. rewrite !E. eauto. Qed.

(* restricting a matrix to the first n nodes loses constraints only *)
Lemma gfun_tab_sub n f g : gfun f g -> gfun (mget (tab n f)) g.
Proof.
  intros G i j k. rewrite mget_tab. destruct ((i <? n) && (j <? n))%nat; [apply G|discriminate].
Qed.

Lemma gfun_tab n f g : support n f -> (gfun (mget (tab n f)) g <-> gfun f g).
Proof.
  intros S. split; [|apply gfun_tab_sub]. intros H i j k E. apply H. rewrite tab_ext; auto.
Qed.

Definition closed (f : nat -> nat -> wt) : Prop :=
  forall i j k, wle (f i j) (wadd (f i k) (f k j)).
Definition diag0 (n : nat) (f : nat -> nat -> wt) : Prop :=
  forall i, (i < n)%nat -> f i i = Some 0.

Definition mwf (n : nat) (m : mat) : Prop :=
  support n (mget m) /\ diag0 n (mget m) /\ closed (mget m).
(* values of dimension n (any bound matrix, closed or not) *)
Definition zdim (n : nat) (z : zone) : Prop :=
  match z with ZBot => True | ZM m => support n (mget m) end.
Definition zwf (n : nat) (z : zone) : Prop :=
  match z with ZBot => True | ZM m => mwf n m end.

Lemma zwf_zdim n z : zwf n z -> zdim n z.
Proof. destruct z; simpl; auto. intros [S _]. exact S. Qed.

(* restriction to the first n nodes keeps closure *)
Lemma closed_tab n f : closed f -> closed (mget (tab n f)).
Proof.
  intros C i j k. rewrite !mget_tab. specialize (C i j k).
  destruct (i <? n)%nat, (j <? n)%nat, (k <? n)%nat; simpl; auto;
    try (destruct (f i k); exact I); try (destruct (f i j); exact I).
Qed.

Lemma mwf_tab n f : diag0 n f -> closed f -> mwf n (tab n f).
Proof.
  intros D C. split; [apply tab_support|]. split; [|apply closed_tab, C].
  intros i Hi. rewrite mget_tab_lt by auto. apply D, Hi.
Qed.

Lemma mwf_diag_nonneg n m : mwf n m -> forall i, wle (Some 0) (mget m i i).
Proof.
  intros [S [D _]] i. destruct (Nat.lt_ge_cases i n).
  - rewrite D; simpl; auto; lia.
  - rewrite S; simpl; auto.
Qed.

Lemma z_top_wf n : zwf n (z_top n).
Proof.
  apply mwf_tab.
  - intros i _. rewrite Nat.eqb_refl. reflexivity.
  - intros i j k.
    destruct (Nat.eqb_spec i j), (Nat.eqb_spec i k), (Nat.eqb_spec k j); simpl; auto; try lia; congruence.
Qed.

Lemma z_top_ggam n g : ggam g (z_top n).
Proof.
  apply gfun_tab_sub. intros i j k. destruct (Nat.eqb_spec i j); [|discriminate].
  intros H. inversion H. subst. lia.
Qed.

Section AddEdge.
  Variable f : nat -> nat -> wt.
  Variables (a b : nat) (w : Z).
  Definition upd_f (x y : nat) : wt :=
    wmin (f x y) (wadd (wadd (f x a) (Some w)) (f b y)).

  Hypothesis C : closed f.
  Hypothesis NN : wle (Some 0) (wadd (Some w) (f b a)).

  (* each of the four ways of composing two entries of [upd_f] is a path of f, possibly
     through the new edge, or goes through it twice, i.e. once and round a cycle b -> a *)
  Lemma upd_closed : closed upd_f.
  Proof.
    intros x y z. unfold upd_f. apply wle_wadd_wmin.
    - eapply wle_trans; [apply wmin_le_l|apply C].
    - eapply wle_trans; [apply wmin_le_r|]. generalize (C x a z).
      generalize (f x a) (f x z) (f z a) (f b y). wt_crush.
    - eapply wle_trans; [apply wmin_le_r|]. generalize (C b y z).
      generalize (f x a) (f b y) (f b z) (f z y). wt_crush.
    - eapply wle_trans; [apply wmin_le_r|]. generalize (C b a z) NN.
      generalize (f x a) (f b y) (f b z) (f z a) (f b a). wt_crush.
  Qed.

  Lemma upd_diag x : f x x = Some 0 -> upd_f x x = Some 0.
  Proof.
    intros D. unfold upd_f. rewrite D.
    pose proof (C b a x) as H. revert H NN.
    generalize (f x a) (f b x) (f b a). wt_crush. f_equal. lia.
  Qed.

  Lemma upd_gfun g : gfun f g -> g b - g a <= w -> gfun upd_f g.
  Proof.
    intros G E x y k H. apply wmin_cases in H. destruct H as [H|H]; [exact (G _ _ _ H)|].
    pose proof (G x a) as H2. pose proof (G b y) as H3.
    destruct (f x a) as [q|], (f b y) as [r|]; inversion H.
    specialize (H2 _ eq_refl). specialize (H3 _ eq_refl). lia.
  Qed.

  Lemma upd_gfun_inv g : f a a = Some 0 -> f b b = Some 0 -> gfun upd_f g ->
    gfun f g /\ g b - g a <= w.
  Proof.
    intros Da Db G. split.
    - intros x y k H. pose proof (G x y) as G1. unfold upd_f in G1. rewrite H in G1.
      destruct (wadd (wadd (f x a) (Some w)) (f b y)) as [q|]; simpl in G1.
      + specialize (G1 _ eq_refl). lia.
      + apply G1. reflexivity.
    - pose proof (G a b) as G1. unfold upd_f in G1. rewrite Da, Db in G1.
      destruct (f a b) as [p|]; simpl in G1; specialize (G1 _ eq_refl); lia.
  Qed.

  Lemma upd_support n : support n f -> support n upd_f.
  Proof.
    intros S x y H. unfold upd_f. destruct H as [H|H].
    - rewrite (S x y), (S x a) by auto. reflexivity.
    - rewrite (S x y), (S b y) by auto. destruct (wadd (f x a) (Some w)); reflexivity.
  Qed.

End AddEdge.

(* an edge that some solution satisfies closes no negative cycle *)
Lemma edge_consistent f a b w g :
  gfun f g -> g b - g a <= w -> wle (Some 0) (wadd (Some w) (f b a)).
Proof.
  intros G H. pose proof (G b a) as G1. destruct (f b a) as [k|]; simpl; auto.
  specialize (G1 _ eq_refl). lia.
Qed.

Lemma upd_mwf n m a b w : mwf n m -> wle (Some 0) (wadd (Some w) (mget m b a)) ->
  mwf n (tab n (upd_f (mget m) a b w)).
Proof.
  intros (S & D & C) NN. apply mwf_tab; [|apply upd_closed; auto].
  intros i Hi. apply upd_diag; auto.
Qed.

Lemma upd_ggam n m a b w g : mwf n m -> (a < n)%nat -> (b < n)%nat ->
  (gfun (mget (tab n (upd_f (mget m) a b w))) g <-> gfun (mget m) g /\ g b - g a <= w).
Proof.
  intros (S & D & C) Ha Hb. rewrite gfun_tab by apply upd_support, S. split.
  - apply upd_gfun_inv; auto.
  - intros [G H]. apply upd_gfun; auto.
Qed.

Lemma add_edge_sound g n z a b w :
  ggam g z -> g b - g a <= w -> ggam g (add_edge n z (a, b, w)).
Proof.
  destruct z as [|m]; cbn [ggam add_edge]; [tauto|]. intros G H. unfold add_edge_m.
  rewrite (proj2 (wleb_spec _ _) (edge_consistent _ _ _ _ _ G H)).
  apply gfun_tab_sub, upd_gfun; auto.
Qed.

Lemma add_edges_sound g n es : forall z,
  ggam g z -> Forall (gedge_holds g) es -> ggam g (add_edges n z es).
Proof.
  induction es as [|[[a b] w] r IH]; intros z G F; simpl; auto.
  inversion F; subst. apply IH; auto. apply add_edge_sound; auto.
Qed.

Lemma add_edge_spec n z e : zwf n z -> edge_in n e ->
  zwf n (add_edge n z e) /\ forall g, ggam g (add_edge n z e) <-> (ggam g z /\ gedge_holds g e).
Proof.
  destruct e as [[a b] w], z as [|m]; cbn [add_edge zwf ggam edge_in gedge_holds]; [tauto|].
  intros W [Ha Hb]. unfold add_edge_m.
  destruct (wleb (Some 0) (wadd (Some w) (mget m b a))) eqn:E; cbn [negb zwf ggam].
  - apply wleb_spec in E. split; [apply upd_mwf; auto|]. intros g. apply upd_ggam; auto.
  - split; [exact I|]. intros g. split; [tauto|]. intros [G H].
    apply (edge_consistent _ _ _ _ _ G), wleb_spec in H. congruence.
Qed.

Lemma add_edges_spec n es : forall z, zwf n z -> Forall (edge_in n) es ->
  zwf n (add_edges n z es) /\
  forall g, ggam g (add_edges n z es) <-> (ggam g z /\ Forall (gedge_holds g) es).
Proof.
  induction es as [|e r IH]; intros z W F; simpl.
  - split; auto. intros g. split; [intros; split; auto|tauto].
  - inversion F; subst. destruct (add_edge_spec n z e W H1) as [W1 G1].
    destruct (IH _ W1 H2) as [W2 G2]. split; auto.
    intros g. rewrite G2, G1. split.
    + intros [[A B] Cc]. split; auto.
    + intros [A B]. inversion B; subst. tauto.
Qed.
(* Extension property of closed matrices: an assignment satisfying every constraint among
   the nodes of L extends to one more node p. *)
Section Extend.
  Variable f : nat -> nat -> wt.
  Hypothesis C : closed f.
  Variable g : nat -> Z.
  Variable p : nat.

  Definition sat_on (L : list nat) (h : nat -> Z) : Prop :=
    forall i j k, In i L -> In j L -> f i j = Some k -> h j - h i <= k.

  (* greatest lower bound / least upper bound that the nodes of L impose on node p *)
  Fixpoint lo (L : list nat) : option Z :=
    match L with
    | [] => None
    | i :: r =>
      match f p i with
      | Some k => Some (match lo r with Some l => Z.max l (g i - k) | None => g i - k end)
      | None => lo r
      end
    end.
  Fixpoint hi (L : list nat) : option Z :=
    match L with
    | [] => None
    | i :: r =>
      match f i p with
      | Some k => Some (match hi r with Some h => Z.min h (g i + k) | None => g i + k end)
      | None => hi r
      end
    end.

  Lemma lo_ge L : forall i k, In i L -> f p i = Some k -> exists l, lo L = Some l /\ g i - k <= l.
  Proof.
    induction L as [|x r IH]; simpl; intros i k I E; [tauto|].
    destruct I as [->|I].
    - rewrite E. destruct (lo r); eexists; split; eauto; lia.
    - destruct (IH _ _ I E) as [l [E1 H]]. rewrite E1.
      destruct (f p x); eexists; split; eauto; lia.
  Qed.
  Lemma lo_attained L : forall l, lo L = Some l -> exists i k, In i L /\ f p i = Some k /\ l = g i - k.
  Proof.
    induction L as [|x r IH]; simpl; intros l E; [discriminate|].
    destruct (f p x) as [k|] eqn:F.
    - destruct (lo r) as [l'|] eqn:E1; inversion E; subst.
      + destruct (Z.max_spec l' (g x - k)) as [[_ M]|[_ M]]; rewrite M.
        * exists x, k. auto.
        * destruct (IH _ eq_refl) as [i [k' [I [F' X]]]]. exists i, k'. auto.
      + exists x, k. auto.
    - destruct (IH _ E) as [i [k' [I [F' X]]]]. exists i, k'. auto.
  Qed.
  Lemma hi_le L : forall i k, In i L -> f i p = Some k -> exists h, hi L = Some h /\ h <= g i + k.
  Proof.
    induction L as [|x r IH]; simpl; intros i k I E; [tauto|].
    destruct I as [->|I].
    - rewrite E. destruct (hi r); eexists; split; eauto; lia.
    - destruct (IH _ _ I E) as [l [E1 H]]. rewrite E1.
      destruct (f x p); eexists; split; eauto; lia.
  Qed.
  Lemma hi_attained L : forall h, hi L = Some h -> exists i k, In i L /\ f i p = Some k /\ h = g i + k.
  Proof.
    induction L as [|x r IH]; simpl; intros l E; [discriminate|].
    destruct (f x p) as [k|] eqn:F.
    - destruct (hi r) as [l'|] eqn:E1; inversion E; subst.
      + destruct (Z.min_spec l' (g x + k)) as [[_ M]|[_ M]]; rewrite M.
        * destruct (IH _ eq_refl) as [i [k' [I [F' X]]]]. exists i, k'. auto.
        * exists x, k. auto.
      + exists x, k. auto.
    - destruct (IH _ E) as [i [k' [I [F' X]]]]. exists i, k'. auto.
  Qed.

  (* the two bounds are attained at nodes i, j of L, and f j i <= f j p + f p i *)
  Lemma lo_le_hi L l h : sat_on L g -> lo L = Some l -> hi L = Some h -> l <= h.
  Proof.
    intros S El Eh.
    destruct (lo_attained L l El) as (i & k & Ii & Fi & ->).
    destruct (hi_attained L h Eh) as (j & k' & Ij & Fj & ->).
    pose proof (C j i p) as T. rewrite Fj, Fi in T.
    destruct (f j i) as [w|] eqn:Fji; simpl in T; [|tauto].
    pose proof (S _ _ _ Ij Ii Fji). lia.
  Qed.

  Definition pick (L : list nat) : Z :=
    match lo L, hi L with
    | Some l, _ => l
    | None, Some h => h
    | None, None => 0
    end.

  Definition ext (L : list nat) : nat -> Z := fun i => if Nat.eqb i p then pick L else g i.

  Lemma extend L :
    ~ In p L -> wle (Some 0) (f p p) -> sat_on L g -> sat_on (p :: L) (ext L).
  Proof.
    intros NI Dp S i j k Ii Ij E. unfold ext.
    assert (Hp : forall x, In x L -> Nat.eqb x p = false).
    { intros x I. apply Nat.eqb_neq. intros ->. tauto. }
    destruct Ii as [<-|Ii], Ij as [<-|Ij]; rewrite ?Nat.eqb_refl, ?(Hp _ Ii), ?(Hp _ Ij).
    - rewrite E in Dp. simpl in Dp. lia.
    - (* constraint p -> j : g j - x <= k *)
      destruct (lo_ge L _ _ Ij E) as [l [El Hl]]. unfold pick. rewrite El. lia.
    - (* constraint i -> p : x - g i <= k *)
      destruct (hi_le L _ _ Ii E) as [h [Eh Hh]]. unfold pick.
      destruct (lo L) as [l|] eqn:El; [pose proof (lo_le_hi L l h S El Eh)|rewrite Eh]; lia.
    - apply (S _ _ _ Ii Ij E).
  Qed.
End Extend.

Lemma sat_on_ext f g g' L : (forall i, In i L -> g i = g' i) -> sat_on f L g -> sat_on f L g'.
Proof. intros E S i j k Ii Ij F. rewrite <- (E _ Ii), <- (E _ Ij). eapply S; eauto. Qed.

Lemma solution_on f : closed f -> (forall i, wle (Some 0) (f i i)) ->
  forall L, NoDup L -> exists g, sat_on f L g.
Proof.
  intros C D L. induction L as [|p L IH]; intros ND.
  - exists (fun _ => 0). intros i j k [].
  - inversion ND; subst. destruct (IH H2) as [g S].
    exists (ext f g p L). apply extend; auto.
Qed.

(* a closed consistent matrix has a solution *)
Theorem mwf_inhabited_g n m : mwf n m -> exists g, gfun (mget m) g.
Proof.
  intros W.
  destruct (solution_on (mget m) (proj2 (proj2 W)) (mwf_diag_nonneg n m W) (seq 0 n) (seq_NoDup n 0))
    as [g G].
  exists g. intros i j k E. destruct (support_lt n _ i j k (proj1 W) E).
  apply (G i j k); auto; apply in_seq; lia.
Qed.

(* The valuations [v t] (all valuations; those of the stores; for octagons, those of the stores
   under the octagon encoding) go as far as each entry of the matrix allows.  Exactness of
   entailment, of the inclusion test and leastness of the join follow from this alone. *)
Section Reached.
  Context {T : Type} (v : T -> nat -> Z) (n : nat) (m : mat).

  Definition reached : Prop :=
    forall i j K, (i < n)%nat -> (j < n)%nat -> wle (Some K) (mget m i j) ->
    exists t, gfun (mget m) (v t) /\ v t j - v t i >= K.

  Hypothesis R : reached.

  Lemma reached_attained i j k : (i < n)%nat -> (j < n)%nat -> mget m i j = Some k ->
    exists t, gfun (mget m) (v t) /\ v t j - v t i = k.
  Proof.
    intros Hi Hj E. destruct (R i j k Hi Hj) as (t & G & H); [rewrite E; apply Z.le_refl|].
    exists t. split; auto. specialize (G _ _ _ E). lia.
  Qed.

  (* a bound that holds at every solution is no smaller than the entry *)
  Lemma reached_edge a b w : (a < n)%nat -> (b < n)%nat ->
    (forall t, gfun (mget m) (v t) -> v t b - v t a <= w) -> wle (mget m a b) (Some w).
  Proof.
    intros Ha Hb H.
    assert (X : forall K, wle (Some K) (mget m a b) -> K <= w).
    { intros K L. destruct (R a b K Ha Hb L) as (t & G & Y). specialize (H t G). lia. }
    destruct (mget m a b) as [k|]; simpl.
    - apply X, Z.le_refl.
    - specialize (X (w + 1) I). lia.
  Qed.

  (* the entries are below those of any matrix that contains the solutions *)
  Lemma reached_le c : support n (mget c) ->
    (forall t, gfun (mget m) (v t) -> gfun (mget c) (v t)) ->
    forall i j, wle (mget m i j) (mget c i j).
  Proof.
    intros S H i j. destruct (mget c i j) as [k|] eqn:E; [|destruct (mget m i j); exact I].
    destruct (support_lt n _ i j k S E). apply reached_edge; auto. intros t G. exact (H t G _ _ _ E).
  Qed.
End Reached.

(* the test of [z_entails] and [o_entails] on the edges of a constraint *)
Lemma edges_test_sound g m es :
  forallb (fun e : edge => let '(a, b, w) := e in wleb (mget m a b) (Some w)) es = true ->
  gfun (mget m) g -> Forall (gedge_holds g) es.
Proof.
  rewrite forallb_forall. intros H G. apply Forall_forall. intros [[a b] w] I.
  specialize (H _ I). apply wleb_spec in H. pose proof (G a b) as G1.
  destruct (mget m a b) as [k|]; simpl in H; [|tauto]. specialize (G1 _ eq_refl). simpl. lia.
Qed.

Lemma edges_test_complete {T} (v : T -> nat -> Z) n m es :
  reached v n m -> Forall (edge_in n) es ->
  (forall t, gfun (mget m) (v t) -> Forall (gedge_holds (v t)) es) ->
  forallb (fun e : edge => let '(a, b, w) := e in wleb (mget m a b) (Some w)) es = true.
Proof.
  intros R F H. apply forallb_forall. intros [[a b] w] I. apply wleb_spec.
  rewrite Forall_forall in F. destruct (F _ I). apply (reached_edge v n m R); auto.
  intros t G. specialize (H t G). rewrite Forall_forall in H. exact (H _ I).
Qed.

Lemma mwf_reached_g n m : mwf n m -> reached (fun g => g) n m.
Proof.
  intros W i j K Hi Hj L.
  destruct (mwf_inhabited_g n (tab n (upd_f (mget m) j i (- K)))) as [g G].
  { apply upd_mwf; auto. destruct (mget m i j); simpl in *; auto. lia. }
  apply upd_ggam in G; auto. exists g. split; [tauto|lia].
Qed.

(* closed matrices with the same solutions are equal entry by entry *)
Lemma mwf_unique n a c : mwf n a -> mwf n c ->
  (forall g, gfun (mget a) g <-> gfun (mget c) g) -> forall i j, mget a i j = mget c i j.
Proof.
  intros Wa Wc H i j.
  pose proof (reached_le _ n a (mwf_reached_g n a Wa) c (proj1 Wc) (fun g => proj1 (H g)) i j) as L1.
  pose proof (reached_le _ n c (mwf_reached_g n c Wc) a (proj1 Wa) (fun g => proj2 (H g)) i j) as L2.
  destruct (mget a i j), (mget c i j); simpl in *; try tauto. f_equal. lia.
Qed.

(* from a node valuation to a store, node 0 being the constant zero *)
Definition store_of (g : nat -> Z) : store := fun v => g (node v) - g O.

Lemma val_store_of g i : val (store_of g) i = g i - g O.
Proof.
  destruct i; simpl; [lia|]. unfold store_of, node. rewrite Nat2N.id. reflexivity.
Qed.

Lemma gmat_store_of m g : gfun (mget m) g -> gmat m (store_of g).
Proof. intros G i j k E. rewrite !val_store_of. specialize (G _ _ _ E). lia. Qed.

(* a closed consistent matrix has an integer point *)
Theorem mwf_inhabited n m : mwf n m -> exists s, gmat m s.
Proof. intros W. destruct (mwf_inhabited_g n m W) as [g G]. exists (store_of g). apply gmat_store_of, G. Qed.

Lemma mwf_reached n m : mwf n m -> reached val n m.
Proof.
  intros W i j K Hi Hj L. destruct (mwf_reached_g n m W i j K Hi Hj L) as (g & G & H).
  exists (store_of g). split; [apply gmat_store_of, G|]. rewrite !val_store_of. lia.
Qed.

(* bottom exactly when there is no integer point *)
Theorem zone_bottom_exact n z : zwf n z -> (z_is_bot z = true <-> forall s, ~ gamma z s).
Proof.
  intros W. destruct z as [|m]; simpl.
  - split; auto.
  - split; [discriminate|]. intros H. destruct (mwf_inhabited n m W) as [s G]. destruct (H s G).
Qed.

(* each finite entry is attained, each infinite entry is exceeded by some integer point *)
Theorem entry_attained n m i j k : mwf n m -> (i < n)%nat -> (j < n)%nat ->
  mget m i j = Some k -> exists s, gmat m s /\ val s j - val s i = k.
Proof. intros W. apply (reached_attained val n m), mwf_reached, W. Qed.

Theorem entry_unbounded n m i j K : mwf n m -> (i < n)%nat -> (j < n)%nat ->
  mget m i j = None -> exists s, gmat m s /\ val s j - val s i >= K.
Proof. intros W Hi Hj E. apply (mwf_reached n m W i j K Hi Hj). rewrite E. exact I. Qed.

Lemma zone_nodes_spec ts p q s :
  zone_nodes ts = Some (p, q) -> eval_terms ts s = val s p - val s q.
Proof.
  unfold zone_nodes. destruct ts as [|[c x] [|[d y] [|]]]; try discriminate.
  - intros H. inversion H. simpl. lia.
  - destruct (Z.eqb_spec c 1); [|destruct (Z.eqb_spec c (-1)); [|discriminate]];
      intros H; inversion H; subst; cbn [eval_terms]; rewrite val_node; cbn [val]; lia.
  - destruct (Z.eqb_spec c 1), (Z.eqb_spec d (-1)); cbn [andb];
      try (intros H; inversion H; subst; cbn [eval_terms]; rewrite !val_node; lia);
      destruct (Z.eqb_spec c (-1)), (Z.eqb_spec d 1); cbn [andb]; try discriminate;
      intros H; inversion H; subst; cbn [eval_terms]; rewrite !val_node; lia.
Qed.

Lemma zone_edges_spec c es s :
  zone_edges c = Some es -> (sat c s <-> Forall (gedge_holds (val s)) es).
Proof.
  unfold zone_edges, sat, eval_le.
  destruct (zone_nodes (le_terms (lc_exp c))) as [[p q]|] eqn:E; [|discriminate].
  rewrite (zone_nodes_spec _ _ _ s E).
  destruct (lc_kind c); intros H; inversion H; subst;
    rewrite ?Forall_cons_iff, Forall_nil_iff; cbn [gedge_holds]; lia.
Qed.

(* assuming a list of constraints one by one, for any domain *)
Section AssumeList.
  Context {A : Type} (wf : A -> Prop) (gam : A -> store -> Prop) (add : lincst -> A -> A).
  Variable ok : lincst -> Prop.
  Hypothesis add_spec : forall c z, ok c -> wf z ->
    wf (add c z) /\ forall s, gam (add c z) s <-> (gam z s /\ sat c s).

  Lemma assume_list_spec cs : forall z, Forall ok cs -> wf z ->
    wf (fold_left (fun acc c => add c acc) cs z) /\
    forall s, gam (fold_left (fun acc c => add c acc) cs z) s <->
              (gam z s /\ Forall (fun c => sat c s) cs).
  Proof.
    induction cs as [|c r IH]; intros z F W; simpl.
    - split; auto. intros s. split; [intros; split; auto|tauto].
    - inversion F; subst. destruct (add_spec c z H1 W) as [W1 G1].
      destruct (IH _ H2 W1) as [W2 G2]. split; auto.
      intros s. rewrite G2, G1, Forall_cons_iff. tauto.
  Qed.
End AssumeList.

(* a constraint of the language over the variables of the matrix *)
Definition z_ok (n : nat) (c : lincst) : Prop :=
  exists es, zone_edges c = Some es /\ Forall (edge_in n) es.

Theorem z_add_spec n c z :
  z_ok n c -> zwf n z ->
  zwf n (z_add n c z) /\ (forall s, gamma (z_add n c z) s <-> (gamma z s /\ sat c s)).
Proof.
  intros [es [E F]] W. unfold z_add. rewrite E.
  destruct (add_edges_spec n es z W F) as [W1 G1]. split; auto.
  intros s. rewrite (zone_edges_spec c es s E). apply (G1 (val s)).
Qed.

Theorem z_assume_spec n cs : forall z,
  Forall (z_ok n) cs -> zwf n z ->
  zwf n (z_assume n cs z) /\
  (forall s, gamma (z_assume n cs z) s <-> (gamma z s /\ Forall (fun c => sat c s) cs)).
Proof. exact (assume_list_spec (zwf n) gamma (z_add n) (z_ok n) (z_add_spec n) cs). Qed.

(* entails answers yes exactly when every integer point satisfies the constraint *)
Theorem z_entails_exact n c z :
  zwf n z -> z_ok n c -> (z_entails c z = true <-> forall s, gamma z s -> sat c s).
Proof.
  intros W [es [E F]]. destruct z as [|m]; simpl.
  - split; auto. intros _ s [].
  - rewrite E. split.
    + intros H s G. apply (zone_edges_spec c es s E), (edges_test_sound _ m es H G).
    + intros H. apply (edges_test_complete val n m es (mwf_reached n m W) F).
      intros s G. apply (zone_edges_spec c es s E), H, G.
Qed.

(* at(v) is the tightest interval *)
Theorem z_upper_exact n m v : mwf n m -> (node v < n)%nat ->
  match z_upper (ZM m) v with
  | Some u => (forall s, gmat m s -> s v <= u) /\ exists s, gmat m s /\ s v = u
  | None => forall K, exists s, gmat m s /\ s v >= K
  end.
Proof.
  intros W Hv. assert (H0 : (0 < n)%nat) by lia. simpl. destruct (mget m O (node v)) as [u|] eqn:E.
  - split.
    + intros s G. specialize (G _ _ _ E). rewrite val_node in G. simpl in G. lia.
    + destruct (entry_attained n m O (node v) u W H0 Hv E) as [s [G X]].
      exists s. split; auto. rewrite val_node in X. simpl in X. lia.
  - intros K. destruct (entry_unbounded n m O (node v) K W H0 Hv E) as [s [G X]].
    exists s. split; auto. rewrite val_node in X. simpl in X. lia.
Qed.

Theorem z_lower_exact n m v : mwf n m -> (node v < n)%nat ->
  match z_lower (ZM m) v with
  | Some l => (forall s, gmat m s -> l <= s v) /\ exists s, gmat m s /\ s v = l
  | None => forall K, exists s, gmat m s /\ s v <= K
  end.
Proof.
  intros W Hv. assert (H0 : (0 < n)%nat) by lia. simpl. destruct (mget m (node v) O) as [u|] eqn:E.
  - split.
    + intros s G. specialize (G _ _ _ E). rewrite val_node in G. simpl in G. lia.
    + destruct (entry_attained n m (node v) O u W Hv H0 E) as [s [G X]].
      exists s. split; auto. rewrite val_node in X. simpl in X. lia.
  - intros K. destruct (entry_unbounded n m (node v) O (- K) W Hv H0 E) as [s [G X]].
    exists s. split; auto. rewrite val_node in X. simpl in X. lia.
Qed.

Lemma z_leq_sound g n a b : zdim n b -> z_leq n a b = true -> ggam g a -> ggam g b.
Proof.
  destruct a as [|x], b as [|y]; simpl; try tauto; try discriminate.
  intros Db H G i j k E. rewrite forallb_forall in H.
  specialize (H (i, j) (proj2 (in_pairs n i j) (support_lt n _ i j k Db E))).
  simpl in H. apply wleb_spec in H. rewrite E in H.
  pose proof (G i j) as G1. destruct (mget x i j); simpl in H; [|tauto].
  specialize (G1 _ eq_refl). lia.
Qed.

Theorem z_leq_exact n a b : zwf n a -> zdim n b ->
  (z_leq n a b = true <-> forall s, gamma a s -> gamma b s).
Proof.
  intros Wa Db. split; [intros H s; apply (z_leq_sound (val s) n a b Db H)|].
  destruct a as [|x]; [reflexivity|]. destruct b as [|y]; simpl; intros H.
  - destruct (mwf_inhabited n x Wa) as [s G]. destruct (H s G).
  - apply forallb_forall. intros [i j] _. apply wleb_spec.
    apply (reached_le val n x (mwf_reached n x Wa) y Db H).
Qed.

Lemma wmax_closed f g : closed f -> closed g -> closed (fun i j => wmax (f i j) (g i j)).
Proof.
  intros Cf Cg i j k. apply wmax_lub; (eapply wle_trans; [apply Cf || apply Cg|]);
    apply wadd_mono; apply wmax_le_l || apply wmax_le_r.
Qed.

Theorem z_join_wf n a b : zwf n a -> zwf n b -> zwf n (z_join n a b).
Proof.
  destruct a as [|x], b as [|y]; simpl; auto.
  intros (Sx & Dx & Cx) (Sy & Dy & Cy). apply mwf_tab; [|apply wmax_closed; auto].
  intros i Hi. rewrite Dx, Dy; auto.
Qed.

Lemma z_join_sound g n a b : ggam g a \/ ggam g b -> ggam g (z_join n a b).
Proof.
  destruct a as [|x], b as [|y]; simpl; try tauto.
  intros H. apply gfun_tab_sub. intros i j k.
  destruct H as [G|G]; pose proof (G i j) as G1;
    destruct (mget x i j), (mget y i j); simpl; try discriminate;
    intros H; inversion H; specialize (G1 _ eq_refl); lia.
Qed.

(* the join is below every matrix of the dimension (closed or not) that is above both *)
Lemma z_join_least_m {T} (v : T -> nat -> Z) n x y c :
  reached v n x -> reached v n y -> support n (mget c) ->
  (forall t, gfun (mget x) (v t) -> gfun (mget c) (v t)) ->
  (forall t, gfun (mget y) (v t) -> gfun (mget c) (v t)) ->
  forall g, ggam g (z_join n (ZM x) (ZM y)) -> gfun (mget c) g.
Proof.
  intros Rx Ry S Hx Hy g G i j k E.
  pose proof (reached_le v n x Rx c S Hx i j) as L1. pose proof (reached_le v n y Ry c S Hy i j) as L2.
  rewrite E in L1, L2. destruct (support_lt n _ i j k S E) as [Hi Hj].
  pose proof (G i j) as G1. simpl in G1. rewrite mget_tab_lt in G1 by auto.
  destruct (mget x i j), (mget y i j); simpl in *; try tauto. specialize (G1 _ eq_refl). lia.
Qed.

Theorem z_join_least n a b c : zwf n a -> zwf n b -> zdim n c ->
  (forall s, gamma a s -> gamma c s) -> (forall s, gamma b s -> gamma c s) ->
  forall s, gamma (z_join n a b) s -> gamma c s.
Proof.
  intros Wa Wb Dc Ha Hb s. destruct a as [|x], b as [|y]; simpl; auto; try tauto.
  destruct c as [|z].
  - destruct (mwf_inhabited n x Wa) as [s0 G0]. destruct (Ha s0 G0).
  - apply (z_join_least_m val n x y z); auto using mwf_reached.
Qed.

(* the meet adds the entries of the second operand to the first as edges *)
Definition medges (y : mat) (ps : list (nat * nat)) : list edge :=
  flat_map (fun p => match mget y (fst p) (snd p) with
                     | Some k => [(fst p, snd p, k)] | None => [] end) ps.

Lemma meet_fold_edges n y ps : forall acc,
  fold_left (fun acc p => match mget y (fst p) (snd p) with
                          | Some k => add_edge n acc (fst p, snd p, k)
                          | None => acc end) ps acc = add_edges n acc (medges y ps).
Proof.
  induction ps as [|p ps IH]; intros acc; simpl; auto.
  rewrite IH. destruct (mget y (fst p) (snd p)); reflexivity.
Qed.

Lemma medges_in n y : Forall (edge_in n) (medges y (pairs n)).
Proof.
  apply Forall_forall. intros e I. apply in_flat_map in I. destruct I as ([i j] & Ip & Ie).
  simpl in Ie. destruct (mget y i j); [|destruct Ie]. destruct Ie as [<-|[]]. apply in_pairs, Ip.
Qed.

Lemma medges_holds n y g : support n (mget y) ->
  (Forall (gedge_holds g) (medges y (pairs n)) <-> gfun (mget y) g).
Proof.
  intros S. rewrite Forall_forall. split.
  - intros F i j k E. apply (F (i, j, k)), in_flat_map. exists (i, j).
    split; [apply in_pairs; eapply support_lt; eauto|]. simpl. rewrite E. left; auto.
  - intros G e I. apply in_flat_map in I. destruct I as ([i j] & _ & Ie).
    simpl in Ie. destruct (mget y i j) eqn:E; [|destruct Ie]. destruct Ie as [<-|[]]. exact (G _ _ _ E).
Qed.

Lemma z_meet_sound g n a b : ggam g a -> ggam g b -> ggam g (z_meet n a b).
Proof.
  destruct a as [|x], b as [|y]; simpl; try tauto. intros Ga Gb.
  rewrite meet_fold_edges. apply add_edges_sound; auto.
  apply Forall_forall. intros e I. apply in_flat_map in I. destruct I as ([i j] & _ & Ie).
  simpl in Ie. destruct (mget y i j) eqn:E; [|destruct Ie]. destruct Ie as [<-|[]]. exact (Gb _ _ _ E).
Qed.

Lemma z_meet_ggam n a b : zwf n a -> zwf n b ->
  zwf n (z_meet n a b) /\ forall g, ggam g (z_meet n a b) <-> (ggam g a /\ ggam g b).
Proof.
  intros Wa Wb. destruct a as [|x], b as [|y]; simpl; try (split; [exact I|intros g; tauto]).
  rewrite meet_fold_edges. destruct (add_edges_spec n _ (ZM x) Wa (medges_in n y)) as [W G].
  split; auto. intros g. rewrite G, (medges_holds n y g (proj1 Wb)). reflexivity.
Qed.

Theorem z_meet_spec n a b : zwf n a -> zwf n b ->
  zwf n (z_meet n a b) /\ (forall s, gamma (z_meet n a b) s <-> (gamma a s /\ gamma b s)).
Proof.
  intros Wa Wb. destruct (z_meet_ggam n a b Wa Wb) as [W G]. split; [exact W|]. intros s. apply G.
Qed.

Definition store_eq_off (vs : list var) (s s' : store) : Prop := forall k, ~ In k vs -> s' k = s k.
Definition store_eq (s s' : store) : Prop := forall k, s k = s' k.

Lemma gamma_ext z s s' : store_eq s s' -> gamma z s -> gamma z s'.
Proof.
  intros E. destruct z as [|m]; simpl; auto. apply gfun_ext. intros [|q]; simpl; auto.
Qed.

Lemma val_upd s v x i : val (upd s v x) i = if Nat.eqb i (node v) then x else val s i.
Proof.
  destruct i; simpl.
  - reflexivity.
  - unfold upd, node. destruct (N.eqb_spec (N.of_nat i) v).
    + subst. rewrite Nat2N.id, Nat.eqb_refl. reflexivity.
    + destruct (Nat.eqb_spec i (N.to_nat v)); auto. subst. rewrite N2Nat.id in n. congruence.
Qed.

(* forgetting the nodes selected by P: [forget_m n m p] has P = (fun i => i =? p), the
   octagons forget the two nodes of a variable *)
Definition forget_f (P : nat -> bool) (f : nat -> nat -> wt) (i j : nat) : wt :=
  if Nat.eqb i j then f i j else if P i || P j then None else f i j.

Lemma forget_f_off P f i j : P i = false -> P j = false -> forget_f P f i j = f i j.
Proof. unfold forget_f. intros -> ->. destruct (Nat.eqb i j); reflexivity. Qed.

Lemma forget_forget P Q f i j :
  forget_f Q (forget_f P f) i j = forget_f (fun i => P i || Q i) f i j.
Proof.
  unfold forget_f. destruct (Nat.eqb i j); auto. destruct (P i), (P j), (Q i), (Q j); reflexivity.
Qed.

Lemma forget_support P n f : support n f -> support n (forget_f P f).
Proof.
  intros S i j H. unfold forget_f. rewrite (S i j H). destruct (Nat.eqb i j), (P i || P j); reflexivity.
Qed.

Lemma wle_None a : wle a None.
Proof. destruct a; exact I. Qed.
Lemma wadd_None_r a : wadd a None = None.
Proof. destruct a; reflexivity. Qed.

Lemma forget_f_diag P f i : forget_f P f i i = f i i.
Proof. unfold forget_f. rewrite Nat.eqb_refl. reflexivity. Qed.

Lemma forget_closed P f : closed f -> closed (forget_f P f).
Proof.
  intros C i j k.
  destruct (Nat.eqb_spec i k) as [<-|Nik]; [|destruct (Nat.eqb_spec k j) as [->|Nkj]].
  - rewrite forget_f_diag. generalize (C i i i). generalize (f i i) (forget_f P f i j). wt_crush.
  - rewrite forget_f_diag. generalize (C j j j). generalize (f j j) (forget_f P f i j). wt_crush.
  - (* a path through a third node survives only if none of the three is forgotten *)
    unfold forget_f. rewrite (proj2 (Nat.eqb_neq i k) Nik), (proj2 (Nat.eqb_neq k j) Nkj).
    destruct (P i), (P j), (P k), (Nat.eqb i j); simpl; rewrite ?wadd_None_r;
      auto using wle_None; apply C.
Qed.

Lemma forget_f_sound P f g g' :
  gfun f g -> (forall q, P q = false -> g' q = g q) -> gfun (forget_f P f) g'.
Proof.
  intros G E i j k. unfold forget_f. destruct (Nat.eqb_spec i j) as [->|_].
  - intros F. specialize (G _ _ _ F). lia.
  - destruct (P i) eqn:Pi, (P j) eqn:Pj; simpl; try discriminate.
    intros F. rewrite !E by auto. exact (G _ _ _ F).
Qed.

Lemma forget_m_entries n m p : support n (mget m) ->
  forall i j, mget (forget_m n m p) i j = forget_f (fun i => Nat.eqb i p) (mget m) i j.
Proof. intros S. apply (tab_ext n (forget_f _ (mget m))), forget_support, S. Qed.

Lemma forget_m_mwf n m p : mwf n m -> mwf n (forget_m n m p).
Proof.
  intros (S & D & C). apply (mwf_tab n (forget_f (fun i => Nat.eqb i p) (mget m))).
  - intros i Hi. unfold forget_f. rewrite Nat.eqb_refl. apply D, Hi.
  - apply forget_closed, C.
Qed.

Lemma forget_m_sound n m p g g' :
  gfun (mget m) g -> (forall q, q <> p -> g' q = g q) -> gfun (mget (forget_m n m p)) g'.
Proof.
  intros G E. apply (gfun_tab_sub n (forget_f (fun i => Nat.eqb i p) (mget m))).
  apply (forget_f_sound _ _ g); auto. intros q Hq. apply E, Nat.eqb_neq, Hq.
Qed.

Theorem z_forget1_wf n z v : zwf n z -> zwf n (z_forget1 n z v).
Proof. destruct z as [|m]; simpl; auto. apply forget_m_mwf. Qed.

Theorem z_forget1_exact n z v s' : zwf n z -> (node v < n)%nat ->
  (gamma (z_forget1 n z v) s' <-> exists s, gamma z s /\ forall k, k <> v -> s' k = s k).
Proof.
  intros W Hv. destruct z as [|m]; simpl; [split; [tauto|intros (s & [] & _)]|]. split.
  - (* every point of the projection comes from a point of the value: the other nodes keep
       their value, node v is given the value of the extension lemma *)
    intros G. set (p := node v).
    set (L := filter (fun i => negb (Nat.eqb i p)) (seq 0 n)).
    assert (IL : forall i, In i L <-> (i < n)%nat /\ i <> p).
    { intros i. unfold L. rewrite filter_In, in_seq, negb_true_iff, Nat.eqb_neq. lia. }
    assert (SL : sat_on (mget m) L (val s')).
    { intros i j k Ii Ij E. apply IL in Ii, Ij. apply (G i j k).
      rewrite forget_m_entries by apply (proj1 W). rewrite forget_f_off; auto; apply Nat.eqb_neq; tauto. }
    pose proof (extend (mget m) (proj2 (proj2 W)) (val s') p L (fun I => proj2 (proj1 (IL p) I) eq_refl)
                  (mwf_diag_nonneg n m W p) SL) as X.
    exists (upd s' v (pick (mget m) (val s') p L)). split.
    + intros i j k E. rewrite !val_upd. destruct (support_lt n _ i j k (proj1 W) E).
      assert (I : forall a, (a < n)%nat -> In a (p :: L)).
      { intros a Ha. destruct (Nat.eq_dec a p); [left; auto|right; apply IL; auto]. }
      apply (X i j k); auto.
    + intros k Hk. symmetry. apply upd_other, Hk.
  - intros (s & G & E). apply (forget_m_sound n m (node v) (val s)); auto.
    intros [|q] Hq; simpl; auto. apply E. intros <-. apply Hq. unfold node. rewrite Nat2N.id. auto.
Qed.

(* forgetting a list of variables one by one, for any domain *)
Section ForgetList.
  Context {A : Type} (wf : A -> Prop) (gam : A -> store -> Prop) (f1 : A -> var -> A).
  Variable ok : var -> Prop.
  Hypothesis gam_ext : forall z s s', store_eq s s' -> gam z s -> gam z s'.
  Hypothesis f1_wf : forall z v, wf z -> wf (f1 z v).
  Hypothesis f1_exact : forall z v s', wf z -> ok v ->
    (gam (f1 z v) s' <-> exists s, gam z s /\ forall k, k <> v -> s' k = s k).

  Lemma forget_list_wf vs : forall z, wf z -> wf (fold_left f1 vs z).
  Proof. induction vs; simpl; auto. Qed.

  Lemma forget_list_exact vs : forall z s', wf z -> Forall ok vs ->
    (gam (fold_left f1 vs z) s' <-> exists s, gam z s /\ store_eq_off vs s s').
  Proof.
    induction vs as [|v r IH]; intros z s' W F; simpl.
    - split.
      + intros G. exists s'. split; auto. intros k _. auto.
      + intros (s & G & E). apply (gam_ext z s); auto. intros k. symmetry. apply E. auto.
    - inversion F; subst. rewrite (IH _ _ (f1_wf z v W) H2). split.
      + intros (s1 & G1 & E1). apply (f1_exact z v s1 W H1) in G1. destruct G1 as (s & G & E).
        exists s. split; auto. intros k Hk. simpl in Hk. rewrite E1 by tauto. apply E. intros ->. tauto.
      + (* forget v first: s1 agrees with s except on v where it takes s' v *)
        intros (s & G & E). exists (upd s v (s' v)). split.
        * apply (f1_exact z v _ W H1). exists s. split; auto. intros k Hk. apply upd_other, Hk.
        * intros k Hk. unfold upd. destruct (N.eqb_spec k v); [subst; auto|]. apply E. simpl.
          intros [X|X]; [congruence|tauto].
  Qed.
End ForgetList.

Theorem z_forget_wf n vs : forall z, zwf n z -> zwf n (z_forget n vs z).
Proof. exact (forget_list_wf (zwf n) (z_forget1 n) (z_forget1_wf n) vs). Qed.

Theorem z_forget_exact n vs : forall z s', zwf n z -> Forall (fun v => (node v < n)%nat) vs ->
  (gamma (z_forget n vs z) s' <-> exists s, gamma z s /\ store_eq_off vs s s').
Proof.
  exact (forget_list_exact (zwf n) gamma (z_forget1 n) _ gamma_ext (z_forget1_wf n) (z_forget1_exact n) vs).
Qed.

Theorem z_is_top_exact n z : zwf n z -> (z_is_top n z = true <-> forall s, gamma z s).
Proof.
  intros W. destruct z as [|m]; simpl.
  - split; [discriminate|]. intros H. destruct (H (fun _ => 0)).
  - rewrite forallb_forall. split.
    + intros H s i j k E. destruct (support_lt n _ i j k (proj1 W) E) as [Hi Hj].
      specialize (H (i, j) (proj2 (in_pairs n i j) (conj Hi Hj))). simpl in H. rewrite E, orb_false_r in H.
      apply Nat.eqb_eq in H. subst. rewrite (proj1 (proj2 W)) in E by auto. inversion E. lia.
    + (* the entries of the top matrix are below those of m *)
      intros H [i j] I. simpl. destruct (Nat.eqb_spec i j) as [|N]; auto. simpl.
      pose proof (reached_le val n _ (mwf_reached n _ (z_top_wf n)) m (proj1 W) (fun s _ => H s) i j) as L.
      apply in_pairs in I. rewrite mget_tab_lt, (proj2 (Nat.eqb_neq i j) N) in L by tauto.
      destruct (mget m i j); simpl in L; tauto.
Qed.

(* x := r, where r does not read x, is "forget x, then assume x = r" *)
Lemma assign_by_forget (P : store -> Prop) x (r : store -> Z) s' :
  (forall s, (forall k, k <> x -> s' k = s k) -> r s' = r s) ->
  ((exists s, P s /\ forall k, k <> x -> s' k = s k) /\ s' x = r s' <->
   exists s, P s /\ store_eq s' (upd s x (r s))).
Proof.
  intros Hr. split.
  - intros [(s & Ps & E) X]. exists s. split; auto. intros k. unfold upd.
    destruct (N.eqb_spec k x) as [->|N]; [rewrite X; auto|auto].
  - intros (s & Ps & E).
    assert (Off : forall k, k <> x -> s' k = s k) by (intros k Hk; rewrite E; apply upd_other, Hk).
    split; [exists s; auto|]. rewrite (Hr s Off), E. apply upd_same.
Qed.

(* x := x + k moves the points along x *)
Lemma assign_by_shift (P : store -> Prop) x k s' :
  (forall s s0, store_eq s s0 -> P s -> P s0) ->
  (P (upd s' x (s' x - k)) <-> exists s, P s /\ store_eq s' (upd s x (s x + k))).
Proof.
  intros Ext. split.
  - intros H. eexists. split; [exact H|]. intros q. unfold upd.
    destruct (N.eqb_spec q x); subst; rewrite ?N.eqb_refl; lia.
  - intros (s & Ps & E). apply (Ext s); auto. intros q. rewrite (E x), upd_same. unfold upd.
    destruct (N.eqb_spec q x); [subst; lia|]. rewrite E. symmetry. apply upd_other. auto.
Qed.

(* moving the potential of node i by d i *)
Section Shift.
  Variables (n : nat) (m : mat) (d : nat -> Z).
  Let sh := tab n (fun i j => wadd (mget m i j) (Some (d j - d i))).

  Lemma shift_sound g : gfun (mget m) g -> gfun (mget sh) (fun i => g i + d i).
  Proof.
    intros G. apply gfun_tab_sub. intros i j k E.
    destruct (mget m i j) as [w|] eqn:F; inversion E. specialize (G _ _ _ F). lia.
  Qed.

  Lemma shift_ggam g : support n (mget m) -> (gfun (mget sh) g <-> gfun (mget m) (fun i => g i - d i)).
  Proof.
    intros S. split.
    - intros G i j w E. pose proof (G i j (w + (d j - d i))) as G1. unfold sh in G1.
      rewrite tab_ext, E in G1 by (intros ? ? ?; rewrite S; auto). specialize (G1 eq_refl). lia.
    - intros G. apply shift_sound in G. revert G. apply gfun_ext. intros i. lia.
  Qed.

  Lemma shift_mwf : mwf n m -> mwf n sh.
  Proof.
    intros (S & D & C). apply mwf_tab.
    - intros i Hi. rewrite D by auto. simpl. f_equal. lia.
    - intros i j k. generalize (C i j k). generalize (mget m i j) (mget m i k) (mget m k j). wt_crush.
  Qed.
End Shift.

Definition za_ok (n : nat) (x : var) (e : linexp) : Prop :=
  (node x < n)%nat /\ (0 < n)%nat /\
  (le_terms e = [] \/ exists y, le_terms e = [(1, y)] /\ (node y < n)%nat).

(* x := e is exact: the points of the result are the updates of the points of the value *)
Theorem z_assign_spec n x e z : za_ok n x e -> zwf n z ->
  zwf n (z_assign n x e z) /\
  forall s', gamma (z_assign n x e z) s' <-> exists s, gamma z s /\ store_eq s' (upd s x (eval_le e s)).
Proof.
  intros (Hx & H0 & F) W. unfold z_assign, eval_le.
  pose proof (z_forget1_wf n z x W) as Wf. pose proof (fun s' => z_forget1_exact n z x s' W Hx) as Gf.
  destruct F as [F|(y & F & Hy)]; rewrite F; cbn [eval_terms].
  - (* x := k *)
    destruct (add_edges_spec n [(O, node x, le_cst e); (node x, O, - le_cst e)] _ Wf) as [W' G].
    { repeat constructor; simpl; auto. }
    split; auto. intros s'. rewrite <- (assign_by_forget (gamma z) x (fun _ => 0 + le_cst e) s') by auto.
    rewrite <- Gf. etransitivity; [apply (G (val s'))|].
    rewrite !Forall_cons_iff, Forall_nil_iff. apply and_iff_compat_l. cbn [gedge_holds]. rewrite val_node. cbn [val]. lia.
  - rewrite Z.eqb_refl. destruct (N.eqb_spec x y) as [<-|N].
    + (* x := x + k *)
      destruct z as [|m]; [split; [exact I|]; intros s'; split; [intros []|intros (s & [] & _)]|].
      split; [apply shift_mwf, W|]. intros s'.
      assert (EQ : forall s : store, 1 * s x + 0 + le_cst e = s x + le_cst e) by (intros; lia).
      setoid_rewrite EQ. rewrite <- (assign_by_shift (gamma (ZM m)) x (le_cst e) s' (gamma_ext _)).
      etransitivity; [apply shift_ggam, W|].
      split; apply gfun_ext; intros i; rewrite val_upd;
        destruct (Nat.eqb_spec i (node x)); subst; rewrite ?val_node; lia.
    + (* x := y + k, y <> x *)
      destruct (add_edges_spec n [(node y, node x, le_cst e); (node x, node y, - le_cst e)] _ Wf) as [W' G].
      { repeat constructor; simpl; auto. }
      split; auto. intros s'. rewrite <- (assign_by_forget (gamma z) x (fun s => 1 * s y + 0 + le_cst e) s').
      * rewrite <- Gf. etransitivity; [apply (G (val s'))|].
        rewrite !Forall_cons_iff, Forall_nil_iff. apply and_iff_compat_l. cbn [gedge_holds]. rewrite !val_node. lia.
      * intros s E. rewrite (E y) by congruence. reflexivity.
Qed.

Section Registers.
  Context {A : Type} (D : gdom A).

  Lemma gget_gset_gen rs r (v : A) q :
    gget D (gset rs r v) q = if (Nat.eqb q r && (r <? length rs)%nat) then v else gget D rs q.
  Proof.
    unfold gget. revert r q. induction rs as [|h t IH]; intros [|r] [|q]; simpl; auto;
      try (destruct (Nat.eqb q r); reflexivity).
    rewrite IH. destruct (Nat.eqb q r); simpl; auto.
  Qed.
  Lemma gget_gset rs r (v : A) : (r < length rs)%nat -> gget D (gset rs r v) r = v.
  Proof. intros H. rewrite gget_gset_gen, Nat.eqb_refl, (proj2 (Nat.ltb_lt _ _) H). reflexivity. Qed.
  Lemma length_gset (rs : list A) r v : length (gset rs r v) = length rs.
  Proof. revert r. induction rs; intros [|r]; simpl; auto. Qed.
End Registers.

Section Histories.
  Context {A : Type} (D : gdom A) (wf : A -> Prop) (gam : A -> store -> Prop).
  Variables (okc : lincst -> Prop) (oka : var -> linexp -> Prop) (okv : var -> Prop).

  (* side conditions of an operation: constraints / assignments of the language over the
     variables of the value *)
  Definition gop_ok (o : gop) : Prop :=
    match o with
    | GAssume _ cs => Forall okc cs
    | GAssign _ x e => oka x e
    | GForget _ vs => Forall okv vs
    | _ => True
    end.

  Definition gtarget (o : gop) : nat :=
    match o with
    | GTop r | GBot r | GCopy r _ | GAssume r _ | GAssign r _ _ | GForget r _
    | GJoin r _ _ | GMeet r _ _ => r
    end.

  (* EXACT domains: what each operation must compute, up to the set of integer points *)
  Record exact_dom : Prop := {
    ed_top_wf : wf (g_top D);
    ed_top : forall s, gam (g_top D) s;
    ed_bot_wf : wf (g_bot D);
    ed_bot : forall s, ~ gam (g_bot D) s;
    ed_assume : forall cs z, Forall okc cs -> wf z ->
      wf (g_assume D cs z) /\
      forall s, gam (g_assume D cs z) s <-> (gam z s /\ Forall (fun c => sat c s) cs);
    ed_assign : forall x e z, oka x e -> wf z ->
      wf (g_assign D x e z) /\
      forall s', gam (g_assign D x e z) s' <-> exists s, gam z s /\ store_eq s' (upd s x (eval_le e s));
    ed_forget : forall vs z, Forall okv vs -> wf z ->
      wf (g_forget D vs z) /\
      forall s', gam (g_forget D vs z) s' <-> exists s, gam z s /\ store_eq_off vs s s';
    ed_join : forall a b, wf a -> wf b ->
      wf (g_join D a b) /\
      (forall s, gam a s \/ gam b s -> gam (g_join D a b) s) /\
      (forall c, wf c -> (forall s, gam a s -> gam c s) -> (forall s, gam b s -> gam c s) ->
                 forall s, gam (g_join D a b) s -> gam c s);
    ed_meet : forall a b, wf a -> wf b ->
      wf (g_meet D a b) /\ forall s, gam (g_meet D a b) s <-> (gam a s /\ gam b s)
  }.

  Lemma gget_wf rs r : wf (g_top D) -> Forall wf rs -> wf (gget D rs r).
  Proof.
    intros T F. unfold gget. revert r. induction F; intros [|r]; simpl; auto.
  Qed.
  Lemma gset_wf rs r v : Forall wf rs -> wf v -> Forall wf (gset rs r v).
  Proof.
    intros F W. revert r. induction F; intros [|r]; simpl; auto.
  Qed.

  Hypothesis E : exact_dom.

  Theorem gstep_wf rs o : Forall wf rs -> gop_ok o -> Forall wf (gstep D rs o).
  Proof.
    intros F O. pose proof (ed_top_wf E) as T.
    destruct o; simpl in *; apply gset_wf; auto;
      try (apply gget_wf; auto).
    - apply (ed_bot_wf E).
    - apply (ed_assume E); auto. apply gget_wf; auto.
    - apply (ed_assign E); auto. apply gget_wf; auto.
    - apply (ed_forget E); auto. apply gget_wf; auto.
    - apply (ed_join E); apply gget_wf; auto.
    - apply (ed_meet E); apply gget_wf; auto.
  Qed.

  (* the invariant holds after ANY history *)
  Theorem grun_wf h : forall rs, Forall wf rs -> Forall gop_ok h -> Forall wf (grun D rs h).
  Proof.
    unfold grun. induction h as [|o h IH]; intros rs F O; simpl; auto.
    inversion O; subst. apply IH; auto. apply gstep_wf; auto.
  Qed.

  (* what the value written by one step means, in terms of the values read *)
  Definition step_spec (rs : list A) (o : gop) (v : A) : Prop :=
    match o with
    | GTop _ => forall s, gam v s
    | GBot _ => forall s, ~ gam v s
    | GCopy _ q => v = gget D rs q
    | GAssume r cs => forall s, gam v s <-> (gam (gget D rs r) s /\ Forall (fun c => sat c s) cs)
    | GAssign r x e => forall s', gam v s' <->
                                  exists s, gam (gget D rs r) s /\ store_eq s' (upd s x (eval_le e s))
    | GForget r vs => forall s', gam v s' <-> exists s, gam (gget D rs r) s /\ store_eq_off vs s s'
    | GJoin _ p q =>
      (forall s, gam (gget D rs p) s \/ gam (gget D rs q) s -> gam v s) /\
      (forall c, wf c -> (forall s, gam (gget D rs p) s -> gam c s) ->
                 (forall s, gam (gget D rs q) s -> gam c s) -> forall s, gam v s -> gam c s)
    | GMeet _ p q => forall s, gam v s <-> (gam (gget D rs p) s /\ gam (gget D rs q) s)
    end.

  Theorem gstep_exact rs o : Forall wf rs -> gop_ok o -> (gtarget o < length rs)%nat ->
    step_spec rs o (gget D (gstep D rs o) (gtarget o)).
  Proof.
    intros F O L. pose proof (ed_top_wf E) as T.
    destruct o; simpl in *; rewrite gget_gset by auto.
    - apply (ed_top E).
    - apply (ed_bot E).
    - reflexivity.
    - apply (ed_assume E); auto. apply gget_wf; auto.
    - apply (ed_assign E); auto. apply gget_wf; auto.
    - apply (ed_forget E); auto. apply gget_wf; auto.
    - apply (ed_join E); apply gget_wf; auto.
    - apply (ed_meet E); apply gget_wf; auto.
  Qed.

  (* the first sentence of the property, literally: after assuming any conjunction from top, an
     exact bottom test and an exact entailment test answer for the conjunction itself *)
  Theorem conjunction_exact (is_bot : A -> bool) (entails : lincst -> A -> bool) :
    (forall z, wf z -> (is_bot z = true <-> forall s, ~ gam z s)) ->
    (forall c z, wf z -> okc c -> (entails c z = true <-> forall s, gam z s -> sat c s)) ->
    forall cs, Forall okc cs ->
    let z := g_assume D cs (g_top D) in
    (is_bot z = true <-> forall s, ~ Forall (fun c => sat c s) cs) /\
    (forall c, okc c ->
       (entails c z = true <-> forall s, Forall (fun c => sat c s) cs -> sat c s)).
  Proof.
    intros B En cs F z. destruct (ed_assume E cs _ F (ed_top_wf E)) as [W G]. fold z in W, G.
    assert (G' : forall s, gam z s <-> Forall (fun c => sat c s) cs).
    { intros s. rewrite G. pose proof (ed_top E s). tauto. }
    split.
    - rewrite (B z W). split; intros H s X; apply (H s), G', X.
    - intros c Oc. rewrite (En c z W Oc). split; intros H s X; apply H, G', X.
  Qed.
End Histories.
(* SOUND domains and the concrete collecting semantics of histories *)
Section SoundHistories.
  Context {A : Type} (D : gdom A) (gam : A -> store -> Prop).
  Variable (okc : lincst -> Prop).

  Record sound_dom : Prop := {
    sd_top : forall s, gam (g_top D) s;
    sd_assume : forall cs z s, Forall okc cs -> gam z s -> Forall (fun c => sat c s) cs ->
                               gam (g_assume D cs z) s;
    sd_assign : forall x e z s s', gam z s -> store_eq s' (upd s x (eval_le e s)) ->
                                   gam (g_assign D x e z) s';
    sd_forget : forall vs z s s', gam z s -> store_eq_off vs s s' -> gam (g_forget D vs z) s';
    sd_join : forall a b s, gam a s \/ gam b s -> gam (g_join D a b) s;
    sd_meet : forall a b s, gam a s -> gam b s -> gam (g_meet D a b) s
  }.

  Definition cset := store -> Prop.
  Definition cget (cs : list cset) (r : nat) : cset := nth r cs (fun _ => True).
  Fixpoint csetr (cs : list cset) (r : nat) (v : cset) : list cset :=
    match cs, r with
    | [], _ => []
    | _ :: t, O => v :: t
    | h :: t, S r' => h :: csetr t r' v
    end.
  Definition cstepg (cs : list cset) (o : gop) : list cset :=
    match o with
    | GTop r => csetr cs r (fun _ => True)
    | GBot r => csetr cs r (fun _ => False)
    | GCopy r q => csetr cs r (cget cs q)
    | GAssume r cl => csetr cs r (fun s => cget cs r s /\ Forall (fun c => sat c s) cl)
    | GAssign r x e => csetr cs r (fun s' => exists s, cget cs r s /\ store_eq s' (upd s x (eval_le e s)))
    | GForget r vs => csetr cs r (fun s' => exists s, cget cs r s /\ store_eq_off vs s s')
    | GJoin r p q => csetr cs r (fun s => cget cs p s \/ cget cs q s)
    | GMeet r p q => csetr cs r (fun s => cget cs p s /\ cget cs q s)
    end.

  Definition grel (rs : list A) (cs : list cset) : Prop :=
    length rs = length cs /\ forall r s, cget cs r s -> gam (gget D rs r) s.

  Definition gop_okc (o : gop) : Prop :=
    match o with GAssume _ cl => Forall okc cl | _ => True end.

  Hypothesis S : sound_dom.

  Lemma cget_csetr cs r c q :
    cget (csetr cs r c) q = if (Nat.eqb q r && (r <? length cs)%nat) then c else cget cs q.
  Proof.
    unfold cget. revert r q. induction cs as [|h t IH]; intros [|r] [|q]; simpl; auto;
      try (destruct (Nat.eqb q r); reflexivity).
    rewrite IH. destruct (Nat.eqb q r); simpl; auto.
  Qed.
  Lemma length_csetr cs r c : length (csetr cs r c) = length cs.
  Proof. revert r. induction cs; intros [|r]; simpl; auto. Qed.

  Lemma grel_set rs cs r v (c : cset) :
    grel rs cs -> (forall s, c s -> gam v s) -> grel (gset rs r v) (csetr cs r c).
  Proof.
    intros [L R] H. split.
    - rewrite length_csetr, length_gset. auto.
    - intros q s. rewrite cget_csetr, gget_gset_gen, L.
      destruct (Nat.eqb q r && (r <? length cs)%nat); auto.
  Qed.

  Theorem gstep_sound rs cs o : grel rs cs -> gop_okc o -> grel (gstep D rs o) (cstepg cs o).
  Proof.
    intros R O. pose proof (proj2 R) as G.
    destruct o as [r|r|r q|r cl|r x e|r vs|r p q|r p q]; simpl in *; apply grel_set; auto.
    - intros s _. apply (sd_top S).
    - intros s [].
    - intros s [X Y]. apply (sd_assume S); auto.
    - intros s' [s [X Y]]. eapply (sd_assign S); eauto.
    - intros s' [s [X Y]]. eapply (sd_forget S); eauto.
    - intros s [X|X]; apply (sd_join S); auto.
    - intros s [X Y]. apply (sd_meet S); auto.
  Qed.

  (* after ANY history every register describes every store the concrete operations reach *)
  Theorem grun_sound h : forall rs cs, grel rs cs -> Forall gop_okc h ->
    grel (grun D rs h) (fold_left cstepg h cs).
  Proof.
    unfold grun. induction h as [|o h IH]; intros rs cs R O; simpl; auto.
    inversion O; subst. apply IH; auto. apply gstep_sound; auto.
  Qed.
End SoundHistories.

Theorem zone_exact_dom n :
  exact_dom (zone_dom n) (zwf n) gamma (z_ok n) (za_ok n) (fun v => (node v < n)%nat).
Proof.
  constructor; simpl.
  - apply z_top_wf.
  - intros s. apply (z_top_ggam n (val s)).
  - exact I.
  - intros s [].
  - intros cs z F W. apply z_assume_spec; auto.
  - intros x e z O W. apply z_assign_spec; auto.
  - intros vs z F W. split; [apply z_forget_wf; auto|]. intros s'. apply z_forget_exact; auto.
  - intros a b Wa Wb. split; [apply z_join_wf; auto|]. split.
    + intros s. apply (z_join_sound (val s)).
    + intros c Wc. apply z_join_least; auto. apply zwf_zdim; auto.
  - intros a b Wa Wb. apply z_meet_spec; auto.
Qed.

(* non-vacuity: a value that is neither top nor bottom, with a tight derived bound *)
Example zone_example :
  let z := z_assume 3 [mkLC INEQ (mkLE [(1, 0%N); (-1, 1%N)] (-3)); mkLC INEQ (mkLE [(1, 1%N)] (-10))] (z_top 3) in
  zwf 3 z /\ z_is_bot z = false /\ z_is_top 3 z = false /\ z_upper z 0%N = Some 13 /\
  z_entails (mkLC INEQ (mkLE [(1, 0%N)] (-13))) z = true /\
  z_entails (mkLC INEQ (mkLE [(1, 0%N)] (-12))) z = false.
Proof.
  split.
  - apply z_assume_spec; [|apply z_top_wf].
    repeat constructor; eexists; (split; [reflexivity|]); repeat constructor; simpl; lia.
  - vm_compute. repeat split; reflexivity.
Qed.

Theorem zone_conjunction_exact n cs : Forall (z_ok n) cs ->
  let z := z_assume n cs (z_top n) in
  (z_is_bot z = true <-> forall s, ~ Forall (fun c => sat c s) cs) /\
  (forall c, z_ok n c ->
     (z_entails c z = true <-> forall s, Forall (fun c => sat c s) cs -> sat c s)).
Proof.
  apply (conjunction_exact _ _ _ _ _ _ (zone_exact_dom n) z_is_bot z_entails).
  - apply zone_bottom_exact.
  - intros c z. apply z_entails_exact.
Qed.
