(* ArrayAdaptWf.v — well-formedness invariant [awf] of the mirror model of array_adaptive_domain
   (Dom/ArrayAdapt.v): distinct array-map keys, base environment without bottom / top bindings,
   recorded element sizes = the sizes of the arrays.  It holds for top / bottom, is preserved by every
   operation covered by the history theorems of ArrayAdaptSound.v, and implies the executable
   checks that those theorems take as hypotheses on join operands (NoDup, jreg, Lsz, top_empty). *)
From Coq Require Import ZArith NArith List Bool Lia.
From CrabV Require Import Base.ZInf Scalar.Itv Scalar.ItvSound Ir.Syntax Dom.ItvEnv Dom.ItvEnvSound
     Dom.ItvSolver Dom.ItvSolverSound Dom.ItvDomain Dom.ItvDomainSound Dom.History Dom.HistorySound
     Fix.Thresholds Fix.ThresholdsSound Dom.ArraySmash Dom.ArraySmashSound
     Dom.ArrayAdaptCore Dom.ArrayAdaptCoreSound Dom.ArrayAdapt Dom.ArrayAdaptFrame Dom.ArrayAdaptSound
     Dom.ItvEnvWiden Dom.ItvEnvNoTop.
From CrabV Require Ana.FwdItvTerm Scalar.DisItvSound.
Import ListNotations.
Local Open Scope Z_scope.

Arguments d_add : simpl never.
Arguments d_assign : simpl never.
Arguments d_weak_assign : simpl never.
Arguments d_expand : simpl never.
Arguments d_forget : simpl never.
Arguments e_project : simpl never.
Arguments d_eval : simpl never.

(* no binding is bottom, none is top *)
Definition eok (e : env) : Prop := env_ok e /\ ntbe e.

Lemma eok_bot : eok EBot. Proof. split; exact I. Qed.
Lemma eok_top : eok e_top. Proof. split; [apply env_ok_top|apply ntbe_top]. Qed.
Lemma eok_set e k v : eok e -> eok (e_set e k v).
Proof. intros [A B]. split; [apply env_ok_set|apply ntbe_set]; auto. Qed.
Lemma eok_forget e k : eok e -> eok (e_forget e k).
Proof. intros [A B]. split; [apply env_ok_forget|apply ntbe_forget]; auto. Qed.
Lemma env_ok_join_key e k v : env_ok e -> env_ok (e_join_key e k v).
Proof.
  destruct e as [|m]; cbn [e_join_key]; auto. intros H.
  destruct (is_bot v) eqn:B; [exact I|]. destruct (is_top v); [apply map_ok_remove; auto|].
  destruct (is_top (get m k)); [apply map_ok_remove; auto|]. apply map_ok_put; auto.
  apply Scalar.DisItvSound.ijoin_nonbot; auto.
Qed.
Lemma eok_join_key e k v : eok e -> eok (e_join_key e k v).
Proof. intros [A B]. split; [apply env_ok_join_key|apply ntbe_join_key]; auto. Qed.
Lemma eok_d_assign x ex e : eok e -> eok (d_assign x ex e).
Proof. intros [A B]. split; [apply Ana.FwdItvTerm.d_assign_ok|apply ntbe_d_assign]; auto. Qed.
Lemma eok_d_weak_assign x ex e : eok e -> eok (d_weak_assign x ex e).
Proof. intros H. unfold d_weak_assign. destruct (le_get_variable ex); apply eok_join_key; auto. Qed.
Lemma eok_d_arith op x y z e : eok e -> eok (d_apply_arith op x y z e).
Proof. intros H. unfold d_apply_arith. apply eok_set; auto. Qed.
Lemma eok_d_add cs e : eok e -> eok (d_add cs e).
Proof. intros [A B]. split; [apply Ana.FwdItvTerm.d_add_ok|apply ntbe_d_add]; auto. Qed.
Lemma eok_fold_forget vs : forall e, eok e -> eok (fold_left e_forget vs e).
Proof. induction vs as [|v r IH]; simpl; intros e H; auto. apply IH. apply eok_forget; auto. Qed.
Lemma eok_d_forget vs e : eok e -> eok (d_forget vs e).
Proof. intros H. unfold d_forget. destruct (_ || _); auto. apply eok_fold_forget; auto. Qed.
Lemma eok_d_expand x nx e : eok e -> eok (d_expand x nx e).
Proof. intros H. unfold d_expand. destruct (_ || _); auto. apply eok_set; auto. Qed.
Lemma eok_join a b : eok a -> eok b -> eok (e_join a b).
Proof. intros [A B] [C D]. split; [apply env_ok_join|apply ntbe_join]; auto. Qed.
Lemma eok_widen a b : eok a -> eok b -> eok (e_widen a b).
Proof. intros [A B] [C D]. split; [apply env_ok_widen|apply ntbe_widen]; auto. Qed.
Lemma eok_widen_thr gp gn a b : eok a -> eok b -> eok (e_widen_thr gp gn a b).
Proof. intros [A B] [C D]. split; [apply env_ok_widen_thr|apply ntbe_widen_thr]; auto. Qed.

Lemma map_ok_rename_pairs ps : forall m, map_ok m -> map_ok (rename_pairs m ps).
Proof.
  induction ps as [|[k nk] r IH]; simpl; intros m H; auto.
  destruct (N.eqb k nk); auto. destruct (is_top (get m k)); auto. apply IH.
  assert (Q : map_ok ((nk, get m k) :: remove m nk)).
  { intros k'. cbn [get]. destruct (N.eqb nk k'); [apply H|]. apply map_ok_remove; auto. }
  exact (map_ok_remove _ k Q).
Qed.
Lemma eok_rename e f t : eok e -> eok (e_rename e f t).
Proof.
  intros [A B]. split; [|apply ntbe_rename; auto]. destruct e as [|m]; simpl; auto.
  destruct (forallb _ _); auto. apply map_ok_rename_pairs; auto.
Qed.

Lemma d_assign_bot x ex : d_assign x ex EBot = EBot.
Proof. exact (ItvDomainSound.d_assign_bot x ex). Qed.
Lemma d_weak_assign_bot x ex : d_weak_assign x ex EBot = EBot.
Proof. exact (ItvDomainSound.d_weak_assign_bot x ex). Qed.

Section Wf.
Variable esz : arr -> Z.
Variable onecell : arr -> option Z.
Hypothesis esz_pos : forall a, 0 < esz a.
Variable p : params.
Notation esz' := (esz' esz).

(* the sizes recorded by the base domain are those of the arrays *)
Definition lok (l : laenv) : Prop := l <> LBot /\ forall b k, la_at l b = BConst k -> k = esz' b.

Lemma lok_set l a k : lok l -> k = esz' a -> lok (la_set l a k).
Proof.
  intros [N H] E. split; [apply la_set_not_bot; auto|]. intros b k'. rewrite la_at_set by auto.
  destruct (N.eqb_spec a b); [intros Q; inversion Q; subst; auto|auto].
Qed.
Lemma lok_forget l a : lok l -> lok (la_forget l a).
Proof.
  intros [N H]. split; [apply la_forget_not_bot; auto|]. intros b k'. rewrite la_at_forget by auto.
  destruct (N.eqb a b); [discriminate|auto].
Qed.
Lemma lok_join x y : lok x -> lok y -> lok (la_join x y).
Proof.
  intros [N H] [N' H']. split; [apply la_join_not_bot_l; auto|]. intros b k Q.
  apply H. eapply la_join_const_l; eauto.
Qed.
Lemma lok_top : lok (LMap []).
Proof. split; [discriminate|]. intros b k. simpl. discriminate. Qed.

Definition bok (b : ast) : Prop := eok (a_base b) /\ (a_base b = EBot \/ lok (a_la b)).

Lemma bok_top : bok s_top.
Proof. split; [apply eok_top|right; apply lok_top]. Qed.
Lemma bok_bot : bok s_bot.
Proof. split; [apply eok_bot|left; auto]. Qed.

(* the new value [mkA l e]: the recorded sizes must be right unless the base value was bottom
   and stays so *)
Lemma bok_mk l e b : bok b -> eok e -> (a_base b = EBot -> e = EBot) -> (lok (a_la b) -> lok l) ->
  bok (mkA l e).
Proof. intros [_ [B|L]] E HB HL; split; cbn [a_base a_la]; auto. Qed.
(* an operation [f] of the base domain *)
Lemma bok_base (f : env -> env) b : bok b -> (forall e, eok e -> eok (f e)) -> f EBot = EBot ->
  bok (mkA (a_la b) (f (a_base b))).
Proof. intros H E F. apply (bok_mk _ _ b H); auto. - apply E, H. - intros ->. exact F. Qed.

Lemma bok_assign x e b : bok b -> bok (s_assign x e b).
Proof. intros H. apply (bok_base (d_assign x e)); auto using eok_d_assign, d_assign_bot. Qed.
Lemma bok_arith op x y z b : bok b -> bok (s_arith op x y z b).
Proof. intros H. apply (bok_base (d_apply_arith op x y z)); auto using eok_d_arith. Qed.
Lemma bok_assume cs b : bok b -> bok (s_assume cs b).
Proof. intros H. apply (bok_base (d_add cs)); auto using eok_d_add. Qed.
Lemma bok_forget1 v b : bok b -> bok (s_forget1 v b).
Proof.
  intros H. destruct v as [x|a]; cbn [s_forget1].
  - apply (bok_base (fun e => e_forget e x)); auto using eok_forget.
  - destruct (la_at (a_la b) a); auto.
    apply (bok_mk _ _ b H); auto using lok_forget. + apply eok_forget, H. + intros ->. reflexivity.
Qed.
Lemma forget_scan_lok vs : forall l acc, lok l -> lok (fst (forget_scan vs l acc)).
Proof.
  intros l acc [N L]. destruct (forget_scan vs l acc) as [l' rm] eqn:E.
  destruct (forget_scan_spec vs _ _ _ _ N E) as (N' & C & _). split; auto. intros b k H. apply L, C, H.
Qed.
Lemma d_forget_bot vs : d_forget vs EBot = EBot.
Proof. reflexivity. Qed.
Lemma bok_forget vs b : bok b -> bok (s_forget vs b).
Proof.
  intros H. unfold s_forget. pose proof (forget_scan_lok vs (a_la b) []) as L.
  destruct (forget_scan vs (a_la b) []) as [l rm].
  apply (bok_mk _ _ b H); auto. - apply eok_d_forget, H. - intros ->. apply d_forget_bot.
Qed.
Lemma bok_expand x y b : bok b -> bok (s_expand (VS x) (VS y) b).
Proof. intros H. apply (bok_base (d_expand x y)); auto using eok_d_expand. Qed.
Lemma bok_rename x y b : bok b -> bok (s_rename [VS x] [VS y] b).
Proof. intros H. apply (bok_base (fun e => e_rename e [x] [y])); auto using eok_rename. Qed.

(* stores: the size written into the last-access environment is the one of the array *)
Definition szb (ez : linexp) (t : arr) (b : ast) : Prop :=
  forall k, check_elem_size ez (a_base b) = Some k -> k = esz' t.

Lemma bok_store t ez val strong b b' : bok b -> szb ez t b -> s_array_store t ez val strong b = Some b' -> bok b'.
Proof.
  intros H SZ Q. unfold s_array_store in Q.
  destruct (check_elem_size ez (a_base b)) as [k|] eqn:CK; [|discriminate]. pose proof (SZ k CK) as K.
  assert (LL : lok (a_la b) -> lok (if strong then la_set (a_la b) t k else a_la b)).
  { destruct strong; auto using lok_set. }
  destruct (equal_size _ t k); injection Q as <-; apply (bok_mk _ _ b H); auto; try apply H.
  - destruct strong; [apply eok_d_assign|apply eok_d_weak_assign]; apply H.
  - intros ->. destruct strong; [apply d_assign_bot|apply d_weak_assign_bot].
Qed.
Lemma bok_load lhs t ez b b' : bok b -> s_array_load lhs t ez b = Some b' -> bok b'.
Proof.
  intros H Q. unfold s_array_load in Q.
  destruct (check_elem_size ez (a_base b)) as [k|]; [|discriminate].
  destruct (equal_size _ t k); injection Q as <-.
  - apply (bok_base (fun e => e_forget (d_assign lhs (le_var (gcopy t)) (d_expand (ghost t) (gcopy t) e)) (gcopy t)));
      auto using eok_forget, eok_d_assign, eok_d_expand.
  - apply (bok_base (fun e => e_forget e lhs)); auto using eok_forget.
Qed.
Lemma bok_array_assign l r b : bok b -> esz' l = esz' r -> bok (s_array_assign l r b).
Proof.
  intros H Q. unfold s_array_assign.
  destruct (la_at (a_la b) r) as [|k|] eqn:A; try (apply bok_forget1; auto; fail).
  apply (bok_mk _ _ b H).
  - apply eok_d_assign, H.
  - intros ->. apply d_assign_bot.
  - intros L. apply lok_set; auto. rewrite Q. apply L; auto.
Qed.

Definition nb (b : ast) : Prop := exists m, a_base b = EMap m.
Definition nbok (b : ast) : Prop := bok b /\ nb b.
Definition pvframe (b b' : ast) : Prop := forall x, is_pv x -> e_at (a_base b') x = e_at (a_base b) x.

Lemma nb_lok b : nbok b -> lok (a_la b).
Proof. intros [[_ [B|L]] [m E]]; auto. congruence. Qed.

Lemma eval_terms_frame ts e e' : (forall c v, In (c, v) ts -> e_at e' v = e_at e v) ->
  forall r, eval_terms_itv ts e' r = eval_terms_itv ts e r.
Proof.
  induction ts as [|[c v] t IH]; simpl; intros H r; auto.
  rewrite (H c v) by auto. apply IH. intros; eapply H; eauto.
Qed.
Lemma szb_frame ez t b b' : le_pv ez -> pvframe b b' -> szb ez t b -> szb ez t b'.
Proof.
  intros P F H k. unfold check_elem_size, d_eval. rewrite (eval_terms_frame _ (a_base b) (a_base b')).
  - apply H.
  - intros c v I. apply F. eapply P; eauto.
Qed.
Lemma szb_k t b a : esz' t = esz a -> szb (le_k (esz a)) t b.
Proof.
  intros Q k H. unfold check_elem_size in H. rewrite d_eval_k, isingleton_iconst in H.
  destruct (_ && _); inversion H; subst; auto.
Qed.
Lemma ghost_not_pv t : ~ is_pv (ghost t).
Proof. intros H. exact (ghost_not_prog t (pv_prog _ H)). Qed.

(* setting or joining a key with a value that is not bottom: the result is not bottom and only
   the key changes *)
Lemma e_set_frame m k v : is_bot v = false ->
  exists m', e_set (EMap m) k v = EMap m' /\ forall x, x <> k -> get m' x = get m x.
Proof. intros B. cbn [e_set]. rewrite B. eexists. split; [reflexivity|]. intros x. apply get_put_other. Qed.
Lemma e_join_key_frame m k v : is_bot v = false ->
  exists m', e_join_key (EMap m) k v = EMap m' /\ forall x, x <> k -> get m' x = get m x.
Proof.
  intros B. cbn [e_join_key]. rewrite B. destruct (is_top v); [|destruct (is_top (get m k))];
    (eexists; split; [reflexivity|]; intros x); first [apply get_remove_other|apply get_put_other].
Qed.

(* a store of the value of a variable never produces bottom *)
Lemma store_var_nb t ez v first b b' : nbok b -> s_array_store t ez (le_var v) first b = Some b' ->
  nb b' /\ pvframe b b'.
Proof.
  intros [[[EO _] _] [m E]] H. unfold s_array_store in H.
  destruct (check_elem_size ez (a_base b)) as [k|]; [|discriminate]. rewrite E in H, EO.
  assert (Q : exists m', a_base b' = EMap m' /\ forall x, x <> ghost t -> get m' x = get m x).
  { destruct (equal_size _ t k); injection H as <-; cbn [a_base]; [|eauto].
    unfold d_assign, d_weak_assign, le_var. rewrite le_get_variable_var.
    destruct first; [apply e_set_frame|apply e_join_key_frame]; apply EO. }
  destruct Q as (m' & E' & F). split; [exists m'; auto|]. intros x P. rewrite E', E. apply F.
  intros ->. exact (ghost_not_pv t P).
Qed.

Lemma nb_forget1 v b : nb b -> nb (s_forget1 v b).
Proof.
  intros [m E]. destruct v as [x|a]; cbn [s_forget1].
  - exists (remove m x). cbn [a_base]. rewrite E. reflexivity.
  - destruct (la_at (a_la b) a); try (exists m; auto; fail).
    exists (remove m (ghost a)). cbn [a_base]. rewrite E. reflexivity.
Qed.
Lemma nbok_forget1 v b : nbok b -> nbok (s_forget1 v b).
Proof. intros [A B]. split; [apply bok_forget1|apply nb_forget1]; auto. Qed.
Lemma forget_ghosts_inv (P : ast -> Prop) a g : (forall v b, P b -> P (s_forget1 v b)) ->
  forall cells b, P b -> P (forget_ghosts a g cells b).
Proof.
  intros F. unfold forget_ghosts. induction cells as [|c r IH]; cbn [fold_left]; intros b H; auto.
  apply IH. destruct (gh_hasc g a c); auto.
Qed.
Lemma bok_forget_ghosts a g cells : forall b, bok b -> bok (forget_ghosts a g cells b).
Proof. apply forget_ghosts_inv. intros v b. apply bok_forget1. Qed.
Lemma nbok_forget_ghosts a g cells : forall b, nbok b -> nbok (forget_ghosts a g cells b).
Proof. apply forget_ghosts_inv. intros v b. apply nbok_forget1. Qed.

Lemma nbok_store_var t ez v first b b' : nbok b -> le_pv ez -> szb ez t b ->
  s_array_store t ez (le_var v) first b = Some b' -> nbok b' /\ szb ez t b'.
Proof.
  intros OK P SZ H. destruct (store_var_nb _ _ _ _ _ _ OK H) as [N F].
  split; [split; auto; eapply bok_store; eauto; apply OK|exact (szb_frame _ _ _ _ P F SZ)].
Qed.

Lemma smash_loop_ok t ez a g : le_pv ez -> forall cells first b fl b', nbok b -> szb ez t b ->
  smash_loop t ez a g first cells b = Some (fl, b') -> nbok b' /\ szb ez t b'.
Proof.
  intros P. induction cells as [|c r IH]; cbn [smash_loop]; intros first b fl b' OK SZ H.
  - injection H as _ <-. auto.
  - destruct (gh_hasc g a c); [|injection H as _ <-; auto].
    destruct (s_array_store t ez (le_var (cgc a c)) first b) as [b1|] eqn:ST; [|discriminate]. cbn [obind] in H.
    destruct (nbok_store_var _ _ _ _ _ _ OK P SZ ST) as [OK1 SZ1]. exact (IH _ _ _ _ OK1 SZ1 H).
Qed.

Lemma smash_other_loop_ok a k g : forall cells first b fl b', nbok b ->
  (forall c, In c cells -> c_size c = esz a) ->
  smash_other_loop a k g first cells b = Some (fl, b') -> nbok b'.
Proof.
  induction cells as [|c r IH]; cbn [smash_other_loop]; intros first b fl b' OK SZ H.
  - injection H as _ <-. auto.
  - destruct (negb _); [injection H as _ <-; auto|].
    destruct (gh_hasc g a c); [|injection H as _ <-; auto].
    destruct (s_array_store (sa a) (le_k (c_size c)) (le_var (cgc a c)) first b) as [b1|] eqn:ST; [|discriminate].
    cbn [obind] in H.
    assert (S1 : szb (le_k (c_size c)) (sa a) b) by (rewrite (SZ c) by (left; auto); apply szb_k, esz'_sa).
    destruct (nbok_store_var _ _ _ _ _ _ OK (le_pv_k _) S1 ST) as [OK1 _].
    exact (IH _ _ _ _ OK1 (fun c I => SZ c (or_intror I)) H).
Qed.

Lemma smash_array_ok a eo st g b st' g' b' : nbok b ->
  (forall c, In c (as_map st) -> c_size c = esz a) ->
  smash_array p a eo st g b = Some (st', g', b') -> nbok b'.
Proof.
  intros OK SZ H. unfold smash_array in H. destruct (as_map st) as [|c0 r] eqn:M; [injection H as _ _ <-; auto|].
  destruct (_ <? _); [injection H as _ _ <-; auto|]. destruct (_ && _); [injection H as _ _ <-; auto|].
  destruct eo as [k|]; [|injection H as _ _ <-; auto]. destruct (0 <? k); [|injection H as _ _ <-; auto].
  destruct (smash_other_loop a k g true (c0 :: r) b) as [[fl b1]|] eqn:LP; [|discriminate]. cbn [obind fst snd] in H.
  pose proof (smash_other_loop_ok _ _ _ _ _ _ _ _ OK SZ LP) as OK1.
  destruct fl; injection H as _ _ <-; [exact (nbok_forget_ghosts a g (c0 :: r) b1 OK1)|exact (nbok_forget1 (VA (sa a)) b1 OK1)].
Qed.

Lemma sides_ok a x y gl bl gr br x' y' gl' bl' gr' br' : nbok bl -> nbok br ->
  (forall c, In c (as_map x) -> c_size c = esz a) -> (forall c, In c (as_map y) -> c_size c = esz a) ->
  sides p a x y gl bl gr br = Some (x', y', (gl', bl'), (gr', br')) -> nbok bl' /\ nbok br'.
Proof.
  intros OL OR SX SY H. unfold sides in H. destruct (_ && _).
  - destruct (smash_array p a (as_esz x) y gr br) as [[[y1 g1] b1]|] eqn:Q; [|discriminate]. cbn [obind] in H.
    injection H as _ _ _ <- _ <-. split; auto. exact (smash_array_ok _ _ _ _ _ _ _ _ OR SY Q).
  - destruct (_ && _).
    + destruct (smash_array p a (as_esz y) x gl bl) as [[[x1 g1] b1]|] eqn:Q; [|discriminate]. cbn [obind] in H.
      injection H as _ _ _ <- _ <-. split; auto. exact (smash_array_ok _ _ _ _ _ _ _ _ OL SX Q).
    + injection H as _ _ _ <- _ <-. auto.
Qed.

(* the keys of the joined map are those bound on both sides, in the order of the left map *)
Lemma join_loop_ok kx ky ym : (forall a y c, am_find ym a = Some y -> In c (as_map y) -> c_size c = esz a) ->
  forall xs gl bl gr br m gl' bl' gr' br',
  (forall a x c, In (a, x) xs -> In c (as_map x) -> c_size c = esz a) ->
  nbok bl -> nbok br ->
  am_join_loop p kx ky xs ym gl bl gr br = Some (m, (gl', bl'), (gr', br')) ->
  nbok bl' /\ nbok br' /\
  am_keys m = filter (fun a => if am_find ym a then true else false) (map fst xs).
Proof.
  intros SY. induction xs as [|[a x] t IH]; intros gl bl gr br m gl' bl' gr' br' SX OL OR H; cbn [am_join_loop] in H.
  - injection H as <- _ <- _ <-. auto.
  - assert (SX' : forall a x c, In (a, x) t -> In c (as_map x) -> c_size c = esz a) by (intros; eapply SX; [right|]; eauto).
    cbn [map fst filter]. destruct (am_find ym a) as [y|] eqn:FY; [|exact (IH _ _ _ _ _ _ _ _ _ SX' OL OR H)].
    destruct (sides p a x y gl bl gr br) as [[[[x1 y1] [gl1 bl1]] [gr1 br1]]|] eqn:SD; [|discriminate].
    cbn [obind] in H.
    destruct (sides_ok _ _ _ _ _ _ _ _ _ _ _ _ _ OL OR (fun c I => SX a x c (or_introl eq_refl) I)
                       (fun c I => SY a y c FY I) SD) as [OL1 OR1].
    destruct (am_join_loop p kx ky t ym gl1 bl1 gr1 br1) as [[[m0 [gl2 bl2]] [gr2 br2]]|] eqn:LP; [|discriminate].
    cbn [obind] in H. injection H as <- <- <- <- <-.
    destruct (IH _ _ _ _ _ _ _ _ _ SX' OL1 OR1 LP) as (A & B & C).
    split; [exact A|]. split; [exact B|]. cbn [am_keys map fst]. f_equal. exact C.
Qed.

Definition awf (d : adom) : Prop := NoDup (am_keys (d_arrs d)) /\ bok (d_base d).

Lemma awf_top : awf a_top.
Proof. split; [constructor|apply bok_top]. Qed.
Lemma awf_bot : awf a_bot.
Proof. split; [constructor|apply bok_bot]. Qed.
Lemma awf_base d b : awf d -> bok b -> awf (with_base d b).
Proof. intros [N _] B. split; auto. Qed.

(* the executable checks that the join theorems of ArrayAdaptSound take as hypotheses *)
Lemma awf_nodup d : awf d -> NoDup (map fst (d_arrs d)).
Proof. intros [N _]. exact N. Qed.
Lemma awf_Lsz d : awf d -> Lsz esz d.
Proof.
  intros [_ [_ [B|[N L]]]]; [left|right; auto]. unfold a_is_bottom, s_is_bottom. rewrite B. reflexivity.
Qed.
Lemma awf_top_empty d : awf d -> top_empty d.
Proof. intros [_ [[_ NT] _]] T. apply (ntbe_is_top _ NT T). Qed.
Lemma awf_nbok d : awf d -> a_is_bottom d = false -> nbok (d_base d).
Proof.
  intros [_ B] NB. split; auto. unfold a_is_bottom, s_is_bottom in NB.
  destruct (a_base (d_base d)) as [|m] eqn:E; [discriminate|]. exists m. auto.
Qed.
Lemma Wf_sizes d : Wf esz d -> forall a st c, am_find (d_arrs d) a = Some st -> In c (as_map st) -> c_size c = esz a.
Proof. intros W a st c F I. destruct (W a st F) as [WL _]. apply (WL c I). Qed.

Lemma awf_join_loop x y m gl bl gr br : awf x -> awf y -> inv esz x -> inv esz y ->
  a_is_bottom x = false -> a_is_bottom y = false ->
  am_join_loop p (zkeys (d_arrs x)) (zkeys (d_arrs y)) (d_arrs x) (d_arrs y)
               (d_gh x) (d_base x) (d_gh y) (d_base y) = Some (m, (gl, bl), (gr, br)) ->
  nbok bl /\ nbok br /\ NoDup (am_keys m).
Proof.
  intros WX WY IX IY BX BY H.
  destruct (inv_nonbottom _ _ IX BX) as (W1 & _). destruct (inv_nonbottom _ _ IY BY) as (W2 & _).
  destruct (join_loop_ok _ _ (d_arrs y) (Wf_sizes y W2) (d_arrs x) _ _ _ _ _ _ _ _ _
              (fun a st c I J => Wf_sizes x W1 a st c (am_find_in_pair _ _ _ (awf_nodup x WX) I) J)
              (awf_nbok x WX BX) (awf_nbok y WY BY) H) as (A & B & K).
  split; auto. split; auto. rewrite K. apply NoDup_filter, awf_nodup; auto.
Qed.

Lemma awf_jreg x y : awf x -> awf y -> inv esz x -> inv esz y ->
  a_is_bottom x = false -> a_is_bottom y = false -> jreg p x y.
Proof.
  intros WX WY IX IY BX BY m gl bl gr br H.
  destruct (awf_join_loop _ _ _ _ _ _ _ WX WY IX IY BX BY H) as (A & B & _).
  pose proof (nb_lok _ A) as [LA _]. pose proof (nb_lok _ B) as [LB _].
  destruct A as [_ [ma EA]]. destruct B as [_ [mb EB]]. rewrite EA, EB.
  split; [discriminate|]. split; [discriminate|]. auto.
Qed.

Lemma awf_jk k x y d' : awf x -> awf y -> inv esz x -> inv esz y -> jk_run p k x y = Some d' -> awf d'.
Proof.
  intros WX WY IX IY H. destruct (jk_cases p k x y) as [Q|[Q|(BX & BY & Q)]]; rewrite Q in H.
  - injection H as <-; auto.
  - injection H as <-; auto.
  - unfold join_like in H.
    destruct (am_join_loop _ _ _ _ _ _ _ _ _) as [[[m [gl bl]] [gr br]]|] eqn:LP; [|discriminate].
    cbn [obind] in H. injection H as <-.
    destruct (awf_join_loop _ _ _ _ _ _ _ WX WY IX IY BX BY LP) as (A & B & D).
    split; [exact D|]. cbn [d_base]. pose proof (nb_lok _ A) as LA. pose proof (nb_lok _ B) as LB.
    destruct A as [[EA _] _]. destruct B as [[EB _] _].
    split; cbn [jop a_base a_la]; [|right; apply lok_join; auto].
    destruct k; cbn [jk_eop]; [apply eok_join|apply eok_widen|apply eok_widen_thr]; auto.
Qed.

#[local] Arguments s_forget1 : simpl never.
#[local] Arguments s_forget : simpl never.
#[local] Arguments s_assign : simpl never.
#[local] Arguments s_array_store : simpl never.
#[local] Arguments s_array_load : simpl never.
#[local] Arguments forget_ghosts : simpl never.
#[local] Arguments erase_ghosts : simpl never.

Lemma keys_remove m a : am_keys (am_remove m a) = filter (fun b => negb (N.eqb b a)) (am_keys m).
Proof.
  unfold am_keys, am_remove. induction m as [|[b st] r IH]; cbn [filter map fst]; auto.
  destruct (negb (N.eqb b a)); cbn [map fst]; rewrite IH; reflexivity.
Qed.
Lemma nd_remove m a : NoDup (am_keys m) -> NoDup (am_keys (am_remove m a)) /\ ~ In a (am_keys (am_remove m a)).
Proof.
  intros ND. rewrite keys_remove. split; [apply NoDup_filter; auto|]. rewrite filter_In, N.eqb_refl. intros [_ H]. discriminate.
Qed.
Lemma am_find_none m a : am_find m a = None -> ~ In a (am_keys m).
Proof.
  unfold am_keys. induction m as [|[b st] r IH]; simpl; auto. destruct (N.eqb_spec b a); [discriminate|].
  intros H [E|I]; auto. apply IH; auto.
Qed.
Lemma nd_set m a st : NoDup (am_keys m) -> NoDup (am_keys (am_set m a st)).
Proof.
  intros ND. unfold am_set. destruct (am_find m a) eqn:F; cbn [am_keys map fst].
  - destruct (nd_remove m a ND) as [A B]. constructor; auto.
  - constructor; auto. apply am_find_none; auto.
Qed.
Lemma awf_lookup d a st d1 : lookup d a = (st, d1) -> awf d -> awf d1 /\ d_base d1 = d_base d.
Proof.
  unfold lookup. destruct (am_find (d_arrs d) a) eqn:F; intros H W; injection H as _ <-; auto.
  destruct W as [N B]. split; auto. split; auto. cbn [d_arrs am_keys map fst]. constructor; auto.
  apply am_find_none; auto.
Qed.
Lemma awf_set_arr d a st b g : awf d -> bok b -> awf (set_arr d a st b g).
Proof. intros [N _] B. split; auto. cbn [set_arr d_arrs]. apply nd_set; auto. Qed.
Lemma awf_mk b m g : NoDup (am_keys m) -> bok b -> awf (mkD b m g).
Proof. intros N B. split; auto. Qed.

Lemma bok_kill a cells om b g om1 b1 g1 : bok b -> kill p a cells om b g = (om1, b1, g1) -> bok b1.
Proof.
  intros B H. unfold kill in H. destruct cells as [|c r]; [injection H as _ <- _; auto|]. injection H as _ <- _.
  exact (bok_forget_ghosts a g (c :: r) b B).
Qed.

Lemma awf_bok d : awf d -> bok (d_base d).
Proof. intros [_ B]. exact B. Qed.

(* The operations below are case analyses whose leaves are values put together from parts that
   keep [awf] / [bok]: these are left to [auto], given [bok] of the result of a store, a load or
   [kill] where there is one. *)
#[local] Hint Resolve awf_base awf_set_arr awf_mk awf_bok nd_set bok_assign bok_arith bok_assume bok_forget1
  bok_forget bok_forget_ghosts : core.

Lemma awf_forget_array a d : awf d -> awf (forget_array a d).
Proof.
  intros W. unfold forget_array. destruct (lookup d a) as [st d1] eqn:LK.
  destruct (awf_lookup _ _ _ _ LK W) as [W1 _]. apply awf_mk; auto. apply nd_remove, W1.
Qed.

Lemma szb_of_szok d a ez : szok esz d a ez -> szb ez (sa a) (d_base d).
Proof. intros H k C. rewrite esz'_sa. apply H; auto. Qed.
Lemma szb_ta a ez b : szb ez (sa a) b -> szb ez (ta a) b.
Proof. intros H k C. rewrite esz'_ta. rewrite <- (esz'_sa esz a). auto. Qed.

Lemma awf_store a ez idx val strong d d' : awf d -> le_pv ez -> szok esz d a ez ->
  a_array_store p a ez idx val strong d = Some d' -> awf d'.
Proof.
  intros W P SZ H. unfold a_array_store in H. destruct (a_is_bottom d) eqn:NB; [injection H as <-; auto|].
  destruct (check_elem_size ez (a_base (d_base d))) as [k|] eqn:CK; [|discriminate]. cbn [obind] in H.
  destruct (lookup d a) as [st d1] eqn:LK. destruct (awf_lookup _ _ _ _ LK W) as [W1 EB].
  pose proof (szb_of_szok _ _ _ SZ) as S0. rewrite <- EB in S0.
  assert (NB1 : nbok (d_base d1)) by (rewrite EB; apply awf_nbok; auto).
  assert (NC : forall d2, store_nonconst p a ez idx val strong k st d1 = Some d2 -> awf d2).
  { intros d2 E2. unfold store_nonconst in E2. destruct (smash_cond p st k).
    - destruct (smash_loop (sa a) ez a (d_gh d1) true (as_map st) (d_base d1)) as [[fl b1]|] eqn:SL; [|discriminate].
      cbn [obind fst snd] in E2. destruct (smash_loop_ok _ _ _ _ P _ _ _ _ _ NB1 S0 SL) as [[OK1 _] S1].
      destruct fl.
      + cbn [obind] in E2. injection E2 as <-. auto.
      + destruct (s_array_store (sa a) ez val strong b1) as [b2|] eqn:ST; [|discriminate]. cbn [obind] in E2.
        injection E2 as <-. pose proof (bok_store _ _ _ _ _ _ OK1 S1 ST). auto.
    - destruct (kill _ _ _ _ _ _) as [[om1 b1] g1] eqn:KL. injection E2 as <-.
      pose proof (bok_kill _ _ _ _ _ _ _ _ (awf_bok _ W1) KL). auto. }
  destruct (as_smashed st).
  - destruct (size_consistent st k).
    + destruct (s_array_store (sa a) ez val strong (d_base d1)) as [b'|] eqn:ST; [|discriminate]. cbn [obind] in H.
      injection H as <-. pose proof (bok_store _ _ _ _ _ _ (awf_bok _ W1) S0 ST). auto.
    + injection H as <-. auto.
  - destruct (isingleton _) as [n|]; [|auto]. destruct (_ <? _); [|auto].
    destruct (kill _ _ _ _ _ _) as [[om1 b1] g1] eqn:KL. injection H as <-.
    pose proof (bok_kill _ _ _ _ _ _ _ _ (awf_bok _ W1) KL). auto.
Qed.

Lemma awf_load lhs a ez idx d d' : awf d -> le_pv ez -> szok esz d a ez ->
  a_array_load p lhs a ez idx d = Some d' -> awf d'.
Proof.
  intros W P SZ H. unfold a_array_load in H. destruct (a_is_bottom d) eqn:NB; [injection H as <-; auto|].
  destruct (check_elem_size ez (a_base (d_base d))) as [k|] eqn:CK; [|discriminate]. cbn [obind] in H.
  destruct (lookup d a) as [st d1] eqn:LK. destruct (awf_lookup _ _ _ _ LK W) as [W1 EB].
  pose proof (szb_of_szok _ _ _ SZ) as S0. rewrite <- EB in S0.
  assert (NB1 : nbok (d_base d1)) by (rewrite EB; apply awf_nbok; auto).
  destruct (as_smashed st).
  - destruct (size_consistent st k); [|injection H as <-; auto].
    destruct (s_array_load lhs (sa a) ez (d_base d1)) as [b'|] eqn:ST; [|discriminate]. cbn [obind] in H.
    injection H as <-. pose proof (bok_load _ _ _ _ _ (awf_bok _ W1) ST). auto.
  - destruct (isingleton _) as [n|].
    + destruct (om_get_overlap _ _ _); injection H as <-; auto.
    + destruct (_ && _); [|injection H as <-; auto].
      destruct (smash_loop (ta a) ez a (d_gh d1) true _ (d_base d1)) as [[fl b1]|] eqn:SL; [|discriminate].
      cbn [obind fst snd] in H.
      destruct (smash_loop_ok _ _ _ _ P _ _ _ _ _ NB1 (szb_ta _ _ _ S0) SL) as [[OK1 _] _].
      destruct fl.
      * cbn [obind] in H. injection H as <-. auto.
      * destruct (s_array_load lhs (ta a) ez b1) as [b2|] eqn:ST; [|discriminate]. cbn [obind] in H.
        injection H as <-. pose proof (bok_load _ _ _ _ _ OK1 ST). auto.
Qed.

Lemma awf_range_loop a val : forall n i step d d', awf d ->
  range_loop p a (le_k (esz a)) val i step n d = Some d' -> awf d'.
Proof.
  induction n as [|n IH]; simpl; intros i step d d' W H; [injection H as <-; auto|].
  destruct (a_array_store p a (le_k (esz a)) (le_k i) val false d) as [d1|] eqn:ST; [|discriminate]. cbn [obind] in H.
  apply (IH (i + step) step d1 d'); auto.
  exact (awf_store _ _ _ _ _ _ _ W (le_pv_k _) (szok_k esz _ _) ST).
Qed.

Lemma awf_range a lb ub val d d' : awf d ->
  a_array_store_range p a (le_k (esz a)) lb ub val d = Some d' -> awf d'.
Proof.
  intros W H. unfold a_array_store_range in H. destruct (a_is_bottom d); [injection H as <-; auto|].
  destruct (check_elem_size _ _) as [k|]; [|discriminate]. cbn [obind] in H.
  destruct (isingleton (d_eval lb _)) as [l|]; [|injection H as <-; apply awf_forget_array; auto].
  destruct (isingleton (d_eval ub _)) as [u|]; [|injection H as <-; apply awf_forget_array; auto].
  destruct (u <? l); [injection H as <-; auto|].
  destruct (range_loop _ _ _ _ _ _ _ _) as [d1|] eqn:RL; [|discriminate]. cbn [obind] in H.
  pose proof (awf_range_loop _ _ _ _ _ _ _ W RL) as W1.
  destruct (_ <? u); [|injection H as <-; auto].
  destruct (a_is_bottom d1); [injection H as <-; auto|].
  destruct (lookup d1 a) as [st d2] eqn:LK. destruct (awf_lookup _ _ _ _ LK W1) as [W2 EB].
  destruct (as_smashed st); [injection H as <-; auto|].
  destruct (kill _ _ _ _ _ _) as [[om1 b1] g1] eqn:KL. injection H as <-.
  pose proof (bok_kill _ _ _ _ _ _ _ _ (awf_bok _ W2) KL). auto.
Qed.

Lemma awf_init a lb ub val d d' : awf d ->
  a_array_init p a (le_k (esz a)) lb ub val d = Some d' -> awf d'.
Proof.
  intros W H. unfold a_array_init in H. destruct (a_is_bottom d); [injection H as <-; auto|].
  destruct (lookup d a) as [st d1] eqn:LK. destruct (awf_lookup _ _ _ _ LK W) as [W1 EB].
  eapply awf_range; [|exact H]. destruct (as_smashed st); auto. destruct (as_map st) as [|c r]; auto.
  destruct (kill _ _ _ _ _ _) as [[om1 b1] g1] eqn:KL. pose proof (bok_kill _ _ _ _ _ _ _ _ (awf_bok _ W1) KL). auto.
Qed.

Lemma bok_fold_assign lhs rhs cells : forall b, bok b ->
  bok (fold_left (fun acc c => s_assign (cgc lhs c) (le_var (cgc rhs c)) acc) cells b).
Proof. induction cells as [|c r IH]; cbn [fold_left]; intros b B; auto. Qed.

Lemma awf_arr_assign lhs rhs d : awf d -> esz lhs = esz rhs -> awf (a_array_assign p lhs rhs d).
Proof.
  intros W Q. unfold a_array_assign. destruct (a_is_bottom d); auto. destruct (N.eqb lhs rhs); auto.
  pose proof (awf_forget_array lhs d W) as W0.
  destruct (lookup (forget_array lhs d) rhs) as [st d2] eqn:LK.
  destruct (awf_lookup _ _ _ _ LK W0) as [[N2 B2] _].
  destruct (negb (as_smashed st)); [auto using bok_fold_assign|].
  destruct (p_smashable p); [|split; auto]. apply awf_mk; auto.
  apply bok_array_assign; auto. rewrite !esz'_sa. auto.
Qed.

Lemma awf_forget vs d : awf d -> awf (a_forget vs d).
Proof.
  intros W. unfold a_forget. destruct (_ || _); auto.
  assert (X : forall vs d, awf d -> awf (fold_left (fun acc v => match v with VA a => forget_array a acc | VS _ => acc end) vs d)).
  { clear. induction vs as [|v r IH]; cbn [fold_left]; intros d W; auto. apply IH. destruct v; auto. apply awf_forget_array; auto. }
  pose proof (X vs d W). auto.
Qed.
Lemma awf_forget1 v d : awf d -> awf (a_forget1 v d).
Proof.
  intros W. unfold a_forget1. destruct (a_is_bottom d); auto. destruct v; auto. apply awf_forget_array; auto.
Qed.
Lemma awf_expand x y d d' : awf d -> a_expand (VS x) (VS y) d = Some d' -> awf d'.
Proof.
  intros W H. unfold a_expand in H. destruct (_ || _); injection H as <-; auto.
  apply awf_base, bok_expand; auto.
Qed.
Lemma awf_rename x y d d' : awf d -> a_rename [VS x] [VS y] d = Some d' -> awf d'.
Proof.
  intros W H. destruct (a_is_bottom d || a_is_top d) eqn:E.
  - unfold a_rename in H. rewrite E in H. injection H as <-; auto.
  - rewrite rename_scalar_eq in H by auto. injection H as <-. destruct W. auto using bok_rename.
Qed.

Definition awf_all (rs : list adom) : Prop := forall r, awf (dget rs r).

Lemma awf_dset rs r d : awf_all rs -> awf d -> awf_all (dset rs r d).
Proof.
  intros H D r'. destruct (Nat.lt_ge_cases r (length rs)) as [LT|GE].
  - rewrite dget_dset by auto. destruct (Nat.eqb r' r); auto.
  - rewrite dset_oob by auto. auto.
Qed.
Lemma awf_all_top n : awf_all (repeat a_top n).
Proof. intros r. unfold dget. rewrite nth_repeat. apply awf_top. Qed.

Lemma awf_dset_opt rs r (v : option adom) rs' : awf_all rs -> (forall d, v = Some d -> awf d) ->
  match v with Some x => Some (dset rs r x) | None => None end = Some rs' -> awf_all rs'.
Proof. intros W H E. destruct v as [d|]; [|discriminate]. injection E as <-. apply awf_dset; auto. Qed.

(* what is left of [join_ok]: the operands are not bottom (a_join returns the other operand
   there; [jreg] excludes it as well) and the hypothesis on tracked cells *)
Definition join_ok_wf (X Y : adom) (cX cY : cset) : Prop :=
  a_is_bottom X = false /\ a_is_bottom Y = false /\
  (forall s mu, cX (s, mu) -> forall a st sy, am_find (d_arrs X) a = Some st -> am_find (d_arrs Y) a = Some sy ->
      as_smashed st = false -> as_smashed sy = true -> all_tracked esz onecell X a mu) /\
  (forall s mu, cY (s, mu) -> forall a st sy, am_find (d_arrs X) a = Some st -> am_find (d_arrs Y) a = Some sy ->
      as_smashed sy = false -> as_smashed st = true -> all_tracked esz onecell Y a mu).

Lemma join_ok_of_wf X Y cX cY : awf X -> awf Y -> inv esz X -> inv esz Y ->
  join_ok_wf X Y cX cY -> join_ok esz onecell p X Y cX cY.
Proof.
  intros WX WY IX IY (BX & BY & T1 & T2).
  split; [apply awf_nodup; auto|]. split; [apply awf_jreg; auto|].
  split; [apply awf_Lsz; auto|]. split; [apply awf_Lsz; auto|].
  split; [apply awf_top_empty; auto|]. split; [apply awf_top_empty; auto|]. split; auto.
Qed.

Definition hop_okA_wf (rs : list adom) (cs : list cset) (o : ahop) : Prop :=
  match o with
  | AJoin _ s t | AWiden _ s t | AWidenThr _ s t _ => join_ok_wf (dget rs s) (dget rs t) (cget cs s) (cget cs t)
  | _ => hop_okA esz onecell p rs cs o
  end.

Lemma hop_okA_of_wf rs cs o : awf_all rs -> rel esz onecell rs cs -> hop_okA_wf rs cs o -> hop_okA esz onecell p rs cs o.
Proof.
  intros W (_ & RI & _) OK. assert (WR : forall r, awf (dget rs r)) by exact W. destruct o; cbn [hop_okA_wf hop_okA] in *; auto; apply join_ok_of_wf; auto.
Qed.

Lemma dstep_awf rs cs o rs' : awf_all rs -> rel esz onecell rs cs -> hop_okA_wf rs cs o ->
  dstep p rs o = Some rs' -> awf_all rs'.
Proof.
  intros W R OK E. pose proof R as (_ & RI & _). assert (WR : forall r, awf (dget rs r)) by exact W.
  (* every operation writes one register: what is left is [awf] of the value written, which [auto]
     finds for a copy and for the operations of the base domain *)
  destruct o; cbn [dstep hop_okA_wf hop_okA] in *;
    try (injection E as <-; apply awf_dset; auto); try (refine (awf_dset_opt _ _ _ _ W _ E); intros d' Q).
  - apply awf_top.
  - apply awf_bot.
  - apply awf_forget; auto.
  - apply awf_forget1; auto.
  - destruct OK.
  - destruct v as [x|a], nv as [y|b]; try destruct OK. eapply awf_expand; eauto.
  - destruct from as [|[x|a] [|? ?]]; try tauto; destruct to as [|[y|b] [|? ?]]; try tauto.
    eapply awf_rename; eauto.
  - destruct OK as [(l & u & _ & _ & (EZ & _)) _]. subst esz0. eapply awf_init; eauto.
  - destruct OK as (P1 & P2 & P3 & P4 & P5 & P6). exact (awf_load _ _ _ _ _ _ (WR r) P2 P5 Q).
  - destruct OK as (P1 & P2 & P3 & P4 & P5 & P6 & P7). exact (awf_store _ _ _ _ _ _ _ (WR r) P1 P5 Q).
  - destruct OK as ((EZ & _) & _). subst esz0. eapply awf_range; eauto.
  - apply awf_arr_assign; auto. apply OK.
  - apply (awf_jk JJoin (dget rs s) (dget rs t)); auto.
  - destruct OK.
  - apply (awf_jk JWiden (dget rs s) (dget rs t)); auto.
  - destruct OK.
  - apply (awf_jk (JThr ths) (dget rs s) (dget rs t)); auto.
Qed.

Theorem dstep_sound_wf rs cs o rs' : awf_all rs -> rel esz onecell rs cs -> hop_okA_wf rs cs o ->
  dstep p rs o = Some rs' -> rel esz onecell rs' (cstepA esz onecell cs o) /\ awf_all rs'.
Proof.
  intros W R OK E. split; [|eapply dstep_awf; eauto].
  exact (dstep_sound esz onecell esz_pos p rs cs o rs' R (hop_okA_of_wf rs cs o W R OK) E).
Qed.

Fixpoint hist_okA_wf (rs : list adom) (cs : list cset) (h : list ahop) : Prop :=
  match h with
  | [] => True
  | o :: r => hop_okA_wf rs cs o /\
              match dstep p rs o with Some rs' => hist_okA_wf rs' (cstepA esz onecell cs o) r | None => True end
  end.

Theorem dhistory_sound_wf h : forall rs cs rs', awf_all rs ->
  rel esz onecell rs cs -> hist_okA_wf rs cs h -> drun p rs h = Some rs' ->
  rel esz onecell rs' (fold_left (cstepA esz onecell) h cs) /\ awf_all rs'.
Proof.
  induction h as [|o r IH]; simpl; intros rs cs rs' W R OK H.
  - injection H as <-; auto.
  - destruct OK as [O1 O2]. destruct (dstep p rs o) as [rs1|] eqn:E; [|discriminate].
    destruct (dstep_sound_wf _ _ _ _ W R O1 E) as [R1 W1]. eapply IH; eauto.
Qed.

Theorem dhistory_sound_wf_top h n rs' :
  hist_okA_wf (repeat a_top n) (repeat (fun _ => True) n) h -> drun p (repeat a_top n) h = Some rs' ->
  rel esz onecell rs' (fold_left (cstepA esz onecell) h (repeat (fun _ => True) n)) /\ awf_all rs'.
Proof. intros OK H. eapply dhistory_sound_wf; eauto. apply awf_all_top. apply rel_top; auto. Qed.

End Wf.
