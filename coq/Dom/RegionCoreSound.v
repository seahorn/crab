(* RegionCoreSound.v — property C15 on the region-domain model (Dom/RegionCore.v).

   Concrete semantics: a store (integers, booleans, addresses of references; 0 = null), a heap
   region -> address -> written value, and instrumentation that is a function of the execution:
   for every region the list of (creating variable, address) of the references created for it
   by ref_make / ref_gep, the allocation site of every allocated address, and the tags carried
   by values.  Loads and stores through a reference are only defined when the reference is
   not null and was created for that region by the analysed code (hypothesis "regions are
   allocated inside the analysed code", under which the count-zero strong update of the C++
   is sound); loads are only defined from cells written before (the property's own
   restriction).

   Theorems: after ANY finite history of the modelled operations over several registers
   (region_init, ref_make, ref_free, ref_load, ref_store, ref_gep, region_copy, ref_assume,
   select_ref, add_tag, assign, arithmetic, assume, havoc, join, meet, widening, narrowing,
   copies) every register describes every concrete state produced by the corresponding
   concrete operations: variables (hence loaded values and addresses, hence definite
   null / non-null answers) are inside their intervals, the reference-count abstraction
   describes the references created for each region (so strong updates happen on singletons
   or never-written regions only), reported allocation-site and tag sets contain the actual
   ones. *)
From Coq Require Import ZArith NArith List Bool Lia.
From CrabV Require Import Base.ZInf Scalar.Itv Scalar.ItvSound Scalar.SmallRange Scalar.Boolean
     Ir.Syntax Dom.ItvEnv Dom.ItvEnvSound Dom.ItvSolver Dom.ItvSolverSound Dom.ItvDomain
     Dom.ItvDomainSound Dom.RegionCore.
Import ListNotations.
Local Open Scope Z_scope.

Arguments d_add : simpl never.
Arguments d_assign : simpl never.
Arguments d_weak_assign : simpl never.
Arguments d_expand : simpl never.
Arguments d_apply_arith : simpl never.

(* the concrete counterpart of a reference count: the variables through which the references
   of the region were created, in order *)
Definition cgamma (x : sr) (L : list Z) : Prop :=
  match x with
  | RBot => False
  | RZero => L = []
  | ROne v => L = [v]
  | RZeroOrOne v => L = [] \/ L = [v]
  | RZeroOrMore => True
  | ROneOrMore => L <> []
  end.

Ltac zeqb :=
  repeat match goal with
         | |- context [?a =? ?b] => destruct (Z.eqb_spec a b); subst
         | H : context [?a =? ?b] |- _ => destruct (Z.eqb_spec a b); subst
         end.

Lemma app_one_not_nil {A} (L : list A) x : L ++ [x] <> [].
Proof. destruct L; simpl; congruence. Qed.

Lemma cg_incr c L v : cgamma c L -> cgamma (rc_incr c v) (L ++ [Z.of_N v]).
Proof.
  unfold rc_incr. destruct c; cbn; intros H; try (apply app_one_not_nil); auto.
  subst. reflexivity.
Qed.

Lemma cg_incr_phantom c L v : cgamma c L -> L <> [] -> cgamma (rc_incr c v) L.
Proof.
  unfold rc_incr. destruct c; cbn; intros H N; auto; try congruence.
Qed.

Lemma cg_join x y L : cgamma x L \/ cgamma y L -> cgamma (sr_join x y) L.
Proof.
  destruct x, y; cbn; intros [H|H]; zeqb; cbn in *; subst; auto; try tauto; try congruence;
    try (destruct H; subst; auto; congruence); try (right; congruence).
Qed.

Lemma cg_meet x y L : cgamma x L -> cgamma y L -> cgamma (sr_meet x y) L.
Proof.
  destruct x, y; cbn; intros H1 H2; zeqb; cbn in *; subst; auto; try tauto; try congruence;
    try (destruct H1; subst; auto; try congruence); try (destruct H2; subst; auto; try congruence).
Qed.

Lemma cg_singleton c L : singleton_count c = true -> cgamma c L -> L = [] \/ exists v, L = [v].
Proof. destruct c; cbn; intros E H; try discriminate; subst; eauto. Qed.

(* at most one cell under a singleton count *)
Lemma cg_singleton_addrs c (L : list (Z * Z)) :
  singleton_count c = true -> cgamma c (map fst L) ->
  forall a1 a2, In a1 (map snd L) -> In a2 (map snd L) -> a1 = a2.
Proof.
  intros S G a1 a2 I1 I2. destruct (cg_singleton _ _ S G) as [E|(v & E)];
    destruct L as [|[v1 x1] [|? ?]]; try discriminate; simpl in *; try contradiction.
  destruct I1 as [<-|[]], I2 as [<-|[]]. reflexivity.
Qed.

Lemma cg_top L : cgamma RZeroOrMore L. Proof. exact I. Qed.
Example cg_example : cgamma (rc_incr (rc_incr RZero 7%N) 7%N) [7; 7] /\ rc_incr (rc_incr RZero 7%N) 7%N = ROneOrMore.
Proof. split; [cbn; congruence | reflexivity]. Qed.

Record cstate := mkCS {
  c_st : store;                       (* integers, booleans, addresses; for a region variable: a
                                         representative of its contents (ghost, see [view]) *)
  c_hp : var -> Z -> option Z;        (* region -> address -> value written there *)
  c_made : var -> list (Z * Z);       (* region -> (creating variable, address) of its references *)
  c_asite : Z -> option Z;            (* address -> allocation site of its memory object *)
  c_vtg : var -> list Z;              (* tags carried by the value of a variable *)
  c_htg : var -> Z -> list Z          (* tags carried by the data stored in a cell *)
}.
Definition addrs (c : cstate) (g : var) : list Z := map snd (c_made c g).
Definition creators (c : cstate) (g : var) : list Z := map fst (c_made c g).
(* written cells were created *)
Definition cwf (c : cstate) : Prop := forall g a z, c_hp c g a = Some z -> In a (addrs c g).
(* a reference may be dereferenced in region g *)
Definition valid (c : cstate) (g : var) (a : Z) : Prop := a <> 0 /\ In a (addrs c g).

Definition hupd {A} (h : var -> Z -> A) (g : var) (a : Z) (v : A) : var -> Z -> A :=
  fun g' a' => if N.eqb g' g && (a' =? a) then v else h g' a'.

Lemma fupd_same {A} (f : var -> A) k v : fupd f k v k = v.
Proof. unfold fupd. rewrite N.eqb_refl. auto. Qed.
Lemma fupd_other {A} (f : var -> A) k v x : x <> k -> fupd f k v x = f x.
Proof. unfold fupd. intros H. destruct (N.eqb_spec x k); congruence. Qed.
Lemma hupd_same {A} (h : var -> Z -> A) g a v : hupd h g a v g a = v.
Proof. unfold hupd. rewrite N.eqb_refl, Z.eqb_refl. auto. Qed.
Lemma hupd_other_rgn {A} (h : var -> Z -> A) g a v g' a' : g' <> g -> hupd h g a v g' a' = h g' a'.
Proof. unfold hupd. intros H. destruct (N.eqb_spec g' g); [congruence|auto]. Qed.
Lemma hupd_other_addr {A} (h : var -> Z -> A) g a v g' a' : a' <> a -> hupd h g a v g' a' = h g' a'.
Proof. unfold hupd. intros H. destruct (Z.eqb_spec a' a); [congruence|]. rewrite andb_false_r. auto. Qed.
Lemma fupd_other_app {A B} (f : var -> B -> A) k v x y : x <> k -> fupd f k v x y = f x y.
Proof. intros H. rewrite fupd_other; auto. Qed.

Create HintDb frame.
#[local] Hint Resolve upd_other fupd_other fupd_other_app hupd_other_rgn : frame.

Lemma upd_same' s x v : upd s x v x = v. Proof. apply upd_same. Qed.

Section WithKinds.
(* which variables are regions (a static property of CrabIR variables) *)
Variable is_rgn : var -> bool.

(* the stores summarised by a concrete state: every region variable stands for its
   representative or for the contents of any of its written cells *)
Definition view (c : cstate) (s : store) : Prop :=
  (forall k, is_rgn k = false -> s k = c_st c k) /\
  (forall r, is_rgn r = true -> s r = c_st c r \/ exists a, c_hp c r a = Some (s r)).

Lemma view_id c : view c (c_st c).
Proof. split; auto. Qed.


(* the "initialised" flag: False = no cell written yet, True = some cell written *)
Definition igamma (b : bv) (c : cstate) (g : var) : Prop :=
  match b with
  | BFalse => forall x, c_hp c g x = None
  | BTrue => exists x z, c_hp c g x = Some z
  | BBot => False
  | BTop => True
  end.

Lemma ig_join x y c g : igamma x c g \/ igamma y c g -> igamma (bv_join x y) c g.
Proof. destruct x, y; cbn; intros [H|H]; auto; try contradiction. Qed.
Lemma ig_meet x y c g : igamma x c g -> igamma y c g -> igamma (bv_meet x y) c g.
Proof.
  destruct x, y; cbn; intros H1 H2; auto; try contradiction.
  - destruct H2 as (a & z & E). rewrite H1 in E. discriminate.
  - destruct H1 as (a & z & E). rewrite H2 in E. discriminate.
Qed.

Record rel_core (a : rst) (c : cstate) : Prop := mkRel {
  rc_base : forall s, view c s -> gmap (r_base a) s;
  rc_count : forall g, cgamma (count a g) (creators c g);
  rc_init : forall g, igamma (rinit a g) c g;
  rc_wf : cwf c
}.

Lemma rel_at a c x : rel_core a c -> gamma (get (r_base a) x) (c_st c x).
Proof. intros R. apply (rc_base _ _ R _ (view_id c)). Qed.

Lemma is_zero_itv_gamma i v : is_zero_itv i = true -> gamma i v -> v = 0.
Proof.
  unfold is_zero_itv. destruct i as [l u]; simpl.
  destruct l as [|l|]; try discriminate. destruct l; try discriminate.
  destruct u as [|u|]; try discriminate. destruct u; try discriminate.
  intros _ G. unfold gamma in G. simpl in G. unfold ble_z_l, ble_z_r in G. simpl in G.
  destruct G as [G1 G2]. apply Z.leb_le in G1, G2. lia.
Qed.

Lemma is_null_true a c p : rel_core a c -> is_null (r_base a) p = BTrue -> c_st c p = 0.
Proof.
  intros R H. apply (is_zero_itv_gamma (get (r_base a) p)); [|apply rel_at, R].
  unfold is_null in H. unfold is_zero_itv. destruct (negb _); [discriminate|].
  destruct (lb _) as [|[| |]|]; try discriminate; destruct (ub _) as [|[| |]|]; auto; discriminate.
Qed.

Lemma is_null_false a c p : rel_core a c -> is_null (r_base a) p = BFalse -> c_st c p <> 0.
Proof.
  intros R. pose proof (rel_at a c p R) as G. unfold is_null.
  destruct (ileq (iconst 0) (get (r_base a) p)) eqn:E; simpl.
  - destruct (lb (get (r_base a) p)) as [|l|]; try discriminate.
    destruct l; try discriminate. destruct (ub (get (r_base a) p)) as [|u|]; try discriminate.
    destruct u; discriminate.
  - intros _ Z0. rewrite Z0 in G.
    assert (X : ileq (iconst 0) (get (r_base a) p) = true); [|congruence].
    apply ileq_complete. apply wf_iconst.
    intros x Gx. apply gamma_iconst in Gx. subst. auto.
Qed.

(* building a related value from its parts *)
Lemma rel_with_base e c rg al tg :
  (forall s, view c s -> genv e s) ->
  (forall g, cgamma (fst (rg g)) (creators c g)) ->
  (forall g, igamma (snd (rg g)) c g) -> cwf c ->
  exists m, e = EMap m /\ rel_core (mkR m rg al tg) c.
Proof.
  intros B C I W. destruct e as [|m].
  - elim (B _ (view_id c)).
  - exists m. split; auto. constructor; auto.
Qed.

Lemma upd_reset s x v k : upd (upd s x v) x (s x) k = s k.
Proof. destruct (N.eq_dec k x) as [->|N]; [apply upd_same | rewrite !upd_other by auto; auto]. Qed.

(* when c' differs from c at x only, a view of c' becomes a view of c once x is given a value
   that c allows *)
Lemma view_change c' c s s' x :
  view c' s -> (forall k, k <> x -> s' k = s k) ->
  (forall k, k <> x -> c_st c' k = c_st c k) -> (forall k a, k <> x -> c_hp c' k a = c_hp c k a) ->
  (if is_rgn x then s' x = c_st c x \/ exists a, c_hp c x a = Some (s' x) else s' x = c_st c x) ->
  view c s'.
Proof.
  intros [V1 V2] ES ET EH Hx. split; intros k Kk.
  - destruct (N.eq_dec k x) as [->|N]; [rewrite Kk in Hx; exact Hx|].
    rewrite ES, V1 by auto. auto.
  - destruct (N.eq_dec k x) as [->|N]; [rewrite Kk in Hx; exact Hx|].
    rewrite ES by auto. destruct (V2 k Kk) as [A|[a A]]; [left; rewrite A; auto|].
    right. exists a. rewrite <- EH; auto.
Qed.

Lemma lift_scalar c c' x z E :
  is_rgn x = false -> c_st c' = upd (c_st c) x z -> c_hp c' = c_hp c ->
  (forall s0, view c s0 -> genv E (upd s0 x z)) ->
  forall s, view c' s -> genv E s.
Proof.
  intros Kx ES EH H s V.
  assert (Z0 : s x = z) by (rewrite (proj1 V x Kx), ES; apply upd_same). subst z.
  eapply genv_ext; [apply upd_reset|]. apply H.
  apply (view_change c' c s _ x V); rewrite ?ES, ?EH, ?Kx; auto using upd_other, upd_same.
Qed.

(* a region variable may be given its representative or the contents of a written cell *)
Lemma view_rgn c s g z :
  view c s -> is_rgn g = true -> z = c_st c g \/ (exists a, c_hp c g a = Some z) -> view c (upd s g z).
Proof.
  intros V K H. apply (view_change c c s _ g V); auto using upd_other. rewrite upd_same, K. exact H.
Qed.

(* reading a region variable g that may hold z, into x directly (strong read) or into a copy *)
Lemma read_strong E s g x z :
  genv E s -> genv E (upd s g z) -> genv (d_assign x (le_var g) E) (upd s x z).
Proof.
  intros G Gz. apply e_set_sound; auto. pose proof (e_at_sound E _ g Gz) as X. rewrite upd_same in X. exact X.
Qed.
Lemma read_copy E s g d z : genv E s -> genv E (upd s g z) -> genv (d_expand g d E) (upd s d z).
Proof.
  intros G Gz. apply d_expand_sound; auto. exists (upd s g z). split; auto.
  split; [intros k N; apply upd_other; auto | rewrite upd_same; auto].
Qed.

Definition nonrgn_exp (e : linexp) : Prop := forall co v, In (co, v) (le_terms e) -> is_rgn v = false.


Lemma eval_view e c s : nonrgn_exp e -> view c s -> eval_le e s = eval_le e (c_st c).
Proof.
  intros N [V _]. apply eval_le_ext.
  intros co v I. apply V. eapply N; eauto.
Qed.

Lemma eval_le_var v s : eval_le (le_var v) s = s v.
Proof. unfold eval_le, le_var. cbn [eval_terms le_terms le_cst]. ring. Qed.
Lemma eval_le_const k s : eval_le (le_const k) s = k.
Proof. unfold eval_le, le_const. cbn [eval_terms le_terms le_cst]. ring. Qed.

Lemma d_assign_var x g e : d_assign x (le_var g) e = e_set e x (e_at e g).
Proof. reflexivity. Qed.

Variable is_refrgn : var -> bool.     (* which regions hold references *)
Variable is_refv : var -> bool.       (* which variables are references *)
Variable P : rparams.

(* a finite site set describes an address that is null or belongs to an object allocated at
   one of the sites *)
Definition sgamma (c : cstate) (d : dset) (z : Z) : Prop :=
  match d with
  | None => True
  | Some ss => z = 0 \/ exists site, c_asite c z = Some site /\ In site ss
  end.
Definition tgamma (d : dset) (l : list Z) : Prop :=
  match d with None => True | Some T => incl l T end.

Lemma ds_mem_spec z l : ds_mem z l = true <-> In z l.
Proof.
  unfold ds_mem. rewrite existsb_exists. split.
  - intros (x & I & E). apply Z.eqb_eq in E. subst. auto.
  - intros I. exists z. split; auto. apply Z.eqb_refl.
Qed.

Lemma sg_join c a b z : sgamma c a z \/ sgamma c b z -> sgamma c (ds_join a b) z.
Proof.
  destruct a as [x|], b as [y|]; cbn; auto.
  intros [[H|(s & A & I)]|[H|(s & A & I)]]; auto; right; exists s; split; auto; apply in_or_app; auto.
Qed.
Lemma sg_meet c a b z : sgamma c a z -> sgamma c b z -> sgamma c (ds_meet a b) z.
Proof.
  unfold ds_meet. intros H1 H2.
  destruct (ds_is_bottom a) eqn:B1.
  { destruct a as [[|? ?]|]; try discriminate. cbn in *. destruct H1 as [H|(s & _ & [])]; auto. }
  destruct (ds_is_bottom b) eqn:B2.
  { destruct b as [[|? ?]|]; try discriminate. cbn in *. destruct H2 as [H|(s & _ & [])]; auto. }
  cbn [orb]. destruct a as [x|], b as [y|]; auto.
  cbn in *. destruct H1 as [H|(s & A & I)]; auto. destruct H2 as [H|(s' & A' & I')]; auto.
  right. exists s. split; auto. apply filter_In. split; auto. apply ds_mem_spec. congruence.
Qed.
Lemma tg_join a b l : tgamma a l \/ tgamma b l -> tgamma (ds_join a b) l.
Proof.
  destruct a as [x|], b as [y|]; cbn; auto.
  intros [H|H]; [apply incl_appl | apply incl_appr]; auto.
Qed.
Lemma tg_meet a b l : tgamma a l -> tgamma b l -> tgamma (ds_meet a b) l.
Proof.
  unfold ds_meet. intros H1 H2.
  destruct (ds_is_bottom a) eqn:B1.
  { destruct a as [[|? ?]|]; try discriminate. exact H1. }
  destruct (ds_is_bottom b) eqn:B2.
  { destruct b as [[|? ?]|]; try discriminate. exact H2. }
  cbn [orb]. destruct a as [x|], b as [y|]; auto.
  cbn in *. intros t I. apply filter_In. split; auto. apply ds_mem_spec. auto.
Qed.
Lemma tg_nil d : tgamma d []. Proof. destruct d; cbn; auto. intros ? []. Qed.
Lemma tg_app d l1 l2 : tgamma d l1 -> tgamma d l2 -> tgamma d (l1 ++ l2).
Proof. destruct d; cbn; auto. apply incl_app. Qed.

Record rel (a : rst) (c : cstate) : Prop := mkRelF {
  r_core : rel_core a c;
  r_svar : forall v, is_refv v = true -> sgamma c (r_alloc a v) (c_st c v);
  r_srgn : forall g, is_refrgn g = true -> forall x z, c_hp c g x = Some z -> sgamma c (r_alloc a g) z;
  r_soff : p_alloc P = false -> forall v, r_alloc a v = None;
  r_anull : c_asite c 0 = None;
  r_tvar : forall v, is_rgn v = false -> tgamma (r_tags a v) (c_vtg c v);
  r_trgn : forall g, is_rgn g = true -> forall x, tgamma (r_tags a g) (c_htg c g x);
  r_toff : p_tags P = false -> forall v, r_tags a v = None;
  r_tuw : forall g x, c_hp c g x = None -> c_htg c g x = []
}.

Definition relv (v : rval) (c : cstate) : Prop :=
  match v with None => False | Some a => rel a c end.

(* set_alloc / set_tags rebind one key of one environment, if that environment is switched on *)
Lemma set_alloc_eq s v d :
  set_alloc P s v d =
  mkR (r_base s) (r_rgn s) (if p_alloc P then fupd (r_alloc s) v d else r_alloc s) (r_tags s).
Proof. unfold set_alloc. destruct s, (p_alloc P); reflexivity. Qed.
Lemma set_tags_eq s v d :
  set_tags P s v d =
  mkR (r_base s) (r_rgn s) (r_alloc s) (if p_tags P then fupd (r_tags s) v d else r_tags s).
Proof. unfold set_tags. destruct s, (p_tags P); reflexivity. Qed.

Definition sval_val (v : sval) (s : store) : Z := eval_le (sval_exp v) s.
Definition sval_tags (v : sval) (c : cstate) : list Z :=
  match v with SVar x _ => c_vtg c x | _ => [] end.

Definition rrel_holds (r : rrel) (a b : Z) : Prop :=
  match r with REq => a = b | RNe => a <> b | RLe => a <= b | RLt => a < b | RGe => a >= b | RGt => a > b end.
Definition rcst_holds (rc : rcst) (s : store) : Prop :=
  match rc with
  | RUn r p => rrel_holds r (s p) 0
  | RBin r p q k => rrel_holds r (s p) (s q + k)
  end.

(* ref2 := ref1 + off.  [lit0]: the offset is the literal 0 *)
Definition c_gep (p2 g2 p1 g1 : var) (off : Z) (lit0 : bool) (c c' : cstate) : Prop :=
  let a1 := c_st c p1 in let a2 := a1 + off in
  (g1 = g2 -> a2 = a1 -> In a1 (addrs c g1) \/ lit0 = true) /\
  (a1 = 0 -> a2 = 0) /\ c_asite c a2 = c_asite c a1 /\
  c' = mkCS (upd (c_st c) p2 a2) (c_hp c)
            (if N.eqb g1 g2 && (a2 =? a1) then c_made c
             else fupd (c_made c) g2 (c_made c g2 ++ [(Z.of_N p2, a2)]))
            (c_asite c) (fupd (c_vtg c) p2 (c_vtg c p1)) (c_htg c).

Definition c_havoc_scalar (v : var) (c c' : cstate) : Prop :=
  exists z tl, c' = mkCS (upd (c_st c) v z) (c_hp c) (c_made c) (c_asite c) (fupd (c_vtg c) v tl) (c_htg c).

Definition c_assume_ref (rc : rcst) (c c' : cstate) : Prop :=
  rcst_holds rc (c_st c) /\
  match rc with
  | RBin REq p q k => k <> 0 -> c_asite c (c_st c p) = c_asite c (c_st c q)
  | _ => True
  end /\ c' = c.

Definition c_sel_arm (p g : var) (arm : option (var * var)) (c c' : cstate) : Prop :=
  match arm with
  | None => exists c1, c_havoc_scalar p c c1 /\ c_assume_ref (RUn REq p) c1 c'
  | Some (q, gq) => c_gep p g q gq 0 true c c'
  end.

Definition lit_zero (e : linexp) : bool :=
  match le_terms e with [] => le_cst e =? 0 | _ => false end.

(* the concrete meaning of the operations on one state *)
Definition cstep (o : rop) (c c' : cstate) : Prop :=
  match o with
  | OInit _ g =>
    c' = mkCS (c_st c) (fupd (c_hp c) g (fun _ => None)) (fupd (c_made c) g []) (c_asite c) (c_vtg c)
              (fupd (c_htg c) g (fun _ => []))
  | OMk _ p g site =>
    exists a, a <> 0 /\ c_asite c a = None /\
      c' = mkCS (upd (c_st c) p a) (c_hp c) (fupd (c_made c) g (c_made c g ++ [(Z.of_N p, a)]))
                (fun x => if x =? a then Some site else c_asite c x) (fupd (c_vtg c) p []) (c_htg c)
  | OFree _ g p => c' = c
  | OLd _ x p g _ =>
    let a := c_st c p in
    valid c g a /\ exists z, c_hp c g a = Some z /\
      c' = mkCS (upd (c_st c) x z) (c_hp c) (c_made c) (c_asite c) (fupd (c_vtg c) x (c_htg c g a)) (c_htg c)
  | OSt _ p g v =>
    let a := c_st c p in let z := sval_val v (c_st c) in
    valid c g a /\
      c' = mkCS (upd (c_st c) g z) (hupd (c_hp c) g a (Some z)) (c_made c) (c_asite c) (c_vtg c)
                (hupd (c_htg c) g a (sval_tags v c))
  | OGep _ p2 g2 p1 g1 off _ => c_gep p2 g2 p1 g1 (eval_le off (c_st c)) (lit_zero off) c c'
  | ORcopy _ l g =>
    c' = mkCS (upd (c_st c) l (c_st c g)) (fupd (c_hp c) l (c_hp c g)) (fupd (c_made c) l (c_made c g))
              (c_asite c) (c_vtg c) (fupd (c_htg c) l (c_htg c g))
  | OAssumeRef _ rc _ => c_assume_ref rc c c'
  | OSelRef _ p g a1 a2 _ => c_sel_arm p g a1 c c' \/ c_sel_arm p g a2 c c'
  | OTag _ g t =>
    exists a z, c_hp c g a = Some z /\
      c' = mkCS (c_st c) (c_hp c) (c_made c) (c_asite c) (c_vtg c) (hupd (c_htg c) g a (t :: c_htg c g a))
  | OAssign _ x e =>
    c' = mkCS (upd (c_st c) x (eval_le e (c_st c))) (c_hp c) (c_made c) (c_asite c)
              (fupd (c_vtg c) x (flat_map (fun p => c_vtg c (snd p)) (le_terms e))) (c_htg c)
  | OArith _ op x y z =>
    exists r, arith_sem op (c_st c y) (operand_val z (c_st c)) = Some r /\
      c' = mkCS (upd (c_st c) x r) (c_hp c) (c_made c) (c_asite c)
                (fupd (c_vtg c) x (c_vtg c y ++ match z with OVar v => c_vtg c v | OCst _ => [] end)) (c_htg c)
  | OAssume _ cs => (forall k, In k cs -> sat k (c_st c)) /\ c' = c
  | OHavoc _ v KRegion =>
    (forall k, k <> v -> c_st c' k = c_st c k) /\ (forall g, g <> v -> c_hp c' g = c_hp c g) /\
    (forall g, g <> v -> c_made c' g = c_made c g) /\ c_asite c' = c_asite c /\ c_vtg c' = c_vtg c /\
    (forall g, g <> v -> c_htg c' g = c_htg c g) /\ cwf c' /\ (forall x, c_hp c' v x = None -> c_htg c' v x = [])
  | OHavoc _ v _ => c_havoc_scalar v c c'
  | _ => False
  end.

Hypothesis refrgn_rgn : forall g, is_refrgn g = true -> is_rgn g = true.
Hypothesis refv_nonrgn : forall v, is_refv v = true -> is_rgn v = false.

(* sites are only ever added, to non-null addresses that had none *)
Lemma sgamma_mono c c' d z :
  (forall y, c_asite c' y = c_asite c y \/ y <> 0 /\ c_asite c y = None) -> sgamma c d z -> sgamma c' d z.
Proof.
  intros E. destruct d as [ss|]; cbn; auto. intros [H|(s & A & I)]; auto. right. exists s. split; auto.
  destruct (E z) as [->|[_ N]]; congruence.
Qed.
Lemma sgamma_zero c d : sgamma c d 0.
Proof. destruct d; cbn; auto. Qed.

Lemma igamma_eq b c c' g g' : (forall x, c_hp c' g' x = c_hp c g x) -> igamma b c g -> igamma b c' g'.
Proof.
  intros E. destruct b; cbn; auto.
  - intros H x. rewrite E. auto.
  - intros (x & z & H). exists x, z. rewrite E. auto.
Qed.

(* What an abstract state says about a variable k involves the concrete state at k only (and
   the allocation sites): [rel] is the claim of the base domain and, for every key, one claim
   per environment.  A transfer function that rebinds k in an environment is sound as soon as
   the new claim at k holds and the concrete step leaves the other keys alone. *)
Definition rgn_at (i : rinfo) (c : cstate) (g : var) : Prop :=
  cgamma (fst i) (creators c g) /\ igamma (snd i) c g /\
  (forall x z, c_hp c g x = Some z -> In x (addrs c g)) /\
  (forall x, c_hp c g x = None -> c_htg c g x = []).
Definition sites_at (d : dset) (c : cstate) (k : var) : Prop :=
  (is_refv k = true -> sgamma c d (c_st c k)) /\
  (is_refrgn k = true -> forall x z, c_hp c k x = Some z -> sgamma c d z).
Definition tags_at (d : dset) (c : cstate) (k : var) : Prop :=
  (is_rgn k = false -> tgamma d (c_vtg c k)) /\
  (is_rgn k = true -> forall x, tgamma d (c_htg c k x)).
Definition sites_rel (al : var -> dset) (c : cstate) : Prop :=
  (forall k, sites_at (al k) c k) /\ (p_alloc P = false -> forall k, al k = None) /\
  c_asite c 0 = None.
Definition tags_rel (tg : var -> dset) (c : cstate) : Prop :=
  (forall k, tags_at (tg k) c k) /\ (p_tags P = false -> forall k, tg k = None).

Lemma rel_iff a c :
  rel a c <->
  (forall s, view c s -> gmap (r_base a) s) /\ (forall k, rgn_at (r_rgn a k) c k) /\
  sites_rel (r_alloc a) c /\ tags_rel (r_tags a) c.
Proof.
  split.
  - intros [[B C I W] S1 S2 S3 S4 T1 T2 T3 T4].
    split; [exact B | split; [|split; [split; [|split]|split]]]; auto; intros k; repeat split; eauto.
  - intros (B & Rg & (S & So & Sn) & (T & To)).
    constructor; [constructor|..]; auto; intros k; try apply Rg; try apply S; try apply T.
Qed.

Lemma relv_intro b rg al tg E c :
  (forall st, view c st -> genv E st) -> (forall k, rgn_at (rg k) c k) ->
  sites_rel al c -> tags_rel tg c -> relv (with_base (mkR b rg al tg) E) c.
Proof.
  intros B Rg Rs Rt. destruct E as [|m]; [elim (B _ (view_id c))|]. apply rel_iff. auto.
Qed.

Lemma with_base_if (b : bool) s e1 e2 :
  (if b then with_base s e1 else with_base s e2) = with_base s (if b then e1 else e2).
Proof. destruct b; auto. Qed.

(* constraints: the base domain is refined, everything else is kept *)
Lemma rel_refine_base a c E :
  rel a c -> (forall s, view c s -> genv E s) -> relv (with_base a E) c.
Proof. intros R H. destruct a. apply relv_intro; auto; apply (proj1 (rel_iff _ _) R). Qed.

(* the claims at a key survive a step that keeps the concrete state at that key *)
Lemma rgn_at_ext i c c' g g' :
  c_made c' g' = c_made c g -> (forall x, c_hp c' g' x = c_hp c g x) ->
  (forall x, c_htg c' g' x = c_htg c g x) -> rgn_at i c g -> rgn_at i c' g'.
Proof.
  intros EM EH ET (C & I & W & U). unfold rgn_at, creators, addrs. rewrite EM. repeat split; auto.
  - eapply igamma_eq; eauto.
  - intros x z. rewrite EH. apply W.
  - intros x. rewrite EH, ET. apply U.
Qed.
Lemma sites_at_ext d c c' k :
  (forall y, c_asite c' y = c_asite c y \/ y <> 0 /\ c_asite c y = None) ->
  c_st c' k = c_st c k -> (forall x, c_hp c' k x = c_hp c k x) -> sites_at d c k -> sites_at d c' k.
Proof.
  intros M ES EH [S1 S2]. split.
  - intros K. rewrite ES. eapply sgamma_mono; eauto.
  - intros K x z. rewrite EH. intros H. eapply sgamma_mono; eauto.
Qed.
Lemma tags_at_ext d c c' k :
  c_vtg c' k = c_vtg c k -> (forall x, c_htg c' k x = c_htg c k x) -> tags_at d c k -> tags_at d c' k.
Proof. intros EV ET [T1 T2]. split; intros K; [rewrite EV | intros x; rewrite ET]; auto. Qed.

Lemma sites_at_none c k : sites_at None c k.
Proof. split; intros; exact I. Qed.
Lemma tags_at_none c k : tags_at None c k.
Proof. split; intros; exact I. Qed.

(* an environment is changed at g only, by a step that touches the concrete state at g only; an
   environment that is switched off claims nothing *)
Lemma rgn_upd rg rg' c c' g :
  (forall k, rgn_at (rg k) c k) -> (forall k, k <> g -> rg' k = rg k) ->
  (forall k, k <> g -> c_made c' k = c_made c k) ->
  (forall k x, k <> g -> c_hp c' k x = c_hp c k x) ->
  (forall k x, k <> g -> c_htg c' k x = c_htg c k x) ->
  rgn_at (rg' g) c' g -> forall k, rgn_at (rg' k) c' k.
Proof.
  intros R E EM EH ET G k. destruct (N.eq_dec k g) as [->|N]; auto.
  rewrite E by auto. apply (rgn_at_ext _ c _ k); auto.
Qed.
Lemma sites_upd al al' c c' v :
  sites_rel al c -> (forall k, k <> v -> al' k = al k) -> (p_alloc P = false -> al' v = al v) ->
  (forall y, c_asite c' y = c_asite c y \/ y <> 0 /\ c_asite c y = None) ->
  (forall k, k <> v -> c_st c' k = c_st c k) -> (forall k x, k <> v -> c_hp c' k x = c_hp c k x) ->
  (p_alloc P = true -> sites_at (al' v) c' v) -> sites_rel al' c'.
Proof.
  intros (S & Off & A0) E Ev M ES EH Sv. split; [|split].
  - intros k. destruct (N.eq_dec k v) as [->|N].
    + destruct (p_alloc P) eqn:F; auto. rewrite Ev, Off by auto. apply sites_at_none.
    + rewrite E by auto. apply (sites_at_ext _ c); auto.
  - intros F k. destruct (N.eq_dec k v) as [->|N]; [rewrite Ev | rewrite E]; auto.
  - destruct (M 0) as [->|[N _]]; congruence.
Qed.
Lemma tags_upd tg tg' c c' v :
  tags_rel tg c -> (forall k, k <> v -> tg' k = tg k) -> (p_tags P = false -> tg' v = tg v) ->
  (forall k, k <> v -> c_vtg c' k = c_vtg c k) -> (forall k x, k <> v -> c_htg c' k x = c_htg c k x) ->
  (p_tags P = true -> tags_at (tg' v) c' v) -> tags_rel tg' c'.
Proof.
  intros (T & Off) E Ev EV ET Tv. split.
  - intros k. destruct (N.eq_dec k v) as [->|N].
    + destruct (p_tags P) eqn:F; auto. rewrite Ev, Off by auto. apply tags_at_none.
    + rewrite E by auto. apply (tags_at_ext _ c); auto.
  - intros F k. destruct (N.eq_dec k v) as [->|N]; [rewrite Ev | rewrite E]; auto.
Qed.

(* the same for set_alloc / set_tags *)
Lemma sites_set al c c' v d :
  sites_rel al c ->
  (forall y, c_asite c' y = c_asite c y \/ y <> 0 /\ c_asite c y = None) ->
  (forall k, k <> v -> c_st c' k = c_st c k) -> (forall k x, k <> v -> c_hp c' k x = c_hp c k x) ->
  (p_alloc P = true -> sites_at d c' v) -> sites_rel (if p_alloc P then fupd al v d else al) c'.
Proof.
  intros R M ES EH Sv. apply (sites_upd al _ c c' v); auto; destruct (p_alloc P);
    auto using fupd_other; try discriminate.
  rewrite fupd_same. auto.
Qed.
Lemma tags_set tg c c' v d :
  tags_rel tg c ->
  (forall k, k <> v -> c_vtg c' k = c_vtg c k) -> (forall k x, k <> v -> c_htg c' k x = c_htg c k x) ->
  (p_tags P = true -> tags_at d c' v) -> tags_rel (if p_tags P then fupd tg v d else tg) c'.
Proof.
  intros R EV ET Tv. apply (tags_upd tg _ c c' v); auto; destruct (p_tags P);
    auto using fupd_other; try discriminate.
  rewrite fupd_same. auto.
Qed.

(* the claim at a key that is not a region, or is one *)
Lemma sites_at_var d c x :
  is_rgn x = false -> (is_refv x = true -> sgamma c d (c_st c x)) -> sites_at d c x.
Proof. intros K H. split; auto. intros Kr. apply refrgn_rgn in Kr. congruence. Qed.
Lemma sites_at_rgn d c g :
  is_rgn g = true -> (is_refrgn g = true -> forall x z, c_hp c g x = Some z -> sgamma c d z) ->
  sites_at d c g.
Proof. intros K H. split; auto. intros Kr. apply refv_nonrgn in Kr. congruence. Qed.
Lemma tags_at_var d c x : is_rgn x = false -> tgamma d (c_vtg c x) -> tags_at d c x.
Proof. intros K H. split; auto. congruence. Qed.
Lemma tags_at_rgn d c g : is_rgn g = true -> (forall x, tgamma d (c_htg c g x)) -> tags_at d c g.
Proof. intros K H. split; auto. congruence. Qed.

(* one more reference created for g through p *)
Lemma rgn_at_mk i c c' g p x :
  rgn_at i c g -> c_made c' g = c_made c g ++ [(Z.of_N p, x)] ->
  (forall y, c_hp c' g y = c_hp c g y) -> (forall y, c_htg c' g y = c_htg c g y) ->
  rgn_at (rc_incr (fst i) p, snd i) c' g.
Proof.
  intros (C & I & W & U) EM EH ET. unfold rgn_at, creators, addrs. rewrite EM, !map_app.
  repeat split; cbn [fst snd].
  - apply cg_incr, C.
  - eapply igamma_eq; eauto.
  - intros y z. rewrite EH. intros H. apply in_or_app. left. eapply W; eauto.
  - intros y. rewrite EH, ET. apply U.
Qed.

Lemma not_null a c p g : rel a c -> valid c g (c_st c p) -> bv_is_true (is_null (r_base a) p) = false.
Proof.
  intros R [A0 _]. destruct (is_null (r_base a) p) eqn:E; auto.
  elim A0. eapply is_null_true; eauto using r_core.
Qed.

(* the fields of an explicit concrete state *)
Ltac cproj := cbn [c_st c_hp c_made c_asite c_vtg c_htg].
(* brings the result of a transfer function into the form [mkR base rgn alloc tags] *)
Ltac rnorm := rewrite ?set_tags_eq, ?set_alloc_eq; cbn [set_rgn r_base r_rgn r_alloc r_tags].

Lemma t_mk_sound a c c' r p g site :
  rel a c -> is_rgn p = false -> cstep (OMk r p g site) c c' -> relv (t_mk P p g site a) c'.
Proof.
  intros R Kp (a0 & A0 & AS & ->). destruct (proj1 (rel_iff _ _) R) as (B & Rg & Rs & Rt).
  unfold t_mk. rnorm. apply relv_intro.
  - apply (lift_scalar c _ p a0); auto. intros s0 V. apply e_forget_sound, B, V.
  - apply (rgn_upd _ _ c _ g Rg); cproj; auto with frame.
    rewrite fupd_same. apply (rgn_at_mk _ c _ g p a0 (Rg g)); cproj; auto using fupd_same.
  - apply (sites_set _ c); cproj; auto with frame.
    + intros y. destruct (Z.eqb_spec y a0) as [->|N]; auto.
    + intros _. apply sites_at_var; auto. intros _. cproj. rewrite upd_same. right. exists site.
      cproj. rewrite Z.eqb_refl. cbn. auto.
  - apply (tags_upd _ _ c _ p Rt); cproj; auto with frame.
    intros _. apply tags_at_var; auto. cproj. rewrite fupd_same. apply tg_nil.
Qed.

Lemma merge_tags_sound a c vs :
  rel a c -> (forall v, In v vs -> is_rgn v = false) ->
  tgamma (merge_tags a vs) (flat_map (fun v => c_vtg c v) vs).
Proof.
  intros R. unfold merge_tags.
  assert (G : forall vs acc l, tgamma acc l -> (forall v, In v vs -> is_rgn v = false) ->
              tgamma (fold_left (fun acc v => ds_join acc (r_tags a v)) vs acc) (l ++ flat_map (fun v => c_vtg c v) vs)).
  { induction vs0 as [|v r IH]; simpl; intros acc l T K.
    - rewrite app_nil_r. auto.
    - rewrite app_assoc. apply IH; auto. apply tg_app; apply tg_join; auto.
      right. apply (r_tvar _ _ R); auto. }
  intros K. apply (G vs ds_empty []); auto. cbn. intros ? [].
Qed.

Lemma flat_map_terms {A} (f : var -> list A) (ts : list (Z * var)) :
  flat_map (fun p => f (snd p)) ts = flat_map f (map snd ts).
Proof. induction ts as [|[c v] r IH]; simpl; auto. rewrite IH. auto. Qed.

Lemma t_assign_sound a c c' r x e :
  rel a c -> is_rgn x = false -> is_refv x = false -> nonrgn_exp e ->
  cstep (OAssign r x e) c c' -> relv (t_assign P x e a) c'.
Proof.
  intros R Kx Kr Ne ->. destruct (proj1 (rel_iff _ _) R) as (B & Rg & Rs & Rt).
  unfold t_assign. rnorm. apply relv_intro.
  - apply (lift_scalar c _ x (eval_le e (c_st c))); auto.
    intros s0 V. rewrite <- (eval_view e c s0 Ne V). apply d_assign_sound, B, V.
  - exact Rg.
  - apply (sites_upd _ _ c _ x Rs); cproj; auto with frame. intros _. apply sites_at_var; auto. congruence.
  - apply (tags_set _ c); cproj; auto with frame. intros _. apply tags_at_var; auto.
    cproj. rewrite fupd_same, flat_map_terms. apply merge_tags_sound; auto.
    intros v I. apply in_map_iff in I. destruct I as ([co w] & <- & I). eapply Ne; eauto.
Qed.

Lemma t_arith_sound a c c' r op x y z :
  rel a c -> is_rgn x = false -> is_refv x = false -> is_rgn y = false ->
  (forall v, z = OVar v -> is_rgn v = false) ->
  cstep (OArith r op x y z) c c' -> relv (t_arith P op x y z a) c'.
Proof.
  intros R Kx Kr Ky Kz (res & Sem & ->). destruct (proj1 (rel_iff _ _) R) as (B & Rg & Rs & Rt).
  unfold t_arith. rnorm. apply relv_intro.
  - apply (lift_scalar c _ x res); auto.
    intros s0 V. eapply d_apply_arith_sound; [apply B, V|].
    destruct V as [V1 V2]. rewrite (V1 y Ky).
    replace (operand_val z s0) with (operand_val z (c_st c)); auto.
    destruct z; simpl; auto. symmetry. apply V1. eapply Kz; eauto.
  - exact Rg.
  - apply (sites_upd _ _ c _ x Rs); cproj; auto with frame. intros _. apply sites_at_var; auto. congruence.
  - apply (tags_set _ c); cproj; auto with frame. intros _. apply tags_at_var; auto.
    cproj. rewrite fupd_same. destruct z as [v|k].
    + apply tg_app; apply tg_join; [left|right]; apply Rt; auto.
    + rewrite app_nil_r. apply Rt; auto.
Qed.

Lemma t_havoc_scalar_sound a c c' v k :
  rel a c -> is_rgn v = false -> k <> KRegion -> (is_refv v = true -> k = KRef) ->
  c_havoc_scalar v c c' -> relv (t_havoc P v k a) c'.
Proof.
  intros R Kv Kk Kr (z & tl & ->). destruct (proj1 (rel_iff _ _) R) as (B & Rg & Rs & Rt).
  unfold t_havoc. set (c' := mkCS _ _ _ _ _ _).
  (* whether or not the sites of v are reset *)
  assert (FIN : forall s, r_base s = r_base a -> r_rgn s = r_rgn a -> sites_rel (r_alloc s) c' ->
                r_tags s = r_tags a -> relv (with_base (set_tags P s v ds_top)
                                               (e_forget (EMap (r_base (set_tags P s v ds_top))) v)) c').
  { intros s E1 E2 S E3. unfold c' in *. rnorm. apply relv_intro; rewrite ?E1, ?E2, ?E3; auto.
    - apply (lift_scalar c _ v z); auto. intros s0 V. apply e_forget_sound, B, V.
    - apply (tags_set _ c); cproj; auto with frame. intros _. apply tags_at_none. }
  destruct k; [| |congruence]; apply FIN; unfold c'; rnorm; auto.
  - apply (sites_upd _ _ c _ v Rs); cproj; auto with frame. intros _. apply sites_at_var; auto.
    intros F. discriminate (Kr F).
  - apply (sites_set _ c); cproj; auto with frame. intros _. apply sites_at_none.
Qed.

Lemma t_load_sound a c c' r dup x p g isr :
  rel a c -> is_rgn x = false -> is_rgn g = true ->
  is_rgn dup = false -> dup <> x -> (isr = true -> is_refrgn g = true) -> (is_refv x = true -> isr = true) ->
  cstep (OLd r x p g isr) c c' -> relv (t_load P dup x p g isr a) c'.
Proof.
  intros R Kx Kg Kd Dx Kri Krv (Va & z & Hz & ->).
  destruct (proj1 (rel_iff _ _) R) as (B & Rg & Rs & Rt).
  unfold t_load. rewrite (not_null _ _ _ _ R Va), with_base_if. rnorm.
  set (s1 := if isr then _ else a).
  assert (E1 : r_base s1 = r_base a /\ r_rgn s1 = r_rgn a /\ r_tags s1 = r_tags a).
  { unfold s1. destruct isr; auto. }
  destruct E1 as (E1 & E2 & E3). apply relv_intro; rewrite ?E1, ?E2, ?E3.
  - apply (lift_scalar c _ x z); auto. intros s0 V. pose proof (B _ V) as G0.
    (* the value z is described by the contents of the region *)
    assert (Gz : genv (EMap (r_base a)) (upd s0 g z)) by (apply B, view_rgn; eauto).
    destruct (singleton_count _).
    + apply read_strong; auto.
    + (* weak read through the duplicated ghost variable *)
      pose proof (d_assign_sound x (le_var dup) _ _ (read_copy (EMap (r_base a)) _ g dup z G0 Gz)) as G2.
      rewrite eval_le_var, upd_same in G2.
      eapply genv_ext; [|exact (e_forget_sound _ _ dup (s0 dup) G2)]. intros k.
      destruct (N.eq_dec k dup) as [->|N1]; [rewrite upd_same, upd_other by auto; auto|].
      rewrite upd_other by auto.
      destruct (N.eq_dec k x) as [->|N2]; [rewrite !upd_same; auto|].
      rewrite !upd_other by auto. auto.
  - exact Rg.
  - unfold s1. destruct isr; cbn [r_alloc].
    + apply (sites_set _ c); cproj; auto with frame. intros _. apply sites_at_var; auto.
      intros _. cproj. rewrite upd_same. apply (proj2 (proj1 Rs g) (Kri eq_refl) _ _ Hz).
    + apply (sites_upd _ _ c _ x Rs); cproj; auto with frame. intros _. apply sites_at_var; auto.
      intros F. discriminate (Krv F).
  - apply (tags_set _ c); cproj; auto with frame. intros _. apply tags_at_var; auto.
    cproj. rewrite fupd_same. apply Rt; auto.
Qed.

Lemma lit_zero_eval off e : lit_zero off = true -> is_zero_itv (d_eval off e) = true.
Proof.
  unfold lit_zero, d_eval. destruct (le_terms off); [|discriminate]. intros E.
  apply Z.eqb_eq in E. rewrite E. reflexivity.
Qed.
Lemma lit_zero_val off s : lit_zero off = true -> eval_le off s = 0.
Proof.
  unfold lit_zero, eval_le. destruct (le_terms off); [|discriminate]. intros E.
  apply Z.eqb_eq in E. rewrite E. reflexivity.
Qed.

Lemma t_gep_sound a c c' p2 g2 p1 g1 off addr :
  rel a c -> is_rgn p2 = false -> is_rgn p1 = false ->
  nonrgn_exp off -> nonrgn_exp addr -> ~ In p2 (map snd (le_terms off)) ->
  (forall s, eval_le addr s = s p1 + eval_le off s) ->
  (is_refv p2 = true -> is_refv p1 = true) ->
  c_gep p2 g2 p1 g1 (eval_le off (c_st c)) (lit_zero off) c c' ->
  relv (t_gep P p2 g2 p1 g1 off addr a) c'.
Proof.
  intros R K2 K1 No Na Np Ea Krv (SRC & NUL & AS & ->).
  destruct (proj1 (rel_iff _ _) R) as (B & Rg & Rs & Rt). unfold t_gep. rnorm.
  set (a1 := c_st c p1) in *. set (ov := eval_le off (c_st c)) in *.
  set (b' := d_assign p2 addr (EMap (r_base a))).
  assert (GB : forall s0, view c s0 -> genv b' (upd s0 p2 (a1 + ov))).
  { intros s0 V. unfold b'. replace (a1 + ov) with (eval_le addr s0).
    - apply d_assign_sound, B, V.
    - rewrite (eval_view addr c s0 Na V). rewrite Ea. reflexivity. }
  set (same := N.eqb g1 g2 && is_zero_itv (d_eval off b')).
  assert (SAME : same = true -> g1 = g2 /\ ov = 0).
  { unfold same. intros E. apply andb_true_iff in E. destruct E as [E1 E2]. split.
    - apply N.eqb_eq; auto.
    - pose proof (d_eval_sound off b' _ (GB _ (view_id c))) as D.
      eapply is_zero_itv_gamma in D; eauto. rewrite <- D. unfold ov, eval_le. f_equal.
      apply eval_terms_ext. intros co v I. symmetry. apply upd_other.
      intros ->. apply Np. apply in_map_iff. exists (co, p2). auto. }
  set (s1 := if same then a else set_rgn a g2 (rc_incr (count a g2) p2, rinit a g2)).
  assert (E1 : r_alloc s1 = r_alloc a /\ r_tags s1 = r_tags a) by (unfold s1; destruct same; auto).
  destruct E1 as (E1 & E2).
  apply relv_intro; rewrite ?E1, ?E2.
  - apply (lift_scalar c _ p2 (a1 + ov)); auto.
  - unfold s1. clear - SAME SRC Rg. destruct same eqn:SM.
    + destruct (SAME eq_refl) as [-> E0]. cproj. rewrite N.eqb_refl, E0, Z.add_0_r, Z.eqb_refl. exact Rg.
    + cbn [set_rgn r_rgn]. apply (rgn_upd _ _ c _ g2 Rg); auto with frame.
      { intros k N. cproj. destruct (N.eqb g1 g2 && (a1 + ov =? a1)); auto with frame. }
      rewrite fupd_same. cproj. destruct (N.eqb g1 g2 && (a1 + ov =? a1)) eqn:CC.
      * (* the same cell: a reference of the region that exists already *)
        destruct (Rg g2) as (C & W). split; auto. apply cg_incr_phantom; auto.
        apply andb_true_iff in CC. destruct CC as [C1 C2]. apply N.eqb_eq in C1. apply Z.eqb_eq in C2.
        destruct (SRC C1 C2) as [I|L].
        -- subst g1. unfold creators, addrs in *. cproj. destruct (c_made c g2); [elim I|discriminate].
        -- exfalso. unfold same in SM. rewrite C1, N.eqb_refl, (lit_zero_eval off b' L) in SM. discriminate.
      * apply (rgn_at_mk _ c _ g2 p2 (a1 + ov) (Rg g2)); cproj; auto using fupd_same.
  - apply (sites_set _ c); cproj; auto with frame. intros _. apply sites_at_var; auto.
    intros F. cproj. rewrite upd_same. pose proof (proj1 (proj1 Rs p1) (Krv F)) as X. fold a1 in X.
    destruct (r_alloc a p1) as [ss|]; [|exact I]. destruct X as [X|(site & X1 & X2)].
    + left. apply NUL. exact X.
    + right. exists site. cproj. rewrite AS. auto.
  - apply (tags_set _ c); cproj; auto with frame.
    intros _. apply tags_at_var; auto. cproj. rewrite fupd_same. apply Rt; auto.
Qed.

Definition sval_ok (g : var) (v : sval) : Prop :=
  match v with
  | SVar x isr => is_rgn x = false /\ (is_refrgn g = true -> isr = true /\ is_refv x = true)
  | SCst _ => is_refrgn g = false
  | SNull => True
  end.

Lemma sval_val_view v g c s0 : sval_ok g v -> view c s0 -> eval_le (sval_exp v) s0 = sval_val v (c_st c).
Proof.
  intros OK V. unfold sval_val. apply eval_view; auto.
  destruct v; cbn; intros co w I; try contradiction.
  destruct I as [I|[]]. inversion I; subst. apply OK.
Qed.

(* the allocation sites and the tags ref_store gives the region: those of the stored value, joined
   with those of the region unless the update is strong *)
Definition store_al (s : rst) (g : var) (v : sval) (strong : bool) : dset :=
  match v with
  | SNull => if strong then ds_empty else r_alloc s g
  | SVar x true => if strong then r_alloc s x else ds_join (r_alloc s g) (r_alloc s x)
  | _ => r_alloc s g
  end.
Definition store_tg (s : rst) (g : var) (v : sval) (strong : bool) : dset :=
  match v with
  | SVar x _ => if strong then r_tags s x else ds_join (r_tags s g) (r_tags s x)
  | _ => r_tags s g
  end.

(* they describe the stored value and, under a weak update, whatever the region held *)
Lemma store_al_new a c g v strong :
  sites_rel (r_alloc a) c -> sval_ok g v -> is_refrgn g = true ->
  sgamma c (store_al a g v strong) (sval_val v (c_st c)).
Proof.
  intros Rs OK Kr. unfold sval_val, store_al. destruct v as [x isr|k|]; cbn [sval_exp]; cbn in OK.
  - destruct OK as [_ K1]. destruct (K1 Kr) as [-> Kx]. rewrite eval_le_var.
    pose proof (proj1 (proj1 Rs x) Kx). destruct strong; [|apply sg_join]; auto.
  - congruence.
  - rewrite eval_le_const. apply sgamma_zero.
Qed.
Lemma store_al_old a c g v w : sgamma c (r_alloc a g) w -> sgamma c (store_al a g v false) w.
Proof. intros X. unfold store_al. destruct v as [x [|]|k|]; auto. apply sg_join; auto. Qed.
Lemma store_tg_new a c g v strong :
  tags_rel (r_tags a) c -> sval_ok g v -> tgamma (store_tg a g v strong) (sval_tags v c).
Proof.
  intros Rt OK. unfold store_tg. destruct v as [x isr|k|]; cbn [sval_tags]; try apply tg_nil.
  pose proof (proj1 (proj1 Rt x) (proj1 OK)). destruct strong; [|apply tg_join]; auto.
Qed.
Lemma store_tg_old a g v l : tgamma (r_tags a g) l -> tgamma (store_tg a g v false) l.
Proof. intros X. unfold store_tg. destruct v as [x isr|k|]; auto. apply tg_join; auto. Qed.

Lemma t_store_sound a c c' r p g v :
  rel a c -> is_rgn g = true -> sval_ok g v ->
  cstep (OSt r p g v) c c' -> relv (t_store P p g v a) c'.
Proof.
  intros R Kg OK (Va & ->). destruct (proj1 (rel_iff _ _) R) as (B & Rg & Rs & Rt).
  unfold t_store. rewrite (not_null _ _ _ _ R Va). rnorm. destruct Va as [A0 AI].
  set (a0 := c_st c p) in *. set (z := sval_val v (c_st c)). set (cnt := count a g).
  set (strong := bv_is_false (rinit a g) || singleton_count cnt).
  set (c' := mkCS _ _ _ _ _ _).
  match goal with |- relv (with_base (set_rgn (fst ?x) _ _) _) _ => set (res := x) end.
  (* the region environment is not touched yet; sites and tags change at g only *)
  assert (ER : r_rgn (fst res) = r_rgn a /\
    ((forall k, k <> g -> r_alloc (fst res) k = r_alloc a k) /\
     r_alloc (fst res) g = if p_alloc P then store_al a g v strong else r_alloc a g) /\
    (forall k, k <> g -> r_tags (fst res) k = r_tags a k) /\
    r_tags (fst res) g = if p_tags P then store_tg a g v strong else r_tags a g).
  { clear. subst res. unfold store_al, store_tg.
    destruct strong, v as [x [|]| |]; cbn [fst]; rnorm; destruct (p_alloc P), (p_tags P);
      repeat split; intros; rewrite ?fupd_same, ?fupd_other by auto; reflexivity. }
  destruct ER as (ER & (FA & EA) & FT & ET).
  destruct (Rg g) as (Cg & Ig & Wg & Ug).
  (* a strong update happens only when a0 is the only cell that may have been written *)
  assert (EXCL : strong = true -> forall x w, c_hp c g x = Some w -> x = a0).
  { unfold strong. intros S x w Hx. apply orb_true_iff in S. destruct S as [S|S].
    - unfold rinit in S. destruct (snd (r_rgn a g)); try discriminate. rewrite (Ig x) in Hx. discriminate.
    - apply (cg_singleton_addrs _ _ S Cg); auto. eapply Wg; eauto. }
  (* the cells of g after the store: the new one and, under a weak update, the old ones *)
  assert (CELL : forall x w, c_hp c' g x = Some w ->
            x = a0 /\ w = z \/ x <> a0 /\ c_hp c g x = Some w /\ strong = false).
  { intros x w. unfold c'. cproj. destruct (Z.eq_dec x a0) as [->|N].
    - rewrite hupd_same. left. split; congruence.
    - rewrite hupd_other_addr by auto. intros H. right. repeat split; auto.
      destruct strong; auto. elim N. eapply EXCL; eauto. }
  (* c' differs from c at g only *)
  assert (Fst : forall k, k <> g -> c_st c' k = c_st c k) by (intros; apply upd_other; auto).
  assert (Fhp : forall k x, k <> g -> c_hp c' k x = c_hp c k x) by (intros; apply hupd_other_rgn; auto).
  assert (Fht : forall k x, k <> g -> c_htg c' k x = c_htg c k x) by (intros; apply hupd_other_rgn; auto).
  assert (VW : forall s, view c' s ->
            view c (upd s g (c_st c g)) /\ (s g = z \/ exists x, c_hp c g x = Some (s g) /\ strong = false)).
  { intros s V. split.
    - apply (view_change c' c s _ g V); auto with frame. rewrite upd_same, Kg. auto.
    - destruct (proj2 V g Kg) as [E|(x & E)]; [left; rewrite E; apply upd_same|].
      destruct (CELL _ _ E) as [[_ E']|(_ & E' & W)]; eauto. }
  assert (EV : forall s0, view c s0 -> eval_le (sval_exp v) s0 = z).
  { intros s0 V. eapply sval_val_view; eauto. }
  apply relv_intro; rewrite ?ER.
  - intros s V. destruct (VW s V) as [V0 HS]. pose proof (B _ V0) as G0. unfold res.
    destruct HS as [E|(x & E & W)].
    + eapply genv_ext; [apply upd_reset|]. rewrite E, <- (EV _ V0).
      destruct strong; cbn [snd]; [apply d_assign_sound | apply d_weak_assign_sound]; exact G0.
    + (* the old cell x keeps its value: s is also a view of the old state *)
      rewrite W. cbn [snd]. apply d_weak_assign_sound, B.
      apply (view_change c c _ s g V0); auto; [intros; symmetry; apply upd_other; auto|].
      rewrite Kg. eauto.
  - apply (rgn_upd _ _ c _ g Rg); auto with frame. rewrite fupd_same. repeat split; auto.
    + intros x w H. destruct (CELL _ _ H) as [[-> _]|(_ & H' & _)]; [exact AI | eapply Wg; eauto].
    + intros x. unfold c'. cproj. destruct (Z.eq_dec x a0) as [->|N]; [rewrite hupd_same; discriminate|].
      rewrite !hupd_other_addr by auto. apply Ug.
  - apply (sites_upd _ _ c _ g Rs); auto; [intros F; rewrite EA, F; reflexivity|].
    intros F. rewrite EA, F. apply sites_at_rgn; auto. intros Kr x w Hw.
    destruct (CELL _ _ Hw) as [[_ ->]|(_ & H' & W)]; [apply store_al_new; auto|].
    rewrite W. apply store_al_old, (proj2 (proj1 Rs g) Kr _ _ H').
  - apply (tags_upd _ _ c _ g Rt); auto; [intros F; rewrite ET, F; reflexivity|].
    intros F. rewrite ET, F. apply tags_at_rgn; auto. intros x. unfold c'. cproj.
    destruct (Z.eq_dec x a0) as [->|Nx]; [rewrite hupd_same; apply store_tg_new; auto|].
    rewrite hupd_other_addr by auto. destruct strong eqn:S; [|apply store_tg_old, Rt, Kg].
    (* under a strong update the other cells are unwritten and carry no tags *)
    destruct (c_hp c g x) as [w|] eqn:Hx; [elim Nx; eapply EXCL; eauto|]. rewrite (Ug _ Hx). apply tg_nil.
Qed.

Lemma t_rcopy_sound a c c' r l g :
  rel a c -> is_rgn l = true -> is_rgn g = true -> is_refrgn l = is_refrgn g ->
  cstep (ORcopy r l g) c c' -> relv (t_rcopy P l g a) c'.
Proof.
  intros R Kl Kg Krr ->. destruct (proj1 (rel_iff _ _) R) as (B & Rg & Rs & Rt).
  unfold t_rcopy. rewrite with_base_if. rnorm. apply relv_intro.
  - intros s V. set (s0 := upd s l (c_st c l)).
    assert (V0 : view c s0).
    { apply (view_change _ c s _ l V); unfold s0; cproj; auto with frame. rewrite upd_same, Kl. auto. }
    assert (V1 : view c (upd s0 g (s l))).
    { apply view_rgn; auto. destruct (proj2 V l Kl) as [E|(x & E)]; cbn in E.
      - left. rewrite E. apply upd_same.
      - right. exists x. rewrite fupd_same in E. exact E. }
    apply (genv_ext _ (upd s0 l (s l))); [apply upd_reset|]. destruct (singleton_count _).
    + apply read_strong; apply B; assumption.
    + apply read_copy; apply e_forget_keep, B; assumption.
  - apply (rgn_upd _ _ c _ l Rg); cproj; auto with frame.
    rewrite fupd_same. apply (rgn_at_ext _ c _ g); cproj; rewrite ?fupd_same; auto.
  - apply (sites_set _ c); cproj; auto with frame. intros _. apply sites_at_rgn; auto.
    cproj. rewrite fupd_same, Krr. apply Rs.
  - apply (tags_set _ c); cproj; auto with frame. intros _. apply tags_at_rgn; auto.
    cproj. rewrite fupd_same. apply Rt, Kg.
Qed.

Lemma t_init_sound a a' c c' r g :
  rel a c -> is_rgn g = true -> t_init P g a = Some a' -> cstep (OInit r g) c c' -> rel a' c'.
Proof.
  intros R Kg T ->. destruct (proj1 (rel_iff _ _) R) as (B & Rg & Rs & Rt).
  unfold t_init in T. destruct (sr_leq (count a g) ROneOrMore); [discriminate|].
  inversion T; subst a'. clear T. apply rel_iff. rnorm. split; [|split; [|split]].
  - intros s V. apply B. apply (view_change _ c s s g V); cproj; auto with frame. rewrite Kg.
    destruct (proj2 V g Kg) as [E|(x & E)]; auto. cbn in E. rewrite fupd_same in E. discriminate.
  - apply (rgn_upd _ _ c _ g Rg); cproj; auto with frame. rewrite fupd_same.
    unfold rgn_at, creators, addrs. cbn [fst snd cgamma igamma]. cproj. rewrite !fupd_same.
    repeat split; auto; discriminate.
  - apply (sites_set _ c); cproj; auto with frame. intros _. apply sites_at_rgn; auto.
    intros _ x z. cproj. rewrite fupd_same. discriminate.
  - apply (tags_set _ c); cproj; auto with frame. intros _. apply tags_at_rgn; auto. intros x. cproj. rewrite fupd_same. apply tg_nil.
Qed.

Lemma t_havoc_region_sound a c c' r v :
  rel a c -> is_rgn v = true -> cstep (OHavoc r v KRegion) c c' -> relv (t_havoc P v KRegion a) c'.
Proof.
  intros R Kv (HS & HH & HM & HA & HV & HT & HW & HU).
  destruct (proj1 (rel_iff _ _) R) as (B & Rg & Rs & Rt). unfold t_havoc. rnorm.
  assert (HH' : forall k x, k <> v -> c_hp c' k x = c_hp c k x) by (intros; rewrite HH; auto).
  assert (HT' : forall k x, k <> v -> c_htg c' k x = c_htg c k x) by (intros; rewrite HT; auto).
  apply relv_intro.
  - intros s V. eapply genv_ext; [apply upd_reset|]. apply e_forget_sound, B.
    apply (view_change c' c s _ v V); auto with frame. rewrite upd_same, Kv. auto.
  - apply (rgn_upd _ _ c _ v Rg); auto with frame. rewrite fupd_same. repeat split; cbn; auto. apply HW.
  - apply (sites_set _ c); auto. { intros y. rewrite HA. auto. } intros _. apply sites_at_none.
  - apply (tags_set _ c); auto. { intros. rewrite HV. auto. }
    intros _. apply tags_at_none.
Qed.

Lemma t_tag_sound a c c' r g t :
  rel a c -> is_rgn g = true -> cstep (OTag r g t) c c' -> rel (t_tag P g t a) c'.
Proof.
  intros R Kg (x0 & z0 & Hz & ->). destruct (proj1 (rel_iff _ _) R) as (B & Rg & Rs & Rt).
  unfold t_tag. apply rel_iff. rnorm. split; [exact B | split; [|split; [exact Rs|]]].
  - apply (rgn_upd _ _ c _ g Rg); cproj; auto with frame. destruct (Rg g) as (C & I & W & U).
    repeat split; auto. intros x Hx. cbn in Hx. cproj. rewrite hupd_other_addr by congruence. auto.
  - apply (tags_set _ c); cproj; auto with frame. intros _. apply tags_at_rgn; auto. intros x. cproj.
    pose proof (proj2 (proj1 Rt g) Kg) as X.
    destruct (Z.eq_dec x x0) as [->|Nx]; [|rewrite hupd_other_addr by auto; apply tg_join; auto].
    rewrite hupd_same. specialize (X x0). destruct (r_tags a g) as [T|]; [|exact I].
    cbn in *. intros y [<-|Iy]; apply in_or_app; [right; left; auto | left; auto].
Qed.

Lemma t_free_sound a c g p : rel a c -> rel (t_free P g p a) c.
Proof.
  intros R. destruct (proj1 (rel_iff _ _) R) as (B & Rg & Rs & Rt).
  unfold t_free. apply rel_iff. rnorm. split; [exact B | split; [exact Rg | split; [|exact Rt]]].
  apply (sites_set _ c); auto. intros _. apply sites_at_none.
Qed.

Lemma sat_view k c s : nonrgn_exp (lc_exp k) -> view c s -> sat k s <-> sat k (c_st c).
Proof. intros N V. unfold sat. rewrite (eval_view _ c s N V). tauto. Qed.

Lemma t_assume_sound a c c' r cs :
  rel a c -> (forall k, In k cs -> wf_lc k /\ nonrgn_exp (lc_exp k)) ->
  cstep (OAssume r cs) c c' -> relv (t_assume cs a) c'.
Proof.
  intros R OK [S ->]. unfold t_assume. apply rel_refine_base; auto.
  intros s V. apply d_add_sound; [|apply (rc_base _ _ (r_core _ _ R)); auto].
  intros k I. destruct (OK k I) as [W N]. split; auto. apply (sat_view k c s N V). auto.
Qed.

Definition rcst_ok (rc : rcst) (e : linexp) : Prop :=
  nonrgn_exp e /\ wf_le e /\
  (forall s, sat (mkLC (rrel_kind (rcst_rel rc)) e) s <-> rcst_holds rc s) /\
  match rc with RBin REq p q _ => is_refv p = true /\ is_refv q = true | _ => True end.

(* two references whose addresses carry the same allocation site, one of them not null, cannot
   have disjoint site sets *)
Lemma sg_meet_not_bottom c d e y z :
  c_asite c 0 = None -> sgamma c d y -> sgamma c e z -> c_asite c y = c_asite c z ->
  y <> 0 \/ z <> 0 -> ds_is_bottom d = false -> ds_is_bottom e = false ->
  ds_is_bottom (ds_meet d e) = false.
Proof.
  intros A0 Hy Hz AS N D1 D2. unfold ds_meet. rewrite D1, D2. cbn [orb].
  destruct d as [sd|], e as [se|]; auto. cbn in Hy, Hz.
  assert (C : exists s, In s sd /\ In s se).
  { destruct N as [N|N].
    - destruct Hy as [?|(s & E & I)]; [contradiction|]. exists s. split; auto.
      rewrite AS in E. destruct Hz as [Z0|(s' & E' & I')]; congruence.
    - destruct Hz as [?|(s & E & I)]; [contradiction|]. exists s. split; auto.
      rewrite <- AS in E. destruct Hy as [Z0|(s' & E' & I')]; congruence. }
  destruct C as (s & I1 & I2).
  assert (F : In s (filter (fun z => ds_mem z se) sd)) by (apply filter_In; split; auto; apply ds_mem_spec; auto).
  cbn. destruct (filter _ sd); [elim F | reflexivity].
Qed.

Lemma t_assume_ref_sound a c c' rc e :
  rel a c -> rcst_ok rc e -> c_assume_ref rc c c' -> relv (t_assume_ref P rc e a) c'.
Proof.
  intros R (Ne & We & Sem & Kr) (Hold & Site & ->). unfold t_assume_ref. pose proof (r_core _ _ R) as RC.
  match goal with |- relv (if ?x then _ else _) _ => destruct x eqn:SD end.
  - (* the allocation sites cannot be disjoint *)
    exfalso. destruct rc as [rl p|rl p q k]; [discriminate|]. destruct rl; try discriminate.
    destruct Kr as [Kp Kq]. cbv zeta in SD. cbn in Hold.
    destruct (andb_prop _ _ SD) as [_ S1]. destruct (andb_prop _ _ S1) as [S2 D4].
    destruct (andb_prop _ _ S2) as [S3 D3]. destruct (andb_prop _ _ S3) as [D1 D2].
    apply negb_true_iff in D1, D2.
    assert (NP : c_st c p <> 0 \/ c_st c q <> 0).
    { apply orb_true_iff in D3. destruct D3 as [D|D]; [left|right]; apply (is_null_false a); auto.
      - destruct (is_null (r_base a) p); try discriminate; auto.
      - destruct (is_null (r_base a) q); try discriminate; auto. }
    assert (AS : c_asite c (c_st c p) = c_asite c (c_st c q)).
    { destruct (Z.eq_dec k 0) as [->|Nk]; auto. rewrite Hold, Z.add_0_r. reflexivity. }
    rewrite (sg_meet_not_bottom c _ _ _ _ (r_anull _ _ R) (r_svar _ _ R p Kp) (r_svar _ _ R q Kq)) in D4; auto.
    discriminate.
  - apply rel_refine_base; auto. intros s V. apply d_add_sound; [|apply (rc_base _ _ RC); auto].
    intros k0 [<-|[]]. split; [exact We|].
    apply (sat_view (mkLC (rrel_kind (rcst_rel rc)) e) c s Ne V). apply Sem. exact Hold.
Qed.

Lemma wf_le_var v : wf_le (le_var v).
Proof.
  split; cbn.
  - constructor; [intros []|constructor].
  - intros co w [E|[]]. inversion E. lia.
Qed.

Definition arm_ok (p : var) (arm : option (var * var)) : Prop :=
  match arm with
  | None => True
  | Some (q, gq) => is_rgn q = false /\ (is_refv p = true -> is_refv q = true)
  end.

Lemma sel_arm_sound a c c' p g arm :
  rel a c -> is_rgn p = false -> arm_ok p arm -> c_sel_arm p g arm c c' ->
  relv (sel_arm P p g arm (le_var p) a) c'.
Proof.
  intros R Kp OK CS. destruct arm as [[q gq]|]; cbn [sel_arm c_sel_arm] in *.
  - destruct OK as [Kq Kr]. apply (t_gep_sound a c c' p g q gq (le_const 0) (le_var q)); auto.
    + intros co w [].
    + intros co w [E|[]]. inversion E; subst. auto.
    + intros s. rewrite eval_le_var, eval_le_const. lia.
  - destruct CS as (c1 & H1 & H2).
    pose proof (t_havoc_scalar_sound a c c1 p KRef R Kp) as X.
    destruct (t_havoc P p KRef a) as [s1|]; [|apply X; auto; congruence].
    assert (R1 : rel s1 c1) by (apply X; auto; congruence).
    apply (t_assume_ref_sound s1 c1 c' (RUn REq p) (le_var p)); auto.
    unfold rcst_ok. split; [|split; [|split]]; auto.
    + intros co w [E|[]]. inversion E; subst. auto.
    + apply wf_le_var.
    + intros s. unfold sat. cbn [lc_kind lc_exp rrel_kind rcst_rel]. rewrite eval_le_var. cbn. tauto.
Qed.

Lemma ds_join_none_l b : ds_join None b = None. Proof. reflexivity. Qed.
Lemma ds_join_none_r a : ds_join a None = None. Proof. destruct a; reflexivity. Qed.

Lemma rgn_at_join i j c g : rgn_at i c g \/ rgn_at j c g -> rgn_at (ri_join i j) c g.
Proof.
  intros [(C & I & W)|(C & I & W)]; (split; [apply cg_join | split; [apply ig_join|]]); auto.
Qed.
Lemma rgn_at_meet i j c g : rgn_at i c g -> rgn_at j c g -> rgn_at (ri_meet i j) c g.
Proof.
  intros (C1 & I1 & W) (C2 & I2 & _). split; [apply cg_meet | split; [apply ig_meet|]]; auto.
Qed.
Lemma sites_at_join d e c k : sites_at d c k \/ sites_at e c k -> sites_at (ds_join d e) c k.
Proof.
  intros H. split; [intros K | intros K x z Hz]; apply sg_join.
  - destruct H as [[H _]|[H _]]; auto.
  - destruct H as [[_ H]|[_ H]]; eauto.
Qed.
Lemma sites_at_meet d e c k : sites_at d c k -> sites_at e c k -> sites_at (ds_meet d e) c k.
Proof. intros [H1 H2] [H3 H4]. split; [intros K | intros K x z Hz]; apply sg_meet; eauto. Qed.
Lemma tags_at_join d e c k : tags_at d c k \/ tags_at e c k -> tags_at (ds_join d e) c k.
Proof.
  intros H. split; [intros K | intros K x]; apply tg_join.
  - destruct H as [[H _]|[H _]]; auto.
  - destruct H as [[_ H]|[_ H]]; auto.
Qed.
Lemma tags_at_meet d e c k : tags_at d c k -> tags_at e c k -> tags_at (ds_meet d e) c k.
Proof. intros [H1 H2] [H3 H4]. split; [intros K | intros K x]; apply tg_meet; auto. Qed.

Lemma comb_union fb a b c :
  (forall x y s, genv x s \/ genv y s -> genv (fb x y) s) ->
  rel a c \/ rel b c -> relv (comb_val fb ri_join ds_join a b) c.
Proof.
  intros FB H. unfold comb_val.
  assert (H' : (forall s, view c s -> gmap (r_base a) s \/ gmap (r_base b) s) /\
               (forall k, rgn_at (r_rgn a k) c k \/ rgn_at (r_rgn b k) c k) /\
               (sites_rel (r_alloc a) c \/ sites_rel (r_alloc b) c) /\
               (tags_rel (r_tags a) c \/ tags_rel (r_tags b) c)).
  { destruct H as [R|R]; destruct (proj1 (rel_iff _ _) R) as (B & Rg & Rs & Rt); auto 6. }
  destruct H' as (B & Rg & Rs & Rt). apply relv_intro.
  - intros s V. apply FB, B, V.
  - intros k. apply rgn_at_join, Rg.
  - split; [|split].
    + intros k. apply sites_at_join. destruct Rs as [Rs|Rs]; [left|right]; apply Rs.
    + intros F k. destruct Rs as [Rs|Rs]; rewrite (proj1 (proj2 Rs) F); auto using ds_join_none_r.
    + destruct Rs as [Rs|Rs]; apply Rs.
  - split.
    + intros k. apply tags_at_join. destruct Rt as [Rt|Rt]; [left|right]; apply Rt.
    + intros F k. destruct Rt as [Rt|Rt]; rewrite (proj2 Rt F); auto using ds_join_none_r.
Qed.

Lemma v_join_sound x y c : relv x c \/ relv y c -> relv (v_join x y) c.
Proof.
  destruct x as [a|], y as [b|]; cbn [v_join relv]; try tauto.
  apply comb_union. intros; apply e_join_sound; auto.
Qed.
Lemma v_widen_sound x y c : relv x c \/ relv y c -> relv (v_widen x y) c.
Proof.
  destruct x as [a|], y as [b|]; cbn [v_widen relv]; try tauto.
  apply comb_union. intros; apply e_widen_sound; auto.
Qed.

Lemma v_meet_gen_sound fb univ x y c :
  (forall e1 e2 s, genv e1 s -> genv e2 s -> genv (fb e1 e2) s) ->
  relv x c -> relv y c -> relv (v_meet_gen fb univ x y) c.
Proof.
  intros FB. destruct x as [a|], y as [b|]; cbn [v_meet_gen relv]; try tauto.
  intros Ra Rb. destruct (proj1 (rel_iff _ _) Ra) as (Ba & Ga & Sa & Ta).
  destruct (proj1 (rel_iff _ _) Rb) as (Bb & Gb & Sb & Tb).
  assert (GM : forall g, rgn_at (ri_meet (r_rgn a g) (r_rgn b g)) c g) by (intros g; apply rgn_at_meet; auto).
  destruct (existsb _ univ) eqn:EX.
  { (* the meet of two descriptions of the same region is not bottom *)
    apply existsb_exists in EX. destruct EX as (g & _ & E). destruct (GM g) as (C & I & _).
    unfold ri_is_bot in E. apply orb_true_iff in E.
    destruct E as [E|E]; [destruct (fst _) | destruct (snd _)]; try discriminate; auto. }
  unfold comb_val. apply relv_intro; auto.
  - intros s V. apply FB; [apply Ba | apply Bb]; exact V.
  - split; [|split].
    + intros k. apply sites_at_meet; [apply Sa | apply Sb].
    + intros F k. rewrite (proj1 (proj2 Sa) F), (proj1 (proj2 Sb) F). reflexivity.
    + apply Sa.
  - split.
    + intros k. apply tags_at_meet; [apply Ta | apply Tb].
    + intros F k. rewrite (proj2 Ta F), (proj2 Tb F). reflexivity.
Qed.

(* the top value describes every well-formed concrete state *)
Definition cinit (c : cstate) : Prop :=
  cwf c /\ c_asite c 0 = None /\ (forall g x, c_hp c g x = None -> c_htg c g x = []).
Lemma rel_top c : cinit c -> rel r_top c.
Proof.
  intros (W & A & U). constructor; cbn; auto.
  - constructor; cbn; auto. intros s _ k. apply gamma_top.
Qed.

Variable dupf : var -> var.
Variable univ : list var.
Definition CF : rconf := mkC P dupf univ.

Definition cset := cstate -> Prop.
Definition cget (cs : list cset) (r : reg) : cset := nth r cs (fun _ => False).
Fixpoint csetr (cs : list cset) (r : reg) (v : cset) : list cset :=
  match cs, r with
  | [], _ => []
  | _ :: t, O => v :: t
  | h :: t, S r' => h :: csetr t r' v
  end.

Definition reg_of (o : rop) : reg :=
  match o with
  | OTop r | OBot r | OCopy r _ | OInit r _ | OMk r _ _ _ | OFree r _ _ | OLd r _ _ _ _ | OSt r _ _ _
  | OGep r _ _ _ _ _ _ | ORcopy r _ _ | OAssumeRef r _ _ | OSelRef r _ _ _ _ _ | OTag r _ _
  | OAssign r _ _ | OArith r _ _ _ _ | OAssume r _ | OHavoc r _ _
  | OJoin r _ _ | OMeet r _ _ | OWiden r _ _ | ONarrow r _ _ => r
  end.

(* the concrete operation on sets of states corresponding to each abstract one *)
Definition cstepS (cs : list cset) (o : rop) : list cset :=
  match o with
  | OTop r => csetr cs r cinit
  | OBot r => csetr cs r (fun _ => False)
  | OCopy r s => csetr cs r (cget cs s)
  | OJoin r s t | OWiden r s t => csetr cs r (fun c => cget cs s c \/ cget cs t c)
  | OMeet r s t | ONarrow r s t => csetr cs r (fun c => cget cs s c /\ cget cs t c)
  | _ => csetr cs (reg_of o) (fun c' => exists c, cget cs (reg_of o) c /\ cstep o c c')
  end.

(* side conditions: well-typed CrabIR (kinds of the operands) and the canonical form of the
   expressions handed over by the front end *)
Definition op_ok (o : rop) : Prop :=
  match o with
  | OInit _ g => is_rgn g = true
  | OMk _ p g _ => is_rgn p = false
  | OLd _ x p g isr =>
    is_rgn x = false /\ is_rgn p = false /\ is_rgn g = true /\ is_rgn (dupf g) = false /\ dupf g <> x /\
    (isr = true -> is_refrgn g = true) /\ (is_refv x = true -> isr = true)
  | OSt _ p g v => is_rgn p = false /\ is_rgn g = true /\ sval_ok g v
  | OGep _ p2 g2 p1 g1 off addr =>
    is_rgn p2 = false /\ is_rgn p1 = false /\ nonrgn_exp off /\ nonrgn_exp addr /\
    ~ In p2 (map snd (le_terms off)) /\ (forall s, eval_le addr s = s p1 + eval_le off s) /\
    (is_refv p2 = true -> is_refv p1 = true)
  | ORcopy _ l g => is_rgn l = true /\ is_rgn g = true /\ l <> g /\ is_refrgn l = is_refrgn g
  | OAssumeRef _ rc e => rcst_ok rc e
  | OSelRef _ p g a1 a2 ne => is_rgn p = false /\ ne = le_var p /\ arm_ok p a1 /\ arm_ok p a2
  | OTag _ g _ => is_rgn g = true
  | OAssign _ x e => is_rgn x = false /\ is_refv x = false /\ nonrgn_exp e
  | OArith _ _ x y z =>
    is_rgn x = false /\ is_refv x = false /\ is_rgn y = false /\ (forall v, z = OVar v -> is_rgn v = false)
  | OAssume _ cs => forall k, In k cs -> wf_lc k /\ nonrgn_exp (lc_exp k)
  | OHavoc _ v k =>
    match k with
    | KRegion => is_rgn v = true
    | KRef => is_rgn v = false
    | KScalar => is_rgn v = false /\ is_refv v = false
    end
  | _ => True
  end.

Definition rels (rs : list rval) (cs : list cset) : Prop :=
  length rs = length cs /\ forall r c, cget cs r c -> relv (vget rs r) c.

Lemma vget_vset rs r v r' : (r < length rs)%nat ->
  vget (vset rs r v) r' = if Nat.eqb r' r then v else vget rs r'.
Proof.
  revert r r'. induction rs as [|h t IH]; simpl; intros r r' L; [lia|].
  destruct r, r'; simpl; auto. apply IH. lia.
Qed.
Lemma vset_oob rs r v : (length rs <= r)%nat -> vset rs r v = rs.
Proof. revert r. induction rs as [|h t IH]; simpl; intros r L; auto. destruct r; [lia|]. f_equal. apply IH. lia. Qed.
Lemma cget_csetr cs r v r' : (r < length cs)%nat ->
  cget (csetr cs r v) r' = if Nat.eqb r' r then v else cget cs r'.
Proof.
  revert r r'. induction cs as [|h t IH]; simpl; intros r r' L; [lia|].
  destruct r, r'; simpl; auto. apply IH. lia.
Qed.
Lemma csetr_oob cs r v : (length cs <= r)%nat -> csetr cs r v = cs.
Proof. revert r. induction cs as [|h t IH]; simpl; intros r L; auto. destruct r; [lia|]. f_equal. apply IH. lia. Qed.
Lemma vset_length rs r v : length (vset rs r v) = length rs.
Proof. revert r. induction rs as [|h t IH]; simpl; intros r; auto. destruct r; simpl; auto. Qed.
Lemma csetr_length cs r v : length (csetr cs r v) = length cs.
Proof. revert r. induction cs as [|h t IH]; simpl; intros r; auto. destruct r; simpl; auto. Qed.

Lemma rels_set rs cs r (a : rval) (cv : cset) :
  rels rs cs -> (forall c, cv c -> relv a c) -> rels (vset rs r a) (csetr cs r cv).
Proof.
  intros [L R] H. split. { rewrite vset_length, csetr_length; auto. }
  intros r' c. destruct (Nat.lt_ge_cases r (length rs)) as [I|O].
  - rewrite vget_vset by auto. rewrite cget_csetr by lia. destruct (Nat.eqb r' r); auto.
  - rewrite vset_oob by auto. rewrite csetr_oob by lia. auto.
Qed.

Lemma rels_unary rs cs r f (S : cstate -> cstate -> Prop) :
  rels rs cs -> (forall a c c', rel a c -> S c c' -> relv (f a) c') ->
  rels (vset rs r (lift f (vget rs r))) (csetr cs r (fun c' => exists c, cget cs r c /\ S c c')).
Proof.
  intros R H. apply rels_set; auto. intros c' (c & G & HS).
  destruct R as [_ R]. specialize (R _ _ G). destruct (vget rs r) as [a|]; [|elim R].
  cbn [lift]. eapply H; eauto.
Qed.

Theorem rstep_sound rs cs o rs' :
  rels rs cs -> op_ok o -> rstep CF rs o = Some rs' -> rels rs' (cstepS cs o).
Proof.
  intros R OK ST. pose proof R as [L RR].
  destruct o; cbn [rstep cstepS c_params c_dup c_univ CF reg_of] in *; try injection ST as <-.
  - (* top *) apply rels_set; auto. intros c. apply rel_top.
  - (* bot *) apply rels_set; auto.
  - (* copy *) apply rels_set; auto.
  - (* init *)
    destruct (vget rs r) as [a|] eqn:V.
    + destruct (t_init P g a) as [a'|] eqn:T; [|discriminate]. inversion ST; subst rs'.
      apply rels_set; auto. intros c' (c & G & S). specialize (RR _ _ G). rewrite V in RR.
      eapply t_init_sound; eauto.
    + inversion ST; subst rs'. split; [rewrite csetr_length; auto|].
      intros r' c. destruct (Nat.lt_ge_cases r (length cs)) as [I|O].
      * rewrite cget_csetr by auto. destruct (Nat.eqb_spec r' r) as [->|N]; auto.
        intros H. destruct H as (c0 & G & _). specialize (RR _ _ G). rewrite V in RR. elim RR.
      * rewrite csetr_oob by auto. auto.
  - (* mk *) apply rels_unary; auto. intros. eapply t_mk_sound; eauto.
  - (* free *) apply rels_unary; auto. intros a c c' Ra S. cbn in S. subst. apply t_free_sound; auto.
  - (* load *) destruct OK as (K1 & K2 & K3 & K4 & K5 & K6 & K7).
    apply rels_unary; auto. intros. eapply t_load_sound; eauto.
  - (* store *) destruct OK as (K1 & K2 & K3).
    apply rels_unary; auto. intros. eapply t_store_sound; eauto.
  - (* gep *) destruct OK as (K1 & K2 & K3 & K4 & K5 & K6 & K7).
    apply rels_unary; auto. intros a c c' Ra S. cbn in S.
    eapply t_gep_sound; eauto.
  - (* region_copy *) destruct OK as (K1 & K2 & K3 & K4).
    apply rels_unary; auto. intros. eapply t_rcopy_sound; eauto.
  - (* ref_assume *)
    apply rels_unary; auto. intros a c0 c' Ra S. cbn in S.
    eapply t_assume_ref_sound; eauto.
  - (* select_ref *) destruct OK as (K1 & -> & K3 & K4).
    apply rels_unary; auto. intros a c c' Ra S. cbn in S.
    unfold t_selref. apply v_join_sound. destruct S as [S|S]; [left|right]; eapply sel_arm_sound; eauto.
  - (* add_tag *) apply rels_unary; auto. intros. cbn [relv]. eapply t_tag_sound; eauto.
  - (* assign *) destruct OK as (K1 & K2 & K3).
    apply rels_unary; auto. intros. eapply t_assign_sound; eauto.
  - (* arith *) destruct OK as (K1 & K2 & K3 & K4).
    apply rels_unary; auto. intros. eapply t_arith_sound; eauto.
  - (* assume *) apply rels_unary; auto. intros. eapply t_assume_sound; eauto.
  - (* havoc *) apply rels_unary; auto. intros a c c' Ra S.
    destruct k; cbn in S.
    + destruct OK as [K1 K2]. apply (t_havoc_scalar_sound a c c' v KScalar); auto; congruence.
    + apply (t_havoc_scalar_sound a c c' v KRef); auto; congruence.
    + apply (t_havoc_region_sound a c c' r v); auto.
  - (* join *) apply rels_set; auto. intros c [G|G]; apply v_join_sound; [left|right]; apply RR; auto.
  - (* meet *) apply rels_set; auto. intros c [G1 G2]. unfold v_meet. apply v_meet_gen_sound.
    + intros; apply e_meet_sound; auto.
    + apply RR; auto.
    + apply RR; auto.
  - (* widen *) apply rels_set; auto. intros c [G|G]; apply v_widen_sound; [left|right]; apply RR; auto.
  - (* narrow *) apply rels_set; auto. intros c [G1 G2]. unfold v_narrow. apply v_meet_gen_sound.
    + intros; apply e_narrow_sound; auto.
    + apply RR; auto.
    + apply RR; auto.
Qed.

Theorem region_history_sound h : Forall op_ok h -> forall rs cs rs',
  rels rs cs -> rrun CF rs h = Some rs' -> rels rs' (fold_left cstepS h cs).
Proof.
  induction h as [|o t IH]; simpl; intros OK rs cs rs' R RUN.
  - inversion RUN; subst; auto.
  - inversion OK; subst. destruct (rstep CF rs o) as [rs1|] eqn:ST; [|discriminate].
    eapply IH; eauto. eapply rstep_sound; eauto.
Qed.

Lemma rels_top n : rels (repeat (Some r_top) n) (repeat cinit n).
Proof.
  split. { rewrite !repeat_length; auto. }
  intros r c G. unfold vget, cget in *.
  destruct (Nat.lt_ge_cases r n) as [I|O].
  - rewrite nth_indep with (d' := Some r_top) by (rewrite repeat_length; auto).
    rewrite nth_repeat. apply rel_top. rewrite nth_indep with (d' := cinit) in G by (rewrite repeat_length; auto).
    rewrite nth_repeat in G. exact G.
  - rewrite nth_overflow in G by (rewrite repeat_length; auto). elim G.
Qed.

Theorem q_at_sound rs cs r c x : rels rs cs -> cget cs r c -> gamma (q_at (vget rs r) x) (c_st c x).
Proof.
  intros [_ R] G. specialize (R _ _ G). destruct (vget rs r) as [a|]; [|elim R].
  cbn [q_at]. apply rel_at. apply (r_core _ _ R).
Qed.

Theorem q_null_sound rs cs r c p : rels rs cs -> cget cs r c ->
  (q_null (vget rs r) p = BTrue -> c_st c p = 0) /\ (q_null (vget rs r) p = BFalse -> c_st c p <> 0) /\
  q_null (vget rs r) p <> BBot.
Proof.
  intros [_ R] G. specialize (R _ _ G). destruct (vget rs r) as [a|]; [|elim R].
  cbn [q_null]. pose proof (r_core _ _ R) as RC. repeat split.
  - eapply is_null_true; eauto.
  - eapply is_null_false; eauto.
  - unfold is_null. destruct (negb _); [discriminate|].
    destruct (lb (get (r_base a) p)) as [|[| |]|]; try discriminate;
      destruct (ub (get (r_base a) p)) as [|[| |]|]; discriminate.
Qed.

Theorem q_sites_sound rs cs r c p ss : rels rs cs -> cget cs r c -> is_refv p = true ->
  q_sites (vget rs r) p = Some ss ->
  c_st c p = 0 \/ exists site, c_asite c (c_st c p) = Some site /\ In site ss.
Proof.
  intros [_ R] G K Q. specialize (R _ _ G). destruct (vget rs r) as [a|]; [|elim R].
  cbn [q_sites] in Q. pose proof (r_svar _ _ R p K) as X. rewrite Q in X. exact X.
Qed.

Theorem q_tags_sound rs cs r c g T : rels rs cs -> cget cs r c -> is_rgn g = true ->
  q_tags (vget rs r) g = Some T -> forall x t, In t (c_htg c g x) -> In t T.
Proof.
  intros [_ R] G K Q x t I. specialize (R _ _ G). destruct (vget rs r) as [a|]; [|elim R].
  cbn [q_tags] in Q. pose proof (r_trgn _ _ R g K x) as X. rewrite Q in X. apply X. exact I.
Qed.

Theorem q_count_sound rs cs r c g : rels rs cs -> cget cs r c ->
  cgamma (fst (q_count (vget rs r) g)) (creators c g) /\
  (singleton_count (fst (q_count (vget rs r) g)) = true ->
   forall a1 a2, In a1 (addrs c g) -> In a2 (addrs c g) -> a1 = a2).
Proof.
  intros [_ R] G. specialize (R _ _ G). destruct (vget rs r) as [a|]; [|elim R].
  cbn [q_count]. pose proof (rc_count _ _ (r_core _ _ R) g) as CG. split; auto.
  intros S. apply (cg_singleton_addrs _ (c_made c g) S CG).
Qed.

(* loads: the variable loaded through a reference describes the value of the cell *)
Theorem load_sound rs cs rs' r x p g isr c z :
  rels rs cs -> op_ok (OLd r x p g isr) -> rstep CF rs (OLd r x p g isr) = Some rs' ->
  cget cs r c -> (r < length cs)%nat -> valid c g (c_st c p) -> c_hp c g (c_st c p) = Some z ->
  gamma (q_at (vget rs' r) x) z.
Proof.
  intros R OK ST G L V H.
  pose proof (rstep_sound _ _ _ _ R OK ST) as R'.
  set (c' := mkCS (upd (c_st c) x z) (c_hp c) (c_made c) (c_asite c)
                  (fupd (c_vtg c) x (c_htg c g (c_st c p))) (c_htg c)).
  assert (G' : cget (cstepS cs (OLd r x p g isr)) r c').
  { cbn [cstepS reg_of]. rewrite cget_csetr by auto. rewrite Nat.eqb_refl.
    exists c. split; auto. cbn. split; auto. exists z. split; auto. }
  pose proof (q_at_sound _ _ r c' x R' G') as X. cbn in X. rewrite upd_same in X. exact X.
Qed.

(* An implementation of a region analysis over some statement language [Op]: abstract values,
   a (partial: it may abort) transfer function on registers, and the four kinds of answers. *)
Record rmachine (Op : Type) := mkM {
  m_val : Type;
  m_top : m_val;
  m_step : list m_val -> Op -> option (list m_val);
  m_at : m_val -> var -> itv;
  m_null : m_val -> var -> bv;
  m_sites : m_val -> var -> dset;
  m_tags : m_val -> var -> dset
}.
Fixpoint m_run {Op} (M : rmachine Op) (vs : list (m_val Op M)) (h : list Op) : option (list (m_val Op M)) :=
  match h with
  | [] => Some vs
  | o :: t => match m_step Op M vs o with None => None | Some vs' => m_run M vs' t end
  end.

(* Property C15 for an implementation M, a concrete semantics of its statements on sets of
   states and an admissibility predicate on statements (well-typed CrabIR): after every
   admissible history from top, for every concrete state reached by the same operations,
   every variable (in particular every variable loaded through a reference from a cell
   written before, and every address) is inside its abstract value, definite null / non-null
   answers are right, reported allocation sites and tags contain the actual ones. *)
Definition C15_statement (Op : Type) (M : rmachine Op) (csem : list cset -> Op -> list cset)
           (ok : Op -> Prop) : Prop :=
  forall h n vs, Forall ok h -> m_run M (repeat (m_top Op M) n) h = Some vs ->
  forall r c, cget (fold_left csem h (repeat cinit n)) r c ->
  forall v, nth_error vs r = Some v ->
    (forall x, gamma (m_at Op M v x) (c_st c x)) /\
    (forall p, (m_null Op M v p = BTrue -> c_st c p = 0) /\ (m_null Op M v p = BFalse -> c_st c p <> 0)) /\
    (forall p ss, is_refv p = true -> m_sites Op M v p = Some ss ->
       c_st c p = 0 \/ exists site, c_asite c (c_st c p) = Some site /\ In site ss) /\
    (forall g T, is_rgn g = true -> m_tags Op M v g = Some T -> forall x t, In t (c_htg c g x) -> In t T).

(* the model: RegionCore over the interval domain, the modelled statements *)
Definition core_machine : rmachine rop :=
  mkM rop rval (Some r_top) (rstep CF) q_at q_null q_sites q_tags.

Lemma m_run_core vs h : m_run core_machine vs h = rrun CF vs h.
Proof. revert vs. induction h as [|o t IH]; simpl; intros vs; auto. destruct (rstep CF vs o); auto. Qed.

Lemma vget_nth_error vs r v : nth_error vs r = Some v -> vget vs r = v.
Proof. intros H. unfold vget. apply nth_error_nth. exact H. Qed.

Theorem core_machine_sound : C15_statement rop core_machine cstepS op_ok.
Proof.
  intros h n vs OK RUN r c G v NV. rewrite m_run_core in RUN.
  pose proof (region_history_sound h OK _ _ _ (rels_top n) RUN) as R.
  apply vget_nth_error in NV. cbn [m_at m_null m_sites m_tags core_machine]. rewrite <- NV.
  split; [|split; [|split]].
  - intros x. eapply q_at_sound; eauto.
  - intros p. destruct (q_null_sound _ _ r c p R G) as (A & B & _). split; auto.
  - intros p ss K Q. eapply q_sites_sound; eauto.
  - intros g T K Q. eapply q_tags_sound; eauto.
Qed.
End WithKinds.

(* non-vacuity: a concrete run of  region_init; p := make_ref; store 5; x := load
   (variables: x = 1, p = 2, dup = 9, region = 10) *)
Definition ex_is_rgn (v : var) : bool := N.eqb v 10.
Definition ex_is_refv (v : var) : bool := N.eqb v 2.
Definition ex_P : rparams := mkP true true.
Definition ex_hist : list rop :=
  [OInit 0%nat 10%N; OMk 0%nat 2%N 10%N 7; OSt 0%nat 2%N 10%N (SCst 5); OLd 0%nat 1%N 2%N 10%N false].

Example ex_ok : Forall (op_ok ex_is_rgn (fun _ => false) ex_is_refv (fun _ => 9%N)) ex_hist.
Proof.
  repeat constructor; cbn; auto; try discriminate.
Qed.

Example ex_abstract :
  exists s, rrun (CF ex_P (fun _ => 9%N) [10%N]) [Some r_top] ex_hist = Some [Some s] /\
            get (r_base s) 1%N = iconst 5 /\ count s 10%N = ROne 2 /\ r_alloc s 2%N = Some [7].
Proof. eexists. vm_compute. repeat split. Qed.

Definition ex_c0 : cstate := mkCS (fun _ => 0) (fun _ _ => None) (fun _ => []) (fun _ => None) (fun _ => []) (fun _ _ => []).
Example ex_concrete :
  exists c, cget (fold_left cstepS ex_hist [cinit]) 0%nat c /\ c_st c 1%N = 5 /\ c_st c 2%N = 1000.
Proof.
  cbn [ex_hist fold_left cstepS csetr cget nth reg_of].
  eexists. split.
  - eexists. split.
    + eexists. split.
      * eexists. split.
        -- exists ex_c0. split.
           ++ repeat split; cbn; auto. intros g a z H. discriminate.
           ++ cbn. reflexivity.
        -- cbn. exists 1000. repeat split; try discriminate; reflexivity.
      * cbn. split; [split; [discriminate | left; reflexivity] | reflexivity].
    + cbn. split; [split; [discriminate | left; reflexivity]|].
      exists 5. split; reflexivity.
  - cbn. split; reflexivity.
Qed.

(* why fixes/regions-1 is needed: with small_range::increment itself a second reference
   created through the same variable leaves the count at "exactly one" *)
Lemma unrepaired_increment_refuted :
  exists c L v, cgamma c L /\ ~ cgamma (sr_incr c (Z.of_N v)) (L ++ [Z.of_N v]).
Proof. exists (ROne 7), [7], 7%N. split; [reflexivity|]. cbn. discriminate. Qed.
