(* Cow.v — model of the copy-on-write wrapper abstract_domain_ref (generic_abstract_domain.hpp):
   handles share cells through reference-counted pointers; every mutating method first
   detaches (clones the cell unless the handle is its only owner), every non-mutating
   method returns a fresh cell.  Property C16 for it: for every sequence of handle
   operations the value observed at each handle is the one the value-semantics
   specification gives — copies never alias. *)
From Coq Require Import List Arith Bool Lia.
Import ListNotations.

Section Cow.
  Variable A : Type.

  (* handle operations: copy construction / assignment, a mutating method (f), a
     non-mutating binary method that builds a new value (g) *)
  Inductive cop :=
  | CCopy (d s : nat)
  | CMut (d : nat) (f : A -> A)
  | CBin (d s t : nat) (g : A -> A -> A).

  Record heap := mkH { h_ptr : list nat;        (* handle -> cell *)
                       h_cell : nat -> A;       (* cell -> value *)
                       h_next : nat }.          (* next unused cell *)

  Definition ptr (st : heap) (h : nat) : nat := nth h (h_ptr st) 0.
  Fixpoint set_nth (l : list nat) (i v : nat) : list nat :=
    match l, i with
    | [], _ => []
    | _ :: t, O => v :: t
    | x :: t, S j => x :: set_nth t j v
    end.
  Definition owners (st : heap) (c : nat) : nat := count_occ Nat.eq_dec (h_ptr st) c.
  Definition cupd (m : nat -> A) (c : nat) (v : A) : nat -> A := fun x => if Nat.eqb x c then v else m x.

  (* shared_ptr::unique() then clone: detach() *)
  Definition detach (st : heap) (d : nat) : heap :=
    if Nat.eqb (owners st (ptr st d)) 1 then st
    else mkH (set_nth (h_ptr st) d (h_next st))
             (cupd (h_cell st) (h_next st) (h_cell st (ptr st d))) (S (h_next st)).

  Definition cstep (st : heap) (o : cop) : heap :=
    match o with
    | CCopy d s => mkH (set_nth (h_ptr st) d (ptr st s)) (h_cell st) (h_next st)
    | CMut d f =>
      let st' := detach st d in
      mkH (h_ptr st') (cupd (h_cell st') (ptr st' d) (f (h_cell st' (ptr st' d)))) (h_next st')
    | CBin d s t g =>
      mkH (set_nth (h_ptr st) d (h_next st))
          (cupd (h_cell st) (h_next st) (g (h_cell st (ptr st s)) (h_cell st (ptr st t))))
          (S (h_next st))
    end.

  (* value-semantics specification *)
  Fixpoint vset (l : list A) (i : nat) (v : A) : list A :=
    match l, i with
    | [], _ => []
    | _ :: t, O => v :: t
    | x :: t, S j => x :: vset t j v
    end.
  Variable dflt : A.
  Definition vget (l : list A) (i : nat) : A := nth i l dflt.
  Definition sstep (vs : list A) (o : cop) : list A :=
    match o with
    | CCopy d s => vset vs d (vget vs s)
    | CMut d f => vset vs d (f (vget vs d))
    | CBin d s t g => vset vs d (g (vget vs s) (vget vs t))
    end.

  Definition observe (st : heap) : list A := map (h_cell st) (h_ptr st).

  Definition wf (st : heap) : Prop := forall c, In c (h_ptr st) -> c < h_next st.
  Definition in_range (st : heap) (o : cop) : Prop :=
    match o with
    | CCopy d s => d < length (h_ptr st) /\ s < length (h_ptr st)
    | CMut d _ => d < length (h_ptr st)
    | CBin d s t _ => d < length (h_ptr st) /\ s < length (h_ptr st) /\ t < length (h_ptr st)
    end.

  Lemma set_nth_length l i v : length (set_nth l i v) = length l.
  Proof. revert i. induction l as [|x t IH]; intros [|j]; simpl; auto. Qed.

  Lemma map_set_nth (m : nat -> A) l i v : map m (set_nth l i v) = vset (map m l) i (m v).
  Proof. revert i. induction l as [|x t IH]; intros [|j]; simpl; auto. f_equal. apply IH. Qed.

  Lemma in_set_nth l i v c : In c (set_nth l i v) -> c = v \/ In c l.
  Proof.
    revert i. induction l as [|x t IH]; intros [|j]; simpl; auto.
    - intros [H|H]; auto.
    - intros [H|H]; auto. destruct (IH _ H); auto.
  Qed.

  Lemma nth_set_nth_same l d v : d < length l -> nth d (set_nth l d v) 0 = v.
  Proof. revert d. induction l as [|x t IH]; intros [|d] L; simpl in *; try lia; auto. apply IH; lia. Qed.

  Lemma nth_set_nth_other l i d v : i <> d -> nth i (set_nth l d v) 0 = nth i l 0.
  Proof. revert i d. induction l as [|x t IH]; intros [|i] [|d] N; simpl; auto; try lia. Qed.

  Lemma vset_map_nth (m : nat -> A) l d : d < length l -> vset (map m l) d (m (nth d l 0)) = map m l.
  Proof.
    revert d. induction l as [|x t IH]; intros [|d] L; simpl in *; try lia; auto.
    f_equal. apply IH. lia.
  Qed.

  Lemma map_cupd_fresh (m : nat -> A) l c v : (forall x, In x l -> x <> c) -> map (cupd m c v) l = map m l.
  Proof.
    intros H. apply map_ext_in. intros x I. unfold cupd. destruct (Nat.eqb_spec x c); auto.
    exfalso. eapply H; eauto.
  Qed.

  Lemma vget_map (m : nat -> A) l i : i < length l -> vget (map m l) i = m (nth i l 0).
  Proof. intros L. unfold vget. rewrite (nth_indep _ dflt (m 0)) by (rewrite map_length; auto). apply map_nth. Qed.

  (* a cell with exactly one owner is owned by handle d only *)
  Lemma unique_owner l d c : d < length l -> nth d l 0 = c -> count_occ Nat.eq_dec l c = 1 ->
    forall i, i < length l -> i <> d -> nth i l 0 <> c.
  Proof.
    revert d. induction l as [|x t IH]; simpl; intros d L E C i Li N; [lia|].
    destruct d as [|d], i as [|i]; simpl in *; try lia.
    - subst x. destruct (Nat.eq_dec c c); [|congruence]. inversion C as [C0].
      apply count_occ_not_In in C0. intros X. apply C0. rewrite <- X. apply nth_In. lia.
    - destruct (Nat.eq_dec x c) as [->|NE]; auto.
      inversion C as [C0]. apply count_occ_not_In in C0. exfalso. apply C0. rewrite <- E. apply nth_In. lia.
    - destruct (Nat.eq_dec x c) as [->|NE].
      + inversion C as [C0]. apply count_occ_not_In in C0. exfalso. apply C0. rewrite <- E. apply nth_In. lia.
      + apply (IH d); auto; lia.
  Qed.

  Lemma map_cupd_at (m : nat -> A) l d v :
    d < length l -> (forall i, i < length l -> i <> d -> nth i l 0 <> nth d l 0) ->
    map (cupd m (nth d l 0) v) l = vset (map m l) d v.
  Proof.
    revert d. induction l as [|x t IH]; simpl; intros d L U; [lia|].
    destruct d as [|d]; simpl in *.
    - unfold cupd at 1. rewrite Nat.eqb_refl. f_equal.
      apply map_cupd_fresh. intros y I X. subst y.
      destruct (In_nth _ _ 0 I) as (j & Lj & Ej). apply (U (S j)); simpl; try lia; auto.
    - unfold cupd at 1. destruct (Nat.eqb_spec x (nth d t 0)) as [E|NE].
      + exfalso. apply (U 0); simpl; try lia; auto.
      + f_equal. apply IH; [lia|]. intros i Li N. apply (U (S i)); simpl; lia.
  Qed.

  Lemma detach_observe st d : wf st -> d < length (h_ptr st) ->
    observe (detach st d) = observe st /\ wf (detach st d) /\
    length (h_ptr (detach st d)) = length (h_ptr st) /\
    (forall i, i < length (h_ptr st) -> i <> d -> ptr (detach st d) i <> ptr (detach st d) d).
  Proof.
    intros W L. unfold detach. destruct (Nat.eqb_spec (owners st (ptr st d)) 1) as [U|NU].
    - repeat split; auto. intros i Li N. apply (unique_owner (h_ptr st) d (ptr st d)); auto.
    - unfold observe, wf, ptr; simpl. repeat split.
      + rewrite map_set_nth. unfold cupd at 2. rewrite Nat.eqb_refl.
        rewrite map_cupd_fresh by (intros x I; specialize (W x I); lia).
        apply vset_map_nth; auto.
      + intros c I. apply in_set_nth in I. destruct I as [->|I]; [lia|]. specialize (W c I). lia.
      + apply set_nth_length.
      + intros i Li N. rewrite nth_set_nth_other, nth_set_nth_same by auto.
        assert (nth i (h_ptr st) 0 < h_next st) by (apply W; apply nth_In; auto). lia.
  Qed.

  Theorem cstep_refines st o : wf st -> in_range st o ->
    observe (cstep st o) = sstep (observe st) o /\ wf (cstep st o) /\
    length (h_ptr (cstep st o)) = length (h_ptr st).
  Proof.
    intros W R. destruct o as [d s|d f|d s t g]; simpl in *.
    - destruct R as [Ld Ls]. unfold observe, wf, ptr; simpl. repeat split.
      + rewrite map_set_nth. f_equal. symmetry. apply vget_map; auto.
      + intros c I. apply in_set_nth in I. destruct I as [->|I]; auto. apply W. apply nth_In; auto.
      + apply set_nth_length.
    - destruct (detach_observe st d W R) as (OB & W' & LE & UQ).
      set (st' := detach st d) in *. unfold wf; simpl. repeat split; auto.
      unfold observe at 1; simpl. change (observe st) with (map (h_cell st) (h_ptr st)).
      unfold observe in OB. rewrite <- OB. unfold ptr.
      rewrite map_cupd_at; [|rewrite LE; auto|intros i Li N; apply UQ; auto; rewrite <- LE; auto].
      f_equal. f_equal. symmetry. apply vget_map. rewrite LE; auto.
    - destruct R as (Ld & Ls & Lt). unfold observe, wf, ptr; simpl. repeat split.
      + rewrite map_set_nth. unfold cupd at 2. rewrite Nat.eqb_refl.
        rewrite map_cupd_fresh by (intros x I; specialize (W x I); lia).
        f_equal. f_equal; symmetry; apply vget_map; auto.
      + intros c I. apply in_set_nth in I. destruct I as [->|I]; [lia|]. specialize (W c I). lia.
      + apply set_nth_length.
  Qed.

  (* any sequence of operations *)
  Fixpoint ops_in_range (st : heap) (os : list cop) : Prop :=
    match os with [] => True | o :: r => in_range st o /\ ops_in_range (cstep st o) r end.

  Theorem cow_is_value_semantics os : forall st, wf st -> ops_in_range st os ->
    observe (fold_left cstep os st) = fold_left sstep os (observe st).
  Proof.
    induction os as [|o r IH]; simpl; intros st W R; auto.
    destruct R as [R1 R2]. destruct (cstep_refines st o W R1) as (E & W' & _).
    rewrite IH; auto. rewrite E. reflexivity.
  Qed.
End Cow.
