(* HistorySound.v — property C03 on the interval-domain model: after ANY finite history of
   operations over several registers, every register's abstract value describes every
   concrete store obtained by the corresponding concrete operations; hence the answers
   (at, entails, exported constraints, is_bottom, <=) are sound. *)
From Coq Require Import ZArith NArith List Bool Lia.
From CrabV Require Import Base.ZInf Scalar.Itv Scalar.ItvSound Ir.Syntax Dom.ItvEnv Dom.ItvEnvSound
     Dom.ItvSolver Dom.ItvSolverSound Dom.ItvDomain Dom.ItvDomainSound Dom.History
     Fix.Thresholds Fix.ThresholdsSound.
Import ListNotations.
Local Open Scope Z_scope.

Arguments d_add : simpl never.
Arguments d_select : simpl never.
Arguments d_cast : simpl never.
Arguments d_entails : simpl never.

Definition cset := store -> Prop.

Definition cget (cs : list cset) (r : reg) : cset := nth r cs (fun _ => True).
Fixpoint csetr (cs : list cset) (r : reg) (v : cset) : list cset :=
  match cs, r with
  | [], _ => []
  | _ :: t, O => v :: t
  | h :: t, S r' => h :: csetr t r' v
  end.

(* the concrete operation corresponding to each abstract one *)
Definition cstep (cs : list cset) (o : hop) : list cset :=
  match o with
  | HTop r => csetr cs r (fun _ => True)
  | HBot r => csetr cs r (fun _ => False)
  | HCopy r s => csetr cs r (cget cs s)
  | HAssign r x e => csetr cs r (fun s' => exists s, cget cs r s /\ s' = upd s x (eval_le e s))
  | HWeakAssign r x e =>
    csetr cs r (fun s' => exists s, cget cs r s /\ (s' = s \/ s' = upd s x (eval_le e s)))
  | HArith r op x y z =>
    csetr cs r (fun s' => exists s v, cget cs r s /\
                  arith_sem op (s y) (operand_val z s) = Some v /\ s' = upd s x v)
  | HBit r op x y z =>
    csetr cs r (fun s' => exists s v, cget cs r s /\
                  bit_sem op (s y) (operand_val z s) = Some v /\ s' = upd s x v)
  | HCast r op d sv db sb w =>
    csetr cs r (fun s' => exists s v, cget cs r s /\
                  (if db || sb then (if db then True else v = s sv) else v = s sv) /\
                  cast_pre op sb w v /\ s' = upd s d v)
  | HAssume r cl => csetr cs r (fun s => cget cs r s /\ forall c, In c cl -> sat c s)
  | HSelect r l c e1 e2 =>
    csetr cs r (fun s' => exists s, cget cs r s /\
                  s' = upd s l (if satb c s then eval_le e1 s else eval_le e2 s))
  | HForget r vs =>
    csetr cs r (fun s' => exists s, cget cs r s /\ forall k, ~ In k vs -> s' k = s k)
  | HProject r vs =>
    csetr cs r (fun s' => exists s, cget cs r s /\ forall k, In k vs -> s' k = s k)
  | HRename r f t =>
    csetr cs r (fun s' => exists s hv, cget cs r s /\ s' = rename_store s (combine f t) hv)
  | HExpand r x nx =>
    csetr cs r (fun s' => exists s s2, cget cs r s /\ cget cs r s2 /\
                  (forall k, k <> x -> s2 k = s k) /\ s' = upd s nx (s2 x))
  | HJoin r s t | HWiden r s t | HWidenThr r s t _ =>
    csetr cs r (fun st => cget cs s st \/ cget cs t st)
  | HMeet r s t | HNarrow r s t =>
    csetr cs r (fun st => cget cs s st /\ cget cs t st)
  end.

(* side conditions under which an operation is in the modelled fragment: constraints and
   expressions in canonical form (as the C++ containers guarantee), and the documented
   precondition of rename (fresh, distinct new names) *)
Definition hop_ok (rs : list env) (o : hop) : Prop :=
  match o with
  | HAssume _ cl => forall c, In c cl -> wf_lc c
  | HSelect _ _ c _ _ => wf_lc c
  | HRename r f t => NoDup t /\ length f = length t /\
                     forall k, In k t -> is_top (e_at (rget rs r) k) = true
  | _ => True
  end.

Definition rel (rs : list env) (cs : list cset) : Prop :=
  length rs = length cs /\ forall r s, cget cs r s -> genv (rget rs r) s.

Lemma rget_rset rs r v r' : (r < length rs)%nat ->
  rget (rset rs r v) r' = if Nat.eqb r' r then v else rget rs r'.
Proof.
  revert r r'. induction rs as [|h t IH]; simpl; intros r r' L; [lia|].
  destruct r, r'; simpl; auto.
  - apply IH. lia.
Qed.

Lemma rset_oob rs r v : (length rs <= r)%nat -> rset rs r v = rs.
Proof. revert r. induction rs as [|h t IH]; simpl; intros r L; auto. destruct r; [lia|]. f_equal. apply IH. lia. Qed.

Lemma cget_csetr cs r v r' : (r < length cs)%nat ->
  cget (csetr cs r v) r' = if Nat.eqb r' r then v else cget cs r'.
Proof.
  revert r r'. induction cs as [|h t IH]; simpl; intros r r' L; [lia|].
  destruct r, r'; simpl; auto.
  - apply IH. lia.
Qed.

Lemma csetr_oob cs r v : (length cs <= r)%nat -> csetr cs r v = cs.
Proof. revert r. induction cs as [|h t IH]; simpl; intros r L; auto. destruct r; [lia|]. f_equal. apply IH. lia. Qed.

Lemma rset_length rs r v : length (rset rs r v) = length rs.
Proof. revert r. induction rs as [|h t IH]; simpl; intros r; auto. destruct r; simpl; auto. Qed.
Lemma csetr_length cs r v : length (csetr cs r v) = length cs.
Proof. revert r. induction cs as [|h t IH]; simpl; intros r; auto. destruct r; simpl; auto. Qed.

Lemma rel_set rs cs r (a : env) (c : cset) :
  rel rs cs -> (forall s, c s -> genv a s) -> rel (rset rs r a) (csetr cs r c).
Proof.
  intros [L R] H. split. { rewrite rset_length, csetr_length; auto. }
  intros r' s. destruct (Nat.lt_ge_cases r (length rs)) as [I|O].
  - rewrite rget_rset by auto. rewrite cget_csetr by lia.
    destruct (Nat.eqb r' r); auto.
  - rewrite rset_oob by auto. rewrite csetr_oob by lia. auto.
Qed.

Lemma mk_thresholds_wf ths : wf_thr (mk_thresholds ths).
Proof.
  unfold mk_thresholds.
  assert (G : forall t, wf_thr t -> wf_thr (fold_left (fun t z => thr_add 4294967295 t (Fin z)) ths t)).
  { induction ths as [|z r IH]; simpl; auto. intros t W. apply IH. apply thr_add_wf; auto. }
  apply G. apply wf_thr_init.
Qed.

Theorem hstep_sound rs cs o : rel rs cs -> hop_ok rs o -> rel (hstep rs o) (cstep cs o).
Proof.
  intros R OK. pose proof R as [L RR].
  destruct o; cbn [hstep cstep]; (apply rel_set; [exact R|]).
  - intros s _. apply genv_top.
  - intros s [].
  - intros st C. apply RR; auto.
  - intros st (s & C & ->). apply d_assign_sound; auto.
  - intros st (s & C & [->| ->]); apply d_weak_assign_sound; auto.
  - intros st (s & v & C & A & ->). eapply d_apply_arith_sound; eauto.
  - intros st (s & v & C & A & ->). eapply d_apply_bit_sound; eauto.
  - intros st (s & v & C & V & P & ->). apply d_cast_sound; auto.
  - intros s [C S]. apply d_add_sound; auto.
  - intros st (s & C & ->). apply d_select_sound; auto.
  - intros st (s & C & A). eapply d_forget_sound; eauto.
  - intros st (s & C & A). eapply e_project_sound; eauto.
  - intros st (s & hv & C & ->). destruct OK as (ND & LE & TP). apply e_rename_sound; auto.
  - intros st (s & s2 & C & C2 & A & ->). apply d_expand_sound; auto.
    exists s2. repeat split; auto.
  - intros st [C|C]; apply e_join_sound; auto.
  - intros st [C1 C2]. apply e_meet_sound; auto.
  - intros st [C|C]; apply e_widen_sound; auto.
  - intros st [C1 C2]. apply e_narrow_sound; auto.
  - intros st C. apply e_widen_thr_sound.
    + intros v. apply thr_prev_le. apply mk_thresholds_wf.
    + intros v. apply thr_next_ge. apply mk_thresholds_wf.
    + destruct C; auto.
Qed.

(* a history is admissible when each step meets its side condition in the state where
   it is applied *)
Fixpoint hist_ok (rs : list env) (h : list hop) : Prop :=
  match h with
  | [] => True
  | o :: r => hop_ok rs o /\ hist_ok (hstep rs o) r
  end.

Theorem history_sound h : forall rs cs,
  rel rs cs -> hist_ok rs h -> rel (hrun rs h) (fold_left cstep h cs).
Proof.
  induction h as [|o r IH]; simpl; intros rs cs R OK; auto.
  destruct OK as [O1 O2]. apply IH; auto. apply hstep_sound; auto.
Qed.

(* starting point: all registers top *)
Lemma rel_top n : rel (repeat e_top n) (repeat (fun _ => True) n).
Proof.
  split. { rewrite !repeat_length; auto. }
  intros r s _. unfold rget.
  destruct (nth_in_or_default r (repeat e_top n) e_top) as [I|E].
  - apply repeat_spec in I. rewrite I. apply genv_top.
  - rewrite E. apply genv_top.
Qed.

Lemma bindings_in m v i : In (v, i) (bindings m) -> i = get m v.
Proof.
  unfold bindings. intros I. apply filter_In in I. destruct I as [I _].
  apply in_map_iff in I. destruct I as (k & E & _). inversion E; subst; auto.
Qed.

Definition csts_step (acc : list lincst) (p : var * itv) : list lincst :=
  let '(v, i) := p in
  let acc := match lb i with Fin l => sys_add acc (mkLC INEQ (mkLE [(-1, v)] l)) | _ => acc end in
  match ub i with Fin u => sys_add acc (mkLC INEQ (mkLE [(1, v)] (- u))) | _ => acc end.

Lemma csts_step_sound m s acc p : gmap m s -> snd p = get m (fst p) ->
  (forall c, In c acc -> sat c s) -> forall c, In c (csts_step acc p) -> sat c s.
Proof.
  intros G E HA. destruct p as [v i]. simpl in E. unfold csts_step.
  destruct (G v) as [G1 G2]. rewrite <- E in G1, G2.
  assert (A1 : forall c0, In c0 (match lb i with Fin l => sys_add acc (mkLC INEQ (mkLE [(-1, v)] l)) | _ => acc end) -> sat c0 s).
  { destruct (lb i) as [| l |] eqn:EL; auto.
    apply sys_add_ok; auto. unfold sat, eval_le; cbn [lc_kind lc_exp eval_terms le_terms le_cst].
    simpl in G1. apply Z.leb_le in G1. lia. }
  destruct (ub i) as [| u |] eqn:EU; auto.
  apply sys_add_ok; auto.
  unfold sat, eval_le; cbn [lc_kind lc_exp eval_terms le_terms le_cst].
  simpl in G2. apply Z.leb_le in G2. lia.
Qed.

Theorem d_to_csts_sound e s : genv e s -> forall c, In c (d_to_csts e) -> sat c s.
Proof.
  destruct e as [|m]; simpl; [tauto|]. intros G.
  change (forall c, In c (fold_left csts_step (bindings m) []) -> sat c s).
  assert (F : forall l acc, (forall p, In p l -> snd p = get m (fst p)) ->
              (forall c, In c acc -> sat c s) ->
              forall c, In c (fold_left csts_step l acc) -> sat c s).
  { induction l as [|p r IH]; simpl; intros acc HL HA c I; auto.
    apply (IH (csts_step acc p)) in I; auto.
    apply (csts_step_sound m s); auto. }
  apply F.
  - intros [v i] I. simpl. eapply bindings_in; eauto.
  - intros c [].
Qed.
