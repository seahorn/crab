(* PatriciaBits.v — facts about the bit operations of patricia_trees.hpp
   (mask, zero_bit, match_prefix, highest_bit and its loop), phrased with
   [agree b x y]: x and y have the same bits at positions >= b. *)
From Coq Require Import NArith Bool Lia.
From CrabV Require Import Map.Patricia.
Local Open Scope N_scope.

Definition agree (b x y : N) : Prop := forall i, b <= i -> N.testbit x i = N.testbit y i.

Lemma agree_refl b x : agree b x x.
Proof. intros i _; reflexivity. Qed.
Lemma agree_sym b x y : agree b x y -> agree b y x.
Proof. intros H i Hi; symmetry; apply H; exact Hi. Qed.
Lemma agree_trans b x y z : agree b x y -> agree b y z -> agree b x z.
Proof. intros H1 H2 i Hi; rewrite H1, H2; auto. Qed.
Lemma agree_mono b b' x y : b <= b' -> agree b x y -> agree b' x y.
Proof. intros Hb H i Hi; apply H; lia. Qed.
Lemma agree_0 x y : agree 0 x y -> x = y.
Proof. intros H; apply N.bits_inj; intros i; apply H; lia. Qed.
Lemma agree_bit b x y : agree b x y -> N.testbit x b = N.testbit y b.
Proof. intros H; apply H; lia. Qed.
Lemma agree_split b x y :
  agree b x y <-> agree (b + 1) x y /\ N.testbit x b = N.testbit y b.
Proof.
  split.
  - intros H. split; [apply agree_mono with b; [lia|exact H]|apply agree_bit; exact H].
  - intros [H Hb] i Hi. destruct (N.eq_dec i b) as [->|Hne]; [exact Hb|]. apply H; lia.
Qed.

Lemma agree_shiftr b x y : agree b x y <-> N.shiftr x b = N.shiftr y b.
Proof.
  split.
  - intros H. apply N.bits_inj; intros i. rewrite !N.shiftr_spec' . apply H; lia.
  - intros H i Hi. replace i with ((i - b) + b) by lia.
    rewrite <- !N.shiftr_spec'. rewrite H. reflexivity.
Qed.

Lemma agree_dec b x y : {agree b x y} + {~ agree b x y}.
Proof.
  destruct (N.eq_dec (N.shiftr x b) (N.shiftr y b)) as [H|H].
  - left; apply agree_shiftr; exact H.
  - right; intros A; apply H; apply agree_shiftr; exact A.
Qed.

Lemma pow2_pred_ones b : 2 ^ b - 1 = N.ones b.
Proof. rewrite N.ones_equiv, N.sub_1_r. reflexivity. Qed.

Lemma ones_bits b i : N.testbit (N.ones b) i = (i <? b).
Proof.
  destruct (N.ltb_spec i b).
  - apply N.ones_spec_low; exact H.
  - apply N.ones_spec_high; exact H.
Qed.

Lemma mask_bits k b i :
  N.testbit (mask k (2 ^ b)) i =
  if i <? b then true else if i =? b then false else N.testbit k i.
Proof.
  unfold mask.
  rewrite N.ldiff_spec, N.lor_spec, pow2_pred_ones, ones_bits, N.pow2_bits_eqb, (N.eqb_sym b i).
  destruct (N.ltb_spec i b); destruct (N.eqb_spec i b); try lia;
    destruct (N.testbit k i); reflexivity.
Qed.

Lemma mask_agree k b : agree (b + 1) (mask k (2 ^ b)) k.
Proof.
  intros i Hi. rewrite mask_bits.
  destruct (N.ltb_spec i b); [lia|]. destruct (N.eqb_spec i b); [lia|]. reflexivity.
Qed.

Lemma mask_bit k b : N.testbit (mask k (2 ^ b)) b = false.
Proof.
  rewrite mask_bits. destruct (N.ltb_spec b b); [lia|]. rewrite N.eqb_refl. reflexivity.
Qed.

Lemma mask_eq_iff k p b : mask k (2 ^ b) = mask p (2 ^ b) <-> agree (b + 1) k p.
Proof.
  split.
  - intros H. apply agree_trans with (mask k (2 ^ b)); [apply agree_sym, mask_agree|].
    rewrite H. apply mask_agree.
  - intros H. apply N.bits_inj; intros i. rewrite !mask_bits.
    destruct (N.ltb_spec i b); [reflexivity|]. destruct (N.eqb_spec i b); [reflexivity|].
    apply H; lia.
Qed.

Lemma mask_idem k b : mask (mask k (2 ^ b)) (2 ^ b) = mask k (2 ^ b).
Proof. apply mask_eq_iff, mask_agree. Qed.

(* canonical prefix for branching bit 2^b *)
Definition canon (p b : N) : Prop := mask p (2 ^ b) = p.

Lemma canon_mask k b : canon (mask k (2 ^ b)) b.
Proof. apply mask_idem. Qed.

Lemma canon_bit p b : canon p b -> N.testbit p b = false.
Proof. intros H; rewrite <- H; apply mask_bit. Qed.

Lemma canon_low p b i : canon p b -> i < b -> N.testbit p i = true.
Proof.
  intros H Hi; rewrite <- H, mask_bits. destruct (N.ltb_spec i b); [reflexivity|lia].
Qed.

Lemma match_prefix_spec k p b :
  canon p b -> (match_prefix k p (2 ^ b) = true <-> agree (b + 1) k p).
Proof.
  intros Hc. unfold match_prefix, canon in *. rewrite N.eqb_eq. split; intros H.
  - apply mask_eq_iff. rewrite H, Hc. reflexivity.
  - apply mask_eq_iff in H. rewrite H. exact Hc.
Qed.

Lemma match_prefix_false k p b :
  canon p b -> match_prefix k p (2 ^ b) = false -> ~ agree (b + 1) k p.
Proof.
  intros Hc H A. apply (match_prefix_spec k p b Hc) in A. congruence.
Qed.

Lemma zero_bit_spec k b : zero_bit k (2 ^ b) = negb (N.testbit k b).
Proof.
  unfold zero_bit. destruct (N.testbit k b) eqn:E; cbn [negb].
  - apply N.eqb_neq. intros H. apply (f_equal (fun x => N.testbit x b)) in H.
    rewrite N.land_spec, E, N.pow2_bits_eqb, N.eqb_refl, N.bits_0 in H. discriminate.
  - apply N.eqb_eq, N.bits_inj_0. intros i. rewrite N.land_spec, N.pow2_bits_eqb.
    destruct (N.eqb_spec b i) as [<-|]; [rewrite E; reflexivity|apply andb_false_r].
Qed.

(* the right half of the range of a node (prefix p, branching bit 2^b) *)
Lemma lor_pow2_bits p b i : N.testbit (N.lor p (2 ^ b)) i = N.testbit p i || (b =? i).
Proof. rewrite N.lor_spec, N.pow2_bits_eqb. reflexivity. Qed.

Lemma agree_lor_pow2 p b : agree (b + 1) (N.lor p (2 ^ b)) p.
Proof.
  intros i Hi. rewrite lor_pow2_bits. destruct (N.eqb_spec b i); [lia|]. apply orb_false_r.
Qed.

(* the keys of the left half have bit b clear, like p; those of the right half have it set *)
Lemma agree_left k p b :
  canon p b -> (agree b k p <-> agree (b + 1) k p /\ N.testbit k b = false).
Proof. intros Hc. rewrite agree_split, (canon_bit p b Hc). reflexivity. Qed.

Lemma agree_right k p b :
  (agree b k (N.lor p (2 ^ b)) <-> agree (b + 1) k p /\ N.testbit k b = true).
Proof.
  rewrite agree_split, lor_pow2_bits, N.eqb_refl, orb_true_r.
  pose proof (agree_lor_pow2 p b) as L.
  split; intros [H Hb]; (split; [|exact Hb]); apply agree_trans with (1 := H);
    [exact L|apply agree_sym; exact L].
Qed.

(* bit b splits the residue modulo 2^(b+1) *)
Lemma mod_pow2_succ k b :
  k mod 2 ^ (b + 1) = k mod 2 ^ b + 2 ^ b * N.b2n (N.testbit k b).
Proof.
  assert (2 ^ b <> 0) by (apply N.pow_nonzero; lia).
  rewrite N.add_1_r, N.pow_succ_r', (N.mul_comm 2), N.mod_mul_r, N.testbit_spec' by lia.
  reflexivity.
Qed.

Lemma canon_mod p b : canon p b -> p mod 2 ^ (b + 1) = 2 ^ b - 1.
Proof.
  intros Hc. rewrite pow2_pred_ones. apply N.bits_inj; intros i.
  rewrite ones_bits. destruct (N.ltb_spec i b).
  - rewrite N.mod_pow2_bits_low by lia. apply canon_low with b; assumption.
  - destruct (N.eq_dec i b) as [->|Hne].
    + rewrite N.mod_pow2_bits_low by lia. apply canon_bit; exact Hc.
    + rewrite N.mod_pow2_bits_high by lia. reflexivity.
Qed.

Lemma agree_div b x y : agree b x y -> x / 2 ^ b = y / 2 ^ b.
Proof. intros H. rewrite <- !N.shiftr_div_pow2. apply agree_shiftr; exact H. Qed.

(* the comparison made by node::lookup *)
Lemma range_order k p b :
  canon p b -> agree (b + 1) k p ->
  (N.testbit k b = false -> k <= p) /\ (N.testbit k b = true -> p < k).
Proof.
  intros Hc Ha.
  assert (Hpos : 2 ^ (b + 1) <> 0) by (apply N.pow_nonzero; lia).
  assert (Hb0 : 2 ^ b <> 0) by (apply N.pow_nonzero; lia).
  pose proof (N.div_mod k (2 ^ (b + 1)) Hpos) as Ek.
  pose proof (N.div_mod p (2 ^ (b + 1)) Hpos) as Ep.
  pose proof (N.mod_lt k (2 ^ b) Hb0) as Lk.
  rewrite (agree_div _ _ _ Ha), mod_pow2_succ in Ek. rewrite (canon_mod p b Hc) in Ep.
  (* the common quotient and the residue of k are unknowns for lia *)
  set (Q := 2 ^ (b + 1) * (p / 2 ^ (b + 1))) in *. set (r := k mod 2 ^ b) in *. clearbody Q r.
  split; intros Hbit; rewrite Hbit in Ek; cbn [N.b2n] in Ek; lia.
Qed.

Lemma hb_pos_log2 q : N.pos (hb_pos q) = 2 ^ N.log2 (N.pos q).
Proof.
  induction q as [q IH|q IH|]; [| |reflexivity]; cbn [hb_pos];
    change (N.pos (hb_pos q)~0) with (2 * N.pos (hb_pos q));
    rewrite IH, <- N.pow_succ_r'; f_equal; symmetry.
  - apply (N.log2_succ_double (N.pos q)). reflexivity.
  - apply (N.log2_double (N.pos q)). reflexivity.
Qed.

(* p0 and p1 differ somewhere at or above bit c: the branching bit is the highest bit
   where they differ *)
Lemma highest_bit_spec p0 p1 c :
  ~ agree c p0 p1 ->
  exists d, highest_bit (N.lxor p0 p1) (2 ^ c) = 2 ^ d /\ c <= d /\
            agree (d + 1) p0 p1 /\ N.testbit p0 d <> N.testbit p1 d.
Proof.
  intros Hna. unfold highest_bit. rewrite pow2_pred_ones.
  set (x := N.ldiff (N.lxor p0 p1) (N.ones c)).
  assert (Hx : forall i, N.testbit x i =
                         xorb (N.testbit p0 i) (N.testbit p1 i) && negb (i <? c)).
  { intros i. unfold x. rewrite N.ldiff_spec, N.lxor_spec, ones_bits. reflexivity. }
  (* a clear bit of x at or above c is a bit where p0 and p1 agree *)
  assert (Heq : forall i, c <= i -> N.testbit x i = false -> N.testbit p0 i = N.testbit p1 i).
  { intros i Hi E. rewrite Hx in E. destruct (N.ltb_spec i c); [lia|].
    rewrite andb_true_r in E. apply xorb_eq. exact E. }
  destruct x as [|q] eqn:Ex.
  - exfalso. apply Hna. intros i Hi. apply Heq; [exact Hi|apply N.bits_0].
  - exists (N.log2 (N.pos q)). split; [apply hb_pos_log2|].
    set (d := N.log2 (N.pos q)).
    assert (T : N.testbit (N.pos q) d = true) by (apply N.bit_log2; discriminate).
    rewrite Hx in T. apply andb_true_iff in T. destruct T as [T1 T2].
    assert (c <= d) by (destruct (N.ltb_spec d c); [discriminate|assumption]).
    split; [assumption|]. split.
    + intros i Hi. apply Heq; [lia|]. apply N.bits_above_log2. fold d. lia.
    + intros E. rewrite E, xorb_nilpotent in T1. discriminate.
Qed.

(* the loop of the C++ computes [highest_bit] (given enough fuel) *)
Lemma highest_bit_loop_spec fuel : forall x c d,
  (forall i, i < c -> N.testbit x i = false) ->
  N.testbit x d = true -> (forall i, d < i -> N.testbit x i = false) ->
  (N.to_nat (d - c) < fuel)%nat ->
  highest_bit_loop fuel x (2 ^ c) = 2 ^ d.
Proof.
  induction fuel as [|f IH]; intros x c d Hlow Hd Hhigh Hf; [lia|].
  cbn [highest_bit_loop]. assert (Hcd : c <= d).
  { destruct (N.le_gt_cases c d); [assumption|]. rewrite Hlow in Hd by lia. discriminate. }
  destruct (N.eqb_spec x (2 ^ c)) as [E|E].
  - f_equal. subst x. rewrite N.pow2_bits_eqb in Hd. apply N.eqb_eq in Hd. exact Hd.
  - assert (c < d).
    { destruct (N.eq_dec c d) as [->|]; [|lia]. exfalso. apply E.
      apply N.bits_inj; intros i. rewrite N.pow2_bits_eqb.
      destruct (N.eqb_spec d i) as [<-|]; [exact Hd|].
      destruct (N.lt_ge_cases i d); [apply Hlow; lia|apply Hhigh; lia]. }
    replace (2 * 2 ^ c) with (2 ^ (c + 1)) by (rewrite N.add_1_r, N.pow_succ_r'; reflexivity).
    apply IH.
    + intros i Hi. rewrite N.ldiff_spec, N.pow2_bits_eqb.
      destruct (N.eqb_spec c i) as [<-|]; [apply andb_false_r|].
      rewrite Hlow by lia. reflexivity.
    + rewrite N.ldiff_spec, N.pow2_bits_eqb, Hd. destruct (N.eqb_spec c d); [lia|reflexivity].
    + intros i Hi. rewrite N.ldiff_spec, Hhigh by lia. reflexivity.
    + lia.
Qed.
