(* SepItvRefineDom.v — the solver-free transfer functions of ikos::interval_domain
   (Dom/ItvDomain.v: assign, weak assign, apply, forget, expand), written once over the
   interface [env_ops] of Map/SepItvRefineRun.v.  Instantiated with the association-list
   operations they ARE the functions of Dom/ItvDomain.v (by computation); instantiated with
   the patricia-tree operations they are the same code running on separate_domain over
   trees; the two instances preserve the refinement relation [IR].

   Not covered: add / entails / select / cast.  They run linear_interval_solver, which
   Dom/ItvSolver.v models directly on the association list (get / put on [amap]), not
   through the environment interface; there is no tree-level model of the solver. *)
From Coq Require Import NArith ZArith Bool List Lia.
From CrabV Require Import Base.ZInf Scalar.Itv Ir.Syntax.
From CrabV Require Import Map.Patricia Map.SepDomain Map.SepDomainSound Map.SepItv.
From CrabV Require Import Dom.ItvEnv Dom.ItvEnvSound Dom.ItvDomain
     Map.SepItvRefine Map.SepItvRefineRun.
From CrabV Require Scalar.ItvSound Scalar.ItvTight.
Import ListNotations.
Local Open Scope Z_scope.

Lemma bmin_pinf x y : bmin x y = PInf -> x = PInf /\ y = PInf.
Proof.
  unfold bmin. destruct x, y; cbn [ble]; try discriminate; try (intros; split; reflexivity).
  destruct (z <=? z0); discriminate.
Qed.
Lemma bmax_minf x y : bmax x y = MInf -> x = MInf /\ y = MInf.
Proof.
  unfold bmax. destruct x, y; cbn [ble]; try discriminate; try (intros; split; reflexivity).
  destruct (z <=? z0); discriminate.
Qed.
Lemma bmin4_pinf x y z t : bmin4 x y z t = PInf -> x = PInf /\ y = PInf /\ z = PInf /\ t = PInf.
Proof.
  unfold bmin4. intros H. apply bmin_pinf in H. destruct H as [H1 H]. apply bmin_pinf in H.
  destruct H as [H2 H]. apply bmin_pinf in H. tauto.
Qed.
Lemma bmax4_minf x y z t : bmax4 x y z t = MInf -> x = MInf /\ y = MInf /\ z = MInf /\ t = MInf.
Proof.
  unfold bmax4. intros H. apply bmax_minf in H. destruct H as [H1 H]. apply bmax_minf in H.
  destruct H as [H2 H]. apply bmax_minf in H. tauto.
Qed.

(* both products of x with the bounds of a well-formed interval are the same infinity only
   when x is itself infinite, and then the sign of the lower bound is determined *)
Lemma bmul_row x l u r :
  b_is_finite r = false -> l <> PInf -> u <> MInf -> bmul x l = r -> bmul x u = r ->
  (x = MInf /\ bsgn l * bsgn r < 0) \/ (x = PInf /\ 0 < bsgn l * bsgn r).
Proof.
  intros Hr Hl Hu. destruct r; try discriminate Hr;
    destruct x as [|[|?|?]|], l as [|[|?|?]|], u as [|[|?|?]|]; cbn; intros H1 H2;
    try congruence; auto with zarith.
Qed.

Lemma wf_imul a b : ItvSound.wf a -> ItvSound.wf b -> ItvSound.wf (imul a b).
Proof.
  intros Wa Wb. unfold imul. destruct (is_bot a) eqn:Ba; [apply ItvSound.wf_bot|].
  destruct (is_bot b) eqn:Bb; [apply ItvSound.wf_bot|]. cbn [orb].
  destruct (ItvSound.wf_nonbot a Wa Ba) as (A1 & A2 & _).
  destruct (ItvSound.wf_nonbot b Wb Bb) as (B1 & B2 & _).
  (* all four corners equal to the same infinity r: the rows of lb a and ub a disagree *)
  assert (C : forall r, b_is_finite r = false ->
                bmul (lb a) (lb b) = r -> bmul (lb a) (ub b) = r ->
                bmul (ub a) (lb b) = r -> bmul (ub a) (ub b) = r -> False).
  { intros r Hr H1 H2 H3 H4.
    destruct (bmul_row _ _ _ r Hr B1 B2 H1 H2) as [[_ S]|[E _]]; [|congruence].
    destruct (bmul_row _ _ _ r Hr B1 B2 H3 H4) as [[E _]|[_ S']]; [congruence|lia]. }
  apply ItvSound.wf_imk; intros H.
  - apply bmin4_pinf in H. destruct H as (H1 & H2 & H3 & H4). exact (C PInf eq_refl H1 H2 H3 H4).
  - apply bmax4_minf in H. destruct H as (H1 & H2 & H3 & H4). exact (C MInf eq_refl H1 H2 H3 H4).
Qed.

Section Derived.
Context {T : Type} (M : env_ops T).

Fixpoint g_eval_terms (ts : list (Z * var)) (e : T) (r : itv) : itv :=
  match ts with
  | [] => r
  | (c, v) :: t => g_eval_terms t e (iadd r (imul (iconst c) (o_at M e v)))
  end.
Definition g_eval (ex : linexp) (e : T) : itv :=
  g_eval_terms (le_terms ex) e (iconst (le_cst ex)).

Definition g_assign (x : var) (ex : linexp) (e : T) : T :=
  match le_get_variable ex with
  | Some v => o_set M e x (o_at M e v)
  | None => o_set M e x (g_eval ex e)
  end.
Definition g_weak_assign (x : var) (ex : linexp) (e : T) : T :=
  match le_get_variable ex with
  | Some v => o_join_kv M e x (o_at M e v)
  | None => o_join_kv M e x (g_eval ex e)
  end.
Definition g_operand (o : operand) (e : T) : itv :=
  match o with OVar v => o_at M e v | OCst k => iconst k end.
Definition g_apply (opf : itv -> itv -> itv) (x y : var) (z : operand) (e : T) : T :=
  o_set M e x (opf (o_at M e y) (g_operand z e)).
Definition g_forget (vs : list var) (e : T) : T :=
  if o_is_bot M e || o_is_top M e then e else fold_left (o_forget M) vs e.
Definition g_expand (x nx : var) (e : T) : T :=
  if o_is_bot M e || o_is_top M e then e else o_set M e nx (o_at M e x).
End Derived.

(* the association-list instance is Dom/ItvDomain.v *)
Lemma g_eval_terms_list ts : forall e r, g_eval_terms list_ops ts e r = eval_terms_itv ts e r.
Proof.
  induction ts as [|[c v] t IH]; intros e r; cbn [g_eval_terms eval_terms_itv]; [reflexivity|].
  apply IH.
Qed.
Lemma g_eval_list ex e : g_eval list_ops ex e = d_eval ex e.
Proof. apply g_eval_terms_list. Qed.
Lemma g_assign_list x ex e : g_assign list_ops x ex e = d_assign x ex e.
Proof. unfold g_assign, d_assign. rewrite g_eval_list. reflexivity. Qed.
Lemma g_weak_assign_list x ex e : g_weak_assign list_ops x ex e = d_weak_assign x ex e.
Proof. unfold g_weak_assign, d_weak_assign. rewrite g_eval_list. reflexivity. Qed.
Lemma g_apply_arith_list op x y z e : g_apply list_ops (arith_itv op) x y z e = d_apply_arith op x y z e.
Proof. destruct z; reflexivity. Qed.
Lemma g_apply_bit_list op x y z e : g_apply list_ops (bit_itv op) x y z e = d_apply_bit op x y z e.
Proof. destruct z; reflexivity. Qed.
Lemma g_forget_list vs e : g_forget list_ops vs e = d_forget vs e.
Proof. reflexivity. Qed.
Lemma g_expand_list x nx e : g_expand list_ops x nx e = d_expand x nx e.
Proof. reflexivity. Qed.

Lemma IR_eval_terms s e ts : IR s e -> forall r,
  ItvSound.wf r ->
  g_eval_terms tree_ops ts s r = g_eval_terms list_ops ts e r /\
  ItvSound.wf (g_eval_terms tree_ops ts s r).
Proof.
  intros H. induction ts as [|[c v] t IH]; intros r W; cbn [g_eval_terms].
  - split; [reflexivity|exact W].
  - cbn [o_at tree_ops list_ops]. rewrite <- (IR_at s e v H). apply IH.
    apply ItvTight.wf_iadd; [exact W|]. apply wf_imul; [apply ItvSound.wf_iconst|].
    exact (IR_wf_at s e v H).
Qed.

Lemma IR_eval s e ex : IR s e ->
  g_eval tree_ops ex s = g_eval list_ops ex e /\ iwf (g_eval tree_ops ex s).
Proof.
  intros H. destruct (IR_eval_terms s e (le_terms ex) H (iconst (le_cst ex)) (ItvSound.wf_iconst _))
    as [E W].
  split; [exact E|apply wf_iwf; exact W].
Qed.

Theorem IR_assign x ex s e : IR s e -> IR (g_assign tree_ops x ex s) (d_assign x ex e).
Proof.
  intros H. rewrite <- g_assign_list. unfold g_assign.
  destruct (le_get_variable ex) as [v|]; cbn [o_set o_at tree_ops list_ops].
  - rewrite <- (IR_at s e v H). apply IR_set; [exact H|]. apply wf_iwf. exact (IR_wf_at s e v H).
  - destruct (IR_eval s e ex H) as [E W]. rewrite <- E. apply IR_set; assumption.
Qed.

Theorem IR_weak_assign x ex s e :
  IR s e -> IR (g_weak_assign tree_ops x ex s) (d_weak_assign x ex e).
Proof.
  intros H. rewrite <- g_weak_assign_list. unfold g_weak_assign.
  destruct (le_get_variable ex) as [v|]; cbn [o_join_kv o_at tree_ops list_ops].
  - rewrite <- (IR_at s e v H). apply IR_join_kv; [exact H|]. apply wf_iwf. exact (IR_wf_at s e v H).
  - destruct (IR_eval s e ex H) as [E W]. rewrite <- E. apply IR_join_kv; assumption.
Qed.

(* x := y op z for any interval operator that keeps intervals well formed *)
Theorem IR_apply opf x y z s e :
  (forall a b, ItvSound.wf a -> ItvSound.wf b -> iwf (opf a b)) ->
  IR s e -> IR (g_apply tree_ops opf x y z s) (g_apply list_ops opf x y z e).
Proof.
  intros Wop H. unfold g_apply. cbn [o_set o_at tree_ops list_ops].
  assert (Ez : g_operand tree_ops z s = g_operand list_ops z e /\ ItvSound.wf (g_operand tree_ops z s)).
  { destruct z as [v|k]; cbn [g_operand o_at tree_ops list_ops].
    - split; [exact (IR_at s e v H)|exact (IR_wf_at s e v H)].
    - split; [reflexivity|apply ItvSound.wf_iconst]. }
  destruct Ez as [Ez Wz]. rewrite <- Ez, <- (IR_at s e y H).
  apply IR_set; [exact H|]. apply Wop; [exact (IR_wf_at s e y H)|exact Wz].
Qed.

Lemma arith_wf_add_sub_mul op :
  op = OpAdd \/ op = OpSub \/ op = OpMul ->
  forall a b, ItvSound.wf a -> ItvSound.wf b -> iwf (arith_itv op a b).
Proof.
  intros [->|[->| ->]] a b Wa Wb; apply wf_iwf; cbn [arith_itv];
    [apply ItvTight.wf_iadd|apply ItvTight.wf_isub|apply wf_imul]; assumption.
Qed.

Theorem IR_apply_arith op x y z s e :
  op = OpAdd \/ op = OpSub \/ op = OpMul ->
  IR s e -> IR (g_apply tree_ops (arith_itv op) x y z s) (d_apply_arith op x y z e).
Proof.
  intros Hop H. rewrite <- g_apply_arith_list. apply IR_apply; [|exact H].
  apply arith_wf_add_sub_mul. exact Hop.
Qed.

Lemma IR_fold_forget vs : forall s e,
  IR s e -> IR (fold_left ie_forget vs s) (fold_left e_forget vs e).
Proof.
  induction vs as [|v r IH]; intros s e H; cbn [fold_left]; [exact H|].
  apply IH. apply IR_forget. exact H.
Qed.

Theorem IR_d_forget vs s e : IR s e -> IR (g_forget tree_ops vs s) (d_forget vs e).
Proof.
  intros H. unfold g_forget, d_forget. cbn [o_is_bot o_is_top o_forget tree_ops].
  rewrite (IR_is_bottom s e H), (IR_is_top s e H).
  destruct (e_is_bot e || e_is_top e); [exact H|]. apply IR_fold_forget. exact H.
Qed.

Theorem IR_d_expand x nx s e : IR s e -> IR (g_expand tree_ops x nx s) (d_expand x nx e).
Proof.
  intros H. unfold g_expand, d_expand. cbn [o_is_bot o_is_top o_set o_at tree_ops].
  rewrite (IR_is_bottom s e H), (IR_is_top s e H).
  destruct (e_is_bot e || e_is_top e); [exact H|].
  rewrite <- (IR_at s e x H). apply IR_set; [exact H|]. apply wf_iwf. exact (IR_wf_at s e x H).
Qed.

(* v2 := 2*v1 + v7 - 3 ; v3 := v2 * v1 on a tree and on a list *)
Example ex_assign :
  let ex1 := mkLE [(2, 1%N); (1, 7%N)] (-3) in
  let s := ie_set (ie_set ie_top 1%N (mkI (Fin 0) (Fin 5))) 7%N (mkI (Fin 1) PInf) in
  let e := e_set (e_set e_top 1%N (mkI (Fin 0) (Fin 5))) 7%N (mkI (Fin 1) PInf) in
  let s' := g_apply tree_ops (arith_itv OpMul) 3%N 2%N (OVar 1%N) (g_assign tree_ops 2%N ex1 s) in
  let e' := d_apply_arith OpMul 3%N 2%N (OVar 1%N) (d_assign 2%N ex1 e) in
  IR s' e' /\
  s_elements s' = Some [(1%N, mkI (Fin 0) (Fin 5)); (2%N, mkI (Fin (-2)) PInf);
                         (3%N, mkI (Fin (-10)) PInf); (7%N, mkI (Fin 1) PInf)] /\
  o_bindings list_ops e' = s_elements s'.
Proof.
  cbv zeta. split; [|vm_compute; split; reflexivity].
  apply IR_apply_arith; [right; right; reflexivity|]. apply IR_assign.
  apply IR_set; [apply IR_set; [exact IR_top|]|]; split; discriminate.
Qed.
