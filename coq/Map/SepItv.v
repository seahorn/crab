(* SepItv.v — the value lattice ikos::interval<z_number> (Scalar/Itv.v) satisfies the laws
   required by Map/SepDomainSound.v, so that every theorem of that file applies to the
   instance run against the C++ by the correspondence harness (this is also the
   non-vacuity witness of the section hypotheses).  Refutations of tree::compare and
   join(k,v) as they were before fixes/patricia-{1,2}.diff are at the end (the one for
   fixes/patricia-3.diff is in Map/DiscreteSound.v). *)
From Coq Require Import NArith ZArith Bool List Lia.
From CrabV Require Import Base.ZInf Scalar.Itv Map.Patricia Map.PatriciaSpec Map.SepDomain
     Map.SepDomainSound Map.DiscreteDomain.
Import ListNotations.

(* no junk infinities: what every interval built through the public API satisfies *)
Definition iwf (i : itv) : Prop := lb i <> PInf /\ ub i <> MInf.

Definition igood := good itv is_top is_bot iwf.

Lemma iwf_top : iwf itop.
Proof. split; discriminate. Qed.
Lemma iwf_bot : iwf ibot.
Proof. split; discriminate. Qed.

Lemma not_bot_ble i : is_bot i = false -> ble (lb i) (ub i) = true.
Proof. apply negb_false_iff. Qed.

Lemma imk_ble l u : ble l u = true -> imk l u = mkI l u.
Proof. intros H. unfold imk, bgt. rewrite H. reflexivity. Qed.

Lemma imk_id x : is_bot x = false -> imk (lb x) (ub x) = x.
Proof. intros B. rewrite (imk_ble _ _ (not_bot_ble x B)). destruct x; reflexivity. Qed.

Lemma imk_wf l u : l <> PInf -> u <> MInf -> iwf (imk l u).
Proof. intros Hl Hu. unfold imk. destruct (bgt l u); [apply iwf_bot|split; assumption]. Qed.

Lemma iwf_top_eq v : iwf v -> is_top v = true -> v = itop.
Proof.
  destruct v as [[] []]; intros [Hl Hu] T; try discriminate T; try reflexivity;
    exfalso; auto.
Qed.

Lemma not_top_finite v :
  is_top v = false -> b_is_finite (lb v) = true \/ b_is_finite (ub v) = true.
Proof. unfold is_top. destruct (b_is_finite (lb v)), (b_is_finite (ub v)); auto. Qed.

Lemma ieq_good x y : igood x -> ieq y x = true -> y = x.
Proof.
  intros (_ & _ & B). unfold ieq. rewrite B. destruct (is_bot y); [discriminate|].
  intros H. apply andb_true_iff in H. destruct H as [Hl Hu].
  apply beqb_eq in Hl, Hu. destruct x, y; cbn in *; congruence.
Qed.

(* what Map/SepDomainSound.v asks of | , || and widening_thresholds *)
Definition lub_like (f : itv -> itv -> itv) : Prop :=
  (forall x y, iwf x -> iwf y -> iwf (f x y)) /\
  (forall x y, is_bot x = false -> is_bot y = false -> is_bot (f x y) = false) /\
  (forall x y, iwf x -> iwf y -> is_top x = true -> is_top (f x y) = true) /\
  (forall x y, iwf x -> iwf y -> is_top y = true -> is_top (f x y) = true).

(* widening with thresholds, for any pair of threshold functions that move outwards *)
Section Thr.
Variables gp gn : bound -> bound.
Hypothesis gp_le : forall v, ble (gp v) v = true.
Hypothesis gn_ge : forall v, ble v (gn v) = true.
Hypothesis gp_not_pinf : forall v, v <> PInf -> gp v <> PInf.
Hypothesis gn_not_minf : forall v, v <> MInf -> gn v <> MInf.

Lemma gp_minf : gp MInf = MInf.
Proof. apply ble_antisym; [apply gp_le|reflexivity]. Qed.
Lemma gn_pinf : gn PInf = PInf.
Proof. apply ble_antisym; [destruct (gn PInf); reflexivity|apply gn_ge]. Qed.

Lemma iwiden_thr_wf x y : iwf x -> iwf y -> iwf (iwiden_thr gp gn x y).
Proof.
  intros Hx Hy. unfold iwiden_thr. destruct (is_bot x); [exact Hy|].
  destruct (is_bot y); [exact Hx|]. destruct Hx, Hy. apply imk_wf.
  - destruct (blt (lb y) (lb x)); [apply gp_not_pinf|]; assumption.
  - destruct (blt (ub x) (ub y)); [apply gn_not_minf|]; assumption.
Qed.

Lemma iwiden_thr_not_bot x y :
  is_bot x = false -> is_bot y = false -> is_bot (iwiden_thr gp gn x y) = false.
Proof.
  intros Hx Hy. unfold iwiden_thr. rewrite Hx, Hy.
  apply not_bot_ble in Hx, Hy.
  assert (L : ble (if blt (lb y) (lb x) then gp (lb y) else lb x)
                  (if blt (ub x) (ub y) then gn (ub y) else ub x) = true).
  { unfold blt, bge. destruct (ble (lb x) (lb y)) eqn:E1; destruct (ble (ub y) (ub x)) eqn:E2;
      cbn [negb].
    - exact Hx.
    - eapply ble_trans; [exact Hx|]. eapply ble_trans; [|apply gn_ge].
      apply ble_false_flip; exact E2.
    - eapply ble_trans; [apply gp_le|]. eapply ble_trans; [|exact Hx].
      apply ble_false_flip; exact E1.
    - eapply ble_trans; [apply gp_le|]. eapply ble_trans; [exact Hy|apply gn_ge]. }
  rewrite (imk_ble _ _ L). unfold is_bot, bgt. cbn [lb ub]. rewrite L. reflexivity.
Qed.

Lemma iwiden_thr_top_l x y :
  iwf x -> iwf y -> is_top x = true -> is_top (iwiden_thr gp gn x y) = true.
Proof.
  intros Hx Hy Ht. rewrite (iwf_top_eq x Hx Ht). unfold iwiden_thr.
  change (is_bot itop) with false. cbv iota.
  destruct (is_bot y); [reflexivity|].
  unfold blt, bge. cbn [lb ub itop ble negb].
  replace (ble (ub y) PInf) with true by (destruct (ub y); reflexivity). reflexivity.
Qed.

Lemma iwiden_thr_top_r x y :
  iwf x -> iwf y -> is_top y = true -> is_top (iwiden_thr gp gn x y) = true.
Proof.
  intros [H1 H2] Hy Ht. rewrite (iwf_top_eq y Hy Ht). unfold iwiden_thr.
  destruct (is_bot x); [reflexivity|].
  change (is_bot itop) with false. cbv iota. unfold blt, bge. cbn [lb ub itop].
  rewrite gp_minf, gn_pinf.
  destruct (lb x), (ub x); cbn [ble negb]; try congruence; reflexivity.
Qed.

Lemma iwiden_thr_lub_like : lub_like (iwiden_thr gp gn).
Proof.
  exact (conj iwiden_thr_wf (conj iwiden_thr_not_bot (conj iwiden_thr_top_l iwiden_thr_top_r))).
Qed.
End Thr.

Lemma iwiden_lub_like : lub_like iwiden.
Proof.
  apply (iwiden_thr_lub_like (fun _ => MInf) (fun _ => PInf)); try discriminate.
  - reflexivity.
  - intros v. destruct v; reflexivity.
Qed.

(* the join is the widening whose threshold functions return the new bound itself *)
Lemma ijoin_as_widen x y : ijoin x y = iwiden_thr (fun v => v) (fun v => v) x y.
Proof.
  unfold ijoin, iwiden_thr. destruct (is_bot x); [reflexivity|]. destruct (is_bot y); [reflexivity|].
  f_equal.
  - unfold bmin, blt, bge. destruct (ble (lb x) (lb y)); reflexivity.
  - unfold bmax, blt, bge. destruct (ble (ub x) (ub y)) eqn:E1, (ble (ub y) (ub x)) eqn:E2;
      cbn [negb]; try reflexivity.
    + apply ble_antisym; assumption.
    + apply ble_false_flip in E1. congruence.
Qed.

Lemma ijoin_lub_like : lub_like ijoin.
Proof.
  pose proof (iwiden_thr_lub_like (fun v => v) (fun v => v) ble_refl ble_refl
                (fun _ H => H) (fun _ H => H)) as (H1 & H2 & H3 & H4).
  split; [|split; [|split]]; intros x y; rewrite ijoin_as_widen;
    [apply H1|apply H2|apply H3|apply H4].
Qed.

(* the thresholds of the harness *)
Lemma thr_next_ge ts : forall v, ble v (thr_next ts v) = true.
Proof.
  induction ts as [|t ts IH]; intros v; destruct v; cbn [thr_next ble]; try reflexivity.
  - unfold blt, bge. cbn [ble negb]. destruct (Z.leb_spec t z); cbn [negb].
    + apply (IH (Fin z)).
    + cbn [ble]. apply Z.leb_le. lia.
Qed.
Lemma thr_next_not_minf ts : forall v, thr_next ts v <> MInf.
Proof.
  induction ts as [|t ts IH]; intros v; destruct v; cbn [thr_next]; try congruence.
  - destruct (blt MInf (Fin t)); [congruence|apply (IH MInf)].
  - destruct (blt (Fin z) (Fin t)); [congruence|apply (IH (Fin z))].
Qed.
Lemma thr_prev_fold ts v : forall acc,
  ble acc v = true -> acc <> PInf ->
  ble (fold_left (fun acc t => if blt (Fin t) v then Fin t else acc) ts acc) v = true /\
  fold_left (fun acc t => if blt (Fin t) v then Fin t else acc) ts acc <> PInf.
Proof.
  induction ts as [|t ts IH]; intros acc H1 H2; cbn [fold_left]; [auto|].
  apply IH.
  - destruct (blt (Fin t) v) eqn:E; [|exact H1].
    unfold blt, bge in E. apply ble_false_flip. destruct (ble v (Fin t)); [discriminate|reflexivity].
  - destruct (blt (Fin t) v); [congruence|exact H2].
Qed.
Lemma thr_prev_le ts v : ble (thr_prev ts v) v = true.
Proof.
  destruct v; cbn [thr_prev]; try reflexivity; apply thr_prev_fold; cbn; congruence.
Qed.
Lemma thr_prev_not_pinf ts v : thr_prev ts v <> PInf.
Proof.
  destruct v; cbn [thr_prev]; try congruence; apply thr_prev_fold; cbn; congruence.
Qed.

(* what Map/SepDomainSound.v asks of & and && *)
Definition glb_like (g : itv -> itv -> itv) : Prop :=
  (forall x y, iwf x -> iwf y -> iwf (g x y)) /\
  (forall x, igood x -> g x itop = x) /\
  (forall y, igood y -> g itop y = y) /\
  g itop itop = itop /\
  (forall x y, igood x -> igood y -> is_bot (g x y) = false -> is_top (g x y) = false).

(* a finite bound on either side makes an interval built by [imk] different from top *)
Lemma imk_not_top l u :
  b_is_finite l = true \/ b_is_finite u = true -> is_top (imk l u) = false.
Proof.
  intros H. unfold imk. destruct (bgt l u); [reflexivity|]. unfold is_top. cbn [lb ub].
  destruct H as [-> | ->]; [reflexivity|apply andb_false_r].
Qed.

Lemma bmax_finite a b : b_is_finite a = true -> b <> PInf -> b_is_finite (bmax a b) = true.
Proof.
  intros Ha Hb. unfold bmax. destruct (ble a b) eqn:E; [|exact Ha].
  destruct a, b; try discriminate; try reflexivity. congruence.
Qed.
Lemma bmin_finite a b : b_is_finite a = true -> b <> MInf -> b_is_finite (bmin a b) = true.
Proof.
  intros Ha Hb. unfold bmin. destruct (ble a b) eqn:E; [exact Ha|].
  destruct a, b; try discriminate; try reflexivity. congruence.
Qed.
Lemma imeet_top_r x : igood x -> imeet x itop = x.
Proof.
  intros (_ & _ & B). unfold imeet. rewrite B. change (is_bot itop) with false.
  cbn [orb itop lb ub].
  replace (bmax (lb x) MInf) with (lb x) by (destruct (lb x); reflexivity).
  replace (bmin (ub x) PInf) with (ub x) by (destruct (ub x); reflexivity).
  apply imk_id; exact B.
Qed.

Lemma imeet_glb_like : glb_like imeet.
Proof.
  split; [|split; [exact imeet_top_r|split; [|split; [reflexivity|]]]].
  - intros x y [Hx Hx'] [Hy Hy']. unfold imeet. destruct (is_bot x || is_bot y); [apply iwf_bot|].
    apply imk_wf; [unfold bmax|unfold bmin]; destruct (ble _ _); assumption.
  - intros y (_ & _ & B). unfold imeet. rewrite B. change (is_bot itop) with false.
    cbn [orb itop lb ub]. change (bmax MInf (lb y)) with (lb y).
    replace (bmin PInf (ub y)) with (ub y) by (destruct (ub y); reflexivity).
    apply imk_id; exact B.
  - intros x y (_ & Tx & _) ([Wy Wy'] & _ & _) _. unfold imeet.
    destruct (is_bot x || is_bot y); [reflexivity|]. apply imk_not_top.
    destruct (not_top_finite x Tx) as [F|F]; [left; apply bmax_finite|right; apply bmin_finite];
      assumption.
Qed.

Lemma inarrow_glb_like : glb_like inarrow.
Proof.
  split; [|split; [|split; [|split; [reflexivity|]]]].
  - intros x y [Hx Hx'] [Hy Hy']. unfold inarrow. destruct (is_bot x || is_bot y); [apply iwf_bot|].
    apply imk_wf; destruct (_ && _); assumption.
  - intros x (_ & _ & B). unfold inarrow. rewrite B. change (is_bot itop) with false.
    cbn [orb itop lb ub b_is_finite]. rewrite !andb_false_r. apply imk_id; exact B.
  - intros y ([Wl Wu] & T & B). unfold inarrow. rewrite B. change (is_bot itop) with false.
    cbn [orb itop lb ub b_is_finite negb andb].
    replace (if b_is_finite (lb y) then lb y else MInf) with (lb y)
      by (destruct (lb y); try reflexivity; congruence).
    replace (if b_is_finite (ub y) then ub y else PInf) with (ub y)
      by (destruct (ub y); try reflexivity; congruence).
    apply imk_id; exact B.
  - intros x y (_ & Tx & _) _ _. unfold inarrow.
    destruct (is_bot x || is_bot y); [reflexivity|]. apply imk_not_top.
    destruct (not_top_finite x Tx) as [F|F]; rewrite F; cbn [negb andb]; auto.
Qed.

Lemma ileq_good_top x : igood x -> ileq x itop = true.
Proof.
  intros (_ & _ & B). unfold ileq. rewrite B. cbn. destruct (ub x); reflexivity.
Qed.
Lemma ileq_top_good y : igood y -> ileq itop y = false.
Proof.
  intros ([Wl Wu] & T & B). unfold ileq. rewrite B. change (is_bot itop) with false.
  cbn [itop lb ub]. destruct (not_top_finite y T) as [F|F].
  - destruct (lb y); try discriminate F. reflexivity.
  - destruct (ub y); try discriminate F. apply andb_false_r.
Qed.

Local Open Scope N_scope.

Definition ie_ok : ienv -> Prop := sep_ok itv is_top is_bot iwf.

Lemma ntop_itv v : iwf v -> ntop itv itop is_top v = v.
Proof.
  intros H. unfold ntop. destruct (is_top v) eqn:T; [|reflexivity].
  symmetry. apply iwf_top_eq; assumption.
Qed.

Lemma ie_ok_top : ie_ok ie_top.
Proof. apply sep_ok_top. Qed.
Lemma ie_ok_bottom : ie_ok ie_bottom.
Proof. apply sep_ok_bottom. Qed.

Theorem ie_set_spec a k v :
  ie_ok a -> iwf v ->
  ie_ok (ie_set a k v) /\ sbot (ie_set a k v) = sbot a || is_bot v /\
  (sbot a || is_bot v = false ->
   forall k', ie_at (ie_set a k v) k' = if k' =? k then v else ie_at a k').
Proof.
  intros Ok Hv. destruct (set_spec itv itop ibot is_top is_bot ieq iwf ieq_good a k v Ok Hv)
    as (H1 & H2 & H3).
  split; [exact H1|]. split; [exact H2|]. intros Hb k'. unfold ie_at, ie_set.
  rewrite (H3 Hb k'), (ntop_itv v Hv). reflexivity.
Qed.

Theorem ie_forget_spec a k :
  ie_ok a ->
  ie_ok (ie_forget a k) /\ sbot (ie_forget a k) = sbot a /\
  (sbot a = false -> forall k', ie_at (ie_forget a k) k' = if k' =? k then itop else ie_at a k').
Proof. exact (forget_spec itv itop ibot is_top is_bot iwf a k). Qed.

Lemma ie_at_wf a k : ie_ok a -> sbot a = false -> iwf (ie_at a k).
Proof. exact (at_wf itv itop ibot is_top is_bot iwf iwf_top a k). Qed.

Theorem ie_join_kv_spec a k v :
  ie_ok a -> iwf v ->
  ie_ok (ie_join_kv a k v) /\ sbot (ie_join_kv a k v) = sbot a || is_bot v /\
  (sbot a || is_bot v = false ->
   forall k', ie_at (ie_join_kv a k v) k' = if k' =? k then ijoin (ie_at a k) v else ie_at a k').
Proof.
  intros Ok Hv. destruct ijoin_lub_like as (J1 & J2 & J3 & J4).
  destruct (join_kv_spec itv itop ibot is_top is_bot ieq iwf iwf_top eq_refl ieq_good ijoin
              J1 J2 J3 J4 a k v Ok Hv) as (H1 & H2 & H3).
  split; [exact H1|]. split; [exact H2|]. intros Hb k'. unfold ie_at, ie_join_kv.
  rewrite (H3 Hb k'). destruct (k' =? k); [|reflexivity].
  apply ntop_itv. apply J1; [|exact Hv].
  apply ie_at_wf; [exact Ok|]. destruct (sbot a); [discriminate|reflexivity].
Qed.

Lemma ie_lub_spec f a b :
  lub_like f -> ie_ok a -> ie_ok b ->
  ie_ok (s_lub itv is_top ieq f a b) /\
  (sbot a = true -> s_lub itv is_top ieq f a b = b) /\
  (sbot a = false -> sbot b = true -> s_lub itv is_top ieq f a b = a) /\
  (sbot a = false -> sbot b = false ->
   sbot (s_lub itv is_top ieq f a b) = false /\
   forall k, ie_at (s_lub itv is_top ieq f a b) k = f (ie_at a k) (ie_at b k)).
Proof.
  intros (f_wf & f_not_bot & f_top_l & f_top_r) Oa Ob.
  destruct (lub_spec itv itop ibot is_top is_bot ieq iwf iwf_top eq_refl ieq_good f
              f_wf f_not_bot f_top_l f_top_r a b Oa Ob) as (H1 & H2 & H3 & H4).
  split; [exact H1|]. split; [exact H2|]. split; [exact H3|]. intros Ha Hb.
  destruct (H4 Ha Hb) as [H5 H6]. split; [exact H5|]. intros k. unfold ie_at. rewrite H6.
  apply ntop_itv. apply f_wf; apply ie_at_wf; assumption.
Qed.

Theorem ie_join_spec a b :
  ie_ok a -> ie_ok b ->
  ie_ok (ie_join a b) /\ (sbot a = true -> ie_join a b = b) /\
  (sbot a = false -> sbot b = true -> ie_join a b = a) /\
  (sbot a = false -> sbot b = false ->
   sbot (ie_join a b) = false /\ forall k, ie_at (ie_join a b) k = ijoin (ie_at a k) (ie_at b k)).
Proof. exact (ie_lub_spec ijoin a b ijoin_lub_like). Qed.

Theorem ie_widen_spec a b :
  ie_ok a -> ie_ok b ->
  ie_ok (ie_widen a b) /\ (sbot a = true -> ie_widen a b = b) /\
  (sbot a = false -> sbot b = true -> ie_widen a b = a) /\
  (sbot a = false -> sbot b = false ->
   sbot (ie_widen a b) = false /\ forall k, ie_at (ie_widen a b) k = iwiden (ie_at a k) (ie_at b k)).
Proof. exact (ie_lub_spec iwiden a b iwiden_lub_like). Qed.

Theorem ie_widen_thr_spec ts a b :
  ie_ok a -> ie_ok b ->
  ie_ok (ie_widen_thr ts a b) /\ (sbot a = true -> ie_widen_thr ts a b = b) /\
  (sbot a = false -> sbot b = true -> ie_widen_thr ts a b = a) /\
  (sbot a = false -> sbot b = false ->
   sbot (ie_widen_thr ts a b) = false /\
   forall k, ie_at (ie_widen_thr ts a b) k =
             iwiden_thr (thr_prev ts) (thr_next ts) (ie_at a k) (ie_at b k)).
Proof.
  exact (ie_lub_spec _ a b
           (iwiden_thr_lub_like _ _ (thr_prev_le ts) (thr_next_ge ts)
              (fun v _ => thr_prev_not_pinf ts v) (fun v _ => thr_next_not_minf ts v))).
Qed.

Lemma ie_glb_spec g a b :
  glb_like g -> ie_ok a -> ie_ok b ->
  ie_ok (s_glb itv is_bot ieq g a b) /\
  (sbot a = true \/ sbot b = true -> sbot (s_glb itv is_bot ieq g a b) = true) /\
  (sbot a = false -> sbot b = false ->
   (sbot (s_glb itv is_bot ieq g a b) = true <-> exists k, is_bot (g (ie_at a k) (ie_at b k)) = true) /\
   (sbot (s_glb itv is_bot ieq g a b) = false ->
    forall k, ie_at (s_glb itv is_bot ieq g a b) k = g (ie_at a k) (ie_at b k))).
Proof.
  intros (g_wf & g_top_r & g_top_l & g_top_top & g_not_top).
  exact (glb_spec itv itop ibot is_top is_bot ieq iwf eq_refl ieq_good g
                  g_wf g_top_r g_top_l g_top_top g_not_top a b).
Qed.

Theorem ie_meet_spec a b :
  ie_ok a -> ie_ok b ->
  ie_ok (ie_meet a b) /\ (sbot a = true \/ sbot b = true -> sbot (ie_meet a b) = true) /\
  (sbot a = false -> sbot b = false ->
   (sbot (ie_meet a b) = true <-> exists k, is_bot (imeet (ie_at a k) (ie_at b k)) = true) /\
   (sbot (ie_meet a b) = false -> forall k, ie_at (ie_meet a b) k = imeet (ie_at a k) (ie_at b k))).
Proof. exact (ie_glb_spec imeet a b imeet_glb_like). Qed.

Theorem ie_narrow_spec a b :
  ie_ok a -> ie_ok b ->
  ie_ok (ie_narrow a b) /\ (sbot a = true \/ sbot b = true -> sbot (ie_narrow a b) = true) /\
  (sbot a = false -> sbot b = false ->
   (sbot (ie_narrow a b) = true <-> exists k, is_bot (inarrow (ie_at a k) (ie_at b k)) = true) /\
   (sbot (ie_narrow a b) = false -> forall k, ie_at (ie_narrow a b) k = inarrow (ie_at a k) (ie_at b k))).
Proof. exact (ie_glb_spec inarrow a b inarrow_glb_like). Qed.

Theorem ie_leq_spec a b :
  ie_ok a -> ie_ok b ->
  (ie_leq a b = true <->
   sbot a = true \/ (sbot b = false /\ forall k, ileq (ie_at a k) (ie_at b k) = true)).
Proof.
  exact (leq_spec itv itop ibot is_top is_bot ileq iwf eq_refl ileq_good_top ileq_top_good a b).
Qed.

Theorem ie_is_top_spec a :
  ie_ok a -> (s_is_top a = true <-> sbot a = false /\ forall k, ie_at a k = itop).
Proof.
  intros Ok. rewrite (is_top_spec itv itop ibot is_top is_bot iwf eq_refl a Ok).
  split; intros [H1 H2]; (split; [exact H1|]); intros k.
  - apply iwf_top_eq; [apply ie_at_wf; assumption|apply H2].
  - exact (f_equal is_top (H2 k)).
Qed.

Theorem ie_elements_spec a :
  ie_ok a -> sbot a = false ->
  exists l, s_elements a = Some l /\ Sorted.StronglySorted key_lt l /\
            forall k v, In (k, v) l <-> (ie_at a k = v /\ is_top v = false).
Proof. exact (elements_spec itv itop ibot is_top is_bot iwf eq_refl eq_refl eq_refl a). Qed.

Theorem ie_project_spec a keys :
  ie_ok a ->
  ie_ok (ie_project a keys) /\ sbot (ie_project a keys) = sbot a /\
  (sbot a = false ->
   forall k, ie_at (ie_project a keys) k = if mem_keys k keys then ie_at a k else itop).
Proof.
  exact (project_spec itv itop ibot is_top is_bot ieq iwf iwf_top eq_refl eq_refl ieq_good a keys).
Qed.

Theorem ie_rename_spec a from to r :
  ie_ok a -> ie_rename a from to = Some r ->
  NoDup from -> NoDup to -> (forall x, In x to -> ~ In x from) ->
  (sbot a = false -> forall x, In x to -> is_top (ie_at a x) = true) ->
  ie_ok r /\ sbot r = sbot a /\
  (sbot a = false ->
   forall k, ie_at r k = match rn_src (combine from to) k with
                         | Some f => ie_at a f
                         | None => if mem_keys k from then itop else ie_at a k
                         end).
Proof. exact (rename_spec itv itop ibot is_top is_bot ieq iwf ieq_good a from to r). Qed.

Definition ex_a : ienv := ie_set (ie_set ie_top 1 (mkI (Fin 0) (Fin 0))) (2 ^ 63) (mkI (Fin 1) PInf).
Definition ex_b : ienv := ie_set ie_top 2 (mkI (Fin 0) (Fin 0)).

Lemma iwf_fin a b : iwf (mkI (Fin a) (Fin b)).
Proof. split; discriminate. Qed.

Example ex_a_ok : ie_ok ex_a /\ sbot ex_a = false /\ s_size ex_a = Some 2.
Proof.
  split; [|split; reflexivity]. unfold ex_a.
  apply ie_set_spec; [|split; discriminate].
  apply ie_set_spec; [apply ie_ok_top|apply iwf_fin].
Qed.

Example ex_b_ok : ie_ok ex_b.
Proof. unfold ex_b. apply ie_set_spec; [apply ie_ok_top|apply iwf_fin]. Qed.

(* tree::compare as it was before fixes/patricia-1.diff: {1 -> [0,0]} <= {2 -> [0,0]} *)
Theorem ie_leq_orig_refuted :
  exists a b, ie_ok a /\ ie_ok b /\ sbot a = false /\ sbot b = false /\
              ie_leq_orig a b = true /\ ie_leq_orig b a = true /\
              exists k, ileq (ie_at a k) (ie_at b k) = false.
Proof.
  exists (ie_set ie_top 1 (mkI (Fin 0) (Fin 0))), ex_b.
  split; [apply ie_set_spec; [apply ie_ok_top|apply iwf_fin]|].
  split; [apply ex_b_ok|]. repeat split; try reflexivity. exists 2. reflexivity.
Qed.

(* separate_domain::join(k,v) as it was before fixes/patricia-2.diff stores top *)
Theorem ie_join_kv_orig_refuted :
  exists a k v, ie_ok a /\ iwf v /\ is_bot v = false /\ ~ ie_ok (ie_join_kv_orig a k v).
Proof.
  exists (ie_set ie_top 1 (mkI MInf (Fin 0))), 1, (mkI (Fin 0) PInf).
  split; [apply ie_set_spec; [apply ie_ok_top|split; discriminate]|].
  split; [split; discriminate|]. split; [reflexivity|].
  intros (_ & O & _). specialize (O 1 itop eq_refl). destruct O as (_ & T & _). discriminate.
Qed.

(* Every environment produced by any sequence of the operations (rename under its
   precondition) satisfies the invariant, hence all the pointwise equations above hold at
   every step of every history. *)
Inductive ie_reach : ienv -> Prop :=
| R_top : ie_reach ie_top
| R_bottom : ie_reach ie_bottom
| R_set a k v : ie_reach a -> iwf v -> ie_reach (ie_set a k v)
| R_forget a k : ie_reach a -> ie_reach (ie_forget a k)
| R_join_kv a k v : ie_reach a -> iwf v -> ie_reach (ie_join_kv a k v)
| R_join a b : ie_reach a -> ie_reach b -> ie_reach (ie_join a b)
| R_meet a b : ie_reach a -> ie_reach b -> ie_reach (ie_meet a b)
| R_widen a b : ie_reach a -> ie_reach b -> ie_reach (ie_widen a b)
| R_widen_thr ts a b : ie_reach a -> ie_reach b -> ie_reach (ie_widen_thr ts a b)
| R_narrow a b : ie_reach a -> ie_reach b -> ie_reach (ie_narrow a b)
| R_project a keys : ie_reach a -> ie_reach (ie_project a keys)
| R_rename a from to r :
    ie_reach a -> ie_rename a from to = Some r ->
    NoDup from -> NoDup to -> (forall x, In x to -> ~ In x from) ->
    (sbot a = false -> forall x, In x to -> is_top (ie_at a x) = true) ->
    ie_reach r.

Theorem ie_reach_ok a : ie_reach a -> ie_ok a.
Proof.
  induction 1.
  - apply ie_ok_top.
  - apply ie_ok_bottom.
  - apply ie_set_spec; assumption.
  - apply ie_forget_spec; assumption.
  - apply ie_join_kv_spec; assumption.
  - apply ie_join_spec; assumption.
  - apply ie_meet_spec; assumption.
  - apply ie_widen_spec; assumption.
  - apply ie_widen_thr_spec; assumption.
  - apply ie_narrow_spec; assumption.
  - apply ie_project_spec; assumption.
  - eapply ie_rename_spec; eassumption.
Qed.
