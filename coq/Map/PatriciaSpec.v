(* PatriciaSpec.v — proofs about the patricia tree model (Map/Patricia.v):
   well-formedness (prefix / branching-bit discipline) is preserved by every operation,
   and every operation is characterised through [get], the finite map denoted by a tree
   ([lookup] = [get] on well-formed trees). *)
From Coq Require Import NArith Bool List Lia Sorting.Sorted.
From CrabV Require Import Map.Patricia Map.PatriciaBits.
Import ListNotations.
Local Open Scope N_scope.

Section Spec.
Variable V : Type.
Variable veq : V -> V -> bool.

(* stored values satisfy [Vok]; ValueEqual decides equality with a stored value *)
Variable Vok : V -> Prop.
Hypothesis veq_ok : forall x y, Vok x -> veq y x = true -> y = x.

Notation tree := (Patricia.tree V).
Notation ptree := (Patricia.ptree V).

(* level: a leaf covers one key, a node with branching bit 2^b covers 2^(b+1) keys *)
Definition lvl (t : tree) : N :=
  match t with Leaf _ _ => 0 | Node _ m _ _ => N.log2 m + 1 end.

(* t lies in the aligned range { k | agree c k q } *)
Definition fits (c q : N) (t : tree) : Prop := lvl t <= c /\ agree c (prefix t) q.
Definition pfits (c q : N) (t : ptree) : Prop :=
  match t with None => True | Some t' => fits c q t' end.

Fixpoint wf (t : tree) : Prop :=
  match t with
  | Leaf _ _ => True
  | Node p m l r =>
    m = 2 ^ N.log2 m /\ canon p (N.log2 m) /\
    fits (N.log2 m) p l /\ fits (N.log2 m) (N.lor p m) r /\ wf l /\ wf r
  end.
Definition wfp (t : ptree) : Prop := match t with None => True | Some t' => wf t' end.

Definition ounion (a b : option V) : option V := match a with Some _ => a | None => b end.

(* the finite map denoted by a tree *)
Fixpoint get (t : tree) (k : N) : option V :=
  match t with
  | Leaf k' v => if k' =? k then Some v else None
  | Node _ _ l r => ounion (get l k) (get r k)
  end.
Definition pget (t : ptree) (k : N) : option V :=
  match t with None => None | Some t' => get t' k end.

Definition all_ok (t : tree) : Prop := forall k v, get t k = Some v -> Vok v.
Definition pall_ok (t : ptree) : Prop := forall k v, pget t k = Some v -> Vok v.

Lemma ounion_none_r a : ounion a None = a.
Proof. destruct a; reflexivity. Qed.

Lemma get_node p m l r k : get (Node p m l r) k = ounion (get l k) (get r k).
Proof. reflexivity. Qed.

Lemma fits_mono c c' q q' t : fits c q t -> c <= c' -> agree c' q q' -> fits c' q' t.
Proof.
  intros [H1 H2] Hc Hq. split; [lia|].
  eapply agree_trans; [eapply agree_mono; [exact Hc|exact H2]|exact Hq].
Qed.

Lemma fits_node c q p m l r : fits c q (Node p m l r) -> N.log2 m < c /\ agree c p q.
Proof. intros [F1 F2]. cbn [lvl prefix] in *. split; [lia|exact F2]. Qed.

(* the right half of the range of a node (p, m) *)
Lemma agree_right_m k p m :
  m = 2 ^ N.log2 m ->
  (agree (N.log2 m) k (N.lor p m) <-> agree (N.log2 m + 1) k p /\ N.testbit k (N.log2 m) = true).
Proof. intros Hm. pose proof (agree_right k p (N.log2 m)) as H. rewrite <- Hm in H. exact H. Qed.

Lemma pfits_mono c c' q q' t : pfits c q t -> c <= c' -> agree c' q q' -> pfits c' q' t.
Proof. destruct t; simpl; [apply fits_mono|auto]. Qed.

Lemma get_range t : forall k v, wf t -> get t k = Some v -> agree (lvl t) k (prefix t).
Proof.
  induction t as [k' v'|p m l IHl r IHr]; intros k v Hwf Hg.
  - simpl in *. destruct (N.eqb_spec k' k); [subst; apply agree_refl|discriminate].
  - simpl in Hwf. destruct Hwf as (Hm & Hc & Fl & Fr & Wl & Wr).
    simpl in Hg. simpl lvl. simpl prefix.
    destruct (get l k) as [vl|] eqn:El.
    + pose proof (IHl k vl Wl El) as A. destruct Fl as [L1 L2].
      apply agree_mono with (N.log2 m); [lia|].
      eapply agree_trans; [eapply agree_mono; [exact L1|exact A]|exact L2].
    + pose proof (IHr k v Wr Hg) as A. destruct Fr as [R1 R2].
      assert (B : agree (N.log2 m) k (N.lor p m)).
      { eapply agree_trans; [eapply agree_mono; [exact R1|exact A]|exact R2]. }
      apply (agree_right_m _ _ _ Hm) in B. apply B.
Qed.

Lemma get_fits c q t k v : wf t -> fits c q t -> get t k = Some v -> agree c k q.
Proof.
  intros Hwf [F1 F2] Hg.
  eapply agree_trans; [eapply agree_mono; [exact F1|eapply get_range; eauto]|exact F2].
Qed.

(* the keys of a tree that fits the left, resp. right half of the range of a node (p, m) *)
Lemma left_keys p b t k v :
  canon p b -> wf t -> fits b p t -> get t k = Some v ->
  agree (b + 1) k p /\ N.testbit k b = false.
Proof. intros Hc W F G. apply (agree_left _ _ _ Hc). exact (get_fits _ _ _ _ _ W F G). Qed.

Lemma right_keys p m t k v :
  m = 2 ^ N.log2 m -> wf t -> fits (N.log2 m) (N.lor p m) t -> get t k = Some v ->
  agree (N.log2 m + 1) k p /\ N.testbit k (N.log2 m) = true.
Proof. intros Hm W F G. apply (agree_right_m _ _ _ Hm). exact (get_fits _ _ _ _ _ W F G). Qed.

Lemma get_out t k : wf t -> ~ agree (lvl t) k (prefix t) -> get t k = None.
Proof.
  intros Hwf Hn. destruct (get t k) eqn:E; [|reflexivity].
  exfalso; apply Hn; eapply get_range; eauto.
Qed.

Lemma node_side p m l r k :
  wf (Node p m l r) ->
  (N.testbit k (N.log2 m) = false -> get r k = None) /\
  (N.testbit k (N.log2 m) = true -> get l k = None).
Proof.
  intros (Hm & Hc & Fl & Fr & Wl & Wr). split; intros Hb.
  - destruct (get r k) eqn:E; [|reflexivity].
    destruct (right_keys _ _ _ _ _ Hm Wr Fr E). congruence.
  - destruct (get l k) eqn:E; [|reflexivity].
    destruct (left_keys _ _ _ _ _ Hc Wl Fl E). congruence.
Qed.

Lemma node_disjoint p m l r k :
  wf (Node p m l r) -> get l k = None \/ get r k = None.
Proof.
  intros Hwf. destruct (node_side p m l r k Hwf) as [H1 H2].
  destruct (N.testbit k (N.log2 m)); [left|right]; auto.
Qed.

Lemma ounion_comm_node p m l r k :
  wf (Node p m l r) -> ounion (get l k) (get r k) = ounion (get r k) (get l k).
Proof.
  intros Hwf. destruct (node_disjoint p m l r k Hwf) as [H|H]; rewrite H;
    simpl; rewrite ?ounion_none_r; reflexivity.
Qed.

Lemma node_range p m l r k v :
  wf (Node p m l r) -> get (Node p m l r) k = Some v -> agree (N.log2 m + 1) k p.
Proof. intros Hwf Hg. exact (get_range _ _ _ Hwf Hg). Qed.

(* node::lookup (comparison with the prefix) finds exactly the bindings *)
Theorem lookup_get t : forall k, wf t -> lookup t k = get t k.
Proof.
  induction t as [k' v'|p m l IHl r IHr]; intros k Hwf; [reflexivity|].
  pose proof Hwf as (Hm & Hc & Fl & Fr & Wl & Wr).
  simpl. rewrite IHl, IHr by assumption.
  destruct (get l k) as [vl|] eqn:El.
  - destruct (left_keys _ _ _ _ _ Hc Wl Fl El) as [A1 A2].
    destruct (range_order k p _ Hc A1) as [O _]. specialize (O A2).
    destruct (N.leb_spec k p); [reflexivity|lia].
  - destruct (get r k) as [vr|] eqn:Er.
    + destruct (right_keys _ _ _ _ _ Hm Wr Fr Er) as [A1 A2].
      destruct (range_order k p _ Hc A1) as [_ O]. specialize (O A2).
      destruct (N.leb_spec k p); [lia|reflexivity].
    + destruct (k <=? p); reflexivity.
Qed.

Lemma plookup_pget t k : wfp t -> plookup t k = pget t k.
Proof. destruct t; simpl; [apply lookup_get|reflexivity]. Qed.

Lemma get_inhabited t : exists k v, get t k = Some v.
Proof.
  induction t as [k v|p m l [k [v H]] r _].
  - exists k, v. simpl. rewrite N.eqb_refl. reflexivity.
  - exists k, v. simpl. rewrite H. reflexivity.
Qed.

Lemma node_two_keys p m l r :
  wf (Node p m l r) -> forall k0, exists k v, k <> k0 /\ get (Node p m l r) k = Some v.
Proof.
  intros Hwf k0. destruct (get_inhabited l) as [kl [vl Hl]].
  destruct (get_inhabited r) as [kr [vr Hr]].
  destruct (node_side p m l r kl Hwf) as [S1 S2].
  destruct (node_side p m l r kr Hwf) as [S3 S4].
  assert (kl <> kr).
  { intros ->. destruct (N.testbit kr (N.log2 m)); [rewrite S4 in Hl|rewrite S3 in Hr];
      auto; discriminate. }
  destruct (N.eq_dec kl k0) as [->|Hne].
  - exists kr, vr. split; [congruence|]. simpl.
    destruct (get l kr) eqn:E; [|exact Hr].
    destruct (node_disjoint p m l r kr Hwf); congruence.
  - exists kl, vl. split; [exact Hne|]. simpl. rewrite Hl. reflexivity.
Qed.

Lemma pget_make_node p m l r k :
  pget (make_node p m l r) k = ounion (pget l k) (pget r k).
Proof. destruct l, r; simpl; rewrite ?ounion_none_r; reflexivity. Qed.

Lemma wf_make_node p m l r :
  m = 2 ^ N.log2 m -> canon p (N.log2 m) ->
  pfits (N.log2 m) p l -> pfits (N.log2 m) (N.lor p m) r -> wfp l -> wfp r ->
  wfp (make_node p m l r).
Proof.
  intros Hm Hc Fl Fr Wl Wr. destruct l, r; simpl in *; auto.
  repeat split; auto; try apply Fl; try apply Fr.
Qed.

Lemma fits_make_node p m l r c q :
  m = 2 ^ N.log2 m ->
  pfits (N.log2 m) p l -> pfits (N.log2 m) (N.lor p m) r ->
  N.log2 m < c -> agree c p q -> pfits c q (make_node p m l r).
Proof.
  intros Hm Fl Fr Hc Hq. destruct l as [l|], r as [r|]; simpl in *; auto.
  - split; [simpl; lia|exact Hq].
  - eapply fits_mono; [exact Fl|lia|exact Hq].
  - eapply fits_mono; [exact Fr|lia|].
    eapply agree_trans; [|exact Hq].
    eapply agree_mono; [|apply (agree_right_m _ _ _ Hm), agree_refl]. lia.
Qed.

Lemma width_pow t : wf t -> N.max 1 (2 * bbit t) = 2 ^ lvl t.
Proof.
  destruct t as [k v|p m l r]; [reflexivity|]. intros (Hm & _). cbn [bbit lvl].
  assert (m <> 0) by (rewrite Hm; apply N.pow_nonzero; lia).
  rewrite N.add_1_r, N.pow_succ_r', <- Hm. lia.
Qed.

Lemma threshold_pow t0 t1 :
  wf t0 -> wf t1 ->
  N.max 1 (2 * N.max (bbit t0) (bbit t1)) = 2 ^ N.max (lvl t0) (lvl t1).
Proof.
  intros W0 W1. pose proof (width_pow t0 W0) as E0. pose proof (width_pow t1 W1) as E1.
  replace (N.max 1 (2 * N.max (bbit t0) (bbit t1)))
    with (N.max (N.max 1 (2 * bbit t0)) (N.max 1 (2 * bbit t1))) by lia.
  rewrite E0, E1.
  destruct (N.le_ge_cases (lvl t0) (lvl t1)) as [L|L].
  - rewrite (N.max_r _ _ L). apply N.max_r. apply N.pow_le_mono_r; [lia|exact L].
  - rewrite (N.max_l _ _ L). apply N.max_l. apply N.pow_le_mono_r; [lia|exact L].
Qed.

Lemma join_spec t0 t1 :
  wf t0 -> wf t1 -> ~ agree (N.max (lvl t0) (lvl t1)) (prefix t0) (prefix t1) ->
  wf (join t0 t1) /\
  (forall c q, fits c q t0 -> fits c q t1 -> fits c q (join t0 t1)) /\
  (forall k, get (join t0 t1) k = ounion (get t0 k) (get t1 k)).
Proof.
  intros W0 W1 Hna. unfold join, compute_branching_bit.
  rewrite (threshold_pow t0 t1 W0 W1).
  destruct (highest_bit_spec _ _ _ Hna) as [d [E [Hd [Ha Hb]]]].
  rewrite E. rewrite zero_bit_spec.
  assert (Hl : N.log2 (2 ^ d) = d) by apply N.log2_pow2, N.le_0_l.
  assert (Hm : 2 ^ d = 2 ^ N.log2 (2 ^ d)) by (rewrite Hl; reflexivity).
  assert (A0 : agree (d + 1) (prefix t0) (mask (prefix t0) (2 ^ d)))
    by (apply agree_sym, mask_agree).
  assert (A1 : agree (d + 1) (prefix t1) (mask (prefix t0) (2 ^ d))).
  { eapply agree_trans; [apply agree_sym; exact Ha|exact A0]. }
  assert (Hcan : canon (mask (prefix t0) (2 ^ d)) d) by apply canon_mask.
  assert (Hlt : forall c q, agree c (prefix t0) q -> agree c (prefix t1) q -> d + 1 <= c).
  { intros c q F02 F12. destruct (N.lt_ge_cases d c); [lia|]. exfalso. apply Hb.
    apply agree_bit. eapply agree_mono; [exact H|].
    eapply agree_trans; [exact F02|apply agree_sym; exact F12]. }
  assert (Hfit : forall c q, fits c q t0 -> fits c q t1 ->
                             d + 1 <= c /\ agree c (mask (prefix t0) (2 ^ d)) q).
  { intros c q [F01 F02] [F11 F12]. pose proof (Hlt c q F02 F12) as L. split; [exact L|].
    eapply agree_trans; [|exact F02]. eapply agree_mono; [exact L|apply mask_agree]. }
  destruct (N.testbit (prefix t0) d) eqn:B0; cbn [negb].
  - (* t0 on the right *)
    assert (B1 : N.testbit (prefix t1) d = false)
      by (destruct (N.testbit (prefix t1) d); congruence).
    assert (Wn : wf (Node (mask (prefix t0) (2 ^ d)) (2 ^ d) t1 t0)).
    { cbn [wf]. rewrite Hl. repeat split; auto; try lia.
      - apply (agree_left _ _ _ Hcan). split; assumption.
      - apply agree_right. split; assumption. }
    split; [exact Wn|]. split.
    + intros c q F0 F1. destruct (Hfit c q F0 F1) as [L A]. split; [|exact A].
      cbn [lvl]. rewrite Hl. exact L.
    + intros k. cbn [get]. apply (ounion_comm_node _ _ _ _ _ Wn).
  - assert (B1 : N.testbit (prefix t1) d = true)
      by (destruct (N.testbit (prefix t1) d); congruence).
    split; [|split].
    + cbn [wf]. rewrite Hl. repeat split; auto; try lia.
      * apply (agree_left _ _ _ Hcan). split; assumption.
      * apply agree_right. split; assumption.
    + intros c q F0 F1. destruct (Hfit c q F0 F1) as [L A]. split; [|exact A].
      cbn [lvl]. rewrite Hl. exact L.
    + intros k. reflexivity.
Qed.

(* inserting a leaf next to a tree whose range does not contain the key *)
Lemma join_leaf key val t :
  wf t -> ~ agree (lvl t) key (prefix t) ->
  wf (join (Leaf key val) t) /\
  (forall c q, fits c q t -> agree c key q -> fits c q (join (Leaf key val) t)) /\
  (forall k, get (join (Leaf key val) t) k = if k =? key then Some val else get t k).
Proof.
  intros Wt Hna.
  destruct (join_spec (Leaf key val) t I Wt) as (J1 & J2 & J3).
  { simpl. rewrite N.max_0_l. exact Hna. }
  split; [exact J1|]. split.
  - intros c q F A. apply J2; [|exact F]. split; simpl; [lia|exact A].
  - intros k. rewrite J3. simpl. rewrite (N.eqb_sym key k).
    destruct (k =? key); reflexivity.
Qed.

(* the tests of the code, read on a node with branching bit m = 2 ^ log2 m *)
Lemma mp_true key p m :
  m = 2 ^ N.log2 m -> canon p (N.log2 m) -> match_prefix key p m = true ->
  agree (N.log2 m + 1) key p.
Proof. intros Hm Hc H. rewrite Hm in H. apply (match_prefix_spec _ _ _ Hc). exact H. Qed.

Lemma mp_false key p m :
  m = 2 ^ N.log2 m -> canon p (N.log2 m) -> match_prefix key p m = false ->
  ~ agree (N.log2 m + 1) key p.
Proof. intros Hm Hc H. rewrite Hm in H. apply (match_prefix_false _ _ _ Hc). exact H. Qed.

Lemma zb_true key m :
  m = 2 ^ N.log2 m -> zero_bit key m = true -> N.testbit key (N.log2 m) = false.
Proof.
  intros Hm H. rewrite Hm, zero_bit_spec in H. destruct (N.testbit key (N.log2 m)); auto.
Qed.

Lemma zb_false key m :
  m = 2 ^ N.log2 m -> zero_bit key m = false -> N.testbit key (N.log2 m) = true.
Proof.
  intros Hm H. rewrite Hm, zero_bit_spec in H. destruct (N.testbit key (N.log2 m)); auto.
Qed.

Lemma all_ok_node p m l r :
  wf (Node p m l r) -> all_ok (Node p m l r) -> all_ok l /\ all_ok r.
Proof.
  intros Hwf Hok. split; intros k v Hg; apply (Hok k); cbn [get].
  - rewrite Hg. reflexivity.
  - destruct (node_disjoint p m l r k Hwf) as [E|E]; [rewrite E; exact Hg|congruence].
Qed.

Definition app_op (op : binop V) (ltr : bool) (k : N) (a b : V) : bool * option V :=
  if ltr then bapply op k a b else bapply op k b a.

Lemma combine_leaf_spec op k stored r :
  Vok stored ->
  combine_leaf veq op k (Leaf k stored) stored r k =
  if fst r then (true, None)
  else (false, match snd r with Some nv => Some (Leaf k nv) | None => None end).
Proof.
  intros Hok. unfold combine_leaf. destruct r as [b nv]. cbn [fst snd].
  destruct b; [reflexivity|]. destruct nv as [nv|]; [|reflexivity].
  destruct (veq nv stored) eqn:E; [|reflexivity].
  rewrite (veq_ok _ _ Hok E). reflexivity.
Qed.

(* what insert(t, key, val, op, ltr) returns, in terms of the bindings *)
Definition ins_result (op : binop V) (ltr : bool) (t : tree) (key : N) (val : V)
           (res : bool * ptree) : Prop :=
  match get t key with
  | Some v =>
    if fst (app_op op ltr key v val) then res = (true, None)
    else fst res = false /\ wfp (snd res) /\
         (forall c q, fits c q t -> agree c key q -> pfits c q (snd res)) /\
         (forall k, pget (snd res) k =
                    if k =? key then snd (app_op op ltr key v val) else get t k)
  | None =>
    fst res = false /\ wfp (snd res) /\
    (forall c q, fits c q t -> agree c key q -> pfits c q (snd res)) /\
    (forall k, pget (snd res) k =
               if babsorbing op then get t k
               else if k =? key then Some val else get t k)
  end.

(* The same in one piece, also used for merging with a leaf.  [r] is the outcome at the key
   (bottom flag, new binding); unless it is bottom, [res] is a tree binding the key to the
   outcome and any other k to [rest k]. *)
Definition at_key (op : binop V) (ltr : bool) (o : option V) (key : N) (val : V)
  : bool * option V :=
  match o with
  | Some v => app_op op ltr key v val
  | None => (false, if babsorbing op then None else Some val)
  end.

Definition upd_result (r : bool * option V) (key : N) (rest : N -> option V)
           (Fit : ptree -> Prop) (res : bool * ptree) : Prop :=
  if fst r then res = (true, None)
  else fst res = false /\ wfp (snd res) /\ Fit (snd res) /\
       forall k, pget (snd res) k = if k =? key then snd r else rest k.

(* where the result of an insertion of [key] in t fits *)
Definition ins_fit (t : tree) (key : N) (r : ptree) : Prop :=
  forall c q, fits c q t -> agree c key q -> pfits c q r.

Lemma ins_result_intro op ltr t key val res :
  upd_result (at_key op ltr (get t key) key val) key (get t) (ins_fit t key) res ->
  ins_result op ltr t key val res.
Proof.
  unfold upd_result, ins_result. destruct (get t key) eqn:G; cbn [at_key fst snd]; [auto|].
  intros (H1 & H2 & H3 & H4). split; [exact H1|]. split; [exact H2|]. split; [exact H3|].
  intros k. rewrite H4. destruct (N.eqb_spec k key) as [->|]; destruct (babsorbing op); congruence.
Qed.

Lemma ins_absent op ltr t key val :
  wf t -> ~ agree (lvl t) key (prefix t) ->
  upd_result (at_key op ltr (get t key) key val) key (get t) (ins_fit t key)
             (if babsorbing op then (false, Some t)
              else (false, Some (join (Leaf key val) t))).
Proof.
  intros Wt Hna. pose proof (get_out _ _ Wt Hna) as G. rewrite G. unfold upd_result.
  cbn [at_key fst snd]. destruct (babsorbing op); cbn [fst snd].
  - split; [reflexivity|]. split; [exact Wt|]. split; [intros c q F _; exact F|].
    intros k. cbn [pget]. destruct (N.eqb_spec k key) as [->|]; congruence.
  - destruct (join_leaf key val t Wt Hna) as (J1 & J2 & J3).
    split; [reflexivity|]. split; [exact J1|]. split; [exact J2|exact J3].
Qed.

Lemma insert_upd t : forall key val op ltr,
  wf t -> all_ok t ->
  upd_result (at_key op ltr (get t key) key val) key (get t) (ins_fit t key)
             (insert veq t key val op ltr).
Proof.
  induction t as [k v|p m l IHl r IHr]; intros key val op ltr Hwf Hok.
  - cbn [insert]. destruct (N.eqb_spec k key) as [->|Hne].
    + cbn [get]. rewrite N.eqb_refl. cbn [at_key].
      rewrite combine_leaf_spec by (apply (Hok key); cbn [get]; rewrite N.eqb_refl; reflexivity).
      fold (app_op op ltr key v val). unfold upd_result.
      destruct (app_op op ltr key v val) as [[|] nv]; cbn [fst snd]; [reflexivity|].
      split; [reflexivity|]. split; [destruct nv; exact I|]. split.
      * intros c q [F1 F2] A. destruct nv; cbn; auto. split; [cbn; lia|exact A].
      * intros k. rewrite (N.eqb_sym k key).
        destruct nv; cbn [pget get]; destruct (key =? k); reflexivity.
    + apply ins_absent; [exact I|]. cbn [lvl prefix]. intros A. apply agree_0 in A. congruence.
  - pose proof Hwf as (Hm & Hc & Fl & Fr & Wl & Wr).
    destruct (all_ok_node _ _ _ _ Hwf Hok) as [Okl Okr].
    cbn [insert]. destruct (match_prefix key p m) eqn:MP.
    + pose proof (mp_true _ _ _ Hm Hc MP) as A.
      destruct (node_side p m l r key Hwf) as [S1 S2]. cbn [get].
      destruct (zero_bit key m) eqn:ZB.
      * pose proof (zb_true _ _ Hm ZB) as B. specialize (S1 B). rewrite S1, ounion_none_r.
        assert (AL : agree (N.log2 m) key p) by (apply (agree_left _ _ _ Hc); auto).
        specialize (IHl key val op ltr Wl Okl).
        destruct (insert veq l key val op ltr) as [b1 nl]. unfold upd_result in *.
        destruct (fst (at_key op ltr (get l key) key val)); [inversion IHl; reflexivity|].
        cbn [fst snd] in IHl. destruct IHl as (-> & Wn & Fn & Gn). cbn [fst snd].
        split; [reflexivity|]. split; [|split].
        -- apply wf_make_node; auto.
        -- intros c q F Ak. destruct (fits_node _ _ _ _ _ _ F). apply fits_make_node; auto.
        -- intros k. rewrite pget_make_node, Gn. cbn [pget].
           destruct (N.eqb_spec k key) as [->|]; [|reflexivity]. rewrite S1. apply ounion_none_r.
      * pose proof (zb_false _ _ Hm ZB) as B. specialize (S2 B). rewrite S2. cbn [ounion].
        assert (AR : agree (N.log2 m) key (N.lor p m)).
        { apply (agree_right_m _ _ _ Hm); auto. }
        specialize (IHr key val op ltr Wr Okr).
        destruct (insert veq r key val op ltr) as [b1 nr]. unfold upd_result in *.
        destruct (fst (at_key op ltr (get r key) key val)); [inversion IHr; reflexivity|].
        cbn [fst snd] in IHr. destruct IHr as (-> & Wn & Fn & Gn). cbn [fst snd].
        split; [reflexivity|]. split; [|split].
        -- apply wf_make_node; auto.
        -- intros c q F Ak. destruct (fits_node _ _ _ _ _ _ F). apply fits_make_node; auto.
        -- intros k. rewrite pget_make_node, Gn. cbn [pget].
           destruct (N.eqb_spec k key) as [->|]; [|reflexivity]. rewrite S2. reflexivity.
    + apply ins_absent; [exact Hwf|]. cbn [lvl prefix]. apply mp_false; assumption.
Qed.

Theorem insert_spec t key val op ltr :
  wf t -> all_ok t -> ins_result op ltr t key val (insert veq t key val op ltr).
Proof. intros W O. apply ins_result_intro, insert_upd; assumption. Qed.

Lemma pinsert_spec t key val op ltr :
  wfp t -> pall_ok t ->
  match t with
  | Some t' => ins_result op ltr t' key val (pinsert veq t key val op ltr)
  | None => pinsert veq t key val op ltr =
            (false, if babsorbing op then None else Some (Leaf key val))
  end.
Proof.
  destruct t as [t'|]; cbn [pinsert].
  - intros W O. apply insert_spec; assumption.
  - intros _ _. destruct (babsorbing op); reflexivity.
Qed.

(* patricia_tree::insert (insert_op: the new value replaces the old one) *)
Theorem pt_insert_spec t key val :
  wfp t -> pall_ok t ->
  wfp (pt_insert veq t key val) /\
  (forall c q, pfits c q t -> agree c key q -> pfits c q (pt_insert veq t key val)) /\
  (forall k, pget (pt_insert veq t key val) k = if k =? key then Some val else pget t k).
Proof.
  intros W O. unfold pt_insert. pose proof (pinsert_spec t key val insert_op true W O) as H.
  destruct t as [t'|].
  - unfold ins_result in H. destruct (pinsert veq (Some t') key val insert_op true) as [b r].
    cbn [snd]. destruct (get t' key) as [v|] eqn:G; cbn [app_op insert_op bapply babsorbing fst snd] in H.
    + destruct H as (_ & H1 & H2 & H3). auto.
    + destruct H as (_ & H1 & H2 & H3). auto.
  - rewrite H. cbn [insert_op babsorbing snd]. split; [exact I|]. split.
    + intros c q _ A. split; [cbn; lia|exact A].
    + intros k. cbn [pget get]. rewrite (N.eqb_sym key k). reflexivity.
Qed.

Theorem remove_spec t : forall key,
  wf t ->
  wfp (remove t key) /\ (forall c q, fits c q t -> pfits c q (remove t key)) /\
  (forall k, pget (remove t key) k = if k =? key then None else get t k).
Proof.
  induction t as [k v|p m l IHl r IHr]; intros key Hwf.
  - cbn [remove]. destruct (N.eqb_spec k key) as [->|Hne].
    + split; [exact I|]. split; [intros; exact I|]. intros k. cbn [pget get].
      destruct (N.eqb_spec k key) as [->|]; [reflexivity|].
      destruct (N.eqb_spec key k); [congruence|reflexivity].
    + split; [exact I|]. split; [auto|]. intros k0. cbn [pget get].
      destruct (N.eqb_spec k0 key) as [->|]; [|reflexivity].
      destruct (N.eqb_spec k key); [congruence|reflexivity].
  - pose proof Hwf as (Hm & Hc & Fl & Fr & Wl & Wr).
    cbn [remove]. destruct (match_prefix key p m) eqn:MP.
    + pose proof (mp_true _ _ _ Hm Hc MP) as A.
      destruct (node_side p m l r key Hwf) as [S1 S2].
      destruct (zero_bit key m) eqn:ZB.
      * pose proof (zb_true _ _ Hm ZB) as B. specialize (S1 B).
        destruct (IHl key Wl) as (Wn & Fn & Gn). split; [|split].
        -- apply wf_make_node; auto.
        -- intros c q [F1 F2]. cbn [lvl prefix] in *. apply fits_make_node; auto; lia.
        -- intros k. rewrite pget_make_node, Gn. cbn [pget get].
           destruct (N.eqb_spec k key) as [->|]; [|reflexivity]. rewrite S1. reflexivity.
      * pose proof (zb_false _ _ Hm ZB) as B. specialize (S2 B).
        destruct (IHr key Wr) as (Wn & Fn & Gn). split; [|split].
        -- apply wf_make_node; auto.
        -- intros c q [F1 F2]. cbn [lvl prefix] in *. apply fits_make_node; auto; lia.
        -- intros k. rewrite pget_make_node, Gn. cbn [pget get].
           destruct (N.eqb_spec k key) as [->|]; [|reflexivity]. rewrite S2. reflexivity.
    + split; [exact Hwf|]. split; [auto|]. intros k. cbn [pget].
      destruct (N.eqb_spec k key) as [->|]; [|reflexivity].
      apply get_out; [exact Hwf|]. cbn [lvl prefix]. apply mp_false; assumption.
Qed.

Theorem premove_spec t key :
  wfp t ->
  wfp (premove t key) /\ (forall c q, pfits c q t -> pfits c q (premove t key)) /\
  (forall k, pget (premove t key) k = if k =? key then None else pget t k).
Proof.
  destruct t as [t'|]; cbn [premove wfp pfits].
  - intros W. destruct (remove_spec t' key W) as (H1 & H2 & H3). auto.
  - intros _. repeat split; auto. intros k. cbn. destruct (k =? key); reflexivity.
Qed.

Definition obind (o : option V) (f : V -> option V) : option V :=
  match o with Some v => f v | None => None end.

Theorem transform_spec t f :
  wf t -> all_ok t ->
  wfp (transform veq t f) /\ (forall c q, fits c q t -> pfits c q (transform veq t f)) /\
  (forall k, pget (transform veq t f) k = obind (get t k) f).
Proof.
  induction t as [k v|p m l IHl r IHr]; intros Hwf Hok.
  - cbn [transform]. destruct (f v) as [nv|] eqn:E.
    + assert (Hv : Vok v) by (apply (Hok k); cbn [get]; rewrite N.eqb_refl; reflexivity).
      assert (G : forall k0, get (Leaf k nv) k0 = obind (get (Leaf k v) k0) f).
      { intros k0. cbn [get]. destruct (k =? k0); cbn [obind]; auto. }
      destruct (veq nv v) eqn:Q.
      * pose proof (veq_ok _ _ Hv Q) as ->.
        split; [exact I|]. split; [intros c q F; exact F|]. exact G.
      * split; [exact I|]. split; [intros c q F; exact F|]. exact G.
    + split; [exact I|]. split; [intros; exact I|]. intros k0. cbn [pget get].
      destruct (k =? k0); cbn [obind]; auto.
  - pose proof Hwf as (Hm & Hc & Fl & Fr & Wl & Wr).
    destruct (all_ok_node _ _ _ _ Hwf Hok) as [Okl Okr].
    destruct (IHl Wl Okl) as (W1 & F1 & G1). destruct (IHr Wr Okr) as (W2 & F2 & G2).
    cbn [transform]. split; [|split].
    + apply wf_make_node; auto.
    + intros c q [A1 A2]. cbn [lvl prefix] in *. apply fits_make_node; auto; lia.
    + intros k. rewrite pget_make_node, G1, G2. cbn [get].
      destruct (node_disjoint p m l r k Hwf) as [E|E]; rewrite E; cbn [ounion obind].
      * reflexivity.
      * rewrite !ounion_none_r. reflexivity.
Qed.

Lemma disjoint_ranges s t k a b :
  wf s -> wf t -> ~ agree (N.max (lvl s) (lvl t)) (prefix s) (prefix t) ->
  get s k = Some a -> get t k = Some b -> False.
Proof.
  intros Ws Wt Hna Ga Gb. apply Hna.
  pose proof (get_range _ _ _ Ws Ga) as A. pose proof (get_range _ _ _ Wt Gb) as B.
  eapply agree_trans; [apply agree_sym; eapply agree_mono; [|exact A]; lia|].
  eapply agree_mono; [|exact B]. lia.
Qed.

Lemma pow2_lt_log m1 m2 :
  m1 = 2 ^ N.log2 m1 -> m2 = 2 ^ N.log2 m2 -> (m1 < m2 <-> N.log2 m1 < N.log2 m2).
Proof.
  intros H1 H2. pose proof (N.pow_lt_mono_r_iff 2 (N.log2 m1) (N.log2 m2)) as P.
  rewrite <- H1, <- H2 in P. symmetry. apply P. lia.
Qed.

(* [l] and [r] fit the two halves of the range of a node (p, m) and hold the bindings of f
   whose key has the branching bit clear, resp. set.  merge and compare on two nodes work
   half by half; a tree that lies in one half of the other node has an empty other half. *)
Definition halves (p m : N) (f : N -> option V) (l r : ptree) : Prop :=
  pfits (N.log2 m) p l /\ pfits (N.log2 m) (N.lor p m) r /\
  forall k, if N.testbit k (N.log2 m) then pget l k = None /\ f k = pget r k
            else pget r k = None /\ f k = pget l k.

Lemma halves_node p m l r :
  wf (Node p m l r) -> halves p m (get (Node p m l r)) (Some l) (Some r).
Proof.
  intros Hwf. pose proof Hwf as (_ & _ & Fl & Fr & _). split; [exact Fl|]. split; [exact Fr|].
  intros k. destruct (node_side p m l r k Hwf) as [S1 S2]. cbn [get pget].
  destruct (N.testbit k (N.log2 m)).
  - rewrite S2 by reflexivity. auto.
  - rewrite S1, ounion_none_r by reflexivity. auto.
Qed.

(* a tree below the node (p, m) whose prefix matches lies in the half told by zero_bit *)
Lemma halves_one p m t :
  m = 2 ^ N.log2 m -> canon p (N.log2 m) -> wf t -> lvl t <= N.log2 m ->
  match_prefix (prefix t) p m = true ->
  if zero_bit (prefix t) m then halves p m (get t) (Some t) None
  else halves p m (get t) None (Some t).
Proof.
  intros Hm Hc Wt Hl MP. pose proof (mp_true _ _ _ Hm Hc MP) as A.
  destruct (zero_bit (prefix t) m) eqn:ZB.
  - assert (F : fits (N.log2 m) p t).
    { split; [exact Hl|]. apply (agree_left _ _ _ Hc). split; [exact A|apply zb_true; assumption]. }
    split; [exact F|]. split; [exact I|]. intros k.
    destruct (N.testbit k (N.log2 m)) eqn:B; [|auto]. cbn [pget].
    destruct (get t k) eqn:G; [|auto]. destruct (left_keys _ _ _ _ _ Hc Wt F G); congruence.
  - assert (F : fits (N.log2 m) (N.lor p m) t).
    { split; [exact Hl|]. apply (agree_right_m _ _ _ Hm).
      split; [exact A|apply zb_false; assumption]. }
    split; [exact I|]. split; [exact F|]. intros k.
    destruct (N.testbit k (N.log2 m)) eqn:B; [auto|]. cbn [pget].
    destruct (get t k) eqn:G; [|auto]. destruct (right_keys _ _ _ _ _ Hm Wt F G); congruence.
Qed.

(* the case analysis made by merge and compare on two nodes, with what each case means *)
Lemma two_nodes ps ms sl sr pt mt tl tr :
  let S := Node ps ms sl sr in
  let T := Node pt mt tl tr in
  wf S -> wf T ->
  (ms = mt /\ ps = pt) \/
  ((ms =? mt) && (ps =? pt) = false /\
   (((mt <? ms) && match_prefix pt ps ms = true /\
     if zero_bit pt ms then halves ps ms (get T) (Some T) None
     else halves ps ms (get T) None (Some T)) \/
    ((mt <? ms) && match_prefix pt ps ms = false /\
     (((ms <? mt) && match_prefix ps pt mt = true /\
       if zero_bit ps mt then halves pt mt (get S) (Some S) None
       else halves pt mt (get S) None (Some S)) \/
      ((ms <? mt) && match_prefix ps pt mt = false /\
       ~ agree (N.max (lvl S) (lvl T)) (prefix S) (prefix T)))))).
Proof.
  intros S T Ws Wt. pose proof Ws as (Hms & Hcs & _). pose proof Wt as (Hmt & Hct & _).
  destruct ((ms =? mt) && (ps =? pt)) eqn:C1.
  { left. apply andb_true_iff in C1. destruct C1. split; apply N.eqb_eq; assumption. }
  right. split; [reflexivity|]. destruct ((mt <? ms) && match_prefix pt ps ms) eqn:C2.
  { left. split; [reflexivity|]. apply andb_true_iff in C2. destruct C2 as [L MP].
    apply N.ltb_lt, (pow2_lt_log _ _ Hmt Hms) in L.
    apply (halves_one ps ms T Hms Hcs Wt); [cbn [lvl T]; lia|exact MP]. }
  right. split; [reflexivity|]. destruct ((ms <? mt) && match_prefix ps pt mt) eqn:C3.
  { left. split; [reflexivity|]. apply andb_true_iff in C3. destruct C3 as [L MP].
    apply N.ltb_lt, (pow2_lt_log _ _ Hms Hmt) in L.
    apply (halves_one pt mt S Hmt Hct Ws); [cbn [lvl S]; lia|exact MP]. }
  right. split; [reflexivity|]. cbn [lvl prefix S T]. intros A.
  destruct (N.lt_trichotomy (N.log2 ms) (N.log2 mt)) as [L|[L|L]].
  - assert (ms < mt) by (apply (pow2_lt_log _ _ Hms Hmt); exact L).
    apply N.ltb_lt in H. rewrite H in C3. cbn [andb] in C3.
    apply (mp_false _ _ _ Hmt Hct C3). eapply agree_mono; [|exact A]. lia.
  - assert (ms = mt) by (rewrite Hms, Hmt, L; reflexivity). subst mt.
    rewrite N.eqb_refl in C1. cbn [andb] in C1. apply N.eqb_neq in C1. apply C1.
    rewrite N.max_id in A. rewrite <- Hcs, <- Hct. unfold canon.
    rewrite Hms. apply mask_eq_iff. rewrite <- Hms. exact A.
  - assert (mt < ms) by (apply (pow2_lt_log _ _ Hmt Hms); exact L).
    apply N.ltb_lt in H. rewrite H in C2. cbn [andb] in C2.
    apply (mp_false _ _ _ Hms Hcs C2). apply agree_sym. eapply agree_mono; [|exact A]. lia.
Qed.

(* pointwise combination of two optional bindings under the absorption mode of op *)
Definition comb (op : binop V) (ltr : bool) (k : N) (oa ob : option V) : option V :=
  match oa, ob with
  | Some a, Some b => snd (app_op op ltr k a b)
  | Some a, None => if babsorbing op then None else Some a
  | None, Some b => if babsorbing op then None else Some b
  | None, None => None
  end.

Lemma app_op_flip op ltr k a b : app_op op (negb ltr) k a b = app_op op ltr k b a.
Proof. destruct ltr; reflexivity. Qed.

Lemma comb_flip op ltr k a b : comb op (negb ltr) k a b = comb op ltr k b a.
Proof. destruct a, b; cbn [comb]; rewrite ?app_op_flip; reflexivity. Qed.

(* result of a merge, stated on the denotations fs / ft of the two operands *)
Definition mres (op : binop V) (ltr : bool) (fs ft : N -> option V) (Fit : ptree -> Prop)
           (res : bool * ptree) : Prop :=
  if fst res then
    snd res = None /\
    exists k a b, fs k = Some a /\ ft k = Some b /\ fst (app_op op ltr k a b) = true
  else
    wfp (snd res) /\ Fit (snd res) /\
    (forall k, pget (snd res) k = comb op ltr k (fs k) (ft k)) /\
    (forall k a b, fs k = Some a -> ft k = Some b -> fst (app_op op ltr k a b) = false).

Definition merge_result (op : binop V) (ltr : bool) (s t : tree) (res : bool * ptree) : Prop :=
  mres op ltr (get s) (get t)
       (fun r => forall c q, fits c q s -> fits c q t -> pfits c q r) res.

Definition pmerge_result (op : binop V) (ltr : bool) (s t : ptree) (res : bool * ptree) : Prop :=
  mres op ltr (pget s) (pget t)
       (fun r => forall c q, pfits c q s -> pfits c q t -> pfits c q r) res.

Lemma mres_fit op ltr fs ft (Fit Fit' : ptree -> Prop) res :
  (forall r, Fit r -> Fit' r) -> mres op ltr fs ft Fit res -> mres op ltr fs ft Fit' res.
Proof.
  intros Hf. unfold mres. destruct (fst res); [auto|].
  intros (H1 & H2 & H3). split; [exact H1|]. split; [apply Hf; exact H2|exact H3].
Qed.

Lemma mres_flip op ltr fs ft Fit res :
  mres op (negb ltr) ft fs Fit res -> mres op ltr fs ft Fit res.
Proof.
  unfold mres. destruct (fst res).
  - intros (H0 & k & a & b & H1 & H2 & H3). split; [exact H0|].
    exists k, b, a. rewrite <- app_op_flip. auto.
  - intros (H1 & H2 & H3 & H4). split; [exact H1|]. split; [exact H2|]. split.
    + intros k. rewrite H3. apply comb_flip.
    + intros k a b Ha Hb. rewrite <- app_op_flip. apply H4; assumption.
Qed.

(* gluing the results for the two halves of a node *)
Lemma pair_nodes_mres op ltr p m fs ft sl sr tl tr ra rb :
  m = 2 ^ N.log2 m -> canon p (N.log2 m) ->
  halves p m fs sl sr -> halves p m ft tl tr ->
  pmerge_result op ltr sl tl ra -> pmerge_result op ltr sr tr rb ->
  mres op ltr fs ft (fun r => forall c q, N.log2 m < c -> agree c p q -> pfits c q r)
       (pair_nodes p m ra rb).
Proof.
  intros Hm Hc (Fsl & Fsr & Hs) (Ftl & Ftr & Ht) Ha Hb.
  (* a common key of one pair of halves is a common key of fs and ft *)
  assert (L : forall k a b, pget sl k = Some a -> pget tl k = Some b -> fs k = Some a /\ ft k = Some b).
  { intros k a b G1 G2. specialize (Hs k). specialize (Ht k).
    destruct (N.testbit k (N.log2 m)); destruct Hs as [E1 E2], Ht as [E3 E4]; [congruence|].
    rewrite E2, E4. auto. }
  assert (R : forall k a b, pget sr k = Some a -> pget tr k = Some b -> fs k = Some a /\ ft k = Some b).
  { intros k a b G1 G2. specialize (Hs k). specialize (Ht k).
    destruct (N.testbit k (N.log2 m)); destruct Hs as [E1 E2], Ht as [E3 E4]; [|congruence].
    rewrite E2, E4. auto. }
  unfold pair_nodes, pmerge_result, mres in *. destruct (fst ra).
  { cbn [fst snd]. destruct Ha as (_ & k & a & b & H1 & H2 & H3). split; [reflexivity|].
    exists k, a, b. destruct (L k a b H1 H2). auto. }
  destruct (fst rb).
  { cbn [fst snd]. destruct Hb as (_ & k & a & b & H1 & H2 & H3). split; [reflexivity|].
    exists k, a, b. destruct (R k a b H1 H2). auto. }
  cbn [fst snd]. destruct Ha as (Wa & Fia & Ga & Na). destruct Hb as (Wb & Fib & Gb & Nb).
  specialize (Fia _ _ Fsl Ftl). specialize (Fib _ _ Fsr Ftr).
  split; [apply wf_make_node; assumption|]. split; [|split].
  - intros c q Hlt Hq. apply fits_make_node; assumption.
  - intros k. rewrite pget_make_node, Ga, Gb. specialize (Hs k). specialize (Ht k).
    destruct (N.testbit k (N.log2 m)); destruct Hs as [-> ->], Ht as [-> ->]; cbn [comb ounion].
    + reflexivity.
    + apply ounion_none_r.
  - intros k a b G1 G2. specialize (Hs k). specialize (Ht k).
    destruct (N.testbit k (N.log2 m)); destruct Hs as [_ E2], Ht as [_ E4];
      rewrite E2 in G1; rewrite E4 in G2; [apply Nb|apply Na]; assumption.
Qed.

Lemma merge_eq op ltr s t :
  merge veq op ltr s t =
  match s with
  | Leaf ks vs => merge_leaf_l veq op ltr s ks vs t
  | Node ps ms sl sr =>
    match t with
    | Leaf kt vt => merge_leaf_r veq op ltr s t kt vt
    | Node pt mt tl tr =>
      if (ms =? mt) && (ps =? pt) then
        pair_nodes ps ms (merge veq op ltr sl tl) (merge veq op ltr sr tr)
      else if (mt <? ms) && match_prefix pt ps ms then
        if zero_bit pt ms then
          pair_nodes ps ms (merge veq op ltr sl t)
                     (false, if babsorbing op then None else Some sr)
        else
          pair_nodes ps ms (false, if babsorbing op then None else Some sl)
                     (merge veq op ltr sr t)
      else if (ms <? mt) && match_prefix ps pt mt then
        if zero_bit ps mt then
          pair_nodes pt mt (merge veq op ltr s tl)
                     (false, if babsorbing op then None else Some tr)
        else
          pair_nodes pt mt (false, if babsorbing op then None else Some tl)
                     (merge veq op ltr s tr)
      else if babsorbing op then (false, None)
           else (false, Some (join s t))
    end
  end.
Proof. destruct s; destruct t; reflexivity. Qed.

Lemma get_leaf_some k v k0 a : get (Leaf k v) k0 = Some a -> k0 = k /\ a = v.
Proof.
  cbn [get]. destruct (N.eqb_spec k k0); [|discriminate]. intros H; inversion H; auto.
Qed.

(* merging with a leaf is an update at its key *)
Lemma leaf_mres op ltr s kt vt (Fit Fit' : ptree -> Prop) res :
  (forall r, Fit r -> Fit' r) ->
  upd_result (at_key op ltr (get s kt) kt vt) kt
             (fun k => if babsorbing op then None else get s k) Fit res ->
  mres op ltr (get s) (get (Leaf kt vt)) Fit' res.
Proof.
  intros HF. unfold upd_result, mres.
  assert (C : forall k, k <> kt ->
                (if babsorbing op then None else get s k) =
                comb op ltr k (get s k) (get (Leaf kt vt) k)).
  { intros k Hne. cbn [get]. destruct (N.eqb_spec kt k); [congruence|].
    unfold comb. destruct (get s k), (babsorbing op); reflexivity. }
  destruct (get s kt) as [v|] eqn:G; cbn [at_key].
  - destruct (app_op op ltr kt v vt) as [[|] nv] eqn:EA; cbn [fst snd].
    + intros ->. split; [reflexivity|]. exists kt, v, vt. cbn [get]. rewrite N.eqb_refl, EA. auto.
    + intros (-> & W & F & Gr). split; [exact W|]. split; [apply HF; exact F|]. split.
      * intros k. rewrite Gr. destruct (N.eqb_spec k kt) as [->|Hne]; [|apply C; exact Hne].
        cbn [get]. rewrite G, N.eqb_refl. cbn [comb]. rewrite EA. reflexivity.
      * intros k a b Ha Hb. apply get_leaf_some in Hb. destruct Hb as [-> ->].
        rewrite G in Ha. inversion Ha; subst. rewrite EA. reflexivity.
  - cbn [fst snd]. intros (-> & W & F & Gr). split; [exact W|]. split; [apply HF; exact F|]. split.
    + intros k. rewrite Gr. destruct (N.eqb_spec k kt) as [->|Hne]; [|apply C; exact Hne].
      cbn [get]. rewrite G, N.eqb_refl. reflexivity.
    + intros k a b Ha Hb. apply get_leaf_some in Hb. destruct Hb as [-> ->]. congruence.
Qed.

Lemma merge_leaf_r_spec op ltr s kt vt :
  wf s -> all_ok s -> Vok vt ->
  merge_result op ltr s (Leaf kt vt) (merge_leaf_r veq op ltr s (Leaf kt vt) kt vt).
Proof.
  intros Ws Oks Okv. unfold merge_leaf_r, merge_result. destruct (babsorbing op) eqn:AB.
  - (* absorbing: only the key of the leaf can stay *)
    apply leaf_mres with (Fit := fun r => forall c q, fits c q (Leaf kt vt) -> pfits c q r); [auto|].
    rewrite AB, (lookup_get s kt Ws). unfold upd_result.
    destruct (get s kt) as [v'|]; cbn [at_key].
    + rewrite combine_leaf_spec by exact Okv. fold (app_op op ltr kt v' vt).
      destruct (app_op op ltr kt v' vt) as [[|] nv]; cbn [fst snd]; [reflexivity|].
      split; [reflexivity|]. split; [destruct nv; exact I|]. split.
      * intros c q F. destruct nv; [exact F|exact I].
      * intros k. rewrite (N.eqb_sym k kt). destruct nv; cbn [pget get]; destruct (kt =? k); reflexivity.
    + rewrite AB. cbn [fst snd]. split; [reflexivity|]. split; [exact I|]. split; [intros; exact I|].
      intros k. destruct (k =? kt); reflexivity.
  - apply leaf_mres with (Fit := ins_fit s kt).
    + intros r H c q Fs [_ F]. apply H; assumption.
    + rewrite AB. apply insert_upd; assumption.
Qed.

Lemma merge_leaf_l_spec op ltr ks vs t :
  wf t -> all_ok t -> Vok vs ->
  merge_result op ltr (Leaf ks vs) t (merge_leaf_l veq op ltr (Leaf ks vs) ks vs t).
Proof.
  intros Wt Okt Okv.
  replace (merge_leaf_l veq op ltr (Leaf ks vs) ks vs t)
    with (merge_leaf_r veq op (negb ltr) t (Leaf ks vs) ks vs) by (destruct ltr; reflexivity).
  apply mres_flip. eapply mres_fit; [|apply merge_leaf_r_spec; assumption].
  intros r H c q F1 F2. exact (H c q F2 F1).
Qed.

Lemma pmerge_none_r op ltr u :
  wf u -> pmerge_result op ltr (Some u) None (false, if babsorbing op then None else Some u).
Proof.
  intros Wu. unfold pmerge_result, mres. cbn [fst snd pget].
  assert (C : forall k, (if babsorbing op then None else get u k) = comb op ltr k (get u k) None).
  { intros k. unfold comb. destruct (get u k), (babsorbing op); reflexivity. }
  destruct (babsorbing op).
  - split; [exact I|]. split; [intros; exact I|]. split; [exact C|intros; discriminate].
  - split; [exact Wu|]. split; [intros c q F _; exact F|]. split; [exact C|intros; discriminate].
Qed.

Lemma pmerge_none_l op ltr u :
  wf u -> pmerge_result op ltr None (Some u) (false, if babsorbing op then None else Some u).
Proof.
  intros Wu. apply mres_flip. eapply mres_fit; [|apply pmerge_none_r; exact Wu].
  intros r H c q F1 F2. exact (H c q F2 F1).
Qed.

Theorem merge_spec op ltr : forall s t,
  wf s -> wf t -> all_ok s -> all_ok t ->
  merge_result op ltr s t (merge veq op ltr s t).
Proof.
  induction s as [ks vs|ps ms sl IHsl sr IHsr].
  - intros t Ws Wt Os Ot. rewrite merge_eq. apply merge_leaf_l_spec; auto.
    apply (Os ks). cbn [get]. rewrite N.eqb_refl. reflexivity.
  - induction t as [kt vt|pt mt tl IHtl tr IHtr]; intros Ws Wt Os Ot.
    + rewrite merge_eq. apply merge_leaf_r_spec; auto.
      apply (Ot kt). cbn [get]. rewrite N.eqb_refl. reflexivity.
    + rewrite merge_eq.
      pose proof Ws as (Hms & Hcs & _ & _ & Wsl & Wsr).
      pose proof Wt as (Hmt & Hct & _ & _ & Wtl & Wtr).
      destruct (all_ok_node _ _ _ _ Ws Os) as [Osl Osr].
      destruct (all_ok_node _ _ _ _ Wt Ot) as [Otl Otr].
      pose proof (halves_node _ _ _ _ Ws) as HS. pose proof (halves_node _ _ _ _ Wt) as HT.
      (* the result of pair_nodes fits wherever the node (p, m) it rebuilds does *)
      assert (GS : forall res, mres op ltr (get (Node ps ms sl sr)) (get (Node pt mt tl tr))
                     (fun r => forall c q, N.log2 ms < c -> agree c ps q -> pfits c q r) res ->
                   merge_result op ltr (Node ps ms sl sr) (Node pt mt tl tr) res).
      { intros res. apply mres_fit. intros r H c q F _. apply H; apply (fits_node _ _ _ _ _ _ F). }
      assert (GT : forall res, mres op ltr (get (Node ps ms sl sr)) (get (Node pt mt tl tr))
                     (fun r => forall c q, N.log2 mt < c -> agree c pt q -> pfits c q r) res ->
                   merge_result op ltr (Node ps ms sl sr) (Node pt mt tl tr) res).
      { intros res. apply mres_fit. intros r H c q _ F. apply H; apply (fits_node _ _ _ _ _ _ F). }
      destruct (two_nodes _ _ _ _ _ _ _ _ Ws Wt)
        as [[E1 E2]|(-> & [(-> & H)|(-> & [(-> & H)|(-> & D)])])].
      * subst mt pt. rewrite !N.eqb_refl. cbn [andb].
        exact (GS _ (pair_nodes_mres op ltr _ _ _ _ _ _ _ _ _ _ Hms Hcs HS HT
                       (IHsl tl Wsl Wtl Osl Otl) (IHsr tr Wsr Wtr Osr Otr))).
      * destruct (zero_bit pt ms).
        -- exact (GS _ (pair_nodes_mres op ltr _ _ _ _ _ _ _ _ _ _ Hms Hcs HS H
                          (IHsl _ Wsl Wt Osl Ot) (pmerge_none_r op ltr sr Wsr))).
        -- exact (GS _ (pair_nodes_mres op ltr _ _ _ _ _ _ _ _ _ _ Hms Hcs HS H
                          (pmerge_none_r op ltr sl Wsl) (IHsr _ Wsr Wt Osr Ot))).
      * destruct (zero_bit ps mt).
        -- exact (GT _ (pair_nodes_mres op ltr _ _ _ _ _ _ _ _ _ _ Hmt Hct H HT
                          (IHtl Ws Wtl Os Otl) (pmerge_none_l op ltr tr Wtr))).
        -- exact (GT _ (pair_nodes_mres op ltr _ _ _ _ _ _ _ _ _ _ Hmt Hct H HT
                          (pmerge_none_l op ltr tl Wtl) (IHtr Ws Wtr Os Otr))).
      * set (S := Node ps ms sl sr) in *. set (T := Node pt mt tl tr) in *.
        assert (C : forall k, comb op ltr k (get S k) (get T k) =
                              if babsorbing op then None else ounion (get S k) (get T k)).
        { intros k. unfold comb.
          destruct (get S k) as [a|] eqn:G1; destruct (get T k) as [b|] eqn:G2;
            try (destruct (babsorbing op); reflexivity).
          exfalso. exact (disjoint_ranges S T k a b Ws Wt D G1 G2). }
        unfold merge_result, mres. destruct (babsorbing op); cbn [fst snd].
        -- split; [exact I|]. split; [intros; exact I|]. split.
           ++ intros k. rewrite C. reflexivity.
           ++ intros k a b G1 G2. exfalso. exact (disjoint_ranges S T k a b Ws Wt D G1 G2).
        -- destruct (join_spec S T Ws Wt D) as (J1 & J2 & J3).
           split; [exact J1|]. split; [exact J2|]. split.
           ++ intros k. rewrite C. apply J3.
           ++ intros k a b G1 G2. exfalso. exact (disjoint_ranges S T k a b Ws Wt D G1 G2).
Qed.

Theorem pmerge_spec op ltr s t :
  wfp s -> wfp t -> pall_ok s -> pall_ok t ->
  pmerge_result op ltr s t (pmerge veq op ltr s t).
Proof.
  intros Ws Wt Os Ot. destruct s as [s'|], t as [t'|]; cbn [pmerge].
  - apply merge_spec; assumption.
  - pose proof (pmerge_none_r op ltr s' Ws) as H. destruct (babsorbing op); exact H.
  - pose proof (pmerge_none_l op ltr t' Wt) as H. destruct (babsorbing op); exact H.
  - unfold pmerge_result, mres. destruct (babsorbing op); cbn [fst snd]; repeat split; auto; intros; discriminate.
Qed.

(* patricia_tree::merge_with: on bottom the tree is left as it was *)
Theorem pt_merge_with_spec op s t :
  wfp s -> wfp t -> pall_ok s -> pall_ok t ->
  match pt_merge_with veq s t op with
  | (true, r) =>
    r = s /\
    exists k a b, pget s k = Some a /\ pget t k = Some b /\ fst (app_op op true k a b) = true
  | (false, r) => pmerge_result op true s t (false, r)
  end.
Proof.
  intros Ws Wt Os Ot. pose proof (pmerge_spec op true s t Ws Wt Os Ot) as M.
  unfold pt_merge_with. destruct (pmerge veq op true s t) as [[|] r]; [|exact M].
  split; [reflexivity|]. apply M.
Qed.

(* the physical-equality shortcut of merge (s == t returns s) agrees with the model when
   the operator is idempotent on stored values *)
Theorem merge_idem op ltr s :
  (forall k v, Vok v -> bapply op k v v = (false, Some v)) ->
  wf s -> all_ok s -> merge veq op ltr s s = (false, Some s).
Proof.
  intros Hid. induction s as [k v|p m l IHl r IHr]; intros Ws Os.
  - assert (Hv : Vok v) by (apply (Os k); cbn [get]; rewrite N.eqb_refl; reflexivity).
    assert (A : forall lr, app_op op lr k v v = (false, Some v)).
    { intros lr. unfold app_op. destruct lr; apply Hid; exact Hv. }
    rewrite merge_eq. unfold merge_leaf_l. destruct (babsorbing op).
    + cbn [lookup]. rewrite N.eqb_refl. rewrite combine_leaf_spec by exact Hv.
      fold (app_op op ltr k v v). rewrite A. reflexivity.
    + cbn [insert]. rewrite N.eqb_refl. rewrite combine_leaf_spec by exact Hv.
      fold (app_op op (negb ltr) k v v). rewrite A. reflexivity.
  - pose proof Ws as (Hm & Hc & Fl & Fr & Wl & Wr).
    destruct (all_ok_node _ _ _ _ Ws Os) as [Ol Or].
    rewrite merge_eq. rewrite !N.eqb_refl. cbn [andb].
    rewrite (IHl Wl Ol), (IHr Wr Or). reflexivity.
Qed.

(* comparison of two optional bindings: an absent binding is the default value, which
   is the greatest (default_is_top) or the least element and differs from every stored
   value *)
Definition ole (po : porder V) (ltr : bool) (oa ob : option V) : bool :=
  match oa, ob with
  | Some a, Some b => if ltr then pleq po a b else pleq po b a
  | Some _, None => if ltr then pdefault_is_top po else negb (pdefault_is_top po)
  | None, Some _ => if ltr then negb (pdefault_is_top po) else pdefault_is_top po
  | None, None => true
  end.

Lemma ole_flip (po : porder V) ltr a b : ole po (negb ltr) a b = ole po ltr b a.
Proof. destruct a, b, ltr; reflexivity. Qed.

Lemma compare_eq (po : porder V) ltr (s t : tree) :
  compare po ltr s t =
  match s with
  | Leaf ks vs => compare_leaf po ltr ks vs t
  | Node ps ms sl sr =>
    match t with
    | Leaf kt vt => compare_leaf po (negb ltr) kt vt s
    | Node pt mt tl tr =>
      if (ms =? mt) && (ps =? pt) then
        compare po ltr sl tl && compare po ltr sr tr
      else if (mt <? ms) && match_prefix pt ps ms then
        if (ltr && negb (pdefault_is_top po)) || (negb ltr && pdefault_is_top po) then false
        else if zero_bit pt ms then compare po ltr sl t else compare po ltr sr t
      else if (ms <? mt) && match_prefix ps pt mt then
        if (ltr && pdefault_is_top po) || (negb ltr && negb (pdefault_is_top po)) then false
        else if zero_bit ps mt then compare po ltr s tl else compare po ltr s tr
      else false
    end
  end.
Proof. destruct s; destruct t; reflexivity. Qed.

Lemma compare_leaf_spec (po : porder V) ltr k v (t : tree) :
  wf t ->
  (compare_leaf po ltr k v t = true <->
   forall k0, ole po ltr (get (Leaf k v) k0) (get t k0) = true).
Proof.
  intros Wt. unfold compare_leaf. rewrite (lookup_get t k Wt).
  destruct (get t k) as [v'|] eqn:G.
  - destruct (if ltr then pleq po v v' else pleq po v' v) eqn:L; cbn [negb].
    + destruct t as [k' v''|p m l r].
      * assert (k' = k) by (apply get_leaf_some in G; destruct G; congruence). subst k'.
        rewrite !andb_false_r. split; [intros _|reflexivity].
        intros k0. cbn [get]. destruct (N.eqb_spec k k0) as [<-|]; [|reflexivity].
        cbn [get] in G. rewrite N.eqb_refl in G. inversion G; subst. exact L.
      * destruct (node_two_keys p m l r Wt k) as [k1 [b [Hne Hk1]]].
        set (T := Node p m l r) in *.
        assert (Hs1 : get (Leaf k v) k1 = None).
        { cbn [get]. destruct (N.eqb_spec k k1); [congruence|reflexivity]. }
        rewrite !andb_true_r. split.
        -- intros H k0. cbn [get]. destruct (N.eqb_spec k k0) as [<-|].
           ++ rewrite G. exact L.
           ++ destruct (get T k0); [|reflexivity]. cbn [ole].
              destruct ltr, (pdefault_is_top po); cbn in H |- *; congruence.
        -- intros H. specialize (H k1). rewrite Hs1, Hk1 in H. cbn [ole] in H.
           destruct ltr, (pdefault_is_top po); cbn in H |- *; congruence.
    + split; [discriminate|]. intros H. specialize (H k). cbn [get] in H.
      rewrite N.eqb_refl, G in H. cbn [ole] in H. congruence.
  - split; [discriminate|]. intros H.
    destruct (get_inhabited t) as [k1 [b Hk1]].
    assert (Hne : k1 <> k) by (intros ->; congruence).
    pose proof (H k) as Q0. pose proof (H k1) as Q1. cbn [get] in Q0, Q1.
    rewrite N.eqb_refl, G in Q0. destruct (N.eqb_spec k k1); [congruence|].
    rewrite Hk1 in Q1. cbn [ole] in Q0, Q1.
    destruct ltr, (pdefault_is_top po); cbn in Q0, Q1; congruence.
Qed.

Lemma ole_halves (po : porder V) ltr p m fs ft sl sr tl tr :
  halves p m fs sl sr -> halves p m ft tl tr ->
  ((forall k, ole po ltr (fs k) (ft k) = true) <->
   (forall k, ole po ltr (pget sl k) (pget tl k) = true) /\
   (forall k, ole po ltr (pget sr k) (pget tr k) = true)).
Proof.
  intros (_ & _ & Hs) (_ & _ & Ht). split.
  - intros H. split; intros k; specialize (H k); specialize (Hs k); specialize (Ht k);
      destruct (N.testbit k (N.log2 m)); destruct Hs as [E1 E2], Ht as [E3 E4];
      rewrite ?E1, ?E3; try reflexivity; rewrite <- E2, <- E4; exact H.
  - intros [HL HR] k. specialize (Hs k). specialize (Ht k).
    destruct (N.testbit k (N.log2 m)); destruct Hs as [_ ->], Ht as [_ ->]; [apply HR|apply HL].
Qed.

Lemma pcompare_none_r (po : porder V) ltr (u : tree) :
  pcompare po ltr (Some u) None = true <-> forall k, ole po ltr (get u k) None = true.
Proof.
  cbn [pcompare pcompare_gen]. destruct (get_inhabited u) as [k1 [a1 Hk1]]. split.
  - intros H k. destruct (get u k); [|reflexivity]. cbn [ole].
    destruct ltr, (pdefault_is_top po); cbn in H |- *; congruence.
  - intros H. specialize (H k1). rewrite Hk1 in H. cbn [ole] in H.
    destruct ltr, (pdefault_is_top po); cbn in H |- *; congruence.
Qed.

Lemma pcompare_none_l (po : porder V) ltr (u : tree) :
  pcompare po ltr None (Some u) = true <-> forall k, ole po ltr None (get u k) = true.
Proof.
  replace (pcompare po ltr None (Some u)) with (pcompare po (negb ltr) (Some u) None)
    by (cbn; destruct ltr, (pdefault_is_top po); reflexivity).
  rewrite pcompare_none_r. split; intros H k; specialize (H k); rewrite ole_flip in *; exact H.
Qed.

Lemma guard_true (c x : bool) : (if c then false else x) = true <-> x = true /\ negb c = true.
Proof. destruct c; cbn [negb]; intuition discriminate. Qed.

Theorem compare_spec (po : porder V) ltr : forall s t : tree,
  wf s -> wf t ->
  (compare po ltr s t = true <-> forall k, ole po ltr (get s k) (get t k) = true).
Proof.
  induction s as [ks vs|ps ms sl IHsl sr IHsr].
  - intros t _ Wt. rewrite compare_eq. apply compare_leaf_spec; exact Wt.
  - induction t as [kt vt|pt mt tl IHtl tr IHtr]; intros Ws Wt.
    + rewrite compare_eq. rewrite (compare_leaf_spec po (negb ltr) kt vt _ Ws).
      split; intros H k; specialize (H k); rewrite ole_flip in *; exact H.
    + rewrite compare_eq.
      pose proof Ws as (_ & _ & _ & _ & Wsl & Wsr). pose proof Wt as (_ & _ & _ & _ & Wtl & Wtr).
      pose proof (halves_node _ _ _ _ Ws) as HS. pose proof (halves_node _ _ _ _ Wt) as HT.
      destruct (two_nodes _ _ _ _ _ _ _ _ Ws Wt)
        as [[E1 E2]|(-> & [(-> & H)|(-> & [(-> & H)|(-> & D)])])].
      * subst mt pt. rewrite !N.eqb_refl. cbn [andb].
        rewrite andb_true_iff, (ole_halves po ltr _ _ _ _ _ _ _ _ HS HT),
          (IHsl tl Wsl Wtl), (IHsr tr Wsr Wtr). reflexivity.
      * rewrite guard_true. destruct (zero_bit pt ms);
          rewrite (ole_halves po ltr _ _ _ _ _ _ _ _ HS H).
        -- rewrite (IHsl _ Wsl Wt), <- (pcompare_none_r po ltr sr). reflexivity.
        -- rewrite (IHsr _ Wsr Wt), <- (pcompare_none_r po ltr sl). apply and_comm.
      * rewrite guard_true. destruct (zero_bit ps mt);
          rewrite (ole_halves po ltr _ _ _ _ _ _ _ _ H HT).
        -- rewrite (IHtl Ws Wtl), <- (pcompare_none_l po ltr tr). reflexivity.
        -- rewrite (IHtr Ws Wtr), <- (pcompare_none_l po ltr tl). apply and_comm.
      * set (S := Node ps ms sl sr) in *. set (T := Node pt mt tl tr) in *.
        split; [discriminate|]. intros H.
        destruct (get_inhabited S) as [k1 [a1 Hk1]]. destruct (get_inhabited T) as [k2 [b2 Hk2]].
        assert (G1 : get T k1 = None).
        { destruct (get T k1) as [b|] eqn:G; [|reflexivity].
          exfalso. exact (disjoint_ranges S T k1 a1 b Ws Wt D Hk1 G). }
        assert (G2 : get S k2 = None).
        { destruct (get S k2) as [a|] eqn:G; [|reflexivity].
          exfalso. exact (disjoint_ranges S T k2 a b2 Ws Wt D G Hk2). }
        pose proof (H k1) as H1. pose proof (H k2) as H2.
        rewrite Hk1, G1 in H1. rewrite Hk2, G2 in H2. cbn [ole] in H1, H2.
        destruct ltr, (pdefault_is_top po); cbn in H1, H2; congruence.
Qed.

Theorem pcompare_spec (po : porder V) ltr (s t : ptree) :
  wfp s -> wfp t ->
  (pcompare po ltr s t = true <-> forall k, ole po ltr (pget s k) (pget t k) = true).
Proof.
  intros Ws Wt. destruct s as [s'|], t as [t'|].
  - apply compare_spec; assumption.
  - apply pcompare_none_r.
  - apply pcompare_none_l.
  - split; auto.
Qed.

(* the physical-equality shortcut of compare (s == t answers yes) agrees with the model
   for a reflexive order *)
Theorem compare_refl (po : porder V) ltr (s : tree) :
  (forall v, Vok v -> pleq po v v = true) -> wf s -> all_ok s -> compare po ltr s s = true.
Proof.
  intros Hr Ws Os. apply compare_spec; [exact Ws|exact Ws|]. intros k.
  destruct (get s k) as [v|] eqn:G; [|reflexivity]. cbn [ole].
  rewrite (Hr v (Os k v G)). destruct ltr; reflexivity.
Qed.

Definition key_lt (a b : N * V) : Prop := fst a < fst b.

Lemma sorted_app (l1 l2 : list (N * V)) :
  StronglySorted key_lt l1 -> StronglySorted key_lt l2 ->
  (forall a b, In a l1 -> In b l2 -> key_lt a b) ->
  StronglySorted key_lt (l1 ++ l2).
Proof.
  induction l1 as [|x l1 IH]; intros S1 S2 H; [exact S2|].
  inversion S1; subst. cbn [app]. constructor.
  - apply IH; auto. intros a b Ha Hb. apply H; [right; exact Ha|exact Hb].
  - apply Forall_app. split; [assumption|].
    apply Forall_forall. intros b Hb. apply H; [left; reflexivity|exact Hb].
Qed.

Theorem elements_in t : forall k v,
  wf t -> (In (k, v) (elements t) <-> get t k = Some v).
Proof.
  induction t as [k' v'|p m l IHl r IHr]; intros k v Hwf.
  - cbn [elements In]. split.
    + intros [H|[]]. inversion H; subst. cbn [get]. rewrite N.eqb_refl. reflexivity.
    + intros H. apply get_leaf_some in H. destruct H as [-> ->]. left; reflexivity.
  - pose proof Hwf as (Hm & Hc & Fl & Fr & Wl & Wr).
    cbn [elements get]. rewrite in_app_iff, (IHl k v Wl), (IHr k v Wr). split.
    + intros [H|H]; [rewrite H; reflexivity|].
      destruct (node_disjoint p m l r k Hwf) as [E|E]; [rewrite E; exact H|congruence].
    + intros H. destruct (get l k) as [vl|]; [left; exact H|right; exact H].
Qed.

Theorem elements_sorted t : wf t -> StronglySorted key_lt (elements t).
Proof.
  induction t as [k' v'|p m l IHl r IHr]; intros Hwf.
  - cbn [elements]. constructor; constructor.
  - pose proof Hwf as (Hm & Hc & Fl & Fr & Wl & Wr).
    cbn [elements]. apply sorted_app; auto.
    intros [ka va] [kb vb] Ha Hb. unfold key_lt. cbn [fst].
    apply (elements_in l ka va Wl) in Ha. apply (elements_in r kb vb Wr) in Hb.
    destruct (left_keys _ _ _ _ _ Hc Wl Fl Ha) as [A1 A2].
    destruct (right_keys _ _ _ _ _ Hm Wr Fr Hb) as [B1 B2].
    destruct (range_order ka p _ Hc A1) as [O1 _].
    destruct (range_order kb p _ Hc B1) as [_ O2].
    specialize (O1 A2). specialize (O2 B2). lia.
Qed.

Theorem size_elements (t : tree) : size t = N.of_nat (length (elements t)).
Proof.
  induction t as [k v|p m l IHl r IHr]; [reflexivity|].
  cbn [size elements]. rewrite app_length, Nat2N.inj_add, IHl, IHr. reflexivity.
Qed.

Lemma size_pos (t : tree) : 0 < size t.
Proof.
  induction t as [k v|p m l IHl r IHr]; cbn [size]; lia.
Qed.

Theorem pelements_in t k v : wfp t -> (In (k, v) (pelements t) <-> pget t k = Some v).
Proof.
  destruct t as [t'|]; cbn [pelements pget]; [apply elements_in|].
  intros _. split; [intros []|discriminate].
Qed.

Theorem pelements_sorted t : wfp t -> StronglySorted key_lt (pelements t).
Proof. destruct t as [t'|]; cbn [pelements]; [apply elements_sorted|constructor]. Qed.

Theorem psize_elements (t : ptree) : psize t = N.of_nat (length (pelements t)).
Proof. destruct t; cbn [psize pelements]; [apply size_elements|reflexivity]. Qed.

Lemma psize_zero (t : ptree) : psize t = 0 <-> t = None.
Proof.
  destruct t as [t'|]; cbn [psize]; split; try reflexivity; try discriminate.
  intros H. pose proof (size_pos t'). lia.
Qed.

End Spec.

Arguments lvl {V}.
Arguments fits {V}.
Arguments pfits {V}.
Arguments wf {V}.
Arguments wfp {V}.
Arguments get {V}.
Arguments pget {V}.
Arguments ounion {V}.
Arguments all_ok {V}.
Arguments pall_ok {V}.
Arguments app_op {V}.
Arguments comb {V}.
Arguments mres {V}.
Arguments merge_result {V}.
Arguments pmerge_result {V}.
Arguments ins_result {V}.
Arguments obind {V}.
Arguments ole {V}.
Arguments key_lt {V}.
