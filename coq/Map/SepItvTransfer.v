(* SepItvTransfer.v — what the refinement of Map/SepItvRefine.v buys: theorems proved on the
   total-map model (Dom/ItvEnv*.v) hold for separate_domain over patricia trees.

   - concretisation: related environments have the same concretisation, so the soundness
     theorems of Dom/ItvEnvSound.v (property C03 at the environment layer) hold for the
     tree operations;
   - termination: the well-founded order of Dom/ItvEnvWiden.v (property C05) pulled back
     along the abstraction function [ie_abs] is strictly decreased by the tree widening
     whenever the tree inclusion test fails, and widening chains of trees become
     stationary with the same explicit bound. *)
From Coq Require Import NArith ZArith Bool List Lia Arith Wellfounded.
From CrabV Require Import Base.ZInf Scalar.Itv Scalar.ItvSound Ir.Syntax.
From CrabV Require Import Map.Patricia Map.SepDomain Map.SepDomainSound Map.SepItv.
From CrabV Require Import Dom.ItvEnv Dom.ItvEnvSound Dom.ItvEnvWiden Map.SepItvRefine.
From CrabV Require Fix.Thresholds Fix.ThresholdsSound.
Import ListNotations.

Definition eqv (e e' : env) : Prop :=
  e_is_bot e = e_is_bot e' /\ forall k, e_at e k = e_at e' k.

Lemma IR_eqv s e e' : IR s e -> IR s e' -> eqv e e'.
Proof.
  intros (_ & B & A) (_ & B' & A'). split; [congruence|]. intros k. rewrite <- A, <- A'. reflexivity.
Qed.

Lemma IR_eqv_r s e e' : IR s e -> eqv e e' -> IR s e'.
Proof.
  intros (Ok & B & A) [B' A']. split; [exact Ok|]. split; [congruence|].
  intros k. rewrite <- A'. apply A.
Qed.

Definition ie_gamma (s : ienv) (st : store) : Prop :=
  sbot s = false /\ forall k, gamma (ie_at s k) (st k).

Theorem IR_gamma s e st : IR s e -> (ie_gamma s st <-> genv e st).
Proof.
  intros H. destruct (IR_inv s e H) as [(Hb & ->)|(Hb & m & -> & A)]; cbn [genv].
  - split; [intros [X _]; congruence|intros []].
  - split.
    + intros [_ G] k. rewrite <- A. apply G.
    + intros G. split; [exact Hb|]. intros k. rewrite A. apply G.
Qed.

(* soundness of the tree operations, obtained from the list-level theorems through the
   abstraction function *)
Lemma gamma_abs a st : ie_ok a -> (ie_gamma a st <-> genv (ie_abs a) st).
Proof. intros Oa. exact (IR_gamma _ _ st (IR_abs a Oa)). Qed.

Theorem ie_join_sound a b st :
  ie_ok a -> ie_ok b -> ie_gamma a st \/ ie_gamma b st -> ie_gamma (ie_join a b) st.
Proof.
  intros Oa Ob G. apply (IR_gamma _ _ st (IR_join _ _ _ _ (IR_abs a Oa) (IR_abs b Ob))), e_join_sound.
  rewrite <- !gamma_abs by assumption. exact G.
Qed.

Theorem ie_widen_sound a b st :
  ie_ok a -> ie_ok b -> ie_gamma a st \/ ie_gamma b st -> ie_gamma (ie_widen a b) st.
Proof.
  intros Oa Ob G. apply (IR_gamma _ _ st (IR_widen _ _ _ _ (IR_abs a Oa) (IR_abs b Ob))), e_widen_sound.
  rewrite <- !gamma_abs by assumption. exact G.
Qed.

Theorem ie_meet_sound a b st :
  ie_ok a -> ie_ok b -> ie_gamma a st -> ie_gamma b st -> ie_gamma (ie_meet a b) st.
Proof.
  intros Oa Ob Ga Gb. apply (IR_gamma _ _ st (IR_meet _ _ _ _ (IR_abs a Oa) (IR_abs b Ob))).
  apply e_meet_sound; apply gamma_abs; assumption.
Qed.

Theorem ie_narrow_sound a b st :
  ie_ok a -> ie_ok b -> ie_gamma a st -> ie_gamma b st -> ie_gamma (ie_narrow a b) st.
Proof.
  intros Oa Ob Ga Gb. apply (IR_gamma _ _ st (IR_narrow _ _ _ _ (IR_abs a Oa) (IR_abs b Ob))).
  apply e_narrow_sound; apply gamma_abs; assumption.
Qed.

Theorem ie_set_sound a st x v z :
  ie_ok a -> iwf v -> ie_gamma a st -> gamma v z -> ie_gamma (ie_set a x v) (upd st x z).
Proof.
  intros Oa W Ga Gv. apply (IR_gamma _ _ _ (IR_set _ _ x v (IR_abs a Oa) W)).
  apply e_set_sound; [apply gamma_abs; assumption|exact Gv].
Qed.

Theorem ie_forget_sound a st x z :
  ie_ok a -> ie_gamma a st -> ie_gamma (ie_forget a x) (upd st x z).
Proof.
  intros Oa Ga. apply (IR_gamma _ _ _ (IR_forget _ _ x (IR_abs a Oa))).
  apply e_forget_sound, gamma_abs; assumption.
Qed.

Theorem ie_leq_sound a b st :
  ie_ok a -> ie_ok b -> ie_leq a b = true -> ie_gamma a st -> ie_gamma b st.
Proof.
  intros Oa Ob L Ga. apply gamma_abs; [exact Ob|]. apply (e_leq_sound (ie_abs a)).
  - rewrite <- (IR_leq _ _ _ _ (IR_abs a Oa) (IR_abs b Ob)). exact L.
  - apply gamma_abs; assumption.
Qed.

Section Measure.
Variable bc : itv -> nat.
Hypothesis bc_top : bc itop = 0.

Lemma mmeasure_eqv x y : (forall k, get x k = get y k) -> mmeasure bc x = mmeasure bc y.
Proof.
  intros E. apply Nat.le_antisymm; apply (mmeasure_le bc bc_top); intros k; rewrite (E k); lia.
Qed.

Lemma env_lt_eqv b b' a a' : eqv b b' -> eqv a a' -> env_lt bc b a -> env_lt bc b' a'.
Proof.
  intros [Bb Ab] [Ba Aa].
  destruct a as [|x], a' as [|x'], b as [|y], b' as [|y']; cbn [e_is_bot] in Ba, Bb;
    try discriminate; cbn [env_lt]; auto.
  cbn [e_at] in Aa, Ab. rewrite (mmeasure_eqv x x' Aa), (mmeasure_eqv y y' Ab). auto.
Qed.

(* a strict decrease proved on the list side holds between the lists read off the trees *)
Lemma lt_abs s e a : IR s e -> env_lt bc e (ie_abs a) -> env_lt bc (ie_abs s) (ie_abs a).
Proof.
  intros H L. apply (env_lt_eqv e _ (ie_abs a) (ie_abs a)); [|split; reflexivity|exact L].
  exact (IR_eqv _ _ _ H (IR_abs _ (IR_ok _ _ H))).
Qed.
End Measure.

Definition ie_lt (b a : ienv) : Prop := e_lt (ie_abs b) (ie_abs a).

Theorem ie_lt_wf : well_founded ie_lt.
Proof. exact (wf_inverse_image ienv env e_lt ie_abs e_lt_wf). Qed.

(* property C05 on the tree representation: a widening step asked for by the inclusion test
   moves strictly down a well-founded order *)
Theorem ie_widen_progress a b :
  ie_ok a -> ie_ok b -> ie_leq b a = false -> ie_lt (ie_widen a b) a.
Proof.
  intros Oa Ob L. pose proof (IR_abs a Oa) as Ha. pose proof (IR_abs b Ob) as Hb.
  apply (lt_abs bcount eq_refl _ _ a (IR_widen _ _ _ _ Ha Hb)).
  apply e_widen_progress; [exact (IR_env_ok _ _ Ha)|exact (IR_env_ok _ _ Hb)|].
  rewrite <- (IR_leq _ _ _ _ Hb Ha). exact L.
Qed.

(* the same with crab::thresholds (Fix/Thresholds.v) *)
Definition ie_lt_thr (t : Thresholds.thr) (b a : ienv) : Prop := e_lt_thr t (ie_abs b) (ie_abs a).

Theorem ie_lt_thr_wf t : well_founded (ie_lt_thr t).
Proof. exact (wf_inverse_image ienv env (e_lt_thr t) ie_abs (e_lt_thr_wf t)). Qed.

Theorem ie_widen_thr_progress t a b :
  ThresholdsSound.wf_thr t -> ie_ok a -> ie_ok b -> ie_leq b a = false ->
  ie_lt_thr t (ie_widen_crab_thr t a b) a.
Proof.
  intros W Oa Ob L. pose proof (IR_abs a Oa) as Ha. pose proof (IR_abs b Ob) as Hb.
  apply (lt_abs (tcount t) (tcount_top t) _ _ a (IR_widen_crab_thr t _ _ _ _ W Ha Hb)).
  apply (e_widen_thr_progress t W); [exact (IR_env_ok _ _ Ha)|exact (IR_env_ok _ _ Hb)|].
  rewrite <- (IR_leq _ _ _ _ Hb Ha). exact L.
Qed.

Section Chain.
Variable x0 : ienv.
Variable ys : nat -> ienv.
Hypothesis x0_ok : ie_ok x0.
Hypothesis ys_ok : forall i, ie_ok (ys i).

Fixpoint iechain (i : nat) : ienv :=
  match i with O => x0 | S j => ie_widen (iechain j) (ys j) end.
Definition ie_nonstationary (i : nat) : bool := negb (ie_leq (iechain (S i)) (iechain i)).
Definition ie_refused (i : nat) : bool := negb (ie_leq (ys i) (iechain i)).

Let x0' := ie_abs x0.
Let ys' := fun i => ie_abs (ys i).

Lemma IR_chain i : IR (iechain i) (ewchain x0' ys' i).
Proof.
  induction i as [|i IH]; [exact (IR_abs x0 x0_ok)|].
  change (ewchain x0' ys' (S i)) with (e_widen (ewchain x0' ys' i) (ys' i)).
  cbn [iechain]. apply IR_widen; [exact IH|exact (IR_abs _ (ys_ok i))].
Qed.

Lemma iechain_ok i : ie_ok (iechain i).
Proof. exact (IR_ok _ _ (IR_chain i)). Qed.

Lemma ie_nonstationary_eq i : ie_nonstationary i = ew_nonstationary x0' ys' i.
Proof.
  unfold ie_nonstationary, ew_nonstationary, enonstationary. f_equal.
  exact (IR_leq _ _ _ _ (IR_chain (S i)) (IR_chain i)).
Qed.

Lemma ie_refused_eq i : ie_refused i = ew_refused x0' ys' i.
Proof.
  unfold ie_refused, ew_refused, erefused. f_equal.
  exact (IR_leq _ _ _ _ (IR_abs _ (ys_ok i)) (IR_chain i)).
Qed.

(* number of bounds of the stored intervals that are not already infinite *)
Definition ie_measure (s : ienv) : nat := emeasure (pelements (stree s)).

(* the premises of the list-level chain theorems *)
Lemma chain_list_side j :
  sbot (iechain j) = false -> (forall i, i < j -> sbot (iechain i) = true) ->
  env_ok x0' /\ (forall i, env_ok (ys' i)) /\
  exists m, ewchain x0' ys' j = EMap m /\ (forall i, i < j -> ewchain x0' ys' i = EBot) /\
            emeasure m = ie_measure (iechain j).
Proof.
  intros Hb B. split; [exact (IR_env_ok _ _ (IR_abs x0 x0_ok))|].
  split; [intros i; exact (IR_env_ok _ _ (IR_abs _ (ys_ok i)))|].
  destruct (IR_inv _ _ (IR_chain j)) as [(X & _)|(_ & m & E & A)]; [congruence|].
  exists m. split; [exact E|]. split.
  - intros i L. apply e_is_bot_true. rewrite <- (IR_bot _ _ (IR_chain i)). apply B. exact L.
  - apply (mmeasure_eqv bcount eq_refl). intros k. rewrite <- A.
    pose proof (IR_abs _ (iechain_ok j)) as H'. unfold ie_abs in H'. rewrite Hb in H'.
    exact (IR_at _ _ k H').
Qed.

(* widening chains of tree environments become stationary: at most 1 + (measure of the
   first non-bottom iterate) steps change the iterate, for any sequence of arguments *)
Theorem ie_widen_chain_stabilises j :
  sbot (iechain j) = false -> (forall i, i < j -> sbot (iechain i) = true) ->
  forall n, length (filter ie_nonstationary (seq 0 n)) <= 1 + ie_measure (iechain j).
Proof.
  intros Hb B n. destruct (chain_list_side j Hb B) as (O0 & Oy & m & E & P & <-).
  rewrite (filter_ext _ _ ie_nonstationary_eq).
  exact (e_widen_chain_stabilises x0' ys' O0 Oy j m E P n).
Qed.

(* ... and the inclusion test of the fixpoint engine fails at most that many times *)
Theorem ie_widen_chain_refusals j :
  sbot (iechain j) = false -> (forall i, i < j -> sbot (iechain i) = true) ->
  forall n, length (filter ie_refused (seq 0 n)) <= 1 + ie_measure (iechain j).
Proof.
  intros Hb B n. destruct (chain_list_side j Hb B) as (O0 & Oy & m & E & P & <-).
  rewrite (filter_ext _ _ ie_refused_eq).
  exact (e_widen_chain_refusals x0' ys' O0 Oy j m E P n).
Qed.
End Chain.

(* non-vacuity: a chain of trees that needs two widening steps *)
Example ie_chain_example :
  let i01 := mkI (Fin 0) (Fin 1) in
  let x0 := ie_set ie_top 1%N (mkI (Fin 0) (Fin 0)) in
  let ys := fun i : nat => ie_set ie_top 1%N (mkI (Fin (- Z.of_nat i)) (Fin 1)) in
  sbot x0 = false /\ ie_measure x0 = 2 /\
  map (ie_nonstationary x0 ys) (seq 0 4) = [true; true; false; false] /\
  s_elements (iechain x0 ys 4) = Some [].
Proof. vm_compute. repeat split. Qed.
