(* SepItvRefine.v — refinement between the two models of crab's interval environments:

     (L1) Map/SepDomain.v + Map/SepItv.v : separate_domain<variable, interval> over patricia
          trees ([ienv] = bottom flag + tree, top bindings never stored), and
     (L2) Dom/ItvEnv.v : [env] = EBot | EMap (association list read as a total map with
          default top), the layer under Dom/ItvDomain.v and all the analyzers.

   [IR s e] ("s implements e"): s satisfies the tree invariant [ie_ok], s and e are bottom
   together, and every variable has the same interval in both ([ie_at] / [e_at]).
   Every operation of L2 is simulated by its L1 counterpart: related arguments give related
   results; the boolean queries (is_bottom, is_top, <=) return the same answer; iteration
   over the tree yields exactly the list [bindings] of the association list.

   Keys: both levels use [N] (Ir.Syntax.var = N = ikos::index_t), related by equality. *)
From Coq Require Import NArith ZArith Bool List Lia Sorting.Sorted.
From CrabV Require Import Base.ZInf Scalar.Itv Ir.Syntax.
From CrabV Require Import Map.Patricia Map.PatriciaSpec Map.SepDomain Map.SepDomainSound Map.SepItv.
(* imported last: get / remove / keys / merge / comb / build below are those of Dom/ItvEnv.v *)
From CrabV Require Import Dom.ItvEnv Dom.ItvEnvSound Dom.ItvEnvWiden.
From CrabV Require Fix.Thresholds Fix.ThresholdsSound.
Import ListNotations.
Local Open Scope N_scope.

Definition same_at (s : ienv) (e : env) : Prop := forall k, ie_at s k = e_at e k.
Definition itv_refines (s : ienv) (e : env) : Prop := sbot s = e_is_bot e /\ same_at s e.
Definition IR (s : ienv) (e : env) : Prop := ie_ok s /\ itv_refines s e.

Lemma IR_ok s e : IR s e -> ie_ok s.
Proof. intros [H _]; exact H. Qed.
Lemma IR_bot s e : IR s e -> sbot s = e_is_bot e.
Proof. intros (_ & H & _); exact H. Qed.
Lemma IR_at s e k : IR s e -> ie_at s k = e_at e k.
Proof. intros (_ & _ & H); apply H. Qed.

Lemma e_is_bot_true e : e_is_bot e = true -> e = EBot.
Proof. destruct e; [reflexivity|discriminate]. Qed.
Lemma e_is_bot_false e : e_is_bot e = false -> exists m, e = EMap m.
Proof. destruct e as [|m]; [discriminate|]. exists m; reflexivity. Qed.

Lemma ie_at_bot s k : sbot s = true -> ie_at s k = ibot.
Proof. intros H. unfold ie_at, s_at. rewrite H. reflexivity. Qed.

Lemma IR_intro_bot s : ie_ok s -> sbot s = true -> IR s EBot.
Proof.
  intros Ok Hb. split; [exact Ok|]. split; [exact Hb|]. intros k. apply ie_at_bot; exact Hb.
Qed.

Lemma IR_intro_map s m :
  ie_ok s -> sbot s = false -> (forall k, ie_at s k = get m k) -> IR s (EMap m).
Proof. intros Ok Hb H. split; [exact Ok|]. split; [exact Hb|exact H]. Qed.

Lemma IR_inv s e :
  IR s e ->
  (sbot s = true /\ e = EBot) \/
  (sbot s = false /\ exists m, e = EMap m /\ forall k, ie_at s k = get m k).
Proof.
  intros (Ok & Hb & H). destruct e as [|m]; cbn [e_is_bot] in Hb.
  - left. split; [exact Hb|reflexivity].
  - right. split; [exact Hb|]. exists m. split; [reflexivity|exact H].
Qed.

Lemma IR_top : IR ie_top e_top.
Proof. apply IR_intro_map; [apply ie_ok_top|reflexivity|reflexivity]. Qed.
Lemma IR_bottom : IR ie_bottom EBot.
Proof. apply IR_intro_bot; [apply ie_ok_bottom|reflexivity]. Qed.

(* what the relation gives on the association-list side: every value read from the list is
   well formed and not bottom *)
Definition mgood (m : amap) : Prop := forall k, iwf (get m k) /\ is_bot (get m k) = false.

Lemma IR_mgood s m : IR s (EMap m) -> mgood m.
Proof.
  intros (Ok & Hb & H) k. cbn [e_is_bot] in Hb. specialize (H k). cbn [e_at] in H. rewrite <- H.
  split; [apply ie_at_wf; assumption|].
  exact (at_not_bot itv itop ibot is_top is_bot iwf eq_refl s k Ok Hb).
Qed.

Lemma mgood_map_ok m : mgood m -> map_ok m.
Proof. intros H k. apply H. Qed.

(* the L2 invariant of Dom/ItvEnvWiden.v follows from the relation *)
Lemma IR_env_ok s e : IR s e -> env_ok e.
Proof.
  intros H. destruct e as [|m]; [exact I|]. apply mgood_map_ok. exact (IR_mgood s m H).
Qed.

Lemma iwf_nonbot_wf v : iwf v -> is_bot v = false -> ItvSound.wf v.
Proof.
  intros [W1 W2] B. right. split; [exact W1|]. split; [exact W2|].
  apply ItvSound.is_bot_false_ble. exact B.
Qed.

Lemma wf_iwf v : ItvSound.wf v -> iwf v.
Proof.
  intros [->|(H1 & H2 & _)]; [apply iwf_bot|]. split; assumption.
Qed.

Lemma get_put m k v k' : iwf v -> get (put m k v) k' = if N.eqb k' k then v else get m k'.
Proof.
  intros W. destruct (N.eqb_spec k' k) as [->|NE].
  - rewrite get_put_same. exact (ntop_itv v W).
  - apply get_put_other; exact NE.
Qed.

Lemma get_remove m k k' : get (remove m k) k' = if N.eqb k' k then itop else get m k'.
Proof.
  destruct (N.eqb_spec k' k) as [->|NE].
  - apply get_remove_same.
  - apply get_remove_other; exact NE.
Qed.

Lemma keys_bound m : forall k, In k (keys m) -> k <= fold_right N.max 0 (keys m).
Proof.
  unfold keys. induction m as [|[k0 v0] r IH]; cbn [map fold_right fst]; intros k H; [destruct H|].
  destruct H as [->|H]; [lia|]. specialize (IH k H). lia.
Qed.

Lemma get_fresh m : exists k, get m k = itop.
Proof.
  exists (N.succ (fold_right N.max 0 (keys m))). apply get_not_key.
  intros H. apply keys_bound in H. lia.
Qed.

(* pointwise equality alone already forces the same bottomness: a key outside the list
   reads top there, and a non-bottom tree never reads bottom *)
Lemma same_at_bot s e : ie_ok s -> same_at s e -> sbot s = e_is_bot e.
Proof.
  intros Ok H. destruct (sbot s) eqn:Hb, e as [|m]; cbn [e_is_bot]; try reflexivity; exfalso.
  - destruct (get_fresh m) as [k E]. specialize (H k). cbn [e_at] in H.
    rewrite (ie_at_bot s k Hb), E in H. discriminate H.
  - specialize (H 0). cbn [e_at] in H.
    pose proof (at_not_bot itv itop ibot is_top is_bot iwf eq_refl s 0 Ok Hb) as B.
    fold (ie_at s 0) in B. rewrite H in B. discriminate B.
Qed.

Theorem IR_of_same_at s e : ie_ok s -> same_at s e -> IR s e.
Proof.
  intros Ok H. split; [exact Ok|]. split; [apply same_at_bot; assumption|exact H].
Qed.

Theorem IR_is_bottom s e : IR s e -> s_is_bottom s = e_is_bot e.
Proof. intros H. exact (IR_bot s e H). Qed.

Lemma l2_is_top_iff m : e_is_top (EMap m) = true <-> forall k, is_top (get m k) = true.
Proof.
  cbn [e_is_top]. rewrite forallb_forall. split.
  - intros H k. destruct (in_dec N.eq_dec k (keys m)) as [I|I]; [apply H; exact I|].
    rewrite (get_not_key m k I). reflexivity.
  - intros H k _. apply H.
Qed.

Theorem IR_is_top s e : IR s e -> s_is_top s = e_is_top e.
Proof.
  intros H. apply eq_true_iff_eq. rewrite (ie_is_top_spec s (IR_ok s e H)).
  destruct (IR_inv s e H) as [(Hb & ->)|(Hb & m & -> & A)].
  - split; [intros [X _]; congruence|discriminate].
  - rewrite l2_is_top_iff. split.
    + intros [_ T] k. rewrite <- A, T. reflexivity.
    + intros T. split; [exact Hb|]. intros k. apply iwf_top_eq.
      * apply ie_at_wf; [exact (IR_ok _ _ H)|exact Hb].
      * rewrite A. apply T.
Qed.

Lemma l2_leq_iff x y :
  e_leq (EMap x) (EMap y) = true <-> forall k, ileq (get x k) (get y k) = true.
Proof.
  cbn [e_leq]. rewrite forallb_forall. split.
  - intros H k. destruct (in_dec N.eq_dec k (keys x ++ keys y)) as [I|I]; [apply H; exact I|].
    rewrite (get_not_key x k), (get_not_key y k); [reflexivity| |];
      intros J; apply I; apply in_or_app; [right|left]; exact J.
  - intros H k _. apply H.
Qed.

(* the inclusion tests give the same boolean *)
Theorem IR_leq s e s' e' : IR s e -> IR s' e' -> ie_leq s s' = e_leq e e'.
Proof.
  intros H H'. apply eq_true_iff_eq.
  rewrite (ie_leq_spec s s' (IR_ok _ _ H) (IR_ok _ _ H')).
  destruct (IR_inv s e H) as [(Hb & ->)|(Hb & x & -> & A)].
  - split; [reflexivity|]. intros _. left; exact Hb.
  - destruct (IR_inv s' e' H') as [(Hb' & ->)|(Hb' & y & -> & A')].
    + cbn [e_leq]. split; [|discriminate]. intros [X|[X _]]; congruence.
    + rewrite l2_leq_iff. split.
      * intros [X|[_ L]]; [congruence|]. intros k. rewrite <- A, <- A'. apply L.
      * intros L. right. split; [exact Hb'|]. intros k. rewrite A, A'. apply L.
Qed.

Theorem IR_set s e k v : IR s e -> iwf v -> IR (ie_set s k v) (e_set e k v).
Proof.
  intros H W. destruct (ie_set_spec s k v (IR_ok _ _ H) W) as (Ok' & B' & A').
  destruct (IR_inv s e H) as [(Hb & ->)|(Hb & m & -> & A)].
  - cbn [e_set]. apply IR_intro_bot; [exact Ok'|]. rewrite B', Hb. reflexivity.
  - cbn [e_set]. rewrite Hb in B', A'. cbn [orb] in B', A'. destruct (is_bot v) eqn:Bv.
    + apply IR_intro_bot; assumption.
    + apply IR_intro_map; [exact Ok'|exact B'|]. intros k'.
      rewrite (A' eq_refl k'), (get_put m k v k' W), A. reflexivity.
Qed.

Theorem IR_forget s e k : IR s e -> IR (ie_forget s k) (e_forget e k).
Proof.
  intros H. destruct (ie_forget_spec s k (IR_ok _ _ H)) as (Ok' & B' & A').
  destruct (IR_inv s e H) as [(Hb & ->)|(Hb & m & -> & A)].
  - cbn [e_forget]. apply IR_intro_bot; [exact Ok'|]. rewrite B'. exact Hb.
  - cbn [e_forget]. apply IR_intro_map; [exact Ok'|rewrite B'; exact Hb|]. intros k'.
    rewrite (A' Hb k'), get_remove, A. reflexivity.
Qed.

(* weak update (the repaired join(k,v) of fixes/patricia-2.diff) *)
Theorem IR_join_kv s e k v : IR s e -> iwf v -> IR (ie_join_kv s k v) (e_join_key e k v).
Proof.
  intros H W. destruct (ie_join_kv_spec s k v (IR_ok _ _ H) W) as (Ok' & B' & A').
  destruct (IR_inv s e H) as [(Hb & ->)|(Hb & m & -> & A)].
  - cbn [e_join_key]. apply IR_intro_bot; [exact Ok'|]. rewrite B', Hb. reflexivity.
  - cbn [e_join_key]. rewrite Hb in B', A'. cbn [orb] in B', A'. destruct (is_bot v) eqn:Bv.
    + apply IR_intro_bot; assumption.
    + specialize (A' eq_refl). destruct ijoin_lub_like as (ijoin_wf & _ & ijoin_top_l & ijoin_top_r).
      destruct (IR_mgood _ _ H k) as [Wk Bk].
      assert (TOPCASE : is_top (ijoin (get m k) v) = true ->
                        forall k', ie_at (ie_join_kv s k v) k' = get (remove m k) k').
      { intros T k'. rewrite A', get_remove, <- A. destruct (k' =? k); [|reflexivity].
        rewrite A. apply iwf_top_eq; [apply ijoin_wf; assumption|exact T]. }
      destruct (is_top v) eqn:Tv.
      { apply IR_intro_map; [exact Ok'|exact B'|]. apply TOPCASE.
        apply ijoin_top_r; assumption. }
      destruct (is_top (get m k)) eqn:Tk.
      { apply IR_intro_map; [exact Ok'|exact B'|]. apply TOPCASE.
        apply ijoin_top_l; assumption. }
      apply IR_intro_map; [exact Ok'|exact B'|]. intros k'.
      rewrite A', (get_put m k _ k' (ijoin_wf _ _ Wk W)), <- !A. reflexivity.
Qed.

Lemma not_in_keys2 (x y : amap) k : ~ In k (keys x ++ keys y) -> get x k = itop /\ get y k = itop.
Proof.
  intros I. split; apply get_not_key; intros J; apply I; apply in_or_app; [left|right]; exact J.
Qed.

Section Lub.
Variable f : itv -> itv -> itv.
Hypothesis f_lub : lub_like f.

(* on good lists the absorbing merge never fails and is the pointwise operator *)
Lemma l2_lub x y :
  mgood x -> mgood y ->
  exists m, merge true f x y = Some m /\ forall k, get m k = f (get x k) (get y k).
Proof.
  destruct f_lub as (f_wf & f_not_bot & f_top_l & f_top_r). intros Gx Gy.
  assert (C : forall k, comb true true f x y k = f (get x k) (get y k)).
  { intros k. unfold comb. destruct (Gx k) as [Wx Bx], (Gy k) as [Wy By].
    destruct (is_top (get x k)) eqn:Tx.
    { symmetry. apply iwf_top_eq; [apply f_wf|apply f_top_l]; assumption. }
    destruct (is_top (get y k)) eqn:Ty.
    { symmetry. apply iwf_top_eq; [apply f_wf|apply f_top_r]; assumption. }
    reflexivity. }
  unfold merge.
  destruct (build_some (keys x ++ keys y) (comb true true f x y)) with (acc := @nil (var * itv))
    as [m E].
  { intros k _. rewrite C. apply f_not_bot; [apply Gx|apply Gy]. }
  exists m. split; [exact E|]. intros k. destruct (build_get _ _ _ _ E k) as [I1 I2].
  destruct (in_dec N.eq_dec k (keys x ++ keys y)) as [J|J].
  - rewrite (I1 J), C. apply ntop_itv. apply f_wf; [apply Gx|apply Gy].
  - rewrite (I2 J). destruct (not_in_keys2 x y k J) as [-> ->]. cbn [get].
    symmetry. apply iwf_top_eq; [apply f_wf; apply iwf_top|].
    apply f_top_l; [apply iwf_top|apply iwf_top|reflexivity].
Qed.

Let op2 (a b : env) : env :=
  match a, b with
  | EBot, _ => b | _, EBot => a
  | EMap x, EMap y => match merge true f x y with Some m => EMap m | None => EBot end
  end.

Lemma IR_lub s e s' e' :
  IR s e -> IR s' e' -> IR (s_lub itv is_top ieq f s s') (op2 e e').
Proof.
  intros H H'.
  destruct (ie_lub_spec f s s' f_lub (IR_ok _ _ H) (IR_ok _ _ H')) as (Ok' & L1 & L2 & L3).
  destruct (IR_inv s e H) as [(Hb & ->)|(Hb & x & -> & A)].
  - rewrite (L1 Hb). cbn [op2]. exact H'.
  - destruct (IR_inv s' e' H') as [(Hb' & ->)|(Hb' & y & -> & A')].
    + rewrite (L2 Hb Hb'). cbn [op2]. exact H.
    + destruct (L3 Hb Hb') as [B3 A3]. cbn [op2].
      destruct (l2_lub x y (IR_mgood _ _ H) (IR_mgood _ _ H')) as (m & E & G). rewrite E.
      apply IR_intro_map; [exact Ok'|exact B3|]. intros k. rewrite A3, G, A, A'. reflexivity.
Qed.
End Lub.

Theorem IR_join s e s' e' : IR s e -> IR s' e' -> IR (ie_join s s') (e_join e e').
Proof. exact (IR_lub ijoin ijoin_lub_like s e s' e'). Qed.

Theorem IR_widen s e s' e' : IR s e -> IR s' e' -> IR (ie_widen s s') (e_widen e e').
Proof. exact (IR_lub iwiden iwiden_lub_like s e s' e'). Qed.

(* widening with thresholds, for any pair of threshold functions that move outwards and do
   not produce the junk infinities: the same pair on both sides *)
Theorem IR_widen_thr gp gn s e s' e' :
  (forall v, ble (gp v) v = true) -> (forall v, ble v (gn v) = true) ->
  (forall v, gp v <> PInf) -> (forall v, gn v <> MInf) ->
  IR s e -> IR s' e' ->
  IR (s_lub itv is_top ieq (iwiden_thr gp gn) s s') (e_widen_thr gp gn e e').
Proof.
  intros Hp Hn Hp' Hn'.
  exact (IR_lub _ (iwiden_thr_lub_like gp gn Hp Hn (fun v _ => Hp' v) (fun v _ => Hn' v)) s e s' e').
Qed.

(* the thresholds of the C19 harness (a sorted list of integers) *)
Theorem IR_widen_thr_list ts s e s' e' :
  IR s e -> IR s' e' ->
  IR (ie_widen_thr ts s s')
     (e_widen_thr (SepDomain.thr_prev ts) (SepDomain.thr_next ts) e e').
Proof.
  exact (IR_widen_thr _ _ s e s' e' (SepItv.thr_prev_le ts) (SepItv.thr_next_ge ts)
                      (thr_prev_not_pinf ts) (thr_next_not_minf ts)).
Qed.

(* crab::thresholds (Fix/Thresholds.v), the thresholds of Dom/History.v and of the fixpoint
   engine: well-formed threshold vectors (-oo first, +oo last) are admissible *)
Definition ie_widen_crab_thr (t : Thresholds.thr) : ienv -> ienv -> ienv :=
  s_lub itv is_top ieq (iwiden_thr (Thresholds.thr_prev t) (Thresholds.thr_next t)).

Lemma crab_thr_not_pinf t v : ThresholdsSound.wf_thr t -> Thresholds.thr_prev t v <> PInf.
Proof.
  intros [mid ->]. unfold Thresholds.thr_prev.
  assert (X : match rev (fst (Thresholds.split_lt v (MInf :: mid ++ [PInf]))) with
              | p :: _ => p | [] => hd MInf (MInf :: mid ++ [PInf]) end <> PInf).
  { destruct (rev (fst (Thresholds.split_lt v (MInf :: mid ++ [PInf])))) as [|p r] eqn:R.
    - cbn [hd]. discriminate.
    - assert (I : In p (fst (Thresholds.split_lt v (MInf :: mid ++ [PInf])))).
      { apply in_rev. rewrite R. left; reflexivity. }
      apply ThresholdsSound.split_lt_fst_lt in I. intros ->.
      rewrite blt_PInf_l in I. discriminate I. }
  destruct v; [discriminate|exact X|exact X].
Qed.

Lemma crab_thr_not_minf t v : ThresholdsSound.wf_thr t -> Thresholds.thr_next t v <> MInf.
Proof.
  intros [mid ->]. unfold Thresholds.thr_next.
  assert (X : match snd (Thresholds.split_le v (MInf :: mid ++ [PInf])) with
              | u :: _ => u | [] => last (MInf :: mid ++ [PInf]) PInf end <> MInf).
  { destruct (snd (Thresholds.split_le v (MInf :: mid ++ [PInf]))) as [|u r] eqn:R.
    - rewrite app_comm_cons, last_last. discriminate.
    - apply ThresholdsSound.split_le_snd_head in R. intros ->. cbn in R. discriminate R. }
  destruct v; [exact X|exact X|discriminate].
Qed.

Theorem IR_widen_crab_thr t s e s' e' :
  ThresholdsSound.wf_thr t -> IR s e -> IR s' e' ->
  IR (ie_widen_crab_thr t s s')
     (e_widen_thr (Thresholds.thr_prev t) (Thresholds.thr_next t) e e').
Proof.
  intros W. apply IR_widen_thr.
  - intros v. apply ThresholdsSound.thr_prev_le; exact W.
  - intros v. apply ThresholdsSound.thr_next_ge; exact W.
  - intros v. apply crab_thr_not_pinf; exact W.
  - intros v. apply crab_thr_not_minf; exact W.
Qed.

Section Glb.
Variable g : itv -> itv -> itv.
Hypothesis g_glb : glb_like g.

Lemma l2_comb_glb x y k :
  mgood x -> mgood y -> comb false true g x y k = g (get x k) (get y k).
Proof.
  destruct g_glb as (_ & g_top_r & g_top_l & g_top_top & _).
  intros Gx Gy. unfold comb. destruct (Gx k) as [Wx Bx], (Gy k) as [Wy By].
  destruct (is_top (get x k)) eqn:Tx.
  - rewrite (iwf_top_eq _ Wx Tx). destruct (is_top (get y k)) eqn:Ty.
    + rewrite (iwf_top_eq _ Wy Ty). symmetry. exact g_top_top.
    + symmetry. apply g_top_l. split; [exact Wy|split; [exact Ty|exact By]].
  - destruct (is_top (get y k)) eqn:Ty; [|reflexivity].
    rewrite (iwf_top_eq _ Wy Ty). symmetry. apply g_top_r. split; [exact Wx|split; [exact Tx|exact Bx]].
Qed.

(* on good lists the non-absorbing merge fails exactly when some variable meets to bottom,
   and is the pointwise operator otherwise *)
Lemma l2_glb x y :
  mgood x -> mgood y ->
  (merge false g x y = None <-> exists k, is_bot (g (get x k) (get y k)) = true) /\
  (forall m, merge false g x y = Some m -> forall k, get m k = g (get x k) (get y k)).
Proof.
  destruct g_glb as (g_wf & _ & _ & g_top_top & _).
  intros Gx Gy. unfold merge. split.
  - rewrite build_none. split.
    + intros (k & _ & B). exists k. rewrite <- (l2_comb_glb x y k Gx Gy). exact B.
    + intros (k & B). exists k. split; [|rewrite (l2_comb_glb x y k Gx Gy); exact B].
      destruct (in_dec N.eq_dec k (keys x ++ keys y)) as [J|J]; [exact J|exfalso].
      destruct (not_in_keys2 x y k J) as [E1 E2]. rewrite E1, E2, g_top_top in B. discriminate B.
  - intros m E k. destruct (build_get _ _ _ _ E k) as [I1 I2].
    destruct (in_dec N.eq_dec k (keys x ++ keys y)) as [J|J].
    + rewrite (I1 J), (l2_comb_glb x y k Gx Gy). apply ntop_itv. apply g_wf; [apply Gx|apply Gy].
    + rewrite (I2 J). destruct (not_in_keys2 x y k J) as [-> ->]. cbn [get]. symmetry. exact g_top_top.
Qed.

Let op2 (a b : env) : env :=
  match a, b with
  | EBot, _ | _, EBot => EBot
  | EMap x, EMap y => match merge false g x y with Some m => EMap m | None => EBot end
  end.

Lemma IR_glb s e s' e' :
  IR s e -> IR s' e' -> IR (s_glb itv is_bot ieq g s s') (op2 e e').
Proof.
  intros H H'.
  destruct (ie_glb_spec g s s' g_glb (IR_ok _ _ H) (IR_ok _ _ H')) as (Ok' & L1 & L2).
  destruct (IR_inv s e H) as [(Hb & ->)|(Hb & x & -> & A)].
  { cbn [op2]. apply IR_intro_bot; [exact Ok'|]. apply L1. left; exact Hb. }
  destruct (IR_inv s' e' H') as [(Hb' & ->)|(Hb' & y & -> & A')].
  { cbn [op2]. apply IR_intro_bot; [exact Ok'|]. apply L1. right; exact Hb'. }
  destruct (L2 Hb Hb') as [B2 A2]. cbn [op2].
  destruct (l2_glb x y (IR_mgood _ _ H) (IR_mgood _ _ H')) as [N2 S2].
  destruct (sbot (s_glb itv is_bot ieq g s s')) eqn:Br.
  - assert (E : merge false g x y = None).
    { apply N2. destruct (proj1 B2 eq_refl) as [k Bk]. exists k. rewrite <- A, <- A'. exact Bk. }
    rewrite E. apply IR_intro_bot; assumption.
  - destruct (merge false g x y) as [m|] eqn:E.
    + apply IR_intro_map; [exact Ok'|exact Br|]. intros k.
      rewrite (A2 eq_refl k), (S2 m eq_refl k), A, A'. reflexivity.
    + exfalso. destruct (proj1 N2 eq_refl) as [k Bk].
      assert (X : false = true); [|discriminate X].
      apply B2. exists k. rewrite A, A'. exact Bk.
Qed.
End Glb.

Theorem IR_meet s e s' e' : IR s e -> IR s' e' -> IR (ie_meet s s') (e_meet e e').
Proof. exact (IR_glb imeet imeet_glb_like s e s' e'). Qed.

Theorem IR_narrow s e s' e' : IR s e -> IR s' e' -> IR (ie_narrow s s') (e_narrow e e').
Proof. exact (IR_glb inarrow inarrow_glb_like s e s' e'). Qed.

Lemma l2_project_get m vs k :
  mgood m ->
  get (fold_right (fun k acc => put acc k (get m k)) [] vs) k =
  if mem_keys k vs then get m k else itop.
Proof.
  intros G. induction vs as [|v r IH]; cbn [fold_right mem_keys existsb]; [reflexivity|].
  rewrite (get_put _ v (get m v) k (proj1 (G v))).
  fold (mem_keys k r). destruct (N.eqb_spec k v) as [->|NE]; cbn [orb]; [reflexivity|exact IH].
Qed.

Lemma l2_all_top m k :
  mgood m -> forallb (fun k => is_top (get m k)) (keys m) = true -> get m k = itop.
Proof.
  intros G T. apply iwf_top_eq; [apply G|]. exact (proj1 (l2_is_top_iff m) T k).
Qed.

(* both branches of separate_domain::project (copy / remove) against the list version *)
Theorem IR_project s e vs : IR s e -> IR (ie_project s vs) (e_project e vs).
Proof.
  intros H. destruct (ie_project_spec s vs (IR_ok _ _ H)) as (Ok' & B' & A').
  destruct (IR_inv s e H) as [(Hb & ->)|(Hb & m & -> & A)].
  - cbn [e_project]. apply IR_intro_bot; [exact Ok'|]. rewrite B'. exact Hb.
  - cbn [e_project]. pose proof (IR_mgood _ _ H) as G.
    destruct (forallb (fun k => is_top (get m k)) (keys m)) eqn:T.
    + apply IR_intro_map; [exact Ok'|rewrite B'; exact Hb|]. intros k.
      rewrite (A' Hb k), A, (l2_all_top m k G T). destruct (mem_keys k vs); reflexivity.
    + apply IR_intro_map; [exact Ok'|rewrite B'; exact Hb|]. intros k.
      rewrite (A' Hb k), (l2_project_get m vs k G), A. reflexivity.
Qed.

(* rename: both sides perform the same sequence of moves; each move is a set followed by a
   forget, so the simulation needs no hypothesis on the two vectors besides equal lengths (crab
   raises CRAB_ERROR otherwise; the list model truncates). *)
Definition rn2 (m : amap) (p : var * var) : amap :=
  let (k, nk) := p in
  if N.eqb k nk then m
  else if is_top (get m k) then m
  else remove ((nk, get m k) :: remove m nk) k.

Lemma rename_pairs_fold ps : forall m, rename_pairs m ps = fold_left rn2 ps m.
Proof.
  induction ps as [|[k nk] r IH]; intros m; cbn [rename_pairs fold_left rn2]; [reflexivity|].
  destruct (N.eqb k nk); [apply IH|]. destruct (is_top (get m k)); apply IH.
Qed.

Lemma mk_sep_eta (s : ienv) : sbot s = false -> s = mkSep false (stree s).
Proof. destruct s as [b t]. cbn. intros ->. reflexivity. Qed.

Lemma IR_rename_step t m p :
  IR (mkSep false t) (EMap m) ->
  IR (mkSep false (rename_step itv is_top ieq t p)) (EMap (rn2 m p)).
Proof.
  intros H. destruct p as [k nk]. unfold rename_step, rn2.
  change (k =? nk) with (N.eqb k nk). destruct (N.eqb k nk); [exact H|].
  pose proof (IR_at _ _ k H) as Ak. unfold ie_at, s_at in Ak. cbn [sbot stree e_at] in Ak.
  destruct (plookup t k) as [v|] eqn:P.
  - destruct (IR_ok _ _ H) as (W & O & _). cbn [stree] in W, O.
    rewrite (plookup_pget _ _ _ W) in P. destruct (O k v P) as (Wv & Tv & Bv).
    rewrite <- Ak, Tv.
    assert (E1 : ie_forget (ie_set (mkSep false t) nk v) k =
                 mkSep false (premove (pt_insert ieq t nk v) k)).
    { unfold ie_forget, ie_set, s_forget, s_set. cbn [sbot stree]. rewrite Bv, Tv. reflexivity. }
    assert (E2 : e_forget (e_set (EMap m) nk v) k = EMap (remove ((nk, v) :: remove m nk) k)).
    { unfold e_forget, e_set, put. rewrite Bv, Tv. reflexivity. }
    pose proof (IR_forget _ _ k (IR_set _ _ nk v H Wv)) as Q. rewrite E1, E2 in Q. exact Q.
  - rewrite <- Ak. cbn [is_top itop lb ub b_is_finite negb andb]. exact H.
Qed.

Lemma IR_rename_steps ps : forall t m,
  IR (mkSep false t) (EMap m) ->
  IR (mkSep false (fold_left (rename_step itv is_top ieq) ps t)) (EMap (fold_left rn2 ps m)).
Proof.
  induction ps as [|p r IH]; intros t m H; cbn [fold_left]; [exact H|].
  apply IH. apply IR_rename_step. exact H.
Qed.

Theorem IR_rename s e from to :
  IR s e -> length from = length to ->
  exists r, ie_rename s from to = Some r /\ IR r (e_rename e from to).
Proof.
  intros H L. pose proof (IR_is_top s e H) as T. unfold ie_rename, s_rename.
  destruct (IR_inv s e H) as [(Hb & ->)|(Hb & m & -> & A)].
  - rewrite Hb, orb_true_r. exists s. split; [reflexivity|exact H].
  - rewrite Hb, orb_false_r, T. cbn [e_rename e_is_top].
    destruct (forallb (fun k => is_top (get m k)) (keys m)).
    + exists s. split; [reflexivity|exact H].
    + rewrite L, Nat.eqb_refl. cbn [negb]. eexists. split; [reflexivity|].
      rewrite rename_pairs_fold. apply IR_rename_steps. rewrite <- (mk_sep_eta s Hb). exact H.
Qed.

(* begin()/end() over the tree enumerate exactly [bindings] of the list, in the same
   (increasing) key order *)
Lemma insert_sorted_in k l x : In x (insert_sorted k l) <-> x = k \/ In x l.
Proof.
  induction l as [|h t IH]; cbn [insert_sorted].
  - cbn [In]. split; [intros [E|[]]; left; congruence|intros [E|[]]; left; congruence].
  - destruct (N.ltb k h).
    + cbn [In]. split; [intros [E|E]; [left; congruence|right; exact E]
                       |intros [E|E]; [left; congruence|right; exact E]].
    + destruct (N.eqb_spec k h) as [->|NE].
      * cbn [In]. split; [intros E; right; exact E|intros [E|E]; [left; congruence|exact E]].
      * cbn [In]. rewrite IH. split; [intros [E|[E|E]]|intros [E|[E|E]]]; auto.
Qed.

Lemma insert_sorted_sorted k l : StronglySorted N.lt l -> StronglySorted N.lt (insert_sorted k l).
Proof.
  induction l as [|h t IH]; cbn [insert_sorted]; intros S.
  - constructor; constructor.
  - inversion S as [|? ? S' F]; subst.
    destruct (N.ltb_spec k h) as [LT|GE].
    + constructor; [exact S|]. constructor; [exact LT|].
      rewrite Forall_forall in F |- *. intros x I. specialize (F x I). lia.
    + destruct (N.eqb_spec k h) as [->|NE]; [exact S|].
      constructor; [apply IH; exact S'|].
      rewrite Forall_forall in F |- *. intros x I. apply insert_sorted_in in I.
      destruct I as [->|I]; [lia|apply F; exact I].
Qed.

Lemma sorted_keys_in m k : In k (sorted_keys m) <-> In k (keys m).
Proof.
  unfold sorted_keys. induction (keys m) as [|h t IH]; cbn [fold_right]; [reflexivity|].
  rewrite insert_sorted_in, IH. cbn [In]. split; intros [E|E]; auto.
Qed.

Lemma sorted_keys_sorted m : StronglySorted N.lt (sorted_keys m).
Proof.
  unfold sorted_keys. induction (keys m) as [|h t IH]; cbn [fold_right]; [constructor|].
  apply insert_sorted_sorted. exact IH.
Qed.

Lemma bindings_in m k v : In (k, v) (bindings m) <-> (get m k = v /\ is_top v = false).
Proof.
  unfold bindings. rewrite filter_In, in_map_iff. cbn [snd]. split.
  - intros [(k0 & E & _) T]. inversion E; subst. split; [reflexivity|].
    apply negb_true_iff. exact T.
  - intros [E T]. subst v. split; [|rewrite T; reflexivity].
    exists k. split; [reflexivity|]. apply sorted_keys_in.
    destruct (in_dec N.eq_dec k (keys m)) as [I|I]; [exact I|].
    rewrite (get_not_key m k I) in T. discriminate T.
Qed.

Lemma map_key_sorted (h : N -> itv) l :
  StronglySorted N.lt l -> StronglySorted key_lt (map (fun k => (k, h k)) l).
Proof.
  induction 1 as [|a l S IH F]; cbn [map]; constructor; [exact IH|].
  rewrite Forall_forall in F |- *. intros p I. apply in_map_iff in I.
  destruct I as (k & <- & I). unfold key_lt. cbn [fst]. apply F. exact I.
Qed.

Lemma filter_sorted {A} (lt : A -> A -> Prop) p l :
  StronglySorted lt l -> StronglySorted lt (filter p l).
Proof.
  induction 1 as [|a l S IH F]; cbn [filter]; [constructor|].
  destruct (p a); [|exact IH]. constructor; [exact IH|].
  rewrite Forall_forall in F |- *. intros x I. apply filter_In in I. apply F. apply I.
Qed.

Lemma bindings_sorted m : StronglySorted key_lt (bindings m).
Proof.
  unfold bindings. apply filter_sorted. apply map_key_sorted. apply sorted_keys_sorted.
Qed.

(* two strictly sorted lists with the same elements are equal *)
Lemma sorted_ext (l1 : list (N * itv)) : forall l2,
  StronglySorted key_lt l1 -> StronglySorted key_lt l2 ->
  (forall p, In p l1 <-> In p l2) -> l1 = l2.
Proof.
  induction l1 as [|a r1 IH]; intros [|b r2] S1 S2 E.
  - reflexivity.
  - exfalso. apply (proj2 (E b)). left; reflexivity.
  - exfalso. apply (proj1 (E a)). left; reflexivity.
  - inversion S1 as [|? ? S1' F1]; subst. inversion S2 as [|? ? S2' F2]; subst.
    rewrite Forall_forall in F1, F2. unfold key_lt in F1, F2.
    assert (AB : a = b).
    { destruct (proj1 (E a) (or_introl eq_refl)) as [X|X]; [symmetry; exact X|].
      destruct (proj2 (E b) (or_introl eq_refl)) as [Y|Y]; [exact Y|].
      specialize (F1 b Y). specialize (F2 a X). lia. }
    subst b. f_equal. apply IH; [exact S1'|exact S2'|]. intros p. split; intros I.
    + destruct (proj1 (E p) (or_intror I)) as [X|X]; [|exact X].
      subst p. specialize (F1 a I). lia.
    + destruct (proj2 (E p) (or_intror I)) as [X|X]; [|exact X].
      subst p. specialize (F2 a I). lia.
Qed.

Theorem IR_bindings s m : IR s (EMap m) -> s_elements s = Some (bindings m).
Proof.
  intros H. destruct (IR_inv _ _ H) as [(_ & X)|(Hb & m' & X & A)]; [discriminate X|].
  inversion X; subst m'.
  destruct (ie_elements_spec s (IR_ok _ _ H) Hb) as (l & E & S & I).
  rewrite E. f_equal. apply sorted_ext; [exact S|apply bindings_sorted|].
  intros [k v]. rewrite I, bindings_in, A. reflexivity.
Qed.

(* on bottom the C++ iteration is an error, the list model has no map to enumerate *)
Lemma IR_bindings_bot s : IR s EBot -> s_elements s = None.
Proof. intros H. unfold s_elements. rewrite (IR_bot _ _ H). reflexivity. Qed.

(* the abstraction function: every L1 environment satisfying the invariant implements the
   L2 environment read off its tree, so the relation is total on the L1 side and the
   hypotheses are satisfiable by every reachable tree *)
Definition ie_abs (s : ienv) : env := if sbot s then EBot else EMap (pelements (stree s)).

Lemma get_pelements_sorted (l : list (N * itv)) k v :
  StronglySorted key_lt l -> In (k, v) l -> get l k = v.
Proof.
  induction 1 as [|[k0 v0] r S IH F]; intros I; [destruct I|]. cbn [get].
  destruct I as [E|I].
  - inversion E; subst. rewrite N.eqb_refl. reflexivity.
  - rewrite Forall_forall in F. specialize (F _ I). unfold key_lt in F. cbn [fst] in F.
    destruct (N.eqb_spec k0 k); [lia|]. apply IH. exact I.
Qed.

Theorem IR_abs s : ie_ok s -> IR s (ie_abs s).
Proof.
  intros Ok. unfold ie_abs. destruct (sbot s) eqn:Hb; [apply IR_intro_bot; assumption|].
  destruct (ie_elements_spec s Ok Hb) as (l & E & S & I).
  unfold s_elements in E. rewrite Hb in E. inversion E as [E']. clear E. subst l.
  apply IR_intro_map; [exact Ok|exact Hb|]. intros k.
  destruct (is_top (ie_at s k)) eqn:T.
  - rewrite (iwf_top_eq _ (ie_at_wf s k Ok Hb) T). symmetry. apply get_not_key.
    intros J. unfold keys in J. apply in_map_iff in J. destruct J as ([k0 v0] & <- & J).
    cbn [fst] in T. apply I in J. destruct J as [J1 J2]. rewrite J1 in T. congruence.
  - symmetry. apply get_pelements_sorted; [exact S|]. apply I. split; [reflexivity|exact T].
Qed.
