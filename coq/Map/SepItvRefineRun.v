(* SepItvRefineRun.v — any history of environment operations, run on patricia-tree
   environments (L1, Map/SepDomain.v) and on association-list environments (L2,
   Dom/ItvEnv.v), stays in the refinement relation [IR] of Map/SepItvRefine.v; hence every
   observation (lookup, is_bottom, is_top, <=, iteration) is the same at both levels.

   One interpreter, parametric in the record of operations, is instantiated with the two
   implementations: the two runs execute literally the same program.  Programs are lists
   of register operations; values written by [OSet]/[OJoinKv] are arbitrary functions of
   the lookups of the current environment (this is how interval_domain's transfer
   functions use separate_domain: read with at / operator[], write with set / join /
   operator-=), guards are the boolean queries. *)
From Coq Require Import NArith ZArith Bool List Lia.
From CrabV Require Import Base.ZInf Scalar.Itv Ir.Syntax.
From CrabV Require Import Map.Patricia Map.SepDomain Map.SepDomainSound Map.SepItv.
From CrabV Require Import Dom.ItvEnv Dom.ItvEnvSound Dom.ItvEnvWiden Map.SepItvRefine.
From CrabV Require Scalar.ItvSound Scalar.ItvTight Fix.Thresholds Fix.ThresholdsSound.
Import ListNotations.
Local Open Scope N_scope.

Record env_ops (T : Type) : Type := mkOps {
  o_top : T; o_bot : T;
  o_is_bot : T -> bool; o_is_top : T -> bool; o_leq : T -> T -> bool;
  o_at : T -> N -> itv;
  o_set : T -> N -> itv -> T; o_join_kv : T -> N -> itv -> T; o_forget : T -> N -> T;
  o_join : T -> T -> T; o_meet : T -> T -> T; o_widen : T -> T -> T; o_narrow : T -> T -> T;
  o_widen_thr : (bound -> bound) -> (bound -> bound) -> T -> T -> T;
  o_project : T -> list N -> T;
  o_rename : T -> list N -> list N -> T;
  o_bindings : T -> option (list (N * itv))       (* None: iteration over bottom *)
}.
Arguments o_top {T}. Arguments o_bot {T}. Arguments o_is_bot {T}. Arguments o_is_top {T}.
Arguments o_leq {T}. Arguments o_at {T}. Arguments o_set {T}. Arguments o_join_kv {T}.
Arguments o_forget {T}. Arguments o_join {T}. Arguments o_meet {T}. Arguments o_widen {T}.
Arguments o_narrow {T}. Arguments o_widen_thr {T}. Arguments o_project {T}.
Arguments o_rename {T}. Arguments o_bindings {T}.

(* L1: separate_domain over patricia trees.  rename returns its argument where the C++
   raises CRAB_ERROR (vectors of different lengths); programs accepted by [op_ok] never
   reach that case. *)
Definition tree_ops : env_ops ienv :=
  mkOps ienv ie_top ie_bottom s_is_bottom s_is_top ie_leq ie_at ie_set ie_join_kv ie_forget
        ie_join ie_meet ie_widen ie_narrow
        (fun gp gn => s_lub itv is_top ieq (iwiden_thr gp gn))
        ie_project
        (fun s from to => match ie_rename s from to with Some r => r | None => s end)
        s_elements.

(* L2: the total-map model under Dom/ItvDomain.v *)
Definition list_ops : env_ops env :=
  mkOps env e_top EBot e_is_bot e_is_top e_leq e_at e_set e_join_key e_forget
        e_join e_meet e_widen e_narrow e_widen_thr e_project e_rename
        (fun e => match e with EBot => None | EMap m => Some (bindings m) end).

Definition reg := nat.
Bind Scope nat_scope with reg.

Inductive query :=
| QIsBot (r : reg) | QIsTop (r : reg) | QLeq (r s : reg)
| QRead (r : reg) (P : (N -> itv) -> bool).        (* any test on the lookups of r *)

Inductive eop :=
| OTop (r : reg) | OBot (r : reg) | OCopy (r s : reg)
| OSet (r : reg) (k : N) (F : (N -> itv) -> itv)     (* r.set(k, F(r.at))  *)
| OJoinKv (r : reg) (k : N) (F : (N -> itv) -> itv)  (* r.join(k, F(r.at)) *)
| OForget (r : reg) (k : N)
| OJoin (r s t : reg) | OMeet (r s t : reg) | OWiden (r s t : reg) | ONarrow (r s t : reg)
| OWidenThr (r s t : reg) (gp gn : bound -> bound)
| OProject (r : reg) (vs : list N)
| ORename (r : reg) (from to : list N)
| OWhen (q : query) (b : bool) (o : eop).            (* if (q == b) o *)

Section Machine.
Context {T : Type} (M : env_ops T).

Definition rget (rs : list T) (r : reg) : T := nth r rs (o_top M).
Fixpoint rset (rs : list T) (r : reg) (v : T) : list T :=
  match rs, r with
  | [], _ => []
  | _ :: t, O => v :: t
  | h :: t, S r' => h :: rset t r' v
  end.

Definition eval_query (rs : list T) (q : query) : bool :=
  match q with
  | QIsBot r => o_is_bot M (rget rs r)
  | QIsTop r => o_is_top M (rget rs r)
  | QLeq r s => o_leq M (rget rs r) (rget rs s)
  | QRead r P => P (o_at M (rget rs r))
  end.

Fixpoint step (rs : list T) (o : eop) : list T :=
  match o with
  | OTop r => rset rs r (o_top M)
  | OBot r => rset rs r (o_bot M)
  | OCopy r s => rset rs r (rget rs s)
  | OSet r k F => rset rs r (o_set M (rget rs r) k (F (o_at M (rget rs r))))
  | OJoinKv r k F => rset rs r (o_join_kv M (rget rs r) k (F (o_at M (rget rs r))))
  | OForget r k => rset rs r (o_forget M (rget rs r) k)
  | OJoin r s t => rset rs r (o_join M (rget rs s) (rget rs t))
  | OMeet r s t => rset rs r (o_meet M (rget rs s) (rget rs t))
  | OWiden r s t => rset rs r (o_widen M (rget rs s) (rget rs t))
  | ONarrow r s t => rset rs r (o_narrow M (rget rs s) (rget rs t))
  | OWidenThr r s t gp gn => rset rs r (o_widen_thr M gp gn (rget rs s) (rget rs t))
  | OProject r vs => rset rs r (o_project M (rget rs r) vs)
  | ORename r from to => rset rs r (o_rename M (rget rs r) from to)
  | OWhen q b o' => if Bool.eqb (eval_query rs q) b then step rs o' else rs
  end.

Definition run (ops : list eop) (rs : list T) : list T := fold_left step ops rs.
End Machine.

(* values computed from lookups: they depend on the lookups only (no functional
   extensionality is assumed), and they do not produce the junk intervals [+oo,_] / [_,-oo]
   from well-formed lookups *)
Definition fun_ok (F : (N -> itv) -> itv) : Prop :=
  (forall f g, (forall k, f k = g k) -> F f = F g) /\
  (forall f, (forall k, ItvSound.wf (f k)) -> iwf (F f)).

Definition pred_ok (P : (N -> itv) -> bool) : Prop :=
  forall f g, (forall k, f k = g k) -> P f = P g.

(* threshold functions move outwards and stay away from the junk infinities *)
Definition thr_ok (gp gn : bound -> bound) : Prop :=
  (forall v, ble (gp v) v = true) /\ (forall v, ble v (gn v) = true) /\
  (forall v, gp v <> PInf) /\ (forall v, gn v <> MInf).

Definition query_ok (q : query) : Prop :=
  match q with QRead _ P => pred_ok P | _ => True end.

Fixpoint op_ok (o : eop) : Prop :=
  match o with
  | OSet _ _ F | OJoinKv _ _ F => fun_ok F
  | OWidenThr _ _ _ gp gn => thr_ok gp gn
  | ORename _ from to => length from = length to
  | OWhen q _ o' => query_ok q /\ op_ok o'
  | _ => True
  end.

(* [op_ok] spelled out *)
Lemma op_ok_unfold o :
  op_ok o <->
  match o with
  | OSet _ _ F | OJoinKv _ _ F =>
      (forall f g, (forall k, f k = g k) -> F f = F g) /\
      (forall f, (forall k, ItvSound.wf (f k)) -> iwf (F f))
  | OWidenThr _ _ _ gp gn =>
      (forall v, ble (gp v) v = true) /\ (forall v, ble v (gn v) = true) /\
      (forall v, gp v <> PInf) /\ (forall v, gn v <> MInf)
  | ORename _ from to => length from = length to
  | OWhen q _ o' =>
      match q with
      | QRead _ P => forall f g, (forall k, f k = g k) -> P f = P g
      | _ => True
      end /\ op_ok o'
  | _ => True
  end.
Proof. destruct o as [| | | | | | | | | | | | |q b o]; try destruct q; exact (conj (fun H => H) (fun H => H)). Qed.

(* the two threshold implementations of the development are admissible *)
Lemma thr_ok_list ts : thr_ok (SepDomain.thr_prev ts) (SepDomain.thr_next ts).
Proof.
  split; [exact (SepItv.thr_prev_le ts)|]. split; [exact (SepItv.thr_next_ge ts)|].
  split; [exact (thr_prev_not_pinf ts)|exact (thr_next_not_minf ts)].
Qed.

(* crab::thresholds (Fix/Thresholds.v), as used by Dom/History.v and the fixpoint engine *)
Lemma thr_ok_crab t :
  ThresholdsSound.wf_thr t -> thr_ok (Thresholds.thr_prev t) (Thresholds.thr_next t).
Proof.
  intros W. split; [intros v; apply ThresholdsSound.thr_prev_le; exact W|].
  split; [intros v; apply ThresholdsSound.thr_next_ge; exact W|].
  split; intros v; [apply crab_thr_not_pinf|apply crab_thr_not_minf]; exact W.
Qed.

Definition RR (rs1 : list ienv) (rs2 : list env) : Prop := Forall2 IR rs1 rs2.

Lemma RR_get rs1 rs2 r : RR rs1 rs2 -> IR (rget tree_ops rs1 r) (rget list_ops rs2 r).
Proof.
  intros H. revert r. induction H as [|a b l1 l2 Hab H IH]; intros r; unfold rget in *.
  - destruct r; exact IR_top.
  - destruct r as [|r]; cbn [nth]; [exact Hab|apply IH].
Qed.

Lemma RR_set rs1 rs2 r s e : RR rs1 rs2 -> IR s e -> RR (rset rs1 r s) (rset rs2 r e).
Proof.
  intros H Hse. revert r. induction H as [|a b l1 l2 Hab H IH]; intros r; cbn [rset].
  - constructor.
  - destruct r as [|r]; constructor; [exact Hse|exact H|exact Hab|exact (IH r)].
Qed.

Lemma IR_wf_at s e k : IR s e -> ItvSound.wf (ie_at s k).
Proof.
  intros H. destruct (sbot s) eqn:Hb.
  - rewrite (ie_at_bot s k Hb). apply ItvSound.wf_bot.
  - apply iwf_nonbot_wf; [apply ie_at_wf; [exact (IR_ok _ _ H)|exact Hb]|].
    exact (at_not_bot itv itop ibot is_top is_bot iwf eq_refl s k (IR_ok _ _ H) Hb).
Qed.

Lemma IR_fun s e F : IR s e -> fun_ok F -> F (ie_at s) = F (e_at e) /\ iwf (F (ie_at s)).
Proof.
  intros H [Ext Wf]. split.
  - apply Ext. intros k. apply (IR_at _ _ k H).
  - apply Wf. intros k. exact (IR_wf_at s e k H).
Qed.

Lemma sim_query q rs1 rs2 :
  query_ok q -> RR rs1 rs2 -> eval_query tree_ops rs1 q = eval_query list_ops rs2 q.
Proof.
  intros Q H. destruct q as [r|r|r s|r P]; cbn [eval_query tree_ops list_ops o_is_bot o_is_top o_leq o_at].
  - apply IR_is_bottom, RR_get, H.
  - apply IR_is_top, RR_get, H.
  - apply IR_leq; apply RR_get, H.
  - apply Q. intros k. apply IR_at, RR_get, H.
Qed.

(* every operation but the guarded one writes one register: it is enough that the two values
   written are related *)
Theorem sim_step o : op_ok o -> forall rs1 rs2,
  RR rs1 rs2 -> RR (step tree_ops rs1 o) (step list_ops rs2 o).
Proof.
  induction o as [r|r|r s|r k F|r k F|r k|r s t|r s t|r s t|r s t|r s t gp gn|r vs|r from to|q b o IH];
    intros Ok rs1 rs2 H; cbn [op_ok] in Ok;
    cbn [step tree_ops list_ops o_top o_bot o_at o_set o_join_kv o_forget o_join o_meet o_widen
         o_narrow o_widen_thr o_project o_rename];
    [apply RR_set; [exact H|] .. |].
  - exact IR_top.
  - exact IR_bottom.
  - apply RR_get, H.
  - destruct (IR_fun _ _ F (RR_get _ _ r H) Ok) as [E W]. rewrite <- E.
    apply IR_set; [apply RR_get, H|exact W].
  - destruct (IR_fun _ _ F (RR_get _ _ r H) Ok) as [E W]. rewrite <- E.
    apply IR_join_kv; [apply RR_get, H|exact W].
  - apply IR_forget, RR_get, H.
  - apply IR_join; apply RR_get, H.
  - apply IR_meet; apply RR_get, H.
  - apply IR_widen; apply RR_get, H.
  - apply IR_narrow; apply RR_get, H.
  - destruct Ok as (H1 & H2 & H3 & H4). apply IR_widen_thr; try assumption; apply RR_get, H.
  - apply IR_project, RR_get, H.
  - destruct (IR_rename _ _ from to (RR_get _ _ r H) Ok) as (x & E & G). rewrite E. exact G.
  - destruct Ok as [Q Ok]. rewrite (sim_query q rs1 rs2 Q H).
    destruct (Bool.eqb (eval_query list_ops rs2 q) b); [apply IH; assumption|exact H].
Qed.

Theorem sim_run ops : Forall op_ok ops -> forall rs1 rs2,
  RR rs1 rs2 -> RR (run tree_ops ops rs1) (run list_ops ops rs2).
Proof.
  induction 1 as [|o ops Ok _ IH]; intros rs1 rs2 H; cbn [run fold_left]; [exact H|].
  apply IH. apply sim_step; assumption.
Qed.

Lemma RR_top n : RR (repeat ie_top n) (repeat e_top n).
Proof. induction n; cbn [repeat]; constructor; [exact IR_top|assumption]. Qed.

Definition same_obs (rs1 : list ienv) (rs2 : list env) : Prop :=
  forall r,
    let s := rget tree_ops rs1 r in
    let e := rget list_ops rs2 r in
    (forall k, ie_at s k = e_at e k) /\
    s_is_bottom s = e_is_bot e /\
    s_is_top s = e_is_top e /\
    o_bindings tree_ops s = o_bindings list_ops e /\
    (forall r', ie_leq s (rget tree_ops rs1 r') = e_leq e (rget list_ops rs2 r')).

Lemma RR_same_obs rs1 rs2 : RR rs1 rs2 -> same_obs rs1 rs2.
Proof.
  intros H r. pose proof (RR_get _ _ r H) as G. cbv zeta.
  split; [intros k; apply IR_at; exact G|].
  split; [apply IR_is_bottom; exact G|].
  split; [apply IR_is_top; exact G|].
  split.
  - cbn [o_bindings tree_ops list_ops]. destruct (rget list_ops rs2 r) as [|m] eqn:E.
    + apply IR_bindings_bot. exact G.
    + apply IR_bindings. exact G.
  - intros r'. apply IR_leq; [exact G|apply RR_get; exact H].
Qed.

(* the corollary that matters: after any admissible program started from top, each register
   of the list machine is implemented by the same register of the tree machine, the tree
   satisfies its invariant, and all observations coincide *)
Theorem refine_any_history ops n :
  Forall op_ok ops ->
  let rs1 := run tree_ops ops (repeat ie_top n) in
  let rs2 := run list_ops ops (repeat e_top n) in
  RR rs1 rs2 /\ same_obs rs1 rs2 /\ (forall r, ie_ok (rget tree_ops rs1 r)).
Proof.
  intros Ok. cbv zeta. pose proof (sim_run ops Ok _ _ (RR_top n)) as H.
  split; [exact H|]. split; [apply RR_same_obs; exact H|].
  intros r. exact (IR_ok _ _ (RR_get _ _ r H)).
Qed.

(* values read and written by an assignment x := y + 1 *)
Definition F_incr (y : N) : (N -> itv) -> itv := fun f => iadd (f y) (iconst 1).
Definition F_const (v : itv) : (N -> itv) -> itv := fun _ => v.
Definition F_copy (y : N) : (N -> itv) -> itv := fun f => f y.

Lemma fun_ok_incr y : fun_ok (F_incr y).
Proof.
  split.
  - intros f g E. unfold F_incr. rewrite (E y). reflexivity.
  - intros f W. apply wf_iwf. apply ItvTight.wf_iadd; [apply W|apply ItvSound.wf_iconst].
Qed.
Lemma fun_ok_const v : iwf v -> fun_ok (F_const v).
Proof. intros W. split; [reflexivity|intros f _; exact W]. Qed.
Lemma fun_ok_copy y : fun_ok (F_copy y).
Proof.
  split; [intros f g E; apply E|]. intros f W. apply wf_iwf. apply W.
Qed.

Definition ex_i (a b : Z) : itv := mkI (Fin a) (Fin b).
Definition ex_prog : list eop :=
  [ OSet 0 1 (F_const (ex_i 0 10));
    OSet 0 (2 ^ 63) (F_const (mkI (Fin 1) PInf));
    OCopy 1 0;
    OSet 1 1 (F_incr 1);
    OSet 1 5 (F_copy 1);
    OJoin 2 0 1;
    OWiden 2 0 2;
    OWidenThr 3 0 1 (SepDomain.thr_prev [0; 100]%Z) (SepDomain.thr_next [0; 100]%Z);
    OWhen (QLeq 0 2) true (OJoinKv 0 1 (F_const (ex_i 20 30)));
    OWhen (QIsTop 1) true (OBot 3);
    ORename 1 [5; 1] [7; 8];
    OProject 0 [1; 2 ^ 63; 9];
    OMeet 3 3 1;
    ONarrow 2 2 0;
    OForget 2 (2 ^ 63) ].

Lemma ex_prog_ok : Forall op_ok ex_prog.
Proof.
  unfold ex_prog. repeat apply Forall_cons; [.. | apply Forall_nil];
    cbn [op_ok query_ok]; try exact I.
  - apply fun_ok_const; split; discriminate.
  - apply fun_ok_const; split; discriminate.
  - apply fun_ok_incr.
  - apply fun_ok_copy.
  - apply thr_ok_list.
  - split; [exact I|]. apply fun_ok_const; split; discriminate.
  - split; exact I.
  - reflexivity.
Qed.

(* what both machines end with (4 registers); computed on the trees and on the lists *)
Example ex_prog_run :
  map (o_bindings tree_ops) (run tree_ops ex_prog (repeat ie_top 4)) =
  map (o_bindings list_ops) (run list_ops ex_prog (repeat e_top 4)) /\
  map (o_bindings list_ops) (run list_ops ex_prog (repeat e_top 4)) =
  [ Some [(1, ex_i 0 30); (2 ^ 63, mkI (Fin 1) PInf)];
    Some [(7, ex_i 1 11); (8, ex_i 1 11); (2 ^ 63, mkI (Fin 1) PInf)];
    Some [(1, ex_i 0 30)];
    Some [(1, ex_i 0 100); (7, ex_i 1 11); (8, ex_i 1 11); (2 ^ 63, mkI (Fin 1) PInf)] ].
Proof. vm_compute. split; reflexivity. Qed.

(* the relation on a concrete pair: a tree with keys 1 and 2^63 = 9223372036854775808
   against an association list holding the same bindings in another order plus a shadowed
   stale binding *)
Example ex_pair :
  let s := ie_set (ie_set ie_top 1 (ex_i 0 0)) (9223372036854775808) (mkI (Fin 1) PInf) in
  let e := EMap [(9223372036854775808, mkI (Fin 1) PInf); (1, ex_i 0 0); (9223372036854775808, ex_i 5 6)] in
  IR s e /\ s_elements s = Some (bindings [(9223372036854775808, mkI (Fin 1) PInf); (1, ex_i 0 0); (9223372036854775808, ex_i 5 6)]) /\
  s_size s = Some 2 /\ ie_leq s (ie_forget s 1) = true /\ e_leq e (e_forget e 1) = true.
Proof.
  cbv zeta. split; [|vm_compute; repeat split; reflexivity].
  assert (H : IR (ie_set (ie_set ie_top 1 (ex_i 0 0)) (9223372036854775808) (mkI (Fin 1) PInf))
                 (e_set (e_set e_top 1 (ex_i 0 0)) (9223372036854775808) (mkI (Fin 1) PInf))).
  { apply IR_set; [apply IR_set; [exact IR_top|]|]; split; discriminate. }
  destruct H as (Ok & Hb & A). split; [exact Ok|]. split; [exact Hb|].
  intros k. rewrite (A k). vm_compute e_set. cbn [e_at get].
  destruct (N.eqb 9223372036854775808 k); reflexivity.
Qed.
