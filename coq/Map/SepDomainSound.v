(* SepDomainSound.v — the operations of the separate_domain model (Map/SepDomain.v) commute
   with the abstraction of an environment to a total map N -> V with default top (plus
   the bottom flag), for every value lattice satisfying the laws listed as hypotheses of
   the section.  The representation invariant [sep_ok] (well-formed tree, stored values
   neither top nor bottom, empty tree when bottom) is preserved by every operation. *)
From Coq Require Import NArith PeanoNat Bool List Lia Sorting.Sorted.
From CrabV Require Import Map.Patricia Map.PatriciaBits Map.PatriciaSpec Map.SepDomain.
Import ListNotations.
Local Open Scope N_scope.

Section SepSound.
Variable V : Type.
Variables vtop vbot : V.
Variables v_is_top v_is_bot : V -> bool.
Variable vleq : V -> V -> bool.
Variable veq : V -> V -> bool.
(* well-formedness of values (e.g. lb <> +oo for intervals); [fun _ => True] is fine when
   the value type has no junk *)
Variable Vwf : V -> Prop.

(* a value that may be stored in the tree *)
Definition good (v : V) : Prop := Vwf v /\ v_is_top v = false /\ v_is_bot v = false.

Hypothesis Vwf_top : Vwf vtop.
Hypothesis top_is_top : v_is_top vtop = true.
Hypothesis top_not_bot : v_is_bot vtop = false.
Hypothesis bot_is_bot : v_is_bot vbot = true.
Hypothesis veq_good : forall x y, good x -> veq y x = true -> y = x.

Notation sepV := (sep V).
Notation at_ := (s_at V vtop vbot).
Notation set_ := (s_set V v_is_top v_is_bot veq).
Notation forget_ := (s_forget V).
Notation leq_ := (s_leq V vleq).

Definition ntop (v : V) : V := if v_is_top v then vtop else v.

Definition sep_ok (a : sepV) : Prop :=
  wfp (stree a) /\ pall_ok good (stree a) /\ (sbot a = true -> stree a = None).

Lemma sep_ok_top : sep_ok sep_top.
Proof.
  split; [exact I|]. split; [intros k v H; discriminate|]. cbn. discriminate.
Qed.
Lemma sep_ok_bottom : sep_ok sep_bottom.
Proof.
  split; [exact I|]. split; [intros k v H; discriminate|]. reflexivity.
Qed.

Lemma at_top k : at_ sep_top k = vtop.
Proof. reflexivity. Qed.
Lemma at_bottom k : at_ sep_bottom k = vbot.
Proof. reflexivity. Qed.

Lemma at_pget a k :
  sep_ok a -> sbot a = false ->
  at_ a k = match pget (stree a) k with Some v => v | None => vtop end.
Proof.
  intros (W & _ & _) Hb. unfold s_at. rewrite Hb, (plookup_pget _ _ _ W). reflexivity.
Qed.

Lemma at_wf a k : sep_ok a -> sbot a = false -> Vwf (at_ a k).
Proof.
  intros Ok Hb. rewrite (at_pget a k Ok Hb). destruct Ok as (_ & O & _).
  destruct (pget (stree a) k) eqn:E; [apply (O k v E)|exact Vwf_top].
Qed.

Lemma at_not_bot a k : sep_ok a -> sbot a = false -> v_is_bot (at_ a k) = false.
Proof.
  intros Ok Hb. rewrite (at_pget a k Ok Hb). destruct Ok as (_ & O & _).
  destruct (pget (stree a) k) eqn:E; [apply (O k v E)|exact top_not_bot].
Qed.

Lemma ntop_at a k : sep_ok a -> sbot a = false -> ntop (at_ a k) = at_ a k.
Proof.
  intros Ok Hb. rewrite (at_pget a k Ok Hb). destruct Ok as (_ & O & _). unfold ntop.
  destruct (pget (stree a) k) eqn:E.
  - destruct (O k v E) as (_ & T & _). rewrite T. reflexivity.
  - rewrite top_is_top. reflexivity.
Qed.

(* a binding different from top is stored *)
Lemma at_bound a k :
  sep_ok a -> sbot a = false -> v_is_top (at_ a k) = false ->
  pget (stree a) k = Some (at_ a k).
Proof.
  intros Ok Hb Ht. rewrite (at_pget a k Ok Hb) in *.
  destruct (pget (stree a) k); [reflexivity|congruence].
Qed.

Lemma mk_ok t :
  wfp t -> pall_ok good t -> sep_ok (mkSep false t).
Proof. intros W O. split; [exact W|]. split; [exact O|]. cbn. discriminate. Qed.

(* a non-bottom environment built on a tree whose bindings are known *)
Lemma mk_spec t (f : N -> option V) :
  wfp t -> (forall k, pget t k = f k) -> (forall k v, f k = Some v -> good v) ->
  sep_ok (mkSep false t) /\
  forall k, at_ (mkSep false t) k = match f k with Some v => v | None => vtop end.
Proof.
  intros W G O. assert (Ok : sep_ok (mkSep false t)).
  { apply mk_ok; [exact W|]. intros k v. rewrite G. apply O. }
  split; [exact Ok|]. intros k. rewrite (at_pget _ k Ok eq_refl). cbn [stree]. rewrite G. reflexivity.
Qed.

(* removing a binding, as done by operator-=, set(k, top) and join(k, v) *)
Lemma unbind_spec a k :
  sep_ok a -> sbot a = false ->
  sep_ok (mkSep false (premove (stree a) k)) /\
  forall k', at_ (mkSep false (premove (stree a) k)) k' = if k' =? k then vtop else at_ a k'.
Proof.
  intros Ok Hb. pose proof Ok as (W & O & _).
  destruct (premove_spec V (stree a) k W) as (W' & _ & G').
  destruct (mk_spec _ _ W' G') as [Ok' A'].
  { intros k0 v0. destruct (k0 =? k); [discriminate|apply O]. }
  split; [exact Ok'|]. intros k'. rewrite A', (at_pget a k' Ok Hb). destruct (k' =? k); reflexivity.
Qed.

Theorem forget_spec a k :
  sep_ok a ->
  sep_ok (forget_ a k) /\ sbot (forget_ a k) = sbot a /\
  (sbot a = false -> forall k', at_ (forget_ a k) k' = if k' =? k then vtop else at_ a k').
Proof.
  intros Ok. unfold s_forget.
  destruct (sbot a) eqn:Hb; [split; [exact Ok|]; split; [exact Hb|]; intros H; discriminate|].
  destruct (unbind_spec a k Ok Hb) as [Ok' A']. auto.
Qed.

Theorem set_spec a k v :
  sep_ok a -> Vwf v ->
  sep_ok (set_ a k v) /\
  sbot (set_ a k v) = sbot a || v_is_bot v /\
  (sbot a || v_is_bot v = false ->
   forall k', at_ (set_ a k v) k' = if k' =? k then ntop v else at_ a k').
Proof.
  intros Ok Hv. pose proof Ok as (W & O & B). unfold s_set, ntop.
  destruct (sbot a) eqn:Hb;
    [cbn [orb]; split; [exact Ok|]; split; [exact Hb|]; intros H; discriminate|].
  cbn [orb]. destruct (v_is_bot v) eqn:Vb.
  - split; [apply sep_ok_bottom|]. split; [reflexivity|discriminate].
  - destruct (v_is_top v) eqn:Vt.
    + destruct (unbind_spec a k Ok Hb) as [Ok' A']. auto.
    + destruct (pt_insert_spec V veq good veq_good (stree a) k v W O) as (W' & _ & G').
      destruct (mk_spec _ _ W' G') as [Ok' A'].
      { intros k0 v0. destruct (k0 =? k); [|apply O]. intros E; inversion E; subst. repeat split; auto. }
      split; [exact Ok'|]. split; [reflexivity|]. intros _ k'.
      rewrite A', (at_pget a k' Ok Hb). destruct (k' =? k); reflexivity.
Qed.

Section JoinKV.
Variable vjoin : V -> V -> V.
Hypothesis join_wf : forall x y, Vwf x -> Vwf y -> Vwf (vjoin x y).
Hypothesis join_not_bot :
  forall x y, v_is_bot x = false -> v_is_bot y = false -> v_is_bot (vjoin x y) = false.
Hypothesis join_top_l : forall x y, Vwf x -> Vwf y -> v_is_top x = true -> v_is_top (vjoin x y) = true.
Hypothesis join_top_r : forall x y, Vwf x -> Vwf y -> v_is_top y = true -> v_is_top (vjoin x y) = true.

Notation joinkv_ := (s_join_kv V v_is_top v_is_bot veq vjoin).

(* weak update: a[k] := a[k] | v.  The code is strict in v: a bottom value makes the
   environment bottom. *)
Theorem join_kv_spec a k v :
  sep_ok a -> Vwf v ->
  sep_ok (joinkv_ a k v) /\
  sbot (joinkv_ a k v) = sbot a || v_is_bot v /\
  (sbot a || v_is_bot v = false ->
   forall k', at_ (joinkv_ a k v) k' = if k' =? k then ntop (vjoin (at_ a k) v) else at_ a k').
Proof.
  intros Ok Hv. pose proof Ok as (W & O & B). unfold s_join_kv.
  destruct (sbot a) eqn:Hb;
    [cbn [orb]; split; [exact Ok|]; split; [exact Hb|]; intros H; discriminate|].
  cbn [orb]. destruct (v_is_bot v) eqn:Vb.
  - split; [apply sep_ok_bottom|]. split; [reflexivity|discriminate].
  - (* the binding is removed when the joined value is top *)
    assert (RM : v_is_top (vjoin (at_ a k) v) = true ->
                 sep_ok (mkSep false (premove (stree a) k)) /\
                 forall k', at_ (mkSep false (premove (stree a) k)) k' =
                            if k' =? k then ntop (vjoin (at_ a k) v) else at_ a k').
    { intros T. destruct (unbind_spec a k Ok Hb) as [RM1 RM2]. split; [exact RM1|].
      intros k'. unfold ntop. rewrite RM2, T. reflexivity. }
    destruct (v_is_top v) eqn:Vt.
    { destruct (RM (join_top_r _ _ (at_wf a k Ok Hb) Hv Vt)). auto. }
    rewrite (plookup_pget _ _ _ W). pose proof (at_pget a k Ok Hb) as Hold.
    destruct (pget (stree a) k) as [old|] eqn:G.
    + destruct (O k old G) as (Ow & Ot & Ob).
      destruct (set_spec a k (vjoin old v) Ok (join_wf _ _ Ow Hv)) as (S1 & S2 & S3).
      rewrite Hb, (join_not_bot _ _ Ob Vb) in S2, S3. rewrite Hold. auto.
    + destruct RM; [rewrite Hold; apply (join_top_l _ _ Vwf_top Hv top_is_top)|]. auto.
Qed.
End JoinKV.

Lemma is_top_empty (a : sepV) : s_is_top a = true -> stree a = None.
Proof.
  unfold s_is_top. intros H. apply andb_true_iff in H. destruct H as [_ H].
  apply N.eqb_eq, psize_zero in H. exact H.
Qed.

Theorem is_top_spec a :
  sep_ok a ->
  (s_is_top a = true <-> sbot a = false /\ forall k, v_is_top (at_ a k) = true).
Proof.
  intros Ok. pose proof Ok as (W & O & B). unfold s_is_top.
  destruct (sbot a) eqn:Hb; cbn [negb andb].
  - split; [discriminate|intros [H _]; discriminate].
  - rewrite N.eqb_eq, psize_zero. split.
    + intros E. split; [reflexivity|]. intros k. rewrite (at_pget a k Ok Hb), E. exact top_is_top.
    + intros [_ H]. destruct (stree a) as [t|] eqn:E; [|reflexivity]. exfalso.
      destruct (get_inhabited V t) as [k [v G]]. specialize (H k).
      rewrite (at_pget a k Ok Hb), E in H. cbn [pget] in H. rewrite G in H.
      destruct (O k v) as (_ & T & _); [exact G|]. congruence.
Qed.

Hypothesis leq_top_top : vleq vtop vtop = true.
Hypothesis leq_good_top : forall x, good x -> vleq x vtop = true.
Hypothesis leq_top_good : forall y, good y -> vleq vtop y = false.

Theorem leq_spec a b :
  sep_ok a -> sep_ok b ->
  (leq_ a b = true <->
   sbot a = true \/ (sbot b = false /\ forall k, vleq (at_ a k) (at_ b k) = true)).
Proof.
  intros Oa Ob. pose proof Oa as (Wa & Ga & _). pose proof Ob as (Wb & Gb & _).
  unfold s_leq. destruct (sbot a) eqn:Ha; [split; auto|].
  destruct (sbot b) eqn:Hb.
  - split; [discriminate|]. intros [H|[H _]]; discriminate.
  - unfold pt_leq. rewrite (pcompare_spec V (domain_po V vleq) true _ _ Wa Wb).
    assert (E : forall k, ole (domain_po V vleq) true (pget (stree a) k) (pget (stree b) k)
                          = vleq (at_ a k) (at_ b k)).
    { intros k. rewrite (at_pget a k Oa Ha), (at_pget b k Ob Hb).
      destruct (pget (stree a) k) as [x|] eqn:Ea; destruct (pget (stree b) k) as [y|] eqn:Eb;
        cbn [ole domain_po pleq pdefault_is_top negb].
      - reflexivity.
      - symmetry. apply leq_good_top. apply (Ga k x Ea).
      - symmetry. apply leq_top_good. apply (Gb k y Eb).
      - symmetry. exact leq_top_top. }
    split.
    + intros H. right. split; [reflexivity|]. intros k. rewrite <- E. apply H.
    + intros [H|[_ H]]; [discriminate|]. intros k. rewrite E. apply H.
Qed.

Theorem eq_spec a b :
  sep_ok a -> sep_ok b ->
  (s_eq V vleq a b = true <-> leq_ a b = true /\ leq_ b a = true).
Proof. intros _ _. unfold s_eq. apply andb_true_iff. Qed.

(* operator| , operator|| , widening_thresholds: lub_op is absorbing *)

Section Lub.
Variable f : V -> V -> V.
Hypothesis f_wf : forall x y, Vwf x -> Vwf y -> Vwf (f x y).
Hypothesis f_not_bot :
  forall x y, v_is_bot x = false -> v_is_bot y = false -> v_is_bot (f x y) = false.
Hypothesis f_top_l : forall x y, Vwf x -> Vwf y -> v_is_top x = true -> v_is_top (f x y) = true.
Hypothesis f_top_r : forall x y, Vwf x -> Vwf y -> v_is_top y = true -> v_is_top (f x y) = true.

Notation lub_ := (s_lub V v_is_top veq f).

(* one key of the merge under lub_op: an absent binding is top, which f preserves *)
Lemma lub_key a b k :
  sep_ok a -> sep_ok b -> sbot a = false -> sbot b = false ->
  let o := comb (lub_op V v_is_top f) true k (pget (stree a) k) (pget (stree b) k) in
  (forall v, o = Some v -> good v) /\
  match o with Some v => v | None => vtop end = ntop (f (at_ a k) (at_ b k)).
Proof.
  intros Oa Ob Ha Hb. pose proof Oa as (_ & Ga & _). pose proof Ob as (_ & Gb & _).
  rewrite (at_pget a k Oa Ha), (at_pget b k Ob Hb). unfold ntop.
  destruct (pget (stree a) k) as [x|] eqn:Ea; destruct (pget (stree b) k) as [y|] eqn:Eb;
    cbn [comb lub_op babsorbing app_op bapply].
  - destruct (Ga k x Ea) as (X1 & X2 & X3). destruct (Gb k y Eb) as (Y1 & Y2 & Y3).
    destruct (v_is_top (f x y)) eqn:T; cbn [snd]; (split; [|reflexivity]); intros v E;
      [discriminate|]. inversion E; subst. repeat split; auto.
  - destruct (Ga k x Ea) as (X1 & _). rewrite (f_top_r _ _ X1 Vwf_top top_is_top).
    split; [discriminate|reflexivity].
  - destruct (Gb k y Eb) as (Y1 & _). rewrite (f_top_l _ _ Vwf_top Y1 top_is_top).
    split; [discriminate|reflexivity].
  - rewrite (f_top_l _ _ Vwf_top Vwf_top top_is_top). split; [discriminate|reflexivity].
Qed.

Theorem lub_spec a b :
  sep_ok a -> sep_ok b ->
  sep_ok (lub_ a b) /\
  (sbot a = true -> lub_ a b = b) /\
  (sbot a = false -> sbot b = true -> lub_ a b = a) /\
  (sbot a = false -> sbot b = false ->
   sbot (lub_ a b) = false /\
   forall k, at_ (lub_ a b) k = ntop (f (at_ a k) (at_ b k))).
Proof.
  intros Oa Ob. pose proof Oa as (Wa & Ga & _). pose proof Ob as (Wb & Gb & _).
  unfold s_lub. destruct (sbot a) eqn:Ha.
  { split; [exact Ob|]. repeat split; auto; discriminate. }
  destruct (sbot b) eqn:Hb.
  { split; [exact Oa|]. repeat split; auto; discriminate. }
  pose proof (pt_merge_with_spec V veq good veq_good (lub_op V v_is_top f) _ _ Wa Wb Ga Gb) as M.
  destruct (pt_merge_with veq (stree a) (stree b) (lub_op V v_is_top f)) as [[|] r]; cbn [snd].
  { (* lub_op never answers bottom *)
    destruct M as (_ & k & x & y & _ & _ & H). unfold app_op, lub_op in H. cbn [bapply] in H.
    destruct (v_is_top (f x y)); discriminate. }
  destruct M as (Wr & _ & Gr & _).
  destruct (mk_spec r _ Wr Gr) as [Okr Ar]; [intros k; apply (lub_key a b k Oa Ob Ha Hb)|].
  split; [exact Okr|]. split; [discriminate|]. split; [discriminate|]. intros _ _.
  split; [reflexivity|]. intros k. rewrite Ar. apply (lub_key a b k Oa Ob Ha Hb).
Qed.
End Lub.

(* operator& , operator&& : top is neutral for glb_op *)

Section Glb.
Variable g : V -> V -> V.
Hypothesis g_wf : forall x y, Vwf x -> Vwf y -> Vwf (g x y).
Hypothesis g_top_r : forall x, good x -> g x vtop = x.
Hypothesis g_top_l : forall y, good y -> g vtop y = y.
Hypothesis g_top_top : g vtop vtop = vtop.
Hypothesis g_not_top :
  forall x y, good x -> good y -> v_is_bot (g x y) = false -> v_is_top (g x y) = false.

Notation glb_ := (s_glb V v_is_bot veq g).

(* one key of the merge under glb_op: an absent binding is top, which is neutral for g; the
   combination is bottom only at a key bound on both sides *)
Lemma glb_key a b k :
  sep_ok a -> sep_ok b -> sbot a = false -> sbot b = false ->
  (v_is_bot (g (at_ a k) (at_ b k)) = true <->
   exists x y, pget (stree a) k = Some x /\ pget (stree b) k = Some y /\
               fst (app_op (glb_op V v_is_bot g) true k x y) = true) /\
  (v_is_bot (g (at_ a k) (at_ b k)) = false ->
   let o := comb (glb_op V v_is_bot g) true k (pget (stree a) k) (pget (stree b) k) in
   (forall v, o = Some v -> good v) /\
   match o with Some v => v | None => vtop end = g (at_ a k) (at_ b k)).
Proof.
  intros Oa Ob Ha Hb. pose proof Oa as (_ & Ga & _). pose proof Ob as (_ & Gb & _).
  rewrite (at_pget a k Oa Ha), (at_pget b k Ob Hb).
  destruct (pget (stree a) k) as [x|] eqn:Ea; destruct (pget (stree b) k) as [y|] eqn:Eb;
    cbn [comb glb_op babsorbing app_op bapply].
  - pose proof (Ga k x Ea) as Gx. pose proof (Gb k y Eb) as Gy. split.
    + split.
      * intros B. exists x, y. rewrite B. auto.
      * intros (x' & y' & E1 & E2 & H). inversion E1; inversion E2; subst.
        destruct (v_is_bot (g x' y')); [reflexivity|discriminate H].
    + intros B. rewrite B. cbn [snd]. split; [|reflexivity]. intros v E; inversion E; subst.
      split; [apply g_wf; [apply Gx|apply Gy]|]. split; [apply g_not_top; auto|exact B].
  - pose proof (Ga k x Ea) as Gx. rewrite (g_top_r x Gx). split.
    + destruct Gx as (_ & _ & ->). split; [discriminate|]. intros (x' & y' & _ & E & _); discriminate.
    + intros _. split; [|reflexivity]. intros v E; inversion E; subst. exact Gx.
  - pose proof (Gb k y Eb) as Gy. rewrite (g_top_l y Gy). split.
    + destruct Gy as (_ & _ & ->). split; [discriminate|]. intros (x' & y' & E & _); discriminate.
    + intros _. split; [|reflexivity]. intros v E; inversion E; subst. exact Gy.
  - rewrite g_top_top, top_not_bot. split.
    + split; [discriminate|]. intros (x' & y' & E & _); discriminate.
    + intros _. split; [discriminate|reflexivity].
Qed.

Theorem glb_spec a b :
  sep_ok a -> sep_ok b ->
  sep_ok (glb_ a b) /\
  (sbot a = true \/ sbot b = true -> sbot (glb_ a b) = true) /\
  (sbot a = false -> sbot b = false ->
   (sbot (glb_ a b) = true <-> exists k, v_is_bot (g (at_ a k) (at_ b k)) = true) /\
   (sbot (glb_ a b) = false -> forall k, at_ (glb_ a b) k = g (at_ a k) (at_ b k))).
Proof.
  intros Oa Ob. pose proof Oa as (Wa & Ga & _). pose proof Ob as (Wb & Gb & _).
  unfold s_glb. destruct (sbot a) eqn:Ha.
  { cbn [orb]. split; [apply sep_ok_bottom|]. split; [reflexivity|discriminate]. }
  destruct (sbot b) eqn:Hb.
  { cbn [orb]. split; [apply sep_ok_bottom|]. split; [reflexivity|discriminate]. }
  cbn [orb].
  pose proof (pt_merge_with_spec V veq good veq_good (glb_op V v_is_bot g) _ _ Wa Wb Ga Gb) as M.
  destruct (pt_merge_with veq (stree a) (stree b) (glb_op V v_is_bot g)) as [[|] r].
  - destruct M as (_ & k & x & y & Ex & Ey & H).
    split; [apply sep_ok_bottom|]. split; [reflexivity|]. intros _ _. split; [|discriminate].
    split; [intros _|reflexivity]. exists k. apply (glb_key a b k Oa Ob Ha Hb). exists x, y. auto.
  - destruct M as (Wr & _ & Gr & Nb).
    assert (NB : forall k, v_is_bot (g (at_ a k) (at_ b k)) = false).
    { intros k. destruct (v_is_bot (g (at_ a k) (at_ b k))) eqn:B; [|reflexivity].
      apply (glb_key a b k Oa Ob Ha Hb) in B. destruct B as (x & y & Ex & Ey & H).
      rewrite (Nb k x y Ex Ey) in H. discriminate H. }
    destruct (mk_spec r _ Wr Gr) as [Okr Ar];
      [intros k; apply (glb_key a b k Oa Ob Ha Hb), NB|].
    split; [exact Okr|]. split; [intros [H|H]; discriminate|]. intros _ _. cbn [sbot]. split.
    + split; [discriminate|]. intros [k H]. rewrite NB in H. discriminate H.
    + intros _ k. rewrite Ar. apply (glb_key a b k Oa Ob Ha Hb), NB.
Qed.
End Glb.


Theorem elements_spec a :
  sep_ok a -> sbot a = false ->
  exists l, s_elements a = Some l /\ StronglySorted key_lt l /\
            forall k v, In (k, v) l <-> (at_ a k = v /\ v_is_top v = false).
Proof.
  intros Ok Hb. pose proof Ok as (W & O & _). exists (pelements (stree a)).
  unfold s_elements. rewrite Hb. split; [reflexivity|]. split; [apply pelements_sorted; exact W|].
  intros k v. rewrite (pelements_in V _ k v W). split.
  - intros G. rewrite (at_pget a k Ok Hb), G. split; [reflexivity|]. apply (O k v G).
  - intros [E T]. subst v. apply at_bound; assumption.
Qed.

Theorem size_spec a :
  sep_ok a ->
  s_size a = if sbot a then Some 0
             else if s_is_top a then None
             else Some (N.of_nat (length (pelements (stree a)))).
Proof.
  intros _. unfold s_size. destruct (sbot a); [reflexivity|].
  destruct (s_is_top a); [reflexivity|]. rewrite psize_elements. reflexivity.
Qed.

Lemma mem_keys_in k l : mem_keys k l = true <-> In k l.
Proof.
  unfold mem_keys. rewrite existsb_exists. split.
  - intros [x [H1 H2]]. apply N.eqb_eq in H2. subst. exact H1.
  - intros H. exists k. split; [exact H|apply N.eqb_refl].
Qed.

Lemma mem_keys_cons k x l : mem_keys k (x :: l) = (k =? x) || mem_keys k l.
Proof. reflexivity. Qed.

Lemma forget_pairs_spec (l : list (N * V)) : forall a,
  sep_ok a -> sbot a = false ->
  sep_ok (fold_left (fun a' kv => forget_ a' (fst kv)) l a) /\
  sbot (fold_left (fun a' kv => forget_ a' (fst kv)) l a) = false /\
  forall k, at_ (fold_left (fun a' kv => forget_ a' (fst kv)) l a) k =
            if mem_keys k (map fst l) then vtop else at_ a k.
Proof.
  induction l as [|[k0 v0] l IH]; intros a Ok Hb.
  - cbn. auto.
  - cbn [fold_left fst map]. destruct (forget_spec a k0 Ok) as (F1 & F2 & F3).
    rewrite Hb in F2. specialize (F3 Hb).
    destruct (IH _ F1 F2) as (I1 & I2 & I3). split; [exact I1|]. split; [exact I2|].
    intros k. rewrite I3, F3, mem_keys_cons.
    destruct (k =? k0); destruct (mem_keys k (map fst l)); reflexivity.
Qed.

Lemma project_copy_fold a : sep_ok a -> sbot a = false ->
  forall keys env, sep_ok env -> sbot env = false ->
  sep_ok (fold_left (fun env key => set_ env key (at_ a key)) keys env) /\
  sbot (fold_left (fun env key => set_ env key (at_ a key)) keys env) = false /\
  forall k, at_ (fold_left (fun env key => set_ env key (at_ a key)) keys env) k =
            if mem_keys k keys then at_ a k else at_ env k.
Proof.
  intros Ok Hb. induction keys as [|key keys IH]; intros env Oe He.
  - cbn. auto.
  - cbn [fold_left].
    destruct (set_spec env key (at_ a key) Oe (at_wf a key Ok Hb)) as (S1 & S2 & S3).
    rewrite He, (at_not_bot a key Ok Hb) in S2, S3. cbn [orb] in S2, S3. specialize (S3 eq_refl).
    destruct (IH _ S1 S2) as (I1 & I2 & I3). split; [exact I1|]. split; [exact I2|].
    intros k. rewrite I3, S3, mem_keys_cons, (ntop_at a key Ok Hb).
    destruct (N.eqb_spec k key) as [->|]; cbn [orb]; [|reflexivity].
    destruct (mem_keys key keys); reflexivity.
Qed.

Notation project_ := (s_project V vtop vbot v_is_top v_is_bot veq).

Theorem project_spec a keys :
  sep_ok a ->
  sep_ok (project_ a keys) /\ sbot (project_ a keys) = sbot a /\
  (sbot a = false ->
   forall k, at_ (project_ a keys) k = if mem_keys k keys then at_ a k else vtop).
Proof.
  intros Ok. pose proof Ok as (W & O & _). unfold s_project.
  destruct (sbot a) eqn:Hb; cbn [orb].
  { split; [exact Ok|]. split; [exact Hb|discriminate]. }
  destruct (s_is_top a) eqn:Ht.
  { split; [exact Ok|]. split; [exact Hb|]. intros _ k.
    rewrite (at_pget a k Ok Hb), (is_top_empty a Ht). cbn [pget]. destruct (mem_keys k keys); reflexivity. }
  destruct (project_copies (psize (stree a)) (N.of_nat (length keys))).
  - unfold s_project_copy.
    destruct (project_copy_fold a Ok Hb keys sep_top sep_ok_top eq_refl) as (P1 & P2 & P3).
    split; [exact P1|]. split; [exact P2|]. intros _ k. rewrite P3. reflexivity.
  - unfold s_project_remove.
    set (dead := filter (fun kv => negb (mem_keys (fst kv) keys)) (pelements (stree a))).
    destruct (forget_pairs_spec dead a Ok Hb) as (P1 & P2 & P3).
    split; [exact P1|]. split; [exact P2|]. intros _ k. rewrite P3.
    (* the keys forgotten are those bound in the tree and absent from [keys] *)
    assert (D : mem_keys k (map fst dead) = true <->
                mem_keys k keys = false /\ exists v, pget (stree a) k = Some v).
    { rewrite mem_keys_in, in_map_iff. split.
      - intros [[k1 v1] [E1 E2]]. cbn [fst] in E1. subst k1. apply filter_In in E2.
        destruct E2 as [E2 E3]. cbn [fst] in E3. apply negb_true_iff in E3.
        split; [exact E3|]. exists v1. apply (pelements_in V _ k v1 W). exact E2.
      - intros [Mk [v G]]. exists (k, v). split; [reflexivity|]. apply filter_In.
        split; [apply (pelements_in V _ k v W); exact G|]. cbn [fst]. rewrite Mk. reflexivity. }
    destruct (mem_keys k (map fst dead)).
    + destruct (proj1 D eq_refl) as [-> _]. reflexivity.
    + destruct (mem_keys k keys); [reflexivity|]. rewrite (at_pget a k Ok Hb).
      destruct (pget (stree a) k) as [v|]; [|reflexivity].
      assert (X : false = true) by (apply D; eauto). discriminate X.
Qed.

(* the source of key k under the renaming l = [(from_i, to_i)] *)
Fixpoint rn_src (l : list (N * N)) (k : N) : option N :=
  match l with
  | [] => None
  | (f, t) :: l' => if k =? t then Some f else rn_src l' k
  end.

Lemma rn_src_some l k f : rn_src l k = Some f -> In f (map fst l) /\ In k (map snd l).
Proof.
  induction l as [|[f0 t0] l IH]; cbn [rn_src map fst snd In]; [discriminate|].
  destruct (N.eqb_spec k t0) as [->|].
  - intros E; inversion E; subst. auto.
  - intros E. destruct (IH E). auto.
Qed.

Lemma rn_src_none l k : ~ In k (map snd l) -> rn_src l k = None.
Proof.
  intros H. destruct (rn_src l k) eqn:E; [|reflexivity].
  exfalso. apply H. eapply rn_src_some; eauto.
Qed.

Lemma mem_keys_false k l : ~ In k l -> mem_keys k l = false.
Proof.
  intros H. destruct (mem_keys k l) eqn:E; [|reflexivity].
  exfalso; apply H; apply mem_keys_in; exact E.
Qed.

(* one move f -> nk of rename, the target being unbound *)
Lemma rename_step_spec t f nk :
  wfp t -> pall_ok good t -> f <> nk -> pget t nk = None ->
  wfp (rename_step V v_is_top veq t (f, nk)) /\
  pall_ok good (rename_step V v_is_top veq t (f, nk)) /\
  forall k, pget (rename_step V v_is_top veq t (f, nk)) k =
            if k =? f then None else if k =? nk then pget t f else pget t k.
Proof.
  intros W O Hfn Fn. unfold rename_step. destruct (N.eqb_spec f nk) as [|_]; [congruence|].
  rewrite (plookup_pget _ _ _ W). destruct (pget t f) as [v|] eqn:G.
  - destruct (O f v G) as (Gw & Gt & Gb). rewrite Gt.
    destruct (pt_insert_spec V veq good veq_good t nk v W O) as (W2 & _ & G2).
    destruct (premove_spec V (pt_insert veq t nk v) f W2) as (W1 & _ & G1).
    assert (G1' : forall k, pget (premove (pt_insert veq t nk v) f) k =
                            if k =? f then None else if k =? nk then Some v else pget t k).
    { intros k. rewrite G1, G2. reflexivity. }
    split; [exact W1|]. split; [|exact G1'].
    intros k v0. rewrite G1'. destruct (k =? f); [discriminate|].
    destruct (k =? nk); [|apply O]. intros E; inversion E; subst. repeat split; auto.
  - split; [exact W|]. split; [exact O|]. intros k.
    destruct (N.eqb_spec k f) as [->|]; [exact G|].
    destruct (N.eqb_spec k nk) as [->|]; [exact Fn|reflexivity].
Qed.

Lemma rename_steps_spec : forall (l : list (N * N)) (t : ptree V),
  wfp t -> pall_ok good t ->
  NoDup (map fst l) -> NoDup (map snd l) ->
  (forall x, In x (map snd l) -> ~ In x (map fst l)) ->
  (forall x, In x (map snd l) -> pget t x = None) ->
  wfp (fold_left (rename_step V v_is_top veq) l t) /\
  pall_ok good (fold_left (rename_step V v_is_top veq) l t) /\
  forall k, pget (fold_left (rename_step V v_is_top veq) l t) k =
            match rn_src l k with
            | Some f => pget t f
            | None => if mem_keys k (map fst l) then None else pget t k
            end.
Proof.
  induction l as [|[f nk] l IH]; intros t W O N1 N2 D F.
  - cbn. auto.
  - cbn [map fst snd] in *. inversion N1 as [|? ? Nf N1']; subst.
    inversion N2 as [|? ? Nn N2']; subst.
    assert (Hfn : f <> nk).
    { intros ->. apply (D nk); left; reflexivity. }
    assert (Dn : ~ In nk (map fst l)).
    { intros H. apply (D nk); [left; reflexivity|right; exact H]. }
    cbn [fold_left].
    destruct (rename_step_spec t f nk W O Hfn (F nk (or_introl eq_refl))) as (W1 & O1 & G1).
    destruct (IH _ W1 O1 N1' N2') as (I1 & I2 & I3).
    { intros x Hx Hx'. apply (D x); right; assumption. }
    { intros x Hx. rewrite G1.
      destruct (N.eqb_spec x f) as [->|]; [reflexivity|].
      destruct (N.eqb_spec x nk) as [->|]; [contradiction|]. apply F. right; exact Hx. }
    split; [exact I1|]. split; [exact I2|]. intros k. rewrite I3.
    cbn [rn_src]. rewrite mem_keys_cons.
    destruct (N.eqb_spec k nk) as [->|Hk].
    + rewrite (rn_src_none l nk Nn), (mem_keys_false nk _ Dn), G1.
      destruct (N.eqb_spec nk f); [congruence|]. rewrite N.eqb_refl. reflexivity.
    + destruct (rn_src l k) as [f'|] eqn:R.
      * destruct (rn_src_some _ _ _ R) as [Hf' _]. rewrite G1.
        destruct (N.eqb_spec f' f) as [->|]; [contradiction|].
        destruct (N.eqb_spec f' nk) as [->|]; [contradiction|]. reflexivity.
      * destruct (N.eqb_spec k f) as [->|Hkf]; cbn [orb].
        -- rewrite (mem_keys_false f _ Nf), G1, N.eqb_refl. reflexivity.
        -- destruct (mem_keys k (map fst l)); [reflexivity|]. rewrite G1.
           destruct (N.eqb_spec k f); [congruence|].
           destruct (N.eqb_spec k nk); [congruence|]. reflexivity.
Qed.

Lemma combine_maps (l1 l2 : list N) :
  length l1 = length l2 ->
  map fst (combine l1 l2) = l1 /\ map snd (combine l1 l2) = l2.
Proof.
  revert l2. induction l1 as [|x l1 IH]; intros [|y l2] H; cbn in *; try discriminate; auto.
  destruct (IH l2) as [E1 E2]; [congruence|]. rewrite E1, E2. auto.
Qed.

(* rename(from, to), under its documented precondition: the targets are distinct, do not
   occur among the sources and are unconstrained (top) in the environment *)
Theorem rename_spec a from to r :
  sep_ok a -> s_rename V v_is_top veq a from to = Some r ->
  NoDup from -> NoDup to -> (forall x, In x to -> ~ In x from) ->
  (sbot a = false -> forall x, In x to -> v_is_top (at_ a x) = true) ->
  sep_ok r /\ sbot r = sbot a /\
  (sbot a = false ->
   forall k, at_ r k = match rn_src (combine from to) k with
                       | Some f => at_ a f
                       | None => if mem_keys k from then vtop else at_ a k
                       end).
Proof.
  intros Ok HR N1 N2 D T. pose proof Ok as (W & O & _). unfold s_rename in HR.
  destruct (sbot a) eqn:Hb.
  { rewrite orb_true_r in HR. inversion HR; subst. split; [exact Ok|]. split; [exact Hb|discriminate]. }
  rewrite orb_false_r in HR. destruct (s_is_top a) eqn:Ht.
  { inversion HR; subst. split; [exact Ok|]. split; [exact Hb|]. intros _ k.
    assert (A : forall k0, at_ r k0 = vtop).
    { intros k0. rewrite (at_pget r k0 Ok Hb), (is_top_empty r Ht). reflexivity. }
    rewrite (A k). destruct (rn_src (combine from to) k); [symmetry; apply A|].
    destruct (mem_keys k from); reflexivity. }
  destruct (Nat.eqb (length from) (length to)) eqn:EL; cbn [negb] in HR; [|discriminate].
  apply Nat.eqb_eq in EL. inversion HR; subst. clear HR.
  destruct (combine_maps from to EL) as [M1 M2].
  assert (F : forall x, In x (map snd (combine from to)) -> pget (stree a) x = None).
  { rewrite M2. intros x Hx. specialize (T eq_refl x Hx).
    rewrite (at_pget a x Ok Hb) in T. destruct (pget (stree a) x) as [v|] eqn:G; [|reflexivity].
    destruct (O x v G) as (_ & Tv & _). congruence. }
  destruct (rename_steps_spec (combine from to) (stree a) W O) as (R1 & R2 & R3);
    [rewrite M1; exact N1|rewrite M2; exact N2|rewrite M1, M2; exact D|exact F|].
  assert (Okr : sep_ok (mkSep false (fold_left (rename_step V v_is_top veq) (combine from to)
                                                (stree a)))) by (apply mk_ok; assumption).
  split; [exact Okr|]. split; [reflexivity|]. intros _ k.
  rewrite (at_pget _ k Okr eq_refl). cbn [stree]. rewrite R3, M1.
  destruct (rn_src (combine from to) k) as [f|]; [rewrite (at_pget a f Ok Hb); reflexivity|].
  destruct (mem_keys k from); [reflexivity|]. rewrite (at_pget a k Ok Hb). reflexivity.
Qed.

End SepSound.
