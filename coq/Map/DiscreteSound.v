(* DiscreteSound.v — patricia_tree_set and discrete_domain (Map/DiscreteDomain.v) implement
   finite sets exactly: membership after insertion / removal / union / intersection /
   difference is the boolean combination of the memberships, the subset test holds exactly
   when it holds elementwise, iteration lists the elements once in increasing order. *)
From Coq Require Import NArith Bool List Lia Sorting.Sorted.
From CrabV Require Import Map.Patricia Map.PatriciaBits Map.PatriciaSpec Map.DiscreteDomain.
Import ListNotations.
Local Open Scope N_scope.

Definition bok (v : bool) : Prop := v = true.
Lemma beq_ok : forall x y, bok x -> Bool.eqb y x = true -> y = x.
Proof. intros x y _ H. apply eqb_prop; exact H. Qed.

Definition ps_ok (s : pset) : Prop := wfp s /\ pall_ok bok s.

(* a set binds exactly its elements, each to [true] *)
Lemma pget_mem s k : ps_ok s -> pget s k = if ps_mem s k then Some true else None.
Proof.
  intros [W O]. unfold ps_mem. rewrite (plookup_pget _ _ _ W).
  destruct (pget s k) as [v|] eqn:E; [rewrite (O k v E)|]; reflexivity.
Qed.

(* and a well-formed tree that binds the keys selected by [m] to [true] is the set [m] *)
Lemma ps_ok_intro s (m : N -> bool) :
  wfp s -> (forall k, pget s k = if m k then Some true else None) ->
  ps_ok s /\ forall k, ps_mem s k = m k.
Proof.
  intros W G. split; [split; [exact W|]|].
  - intros k v. rewrite G. destruct (m k); [|discriminate]. intros E; inversion E; reflexivity.
  - intros k. unfold ps_mem. rewrite (plookup_pget _ _ _ W), G. destruct (m k); reflexivity.
Qed.

Lemma ps_ok_empty : ps_ok ps_empty.
Proof. split; [exact I|]. intros k v H; discriminate. Qed.

Theorem ps_mem_empty k : ps_mem ps_empty k = false.
Proof. reflexivity. Qed.

Theorem ps_add_spec s k :
  ps_ok s -> ps_ok (ps_add s k) /\ forall k', ps_mem (ps_add s k) k' = (k' =? k) || ps_mem s k'.
Proof.
  intros Ok. unfold ps_add.
  destruct (pt_insert_spec bool Bool.eqb bok beq_ok s k true (proj1 Ok) (proj2 Ok))
    as (W & _ & G).
  apply ps_ok_intro; [exact W|]. intros k'. rewrite G, (pget_mem s k' Ok).
  destruct (k' =? k); reflexivity.
Qed.

Theorem ps_single_spec k :
  ps_ok (ps_single k) /\ forall k', ps_mem (ps_single k) k' = (k' =? k).
Proof.
  destruct (ps_add_spec ps_empty k ps_ok_empty) as [H1 H2]. split; [exact H1|].
  intros k'. exact (eq_trans (H2 k') (orb_false_r _)).
Qed.

Theorem ps_remove_spec s k :
  ps_ok s ->
  ps_ok (ps_remove s k) /\ forall k', ps_mem (ps_remove s k) k' = negb (k' =? k) && ps_mem s k'.
Proof.
  intros Ok. unfold ps_remove. destruct (premove_spec bool s k (proj1 Ok)) as (W & _ & G).
  apply ps_ok_intro; [exact W|]. intros k'. rewrite G, (pget_mem s k' Ok).
  destruct (k' =? k); reflexivity.
Qed.

(* merge_with under an operator that keeps every common element never answers bottom; it is
   the intersection if the operator is absorbing, the union otherwise *)
Lemma ps_merge_spec (op : binop bool) a b :
  (forall k x y, bapply op k x y = (false, Some true)) ->
  ps_ok a -> ps_ok b ->
  ps_ok (snd (pt_merge_with Bool.eqb a b op)) /\
  forall k, ps_mem (snd (pt_merge_with Bool.eqb a b op)) k =
            if babsorbing op then ps_mem a k && ps_mem b k else ps_mem a k || ps_mem b k.
Proof.
  intros Hop Oa Ob.
  pose proof (pmerge_spec bool Bool.eqb bok beq_ok op true a b
                (proj1 Oa) (proj1 Ob) (proj2 Oa) (proj2 Ob)) as M.
  unfold pt_merge_with. destruct (pmerge Bool.eqb op true a b) as [bt r].
  unfold pmerge_result, mres in M. cbn [fst snd] in M. destruct bt.
  - exfalso. destruct M as (_ & k & x & y & _ & _ & H). unfold app_op in H. rewrite Hop in H.
    discriminate.
  - destruct M as (Wr & _ & Gr & _). apply ps_ok_intro; [exact Wr|]. intros k.
    rewrite Gr, (pget_mem a k Oa), (pget_mem b k Ob). unfold comb, app_op.
    destruct (ps_mem a k), (ps_mem b k), (babsorbing op); rewrite ?Hop; reflexivity.
Qed.

Theorem ps_union_spec a b :
  ps_ok a -> ps_ok b ->
  ps_ok (ps_union a b) /\ forall k, ps_mem (ps_union a b) k = ps_mem a k || ps_mem b k.
Proof. exact (ps_merge_spec union_op a b (fun _ _ _ => eq_refl)). Qed.

Theorem ps_inter_spec a b :
  ps_ok a -> ps_ok b ->
  ps_ok (ps_inter a b) /\ forall k, ps_mem (ps_inter a b) k = ps_mem a k && ps_mem b k.
Proof. exact (ps_merge_spec intersection_op a b (fun _ _ _ => eq_refl)). Qed.

Theorem ps_leq_spec a b :
  ps_ok a -> ps_ok b ->
  (ps_leq a b = true <-> forall k, ps_mem a k = true -> ps_mem b k = true).
Proof.
  intros Oa Ob. unfold ps_leq, pt_leq.
  rewrite (pcompare_spec bool subset_po true a b (proj1 Oa) (proj1 Ob)).
  (* on sets, the pointwise comparison is the implication of the memberships *)
  assert (E : forall k, ole subset_po true (pget a k) (pget b k) =
                        implb (ps_mem a k) (ps_mem b k)).
  { intros k. rewrite (pget_mem a k Oa), (pget_mem b k Ob).
    destruct (ps_mem a k), (ps_mem b k); reflexivity. }
  split; intros H k; specialize (H k); rewrite E in *; apply implb_true_iff; exact H.
Qed.

Theorem ps_eq_spec a b :
  ps_ok a -> ps_ok b -> (ps_eq a b = true <-> forall k, ps_mem a k = ps_mem b k).
Proof.
  intros Oa Ob. unfold ps_eq.
  rewrite andb_true_iff, (ps_leq_spec a b Oa Ob), (ps_leq_spec b a Ob Oa). split.
  - intros [H1 H2] k. apply eq_true_iff_eq. split; [apply H1|apply H2].
  - intros H. split; intros k; rewrite (H k); auto.
Qed.

Theorem ps_elements_spec s :
  ps_ok s ->
  StronglySorted N.lt (ps_elements s) /\ (forall k, In k (ps_elements s) <-> ps_mem s k = true) /\
  ps_size s = N.of_nat (length (ps_elements s)).
Proof.
  intros Ok. pose proof Ok as [W _]. unfold ps_elements, ps_size. split; [|split].
  - induction (pelements_sorted bool s W) as [|x l _ IH F]; cbn [map]; constructor; [exact IH|].
    apply Forall_map. exact F.
  - intros k. split.
    + intros H. apply in_map_iff in H. destruct H as [[k0 v] [<- H]].
      apply (pelements_in bool s k0 v W) in H. rewrite (pget_mem s k0 Ok) in H. cbn [fst].
      destruct (ps_mem s k0); [reflexivity|discriminate].
    + intros H. apply (in_map fst _ (k, true)), (pelements_in bool s k true W).
      rewrite (pget_mem s k Ok), H. reflexivity.
  - rewrite psize_elements, map_length. reflexivity.
Qed.

Theorem ps_is_empty_spec s : ps_ok s -> (ps_is_empty s = true <-> forall k, ps_mem s k = false).
Proof.
  intros Ok. destruct s as [t|]; cbn [ps_is_empty]; split; auto; try discriminate.
  intros H. destruct (get_inhabited bool t) as [k [v G]]. pose proof (pget_mem _ k Ok) as E.
  rewrite (H k) in E. cbn [pget] in E. congruence.
Qed.

Definition dd_ok (d : ddom) : Prop := ps_ok (dset d) /\ (dtop d = true -> dset d = None).

(* membership in the denoted set: top is the set of all elements *)
Definition dd_mem (d : ddom) (k : N) : bool := dtop d || ps_mem (dset d) k.

Lemma dd_ok_bottom : dd_ok dd_bottom.
Proof. split; [apply ps_ok_empty|reflexivity]. Qed.
Lemma dd_ok_top : dd_ok dd_top.
Proof. split; [apply ps_ok_empty|reflexivity]. Qed.
(* a specification of a set operation is one of the finite element it builds *)
Lemma dd_mk_spec s (m : N -> bool) :
  ps_ok s /\ (forall k, ps_mem s k = m k) ->
  dd_ok (mkDD false s) /\ forall k, dd_mem (mkDD false s) k = m k.
Proof. intros [Ok G]. split; [split; [exact Ok|discriminate]|exact G]. Qed.

Theorem dd_is_bottom_spec d : dd_ok d -> (dd_is_bottom d = true <-> forall k, dd_mem d k = false).
Proof.
  intros [Ok _]. unfold dd_is_bottom, dd_mem. destruct (dtop d); cbn [negb andb orb].
  - split; [discriminate|]. intros H. specialize (H 0). discriminate.
  - apply ps_is_empty_spec; exact Ok.
Qed.

Theorem dd_contain_spec d k : dd_ok d -> dd_contain d k = dd_mem d k.
Proof.
  intros D. unfold dd_contain, dd_is_top. destruct (dd_is_bottom d) eqn:B.
  - symmetry. apply (dd_is_bottom_spec d D). exact B.
  - unfold dd_mem. destruct (dtop d); reflexivity.
Qed.

Theorem dd_join_spec a b :
  dd_ok a -> dd_ok b ->
  dd_ok (dd_join a b) /\ forall k, dd_mem (dd_join a b) k = dd_mem a k || dd_mem b k.
Proof.
  intros [Oa _] [Ob _]. unfold dd_join, dd_mem.
  destruct (dtop a); cbn [orb]; [split; [apply dd_ok_top|reflexivity]|].
  destruct (dtop b); cbn [orb].
  - split; [apply dd_ok_top|]. intros k. symmetry. apply orb_true_r.
  - apply dd_mk_spec, ps_union_spec; assumption.
Qed.

Theorem dd_meet_spec a b :
  dd_ok a -> dd_ok b ->
  dd_ok (dd_meet a b) /\ forall k, dd_mem (dd_meet a b) k = dd_mem a k && dd_mem b k.
Proof.
  intros Da Db. unfold dd_meet.
  destruct (dd_is_bottom a) eqn:Ba; cbn [orb].
  { split; [apply dd_ok_bottom|]. intros k.
    rewrite (proj1 (dd_is_bottom_spec a Da) Ba k). reflexivity. }
  destruct (dd_is_bottom b) eqn:Bb.
  { split; [apply dd_ok_bottom|]. intros k.
    rewrite (proj1 (dd_is_bottom_spec b Db) Bb k). symmetry. apply andb_false_r. }
  unfold dd_is_top, dd_mem. destruct (dtop a) eqn:Ea; cbn [orb andb].
  { split; [exact Db|reflexivity]. }
  destruct (dtop b); cbn [orb andb].
  - split; [exact Da|]. intros k. rewrite Ea. symmetry. apply andb_true_r.
  - apply dd_mk_spec, ps_inter_spec; [apply Da|apply Db].
Qed.

Theorem dd_leq_spec a b :
  dd_ok a -> dd_ok b ->
  (dd_leq a b = true <->
   dtop b = true \/ (dtop a = false /\ forall k, dd_mem a k = true -> dd_mem b k = true)).
Proof.
  intros [Oa _] [Ob _]. unfold dd_leq, dd_mem. destruct (dtop b) eqn:Eb; cbn [orb].
  { split; auto. }
  destruct (dtop a) eqn:Ea; cbn [negb andb orb].
  { split; [discriminate|]. intros [H|[H _]]; discriminate. }
  rewrite (ps_leq_spec _ _ Oa Ob). split; [intros H; right; auto|].
  intros [H|[_ H]]; [discriminate|exact H].
Qed.

Theorem dd_eq_spec a b :
  dd_ok a -> dd_ok b ->
  (dd_eq a b = true <->
   (dtop a = true /\ dtop b = true) \/
   (dtop a = false /\ dtop b = false /\ forall k, dd_mem a k = dd_mem b k)).
Proof.
  intros [Oa _] [Ob _]. unfold dd_eq, dd_mem.
  destruct (dtop a) eqn:Ea; destruct (dtop b) eqn:Eb; cbn [orb andb].
  - split; auto.
  - split; [discriminate|]. intros [[_ H]|[H _]]; discriminate.
  - split; [discriminate|]. intros [[H _]|[_ [H _]]]; discriminate.
  - rewrite (ps_eq_spec _ _ Oa Ob). split; [intros H; right; auto|].
    intros [[H _]|[_ [_ H]]]; [discriminate|exact H].
Qed.

Theorem dd_add_spec d k :
  dd_ok d -> dd_ok (dd_add d k) /\ forall k', dd_mem (dd_add d k) k' = (k' =? k) || dd_mem d k'.
Proof.
  intros Dd. unfold dd_add, dd_mem. destruct (dtop d) eqn:E.
  - split; [exact Dd|]. intros k'. rewrite E. symmetry. apply orb_true_r.
  - apply dd_mk_spec, ps_add_spec, Dd.
Qed.

(* removal is exact on finite sets; top (all elements) is not representable minus one
   element and stays top *)
Theorem dd_remove_spec d k :
  dd_ok d ->
  dd_ok (dd_remove d k) /\
  forall k', dd_mem (dd_remove d k) k' = dtop d || (negb (k' =? k) && dd_mem d k').
Proof.
  intros Dd. unfold dd_remove, dd_mem. destruct (dtop d) eqn:E.
  - split; [exact Dd|]. intros k'. rewrite E. reflexivity.
  - apply dd_mk_spec, ps_remove_spec, Dd.
Qed.

Lemma dd_remove_fold ks : forall d,
  dd_ok d -> dtop d = false ->
  dd_ok (fold_left dd_remove ks d) /\ dtop (fold_left dd_remove ks d) = false /\
  forall k, dd_mem (fold_left dd_remove ks d) k = dd_mem d k && negb (existsb (N.eqb k) ks).
Proof.
  induction ks as [|x ks IH]; intros d Dd E; cbn [fold_left existsb].
  - split; [exact Dd|]. split; [exact E|]. intros k. rewrite andb_true_r. reflexivity.
  - destruct (dd_remove_spec d x Dd) as [D1 G1].
    assert (E1 : dtop (dd_remove d x) = false) by (unfold dd_remove; rewrite E; reflexivity).
    destruct (IH _ D1 E1) as (I1 & I2 & I3). split; [exact I1|]. split; [exact I2|].
    intros k. rewrite I3, G1, E. cbn [orb]. destruct (k =? x); cbn [negb andb orb];
      [symmetry; apply andb_false_r|reflexivity].
Qed.

(* difference a - b of two finite sets *)
Theorem dd_diff_spec a b :
  dd_ok a -> dd_ok b -> dtop a = false -> dtop b = false ->
  dd_ok (dd_diff a b) /\ forall k, dd_mem (dd_diff a b) k = dd_mem a k && negb (dd_mem b k).
Proof.
  intros Da Db Ea Eb. unfold dd_diff, dd_remove_list. rewrite Ea.
  destruct (dd_remove_fold (ps_elements (dset b)) a Da Ea) as (H1 & _ & H3).
  split; [exact H1|]. intros k. rewrite H3. f_equal. f_equal.
  destruct (ps_elements_spec _ (proj1 Db)) as (_ & Hin & _).
  unfold dd_mem. rewrite Eb. cbn [orb].
  apply eq_true_iff_eq. rewrite existsb_exists, <- (Hin k). split.
  - intros [x [X1 X2]]. apply N.eqb_eq in X2. subst x. exact X1.
  - intros H. exists k. split; [exact H|apply N.eqb_refl].
Qed.

Theorem dd_size_spec d :
  dd_ok d -> dd_size d = if dtop d then None else Some (N.of_nat (length (ps_elements (dset d)))).
Proof.
  intros [Od _]. unfold dd_size. destruct (dtop d); [reflexivity|].
  destruct (ps_elements_spec _ Od) as (_ & _ & S). rewrite S. reflexivity.
Qed.

(* refutation of operator== as it was before fixes/patricia-3.diff *)
Theorem dd_eq_orig_refuted :
  exists a b, dd_ok a /\ dd_ok b /\ dd_eq_orig a b = true /\ dd_mem a 0 <> dd_mem b 0.
Proof.
  exists dd_top, dd_bottom. split; [apply dd_ok_top|]. split; [apply dd_ok_bottom|].
  split; [reflexivity|]. cbn. discriminate.
Qed.

Inductive ps_reach : pset -> Prop :=
| PR_empty : ps_reach ps_empty
| PR_add s k : ps_reach s -> ps_reach (ps_add s k)
| PR_remove s k : ps_reach s -> ps_reach (ps_remove s k)
| PR_union a b : ps_reach a -> ps_reach b -> ps_reach (ps_union a b)
| PR_inter a b : ps_reach a -> ps_reach b -> ps_reach (ps_inter a b).

Theorem ps_reach_ok s : ps_reach s -> ps_ok s.
Proof.
  induction 1.
  - apply ps_ok_empty.
  - apply ps_add_spec; assumption.
  - apply ps_remove_spec; assumption.
  - apply ps_union_spec; assumption.
  - apply ps_inter_spec; assumption.
Qed.

Inductive dd_reach : ddom -> Prop :=
| DR_bottom : dd_reach dd_bottom
| DR_top : dd_reach dd_top
| DR_add d k : dd_reach d -> dd_reach (dd_add d k)
| DR_remove d k : dd_reach d -> dd_reach (dd_remove d k)
| DR_join a b : dd_reach a -> dd_reach b -> dd_reach (dd_join a b)
| DR_meet a b : dd_reach a -> dd_reach b -> dd_reach (dd_meet a b)
| DR_diff a b : dd_reach a -> dd_reach b -> dtop a = false -> dtop b = false -> dd_reach (dd_diff a b).

Theorem dd_reach_ok d : dd_reach d -> dd_ok d.
Proof.
  induction 1.
  - apply dd_ok_bottom.
  - apply dd_ok_top.
  - apply dd_add_spec; assumption.
  - apply dd_remove_spec; assumption.
  - apply dd_join_spec; assumption.
  - apply dd_meet_spec; assumption.
  - apply dd_diff_spec; assumption.
Qed.

Example ps_example :
  ps_ok (ps_add (ps_add ps_empty 3) (2 ^ 63)) /\ ps_size (ps_add (ps_add ps_empty 3) (2 ^ 63)) = 2.
Proof.
  split; [|reflexivity]. apply ps_reach_ok. repeat constructor.
Qed.
