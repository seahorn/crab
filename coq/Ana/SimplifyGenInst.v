(* SimplifyGenInst.v — the numeric development (Ana/CfgSem.v, Ana/Simplify.v, the notions of
   Ana/SimplifySound.v) is the instance of the generic one (Ana/SimplifyGen.v) at the numeric
   statement language:

   * to_gen / of_gen: the obvious isomorphism between CfgSem.cfg and G.cfg CfgSem.stmt (list var);
   * every pass of Simplify.v commutes with to_gen; in particular
       Simplify.simplify P = option_map of_gen (G.simplify (to_gen P));
   * the concrete statement semantics as a generic step relation exec_c (normal completion of
     exec_stmt, or the failing assert), the observation obs_c outs s = map s outs;
   * concrete executions and generic executions of to_gen P correspond step by step, hence
       wf P <-> G.wf (to_gen P),   beh_eq P Q <-> G.beh_eq exec_c obs_c (to_gen P) (to_gen Q);
   * the theorems about Ana/Simplify.v (Props/Properties_C17.v) follow from the generic ones. *)
From Coq Require Import ZArith List Bool Lia.
From CrabV Require Import Ir.Syntax Ana.CfgSem Ana.Simplify Ana.SimplifySound.
From CrabV Require Ana.SimplifyGen.
Import ListNotations.
Module G := SimplifyGen.

Definition gblock := G.block stmt.
Definition gcfg := G.cfg stmt (list var).

Definition to_gen_block (b : block) : gblock := G.mkBlock (b_stmts b) (b_prev b) (b_next b).
Definition of_gen_block (b : gblock) : block := mkBlock (G.b_stmts b) (G.b_prev b) (G.b_next b).
Definition to_gen (P : cfg) : gcfg :=
  G.mkCfg (c_entry P) (c_exit P) (map (fun lb => (fst lb, to_gen_block (snd lb))) (c_blocks P)) (c_outs P).
Definition of_gen (P : gcfg) : cfg :=
  mkCfg (G.c_entry P) (G.c_exit P) (map (fun lb => (fst lb, of_gen_block (snd lb))) (G.c_blocks P)) (G.c_outs P).

Lemma of_to_gen P : of_gen (to_gen P) = P.
Proof.
  destruct P as [en ex bs outs]. unfold of_gen, to_gen. simpl. f_equal.
  rewrite map_map. rewrite <- (map_id bs) at 2. apply map_ext. intros [l [ss p n]]. reflexivity.
Qed.
Lemma to_of_gen P : to_gen (of_gen P) = P.
Proof.
  destruct P as [en ex bs outs]. unfold of_gen, to_gen. simpl. f_equal.
  rewrite map_map. rewrite <- (map_id bs) at 2. apply map_ext. intros [l [ss p n]]. reflexivity.
Qed.

Lemma to_of_gen_inverse : (forall P, of_gen (to_gen P) = P) /\ (forall P, to_gen (of_gen P) = P).
Proof. exact (conj of_to_gen to_of_gen). Qed.

Lemma get_block_to_gen P l :
  G.get_block (to_gen P) l = option_map to_gen_block (get_block P l).
Proof.
  unfold G.get_block, get_block, to_gen. simpl.
  rewrite (lookup_map (fun lb => to_gen_block (snd lb))). destruct (lookup l (c_blocks P)); reflexivity.
Qed.
Lemma labels_to_gen P : G.labels (to_gen P) = labels P.
Proof. unfold G.labels, labels, to_gen. simpl. rewrite map_map. reflexivity. Qed.
Lemma succs_to_gen P l : G.succs (to_gen P) l = succs P l.
Proof. unfold G.succs, succs. rewrite get_block_to_gen. destruct (get_block P l); reflexivity. Qed.
Lemma preds_to_gen P l : G.preds (to_gen P) l = preds P l.
Proof. unfold G.preds, preds. rewrite get_block_to_gen. destruct (get_block P l); reflexivity. Qed.
Lemma stmts_to_gen P l : G.stmts_of (to_gen P) l = stmts_of P l.
Proof. unfold G.stmts_of, stmts_of. rewrite get_block_to_gen. destruct (get_block P l); reflexivity. Qed.
Lemma is_exit_to_gen P l : G.is_exit (to_gen P) l = is_exit P l.
Proof. reflexivity. Qed.

Lemma filter_map_comm {A B} (g : A -> B) (f : B -> bool) l :
  filter f (map g l) = map g (filter (fun x => f (g x)) l).
Proof. induction l as [|a r IH]; simpl; auto. destruct (f (g a)); simpl; rewrite IH; reflexivity. Qed.

Lemma map_block_to_gen f g P :
  (forall l b, to_gen_block (f l b) = g l (to_gen_block b)) ->
  to_gen (map_block f P) = G.map_block _ _ g (to_gen P).
Proof.
  intros H. unfold to_gen, map_block, G.map_block. simpl. f_equal.
  rewrite !map_map. apply map_ext. intros [l b]. simpl. rewrite H. reflexivity.
Qed.

Lemma remove_block_to_gen P b : to_gen (remove_block P b) = G.remove_block _ _ (to_gen P) b.
Proof.
  unfold to_gen, remove_block, G.remove_block. simpl. f_equal.
  rewrite filter_map_comm. rewrite !map_map. apply map_ext. intros [l blk]. reflexivity.
Qed.
Lemma add_edge_to_gen P a b : to_gen (add_edge P a b) = G.add_edge _ _ (to_gen P) a b.
Proof. unfold add_edge, G.add_edge. apply map_block_to_gen. intros l blk. reflexivity. Qed.
Lemma copy_back_to_gen P p ss : to_gen (copy_back P p ss) = G.copy_back _ _ (to_gen P) p ss.
Proof.
  unfold copy_back, G.copy_back. apply map_block_to_gen. intros l blk.
  destruct (N.eqb l p); reflexivity.
Qed.
Lemma set_exit_to_gen P e : to_gen (set_exit P e) = G.set_exit _ _ (to_gen P) e.
Proof. reflexivity. Qed.

Lemma fold_to_gen P cur parent child cb :
  to_gen (fold_into_parent P cur parent child cb) =
  G.fold_into_parent _ _ (to_gen P) cur parent child (to_gen_block cb).
Proof.
  unfold fold_into_parent, G.fold_into_parent. cbv zeta.
  rewrite add_edge_to_gen, remove_block_to_gen. f_equal. f_equal.
  change (G.b_stmts (to_gen_block cb)) with (b_stmts cb).
  rewrite <- copy_back_to_gen. rewrite is_exit_to_gen.
  destruct (is_exit (copy_back P parent (b_stmts cb)) cur); reflexivity.
Qed.

Definition st_gen (st : cfg * vset) : gcfg * vset := (to_gen (fst st), snd st).

Lemma visit_list_to_gen rec grec :
  (forall P vis n, grec (to_gen P) vis n = option_map st_gen (rec P vis n)) ->
  forall ns st, G.visit_list _ _ grec ns (st_gen st) = option_map st_gen (visit_list rec ns st).
Proof.
  intros H ns. induction ns as [|n r IH]; intros [P vis]; simpl; auto.
  rewrite H. destruct (rec P vis n) as [[P1 v1]|]; simpl; auto.
Qed.

Lemma merge_rec_to_gen fuel : forall P vis cur,
  G.merge_rec _ _ fuel (to_gen P) vis cur = option_map st_gen (merge_rec fuel P vis cur).
Proof.
  induction fuel as [|f IH]; intros P vis cur; [reflexivity|].
  cbn [merge_rec G.merge_rec].
  destruct (mem cur vis); [reflexivity|].
  rewrite get_block_to_gen. destruct (get_block P cur) as [cb|]; [|reflexivity]. cbn [option_map].
  change (G.b_next (to_gen_block cb)) with (b_next cb).
  change (G.b_prev (to_gen_block cb)) with (b_prev cb).
  pose proof (visit_list_to_gen (merge_rec f) (G.merge_rec _ _ f) IH (b_next cb) (P, cur :: vis)) as V.
  unfold st_gen at 1 in V. cbn [fst snd] in V.
  destruct (b_next cb) as [|child [|c2 r2]]; try exact V.
  destruct (b_prev cb) as [|parent [|p2 r3]]; try exact V.
  rewrite get_block_to_gen. destruct (get_block P parent) as [pb|]; [|reflexivity]. cbn [option_map].
  change (G.b_next (to_gen_block pb)) with (b_next pb).
  change (G.c_entry (to_gen P)) with (c_entry P). rewrite is_exit_to_gen.
  change (G.has_one (b_next pb)) with (has_one (b_next pb)).
  destruct (negb (N.eqb cur (c_entry P)) && negb (is_exit P parent) && has_one (b_next pb)); [|exact V].
  rewrite <- fold_to_gen. apply IH.
Qed.

Lemma merge_blocks_to_gen P : G.merge_blocks (to_gen P) = option_map to_gen (merge_blocks P).
Proof.
  unfold G.merge_blocks, merge_blocks.
  assert (F : G.merge_fuel _ _ (to_gen P) = merge_fuel P).
  { unfold G.merge_fuel, merge_fuel, to_gen. simpl. rewrite map_length. reflexivity. }
  rewrite F. change (G.c_entry (to_gen P)) with (c_entry P). rewrite merge_rec_to_gen.
  destruct (merge_rec (merge_fuel P) P [] (c_entry P)) as [[P1 v1]|]; reflexivity.
Qed.

Lemma fold_union_ext (f g : label -> vset) B L :
  (forall l, f l = g l) ->
  fold_right (fun l acc => union (f l) acc) B L = fold_right (fun l acc => union (g l) acc) B L.
Proof. intros H. induction L as [|a r IH]; simpl; auto. rewrite H, IH. reflexivity. Qed.
Lemma closure_ext (f g : label -> vset) n : (forall l, f l = g l) -> forall S, G.closure f n S = closure g n S.
Proof.
  intros H. induction n as [|k IH]; intros S; simpl; auto. rewrite IH.
  rewrite (fold_union_ext f g S S H). reflexivity.
Qed.
Lemma forallb_ext_loc {A} (p q : A -> bool) l : (forall x, p x = q x) -> forallb p l = forallb q l.
Proof. intros H. induction l as [|a r IH]; simpl; auto. rewrite H, IH. reflexivity. Qed.
Lemma closedb_ext (f g : label -> vset) S : (forall l, f l = g l) -> G.closedb f S = closedb g S.
Proof.
  intros H. unfold G.closedb, closedb. apply forallb_ext_loc. intros l. rewrite H. reflexivity.
Qed.
Lemma marked_to_gen P f g root : (forall l, f l = g l) -> G.marked _ _ (to_gen P) f root = marked P g root.
Proof.
  intros H. unfold G.marked, marked. cbv zeta.
  assert (L : length (G.c_blocks (to_gen P)) = length (c_blocks P)) by (unfold to_gen; simpl; apply map_length).
  rewrite L, (closure_ext f g _ H), (closedb_ext f g _ H), labels_to_gen. reflexivity.
Qed.

Lemma remove_all_to_gen bs : forall P, to_gen (remove_all P bs) = G.remove_all _ _ (to_gen P) bs.
Proof.
  unfold remove_all, G.remove_all. induction bs as [|b r IH]; intros P; simpl; auto.
  rewrite IH, remove_block_to_gen. reflexivity.
Qed.

Lemma remove_unreachable_to_gen P :
  to_gen (remove_unreachable_blocks P) = G.remove_unreachable_blocks (to_gen P).
Proof.
  unfold remove_unreachable_blocks, G.remove_unreachable_blocks. cbv zeta.
  rewrite remove_all_to_gen, labels_to_gen. f_equal. apply filter_ext. intros l.
  unfold G.alive, alive. change (G.c_entry (to_gen P)) with (c_entry P).
  rewrite (marked_to_gen P (G.succs (to_gen P)) (succs P) (c_entry P) (succs_to_gen P)).
  rewrite is_exit_to_gen. reflexivity.
Qed.

Lemma remove_useless_to_gen P :
  to_gen (remove_useless_blocks P) = G.remove_useless_blocks (to_gen P).
Proof.
  unfold remove_useless_blocks, G.remove_useless_blocks. change (G.c_exit (to_gen P)) with (c_exit P).
  destruct (c_exit P) as [e|]; [|reflexivity]. cbv zeta.
  rewrite remove_all_to_gen, labels_to_gen. f_equal. apply filter_ext. intros l.
  unfold G.useful, useful. change (G.c_entry (to_gen P)) with (c_entry P).
  rewrite (marked_to_gen P (G.preds (to_gen P)) (preds P) e (preds_to_gen P)). reflexivity.
Qed.

Theorem simplify_to_gen P : G.simplify (to_gen P) = option_map to_gen (simplify P).
Proof.
  unfold G.simplify, simplify. rewrite merge_blocks_to_gen.
  destruct (merge_blocks P) as [P1|]; [|reflexivity]. cbn [option_map].
  rewrite <- remove_unreachable_to_gen, <- remove_useless_to_gen. apply merge_blocks_to_gen.
Qed.

(* the concrete simplify IS the generic simplify at the numeric statement language *)
Theorem simplify_is_instance P : simplify P = option_map of_gen (G.simplify (to_gen P)).
Proof.
  rewrite simplify_to_gen. destruct (simplify P) as [Q|]; simpl; [|reflexivity].
  rewrite of_to_gen. reflexivity.
Qed.
Theorem merge_blocks_is_instance P : merge_blocks P = option_map of_gen (G.merge_blocks (to_gen P)).
Proof.
  rewrite merge_blocks_to_gen. destruct (merge_blocks P) as [Q|]; simpl; [|reflexivity].
  rewrite of_to_gen. reflexivity.
Qed.
Theorem remove_unreachable_is_instance P :
  remove_unreachable_blocks P = of_gen (G.remove_unreachable_blocks (to_gen P)).
Proof. rewrite <- remove_unreachable_to_gen, of_to_gen. reflexivity. Qed.
Theorem remove_useless_is_instance P :
  remove_useless_blocks P = of_gen (G.remove_useless_blocks (to_gen P)).
Proof. rewrite <- remove_useless_to_gen, of_to_gen. reflexivity. Qed.

Theorem wf_to_gen P : G.wf (to_gen P) <-> wf P.
Proof.
  unfold G.wf, wf. rewrite labels_to_gen.
  change (G.c_entry (to_gen P)) with (c_entry P). change (G.c_exit (to_gen P)) with (c_exit P).
  split; intros (W1 & W2 & W3 & W4 & W5); (split; [exact W1|]); (split; [exact W2|]); (split; [exact W3|]); split.
  - intros l l' H. rewrite <- succs_to_gen in H. rewrite <- preds_to_gen. apply (W4 _ _ H).
  - intros l l' H. rewrite <- preds_to_gen in H. rewrite <- succs_to_gen. apply (W5 _ _ H).
  - intros l l' H. rewrite succs_to_gen in H. rewrite preds_to_gen. apply (W4 _ _ H).
  - intros l l' H. rewrite preds_to_gen in H. rewrite succs_to_gen. apply (W5 _ _ H).
Qed.
Theorem keeps_to_gen P Q : G.keeps (to_gen P) (to_gen Q) <-> keeps P Q.
Proof. reflexivity. Qed.

Inductive exec_c : stmt -> store -> list event -> option store -> Prop :=
| XcOk st s ev s' : exec_stmt st s ev s' -> exec_c st s ev (Some s')
| XcFail c id s : satb c s = false -> exec_c (SAssert c id) s [EvAssert id false] None.
Definition obs_c (outs : list var) (s : store) : list Z := map s outs.

Definition gevent := G.event event (list Z).
Definition gconfig := G.config stmt store.

Definition tr_ev (e : event) : gevent :=
  match e with EvGoto l => G.EvGoto l | EvExit o => G.EvExit o | _ => G.EvStmt e end.
Definition tc (c : config) : gconfig :=
  match c with Run l r s => G.Run l r s | Done => G.Done | Err => G.Err end.

Lemma tr_ev_inj a b : tr_ev a = tr_ev b -> a = b.
Proof. destruct a, b; simpl; intros H; inversion H; reflexivity. Qed.
Lemma map_tr_ev_inj t1 t2 : map tr_ev t1 = map tr_ev t2 -> t1 = t2.
Proof.
  revert t2. induction t1 as [|a r IH]; intros [|b r2]; simpl; intros H; try discriminate; auto.
  inversion H. f_equal; auto. apply tr_ev_inj; auto.
Qed.
Lemma tc_inj c1 c2 : tc c1 = tc c2 -> c1 = c2.
Proof. destruct c1, c2; simpl; intros H; inversion H; reflexivity. Qed.

Lemma exec_stmt_events st s ev s' : exec_stmt st s ev s' -> map tr_ev ev = map G.EvStmt ev.
Proof. destruct 1; reflexivity. Qed.

Lemma step_to_gen P c ev c' :
  step P c ev c' -> G.step exec_c obs_c (to_gen P) (tc c) (map tr_ev ev) (tc c').
Proof.
  intros St. destruct St as [l st r s ev s1 X | l c0 id r s F | l l' b' s Hl Hb | l s He]; simpl.
  - rewrite (exec_stmt_events _ _ _ _ X). apply G.StStmt. constructor. exact X.
  - apply (G.StFail _ _ _ _ _ exec_c obs_c (to_gen P) l (SAssert c0 id) r s [EvAssert id false]).
    constructor. exact F.
  - change (b_stmts b') with (G.b_stmts (to_gen_block b')). apply G.StGoto.
    + rewrite succs_to_gen. exact Hl.
    + rewrite get_block_to_gen, Hb. reflexivity.
  - apply (G.StExit _ _ _ _ _ exec_c obs_c (to_gen P) l s). exact He.
Qed.

Lemma step_of_gen P c gev gc' :
  G.step exec_c obs_c (to_gen P) (tc c) gev gc' ->
  exists ev c', step P c ev c' /\ gev = map tr_ev ev /\ gc' = tc c'.
Proof.
  destruct c as [l [|st r] s| |]; simpl; intros St; [| |destruct (G.step_inv _ _ _ _ _ _ _ _ _ _ _ St)..].
  - destruct (G.step_end_inv _ _ _ _ _ _ _ _ _ _ _ _ St) as [(l' & -> & Hl & Hin & ->)|(He & -> & ->)].
    + rewrite succs_to_gen in Hl. rewrite labels_to_gen in Hin. rewrite stmts_to_gen. unfold stmts_of.
      destruct (get_block P l') as [b0|] eqn:Gb; [|apply lookup_None in Gb; contradiction].
      exists [EvGoto l'], (Run l' (b_stmts b0) s). split; [econstructor; eauto|]. split; reflexivity.
    + exists [EvExit (map s (c_outs P))], Done. split; [apply StExit; exact He|]. split; reflexivity.
  - destruct (G.step_inv _ _ _ _ _ _ _ _ _ _ _ St) as (es & o & X & -> & ->).
    destruct X as [st s ev s1 X|c id s F].
    + exists ev, (Run l r s1). split; [constructor; auto|]. split; auto.
      symmetry. eapply exec_stmt_events; eauto.
    + exists [EvAssert id false], Err. split; [constructor; auto|]. split; auto.
Qed.

Lemma star_to_gen P c tr c' :
  star P c tr c' -> G.star exec_c obs_c (to_gen P) (tc c) (map tr_ev tr) (tc c').
Proof.
  induction 1 as [c|c ev c1 tr c2 S1 St IH]; [constructor|].
  rewrite map_app. econstructor; [|exact IH]. apply step_to_gen. exact S1.
Qed.
Lemma star_of_gen P gc gtr gc' :
  G.star exec_c obs_c (to_gen P) gc gtr gc' -> forall c, gc = tc c ->
  exists tr c', star P c tr c' /\ gtr = map tr_ev tr /\ gc' = tc c'.
Proof.
  induction 1 as [gc|gc gev gc1 gtr gc2 S1 St IH]; intros c E; subst.
  - exists [], c. split; [constructor|]. split; reflexivity.
  - destruct (step_of_gen _ _ _ _ S1) as [ev [c1 [S0 [E1 E2]]]].
    destruct (IH c1 E2) as [tr [c2 [St0 [E3 E4]]]].
    exists (ev ++ tr), c2. split; [econstructor; eauto|]. split; auto.
    rewrite map_app, E1, E3. reflexivity.
Qed.

Lemma obs_to_gen tr : G.obs (map tr_ev tr) = map tr_ev (obs tr).
Proof.
  induction tr as [|e r IH]; simpl; auto.
  destruct e; simpl; rewrite IH; reflexivity.
Qed.
Lemma init_to_gen P s : G.init (to_gen P) s = tc (init P s).
Proof. unfold G.init, init. simpl. rewrite stmts_to_gen. reflexivity. Qed.

(* the exit-reaching executions of P and of to_gen P have the same observations *)
Theorem exit_obs_to_gen P s t :
  exit_obs P s t <-> G.exit_obs exec_c obs_c (to_gen P) s (map tr_ev t).
Proof.
  unfold exit_obs, G.exit_obs. split.
  - intros [tr [St O]]. exists (map tr_ev tr). split.
    + rewrite init_to_gen. apply (star_to_gen _ _ _ _ St).
    + rewrite obs_to_gen, O. reflexivity.
  - intros [gtr [St O]]. rewrite init_to_gen in St.
    destruct (star_of_gen _ _ _ _ St _ eq_refl) as [tr [c1 [St0 [E1 E2]]]].
    destruct c1; simpl in E2; try discriminate.
    exists tr. split; auto. apply map_tr_ev_inj. rewrite <- obs_to_gen, <- E1. exact O.
Qed.
(* every observation of the instance is the image of a concrete one *)
Lemma exit_obs_gen_image P s gt :
  G.exit_obs exec_c obs_c (to_gen P) s gt -> exists t, gt = map tr_ev t.
Proof.
  intros [gtr [St O]]. rewrite init_to_gen in St.
  destruct (star_of_gen _ _ _ _ St _ eq_refl) as [tr [c1 [St0 [E1 E2]]]].
  exists (obs tr). rewrite <- obs_to_gen, <- E1. auto.
Qed.

Theorem beh_eq_to_gen P Q : G.beh_eq exec_c obs_c (to_gen P) (to_gen Q) <-> beh_eq P Q.
Proof.
  unfold G.beh_eq, beh_eq. split; intros H s t.
  - rewrite !exit_obs_to_gen. apply H.
  - split; intros X; destruct (exit_obs_gen_image _ _ _ X) as [t0 ->].
    + apply exit_obs_to_gen. apply H. apply exit_obs_to_gen. exact X.
    + apply exit_obs_to_gen. apply H. apply exit_obs_to_gen. exact X.
Qed.

Theorem simplify_wf P Q : simplify P = Some Q -> wf P -> wf Q /\ keeps P Q.
Proof.
  intros H W. assert (HG : G.simplify (to_gen P) = Some (to_gen Q)) by (rewrite simplify_to_gen, H; reflexivity).
  apply wf_to_gen in W. destruct (G.simplify_wf _ _ _ _ HG W) as [W' K]. split.
  - apply wf_to_gen. exact W'.
  - apply keeps_to_gen. exact K.
Qed.
(* cfg::simplify preserves the observations of the executions that finish at the exit *)
Theorem simplify_beh P Q : simplify P = Some Q -> wf P -> beh_eq P Q.
Proof.
  intros H W. assert (HG : G.simplify (to_gen P) = Some (to_gen Q)) by (rewrite simplify_to_gen, H; reflexivity).
  apply wf_to_gen in W. apply beh_eq_to_gen.
  apply (G.simplify_beh _ _ _ _ _ exec_c obs_c _ _ HG W).
Qed.
Theorem merge_blocks_beh P Q : merge_blocks P = Some Q -> wf P -> wf Q /\ beh_eq P Q.
Proof.
  intros H W. assert (HG : G.merge_blocks (to_gen P) = Some (to_gen Q)) by (rewrite merge_blocks_to_gen, H; reflexivity).
  apply wf_to_gen in W. destruct (G.merge_blocks_beh _ _ _ _ _ exec_c obs_c _ _ HG W) as [W' B]. split.
  - apply wf_to_gen. exact W'.
  - apply beh_eq_to_gen. exact B.
Qed.
Theorem remove_unreachable_beh P : wf P -> beh_eq P (remove_unreachable_blocks P).
Proof.
  intros W. apply beh_eq_to_gen. rewrite remove_unreachable_to_gen.
  apply G.remove_unreachable_beh. apply wf_to_gen. exact W.
Qed.
Theorem remove_useless_beh P : wf P -> beh_eq P (remove_useless_blocks P).
Proof.
  intros W. apply beh_eq_to_gen. rewrite remove_useless_to_gen.
  apply G.remove_useless_beh. apply wf_to_gen. exact W.
Qed.
