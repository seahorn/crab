(* FwdItvSound.v — property C01 for the forward-analyzer model: tables accepted by the
   verified checker over-approximate every concrete execution of the CFG; a bottom
   invariant means the block is never entered. *)
From Coq Require Import ZArith List Bool Arith Lia.
From CrabV Require Import Base.ZInf Scalar.Itv Ir.Syntax Ir.Cfg Dom.ItvEnv Dom.ItvEnvSound Dom.ItvDomain
     Fix.Wto Fix.Engine Fix.EngineCheck Ana.Transformer Ana.FwdItv.
Import ListNotations.

(* proves a conjunct and keeps it for the rest: in the examples the first conjuncts are
   computations (an ordering, a run) that the last one, an instance of a theorem, refers to.
   There the tables computed by a run, a large term, are a local definition [evar (e : _)]
   whose body is cleared before the theorem is applied, so that its statement is checked
   about a variable. *)
Lemma conj_keep (A B : Prop) : A -> (A -> B) -> A /\ B.
Proof. auto. Qed.

Lemma p_preds_edge : forall p n q, In q (p_preds p n) <-> In (q, n) (p_edges p).
Proof.
  intros p n q. unfold p_preds. rewrite in_map_iff. split.
  - intros [[a b] [E I]]. apply filter_In in I. destruct I as [I F]. cbn [fst snd] in *.
    apply Nat.eqb_eq in F. subst. exact I.
  - intros I. exists (q, n). split; [reflexivity|]. apply filter_In. split; [exact I|].
    cbn [snd]. apply Nat.eqb_refl.
Qed.

(* the test of fwd_check on the edges *)
Lemma edges_in_range p :
  forallb (fun e => (fst e <? length (p_blocks p)) && (snd e <? length (p_blocks p))) (p_edges p) = true ->
  forall q n, In (q, n) (p_edges p) -> q < length (p_blocks p) /\ n < length (p_blocks p).
Proof.
  intros ED q n I. rewrite forallb_forall in ED. apply ED, andb_prop in I. cbn [fst snd] in I.
  destruct I as [A B]. apply Nat.ltb_lt in A, B. auto.
Qed.

Section Sound.
  Variable p : prog.
  Variable entry : nat.
  Variable use_asm : bool.
  Variable asm : nat -> option env.
  Variable Init : store -> Prop.
  Variable init : env.
  Hypothesis init_s : forall s, Init s -> genv init s.
  Variables pre post : nat -> env.

  Definition ReachPre := RPre env store genv (fun n => bstep (p_block p n)) (p_preds p) entry use_asm asm Init.
  Definition ReachPost := RPost env store genv (fun n => bstep (p_block p n)) (p_preds p) entry use_asm asm Init.

  Lemma blocks_wf : forallb (fun b => forallb stmt_wfb b) (p_blocks p) = true ->
    forall n, block_wf (p_block p n).
  Proof.
    intros H n s I. rewrite forallb_forall in H. unfold p_block in I.
    destruct (nth_in_or_default n (p_blocks p) []) as [J|E].
    - specialize (H _ J). rewrite forallb_forall in H. apply stmt_wfb_sound. apply H. exact I.
    - rewrite E in I. destruct I.
  Qed.

  (* tables accepted by the checker of Fix/EngineCheck.v, for any block transformer that is
     sound for the blocks of p *)
  Theorem itv_check_sound analyze :
    (forall n e a b, genv e a -> bstep (p_block p n) a b -> genv (analyze n e) b) ->
    forallb (fun e => (fst e <? length (p_blocks p)) && (snd e <? length (p_blocks p))) (p_edges p) = true ->
    (entry <? length (p_blocks p)) = true ->
    inductive_ok env itv_ops analyze (p_preds p) entry use_asm asm init
                 (seq 0 (length (p_blocks p))) pre post = true ->
    (forall n s, ReachPre n s -> genv (pre n) s) /\ (forall n s, ReachPost n s -> genv (post n) s).
  Proof.
    intros AS ED EN OK.
    assert (NC : In entry (seq 0 (length (p_blocks p))) /\
                 forall n q, In q (p_preds p n) -> In n (seq 0 (length (p_blocks p)))).
    { split.
      - apply in_seq. apply Nat.ltb_lt in EN. lia.
      - intros n q I. apply in_seq. apply p_preds_edge in I. apply (edges_in_range p ED) in I. lia. }
    destruct (inductive_sound env store genv itv_ops
                (fun a b s H => e_join_sound a b s (or_introl H))
                (fun a b s H => e_join_sound a b s (or_intror H))
                e_meet_sound e_leq_sound analyze (fun n => bstep (p_block p n)) AS
                (p_preds p) entry use_asm asm Init init init_s _ NC pre post OK) as [S1 S2].
    split; intros n s R; [apply S1|apply S2]; exact R.
  Qed.

  Theorem fwd_check_sound :
    fwd_check p entry use_asm asm init pre post = true ->
    (forall n s, ReachPre n s -> genv (pre n) s) /\ (forall n s, ReachPost n s -> genv (post n) s).
  Proof.
    unfold fwd_check. intros H.
    apply andb_prop in H. destruct H as [H OK]. apply andb_prop in H. destruct H as [H EN].
    apply andb_prop in H. destruct H as [WF ED].
    refine (itv_check_sound _ _ ED EN OK).
    intros n e a b. apply tr_block_sound, blocks_wf, WF.
  Qed.

  Corollary bottom_block_never_entered :
    fwd_check p entry use_asm asm init pre post = true ->
    forall n, e_is_bot (pre n) = true -> forall s, ~ ReachPre n s.
  Proof.
    intros H n B s R. apply (e_is_bot_sound _ s B). exact (proj1 (fwd_check_sound H) n s R).
  Qed.
End Sound.
