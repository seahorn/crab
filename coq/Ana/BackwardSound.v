(* BackwardSound.v — the backward transformers return necessary preconditions
   (property C11, statement and block level): if s takes a to b, b is described by the
   post-condition and a by the forward invariant supplied for s, then a is described by
   the result; in error mode a state that fails an assertion is in the result as well. *)
From Coq Require Import ZArith NArith List Bool Lia.
From CrabV Require Import Base.ZInf Scalar.Itv Scalar.ItvSound Ir.Syntax Ir.Cfg Dom.ItvEnv Dom.ItvEnvSound
     Dom.ItvDomain Dom.ItvDomainSound Dom.ItvSolverSound Ana.Transformer Ana.Backward.
Import ListNotations.
Local Open Scope Z_scope.

Arguments d_add : simpl never.
Arguments d_apply_arith : simpl never.

Lemma eval_add_term c v ts s : eval_terms (le_add_term c v ts) s = c * s v + eval_terms ts s.
Proof.
  induction ts as [|[c' v'] r IH]; simpl.
  - destruct (Z.eqb_spec c 0); simpl; lia.
  - destruct (N.ltb v v').
    + destruct (Z.eqb_spec c 0); simpl; lia.
    + destruct (N.eqb_spec v v').
      * subst. destruct (Z.eqb_spec (c + c') 0); simpl; nia.
      * simpl. rewrite IH. lia.
Qed.

Lemma eval_sub_var e x s : eval_le (le_sub_var e x) s = eval_le e s - s x.
Proof. unfold eval_le, le_sub_var; simpl. rewrite eval_add_term. lia. Qed.

Lemma eval_le_upd_unmentioned e x v s : le_mentions e x = false -> eval_le e (upd s x v) = eval_le e s.
Proof.
  intros H. apply eval_le_upd_notin. intros c w I ->.
  assert (le_mentions e x = true) by (apply existsb_exists; exists (c, x); split; [exact I|apply N.eqb_refl]).
  congruence.
Qed.

Lemma forget_back post x a v : genv post (upd a x v) -> genv (e_forget post x) a.
Proof.
  intros G. apply (genv_ext _ (upd (upd a x v) x (a x))).
  - intros k. unfold upd. destruct (N.eqb_spec k x); subst; auto.
  - apply e_forget_sound; auto.
Qed.

(* side condition of the modelled backward assignment: the assigned variable does not occur
   on the right-hand side, and the constraint built by the code is in canonical form *)
Definition bwd_assign_ok (x : var) (e : linexp) : bool :=
  negb (le_mentions e x) && wf_lcb (mkLC EQ (le_sub_var e x)).

Theorem bwd_assign_sound fresh x e inv post a :
  bwd_assign_ok x e = true ->
  genv post (upd a x (eval_le e a)) -> genv inv a -> genv (bwd_assign fresh x e inv post) a.
Proof.
  intros OK GP GI. unfold bwd_assign_ok in OK. apply andb_true_iff in OK. destruct OK as [NM W].
  apply negb_true_iff in NM. unfold bwd_assign. rewrite (genv_not_bot _ _ GP). rewrite NM.
  apply e_meet_sound; auto.
  set (b := upd a x (eval_le e a)) in *.
  assert (G1 : genv (d_add [mkLC EQ (le_sub_var e x)] post) b).
  { apply d_add_sound; auto. intros c [<-|[]]. split; [apply wf_lcb_sound; auto|].
    unfold sat; simpl. rewrite eval_sub_var. unfold b. rewrite eval_le_upd_unmentioned by auto.
    rewrite upd_same. lia. }
  exact (forget_back _ x a _ G1).
Qed.

Lemma forget_if_distinct_sound x y d s v :
  genv d s -> (x = y -> v = s x) -> genv (forget_if_distinct x y d) (upd s x v).
Proof.
  intros G H. unfold forget_if_distinct. destruct (N.eqb_spec x y).
  - apply (genv_ext _ s); auto. intros k. unfold upd. destruct (N.eqb_spec k x); subst; auto.
    symmetry. auto.
  - apply e_forget_sound; auto.
Qed.

Lemma wf_lcb_single c v k : c <> 0 -> wf_lc (mkLC INEQ (mkLE [(c, v)] k)).
Proof. intros. apply wf_single; auto. Qed.

Theorem bwd_apply_cst_sound op x y k inv post a v :
  arith_sem op (a y) k = Some v ->
  genv post (upd a x v) -> genv inv a -> genv (bwd_apply_cst op x y k inv post) a.
Proof.
  intros SEM GP GI. unfold bwd_apply_cst. rewrite (genv_not_bot _ _ GP).
  apply e_meet_sound; auto.
  remember (upd a x v) as b eqn:Eb.
  assert (BY : x <> y -> b y = a y) by (intros N; rewrite Eb; apply upd_other; auto).
  (* a is b with x restored (and y, when x = y) *)
  assert (BACK : forall d, genv d (upd b y (a y)) -> genv (forget_if_distinct x y d) a).
  { intros d G. apply (genv_ext _ (upd (upd b y (a y)) x (a x))).
    - intros k0. rewrite Eb. unfold upd. destruct (N.eqb_spec k0 x) as [->|_]; [reflexivity|].
      destruct (N.eqb_spec k0 y) as [->|_]; reflexivity.
    - apply forget_if_distinct_sound; auto. intros ->. rewrite upd_same. auto. }
  assert (FORG : genv (e_forget post x) a) by (apply (forget_back post x a v); rewrite <- Eb; exact GP).
  assert (BX : b x = v) by (rewrite Eb; apply upd_same).
  destruct op; simpl in SEM; auto.
  - (* add *) inversion SEM as [EV]; rewrite <- EV in *. apply BACK.
    apply d_apply_arith_sound; auto. simpl. rewrite BX. f_equal. lia.
  - (* sub *) inversion SEM as [EV]; rewrite <- EV in *. apply BACK.
    apply d_apply_arith_sound; auto. simpl. rewrite BX. f_equal. lia.
  - (* mul *) inversion SEM as [EV]; rewrite <- EV in *. destruct (Z.eqb_spec k 0); auto. apply BACK.
    apply d_apply_arith_sound; auto. simpl. rewrite BX.
    destruct (Z.eqb_spec k 0); [contradiction|]. f_equal. apply Z.quot_mul; auto.
  - (* sdiv *)
    destruct (Z.eqb_spec k 0) as [K0|K0]; [discriminate|]. inversion SEM as [EV]; rewrite <- EV in *. clear SEM EV.
    set (q := Z.quot (a y) k) in *.
    set (d1 := d_apply_arith OpMul y x (OCst k) post).
    assert (G1 : genv d1 (upd b y (q * k))).
    { apply d_apply_arith_sound; auto. simpl. rewrite BX. reflexivity. }
    set (r := (if k <? 0 then - k else k) - 1).
    assert (RR : Z.abs (a y - q * k) <= r).
    { pose proof (Z.quot_rem' (a y) k) as QR. destruct (rem_range (a y) k K0) as (AB & _ & _).
      fold q in QR. unfold r. destruct (k <? 0) eqn:E; [apply Z.ltb_lt in E|apply Z.ltb_ge in E]; lia. }
    apply BACK.
    destruct (0 <? r) eqn:RP.
    + apply Z.ltb_lt in RP.
      set (yi := iadd (e_at d1 y) (imk (Fin (- r)) (Fin r))).
      assert (GY : gamma yi (a y)).
      { replace (a y) with (q * k + (a y - q * k)) by lia. apply iadd_sound.
        - pose proof (e_at_sound d1 _ y G1) as X. rewrite upd_same in X. exact X.
        - apply gamma_imk. simpl. rewrite !Z.leb_le. lia. }
      assert (G3 : genv (e_forget d1 y) (upd b y (a y))).
      { apply (genv_ext _ (upd (upd b y (q * k)) y (a y))).
        - intros k0. unfold upd. destruct (N.eqb_spec k0 y); auto.
        - apply e_forget_sound; auto. }
      destruct GY as [GL GU].
      assert (G4 : genv (match lb yi with Fin l => d_add [mkLC INEQ (mkLE [(-1, y)] l)] (e_forget d1 y) | _ => e_forget d1 y end) (upd b y (a y))).
      { destruct (lb yi) as [| l |] eqn:EL; auto. apply d_add_single; [lia| |exact G3].
        rewrite upd_same. simpl in GL. apply Z.leb_le in GL. lia. }
      destruct (ub yi) as [| u |] eqn:EU; auto. apply d_add_single; [lia| |exact G4].
      rewrite upd_same. simpl in GU. apply Z.leb_le in GU. lia.
    + apply Z.ltb_ge in RP. assert (a y = q * k) by lia.
      apply (genv_ext _ (upd b y (q * k))); auto. intros k0. unfold upd. destruct (N.eqb k0 y); auto.
Qed.

(* statement-level theorem for the statements whose backward transformer is modelled
   without the self-referencing assignment and select cases *)
Definition bwd_stmt_ok (s : stmt) : bool :=
  match s with
  | SAssign x e => bwd_assign_ok x e
  | SArith op x y (OVar z) =>
    match op with
    | OpAdd => bwd_assign_ok x (le_var_plus_var y z)
    | OpSub => bwd_assign_ok x (le_var_sub_var y z)
    | _ => true
    end
  | SAssume c | SAssert c _ => wf_lcb c
  | SSelect _ _ _ _ => false
  | _ => true
  end.

Lemma eval_var_plus_var y z s : eval_le (le_var_plus_var y z) s = s y + s z.
Proof. unfold eval_le, le_var_plus_var; cbn [le_terms le_cst]. rewrite !eval_add_term. cbn [eval_terms]. lia. Qed.
Lemma eval_var_sub_var y z s : eval_le (le_var_sub_var y z) s = s y - s z.
Proof. unfold eval_le, le_var_sub_var; cbn [le_terms le_cst]. rewrite !eval_add_term. cbn [eval_terms]. lia. Qed.

Theorem bwd_stmt_sound fresh good s inv post a b :
  bwd_stmt_ok s = true -> sstep s a b -> genv post b -> genv inv a ->
  genv (bwd_stmt fresh good s inv post) a.
Proof.
  intros OK ST GP GI. destruct s; simpl in *.
  - subst b. apply bwd_assign_sound; auto.
  - destruct ST as (v & SEM & ->).
    destruct op; try (eapply forget_back; eauto; fail); destruct z as [zv|k]; simpl in SEM;
      try (eapply bwd_apply_cst_sound; eauto; fail).
    + unfold bwd_apply_var. rewrite (genv_not_bot _ _ GP). inversion SEM; subst.
      apply bwd_assign_sound; auto. rewrite eval_var_plus_var. auto.
    + unfold bwd_apply_var. rewrite (genv_not_bot _ _ GP). inversion SEM; subst.
      apply bwd_assign_sound; auto. rewrite eval_var_sub_var. auto.
    + unfold bwd_apply_var. rewrite (genv_not_bot _ _ GP). apply e_meet_sound; auto. eapply forget_back; eauto.
    + unfold bwd_apply_var. rewrite (genv_not_bot _ _ GP). apply e_meet_sound; auto. eapply forget_back; eauto.
  - destruct ST as (v & _ & ->). eapply forget_back; eauto.
  - destruct ST as [S ->]. apply d_add_sound; auto. intros c' [<-|[]]. split; auto. apply wf_lcb_sound; auto.
  - destruct ST as [S ->]. destruct good.
    + apply d_add_sound; auto. intros c' [<-|[]]. split; auto. apply wf_lcb_sound; auto.
    + apply e_join_sound. left; auto.
  - destruct ST as (v & ->). eapply forget_back; eauto.
  - discriminate.
  - contradiction.
Qed.

(* error mode: a state in which the assertion fails is part of the precondition *)
Theorem bwd_assert_error_sound fresh c id inv post a :
  wf_lcb c = true -> ~ sat c a -> genv (bwd_stmt fresh false (SAssert c id) inv post) a.
Proof.
  intros W N. simpl. apply e_join_sound. right.
  apply d_add_sound; [|apply genv_top].
  intros c' [<-|[]]. split.
  - apply wf_lc_negate. apply wf_lcb_sound; auto.
  - apply lc_negate_spec; auto.
Qed.
