(* InterSem.v — concrete semantics of programs with calls (mathematical integers), with a call
   stack in big-step form.

   Call semantics (the one the inter-procedural analyzers claim): the callee runs on its own
   store, in which its formal inputs hold the values of the actual parameters and every other
   variable holds an arbitrary value; when the end of the callee's exit block is reached, the
   values of its formal outputs are copied into the lhs variables of the callsite; no other
   variable of the caller changes.  A callee that never reaches the end of its exit block does
   not return.

   exec_fun g s0 s1     : a call of g started in store s0 returns with (callee) store s1
   IRPre f n s          : an execution started at an entry function in an initial state enters
                          block n of function f (in any frame of the call stack) with store s
   IRPost f n s         : ... reaches the end of block n of f with store s *)
From Coq Require Import ZArith NArith List Bool Arith Lia.
From CrabV Require Import Ir.Syntax Ir.Cfg Ana.InterSyntax.
Import ListNotations.

Definition bind_ins (formals actuals : list var) (a s0 : store) : Prop :=
  Forall2 (fun x y => s0 x = a y) formals actuals.

Fixpoint assign_outs (a : store) (outs fouts : list var) (s1 : store) : store :=
  match outs, fouts with
  | o :: os, f :: fs => assign_outs (upd a o (s1 f)) os fs s1
  | _, _ => a
  end.

Section Sem.
  Variable p : iprog.

  Inductive exec_stmt : istmt -> store -> store -> Prop :=
  | XS_base s a b : sstep s a b -> exec_stmt (IBase s) a b
  | XS_call outs g ins a s0 s1 b :
      bind_ins (f_ins (get_fn p g)) ins a s0 -> exec_fun g s0 s1 ->
      (forall k, b k = assign_outs a outs (f_outs (get_fn p g)) s1 k) ->
      exec_stmt (ICall outs g ins) a b
  with exec_block : iblock -> store -> store -> Prop :=
  | XB_nil a : exec_block [] a a
  | XB_cons s r a m b : exec_stmt s a m -> exec_block r m b -> exec_block (s :: r) a b
  with exec_from : nat -> nat -> store -> store -> Prop :=
  | XF_exit g n a b :
      f_exit (get_fn p g) = Some n -> exec_block (fn_block (get_fn p g) n) a b -> exec_from g n a b
  | XF_step g n m a b c :
      exec_block (fn_block (get_fn p g) n) a b -> In (n, m) (f_edges (get_fn p g)) ->
      exec_from g m b c -> exec_from g n a c
  with exec_fun : nat -> store -> store -> Prop :=
  | XFun g s0 s1 : exec_from g 0 s0 s1 -> exec_fun g s0 s1.

  Scheme exec_stmt_mut := Minimality for exec_stmt Sort Prop
    with exec_block_mut := Minimality for exec_block Sort Prop
    with exec_from_mut := Minimality for exec_from Sort Prop
    with exec_fun_mut := Minimality for exec_fun Sort Prop.
  Combined Scheme exec_mutind from exec_stmt_mut, exec_block_mut, exec_from_mut, exec_fun_mut.

  Variable entries : list nat.
  Variable Init : store -> Prop.

  Inductive IRPre : nat -> nat -> store -> Prop :=
  | IR_init f s : In f entries -> Init s -> IRPre f 0 s
  | IR_edge f q n s : In (q, n) (f_edges (get_fn p f)) -> IRPost f q s -> IRPre f n s
  | IR_call f n s l1 outs g ins l2 m s0 :
      IRPre f n s -> fn_block (get_fn p f) n = l1 ++ ICall outs g ins :: l2 ->
      exec_block l1 s m -> bind_ins (f_ins (get_fn p g)) ins m s0 -> IRPre g 0 s0
  with IRPost : nat -> nat -> store -> Prop :=
  | IR_post f n s s' : IRPre f n s -> exec_block (fn_block (get_fn p f) n) s s' -> IRPost f n s'.

  Scheme IRPre_mut := Minimality for IRPre Sort Prop
    with IRPost_mut := Minimality for IRPost Sort Prop.
  Combined Scheme IR_mutind from IRPre_mut, IRPost_mut.

  (* a call returns only from the end of the exit block *)
  Lemma exec_from_exit g n a b : exec_from g n a b -> exists x, f_exit (get_fn p g) = Some x.
  Proof. induction 1; eauto. Qed.
  Lemma exec_fun_exit g s0 s1 : exec_fun g s0 s1 -> exists x, f_exit (get_fn p g) = Some x.
  Proof. intros H. inversion H; subst. eapply exec_from_exit; eauto. Qed.

  Lemma assign_outs_other outs : forall fouts a s1 k, ~ In k outs -> assign_outs a outs fouts s1 k = a k.
  Proof.
    induction outs as [|o r IH]; intros [|f fs] a s1 k NI; simpl; auto.
    rewrite IH by (intros I; apply NI; right; exact I).
    apply upd_other. intros E. apply NI. left. auto.
  Qed.

  Lemma assign_outs_in outs : forall fouts a s1 o f,
    NoDup outs -> In (o, f) (combine outs fouts) -> assign_outs a outs fouts s1 o = s1 f.
  Proof.
    induction outs as [|o' r IH]; intros [|f' fs] a s1 o f ND I; simpl in *; try contradiction.
    inversion ND as [|? ? NI ND']; subst. destruct I as [E|I].
    - inversion E; subst. rewrite assign_outs_other by exact NI. apply upd_same.
    - apply IH; auto.
  Qed.

  Lemma sstep_frame s a b x : sstep s a b -> ~ In x (stmt_defs s) -> b x = a x.
  Proof.
    intros H NI. destruct s; simpl in *.
    - subst. apply upd_other. intros E. apply NI. left. auto.
    - destruct H as (v & _ & ->). apply upd_other. intros E. apply NI. left. auto.
    - destruct H as (v & _ & ->). apply upd_other. intros E. apply NI. left. auto.
    - destruct H as [_ ->]. auto.
    - destruct H as [_ ->]. auto.
    - destruct H as (v & ->). apply upd_other. intros E. apply NI. left. auto.
    - subst. apply upd_other. intros E. apply NI. left. auto.
    - contradiction.
  Qed.

  Lemma exec_stmt_frame st a b x : exec_stmt st a b -> ~ In x (istmt_defs st) -> b x = a x.
  Proof.
    intros H NI. inversion H; subst; simpl in *.
    - eapply sstep_frame; eauto.
    - rewrite H2. apply assign_outs_other. exact NI.
  Qed.

  Lemma exec_block_frame bl a b x :
    exec_block bl a b -> (forall st, In st bl -> ~ In x (istmt_defs st)) -> b x = a x.
  Proof.
    induction 1 as [|s r a m b S B IH]; intros NI; auto.
    rewrite IH by (intros st I; apply NI; right; exact I).
    eapply exec_stmt_frame; eauto. apply NI. left. auto.
  Qed.

  (* a well-formed function never changes its formal inputs *)
  Variable voff : N.
  Hypothesis WF : iprog_wfb p voff = true.

  Lemma wf_block_frame g n x : g < length p -> In x (f_ins (get_fn p g)) ->
    forall st, In st (fn_block (get_fn p g) n) -> ~ In x (istmt_defs st).
  Proof.
    intros L I st J. pose proof (wf_istmt p voff _ n st (wf_func p voff g WF L) J) as W.
    destruct st as [s|outs g' ins]; simpl in *.
    - apply andb_true_iff in W. destruct W as [_ W]. rewrite forallb_forall in W.
      intros K. specialize (W _ K). apply negb_true_iff in W. apply vmem_false in W. auto.
    - repeat (apply andb_true_iff in W; destruct W as [W ?]).
      rewrite forallb_forall in H2. intros K. specialize (H2 _ K).
      apply negb_true_iff in H2. apply vmem_false in H2. auto.
  Qed.

  Lemma exec_from_frame g n a b : exec_from g n a b -> g < length p ->
    forall x, In x (f_ins (get_fn p g)) -> b x = a x.
  Proof.
    induction 1 as [g n a b E B | g n m a b c B I F IH]; intros L x J.
    - eapply exec_block_frame; eauto. apply wf_block_frame; auto.
    - rewrite IH by auto. eapply exec_block_frame; eauto. apply wf_block_frame; auto.
  Qed.

  Lemma exec_fun_frame g s0 s1 : exec_fun g s0 s1 -> g < length p ->
    forall x, In x (f_ins (get_fn p g)) -> s1 x = s0 x.
  Proof. intros H. inversion H; subst. eapply exec_from_frame; eauto. Qed.
End Sem.
