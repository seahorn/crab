(* InterTDRecSound.v — property C09 for the MODEL of the top-down inter-procedural analyzer with
   analyze_recursive_functions = true (Ana/InterTDRec.v, rec_run / rec_run_checked), directly and
   without the certificate checker: whenever the model returns without its error flag, with
   max_call_contexts unbounded,
     - the context-insensitive tables contain every state with which an execution started at an
       entry function enters / leaves a block, in any frame of the call stack;
     - every stored (precondition, postcondition) summary relates the inputs and outputs of every
       concrete call whose inputs satisfy the precondition.
   For every well-formed program and call graph (direct, mutual and nested recursion, cycles
   entered through a function that is not their head), every exact_summary_reuse, widening delay,
   number of descending iterations and fuels.

   Structure of the proof.
   * Induction on the depth of concrete recursion: the big-step semantics is stratified
     (Ana/InterSemIdx.v, xfun n = calls whose nested calls have depth < n); every statement about a
     sub-computation of the analyzer is quantified over the level n.
   * A sub-computation (the analysis of a function from an entry value) is specified relative to
     the fixpoints that are running when it starts (rspec): for any family A of assumed entry
     states of the heads h in m_func_fixpoint_table that the function can reach in the call graph,
     if the final table entries are inside A (FinA) and calls of level n to h from A h return
     inside the pre-fixpoint exit (AssV), then the result is valid for calls of level n + 1 and
     the entry states are covered (GG) relative to the promises PR: the assumed entries of those
     heads, and the functions of the call stack that started from top (Top).
   * Coverage is the greatest set GG P of function entries closed under "the tables contain the
     states reached in the body and every callee entry reached is covered or promised (P)"
     (Ana/InterTDRecBase.v); a promise is discharged by the cut rule GG_cut when the promised
     entries have been covered relative to themselves (coinduction).
   * When the test new_entry <= old_entry && new_exit <= old_exit of a head succeeds, the
     assumption AssV for that head is proved by induction on the level from the soundness of the
     last run of its body (riter_spec), its promise is cut, and the invariants of that run are the
     ones that are stored.
   * Stored summaries are unconditional: has_been_stabilized only stores a summary when no
     fixpoint is running, or when the callee is outside the recursive set, hence on no call graph
     cycle, hence reaches neither a head whose fixpoint is running nor a function of the call stack
     (REC: the recursive set contains every reachable function on a call graph cycle).
   * A function found on the call stack whose fixpoint is not running started from top
     (onstack_Top): otherwise propagate_from_caller saw the fixpoints of all the heads of its
     nesting running, they are below it on the stack, and a call graph cycle through it that avoids
     them contradicts the nesting of the call graph WTO (NEST).
   * The body of a function is handled by Ana/InterEngineSound.v (srun_sound), instantiated with
     the block semantics of level n guarded by the assumptions.

   Side conditions (executable, Ana/InterTDRec.v rec_cfg_okb; rec_run_checked sets the error flag
   when one fails): NEST for the call graph orderings; an entry function of the recursive set is in
   the widening set; the entry block of a function of the widening set is not a loop head of its
   CFG (the stored precondition of a head is the invariant at its entry block, which the engine
   theorem only relates to the entry value when that block is a vertex of the ordering). *)
From Coq Require Import ZArith NArith List Bool Arith Lia Relations.
From CrabV Require Import Base.ZInf Scalar.Itv Ir.Syntax Ir.Cfg Dom.ItvEnv Dom.ItvEnvSound Dom.ItvDomain
     Dom.ItvDomainSound Fix.Wto Fix.WtoCheck Fix.WtoSound Fix.WtoRoot Fix.Engine Fix.EngineCheck Fix.EngineRel
     Fix.EngineFS Ana.Transformer Ana.FwdItv Ana.FwdItvEngineSound Ana.InterSyntax Ana.InterSem Ana.InterSemIdx
     Ana.InterTD Ana.InterTDSound Ana.InterEngineSound Ana.InterTDModelSound Ana.InterTDRecset Ana.InterTDRec Ana.InterTDRecBase.
Import ListNotations.

Lemma nmem_app x l1 l2 : nmem x (l1 ++ l2) = nmem x l1 || nmem x l2.
Proof. unfold nmem. apply existsb_app. Qed.
Lemma nmem_false x l : nmem x l = false <-> ~ In x l.
Proof. rewrite <- nmem_spec. destruct (nmem x l); split; congruence. Qed.

Lemma in_snoc (l : list nat) x y : In y (l ++ [x]) <-> In y l \/ y = x.
Proof. rewrite in_app_iff. cbn. intuition congruence. Qed.
Lemma hd_app (l : list nat) x d : l <> [] -> hd d (l ++ [x]) = hd d l.
Proof. destruct l; [congruence|reflexivity]. Qed.
Lemma NoDup_snoc (l : list nat) x : NoDup l -> ~ In x l -> NoDup (l ++ [x]).
Proof.
  intros ND N. apply NoDup_rev in ND. rewrite <- (rev_involutive (l ++ [x])), rev_app_distr.
  apply NoDup_rev. constructor; [rewrite <- in_rev; exact N|exact ND].
Qed.
Lemma last_cons (K : list nat) f d : last (f :: K) d = last K f.
Proof.
  revert f d. induction K as [|b r IH]; intros f d; [reflexivity|].
  change (last (b :: r) d = last (b :: r) f). rewrite (IH b d), (IH b f). reflexivity.
Qed.
Lemma last_mid (K1 K2 : list nat) f d : last (K1 ++ f :: K2) d = last K2 f.
Proof.
  revert d. induction K1 as [|a r IH]; intros d; cbn [app]; [apply last_cons|].
  rewrite last_cons. apply IH.
Qed.

(* m occurs before the first occurrence of f *)
Fixpoint belowb (l : list nat) (m f : nat) : bool :=
  match l with
  | [] => false
  | a :: r => if Nat.eqb a f then false else (Nat.eqb a m && nmem f r) || belowb r m f
  end.

Lemma belowb_push l x m f : In f l -> belowb (l ++ [x]) m f = belowb l m f.
Proof.
  induction l as [|a r IH]; cbn [app belowb]; [intros []|]. intros I.
  destruct (Nat.eqb_spec a f) as [E|E]; [reflexivity|].
  destruct I as [I|I]; [contradiction|]. rewrite IH by exact I. f_equal. f_equal.
  rewrite nmem_app. apply (proj2 (nmem_spec f r)) in I. rewrite I. reflexivity.
Qed.
Lemma belowb_in l m f : belowb l m f = true -> In m l /\ In f l /\ m <> f.
Proof.
  induction l as [|a r IH]; cbn [belowb]; [discriminate|].
  destruct (Nat.eqb_spec a f) as [E|E]; [discriminate|]. intros H. apply orb_true_iff in H. destruct H as [H|H].
  - apply andb_true_iff in H. destruct H as [H1 H2]. apply Nat.eqb_eq in H1. apply nmem_spec in H2.
    subst a. split; [left; reflexivity|]. split; [right; exact H2|exact E].
  - destruct (IH H) as (A & B & C). split; [right; exact A|]. split; [right; exact B|exact C].
Qed.
Lemma belowb_last K x m : In m K -> ~ In x K -> belowb (K ++ [x]) m x = true.
Proof.
  induction K as [|a r IH]; cbn [app belowb]; [intros []|]. intros I N.
  destruct (Nat.eqb_spec a x) as [E|E]; [exfalso; apply N; left; exact E|].
  destruct I as [->|I].
  - rewrite Nat.eqb_refl. rewrite nmem_app. cbn [nmem existsb]. rewrite Nat.eqb_refl.
    rewrite orb_true_r. reflexivity.
  - rewrite IH; [apply orb_true_r|exact I|]. intros J. apply N. right. exact J.
Qed.
Lemma belowb_after K1 f K2 m : NoDup (K1 ++ f :: K2) -> In m K2 -> belowb (K1 ++ f :: K2) m f = false.
Proof.
  induction K1 as [|a r IH]; cbn [app belowb]; intros ND I.
  - rewrite Nat.eqb_refl. reflexivity.
  - inversion ND as [|? ? NI ND']; subst.
    destruct (Nat.eqb_spec a f) as [E|E]; [reflexivity|].
    rewrite (IH ND' I), orb_false_r.
    destruct (Nat.eqb_spec a m) as [E2|E2]; [|reflexivity]. exfalso. subst a.
    apply NI. apply in_or_app. right. right. exact I.
Qed.
Lemma top_not_below K f k : NoDup (K ++ [f]) -> belowb (K ++ [f]) f k = true -> False.
Proof.
  intros ND B. destruct (belowb_in _ _ _ B) as (_ & Ik & N).
  apply in_snoc in Ik. destruct Ik as [Ik|Ik]; [|congruence].
  apply in_split in Ik. destruct Ik as (K1 & K2 & ->). rewrite <- app_assoc in *. cbn [app] in *.
  rewrite belowb_after in B; [discriminate|exact ND|]. apply in_or_app. right. left. reflexivity.
Qed.
Section Model.
  Variable p : iprog.
  Variable voff : N.
  Hypothesis WF : iprog_wfb p voff = true.
  Variable exact_reuse : bool.
  Variables delay desc efuel ifuel : nat.
  Variable wtos : nat -> wto.
  Variable cgwto : nat -> wto.
  Variable wset recset : list nat.
  Hypothesis WTO : forall f, f < length p -> build (fn_graph (get_fn p f)) 0 = Some (wtos f).
  (* the entry block of a function of the widening set is not a loop head *)
  Hypothesis HEADV : forall f, In f wset -> f < length p -> exists r, wtos f = Vertex 0 :: r.
  (* the functions that the analysis can reach *)
  Variable Reach : nat -> Prop.
  Hypothesis Reach_edge : forall f g, Reach f -> cg_edge p f g -> Reach g.
  Hypothesis REC : forall f, Reach f -> cg_path p f f -> In f recset.

  Fixpoint chain (l : list nat) : Prop :=
    match l with
    | a :: (b :: _) as r => cg_edge p a b /\ chain r
    | _ => True
    end.
  Definition reach (f h : nat) : Prop := clos_refl_trans nat (cg_edge p) f h.

  (* a cycle through a function f that is not a head goes through a head of the nesting of f *)
  Variable Ent : nat -> Prop.               (* the entry functions *)
  Hypothesis NEST : forall e f hs K, Ent e ->
    nesting (cgwto e) f = Some hs -> ~ In f wset -> reach e f ->
    chain (f :: K) -> cg_edge p (last K f) f -> exists m, In m hs /\ In m K.

  Lemma chain_snoc l a x : chain (l ++ [a]) -> cg_edge p a x -> chain ((l ++ [a]) ++ [x]).
  Proof.
    induction l as [|b r IH]; cbn [app]; intros C E.
    - cbn. auto.
    - destruct r as [|c r']; cbn [app] in *.
      + destruct C as [C1 _]. cbn. auto.
      + destruct C as [C1 C2]. split; [exact C1|]. apply IH; auto.
  Qed.
  Lemma chain_tail a l : chain (a :: l) -> chain l.
  Proof. destruct l as [|b l']; [intros _; exact I|intros [_ C]; exact C]. Qed.
  Lemma chain_suffix l1 l2 : chain (l1 ++ l2) -> chain l2.
  Proof.
    induction l1 as [|a l1' IH]; cbn [app]; auto. intros C. apply IH. eapply chain_tail; eauto.
  Qed.
  Lemma chain_prefix l1 l2 : chain (l1 ++ l2) -> chain l1.
  Proof.
    induction l1 as [|a r IH]; cbn [app]; [intros _; exact I|]. intros C.
    destruct r as [|b r']; [exact I|]. cbn [app] in *. destruct C as [C1 C2]. split; [exact C1|]. apply IH. exact C2.
  Qed.
  Lemma chain_path a : forall K b, chain (a :: K ++ [b]) -> cg_path p a b.
  Proof.
    intros K. revert a. induction K as [|c r IH]; intros a b C; cbn [app] in C.
    - apply t_step. exact (proj1 C).
    - destruct C as [C1 C2]. eapply t_trans; [apply t_step; exact C1|]. apply IH. exact C2.
  Qed.
  Lemma chain_reach K : forall a b, chain (a :: K) -> In b (a :: K) -> reach a b.
  Proof.
    induction K as [|c r IH]; intros a b C I.
    - destruct I as [<-|[]]. apply rt_refl.
    - destruct I as [<-|I]; [apply rt_refl|]. destruct C as [C1 C2].
      eapply rt_trans; [apply rt_step; exact C1|]. apply IH; auto.
  Qed.
  Lemma path_reach a b : cg_path p a b -> reach a b.
  Proof. induction 1; [apply rt_step; auto|eapply rt_trans; eauto]. Qed.
  Lemma reach_path_r a b c : reach a b -> cg_path p b c -> cg_path p a c.
  Proof.
    intros R. apply clos_rt_rt1n in R. induction R as [|x y z E _ IH]; auto.
    intros P. eapply t_trans; [apply t_step; exact E|]. apply IH. exact P.
  Qed.
  Lemma reach_edge_path a b c : reach a b -> cg_edge p b c -> cg_path p a c.
  Proof. intros R E. eapply reach_path_r; [exact R|apply t_step; exact E]. Qed.

  Record SIc (g : rgst) (f : nat) : Prop := mkSIc {
    si_nodup : NoDup (stk g);
    si_last : exists K, stk g = K ++ [f];
    si_reach : forall h, In h (stk g) -> Reach h;
    si_chain : chain (stk g);
    si_keys : forall h, In h (keys (fx g)) -> In h wset /\ In h (stk g);
    si_ent : Ent (hd 0 (stk g)) }.
  Definition HeadsIn (g : rgst) : Prop := forall h, In h (stk g) -> In h wset -> In h (keys (fx g)).
  Definition HeadsInX (g : rgst) (f : nat) : Prop :=
    forall h, In h (stk g) -> In h wset -> h <> f -> In h (keys (fx g)).

  Lemma SIc_step g g' f : rstep g g' -> SIc g f -> SIc g' f.
  Proof.
    intros S [A B C D F G]. pose proof (rstep_stk _ _ S) as ES. pose proof (rs_keys _ _ S) as EK.
    constructor; rewrite ?ES, ?EK; auto.
  Qed.
  Lemma HeadsIn_step g g' : rstep g g' -> HeadsIn g -> HeadsIn g'.
  Proof. intros S H h. rewrite (rstep_stk _ _ S), (rs_keys _ _ S). apply H. Qed.
  Lemma HeadsInX_step g g' f : rstep g g' -> HeadsInX g f -> HeadsInX g' f.
  Proof. intros S H h. rewrite (rstep_stk _ _ S), (rs_keys _ _ S). apply H. Qed.

  Lemma SIc_top g f : SIc g f -> In f (stk g).
  Proof. intros S. destruct (si_last _ _ S) as [K ->]. apply in_snoc. right. reflexivity. Qed.

  Lemma SIc_push g fcur f : SIc g fcur -> cg_edge p fcur f -> ~ In f (stk g) -> SIc (r_lift (push f) g) f.
  Proof.
    intros S CE NM. destruct (si_last _ _ S) as [K EK].
    assert (ESp : stk (r_lift (push f) g) = stk g ++ [f]) by reflexivity.
    constructor; rewrite ?ESp.
    - apply NoDup_snoc; [apply (si_nodup _ _ S)|exact NM].
    - exists (stk g). reflexivity.
    - intros h Ih. apply in_snoc in Ih. destruct Ih as [Ih| ->].
      + apply (si_reach _ _ S h Ih).
      + apply (Reach_edge fcur); [apply (si_reach _ _ S), (SIc_top _ _ S)|exact CE].
    - rewrite EK. apply chain_snoc; [rewrite <- EK; apply (si_chain _ _ S)|exact CE].
    - intros h Ih. destruct (si_keys _ _ S h Ih) as [X Y]. split; [exact X|]. apply in_snoc. left. exact Y.
    - rewrite hd_app; [apply (si_ent _ _ S)|]. rewrite EK. destruct K; discriminate.
  Qed.

  Lemma stack_path g f h : SIc g f -> In h (stk g) -> h = f \/ cg_path p h f.
  Proof.
    intros S I. destruct (si_last _ _ S) as [K EK]. pose proof (si_chain _ _ S) as C. rewrite EK in I, C.
    apply in_snoc in I. destruct I as [I|I]; [|left; exact I]. right.
    apply in_split in I. destruct I as (K1 & K2 & ->). rewrite <- app_assoc in C. cbn [app] in C.
    apply chain_suffix in C. apply chain_path in C. exact C.
  Qed.
  (* a callee of the function on top that reaches a function of the stack lies on a call graph cycle *)
  Lemma onstack_rec g fcur f h : SIc g fcur -> cg_edge p fcur f -> In h (stk g) -> reach f h -> In f recset.
  Proof.
    intros S CE I R. apply REC.
    - apply (Reach_edge fcur); [apply (si_reach _ _ S), (SIc_top _ _ S)|exact CE].
    - eapply reach_path_r; [exact R|]. destruct (stack_path g fcur h S I) as [->|P].
      + apply t_step. exact CE.
      + eapply t_trans; [exact P|apply t_step; exact CE].
  Qed.

  (* f is on the stack and its analysis started from top: f is a member of the recursive set
     that is not a head, and not all the heads of its nesting (in the ordering of the current
     entry, the bottom of the stack) had their fixpoint running *)
  Definition Top (g : rgst) (f : nat) : Prop :=
    In f (stk g) /\ In f recset /\ ~ In f wset /\
    match nesting (cgwto (hd 0 (stk g))) f with
    | None => True
    | Some hs => ~ (forall m, In m hs -> In m (keys (fx g)) /\ belowb (stk g) m f = true)
    end.
  (* ... and no fixpoint was running when it started *)
  Definition CleanTop (g : rgst) (f : nat) : Prop :=
    Top g f /\ forall h, In h (keys (fx g)) -> belowb (stk g) f h = true.

  (* Top depends on the stack and on the keys of the fixpoint table only, and it is kept when
     fewer fixpoints run below f *)
  Lemma Top_mono g g' f : In f (stk g') -> hd 0 (stk g') = hd 0 (stk g) ->
    (forall m, In m (keys (fx g')) -> belowb (stk g') m f = true ->
               In m (keys (fx g)) /\ belowb (stk g) m f = true) ->
    Top g f -> Top g' f.
  Proof.
    intros I EH M (_ & B & C & D). unfold Top. rewrite EH.
    split; [exact I|]. split; [exact B|]. split; [exact C|].
    destruct (nesting _ f) as [hs|]; [|exact D].
    intros ALL. apply D. intros m Im. destruct (ALL m Im) as [X Y]. apply M; assumption.
  Qed.

  Lemma Top_fewer g1 g2 h : stk g2 = stk g1 ->
    (forall k, In k (keys (fx g2)) -> In k (keys (fx g1))) -> Top g1 h -> Top g2 h.
  Proof. intros ES SK T. apply (Top_mono g1); rewrite ?ES; auto. exact (proj1 T). Qed.
  Lemma CleanTop_fewer g1 g2 h : stk g2 = stk g1 ->
    (forall k, In k (keys (fx g2)) -> In k (keys (fx g1))) -> CleanTop g1 h -> CleanTop g2 h.
  Proof.
    intros ES SK [A B]. split; [eapply Top_fewer; eauto|]. intros k Ik. rewrite ES. apply B, SK, Ik.
  Qed.

  Lemma Top_push g1 g2 f h : stk g1 = stk g2 ++ [f] -> keys (fx g1) = keys (fx g2) -> In h (stk g2) ->
    Top g1 h <-> Top g2 h.
  Proof.
    intros ES EK I.
    assert (EH : hd 0 (stk g1) = hd 0 (stk g2)) by (rewrite ES; apply hd_app; intros E; rewrite E in I; destruct I).
    split; apply Top_mono; auto.
    - intros m Im Y. rewrite ES, EK, belowb_push by exact I. auto.
    - rewrite ES. apply in_snoc. left. exact I.
    - intros m Im Y. rewrite ES, belowb_push in Y by exact I. rewrite EK in Im. auto.
  Qed.
  Lemma CleanTop_push g1 g2 f h : stk g1 = stk g2 ++ [f] -> keys (fx g1) = keys (fx g2) -> In h (stk g2) ->
    (forall k, In k (keys (fx g2)) -> In k (stk g2)) -> CleanTop g1 h <-> CleanTop g2 h.
  Proof.
    intros ES EK I KS. unfold CleanTop. rewrite (Top_push g1 g2 f h ES EK I), ES, EK.
    split; intros [A B]; (split; [exact A|]); intros k Ik; specialize (B k Ik);
      rewrite belowb_push in * by (apply KS; exact Ik); exact B.
  Qed.

  (* the fixpoint of the function on top of the stack starts *)
  Lemma CleanTop_insert g1 g2 f K h : stk g2 = stk g1 -> stk g1 = K ++ [f] -> NoDup (stk g1) -> In f wset ->
    keys (fx g2) = keys (fx g1) ++ [f] -> CleanTop g1 h -> CleanTop g2 h.
  Proof.
    intros ES EK ND FW EKS [A B].
    assert (IK : In h K).
    { destruct A as (A & _ & C & _). rewrite EK in A. apply in_snoc in A. destruct A as [A| ->]; [exact A|contradiction]. }
    rewrite EK in ND. split.
    - apply (Top_mono g1); rewrite ?ES; [exact (proj1 A)|reflexivity| |exact A].
      intros m Im Y. split; [|exact Y]. rewrite EKS in Im. apply in_snoc in Im. destruct Im as [Im| ->]; [exact Im|].
      exfalso. rewrite EK in Y. exact (top_not_below K f h ND Y).
    - intros k Ik. rewrite ES. rewrite EKS in Ik. apply in_snoc in Ik. destruct Ik as [Ik| ->]; [apply B; exact Ik|].
      rewrite EK. apply belowb_last; [exact IK|]. apply NoDup_remove_2 in ND. rewrite app_nil_r in ND. exact ND.
  Qed.

  Section WithRoot.
  Variable Root : nat -> store -> Prop.      (* finished entry functions and their entry states *)

  Definition SP (g : rgst) (h : nat) (s0 : store) : Prop := Root h s0 \/ CleanTop g h.
  Definition PR (F : nat -> Prop) (A : nat -> store -> Prop) (g : rgst) (h : nat) (s0 : store) : Prop :=
    SP g h s0 \/ (F h /\ (Top g h \/ (In h (keys (fx g)) /\ A h s0))).

  Lemma SP_ext g g' : stk g' = stk g -> keys (fx g') = keys (fx g) -> forall h s, SP g h s -> SP g' h s.
  Proof.
    intros ES EK h s [H|H]; [left; exact H|right].
    apply (CleanTop_fewer g); [exact ES|rewrite EK; auto|exact H].
  Qed.
  Lemma PR_ext F A g g' : stk g' = stk g -> keys (fx g') = keys (fx g) -> forall h s, PR F A g h s -> PR F A g' h s.
  Proof.
    intros ES EK h s [H|[H1 [H|H]]].
    - left. eapply SP_ext; eauto.
    - right. split; [exact H1|left]. apply (Top_fewer g); [exact ES|rewrite EK; auto|exact H].
    - right. split; [exact H1|right]. rewrite EK. exact H.
  Qed.

  Definition tpre (g : rgst) : nat -> nat -> env := g_pre (r_g g).
  Definition tpost (g : rgst) : nat -> nat -> env := g_post (r_g g).

  Definition SummOKn (n f : nat) (c : ctx) : Prop :=
    exists sum, c_post c = e_project sum (fn_formals (get_fn p f)) /\
                forall s0 s1, genv (c_pre c) s0 -> xfun p n f s0 s1 -> genv sum s1.
  Definition CtxOK (n : nat) (g : rgst) (f : nat) (c : ctx) : Prop :=
    SummOKn n f c /\
    forall s0, genv (c_pre c) s0 -> GG p n (tpre g) (tpost g) (SP g) f s0.
  Definition GIn (n : nat) (g : rgst) : Prop := forall f c, In c (rcc g f) -> CtxOK n g f c.

  Definition FinA (A : nat -> store -> Prop) (F : nat -> Prop) (g : rgst) : Prop :=
    rerr g = false /\
    forall h E X, fix_find h (fx g) = Some (E, X) -> F h -> forall s, genv E s -> A h s.
  Definition AssV (n : nat) (A : nat -> store -> Prop) (F : nat -> Prop) (g : rgst) : Prop :=
    forall h E X, fix_find h (fx g) = Some (E, X) -> F h ->
      forall s0 s1, A h s0 -> xfun p n h s0 s1 -> genv X s1.

  Lemma FinA_down A F g g' : rstep g g' -> FinA A F g' -> FinA A F g.
  Proof.
    intros S [E H]. split; [eapply rstep_err; eauto|]. intros h En X FF Fh s Gs.
    destruct (rs_fix _ _ S h En X FF) as (E' & FF' & SUB). eapply H; eauto.
  Qed.
  Lemma FinA_sub A (F F' : nat -> Prop) g : (forall h, F' h -> F h) -> FinA A F g -> FinA A F' g.
  Proof. intros SUB [E H]. split; [exact E|]. intros h En X FF Fh. eapply H; eauto. Qed.
  Lemma FinA_true F g : rerr g = false -> FinA (fun _ _ => True) F g.
  Proof. intros E. split; [exact E|]. intros; exact I. Qed.
  Lemma AssV_sub n A (F F' : nat -> Prop) g : (forall h, F' h -> F h) -> AssV n A F g -> AssV n A F' g.
  Proof. intros SUB H h En X FF Fh. eapply H; eauto. Qed.
  Lemma AssV_level n m A F g : m <= n -> AssV n A F g -> AssV m A F g.
  Proof. intros L H h En X FF Fh s0 s1 As Xs. eapply H; eauto. eapply xfun_le; eauto. Qed.
  Lemma AssV_back n A F g g' : rstep g g' -> AssV n A F g' -> AssV n A F g.
  Proof.
    intros S H h En X FF Fh. destruct (rs_fix _ _ S h En X FF) as (E' & FF' & _). eapply H; eauto.
  Qed.
  (* the exits of the running fixpoints do not change along a step *)
  Lemma rstep_find_back g g' h E X : rstep g g' -> fix_find h (fx g') = Some (E, X) ->
    exists E0, fix_find h (fx g) = Some (E0, X).
  Proof.
    intros S FF.
    assert (IK : In h (keys (fx g))) by (rewrite <- (rs_keys _ _ S); eapply fix_find_some; eauto).
    destruct (fix_find_in _ _ IK) as [[E0 X0] F0].
    destruct (rs_fix _ _ S h E0 X0 F0) as (E' & FF' & _). rewrite FF in FF'. inversion FF'; subst. eauto.
  Qed.
  Lemma AssV_step n A F g g' : rstep g g' -> AssV n A F g -> AssV n A F g'.
  Proof.
    intros S H h En X FF Fh. destruct (rstep_find_back _ _ _ _ _ S FF) as [E0 F0]. eapply H; eauto.
  Qed.

  Lemma SummOKn_level n m f c : m <= n -> SummOKn n f c -> SummOKn m f c.
  Proof.
    intros L (sum & E & H). exists sum. split; [exact E|]. intros s0 s1 G0 X. eapply H; eauto. eapply xfun_le; eauto.
  Qed.
  Lemma CtxCovn_level n m tp tq cov f S0 : m <= n -> CtxCovn p n tp tq cov f S0 -> CtxCovn p m tp tq cov f S0.
  Proof.
    intros L [A B]. destruct (IPn_level p m n f S0 L) as [M1 M2]. split.
    - intros blk s R. destruct (A blk s (M1 _ _ R)) as [X Y]. split; [exact X|].
      intros l1 outs g0 ins l2 mid s0 E1 E2 E3. eapply Y; eauto.
      eapply gblock_mono; [|exact E2]. apply xfun_le. exact L.
    - intros blk s R. apply B, M2, R.
  Qed.
  Lemma GG_level n m tp tq P f s : m <= n -> GG p n tp tq P f s -> GG p m tp tq P f s.
  Proof.
    intros L (C & HC & I). exists C. split; [|exact I]. intros h s1 X. eapply CtxCovn_level; eauto.
  Qed.
  Lemma GIn_level n m g : m <= n -> GIn n g -> GIn m g.
  Proof.
    intros L H f c IC. destruct (H f c IC) as [B C]. split; [eapply SummOKn_level; eauto|].
    intros s0 G0. eapply GG_level; eauto.
  Qed.

  (* the invariant is kept when contexts go, the tables grow and the promises are mapped to
     promises or are discharged *)
  Lemma GIn_transfer n g g' :
    (forall f c, In c (rcc g' f) -> In c (rcc g f)) ->
    (forall f blk s, genv (tpre g f blk) s -> genv (tpre g' f blk) s) ->
    (forall f blk s, genv (tpost g f blk) s -> genv (tpost g' f blk) s) ->
    (forall h s, GG p n (tpre g') (tpost g') (SP g) h s -> GG p n (tpre g') (tpost g') (SP g') h s) ->
    GIn n g -> GIn n g'.
  Proof.
    intros HC H1 H2 H3 H f c IC. destruct (H f c (HC f c IC)) as [B C].
    split; [exact B|]. intros s0 G0. apply H3.
    eapply GG_mono; [exact H1|exact H2| |apply C, G0]. auto.
  Qed.
  Lemma GIn_ext n g g' : r_g g' = r_g g -> keys (fx g') = keys (fx g) -> GIn n g -> GIn n g'.
  Proof.
    intros E EK. apply GIn_transfer; unfold rcc, tpre, tpost; rewrite ?E; auto.
    apply GG_sub, SP_ext; [unfold stk; rewrite E; reflexivity|exact EK].
  Qed.

  Lemma CleanTop_last_nokeys g K f : stk g = K ++ [f] -> NoDup (stk g) -> CleanTop g f -> keys (fx g) = [].
  Proof.
    intros ES ND [_ B]. destruct (keys (fx g)) as [|k r] eqn:E; [reflexivity|]. exfalso.
    specialize (B k (or_introl eq_refl)). rewrite ES in *. eapply top_not_below; eauto.
  Qed.
  Lemma Top_nokeys_clean g h : keys (fx g) = [] -> Top g h -> CleanTop g h.
  Proof. intros E T. split; [exact T|]. rewrite E. intros k []. Qed.

  Notation propagate' := (propagate cgwto wset recset).
  Notation stabilized' := (stabilized cgwto recset).

  (* a function whose analysis started from top was not given its calling context *)
  Lemma Top_not_propagate g g' f : stk g' = stk g ++ [f] -> keys (fx g') = keys (fx g) -> stk g <> [] ->
    ~ In f (stk g) -> (forall k, In k (keys (fx g)) -> In k (stk g)) ->
    Top g' f -> propagate' g f = false.
  Proof.
    intros ES EK NE NI KS (A & B & C & D). unfold propagate.
    rewrite (proj2 (nmem_spec f recset) B), (proj2 (nmem_false f wset) C). cbn [negb].
    rewrite ES, hd_app in D by exact NE. change (cur_entry g) with (hd 0 (stk g)).
    destruct (nesting (cgwto (hd 0 (stk g))) f) as [hs|]; [|reflexivity].
    destruct (forallb (fun h => fix_mem h (r_fix g)) hs) eqn:FB; [|reflexivity].
    exfalso. apply D. intros m Im. rewrite forallb_forall in FB. specialize (FB m Im).
    apply fix_mem_spec in FB. split; [rewrite EK; exact FB|]. apply belowb_last; [apply KS; exact FB|exact NI].
  Qed.

  (* a function found on the stack whose fixpoint is not running started from top *)
  Lemma onstack_Top g fcur f : SIc g fcur -> HeadsIn g -> cg_edge p fcur f ->
    In f (stk g) -> ~ In f (keys (fx g)) -> Top g f.
  Proof.
    intros S HI CE Istk NK. destruct (si_last _ _ S) as [K EK].
    assert (NW : ~ In f wset) by (intros FW; apply NK, HI; assumption).
    split; [exact Istk|]. split; [|split; [exact NW|]].
    - apply (onstack_rec g fcur f f S CE Istk). apply rt_refl.
    - destruct (nesting _ f) as [hs|] eqn:NE; [|exact I]. intros ALL.
      pose proof Istk as I'. apply in_split in I'. destruct I' as (K1 & K2 & ES).
      pose proof (si_chain _ _ S) as CH. pose proof (si_nodup _ _ S) as ND. rewrite ES in CH, ND.
      assert (EL : last K2 f = fcur).
      { rewrite <- (last_mid K1 K2 f 0), <- ES, EK. apply last_last. }
      assert (RE : reach (hd 0 (stk g)) f).
      { rewrite ES. destruct K1 as [|e0 K1']; cbn [app hd]; [apply rt_refl|].
        cbn [app] in CH. eapply chain_reach; [exact CH|]. right. apply in_or_app. right. left. reflexivity. }
      destruct (NEST _ f hs K2 (si_ent _ _ S) NE NW RE (chain_suffix _ _ CH)) as (m & Im & IK2).
      { rewrite EL. exact CE. }
      destruct (ALL m Im) as [_ B]. rewrite ES, belowb_after in B; [discriminate|exact ND|exact IK2].
  Qed.

  Lemma rstep_pop f g g2 : rstep (r_lift (push f) g) g2 -> rstep g (r_lift pop g2).
  Proof.
    intros [[A1 A2 A3 A4 A5] B C]. constructor; [|exact B|exact C].
    constructor; cbn; auto. rewrite A5. cbn. apply removelast_last.
  Qed.
  Lemma rstep_pop_add f g g2 c : rstep (r_lift (push f) g) g2 ->
    rstep g (r_lift (fun g0 => add_ctx None g0 f c) (r_lift pop g2)).
  Proof.
    intros [A B C]. constructor; [|exact B|exact C]. cbn. apply pop_add_step. exact A.
  Qed.

  Definition cpre_of (f : nat) (entry : env) (tp : nat -> env) : env := if nmem f wset then tp 0 else entry.
  Definition exit_of (f : nat) (tq : nat -> env) : env :=
    match f_exit (get_fn p f) with Some x => tq x | None => EBot end.

  Lemma exit_sound n f (S0 : store -> Prop) tq s0 s1 :
    (forall blk s, IPostn p n f S0 blk s -> genv (tq blk) s) -> S0 s0 -> xfun p (S n) f s0 s1 ->
    genv (exit_of f tq) s1.
  Proof.
    intros HQ I0 XF. cbn [xfun] in XF.
    destruct (gfrom_intra p n S0 f 0 s0 s1 XF (IPren_init p n f _ s0 I0)) as (x & Ex & R).
    unfold exit_of. rewrite Ex. apply HQ, R.
  Qed.

  (* the result r of an analysis of f started in g is valid for the calls of level n + 1 whose
     entry state is in pre, and these entry states are covered, relative to the fixpoints of the
     heads in F that were running in g *)
  Definition rel_ok (n : nat) (F : nat -> Prop) (f : nat) (pre : env) (g : rgst)
             (r : (nat -> env) * (nat -> env) * rgst) : Prop :=
    forall A, FinA A (reach f) (snd r) -> AssV n A F g ->
      (forall s0 s1, genv pre s0 -> xfun p (S n) f s0 s1 -> genv (exit_of f (snd (fst r))) s1) /\
      (forall s0, genv pre s0 ->
                  GG p n (tpre (snd r)) (tpost (snd r)) (PR (reach f) A (snd r)) f s0).

  Definition fun_ok (f : nat) (entry : env) (g : rgst) (r : (nat -> env) * (nat -> env) * rgst) : Prop :=
    rerr (snd r) = false -> f < length p -> SIc g f -> HeadsInX g f -> ~ In f (keys (fx g)) ->
    forall n, GIn n g ->
      GIn n (snd r) /\
      (forall s, genv entry s -> genv (cpre_of f entry (fst (fst r))) s) /\
      rel_ok n (reach f) f (cpre_of f entry (fst (fst r))) g r.
  Definition rspec (td : nat -> env -> rgst -> (nat -> env) * (nat -> env) * rgst) : Prop :=
    forall f entry g,
      (~ In f (keys (fx g)) -> rstep g (snd (td f entry g))) /\ fun_ok f entry g (td f entry g).

  Definition Cv (n fcur : nat) (A : nat -> store -> Prop) (g : rgst) (h : nat) (s : store) : Prop :=
    GG p n (tpre g) (tpost g) (PR (reach fcur) A g) h s \/ PR (reach fcur) A g h s.

  Lemma Cv_step n fcur A g g' : rstep g g' -> forall h s, Cv n fcur A g h s -> Cv n fcur A g' h s.
  Proof.
    intros S. pose proof (PR_ext (reach fcur) A g g' (rstep_stk _ _ S) (rs_keys _ _ S)) as HP.
    intros h s [X|X]; [left|right; auto].
    eapply GG_mono; [apply (gs_pre _ _ (rs_base _ _ S))|apply (gs_post _ _ (rs_base _ _ S))|exact HP|exact X].
  Qed.

  (* r is a sound result of the abstract execution of X from the value e and the global state g,
     in function fcur, at level n and under the assumptions A; C says which callee entries X goes
     through (the shape of analyze_s in InterEngineSound).  The invariant of the global state is
     kept without the assumption on the running fixpoints. *)
  Definition rtr_ok (n : nat) (A : nat -> store -> Prop) (fcur : nat)
             (C : (nat -> store -> Prop) -> store -> Prop) (X : store -> store -> Prop)
             (e : env) (g : rgst) (r : env * rgst) : Prop :=
    FinA A (reach fcur) (snd r) -> GIn n g -> SIc g fcur -> HeadsIn g ->
    GIn n (snd r) /\
    (AssV n A (reach fcur) g -> forall a, genv e a ->
       C (Cv n fcur A (snd r)) a /\ forall b, X a b -> genv (fst r) b).

  Section Spec.
    Variable td : nat -> env -> rgst -> (nat -> env) * (nat -> env) * rgst.
    Hypothesis TD : rspec td.

    Notation trc := (rtr_call p voff None exact_reuse cgwto wset recset td).

    Lemma rtr_call_step outs f ins e g : rstep g (snd (trc outs f ins e g)).
    Proof.
      unfold rtr_call. destruct (e_is_bot e); [apply rstep_refl|].
      destruct (find _ _); [apply rstep_refl|].
      destruct (fix_find f (r_fix g)) as [[en ex]|] eqn:FF.
      - cbn [snd]. constructor; cbn; [apply gstep_refl|apply keys_set|].
        intros h E X H. destruct (Nat.eq_dec h f) as [->|N].
        + unfold fx in H. rewrite FF in H. inversion H; subst. eexists. split.
          * apply fix_find_set_same. eapply fix_find_some; eauto.
          * intros s Gs. apply e_join_sound. right. exact Gs.
        + exists E. split; [rewrite fix_find_set_other by exact N; exact H|auto].
      - destruct (nmem f (g_stack (r_g g))); [apply rstep_refl|].
        cbn [snd]. destruct (TD f (if propagate' g f then
                                     callee_entry voff outs ins (f_ins (get_fn p f)) (f_outs (get_fn p f)) e
                                   else e_top) (r_lift (push f) g)) as [ST _].
        apply fix_find_none in FF. specialize (ST FF).
        destruct (stabilized' _ f); [apply rstep_pop_add; exact ST|apply (rstep_pop f); exact ST].
    Qed.

    (* a callee f of fcur that is analysed, with f pushed on the stack of g: from the specification
       of the result r to the view of the caller, in a state g2 that is the final state of the
       callee without f on the stack.  The contexts stored by the callee stay valid; the result is
       unconditional when no fixpoint on which f depends is running; in general it is relative to
       the fixpoints that fcur reaches. *)
    Lemma callee_sound n A fcur f ce g r g2 :
      cg_edge p fcur f -> f < length p -> GIn n g -> SIc g fcur -> HeadsIn g ->
      ~ In f (stk g) -> ~ In f (keys (fx g)) -> (propagate' g f = false -> forall s, genv ce s) ->
      rstep (r_lift (push f) g) (snd r) -> fun_ok f ce (r_lift (push f) g) r ->
      stk (snd r) = stk g2 ++ [f] -> fx g2 = fx (snd r) -> rerr g2 = rerr (snd r) ->
      tpre g2 = tpre (snd r) -> tpost g2 = tpost (snd r) -> FinA A (reach fcur) g2 ->
      (forall f' c, In c (rcc (snd r) f') -> CtxOK n g2 f' c) /\
      ((nmem f recset = true -> keys (fx g) = []) ->
       CtxOK n g2 f (mkCtx (cpre_of f ce (fst (fst r)))
                           (e_project (exit_of f (snd (fst r))) (fn_formals (get_fn p f))) true)) /\
      (AssV n A (reach fcur) g ->
       (forall s0 s1, genv ce s0 -> xfun p n f s0 s1 -> genv (exit_of f (snd (fst r))) s1) /\
       (forall s0, genv ce s0 -> GG p n (tpre g2) (tpost g2) (PR (reach fcur) A g2) f s0)).
    Proof.
      intros CE Lf GI0 SI HI NM FF TOPCE ST SPEC ES2 EF2 EE2 T2a T2b FN.
      set (gp := r_lift (push f) g) in *. set (cpre := cpre_of f ce (fst (fst r))).
      pose proof (rstep_stk _ _ ST : stk (snd r) = stk g ++ [f]) as ESr.
      pose proof (rs_keys _ _ ST : keys (fx (snd r)) = keys (fx g)) as EKr.
      assert (ES2' : stk g2 = stk g) by (rewrite ESr in ES2; apply app_inv_tail in ES2; symmetry; exact ES2).
      assert (EK2 : keys (fx (snd r)) = keys (fx g2)) by (rewrite EF2; reflexivity).
      assert (ER : rerr (snd r) = false) by (rewrite <- EE2; exact (proj1 FN)).
      assert (RF : reach fcur f) by (apply rt_step; exact CE).
      assert (KS : forall k, In k (keys (fx g)) -> In k (stk g)) by (intros k Ik; apply (si_keys _ _ SI k Ik)).
      assert (NE0 : stk g <> []).
      { intros E0. pose proof (SIc_top _ _ SI) as X. rewrite E0 in X. destruct X. }
      destruct (SPEC ER Lf (SIc_push g fcur f SI CE NM)) with (n := n) as (GI1 & SUBE & COND); [|exact FF| |].
      { intros h Ih HW N. apply in_snoc in Ih. destruct Ih as [Ih|Ih]; [apply HI; assumption|contradiction]. }
      { apply (GIn_transfer n g gp); auto. apply GG_sub. intros h s [X|X]; [left; exact X|right].
        apply (CleanTop_push gp g f h); auto. exact (proj1 (proj1 X)). }
      fold cpre in SUBE, COND.
      (* f goes from the stack: the promises of the other functions are kept *)
      assert (POP : forall h, h <> f -> (CleanTop (snd r) h -> CleanTop g2 h) /\ (Top (snd r) h -> Top g2 h)).
      { intros h N.
        assert (IH : Top (snd r) h -> In h (stk g2)).
        { intros T. pose proof (proj1 T) as X. rewrite ES2 in X. apply in_snoc in X. destruct X; [assumption|contradiction]. }
        assert (KS2 : forall k, In k (keys (fx g2)) -> In k (stk g2)).
        { intros k Ik. rewrite ES2'. apply KS. rewrite <- EKr, EK2. exact Ik. }
        split; intros X.
        - exact (proj1 (CleanTop_push (snd r) g2 f h ES2 EK2 (IH (proj1 X)) KS2) X).
        - exact (proj1 (Top_push (snd r) g2 f h ES2 EK2 (IH X)) X). }
      (* a promise of f itself is discharged by its analysis from top *)
      assert (TOPALL : Top (snd r) f -> forall s, genv cpre s).
      { intros TP s. apply SUBE, TOPCE. exact (Top_not_propagate g (snd r) f ESr EKr NE0 NM KS TP). }
      assert (UNC : (nmem f recset = true -> keys (fx g) = []) ->
                    (forall s0 s1, genv cpre s0 -> xfun p (S n) f s0 s1 -> genv (exit_of f (snd (fst r))) s1) /\
                    (forall s0, genv cpre s0 -> GG p n (tpre (snd r)) (tpost (snd r)) (SP (snd r)) f s0)).
      { intros HK.
        assert (NOK : forall h, In h (stk g) -> reach f h -> keys (fx g) = []).
        { intros h Ih Rh. apply HK, nmem_spec. eapply onstack_rec; eauto. }
        destruct (COND (fun _ _ => True) (FinA_true _ _ ER)) as [VAL COV].
        - intros h E X FFh Rh. exfalso. apply fix_find_some in FFh. change (fx gp) with (fx g) in FFh.
          rewrite (NOK h (KS h FFh) Rh) in FFh. destruct FFh.
        - split; [exact VAL|]. intros s0 G0.
          apply (GG_sub p n _ _ (PR (reach f) (fun _ _ => True) (snd r))); [|exact (COV s0 G0)].
          intros h s [X|[Rh [TP|[Ih _]]]]; [exact X| |].
          + right. apply Top_nokeys_clean; [|exact TP]. rewrite EKr.
            pose proof (proj1 TP) as Ih. rewrite ESr in Ih. apply in_snoc in Ih. destruct Ih as [Ih| ->].
            * exact (NOK h Ih Rh).
            * apply HK, nmem_spec. exact (proj1 (proj2 TP)).
          + exfalso. rewrite EKr in Ih. rewrite (NOK h (KS h Ih) Rh) in Ih. destruct Ih. }
      (* the clean promise of f is cut *)
      assert (CUT1 : forall h s, GG p n (tpre (snd r)) (tpost (snd r)) (SP (snd r)) h s ->
                                 GG p n (tpre g2) (tpost g2) (SP g2) h s).
      { rewrite T2a, T2b. apply (GG_cut p n _ _ _ _ (fun h' (_ : store) => h' = f /\ CleanTop (snd r) f)).
        - intros h s [X|X]; [left; left; exact X|].
          destruct (Nat.eq_dec h f) as [->|N0]; [right; split; [reflexivity|exact X]|left; right; apply POP; assumption].
        - intros h' s' [-> CT].
          pose proof (CleanTop_last_nokeys (snd r) (stk g) f ESr) as NK0. rewrite EKr in NK0.
          apply UNC; [intros _; apply NK0; [|exact CT]|apply TOPALL; exact (proj1 CT)].
          rewrite ESr. apply NoDup_snoc; [apply (si_nodup _ _ SI)|exact NM]. }
      split; [|split].
      - intros f' c IC. destruct (GI1 f' c IC) as [SO CC]. split; [exact SO|].
        intros s0 G0. apply CUT1, CC, G0.
      - intros HK. destruct (UNC HK) as [VAL COV]. split.
        + exists (exit_of f (snd (fst r))). split; [reflexivity|]. intros s0 s1 G0 XF.
          apply (VAL s0 s1 G0). apply xfun_S. exact XF.
        + intros s0 G0. apply CUT1, COV, G0.
      - intros AV.
        assert (RM : forall h, reach f h -> reach fcur h) by (intros h Rh; eapply rt_trans; eauto).
        unfold FinA in FN. rewrite EE2, EF2 in FN.
        destruct (COND A (FinA_sub A _ _ _ RM FN) (AssV_sub n A _ _ g RM AV)) as [VAL COV].
        split; [intros s0 s1 G0 XF; apply (VAL s0 s1); [apply SUBE, G0|apply xfun_S, XF]|].
        intros s0 G0. rewrite T2a, T2b.
        apply (GG_cut p n _ _ (PR (reach f) A (snd r)) _ (fun h' (_ : store) => h' = f /\ Top (snd r) f)).
        + intros h s X. destruct (Nat.eq_dec h f) as [->|N0].
          * destruct X as [[X|X]|[Rh [X|[Ih Ah]]]]; [left; left; left; exact X|right; split; [reflexivity|exact (proj1 X)]|
                                                       right; split; [reflexivity|exact X]|].
            left. right. split; [exact RF|right]. rewrite <- EK2. auto.
          * left. destruct X as [[X|X]|[Rh X]]; [left; left; exact X|left; right; apply POP; assumption|].
            right. split; [exact (RM h Rh)|].
            destruct X as [X|[Ih Ah]]; [left; apply POP; assumption|right; rewrite <- EK2; auto].
        + intros h' s' [-> TP]. apply COV, TOPALL, TP.
        + apply COV, SUBE, G0.
    Qed.

    Lemma rtr_call_sound n A fcur outs f ins e g :
      istmt_wfb p voff (get_fn p fcur) (ICall outs f ins) = true -> cg_edge p fcur f ->
      rtr_ok n A fcur (fun cov a => forall s0, bind_ins (f_ins (get_fn p f)) ins a s0 -> cov f s0)
             (gstmt p (xfun p n) (ICall outs f ins)) e g (trc outs f ins e g).
    Proof.
      intros W CE FN GI0 SI HI.
      destruct (call_wf _ _ _ _ _ _ W) as (Lf & _).
      set (fi := f_ins (get_fn p f)) in *. set (fo := f_outs (get_fn p f)) in *.
      set (ce := if propagate' g f then callee_entry voff outs ins fi fo e else e_top).
      assert (RF : reach fcur f) by (apply rt_step; exact CE).
      (* the callee entry contains the bound inputs *)
      assert (CEs : forall a s0, genv e a -> bind_ins fi ins a s0 -> genv ce s0).
      { intros a s0 Ga B. unfold ce. destruct (propagate' g f); [|apply genv_top].
        eapply (chk_call_entry p voff WF); eauto. }
      (* the continuation is sound for any sound exit value of the callee *)
      assert (EX : forall sum a b, genv e a -> gstmt p (xfun p n) (ICall outs f ins) a b ->
                     (forall s0 s1, bind_ins fi ins a s0 -> xfun p n f s0 s1 -> genv sum s1) ->
                     genv (cont voff outs ins fi fo e (e_project sum (fi ++ fo))) b).
      { intros sum a b Ga X HS. inversion X as [|outs' g' ins' a' s0 s1 b' B XF Hb]; subst.
        exact (call_return_sound p voff WF _ outs f ins e sum a s0 s1 b W Ga B (xfun_exec p n _ _ _ XF) Hb (HS s0 s1 B XF)). }
      unfold rtr_call in *. fold fi fo in FN |- *. fold ce in FN |- *.
      destruct (e_is_bot e) eqn:EB.
      { split; [exact GI0|]. intros _ a Ga. rewrite (genv_not_bot _ _ Ga) in EB. discriminate. }
      destruct (find (fun c => is_subsumed c ce (exact_reuse && negb (nmem f wset))) (g_cc (r_g g) f)) as [c|] eqn:FD.
      { (* a stored summary is reused *)
        apply find_some in FD. destruct FD as [IC SUB]. apply is_subsumed_leq in SUB.
        cbn [fst snd] in *. split; [exact GI0|]. intros _ a Ga.
        destruct (GI0 f c IC) as [(sum & EQ & SS) CC].
        assert (IN : forall s0, bind_ins fi ins a s0 -> genv (c_pre c) s0).
        { intros s0 B. eapply e_leq_sound; [exact SUB|]. eapply CEs; eauto. }
        split.
        - intros s0 B. left. apply (GG_sub p n _ _ (SP g)); [intros h s X; left; exact X|]. apply CC, IN, B.
        - intros b X. rewrite EQ. apply (EX sum a b Ga X). intros s0 s1 B. apply SS, IN, B. }
      destruct (fix_find f (r_fix g)) as [[en ex]|] eqn:FF.
      { (* the fixpoint of f is running *)
        cbn [fst snd] in *.
        set (g' := r_setfix (fix_set f (e_join ce en, ex) (r_fix g)) g) in *.
        assert (IKf : In f (keys (fx g))) by (eapply fix_find_some; eauto).
        assert (EKS : keys (fx g') = keys (fx g)) by apply keys_set.
        split; [apply (GIn_ext n g g'); [reflexivity|exact EKS|exact GI0]|].
        intros AV a Ga.
        (* the calling context is joined into the entry of the next iteration, hence assumed *)
        assert (AF : forall s0, bind_ins fi ins a s0 -> A f s0).
        { intros s0 B. apply (proj2 FN f (e_join ce en) ex); [apply fix_find_set_same; exact IKf|exact RF|].
          apply e_join_sound. left. eapply CEs; eauto. }
        split.
        - intros s0 B. right. right. split; [exact RF|right]. split; [rewrite EKS; exact IKf|auto].
        - intros b X. apply (EX ex a b Ga X). intros s0 s1 B. apply (AV f en ex FF RF s0 s1), AF, B. }
      destruct (nmem f (g_stack (r_g g))) eqn:NM.
      { (* f is on the call stack *)
        apply nmem_spec in NM. cbn [fst snd] in *.
        assert (TP : Top g f).
        { eapply onstack_Top; eauto. apply fix_find_none. exact FF. }
        split; [exact GI0|]. intros _ a Ga. split.
        - intros s0 B. right. right. split; [exact RF|left; exact TP].
        - intros b X. apply (EX e_top a b Ga X). intros. apply genv_top. }
      (* the callee is analysed *)
      apply nmem_false in NM. apply fix_find_none in FF.
      set (gp := r_lift (push f) g) in *.
      destruct (TD f ce gp) as [ST SPEC]. specialize (ST FF).
      set (r := td f ce gp) in *. cbn [fst snd] in *.
      set (g1 := r_lift pop (snd r)) in *.
      change (match f_exit (get_fn p f) with Some x => snd (fst r) x | None => EBot end) with (exit_of f (snd (fst r))) in *.
      change (if nmem f wset then fst (fst r) 0 else ce) with (cpre_of f ce (fst (fst r))) in *.
      set (cnew := mkCtx (cpre_of f ce (fst (fst r))) (e_project (exit_of f (snd (fst r))) (fi ++ fo)) true) in *.
      set (g2 := if stabilized' g1 f then r_lift (fun g0 => add_ctx None g0 f cnew) g1 else g1) in *.
      pose proof (rs_keys _ _ ST : keys (fx (snd r)) = keys (fx g)) as EKr.
      (* the state after the call is the one after the callee without f on the stack, perhaps
         with one more context *)
      assert (E2 : stk (snd r) = stk g2 ++ [f] /\ fx g2 = fx (snd r) /\ rerr g2 = rerr (snd r) /\
                   tpre g2 = tpre (snd r) /\ tpost g2 = tpost (snd r)).
      { assert (ES1 : stk (snd r) = stk g1 ++ [f]).
        { unfold g1, stk. cbn. fold (stk (snd r)). rewrite (rstep_stk _ _ ST). cbn. rewrite removelast_last. reflexivity. }
        unfold g2. destruct (stabilized' g1 f); (split; [exact ES1|repeat split; reflexivity]). }
      destruct E2 as (ES2 & EF2 & EE2 & T2a & T2b).
      destruct (callee_sound n A fcur f ce g r g2 CE Lf GI0 SI HI NM FF) as (OLD & NEW & COND); auto.
      { intros PF s. unfold ce. rewrite PF. apply genv_top. }
      split.
      - unfold g2 in OLD, NEW |- *. destruct (stabilized' g1 f) eqn:STB; [|exact OLD].
        unfold stabilized in STB.
        destruct (fix_mem f (r_fix g1)) eqn:FM; [discriminate|].
        destruct (nmem f recset && negb (fix_empty (r_fix g1))) eqn:RE; [discriminate|]. clear STB.
        intros f' c IC. cbn in IC. unfold fupd in IC.
        destruct (Nat.eqb_spec f' f) as [->|N]; [|exact (OLD f' c IC)].
        apply in_app_or in IC. destruct IC as [IC|[<-|[]]]; [exact (OLD f c IC)|].
        apply NEW. intros NR. rewrite NR in RE. cbn [andb] in RE. apply negb_false_iff in RE.
        apply fix_empty_keys in RE. rewrite <- EKr. exact RE.
      - intros AV a Ga. destruct (COND AV) as [VAL COV]. split.
        + intros s0 B. left. apply COV. eapply CEs; eauto.
        + intros b X. apply (EX (exit_of f (snd (fst r))) a b Ga X). intros s0 s1 B. apply VAL. eapply CEs; eauto.
    Qed.

    Lemma rtr_istmt_step st e g : rstep g (snd (rtr_istmt trc st e g)).
    Proof. destruct st as [s|outs f ins]; cbn [rtr_istmt snd]; [apply rstep_refl|apply rtr_call_step]. Qed.
    Lemma rtr_iblock_step : forall bl e g, rstep g (snd (rtr_iblock trc bl e g)).
    Proof.
      induction bl as [|st r IH]; intros e g; cbn [rtr_iblock]; [apply rstep_refl|].
      eapply rstep_trans; [apply rtr_istmt_step|apply IH].
    Qed.

    Lemma rtr_istmt_sound n A fcur st e g : stmt_ok p voff fcur st ->
      rtr_ok n A fcur (fun cov a => forall outs f ins s0, st = ICall outs f ins ->
                                      bind_ins (f_ins (get_fn p f)) ins a s0 -> cov f s0)
             (gstmt p (xfun p n) st) e g (rtr_istmt trc st e g).
    Proof.
      intros [W CE] FN GI0 SI HI. destruct st as [s|outs f ins]; cbn [rtr_istmt fst snd] in *.
      - split; [exact GI0|]. intros _ a Ga. split; [intros; discriminate|].
        intros b X. inversion X; subst. cbn in W. apply andb_true_iff in W. destruct W as [W _].
        eapply tr_stmt_sound; eauto. apply stmt_wfb_sound. exact W.
      - destruct (rtr_call_sound n A fcur outs f ins e g W (CE _ _ _ eq_refl) FN GI0 SI HI) as [GI1 H].
        split; [exact GI1|]. intros AV a Ga. destruct (H AV a Ga) as [H1 H2]. split; [|exact H2].
        intros outs' f' ins' s0 E. inversion E; subst. apply H1.
    Qed.

    Lemma rtr_iblock_sound n A fcur : forall bl e g, (forall st, In st bl -> stmt_ok p voff fcur st) ->
      rtr_ok n A fcur (fun cov a => forall l1 outs g0 ins l2 mid s0, bl = l1 ++ ICall outs g0 ins :: l2 ->
                                      gblock p (xfun p n) l1 a mid -> bind_ins (f_ins (get_fn p g0)) ins mid s0 -> cov g0 s0)
             (gblock p (xfun p n) bl) e g (rtr_iblock trc bl e g).
    Proof.
      induction bl as [|st r IH]; intros e g OK FN GI0 SI HI; cbn [rtr_iblock] in *.
      - split; [exact GI0|]. intros _ a Ga. split.
        + intros l1 outs g0 ins l2 mid s0 E. destruct l1; discriminate.
        + intros b X. inversion X; subst. exact Ga.
      - set (q := rtr_istmt trc st e g) in *.
        pose proof (rtr_iblock_step r (fst q) (snd q)) as STr.
        pose proof (rtr_istmt_step st e g) as STq. fold q in STq.
        destruct (rtr_istmt_sound n A fcur st e g (OK st (or_introl eq_refl)) (FinA_down _ _ _ _ STr FN) GI0 SI HI) as [GI1 HS].
        fold q in GI1, HS.
        destruct (IH (fst q) (snd q) (fun st' I => OK st' (or_intror I)) FN GI1
                     (SIc_step _ _ _ STq SI) (HeadsIn_step _ _ STq HI)) as [GI2 HB].
        split; [exact GI2|]. intros AV a Ga. destruct (HS AV a Ga) as [HS1 HS2].
        pose proof (HB (AssV_step _ _ _ _ _ STq AV)) as HB'. split.
        + intros l1 outs g0 ins l2 mid s0 E XB B. destruct l1 as [|st' l1'].
          * cbn [app] in E. inversion E; subst. inversion XB; subst.
            apply (Cv_step _ _ _ _ _ STr). eapply HS1; eauto.
          * cbn [app] in E. inversion E; subst. inversion XB as [|? ? ? m ? XS XR]; subst.
            destruct (HB' m (HS2 m XS)) as [HB1 _]. eapply HB1; eauto.
        + intros b X. inversion X as [|? ? ? m ? XS XR]; subst.
          destruct (HB' m (HS2 m XS)) as [_ HB2]. apply HB2. exact XR.
    Qed.

    Notation body f := (fun (en : env) (g : rgst) =>
      srun env rgst itv_ops (fun blk e g => rtr_iblock trc (fn_block (get_fn p f) blk) e g)
           (fn_preds (get_fn p f)) (nest_of (wtos f)) 0 delay desc efuel (wtos f) en g).

    Lemma body_step f en g st : body f en g = Some st -> rstep g (se_g env rgst st).
    Proof.
      intros RUN.
      exact (srun_step env rgst itv_ops _ rstep rstep_refl rstep_trans
               (fun blk a g1 => rtr_iblock_step _ a g1) _ _ _ _ _ _ _ _ _ _ RUN).
    Qed.

    (* the invariant of the global state is kept without the assumption TH on the running fixpoints,
       so TH cannot be a hypothesis of the engine theorem: it guards the block semantics and the
       coverage of the calls instead *)
    Lemma body_sound f en g st : body f en g = Some st -> f < length p -> SIc g f -> HeadsIn g ->
      forall n A, GIn n g -> FinA A (reach f) (se_g env rgst st) ->
        GIn n (se_g env rgst st) /\
        (AssV n A (reach f) g ->
         (forall blk s, IPren p n f (genv en) blk s ->
                        genv (se_pre env rgst st blk) s /\ CallsCovn p n (Cv n f A (se_g env rgst st)) f blk s) /\
         (forall blk s, IPostn p n f (genv en) blk s -> genv (se_post env rgst st blk) s)).
    Proof.
      intros RUN Lf SI HI n A GI0 FN.
      destruct (wto_ok p voff WF wtos WTO f Lf) as (WN & WE & WS).
      destruct (fn_wf p voff WF f Lf) as (_ & _ & _ & _ & Wb).
      set (an := fun (blk : nat) (e : env) (g : rgst) => rtr_iblock trc (fn_block (get_fn p f) blk) e g) in *.
      assert (AST : forall blk a g1, rstep g1 (snd (an blk a g1))) by (intros; apply rtr_iblock_step).
      set (TH := AssV n A (reach f) g).
      set (GIx := fun g1 : rgst => GIn n g1 /\ SIc g1 f /\ HeadsIn g1 /\ (TH -> AssV n A (reach f) g1)).
      set (EffS := fun (blk : nat) (s : store) (g1 : rgst) => TH -> CallsCovn p n (Cv n f A g1) f blk s).
      set (bst := fun (blk : nat) (s s' : store) => TH /\ bsn p n f blk s s').
      assert (EFM : forall blk s g1 g2, rstep g1 g2 -> EffS blk s g1 -> EffS blk s g2).
      { intros blk s g1 g2 S12 H T l1 outs g0 ins l2 mid s0 E XB B.
        eapply Cv_step; [exact S12|]. eapply H; eauto. }
      assert (ANS : forall blk a g1, FinA A (reach f) (snd (an blk a g1)) -> GIx g1 ->
                GIx (snd (an blk a g1)) /\
                forall s, genv a s -> EffS blk s (snd (an blk a g1)) /\
                                      forall s', bst blk s s' -> genv (fst (an blk a g1)) s').
      { intros blk a g1 FN1 (G1 & S1 & H1 & AV1).
        assert (OKB : forall st0, In st0 (fn_block (get_fn p f) blk) -> stmt_ok p voff f st0).
        { intros st0 I0. split; [exact (Wb blk st0 I0)|]. intros outs f' ins ->. exists blk, outs, ins. exact I0. }
        destruct (rtr_iblock_sound n A f (fn_block (get_fn p f) blk) a g1 OKB FN1 G1 S1 H1) as [G2 H].
        split.
        - split; [exact G2|]. split; [eapply SIc_step; eauto|]. split; [eapply HeadsIn_step; eauto|].
          intros T. eapply AssV_step; [apply AST|apply AV1; exact T].
        - intros s Gs. split.
          + intros T l1 outs g0 ins l2 mid s0 E XB B. destruct (H (AV1 T) s Gs) as [X _]. eapply X; eauto.
          + intros s' [T B]. destruct (H (AV1 T) s Gs) as [_ X]. apply X. exact B. }
      destruct (srun_sound env rgst store genv itv_ops
                  (fun a b s H => e_join_sound a b s (or_introl H))
                  (fun a b s H => e_join_sound a b s (or_intror H))
                  e_meet_sound e_narrow_sound
                  (fun a b s L Gs => e_leq_sound a b s L Gs)
                  an bst rstep rstep_refl rstep_trans AST
                  (FinA A (reach f)) (FinA_down A (reach f))
                  GIx EffS EFM ANS
                  (fn_preds (get_fn p f)) (nest_of (wtos f)) 0 delay desc (genv en) efuel en
                  (fun s H => H) (wtos f) WN WE WS g st RUN FN
                  (conj GI0 (conj SI (conj HI (fun T => T)))))
        as (_ & (GI1 & _) & HP & HQ).
      split; [exact GI1|]. intros AV.
      destruct (RP_mono env store genv (bsn p n f) bst (fn_preds (get_fn p f)) 0 (genv en) (genv en)) as [M1 M2].
      { intros blk s s' B. split; [exact AV|exact B]. }
      { auto. }
      split.
      - intros blk s R. destruct (HP blk s (M1 _ _ R)) as [X Y]. split; [exact X|exact (Y AV)].
      - intros blk s R. apply HQ, M2, R.
    Qed.

    (* from the invariants of the body of f, joined into the tables, to the coverage of its entry
       states *)
    Lemma body_cov n f A1 A g1 g2 (tp tq : nat -> env) (S : store -> Prop) :
      r_g g2 = join_tables f tp tq (r_g g1) ->
      (forall blk s, IPren p n f S blk s -> genv (tp blk) s /\ CallsCovn p n (Cv n f A1 g1) f blk s) ->
      (forall blk s, IPostn p n f S blk s -> genv (tq blk) s) ->
      (forall h s, PR (reach f) A1 g1 h s -> PR (reach f) A g2 h s \/ (h = f /\ S s)) ->
      forall s0, S s0 -> GG p n (tpre g2) (tpost g2) (PR (reach f) A g2) f s0.
    Proof.
      intros E HP HQ HPR.
      pose proof (join_tables_step f tp tq (r_g g1)) as GS. rewrite <- E in GS.
      assert (OWN : (forall blk s, genv (tp blk) s -> genv (tpre g2 f blk) s) /\
                    (forall blk s, genv (tq blk) s -> genv (tpost g2 f blk) s)).
      { unfold tpre, tpost. rewrite E.
        split; intros blk s Gs; cbn; unfold fupd; rewrite Nat.eqb_refl; apply e_join_sound; right; exact Gs. }
      apply (GG_intro_self p n (tpre g2) (tpost g2) (PR (reach f) A g2) (PR (reach f) A1 g1) f S HPR).
      intros s0 I0. destruct (IPn_mono p n f (eq s0) S) as [M1 M2]; [intros s <-; exact I0|].
      split.
      - intros blk s R. destruct (HP blk s (M1 _ _ R)) as [X Y]. split; [apply OWN, X|].
        intros l1 outs g0 ins l2 mid s1 E1 E2 E3. destruct (Y l1 outs g0 ins l2 mid s1 E1 E2 E3) as [Z|Z]; [left|right; exact Z].
        eapply GG_mono; [apply (gs_pre _ _ GS)|apply (gs_post _ _ GS)| |exact Z]. auto.
      - intros blk s R. apply OWN, HQ, M2, R.
    Qed.

    Notation riter' f := (riter p delay (body f) f).

    (* the iterations of the fixpoint of f, the last key of the table: the entry of f is erased,
       the other entries evolve as in a step, and the result is specified like that of
       analyze_function, relative to the fixpoints of the other heads *)
    Definition iter_ok (f : nat) (K : list nat) (en : env) (g : rgst)
               (r : (nat -> env) * (nat -> env) * rgst) : Prop :=
      (gstep (r_g g) (r_g (snd r)) /\ keys (fx (snd r)) = K /\
       (forall h E X, h <> f -> fix_find h (fx g) = Some (E, X) ->
          exists E', fix_find h (fx (snd r)) = Some (E', X) /\ forall s, genv E s -> genv E' s)) /\
      (f < length p -> In f wset -> rerr (snd r) = false -> SIc g f -> HeadsIn g -> forall n, GIn n g ->
       GIn n (snd r) /\ (forall s, genv en s -> genv (fst (fst r) 0) s) /\
       rel_ok n (fun h => reach f h /\ h <> f) f (fst (fst r) 0) g r).

    Lemma iter_err f K en g : keys (fx g) = K ++ [f] -> ~ In f K ->
      iter_ok f K en g (bot_tab, bot_tab, r_err_set (r_setfix (fix_erase f (r_fix g)) g)).
    Proof.
      intros EK NK. split; cbn [fst snd].
      - split; [apply set_err_step|]. split; [cbn; apply keys_erase_last; assumption|].
        intros h E X N H. exists E. split; [cbn; rewrite fix_find_erase_other by exact N; exact H|auto].
      - intros _ _ ER. cbn in ER. discriminate.
    Qed.

    Lemma riter_spec f : forall k it en g K X0,
      keys (fx g) = K ++ [f] -> ~ In f K -> fix_find f (fx g) = Some (en, X0) ->
      iter_ok f K en g (riter' f k it en g).
    Proof.
      induction k as [|k IH]; intros it en g K X0 EK NK FF; [apply iter_err; assumption|].
      cbn [riter].
      destruct (body f en g) as [st|] eqn:RUN; [|apply iter_err; assumption].
      pose proof (body_step f en g st RUN) as ST1.
      set (tp := se_pre env rgst st) in *. set (tq := se_post env rgst st) in *. set (g1 := se_g env rgst st) in *.
      assert (EK1 : keys (fx g1) = K ++ [f]) by (rewrite (rs_keys _ _ ST1); exact EK).
      destruct (rs_fix _ _ ST1 f en X0 FF) as (new_en & FF1 & SUB1).
      unfold fx in FF1. rewrite FF1. fold (exit_of f tq).
      destruct (e_leq new_en en && e_leq (exit_of f tq) X0) eqn:LEQ.
      - (* the fixpoint is reached *)
        apply andb_true_iff in LEQ. destruct LEQ as [LEQ1 LEQ2].
        set (g2 := r_lift (join_tables f tp tq) (r_setfix (fix_erase f (r_fix g1)) g1)).
        assert (EK2 : keys (fx g2) = K) by (cbn; apply keys_erase_last; assumption).
        assert (FO2 : forall h, h <> f -> fix_find h (fx g2) = fix_find h (fx g1)).
        { intros h N. cbn. apply fix_find_erase_other. exact N. }
        assert (GS2 : gstep (r_g g1) (r_g g2)) by apply join_tables_step.
        split; cbn [fst snd].
        + split; [eapply gstep_trans; [exact (rs_base _ _ ST1)|exact GS2]|]. split; [exact EK2|].
          intros h E X N H. destruct (rs_fix _ _ ST1 h E X H) as (E' & H' & S'). exists E'.
          split; [rewrite FO2 by exact N; exact H'|exact S'].
        + intros Lf FW ER SI HI n GI0.
          assert (ER1 : rerr g1 = false) by exact ER.
          assert (TP0 : tp 0 = en).
          { destruct (HEADV f FW Lf) as [r EW]. destruct (wto_ok p voff WF wtos WTO f Lf) as (WN & _ & _).
            rewrite EW in RUN, WN. cbn [flat cnodes app] in WN. apply NoDup_cons_iff in WN.
            exact (srun_entry_pre env rgst itv_ops _ _ _ 0 delay desc efuel r en g st (proj1 WN) RUN). }
          rewrite TP0.
          pose proof (body_sound f en g st RUN Lf SI HI) as BS.
          (* f leaves the table: the promises of the functions started from top are kept *)
          assert (FEW : forall h, (CleanTop g1 h -> CleanTop g2 h) /\ (Top g1 h -> Top g2 h)).
          { assert (KSUB : forall k0, In k0 (keys (fx g2)) -> In k0 (keys (fx g1))).
            { intros k0 I0. rewrite EK2 in I0. rewrite EK1. apply in_snoc. left. exact I0. }
            intros h. split; [apply CleanTop_fewer|apply Top_fewer]; auto. }
          split; [|split; [auto|]].
          * apply (GIn_transfer n g1 g2); [auto|apply (gs_pre _ _ GS2)|apply (gs_post _ _ GS2)| |
                                            apply (BS n (fun _ _ => True) GI0), FinA_true, ER1].
            apply GG_sub. intros h s [X|X]; [left; exact X|right; apply FEW, X].
          * intros A FN AV.
            (* the entry value of the last run is assumed for f; the assumption is valid by
               induction on the level, since the exit of that run is below the previous one *)
            set (A' := fun h (s : store) => if Nat.eqb h f then genv en s else A h s).
            assert (FN1 : FinA A' (reach f) g1).
            { split; [exact ER1|]. intros h E X H Rh s Gs. unfold A'.
              destruct (Nat.eqb_spec h f) as [->|N].
              - unfold fx in H. rewrite FF1 in H. inversion H; subst. eapply e_leq_sound; eauto.
              - apply (proj2 FN h E X); [rewrite FO2 by exact N; exact H|exact Rh|exact Gs]. }
            assert (AVJ : forall j, j <= n -> AssV j A' (reach f) g).
            { induction j as [|j IHj]; intros Lj h E X H Rh s0 s1 As Xs; [destruct Xs|].
              unfold A' in As. destruct (Nat.eqb_spec h f) as [->|N].
              - rewrite FF in H. inversion H; subst E X.
                destruct (BS j A' (GIn_level n j g ltac:(lia) GI0) FN1) as [_ BJ].
                destruct (BJ (IHj ltac:(lia))) as [_ HQ].
                eapply e_leq_sound; [exact LEQ2|]. exact (exit_sound j f (genv en) tq s0 s1 HQ As Xs).
              - exact (AssV_level n (S j) A _ g Lj AV h E X H (conj Rh N) s0 s1 As Xs). }
            destruct (BS n A' GI0 FN1) as [_ BN]. destruct (BN (AVJ n (le_n n))) as [HP HQ].
            split; [intros s0 s1 G0 XF; exact (exit_sound n f (genv en) tq s0 s1 HQ G0 XF)|].
            apply (body_cov n f A' A g1 g2 tp tq (genv en) eq_refl HP HQ).
            intros h s [[X|X]|[Rh [X|[Ih Ah]]]].
            -- left. left. left. exact X.
            -- left. left. right. apply FEW, X.
            -- left. right. split; [exact Rh|left; apply FEW, X].
            -- unfold A' in Ah. destruct (Nat.eqb_spec h f) as [->|N]; [right; split; [reflexivity|exact Ah]|].
               left. right. split; [exact Rh|right]. split; [|exact Ah].
               rewrite EK2. rewrite EK1 in Ih. apply in_snoc in Ih. destruct Ih; [assumption|contradiction].
      - (* another iteration *)
        set (ne := if delay <=? it then e_widen en new_en else e_join new_en en).
        set (nx := if delay <=? it then e_widen X0 (exit_of f tq) else e_join (exit_of f tq) X0).
        set (g' := r_setfix (fix_set f (ne, nx) (r_fix g1)) g1).
        assert (IKf : In f (keys (fx g1))) by (rewrite EK1; apply in_snoc; right; reflexivity).
        assert (EK' : keys (fx g') = keys (fx g1)) by apply keys_set.
        assert (FO' : forall h, h <> f -> fix_find h (fx g') = fix_find h (fx g1)).
        { intros h N. cbn. apply fix_find_set_other. exact N. }
        destruct (IH (S it) ne g' K nx) as [[S1 [S2 S3]] SEM];
          [rewrite EK'; exact EK1|exact NK|apply fix_find_set_same; exact IKf|].
        split.
        + split; [eapply gstep_trans; [exact (rs_base _ _ ST1)|exact S1]|]. split; [exact S2|].
          intros h E X N H. destruct (rs_fix _ _ ST1 h E X H) as (E' & H' & SB').
          destruct (S3 h E' X N) as (E'' & H'' & SB''); [rewrite FO' by exact N; exact H'|].
          exists E''. split; [exact H''|auto].
        + intros Lf FW ER SI HI n GI0.
          assert (ER1 : rerr g1 = false) by exact (gstep_fin _ _ S1 ER).
          destruct (body_sound f en g st RUN Lf SI HI n (fun _ _ => True) GI0 (FinA_true _ _ ER1)) as [GI1 _].
          destruct (SEM Lf FW ER) with (n := n) as (GI2 & SUB2 & COND).
          { pose proof (SIc_step _ _ _ ST1 SI) as [A1 A2 A3 A4 A6 A7]. constructor; try rewrite EK'; auto. }
          { intros h Ih HW. rewrite EK'. apply (HeadsIn_step _ _ ST1 HI h Ih HW). }
          { apply (GIn_ext n g1 g'); [reflexivity|exact EK'|exact GI1]. }
          split; [exact GI2|]. split.
          * intros s Gs. apply SUB2. unfold ne. destruct (delay <=? it).
            -- apply e_widen_sound. left. exact Gs.
            -- apply e_join_sound. right. exact Gs.
          * intros A FN AV. apply (COND A FN).
            intros h E X H [Rh N]. rewrite FO' in H by exact N.
            destruct (rstep_find_back _ _ _ _ _ ST1 H) as [E0 H0]. exact (AV h E0 X H0 (conj Rh N)).
    Qed.
  End Spec.

  Notation rf := (rfun p voff None exact_reuse delay desc efuel ifuel wtos cgwto wset recset).

  Lemma r_err_step g : rstep g (r_err_set g).
  Proof. apply rstep_lift. apply set_err_step. Qed.

  Lemma rfun_spec : forall d, rspec (rf d).
  Proof.
    induction d as [|d IH]; intros f entry g; unfold fun_ok.
    - cbn [rfun fst snd]. split; [intros _; apply r_err_step|]. intros ER. cbn in ER. discriminate.
    - cbn [rfun].
      set (bd := fun (en : env) (g0 : rgst) =>
                   srun env rgst itv_ops
                        (fun blk e g1 => rtr_iblock (rtr_call p voff None exact_reuse cgwto wset recset (rf d))
                                                    (fn_block (get_fn p f) blk) e g1)
                        (fn_preds (get_fn p f)) (nest_of (wtos f)) 0 delay desc efuel (wtos f) en g0).
      unfold cpre_of. destruct (nmem f wset) eqn:FWb.
      + (* a function of the widening set *)
        apply nmem_spec in FWb.
        destruct (fix_find f (r_fix g)) as [[en0 ex0]|] eqn:FF.
        { split; [intros NK|intros _ _ _ _ NK]; exfalso; apply NK; eapply fix_find_some; eauto. }
        apply fix_find_none in FF. fold (fx g) in FF.
        set (g0 := r_setfix (r_fix g ++ [(f, (entry, EBot))]) g).
        assert (EK0 : keys (fx g0) = keys (fx g) ++ [f]) by apply keys_app.
        assert (FO0 : forall h, h <> f -> fix_find h (fx g0) = fix_find h (fx g)).
        { intros h N. apply fix_find_app_other. exact N. }
        destruct (riter_spec (rf d) IH f ifuel 0 entry g0 (keys (fx g)) EBot EK0 FF) as [[S1 [S2 S3]] SEM];
          [apply fix_find_app_same; exact FF|].
        fold bd in S1, S2, S3, SEM |- *.
        set (r := riter p delay bd f ifuel 0 entry g0) in *.
        split.
        * intros _. constructor; [exact S1|exact S2|].
          intros h E X H. apply (S3 h E X); [|rewrite FO0; [exact H|]]; intros ->; apply FF; eapply fix_find_some; eauto.
        * intros ER Lf SI HX NK n GI0.
          destruct (si_last _ _ SI) as [K EK].
          destruct (SEM Lf FWb ER) with (n := n) as (GI2 & SUB2 & COND).
          { destruct SI as [A1 A2 A3 A4 A6 A7]. constructor; auto.
            intros h Ih. rewrite EK0 in Ih. apply in_snoc in Ih. destruct Ih as [Ih| ->]; [exact (A6 h Ih)|].
              split; [exact FWb|]. change (stk g0) with (stk g). rewrite EK. apply in_snoc. right. reflexivity. }
          { intros h Ih HW. rewrite EK0. apply in_snoc. destruct (Nat.eq_dec h f) as [->|N]; [right; reflexivity|left].
            apply HX; assumption. }
          { apply (GIn_transfer n g g0); auto. apply GG_sub. intros h s [X|X]; [left; exact X|right].
            eapply (CleanTop_insert g g0 f K); eauto. apply (si_nodup _ _ SI). }
          split; [exact GI2|]. split; [exact SUB2|].
          intros A FN AV. apply (COND A FN).
          intros h E X H [Rh N]. rewrite FO0 in H by exact N. exact (AV h E X H Rh).
      + (* a function that is not iterated *)
        apply nmem_false in FWb.
        match goal with |- context [match ?X with Some _ => _ | None => _ end] => destruct X as [st|] eqn:RUN end.
        2:{ cbn [fst snd]. split; [intros _; apply r_err_step|]. intros ER. cbn in ER. discriminate. }
        cbn [fst snd].
        pose proof (body_step (rf d) IH f entry g st RUN) as ST1.
        set (tp := se_pre env rgst st) in *. set (tq := se_post env rgst st) in *. set (g1 := se_g env rgst st) in *.
        set (g2 := r_lift (join_tables f tp tq) g1).
        assert (ST2 : rstep g1 g2) by (apply rstep_lift; intros; apply join_tables_step).
        split; [intros _; eapply rstep_trans; eauto|].
        intros ER Lf SI HX NK n GI0.
        assert (HI : HeadsIn g).
        { intros h Ih HW. apply HX; auto. intros ->. contradiction. }
        pose proof (body_sound (rf d) IH f entry g st RUN Lf SI HI n) as BS.
        split; [|split; [auto|]].
        * apply (GIn_transfer n g1 g2); auto; [apply (gs_pre _ _ (rs_base _ _ ST2))|apply (gs_post _ _ (rs_base _ _ ST2))|].
          apply (BS (fun _ _ => True) GI0), FinA_true, ER.
        * intros A FN AV. destruct (BS A GI0 FN) as [_ BA]. destruct (BA AV) as [HP HQ].
          split; [intros s0 s1 G0 XF; exact (exit_sound n f (genv entry) tq s0 s1 HQ G0 XF)|].
          apply (body_cov n f A A g1 g2 tp tq (genv entry) eq_refl HP HQ). intros h s X. left. exact X.
  Qed.
  End WithRoot.

  Notation rf := (rfun p voff None exact_reuse delay desc efuel ifuel wtos cgwto wset recset).

  Definition RootOf (done : list nat) (init : env) : nat -> store -> Prop :=
    fun g0 s0 => In g0 done /\ genv init s0.

  Definition run_inv (init : env) (done : list nat) (g : rgst) : Prop :=
    (forall n, GIn (RootOf done init) n g) /\
    forall f n s0, In f done -> genv init s0 -> GG p n (tpre g) (tpost g) (RootOf done init) f s0.
  Definition Inv0 (g : rgst) : Prop := stk g = [] /\ keys (fx g) = [].

  Notation runf depth init := (fun g f => r_lift pop (snd (rf depth f init (r_lift (push f) g)))).

  Lemma SP_empty R g h s : stk g = [] -> SP R g h s -> R h s.
  Proof. intros E [X|[(I & _) _]]; [exact X|]. rewrite E in I. destruct I. Qed.

  Lemma run_one_struct depth init g f : Inv0 g ->
    Inv0 (runf depth init g f) /\ rstep (r_lift (push f) g) (snd (rf depth f init (r_lift (push f) g))).
  Proof.
    intros [ES EK].
    destruct (rfun_spec (fun _ _ => False) depth f init (r_lift (push f) g)) as [ST _].
    assert (NK : ~ In f (keys (fx (r_lift (push f) g)))) by (change (fx (r_lift (push f) g)) with (fx g); rewrite EK; intros []).
    specialize (ST NK). split; [|exact ST]. split.
    - unfold stk. cbn. fold (stk (snd (rf depth f init (r_lift (push f) g)))). rewrite (rstep_stk _ _ ST).
      unfold stk. cbn. fold (stk g). rewrite ES. reflexivity.
    - exact (eq_trans (rs_keys _ _ ST) EK).
  Qed.

  Lemma run_one depth init done g f :
    Inv0 g -> run_inv init done g -> f < length p -> Reach f -> Ent f -> (In f recset -> In f wset) ->
    rerr (runf depth init g f) = false -> run_inv init (f :: done) (runf depth init g f).
  Proof.
    intros [ES EK] [GI0 RC] Lf Rf Ef ENT FN.
    set (R := RootOf done init). set (R' := RootOf (f :: done) init).
    set (gp := r_lift (push f) g).
    destruct (rfun_spec R depth f init gp) as [_ SPEC].
    destruct (run_one_struct depth init g f (conj ES EK)) as [_ ST]. fold gp in ST.
    set (r := rf depth f init gp) in *.
    assert (ESp : stk gp = [f]) by (unfold gp, stk; cbn; fold (stk g); rewrite ES; reflexivity).
    assert (ESr : stk (snd r) = [f]) by (rewrite (rstep_stk _ _ ST); exact ESp).
    assert (EKr : keys (fx (snd r)) = []) by (rewrite (rs_keys _ _ ST); exact EK).
    assert (ER : rerr (snd r) = false) by exact FN.
    assert (SIp : SIc gp f).
    { constructor; rewrite ?ESp; change (fx gp) with (fx g); rewrite ?EK.
      - constructor; [intros []|constructor].
      - exists []. reflexivity.
      - intros h [<-|[]]. exact Rf.
      - exact I.
      - intros h [].
      - exact Ef. }
    assert (HXp : HeadsInX gp f).
    { intros h Ih _ N. rewrite ESp in Ih. destruct Ih as [Ih|[]]. congruence. }
    assert (NKp : ~ In f (keys (fx gp))) by (change (fx gp) with (fx g); rewrite EK; intros []).
    assert (R'sub : forall h s, R h s -> R' h s) by (intros h s [X Y]; split; [right; exact X|exact Y]).
    (* the entry function of the recursive set is a head: nothing on the stack started from top *)
    assert (SPR : forall h s, SP R (snd r) h s -> R' h s).
    { intros h s [X|[(Ih & Br & NW & _) _]]; [apply R'sub; exact X|].
      rewrite ESr in Ih. destruct Ih as [<-|[]]. exfalso. apply NW, ENT, Br. }
    assert (RES : forall n, GIn R n (snd r) /\
                            forall s0, genv init s0 -> GG p n (tpre (snd r)) (tpost (snd r)) R' f s0).
    { intros n. destruct (SPEC ER Lf SIp HXp NKp n) as (GI1 & SUBE & COND).
      { apply (GIn_transfer R n g gp); auto. apply GG_sub. intros h s X. left. exact (SP_empty R g h s ES X). }
      split; [exact GI1|]. intros s0 G0.
      destruct (COND (fun _ _ => True) (FinA_true _ _ ER)) as [_ COV].
      { intros h E X H. apply fix_find_some in H. change (fx gp) with (fx g) in H. rewrite EK in H. destruct H. }
      apply (GG_sub p n _ _ (PR R (reach f) (fun _ _ => True) (snd r))); [|apply COV, SUBE, G0].
      intros h s [X|[_ [TP|[Ih _]]]]; [apply SPR; exact X|apply (SPR h s); right; apply Top_nokeys_clean; assumption|].
      rewrite EKr in Ih. destruct Ih. }
    split.
    - intros n f' c IC. destruct (proj1 (RES n) f' c IC) as [SO CC]. split; [exact SO|].
      intros s0 G0. apply (GG_sub p n _ _ (SP R (snd r))); [|apply CC, G0]. intros h s X. left. apply SPR, X.
    - intros f' n s0 [<-|If] G0; [apply RES, G0|].
      eapply GG_mono; [apply (gs_pre _ _ (rs_base _ _ ST))|apply (gs_post _ _ (rs_base _ _ ST))|exact R'sub|].
      apply RC; assumption.
  Qed.

  Lemma run_all depth init : forall l done g,
    Inv0 g -> (rerr g = false -> run_inv init done g) ->
    (forall f, In f l -> f < length p /\ Reach f /\ Ent f /\ (In f recset -> In f wset)) ->
    Inv0 (fold_left (runf depth init) l g) /\
    (rerr (fold_left (runf depth init) l g) = false -> run_inv init (rev l ++ done) (fold_left (runf depth init) l g)).
  Proof.
    induction l as [|f l IH]; intros done g I0 INV H; cbn [fold_left rev app]; [split; assumption|].
    destruct (run_one_struct depth init g f I0) as [I1 ST].
    rewrite <- app_assoc. cbn [app].
    apply IH; [exact I1| |intros f' I'; apply H; right; exact I'].
    intros FN. destruct (H f (or_introl eq_refl)) as (Lf & Rf & Ef & ENT).
    apply run_one; auto. apply INV.
    assert (E1 : rerr (snd (rf depth f init (r_lift (push f) g))) = false) by exact FN.
    exact (rstep_err _ _ ST E1).
  Qed.

  Theorem rec_run_sound_gen depth entries init :
    (forall f, In f entries -> f < length p /\ Reach f /\ Ent f /\ (In f recset -> In f wset)) ->
    let g := rec_run p voff None exact_reuse delay desc efuel ifuel wtos cgwto wset recset depth entries init in
    g_err (r_g g) = false ->
    forall Init : store -> Prop, (forall s, Init s -> genv init s) ->
    (forall f n s, IRPre p entries Init f n s -> genv (g_pre (r_g g) f n) s) /\
    (forall f n s, IRPost p entries Init f n s -> genv (g_post (r_g g) f n) s) /\
    (forall sm, In sm (g_summaries p (r_g g)) ->
       forall s0 s1, genv (s_pre sm) s0 -> exec_fun p (s_fn sm) s0 s1 -> genv (s_post sm) s1).
  Proof.
    intros HE g FN Init HI.
    assert (I0 : Inv0 rg0) by (split; reflexivity).
    assert (INV0 : rerr rg0 = false -> run_inv init [] rg0).
    { intros _. split; [intros n f c []|intros f n s0 []]. }
    destruct (run_all depth init entries [] rg0 I0 INV0 HE) as [[ES EK] INV].
    change (fold_left (runf depth init) entries rg0) with g in ES, EK, INV.
    specialize (INV FN). rewrite app_nil_r in INV. destruct INV as [GIf RC].
    set (R := RootOf (rev entries) init) in *.
    (* the promises of the finished entry functions are discharged *)
    assert (TAB : forall n, (forall f blk s, GIRPre p (xfun p n) entries Init f blk s -> genv (tpre g f blk) s) /\
                            (forall f blk s, GIRPost p (xfun p n) entries Init f blk s -> genv (tpost g f blk) s)).
    { intros n. apply GG_tables. intros f s If Is.
      apply (GG_cut p n _ _ R _ R); [auto|intros f' s' [If' Gs]; exact (RC f' n s' If' Gs)|].
      apply RC; [apply -> in_rev; exact If|apply HI; exact Is]. }
    split; [|split].
    - intros f blk s X. destruct (proj1 (IR_strat p entries Init) f blk s X) as [n Xn]. exact (proj1 (TAB n) f blk s Xn).
    - intros f blk s X. destruct (proj2 (IR_strat p entries Init) f blk s X) as [n Xn]. exact (proj2 (TAB n) f blk s Xn).
    - intros sm I s0 s1 Gs XF. unfold g_summaries in I. apply in_flat_map in I.
      destruct I as (f & _ & I). apply in_map_iff in I. destruct I as (c & <- & IC).
      cbn [s_fn s_pre s_post] in *.
      destruct (exec_fun_strat p _ _ _ XF) as [n Xn].
      destruct (GIf n f c IC) as [(sum & EQ & SS) _]. rewrite EQ.
      apply (e_project_sound _ _ s1); [apply (SS s0 s1); auto|auto].
  Qed.
End Model.

Fixpoint schain (g : graph) (l : list nat) : Prop :=
  match l with
  | a :: (b :: _) as r => In b (succs g a) /\ schain g r
  | _ => True
  end.

Lemma nest_ok1_sound g f hs : nest_ok1 g f hs = true ->
  forall K, schain g (f :: K) -> In f (succs g (last K f)) -> exists m, In m hs /\ In m K.
Proof.
  unfold nest_ok1.
  set (init := filter (fun v => negb (nmem v hs)) (succs g f)).
  set (R := closeN g hs (length g) init).
  intros H. repeat (apply andb_true_iff in H; destruct H as [H ?]).
  rename H into NH, H2 into NF, H1 into INIT, H0 into CL.
  apply negb_true_iff in NH, NF. apply nmem_false in NH, NF.
  rewrite forallb_forall in INIT, CL.
  (* along a chain from f that meets no head of hs, every function is in R *)
  assert (A : forall K a, (a = f \/ In a R) -> schain g (a :: K) ->
                          (exists m, In m hs /\ In m K) \/ last K a = f \/ In (last K a) R).
  { induction K as [|b K' IH]; intros a Ha C; [right; exact Ha|].
    destruct C as [E C']. rewrite last_cons.
    destruct (nmem b hs) eqn:Hb; [left; exists b; split; [apply nmem_spec; exact Hb|left; reflexivity]|].
    destruct (IH b) as [(m & X & Y)|X]; [right|exact C'|left; exists m; split; [exact X|right; exact Y]|right; exact X].
    apply nmem_spec. destruct Ha as [->|Ha].
    - apply INIT, filter_In. split; [exact E|]. rewrite Hb. reflexivity.
    - specialize (CL a Ha). rewrite forallb_forall in CL. specialize (CL b E). rewrite Hb in CL. exact CL. }
  intros K C E. destruct (A K f (or_introl eq_refl) C) as [X|[U|U]]; [exact X| |]; exfalso.
  - rewrite U in E. apply NF, nmem_spec, INIT, filter_In. split; [exact E|].
    apply negb_true_iff, nmem_false. exact NH.
  - specialize (CL _ U). rewrite forallb_forall in CL. specialize (CL f E).
    apply orb_true_iff in CL. destruct CL as [X|X]; apply nmem_spec in X; contradiction.
Qed.

Lemma chain_schain p : forall l, chain p l -> schain (cg_graph p) l.
Proof.
  induction l as [|a r IH]; [intros _; exact I|]. destruct r as [|b r']; [intros _; exact I|].
  intros [E C]. split; [apply cg_edge_succs; exact E|apply IH; exact C].
Qed.

Lemma cg_edge_callee_lt p voff : iprog_wfb p voff = true -> forall a f, cg_edge p a f -> f < length p.
Proof.
  intros WF a f E. pose proof (cg_edge_lt p a f E) as La. destruct E as (n & outs & ins & I).
  destruct (fn_wf p voff WF a La) as (_ & _ & _ & _ & Wb).
  destruct (call_wf _ _ _ _ _ _ (Wb n _ I)) as (Lf & _). exact Lf.
Qed.

Lemma nest_okb_sound p voff cgwto wset entries : iprog_wfb p voff = true -> nest_okb p cgwto wset entries = true ->
  forall e f hs K, In e entries -> nesting (cgwto e) f = Some hs -> ~ In f wset -> reach p e f ->
    chain p (f :: K) -> cg_edge p (last K f) f -> exists m, In m hs /\ In m K.
Proof.
  intros WF H e f hs K Ie NE NW RE C E. unfold nest_okb in H. rewrite forallb_forall in H.
  assert (Lf : f < length p) by (eapply cg_edge_callee_lt; eauto).
  assert (He := H e Ie). rewrite forallb_forall in He.
  specialize (He f ltac:(apply in_seq; lia)). rewrite NE in He.
  apply orb_true_iff in He. destruct He as [X|X]; [apply nmem_spec in X; contradiction|].
  apply (nest_ok1_sound _ _ _ X K (chain_schain p _ C)). apply cg_edge_succs. exact E.
Qed.

Theorem td_rec_model_sound p voff exact_reuse delay desc efuel ifuel wtos cgwto wset recset depth entries init :
  iprog_wfb p voff = true ->
  (forall f, f < length p -> build (fn_graph (get_fn p f)) 0 = Some (wtos f)) ->
  (forall f, In f entries -> f < length p) ->
  (forall f, cg_reach p entries f -> cg_path p f f -> In f recset) ->
  let g := rec_run_checked p voff None exact_reuse delay desc efuel ifuel wtos cgwto wset recset depth entries init in
  g_err (r_g g) = false ->
  forall Init : store -> Prop, (forall s, Init s -> genv init s) ->
  (forall f n s, IRPre p entries Init f n s -> genv (g_pre (r_g g) f n) s) /\
  (forall f n s, IRPost p entries Init f n s -> genv (g_post (r_g g) f n) s) /\
  (forall sm, In sm (g_summaries p (r_g g)) ->
     forall s0 s1, genv (s_pre sm) s0 -> exec_fun p (s_fn sm) s0 s1 -> genv (s_post sm) s1).
Proof.
  intros WF WTO HL REC. unfold rec_run_checked.
  destruct (rec_cfg_okb p wtos cgwto wset recset entries) eqn:CFG; [|intros g FN; cbn in FN; discriminate].
  unfold rec_cfg_okb in CFG. apply andb_true_iff in CFG. destruct CFG as [CFG NEST].
  apply andb_true_iff in CFG. destruct CFG as [HV ENT].
  apply (rec_run_sound_gen p voff WF exact_reuse delay desc efuel ifuel wtos cgwto wset recset WTO)
    with (Reach := cg_reach p entries) (Ent := fun e => In e entries).
  - intros f FW _. unfold headv_okb in HV. rewrite forallb_forall in HV. specialize (HV f FW).
    destruct (wtos f) as [|[[|k]|h b] r]; try discriminate. exists r. reflexivity.
  - intros f g (e & I & P) E. exists e. split; [exact I|].
    eapply rt_trans; [exact P|apply rt_step; exact E].
  - exact REC.
  - intros e f hs K Ie. apply (nest_okb_sound p voff cgwto wset entries WF NEST e f hs K Ie).
  - intros f I. split; [apply HL, I|]. split; [exists f; split; [exact I|apply rt_refl]|]. split; [exact I|].
    intros IR. unfold ent_okb in ENT. rewrite forallb_forall in ENT. specialize (ENT f I).
    apply nmem_spec in IR. rewrite IR in ENT. cbn in ENT. apply nmem_spec. exact ENT.
Qed.

(* entries, call graph orderings, widening set and recursive set as the analyzer computes them *)
Theorem td_rec_model_sound_cfg p voff exact_reuse delay desc efuel ifuel wtos rs depth init :
  iprog_wfb p voff = true ->
  (forall f, f < length p -> build (fn_graph (get_fn p f)) 0 = Some (wtos f)) ->
  cg_recset p = Some rs ->
  let g := rec_run_checked p voff None exact_reuse delay desc efuel ifuel wtos (cg_wto p) (cg_wset p) rs depth
                           (cg_entries p) init in
  g_err (r_g g) = false ->
  forall Init : store -> Prop, (forall s, Init s -> genv init s) ->
  (forall f n s, IRPre p (cg_entries p) Init f n s -> genv (g_pre (r_g g) f n) s) /\
  (forall f n s, IRPost p (cg_entries p) Init f n s -> genv (g_post (r_g g) f n) s) /\
  (forall sm, In sm (g_summaries p (r_g g)) ->
     forall s0 s1, genv (s_pre sm) s0 -> exec_fun p (s_fn sm) s0 s1 -> genv (s_post sm) s1).
Proof.
  intros WF WTO RS. apply td_rec_model_sound; auto.
  - apply cg_entries_lt.
  - apply cg_recset_ok. exact RS.
Qed.
