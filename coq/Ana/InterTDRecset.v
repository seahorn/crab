(* InterTDRecset.v — the recursive set computed by the model of the top-down analyzer
   (cg_recset: the nodes of the cycles of the weak topological orderings of the call graph built
   from every entry) contains every function that is reachable from an entry and lies on a call
   graph cycle: the hypothesis of Ana/InterTDModelSound.v on the recursive set holds for the
   model's own configuration.  Also: an executable sufficient test for an arbitrary recursive
   set (rec_okb), and the entries computed by the model are functions of the program. *)
From Coq Require Import ZArith NArith List Bool Arith Lia Relations.
From CrabV Require Import Base.ZInf Scalar.Itv Ir.Syntax Ir.Cfg Dom.ItvEnv Dom.ItvEnvSound Dom.ItvDomain Ana.Transformer Fix.Wto Fix.WtoCheck Fix.WtoSound Fix.EngineRel
     Ana.InterSyntax Ana.InterSem Ana.InterTD Ana.InterTDModelSound.
Import ListNotations.

Lemma insert_nat_In x y : forall l, In x (insert_nat y l) <-> x = y \/ In x l.
Proof.
  induction l as [|h t IH]; cbn [insert_nat].
  - cbn [In]. split; intros [H|[]]; left; congruence.
  - destruct (y <? h).
    + cbn [In]. split; (intros [H|H]; [left; congruence|right; exact H]).
    + destruct (Nat.eqb_spec y h) as [->|N].
      * cbn [In]. split; [intros H; right; exact H|intros [->|H]; [left; reflexivity|exact H]].
      * cbn [In]. rewrite IH. tauto.
Qed.

Lemma cg_succs_In p f v : In v (cg_succs p f) <-> In v (callees_of (get_fn p f)).
Proof.
  unfold cg_succs. induction (callees_of (get_fn p f)) as [|h t IH]; cbn [fold_right]; [tauto|].
  rewrite insert_nat_In, IH. cbn [In]. split; (intros [H|H]; [left; congruence|right; exact H]).
Qed.

Lemma cg_edge_lt p f g : cg_edge p f g -> f < length p.
Proof.
  intros (n & outs & ins & I). destruct (Nat.lt_ge_cases f (length p)) as [L|L]; auto.
  exfalso. unfold get_fn in I. rewrite nth_overflow in I by exact L.
  unfold fn_block, dummy_func in I. cbn in I. destruct n; destruct I.
Qed.

Lemma cg_edge_callees p f g : cg_edge p f g <-> In g (callees_of (get_fn p f)).
Proof.
  unfold callees_of. split.
  - intros (n & outs & ins & I). apply in_flat_map. exists (fn_block (get_fn p f) n).
    split; [eapply fn_block_in; eauto|]. apply in_flat_map. exists (ICall outs g ins). split; [exact I|left; reflexivity].
  - intros I. apply in_flat_map in I. destruct I as (b & Ib & I). apply in_flat_map in I.
    destruct I as (st & Is & I). destruct st as [s|outs g' ins]; [destruct I|]. destruct I as [<-|[]].
    apply In_nth with (d := []) in Ib. destruct Ib as (n & _ & E).
    exists n, outs, ins. unfold fn_block. subst b. exact Is.
Qed.

Lemma cg_graph_succs p f : f < length p -> succs (cg_graph p) f = cg_succs p f.
Proof.
  intros L. unfold succs, cg_graph.
  rewrite (nth_indep _ [] (cg_succs p 0)) by (rewrite map_length, seq_length; exact L).
  rewrite map_nth, seq_nth by exact L. reflexivity.
Qed.

Lemma cg_edge_succs p f g : cg_edge p f g -> In g (succs (cg_graph p) f).
Proof.
  intros E. rewrite cg_graph_succs by (eapply cg_edge_lt; eauto).
  apply cg_succs_In, cg_edge_callees, E.
Qed.

Lemma cg_reach_reachable p e f : clos_refl_trans nat (cg_edge p) e f -> reachable (cg_graph p) e f.
Proof.
  intros H. apply clos_rt_rtn1 in H. induction H as [|y z E _ IH]; [apply reach_refl|].
  apply reach_step with y; [exact IH|apply cg_edge_succs, E].
Qed.

Lemma cycle_nodes_true : forall c, cycle_nodes true c = cnodes c.
Proof.
  induction c as [n|h body IH] using comp_ind'; [reflexivity|].
  rewrite cnodes_cycle. cbn [cycle_nodes]. f_equal.
  induction body as [|c r IHr]; [reflexivity|].
  inversion IH as [|? ? Hc Hr]; subst. cbn [flat]. rewrite Hc, (IHr Hr). reflexivity.
Qed.

Lemma cycle_nodes_cycle b h body : cycle_nodes b (Cycle h body) = h :: flat body.
Proof.
  cbn [cycle_nodes]. f_equal. induction body as [|c r IH]; [reflexivity|].
  cbn [flat]. rewrite cycle_nodes_true, IH. reflexivity.
Qed.

(* a node of the ordering that is in no cycle is a top-level vertex *)
Lemma not_cycle_vertex w f : In f (flat w) -> ~ In f (flat_map (cycle_nodes false) w) -> In (Vertex f) w.
Proof.
  intros I N. apply in_flat in I. destruct I as (c & Ic & I). destruct c as [n|h body].
  - destruct I as [->|[]]. exact Ic.
  - exfalso. apply N. apply in_flat_map. exists (Cycle h body). split; [exact Ic|].
    rewrite cycle_nodes_cycle. rewrite cnodes_cycle in I. exact I.
Qed.

(* no cycle of the graph goes through a top-level vertex of a well-formed ordering *)
Section TopVertex.
  Variable g : graph.
  Variable e : nat.
  Variable w : wto.
  Variable nst : nat -> option (list nat).
  Variable dom : list nat.
  Hypothesis W : WF g e w nst dom.

  Definition gedge (u v : nat) : Prop := reachable g e u /\ In v (succs g u).

  Lemma edge_lok u v : gedge u v -> In v (flat w) /\ lok w u v.
  Proof.
    intros [R S]. split.
    - apply (wf_reach _ _ _ _ _ W). apply reach_step with u; assumption.
    - exact (wf_edge _ _ _ _ _ W u v R S).
  Qed.

  (* an edge does not go from a suffix of the ordering back to the components before it *)
  Lemma suffix_closed a b u v : w = a ++ b -> gedge u v -> In u (flat b) -> In v (flat b).
  Proof.
    intros E G Iu. destruct (edge_lok u v G) as [Iv L]. pose proof (wf_nodup _ _ _ _ _ W) as ND.
    rewrite E in Iv, L, ND. rewrite flat_app in Iv. apply in_app_or in Iv.
    destruct Iv as [Iv|Iv]; [destruct (lok_app_back a b u v ND Iu Iv L)|exact Iv].
  Qed.

  Lemma lok_vertex_self f : ~ lok [Vertex f] f f.
  Proof.
    intros [L|L].
    - destruct L as [l1 [l2 [l3 L]]]. cbn in L.
      destruct l1 as [|a l1]; cbn [app] in L; inversion L as [[L1 L2]].
      + destruct l2; discriminate.
      + destruct l1; discriminate.
    - destruct L as [c [[<-|[]] L]]. inversion L.
  Qed.

  Variable f : nat.
  Variables w1 w2 : list comp.
  Hypothesis EW : w = w1 ++ Vertex f :: w2.

  Lemma ND_w : NoDup (flat (w1 ++ Vertex f :: w2)).
  Proof. rewrite <- EW. exact (wf_nodup _ _ _ _ _ W). Qed.

  Lemma after_vertex u v : gedge u v -> u = f \/ In u (flat w2) -> In v (flat w2).
  Proof.
    intros E [->|Iu].
    - assert (If : In f (flat (Vertex f :: w2))) by (left; reflexivity).
      destruct (suffix_closed w1 (Vertex f :: w2) f v EW E If) as [<-|Iv]; [exfalso|exact Iv].
      (* an edge from f to itself *)
      pose proof ND_w as ND. pose proof (proj2 (edge_lok f f E)) as L. rewrite EW in L.
      apply (lok_app_right w1 (Vertex f :: w2) f f ND If If) in L.
      rewrite flat_app in ND. apply nodup_app_r in ND.
      apply (lok_vertex_self f), (lok_app_left [Vertex f] w2 f f ND); auto; left; reflexivity.
    - apply (suffix_closed (w1 ++ [Vertex f]) w2 u v); [rewrite <- app_assoc; exact EW|exact E|exact Iu].
  Qed.

  Lemma path_after : forall u x, clos_trans_1n nat gedge u x -> u = f \/ In u (flat w2) -> In x (flat w2).
  Proof.
    induction 1 as [u x E|u y z E _ IH]; intros H.
    - eapply after_vertex; eauto.
    - apply IH. right. eapply after_vertex; eauto.
  Qed.

  Lemma no_cycle_top_vertex : ~ clos_trans nat gedge f f.
  Proof.
    intros P. apply clos_trans_t1n in P.
    pose proof (path_after f f P (or_introl eq_refl)) as I.
    pose proof ND_w as ND. rewrite flat_app in ND. apply nodup_app_r in ND.
    cbn [flat cnodes app] in ND. inversion ND. contradiction.
  Qed.
End TopVertex.

Lemma cg_path_gedge p e : forall f x, reachable (cg_graph p) e f -> cg_path p f x ->
  clos_trans nat (gedge (cg_graph p) e) f x /\ reachable (cg_graph p) e x.
Proof.
  intros f x R P. apply clos_trans_tn1 in P. induction P as [y E|y z E _ IH].
  - split; [apply t_step; split; [exact R|apply cg_edge_succs, E]|].
    apply reach_step with f; [exact R|apply cg_edge_succs, E].
  - destruct IH as [IH1 IH2]. split.
    + eapply t_trans; [exact IH1|]. apply t_step. split; [exact IH2|apply cg_edge_succs, E].
    + apply reach_step with y; [exact IH2|apply cg_edge_succs, E].
Qed.

Lemma recset_fold p : forall l acc rs,
  fold_left (fun acc e =>
               match acc, build (cg_graph p) e with
               | Some l, Some w => Some (l ++ flat_map (cycle_nodes false) w)
               | _, _ => None
               end) l acc = Some rs ->
  (exists a, acc = Some a /\ incl a rs) /\
  forall e, In e l -> exists w, build (cg_graph p) e = Some w /\ incl (flat_map (cycle_nodes false) w) rs.
Proof.
  induction l as [|e l IH]; intros acc rs H; cbn [fold_left] in H.
  - split; [exists rs; split; [exact H|apply incl_refl]|intros e []].
  - destruct (IH _ _ H) as [(a' & E' & I') IHl].
    destruct acc as [a|]; [|discriminate].
    destruct (build (cg_graph p) e) as [w|] eqn:B; [|discriminate].
    inversion E'; subst a'. split.
    + exists a. split; [reflexivity|]. intros x X. apply I'. apply in_or_app. left. exact X.
    + intros e' [<-|I].
      * exists w. split; [exact B|]. intros x X. apply I'. apply in_or_app. right. exact X.
      * apply IHl, I.
Qed.

Theorem cg_recset_ok p rs : cg_recset p = Some rs ->
  forall f, cg_reach p (cg_entries p) f -> cg_path p f f -> In f rs.
Proof.
  intros H f (e & Ie & R) P. unfold cg_recset in H.
  destruct (recset_fold p _ _ _ H) as [_ HE]. destruct (HE e Ie) as (w & B & INC).
  pose proof (build_WF _ _ _ B) as W.
  pose proof (cg_reach_reachable p e f R) as RF.
  destruct (in_dec Nat.eq_dec f (flat_map (cycle_nodes false) w)) as [I|N]; [apply INC, I|].
  exfalso.
  assert (If : In f (flat w)) by (apply (wf_reach _ _ _ _ _ W); exact RF).
  pose proof (not_cycle_vertex w f If N) as IV. apply in_split in IV. destruct IV as (w1 & w2 & EW).
  apply (no_cycle_top_vertex (cg_graph p) e w _ _ W f w1 w2 EW).
  apply (cg_path_gedge p e f f RF P).
Qed.

Lemma cg_entries_lt p f : In f (cg_entries p) -> f < length p.
Proof.
  unfold cg_entries. intros I.
  assert (J : In f (seq 0 (length p))).
  { destruct (filter _ (seq 0 (length p))) as [|x l] eqn:E; [exact I|].
    rewrite <- E in I. apply filter_In in I. tauto. }
  apply in_seq in J. lia.
Qed.

(* an executable test for any recursive set:
   rank does not increase along call edges and, where it stays the same, the caller is in the
   recursive set: then every function on a call graph cycle is in the recursive set *)
Definition rec_okb (p : iprog) (recset : list nat) (rank : nat -> nat) : bool :=
  forallb (fun f => forallb (fun g => (rank g <? rank f) || (Nat.eqb (rank g) (rank f) && nmem f recset))
                            (callees_of (get_fn p f)))
          (seq 0 (length p)).

Lemma rec_okb_sound p recset rank : rec_okb p recset rank = true ->
  forall f, cg_path p f f -> In f recset.
Proof.
  intros H.
  assert (E : forall f g, cg_edge p f g -> rank g < rank f \/ (rank g = rank f /\ In f recset)).
  { intros f g X. pose proof (cg_edge_lt p f g X) as L. apply cg_edge_callees in X.
    unfold rec_okb in H. rewrite forallb_forall in H.
    assert (J : In f (seq 0 (length p))) by (apply in_seq; lia).
    specialize (H f J). rewrite forallb_forall in H. specialize (H g X).
    apply orb_true_iff in H. destruct H as [H|H].
    - left. apply Nat.ltb_lt. exact H.
    - right. apply andb_true_iff in H. destruct H as [H1 H2]. apply Nat.eqb_eq in H1.
      apply nmem_spec in H2. auto. }
  assert (Q : forall f g, cg_path p f g -> rank g <= rank f /\ (rank g = rank f -> In f recset)).
  { intros f g X. induction X as [x y X|x y z _ [A1 A2] _ [B1 B2]].
    - destruct (E x y X) as [L|[L I]]; split; try lia; auto.
    - split; [lia|]. intros EQ. apply A2. lia. }
  intros f X. apply (Q f f X). reflexivity.
Qed.

(* the model's own configuration:
   entries and recursive set computed from the call graph as the analyzer does *)
Theorem td_model_sound_cfg p voff exact_reuse delay desc efuel wtos rs depth init :
  iprog_wfb p voff = true ->
  (forall f, f < length p -> build (fn_graph (get_fn p f)) 0 = Some (wtos f)) ->
  cg_recset p = Some rs ->
  let g := td_run p voff None exact_reuse delay desc efuel wtos rs depth (cg_entries p) init in
  g_err g = false ->
  forall Init : store -> Prop, (forall s, Init s -> genv init s) ->
  (forall f n s, IRPre p (cg_entries p) Init f n s -> genv (g_pre g f n) s) /\
  (forall f n s, IRPost p (cg_entries p) Init f n s -> genv (g_post g f n) s) /\
  (forall sm, In sm (g_summaries p g) ->
     forall s0 s1, genv (s_pre sm) s0 -> exec_fun p (s_fn sm) s0 s1 ->
                   genv (s_post sm) s1).
Proof.
  intros WF WTO RS.
  apply (td_model_sound p voff exact_reuse delay desc efuel wtos rs depth (cg_entries p) init WF WTO
           (cg_entries_lt p) (cg_recset_ok p rs RS)).
Qed.

(* a recursive entry function (fixes/inter-6):
   f(a) { if (a >= 1) r := f(a - 1) else r := 0 } is the only function, hence the entry; the
   initial value is a = 5.  Its recursive call is replaced by top and never analysed, so f is
   analysed from top: the activation with a = 4 enters block 0 in a state of the table (before
   the repair the table had a = 5 only). *)
Definition re_prog : iprog :=
  [mkFunc [0%N] [1%N]
     [[];
      [IBase (SAssume (mkLC INEQ (mkLE [((-1)%Z, 0%N)] 1%Z)));
       IBase (SArith OpSub 2%N 0%N (OCst 1%Z)); ICall [1%N] 0 [2%N]];
      [IBase (SAssume (mkLC INEQ (mkLE [(1%Z, 0%N)] 0%Z))); IBase (SAssign 1%N (mkLE [] 0%Z))];
      []]
     [(0, 1); (0, 2); (1, 3); (2, 3)] (Some 3)].
Definition re_init : env := tr_stmt (SAssign 0%N (mkLE [] 5%Z)) e_top.

Theorem recursive_entry_example :
  exists w0 rs s,
    build (fn_graph (get_fn re_prog 0)) 0 = Some w0 /\ cg_recset re_prog = Some rs /\
    cg_entries re_prog = [0] /\ iprog_wfb re_prog (prog_voff re_prog) = true /\
    let g := td_run re_prog (prog_voff re_prog) None true 2 2 100 (fun _ => w0) rs 5 [0] re_init in
    g_err g = false /\
    IRPre re_prog [0] (genv re_init) 0 0 s /\ s 0%N = 4%Z /\ genv (g_pre g 0 0) s /\
    e_at (g_pre g 0 0) 0%N = itop /\ e_at (g_post g 0 2) 0%N = mkI MInf (Fin 0%Z).
Proof.
  set (s5 := fun k : var => if N.eqb k 0 then 5%Z else 0%Z).
  set (s4 := fun k : var => if N.eqb k 0 then 4%Z else 0%Z).
  eexists. eexists. exists s4.
  split; [vm_compute; reflexivity|]. split; [vm_compute; reflexivity|].
  split; [vm_compute; reflexivity|]. split; [vm_compute; reflexivity|].
  cbv zeta. split; [vm_compute; reflexivity|]. split; [|split; [reflexivity|split]].
  - assert (A : IRPre re_prog [0] (genv re_init) 0 0 s5).
    { apply IR_init; [left; reflexivity|]. apply InterTDSound.menv_true. vm_compute. reflexivity. }
    assert (B : IRPost re_prog [0] (genv re_init) 0 0 s5).
    { apply IR_post with s5; [exact A|]. apply XB_nil. }
    assert (C : IRPre re_prog [0] (genv re_init) 0 1 s5).
    { apply IR_edge with 0; [left; reflexivity|exact B]. }
    apply (IR_call re_prog [0] (genv re_init) 0 1 s5
             [IBase (SAssume (mkLC INEQ (mkLE [((-1)%Z, 0%N)] 1%Z))); IBase (SArith OpSub 2%N 0%N (OCst 1%Z))]
             [1%N] 0 [2%N] [] (Syntax.upd s5 2%N 4%Z) s4 C eq_refl).
    + eapply XB_cons; [apply XS_base|eapply XB_cons; [apply XS_base|apply XB_nil]].
      * split; [|reflexivity]. vm_compute. intros H. discriminate H.
      * exists 4%Z. split; reflexivity.
    + constructor; [reflexivity|constructor].
  - apply InterTDSound.menv_true. vm_compute. reflexivity.
  - vm_compute. split; reflexivity.
Qed.
