(* BwdItvEngineSound.v — property C11 for the backward (necessary preconditions) analyzer
   model Ana/BwdItv.v, WITHOUT a checker: whenever the engine model, run on the reversed CFG
   from the exit block, terminates, the precondition table it returns contains

     error mode: every state at the entry of a block from which some execution, consistent
       with the supplied forward invariants at the block entries it visits, goes on to fail
       an assertion located in a block FROM WHICH THE EXIT BLOCK CAN BE REACHED IN THE CFG;
     good mode:  every state from which such an execution finishes the exit block in one of
       the final states (the whole predicate Good of Ana/BackwardCheck.v).

   The restriction in error mode is what is true of the code: the backward iteration starts
   at the exit block and follows the CFG edges backwards, so a block that cannot reach the
   exit (a dead end) is never visited and the violations of its assertions are not
   propagated (known finding C11 "deadend"; refuted for the unrestricted predicate Bad by
   [bwd_run_deadend_not_covered] below).  When every block can reach the exit — a condition
   decided on the ordering itself — the conclusion is literally that of the table theorems of
   Ana/BackwardCheck.v ([bwd_run_error_sound_Bad]).

   Instance of Fix/EngineSound.v: the backward analysis is the forward analysis of the
   reversed graph whose collecting semantics is backward reachability.  Concrete "states" are
   [option store]: [Some a] is a store, [None] is a token that marks the blocks that can reach
   the exit; the token flows from the exit block backwards along every edge, and in error
   mode the reversed block relation turns the token at the end of a block into every store
   at its entry that fails one of its assertions (the error states arise inside blocks). *)
From Coq Require Import ZArith NArith List Bool Arith Lia.
From CrabV Require Import Base.ZInf Scalar.Itv Ir.Syntax Ir.Cfg Dom.ItvEnv Dom.ItvEnvSound Dom.ItvDomain
     Dom.ItvDomainSound
     Fix.Wto Fix.WtoCheck Fix.WtoSound Fix.WtoTotal Fix.WtoRoot Fix.Engine Fix.EngineBelow Fix.EngineCheck Fix.EngineRel
     Fix.EngineFS Fix.EngineSound
     Ana.Transformer Ana.FwdItv Ana.FwdItvSound Ana.FwdItvEngineSound
     Ana.Backward Ana.BackwardSound Ana.BackwardCheck Ana.BwdItv.
Import ListNotations.

Lemma p_rev_graph_succs : forall p q, q < length (p_blocks p) ->
  succs (p_rev_graph p) q = dedup (p_preds p q).
Proof. intros p q. apply (succs_map_seq (fun n => dedup (p_preds p n))). Qed.
Lemma p_rev_graph_succs_out : forall p q, ~ q < length (p_blocks p) -> succs (p_rev_graph p) q = [].
Proof.
  intros p q L. unfold succs, p_rev_graph. apply nth_overflow.
  rewrite map_length, seq_length. lia.
Qed.

(* an edge of the reversed graph is a CFG edge, reversed *)
Lemma rev_graph_edge : forall p n q, In n (succs (p_rev_graph p) q) -> In q (p_succs p n).
Proof.
  intros p n q I. destruct (lt_dec q (length (p_blocks p))) as [L|L].
  - rewrite p_rev_graph_succs in I by exact L. apply (proj1 (dedup_In _ _)) in I.
    apply (proj2 (p_succs_edge _ _ _)). apply (proj1 (p_preds_edge _ _ _)). exact I.
  - rewrite p_rev_graph_succs_out in I by exact L. destruct I.
Qed.
Lemma succs_in_rev_graph : forall p, prog_wfb p = true ->
  forall n q, In q (p_succs p n) -> In n (succs (p_rev_graph p) q).
Proof.
  intros p W n q I. apply p_succs_edge in I.
  rewrite p_rev_graph_succs by apply (prog_wfb_edge p W n q I). apply dedup_In, p_preds_edge, I.
Qed.
Lemma succs_src_in_range : forall p, prog_wfb p = true ->
  forall n q, In q (p_succs p n) -> n < length (p_blocks p).
Proof. intros p W n q I. apply p_succs_edge in I. apply (prog_wfb_edge p W n q I). Qed.

Lemma wto_mem_In : forall x w, wto_mem x w = true <-> In x (flat w).
Proof.
  intros x. induction w as [|c r IH]; cbn [wto_mem flat].
  - split; [discriminate|intros []].
  - rewrite orb_true_iff, in_app_iff, IH, comp_member_In. tauto.
Qed.

(* the ordering of the reversed graph always exists *)
Lemma rev_graph_wf : forall p, prog_wfb p = true -> graph_wf (p_rev_graph p).
Proof.
  intros p W a b HI. unfold p_rev_graph. rewrite map_length, seq_length.
  exact (succs_src_in_range p W b a (rev_graph_edge p b a HI)).
Qed.
Lemma wto_build_rev_total : forall p exit_block, prog_wfb p = true -> exit_block < length (p_blocks p) ->
  exists wrev, wto_build (p_rev_graph p) exit_block = Some wrev.
Proof.
  intros p ex W L. unfold wto_build. apply build_total; [exact (rev_graph_wf p W)|].
  unfold p_rev_graph. rewrite map_length, seq_length. exact L.
Qed.

Section BwdEngine.
  Variable p : prog.
  Variable fresh : var.
  Variable good : bool.
  Variable exit_block : nat.
  Variable final : env.                 (* postcondition at the exit block *)
  Variable finv : nat -> env.           (* forward invariants at block entries: arbitrary *)

  (* the blocks from which the exit block can be reached along CFG edges *)
  Inductive reaches_exit : nat -> Prop :=
  | re_exit : reaches_exit exit_block
  | re_step n s : In s (p_succs p n) -> reaches_exit s -> reaches_exit n.

  (* error mode: Bad of BackwardCheck.v, for assertions located in blocks that can reach the
     exit (then so can every block the execution visits) *)
  Inductive BadR : nat -> store -> Prop :=
  | BadR_here n a id : reaches_exit n -> genv (finv n) a -> bfails (p_block p n) a id -> BadR n a
  | BadR_later n a b s : genv (finv n) a -> bstep (p_block p n) a b -> In s (p_succs p n) ->
      BadR s b -> BadR n a.

  Lemma BadR_reaches : forall n a, BadR n a -> reaches_exit n.
  Proof.
    induction 1 as [n a id R _ _|n a b s _ _ I _ IH]; [exact R|]. exact (re_step n s I IH).
  Qed.

  (* BadR is Bad restricted: nothing else is added *)
  Lemma BadR_Bad : prog_wfb p = true -> forall n a, BadR n a -> Bad p finv n a.
  Proof.
    intros W. induction 1 as [n a id R GI F|n a b s GI ST I _ IH].
    - exact (Bad_here p finv n a id (bfails_in_range p n a id F) GI F).
    - exact (Bad_later p finv n a b s (succs_src_in_range p W n s I) GI ST I IH).
  Qed.
  Lemma Bad_BadR : (forall m, m < length (p_blocks p) -> reaches_exit m) ->
    forall n a, Bad p finv n a -> BadR n a.
  Proof.
    intros ALL. induction 1 as [n a id L GI F|n a b s L GI ST I _ IH].
    - exact (BadR_here n a id (ALL n L) GI F).
    - exact (BadR_later n a b s GI ST I IH).
  Qed.

  (* states of the backward collecting semantics: a store, or the token "the exit block can be
     reached from here" *)
  Definition bstate : Type := option store.
  Definition bgamma (a : env) (s : bstate) : Prop :=
    match s with None => True | Some x => genv a x end.
  Definition bInit (s : bstate) : Prop :=
    match s with None => True | Some b => genv final b end.
  (* block n, backwards: from what holds at its end to what holds at its entry *)
  Definition rstep (n : nat) (after before : bstate) : Prop :=
    match after, before with
    | None, None => True
    | None, Some a => good = false /\ genv (finv n) a /\ exists id, bfails (p_block p n) a id
    | Some b, Some a => genv (finv n) a /\ bstep (p_block p n) a b
    | Some _, None => False
    end.

  Definition BRPre := RPre env bstate bgamma rstep (p_succs p) exit_block false (fun _ => None) bInit.
  Definition BRPost := RPost env bstate bgamma rstep (p_succs p) exit_block false (fun _ => None) bInit.

  Lemma reaches_token : forall n, reaches_exit n -> BRPre n None /\ BRPost n None.
  Proof.
    assert (ST : forall n, BRPre n None -> BRPost n None).
    { intros n H. apply RPo with None; [exact H|exact I]. }
    induction 1 as [|n s HI _ [_ IH]].
    - assert (H : BRPre exit_block None) by (apply RP_init; exact I).
      split; [exact H|exact (ST _ H)].
    - assert (H : BRPre n None) by (apply RP_edge with s; [exact HI|exact IH|exact I]).
      split; [exact H|exact (ST _ H)].
  Qed.

  Lemma BadR_collected : good = false -> forall n a, BadR n a -> BRPost n (Some a).
  Proof.
    intros GM. induction 1 as [n a id R GI F|n a b s GI ST HI _ IH].
    - apply RPo with None; [exact (proj1 (reaches_token n R))|].
      cbn [rstep]. split; [exact GM|]. split; [exact GI|]. exists id. exact F.
    - apply RPo with (Some b).
      + apply RP_edge with s; [exact HI|exact IH|exact I].
      + cbn [rstep]. split; [exact GI|exact ST].
  Qed.

  Lemma Good_collected : forall n a, Good p exit_block final finv n a -> BRPost n (Some a).
  Proof.
    induction 1 as [a b L GI ST GF|n a b s L GI ST HI _ IH].
    - apply RPo with (Some b).
      + apply RP_init; [exact GF|exact I].
      + cbn [rstep]. split; [exact GI|exact ST].
    - apply RPo with (Some b).
      + apply RP_edge with s; [exact HI|exact IH|exact I].
      + cbn [rstep]. split; [exact GI|exact ST].
  Qed.

  Hypothesis p_wf : prog_wfb p = true.                                (* edges between existing blocks *)
  Hypothesis p_ok : forallb block_bwd_ok (p_blocks p) = true.         (* fragment of BackwardSound.v *)

  Lemma bwd_block_rstep : forall n a s s',
    bgamma a s -> rstep n s s' ->
    bgamma (bwd_block fresh good (p_block p n) (finv n) a) s'.
  Proof.
    intros n a s s' G ST.
    pose proof (blocks_ok p n p_ok) as BO.
    destruct s as [b|]; destruct s' as [x|]; cbn [rstep bgamma] in *.
    - destruct ST as [GI ST]. exact (bwd_block_sound fresh good (p_block p n) (finv n) a x b BO ST G GI).
    - exact I.
    - destruct ST as [GM [GI [id F]]]. rewrite GM.
      exact (bwd_block_error_sound fresh (p_block p n) (finv n) a x id BO F GI).
    - exact I.
  Qed.

  Variables delay desc fuel : nat.

  Definition bwd_engine (wrev : wto) : option (est env) :=
    run env itv_ops (fun n post => bwd_block fresh good (p_block p n) (finv n) post)
        (p_succs p) (nest_of wrev) exit_block delay desc false (fun _ => None) final fuel wrev.

  (* the engine's soundness on the reversed graph: any ordering satisfying property C07 for
     the reversed graph, any start block of that ordering *)
  Theorem bwd_engine_sound_WF : forall e0 nst dom wrev e,
    WF (p_rev_graph p) e0 wrev nst dom -> In exit_block (flat wrev) ->
    bwd_engine wrev = Some e ->
    (forall n s, BRPre n s -> bgamma (e_pre env e n) s) /\
    (forall n s, BRPost n s -> bgamma (e_post env e n) s).
  Proof.
    intros e0 nst dom wrev e W IE RUN. unfold bwd_engine in RUN. unfold BRPre, BRPost.
    refine (engine_sound_WF env bstate bgamma itv_ops _ _ _ _ _
             (fun n post => bwd_block fresh good (p_block p n) (finv n) post) rstep
             bwd_block_rstep
             (p_succs p) (nest_of wrev) exit_block delay desc false (fun _ => None) bInit final _ fuel
             (p_rev_graph p) e0 nst dom wrev W
             (fun n q I _ => succs_in_rev_graph p p_wf n q I) IE e RUN).
    - intros a b [s|] H; [|exact I]. exact (e_join_sound a b s (or_introl H)).
    - intros a b [s|] H; [|exact I]. exact (e_join_sound a b s (or_intror H)).
    - intros a b [s|] H1 H2; [|exact I]. exact (e_meet_sound a b s H1 H2).
    - intros a b [s|] H1 H2; [|exact I]. exact (e_narrow_sound a b s H1 H2).
    - intros a b [s|] L G; [|exact I]. exact (e_leq_sound a b s L G).
    - intros [s|] H; [exact H|exact I].
  Qed.

  (* the table of the model, any well-formed ordering of the reversed graph that contains the
     exit block *)
  Theorem bwd_run_collects : forall e0 nst dom wrev table,
    WF (p_rev_graph p) e0 wrev nst dom -> In exit_block (flat wrev) ->
    bwd_run p wrev exit_block delay desc fuel fresh good finv final = Some table ->
    forall n a, BRPost n (Some a) -> genv (table n) a.
  Proof.
    intros e0 nst dom wrev table W IE RUN n a R. unfold bwd_run in RUN. fold (bwd_engine wrev) in RUN.
    destruct (bwd_engine wrev) as [e|] eqn:RE; [|discriminate]. inversion RUN.
    destruct (wto_mem n wrev); [|apply genv_top].
    exact (proj2 (bwd_engine_sound_WF e0 nst dom wrev e W IE RE) n (Some a) R).
  Qed.

  (* the blocks of the ordering built from the exit block are those that can reach the exit *)
  Lemma wrev_reaches_exit : forall nst dom wrev,
    WF (p_rev_graph p) exit_block wrev nst dom ->
    forall m, In m (flat wrev) <-> reaches_exit m.
  Proof.
    intros nst dom wrev W m. rewrite (wf_reach _ _ _ _ _ W m). split.
    - induction 1 as [|u v _ IH I]; [apply re_exit|].
      exact (re_step v u (rev_graph_edge p v u I) IH).
    - induction 1 as [|n s I _ IH]; [apply reach_refl|].
      apply reach_step with s; [exact IH|]. exact (succs_in_rev_graph p p_wf n s I).
  Qed.
End BwdEngine.

(* the model as it is run:
   the ordering computed by the model of wto.hpp for the reversed graph, from the exit block *)
Theorem bwd_run_good_sound : forall p fresh good exit_block final finv delay desc fuel wrev table,
  prog_wfb p = true -> forallb block_bwd_ok (p_blocks p) = true ->
  wto_build (p_rev_graph p) exit_block = Some wrev ->
  bwd_run p wrev exit_block delay desc fuel fresh good finv final = Some table ->
  forall n a, Good p exit_block final finv n a -> genv (table n) a.
Proof.
  intros p fresh good ex final finv delay desc fuel wrev table W OK BU RUN n a G.
  unfold wto_build in BU. destruct (build_entry_ok _ _ _ BU) as [_ [IE _]].
  exact (bwd_run_collects p fresh good ex final finv W OK delay desc fuel ex _ _ wrev table
           (build_WF _ _ _ BU) IE RUN n a (Good_collected p good ex final finv n a G)).
Qed.

Theorem bwd_run_error_sound : forall p fresh exit_block final finv delay desc fuel wrev table,
  prog_wfb p = true -> forallb block_bwd_ok (p_blocks p) = true ->
  wto_build (p_rev_graph p) exit_block = Some wrev ->
  bwd_run p wrev exit_block delay desc fuel fresh false finv final = Some table ->
  forall n a, BadR p exit_block finv n a -> genv (table n) a.
Proof.
  intros p fresh ex final finv delay desc fuel wrev table W OK BU RUN n a B.
  unfold wto_build in BU. destruct (build_entry_ok _ _ _ BU) as [_ [IE _]].
  exact (bwd_run_collects p fresh false ex final finv W OK delay desc fuel ex _ _ wrev table
           (build_WF _ _ _ BU) IE RUN n a (BadR_collected p false ex final finv eq_refl n a B)).
Qed.

(* when every block can reach the exit (decided on the ordering): the conclusion of
   bwd_tables_error_sound, for the unrestricted predicate Bad *)
Definition all_blocks_reach_exit (p : prog) (wrev : wto) : bool :=
  forallb (fun m => wto_mem m wrev) (seq 0 (length (p_blocks p))).

Theorem bwd_run_error_sound_Bad : forall p fresh exit_block final finv delay desc fuel wrev table,
  prog_wfb p = true -> forallb block_bwd_ok (p_blocks p) = true ->
  wto_build (p_rev_graph p) exit_block = Some wrev ->
  all_blocks_reach_exit p wrev = true ->
  bwd_run p wrev exit_block delay desc fuel fresh false finv final = Some table ->
  forall n a, Bad p finv n a -> genv (table n) a.
Proof.
  intros p fresh ex final finv delay desc fuel wrev table W OK BU ALL RUN n a B.
  apply (bwd_run_error_sound p fresh ex final finv delay desc fuel wrev table W OK BU RUN).
  apply Bad_BadR; [|exact B]. intros m L.
  unfold wto_build in BU.
  apply (wrev_reaches_exit p ex W _ _ wrev (build_WF _ _ _ BU)).
  unfold all_blocks_reach_exit in ALL. rewrite forallb_forall in ALL.
  apply wto_mem_In. apply ALL. apply in_seq. lia.
Qed.

Corollary bwd_run_empty_entry_means_no_violation :
  forall p fresh exit_block final finv delay desc fuel wrev table,
  prog_wfb p = true -> forallb block_bwd_ok (p_blocks p) = true ->
  wto_build (p_rev_graph p) exit_block = Some wrev ->
  all_blocks_reach_exit p wrev = true ->
  bwd_run p wrev exit_block delay desc fuel fresh false finv final = Some table ->
  e_is_bot (table 0) = true -> forall a, ~ Bad p finv 0 a.
Proof.
  intros p fresh ex final finv delay desc fuel wrev table W OK BU ALL RUN B a H.
  eapply e_is_bot_sound; [exact B|].
  exact (bwd_run_error_sound_Bad p fresh ex final finv delay desc fuel wrev table W OK BU ALL RUN 0 a H).
Qed.

(* non-vacuity.  b0: assume 1 <= y <= 5; b1: loop head; b2: havoc z (loop body);
   b3: x := y / 2; assert (x >= 2); b4: exit.  No forward invariants (top). *)
Definition ex_prog : prog :=
  mkProg [[SAssume (mkLC INEQ (mkLE [((-1)%Z, 1%N)] 1)); SAssume (mkLC INEQ (mkLE [(1%Z, 1%N)] (-5)))];
          [];
          [SHavoc 2%N];
          [SArith OpSDiv 0%N 1%N (OCst 2); SAssert (mkLC INEQ (mkLE [((-1)%Z, 0%N)] 2)) 1];
          []]
         [(0,1); (1,2); (2,1); (1,3); (3,4)].

Lemma ex_hyps : prog_wfb ex_prog = true /\ forallb block_bwd_ok (p_blocks ex_prog) = true /\
  wto_build (p_rev_graph ex_prog) 4 = Some [Vertex 4; Vertex 3; Cycle 1 [Vertex 2]; Vertex 0] /\
  all_blocks_reach_exit ex_prog [Vertex 4; Vertex 3; Cycle 1 [Vertex 2]; Vertex 0] = true.
Proof. repeat split; vm_compute; reflexivity. Qed.

(* error mode (final states: none): the entry precondition of a violation is y in [1,3];
   the state y = 2 does lead to a violation *)
Example bwd_run_error_sound_example :
  let wrev := [Vertex 4; Vertex 3; Cycle 1 [Vertex 2]; Vertex 0] in
  exists table,
    bwd_run ex_prog wrev 4 1 1 100 99%N false (fun _ => e_top) EBot = Some table /\
    e_at (table 0) 1%N = mkI (Fin 1) (Fin 3) /\
    (forall n a, Bad ex_prog (fun _ => e_top) n a -> genv (table n) a) /\
    Bad ex_prog (fun _ => e_top) 0 (fun _ => 2%Z).
Proof.
  cbv zeta. destruct ex_hyps as [W [OK [BU ALL]]].
  evar (table : nat -> env). exists table.
  apply conj_keep; [vm_compute; reflexivity|intros RUN]. split; [vm_compute; reflexivity|].
  clearbody table. split.
  - exact (bwd_run_error_sound_Bad ex_prog 99%N 4 EBot (fun _ => e_top) 1 1 100 _ table W OK BU ALL RUN).
  - apply Bad_later with (b := fun _ => 2%Z) (s := 1); [vm_compute; lia|apply genv_top| |vm_compute; tauto|].
    { exists (fun _ => 2%Z). split; [split; [unfold sat; vm_compute; discriminate|reflexivity]|].
      exists (fun _ => 2%Z). split; [split; [unfold sat; vm_compute; discriminate|reflexivity]|reflexivity]. }
    apply Bad_later with (b := fun _ => 2%Z) (s := 3); [vm_compute; lia|apply genv_top|reflexivity|vm_compute; tauto|].
    apply Bad_here with (id := 1); [vm_compute; lia|apply genv_top|].
    right. exists (Syntax.upd (fun _ => 2%Z) 0%N 1%Z). split.
    + exists 1%Z. split; reflexivity.
    + left. split; [reflexivity|]. unfold sat. vm_compute. intros H; apply H; reflexivity.
Qed.

(* good mode (final states: all): the executions that finish the exit block start with
   y in [3,5]; y = 4 is one of them *)
Example bwd_run_good_sound_example :
  let wrev := [Vertex 4; Vertex 3; Cycle 1 [Vertex 2]; Vertex 0] in
  exists table,
    bwd_run ex_prog wrev 4 1 1 100 99%N true (fun _ => e_top) e_top = Some table /\
    e_at (table 0) 1%N = mkI (Fin 3) (Fin 5) /\
    (forall n a, Good ex_prog 4 e_top (fun _ => e_top) n a -> genv (table n) a) /\
    Good ex_prog 4 e_top (fun _ => e_top) 0 (fun _ => 4%Z).
Proof.
  cbv zeta. destruct ex_hyps as [W [OK [BU _]]].
  evar (table : nat -> env). exists table.
  apply conj_keep; [vm_compute; reflexivity|intros RUN]. split; [vm_compute; reflexivity|].
  clearbody table. split.
  - exact (bwd_run_good_sound ex_prog 99%N true 4 e_top (fun _ => e_top) 1 1 100 _ table W OK BU RUN).
  - apply Good_later with (b := fun _ => 4%Z) (s := 1); [vm_compute; lia|apply genv_top| |vm_compute; tauto|].
    { exists (fun _ => 4%Z). split; [split; [unfold sat; vm_compute; discriminate|reflexivity]|].
      exists (fun _ => 4%Z). split; [split; [unfold sat; vm_compute; discriminate|reflexivity]|reflexivity]. }
    apply Good_later with (b := fun _ => 4%Z) (s := 3); [vm_compute; lia|apply genv_top|reflexivity|vm_compute; tauto|].
    apply Good_later with (b := Syntax.upd (fun _ => 4%Z) 0%N 2%Z) (s := 4);
      [vm_compute; lia|apply genv_top| |vm_compute; tauto|].
    { exists (Syntax.upd (fun _ => 4%Z) 0%N 2%Z). split; [exists 2%Z; split; reflexivity|].
      exists (Syntax.upd (fun _ => 4%Z) 0%N 2%Z). split; [|reflexivity].
      split; [unfold sat; vm_compute; discriminate|reflexivity]. }
    apply Good_exit with (b := Syntax.upd (fun _ => 4%Z) 0%N 2%Z);
      [vm_compute; lia|apply genv_top|reflexivity|apply genv_top].
Qed.

(* the restriction of the error-mode theorem is necessary (known finding C11 "deadend"):
   b0: x := 0; b1: assert (x >= 1), no successor; b2: x := 0; b3: exit; edges b0->b1, b0->b2,
   b2->b3.  Block b1 cannot reach the exit and is not visited: the model reports the
   precondition bottom for b0 although every execution from b0 through b1 violates the
   assertion.  (The C++ prints the same table.) *)
Example bwd_run_deadend_not_covered :
  let p := mkProg [[SAssign 0%N (mkLE [] 0)];
                   [SAssert (mkLC INEQ (mkLE [((-1)%Z, 0%N)] 1)) 1];
                   [SAssign 0%N (mkLE [] 0)];
                   []]
                  [(0,1); (0,2); (2,3)] in
  let wrev := [Vertex 3; Vertex 2; Vertex 0] in
  prog_wfb p = true /\ forallb block_bwd_ok (p_blocks p) = true /\
  wto_build (p_rev_graph p) 3 = Some wrev /\
  all_blocks_reach_exit p wrev = false /\
  exists table,
    bwd_run p wrev 3 1 1 100 99%N false (fun _ => e_top) EBot = Some table /\
    e_is_bot (table 0) = true /\
    forall a, Bad p (fun _ => e_top) 0 a /\ ~ genv (table 0) a /\ ~ BadR p 3 (fun _ => e_top) 0 a.
Proof.
  cbv zeta.
  set (p := mkProg [[SAssign 0%N (mkLE [] 0)]; [SAssert (mkLC INEQ (mkLE [((-1)%Z, 0%N)] 1)) 1];
                    [SAssign 0%N (mkLE [] 0)]; []] [(0,1); (0,2); (2,3)]).
  assert (W : prog_wfb p = true) by (vm_compute; reflexivity).
  assert (OK : forallb block_bwd_ok (p_blocks p) = true) by (vm_compute; reflexivity).
  assert (BU : wto_build (p_rev_graph p) 3 = Some [Vertex 3; Vertex 2; Vertex 0]) by (vm_compute; reflexivity).
  split; [exact W|]. split; [exact OK|]. split; [exact BU|]. split; [vm_compute; reflexivity|].
  assert (RUN : exists table,
            bwd_run p [Vertex 3; Vertex 2; Vertex 0] 3 1 1 100 99%N false (fun _ => e_top) EBot = Some table /\
            e_is_bot (table 0) = true).
  { eexists. split; vm_compute; reflexivity. }
  destruct RUN as [table [RUN B0]]. exists table. split; [exact RUN|]. split; [exact B0|].
  intros a. split; [|split].
  - apply Bad_later with (b := Syntax.upd a 0%N 0%Z) (s := 1);
      [vm_compute; lia|apply genv_top| |vm_compute; tauto|].
    { exists (Syntax.upd a 0%N 0%Z). split; [|reflexivity]. cbn [sstep]. f_equal. }
    apply Bad_here with (id := 1); [vm_compute; lia|apply genv_top|].
    left. split; [reflexivity|]. unfold sat. vm_compute. intros H; apply H; reflexivity.
  - apply e_is_bot_sound. exact B0.
  - intros BR. eapply e_is_bot_sound; [exact B0|].
    exact (bwd_run_error_sound p 99%N 3 EBot (fun _ => e_top) 1 1 100 _ table W OK BU RUN 0 a BR).
Qed.

(* hence the unrestricted error-mode statement does not hold of the model (nor of the C++) *)
Definition bwd_model_error_unrestricted_statement : Prop :=
  forall p fresh exit_block final finv delay desc fuel wrev table,
  prog_wfb p = true -> forallb block_bwd_ok (p_blocks p) = true ->
  wto_build (p_rev_graph p) exit_block = Some wrev ->
  bwd_run p wrev exit_block delay desc fuel fresh false finv final = Some table ->
  forall n a, Bad p finv n a -> genv (table n) a.
Lemma bwd_model_error_unrestricted_refuted : ~ bwd_model_error_unrestricted_statement.
Proof.
  intros ST. destruct bwd_run_deadend_not_covered as [W [OK [BU [_ [table [RUN [_ H]]]]]]].
  destruct (H (fun _ => 0%Z)) as [B [N _]]. apply N.
  exact (ST _ _ _ _ _ _ _ _ _ _ W OK BU RUN 0 _ B).
Qed.
