(* FwdItvLive.v — the forward analyzer model with the two remaining configurations of
   intra_fwd_analyzer:

   (1) liveness pruning (analysis/fwd_analyzer.hpp, prune_dead_variables): when a
       live_and_dead_analysis object is given, analyze(node, inv) runs the statements of the
       block and then, unless the result is bottom or top, forgets
            dead_exit(node) \ formals
       = (variables used or defined in the block) \ live-out(block), the empty set when
       live-out(block) is empty (live_and_dead_analysis::exec skips such blocks).  The
       liveness is the model of property C18 (Ana/Liveness.v) run on the same CFG; the CFGs
       of the harness have no function declaration (no formals, no outputs).  The initial
       value is not pruned.
   (2) widening with thresholds (max_thresholds > 0): extrapolate uses
       widening_thresholds with the set that wto_thresholds collected for the head
       (Fix/WtoThresholds.v); max_thresholds = 0: plain widening.

   fwd_run_gen is generic in the per-head thresholds and the per-block dead sets (the theorems
   of FwdItvFullSound.v hold for all of them); fwd_run_full instantiates them as the C++ does. *)
From Coq Require Import ZArith NArith List Bool Arith.
From CrabV Require Import Base.ZInf Scalar.Itv Ir.Syntax Ir.Cfg Dom.ItvEnv Dom.ItvEnvSound Dom.ItvDomain
     Fix.Wto Fix.Engine Fix.EngineCheck Fix.EngineFS Fix.Thresholds Fix.WtoThresholds Ana.Transformer Ana.FwdItv.
From CrabV Require Ana.CfgSem Ana.Liveness.
Import ListNotations.

(* the CFG as cfg.hpp stores it
   (Ana/CfgSem.v): blocks b0..b(n-1), successor / predecessor vectors without duplicates in
   insertion order, optional exit, no function declaration *)
Definition cv_operand (o : operand) : CfgSem.operand :=
  match o with OVar v => CfgSem.OVar v | OCst k => CfgSem.OCst k end.
Definition cv_stmt (s : stmt) : CfgSem.stmt :=
  match s with
  | SAssign x e => CfgSem.SAssign x e
  | SArith op x y z => CfgSem.SArith op x y (cv_operand z)
  | SBit op x y z => CfgSem.SBit op x y (cv_operand z)
  | SAssume c => CfgSem.SAssume c
  | SAssert c id => CfgSem.SAssert c (N.of_nat id)
  | SHavoc x => CfgSem.SHavoc x
  | SSelect x c e1 e2 => CfgSem.SSelect x c e1 e2
  | SUnreach => CfgSem.SUnreach
  end.
Definition cv_prog (p : prog) (ex : option nat) : CfgSem.cfg :=
  CfgSem.mkCfg 0%N (option_map N.of_nat ex)
    (map (fun i => (N.of_nat i,
                    CfgSem.mkBlock (map cv_stmt (p_block p i))
                                   (map N.of_nat (dedup (p_preds p i)))
                                   (map N.of_nat (p_succs p i))))
         (seq 0 (length (p_blocks p))))
    [].

(* live_and_dead_analysis::exec + dead_exit for every block; None: the liveness model ran
   out of its fuel (never observed; the driver reports it) *)
Definition dead_table (p : prog) (ex : option nat) : option (list (list var)) :=
  let P := cv_prog p ex in
  match Liveness.liveness P with
  | None => None
  | Some m => Some (map (fun i => Liveness.dead_exit P m (N.of_nat i)) (seq 0 (length (p_blocks p))))
  end.
Definition dead_of (dt : list (list var)) (n : nat) : list var := nth n dt [].

Definition tr_block_pruned (dead : list var) (b : block) (e : env) : env :=
  d_forget dead (tr_block b e).

Definition itv_ops_gen (use_thr : bool) (t : nat -> thr) : aops env :=
  mkOps env EBot e_top e_join e_meet
        (fun h => if use_thr then e_widen_thr (thr_prev (t h)) (thr_next (t h)) else e_widen)
        e_narrow e_leq.

Definition fwd_run_gen (use_thr : bool) (t : nat -> thr) (dead : nat -> list var)
           (p : prog) (w : wto) (entry delay desc : nat) (use_asm : bool)
           (asm : nat -> option env) (fuel : nat) (init : env) : option (est env) :=
  run env (itv_ops_gen use_thr t) (fun n e => tr_block_pruned (dead n) (p_block p n) e)
      (p_preds p) (nest_of w) entry delay desc use_asm asm init fuel w.

(* the per-head thresholds of the C++ for max_thresholds = thr > 0 *)
Definition prog_thr (maxthr : N) (p : prog) (w : wto) : nat -> thr :=
  let m := wto_thr_map maxthr (p_block p) (fun h => dedup (p_preds p h)) w in
  tm_get m.
(* the per-block dead sets of the C++ (no pruning if live = false) *)
Definition prog_dead (live : bool) (p : prog) (ex : option nat) : nat -> list var :=
  if live then match dead_table p ex with Some dt => dead_of dt | None => fun _ => [] end
  else fun _ => [].

(* intra_fwd_analyzer with fixpoint parameters (delay, desc, maxthr) and, if live, the liveness of
   the CFG whose exit block is ex *)
Definition fwd_run_full (p : prog) (w : wto) (entry delay desc : nat) (maxthr : N) (live : bool)
           (ex : option nat) (use_asm : bool) (asm : nat -> option env) (fuel : nat) (init : env)
  : option (est env) :=
  let t := prog_thr maxthr p w in
  let dead := prog_dead live p ex in
  fwd_run_gen (negb (maxthr =? 0)%N) t dead p w entry delay desc use_asm asm fuel init.

(* the table checker for the pruned transformer *)
Definition fwd_check_gen (dead : nat -> list var) (p : prog) (entry : nat) (use_asm : bool)
           (asm : nat -> option env) (init : env) (pre post : nat -> env) : bool :=
  forallb (fun b => forallb stmt_wfb b) (p_blocks p) &&
  forallb (fun e => (fst e <? length (p_blocks p)) && (snd e <? length (p_blocks p))) (p_edges p) &&
  (entry <? length (p_blocks p)) &&
  inductive_ok env itv_ops (fun n e => tr_block_pruned (dead n) (p_block p n) e) (p_preds p) entry
               use_asm asm init (seq 0 (length (p_blocks p))) pre post.
Definition fwd_check_full (live : bool) (ex : option nat) (p : prog) (entry : nat) (use_asm : bool)
           (asm : nat -> option env) (init : env) (pre post : nat -> env) : bool :=
  let dead := prog_dead live p ex in
  fwd_check_gen dead p entry use_asm asm init pre post.

Lemma d_forget_nil e : d_forget [] e = e.
Proof. unfold d_forget. destruct (e_is_bot e || e_is_top e); reflexivity. Qed.
