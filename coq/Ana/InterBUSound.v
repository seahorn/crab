(* InterBUSound.v — property C10 for the model of the bottom-up inter-procedural analyzer:
   results accepted by bu_validate (the certificate checker ig_check of InterTD.v, the
   executions being covered by the context-insensitive tables of the top-down phase
   themselves) are sound: every summary contains the (inputs, outputs) pair of every
   terminating execution of its function, whatever the inputs; the tables contain every
   state reaching each block from an entry function. *)
From Coq Require Import ZArith NArith List Bool Arith Lia.
From CrabV Require Import Base.ZInf Scalar.Itv Ir.Syntax Ir.Cfg Dom.ItvEnv Dom.ItvEnvSound Dom.ItvDomain
     Dom.ItvDomainSound Ana.Transformer Ana.InterSyntax Ana.InterSem Ana.InterTD Ana.InterTDSound Ana.InterBU.
Import ListNotations.

Theorem bu_validate_sound p voff entries init tpre tpost S delay desc efuel wtos :
  bu_validate p voff entries init tpre tpost S delay desc efuel wtos = true ->
  forall Init : store -> Prop, (forall s, Init s -> genv init s) ->
  (forall f n s, IRPre p entries Init f n s -> genv (tpre f n) s) /\
  (forall f n s, IRPost p entries Init f n s -> genv (tpost f n) s) /\
  (forall sm, In sm S ->
     forall s0 s1, genv (s_pre sm) s0 -> exec_fun p (s_fn sm) s0 s1 -> genv (s_post sm) s1).
Proof.
  unfold bu_validate. intros H Init HI.
  destruct (ig_check_sound _ _ _ _ _ _ _ _ H Init HI) as (A & B & C).
  split; auto. split; auto. intros sm I. apply C.
  rewrite map_map. cbn [fst]. rewrite map_id. apply in_or_app. left. exact I.
Qed.

(* summaries of the bottom-up phase have the precondition top: they hold whatever the inputs *)
Lemma bu_summaries_any_input p sums :
  (forall sm, In sm (bu_summaries p sums) ->
     forall s0 s1, genv (s_pre sm) s0 -> exec_fun p (s_fn sm) s0 s1 -> genv (s_post sm) s1) ->
  forall f sum, f < length p -> sums f = Some sum ->
  forall s0 s1, exec_fun p f s0 s1 -> genv sum s1.
Proof.
  intros C f sum L E s0 s1 X. apply (C (mkSumm f e_top sum)) with (s0 := s0); [|apply genv_top|exact X].
  unfold bu_summaries. apply in_flat_map. exists f. split; [apply in_seq; lia|].
  rewrite E. left. reflexivity.
Qed.

Corollary bu_summary_any_input p voff entries init tpre tpost sums delay desc efuel wtos :
  bu_validate p voff entries init tpre tpost (bu_summaries p sums) delay desc efuel wtos = true ->
  forall Init : store -> Prop, (forall s, Init s -> genv init s) ->
  forall f sum, f < length p -> sums f = Some sum ->
  forall s0 s1, exec_fun p f s0 s1 -> genv sum s1.
Proof.
  intros H Init HI. apply bu_summaries_any_input.
  apply (bu_validate_sound _ _ _ _ _ _ _ _ _ _ _ H Init HI).
Qed.

(* reuse_summary is sound (the re-instantiation of a summary at a callsite through the internal
   names $0,$1,..: a parallel propagation by construction).  The caller's value must not constrain
   the internal names (the analyzer forgets them after every callsite): a hypothesis of
   bu_reuse_sound_free, imposed by a forget in bu_reuse_sound.  The summary is over the formal
   parameters: imposed by a projection. *)
Fixpoint assoc_rev (ps : list (var * var)) (k : var) : option var :=
  match ps with
  | [] => None
  | q :: r => if N.eqb (snd q) k then Some (fst q) else assoc_rev r k
  end.

Lemma assoc_rev_in ps x y : NoDup (map snd ps) -> In (x, y) ps -> assoc_rev ps y = Some x.
Proof.
  induction ps as [|[a b] r IH]; simpl; intros ND I; [contradiction|].
  inversion ND as [|? ? NI ND']; subst. destruct I as [E|I].
  - inversion E; subst. rewrite N.eqb_refl. reflexivity.
  - destruct (N.eqb_spec b y) as [->|NE]; auto.
    exfalso. apply NI. apply (in_map snd) in I. exact I.
Qed.

Lemma assoc_rev_none ps k : ~ In k (map snd ps) -> assoc_rev ps k = None.
Proof.
  induction ps as [|[a b] r IH]; simpl; intros NI; auto.
  destruct (N.eqb_spec b k) as [->|NE]; [exfalso; apply NI; left; reflexivity|].
  apply IH. intros I. apply NI. right. exact I.
Qed.

(* rename_store with old and new names disjoint: new names get the old values, old names the
   chosen values *)
Lemma rename_store_spec (tgt : store) ps : forall s,
  NoDup (map fst ps) ->
  (forall x y, In x (map fst ps) -> In y (map snd ps) -> x <> y) ->
  (forall x y, In (x, y) ps -> s x = tgt y) ->
  forall k, rename_store s ps (map tgt (map fst ps)) k =
            if vmem k (map fst ps) || vmem k (map snd ps) then tgt k else s k.
Proof.
  induction ps as [|[x y] r IH]; intros s ND DJ V k; [reflexivity|].
  cbn [rename_store map fst snd hd tl].
  assert (NE : x <> y) by (apply DJ; left; reflexivity).
  destruct (N.eqb_spec x y) as [E|_]; [contradiction|].
  inversion ND as [|? ? NI ND']; subst.
  rewrite IH; [|exact ND'| |].
  - unfold vmem. cbn [existsb]. fold (vmem k (map fst r)). fold (vmem k (map snd r)).
    destruct (vmem k (map fst r) || vmem k (map snd r)) eqn:M.
    + apply orb_true_iff in M. destruct M as [M|M]; rewrite M; rewrite ?orb_true_r; reflexivity.
    + apply orb_false_iff in M. destruct M as [M1 M2]. rewrite M1, M2. rewrite !orb_false_r.
      unfold upd. destruct (N.eqb_spec k x) as [->|N1]; [reflexivity|].
      destruct (N.eqb_spec k y) as [->|N2]; cbn [orb]; auto.
      apply (V x y). left. reflexivity.
  - intros a b I J. apply DJ; right; auto.
  - intros a b I. rewrite upd_other.
    + rewrite upd_other; [apply V; right; exact I|].
      intros E. subst a. apply (DJ y y).
      * right. apply (in_map fst) in I. exact I.
      * left. reflexivity.
      * reflexivity.
    + intros E. subst a. apply NI. apply (in_map fst) in I. exact I.
Qed.

Lemma map_snd_combine {A B} (l1 : list A) (l2 : list B) : length l1 = length l2 -> map snd (combine l1 l2) = l2.
Proof.
  revert l2. induction l1 as [|a r IH]; intros [|b l2] L; simpl in *; try discriminate; auto.
  f_equal. apply IH. lia.
Qed.

Lemma aseq_out ps : forall s k, ~ In k (map fst ps) -> aseq ps s k = s k.
Proof.
  induction ps as [|[x y] r IH]; intros s k NI; cbn [aseq fst snd]; [reflexivity|].
  rewrite IH by (intros I; apply NI; right; exact I).
  apply upd_other. intros E. apply NI. left. symmetry. exact E.
Qed.

(* distinct writes, disjoint from the reads: the sequence behaves as the parallel assignment *)
Lemma aseq_in ps : forall s x y, NoDup (map fst ps) -> (forall x, In x (map fst ps) -> ~ In x (map snd ps)) ->
  In (x, y) ps -> aseq ps s x = s y.
Proof.
  induction ps as [|[x0 y0] r IH]; intros s x y ND D I; [destruct I|].
  cbn [aseq fst snd map] in *. inversion ND as [|? ? NI ND']; subst.
  assert (D' : forall x, In x (map fst r) -> ~ In x (map snd r)).
  { intros x' J K. apply (D x' (or_intror J)). right. exact K. }
  destruct I as [E|I].
  - inversion E; subst. rewrite aseq_out by exact NI. apply upd_same.
  - rewrite (IH _ x y ND' D' I). apply upd_other. intros E. subst y.
    apply (D x0 (or_introl eq_refl)). right. apply (in_map snd) in I. exact I.
Qed.

(* renaming to names that are not constrained and differ from the old ones: a store whose new
   names hold the values of the old ones *)
Lemma e_rename_sound_to (tgt : store) e from to s :
  genv e s -> NoDup from -> NoDup to -> length from = length to ->
  (forall x, In x from -> ~ In x to) ->
  (forall k, In k to -> is_top (e_at e k) = true) ->
  (forall x y, In (x, y) (combine from to) -> s x = tgt y) ->
  (forall k, ~ In k from -> ~ In k to -> s k = tgt k) ->
  genv (e_rename e from to) tgt.
Proof.
  intros G NDf NDt L DJ TOP V O.
  apply (genv_ext _ (rename_store s (combine from to) (map tgt (map fst (combine from to))))).
  2: { rewrite map_fst_combine by exact L. apply e_rename_sound; assumption. }
  intros k. symmetry. rewrite (rename_store_spec tgt); rewrite ?map_fst_combine, ?map_snd_combine by exact L; auto.
  - destruct (vmem k from || vmem k to) eqn:M; [reflexivity|].
    apply orb_false_iff in M. destruct M as [M1 M2]. symmetry. apply O; apply vmem_false; assumption.
  - intros x y I J E. subst y. exact (DJ x I J).
Qed.

Lemma in_combine_app_l {A B} (l1 l1' : list A) (l2 l2' : list B) x y :
  length l1 = length l2 -> In (x, y) (combine l1 l2) -> In (x, y) (combine (l1 ++ l1') (l2 ++ l2')).
Proof.
  revert l2. induction l1 as [|a r IH]; intros [|b l2] L I; simpl in *; try discriminate; try contradiction.
  destruct I as [E|I]; [left; exact E|right; apply IH; [lia|exact I]].
Qed.
Lemma in_combine_app_r {A B} (l1 l1' : list A) (l2 l2' : list B) x y :
  length l1 = length l2 -> In (x, y) (combine l1' l2') -> In (x, y) (combine (l1 ++ l1') (l2 ++ l2')).
Proof.
  revert l2. induction l1 as [|a r IH]; intros [|b l2] L I; simpl in *; try discriminate; auto.
Qed.

(* (o, i) in outs x iouts  ->  some f with (o, f) in outs x fouts and (f, i) in fouts x iouts *)
Lemma combine_mid {A B C} (l1 : list A) (l2 : list B) (l3 : list C) x z :
  length l1 = length l2 -> length l2 = length l3 -> In (x, z) (combine l1 l3) ->
  exists y, In (x, y) (combine l1 l2) /\ In (y, z) (combine l2 l3).
Proof.
  revert l2 l3. induction l1 as [|a r IH]; intros [|b l2] [|c l3] L1 L2 I; simpl in *; try discriminate; try contradiction.
  destruct I as [E|I].
  - inversion E; subst. exists b. auto.
  - destruct (IH l2 l3 (eq_add_S _ _ L1) (eq_add_S _ _ L2) I) as (y & J1 & J2). exists y. auto.
Qed.

Lemma e_project_at_other e vs k s : genv e s -> ~ In k vs -> is_top (e_at (e_project e vs) k) = true.
Proof.
  destruct e as [|m]; simpl; [tauto|]. intros _ NI.
  destruct (forallb (fun k0 => is_top (get m k0)) (keys m)) eqn:T; simpl.
  - destruct (in_dec N.eq_dec k (keys m)) as [I|NK].
    + rewrite forallb_forall in T. apply T. exact I.
    + rewrite get_not_key by exact NK. reflexivity.
  - induction vs as [|v r IH]; simpl; [reflexivity|].
    rewrite get_put_other.
    + apply IH. intros I. apply NI. right. exact I.
    + intros E. apply NI. left. auto.
Qed.

Lemma intern_ge voff k : (voff <= intern voff k)%N.
Proof. unfold intern. lia. Qed.

Lemma nodup_interns voff n : forall i, NoDup (map (intern voff) (seq i n)).
Proof.
  induction n as [|n IH]; intros i; simpl; [constructor|]. constructor; auto.
  intros I. apply in_map_iff in I. destruct I as (j & E & J). apply in_seq in J.
  unfold intern in E. lia.
Qed.

Section ReuseSound.
  Variable voff : N.
  Variables outs ins fins fouts : list var.
  Hypothesis ND : NoDup (fins ++ fouts).
  Hypothesis Lin : length fins = length ins.
  Hypothesis Lout : length fouts = length outs.
  Hypothesis NDo : NoDup outs.
  Hypothesis Bf : forall x, In x (fins ++ fouts) -> (x < voff)%N.
  Hypothesis Bi : forall x, In x ins -> (x < voff)%N.
  Hypothesis Bo : forall x, In x outs -> (x < voff)%N.

  Let fs := fins ++ fouts.
  Let ii := iins voff fins.
  Let io := iouts voff fins fouts.
  Let is := ii ++ io.

  Lemma is_seq : is = map (intern voff) (seq 0 (length fins + length fouts)).
  Proof. unfold is, ii, io, iins, iouts. rewrite <- map_app. rewrite <- seq_app. reflexivity. Qed.
  Lemma is_nodup : NoDup is.
  Proof. rewrite is_seq. apply nodup_interns. Qed.
  Lemma is_ge k : In k is -> (voff <= k)%N.
  Proof. rewrite is_seq. intros I. apply in_map_iff in I. destruct I as (j & <- & _). apply intern_ge. Qed.
  Lemma len_ii : length ii = length fins.
  Proof. unfold ii, iins. rewrite map_length, seq_length. reflexivity. Qed.
  Lemma len_io : length io = length fouts.
  Proof. unfold io, iouts. rewrite map_length, seq_length. reflexivity. Qed.
  Lemma len_is : length fs = length is.
  Proof. unfold fs, is. rewrite !app_length, len_ii, len_io. reflexivity. Qed.

  (* the caller's value does not constrain the internal names *)
  Theorem bu_reuse_sound_free caller sum a s1 b :
    (forall a', (forall k, ~ In k is -> a' k = a k) -> genv caller a') -> genv sum s1 ->
    (forall f y, In (f, y) (combine fins ins) -> s1 f = a y) ->
    (forall k, b k = assign_outs a outs fouts s1 k) ->
    genv (bu_reuse voff outs ins fins fouts caller (e_project sum fs)) b.
  Proof.
    intros G Gs Vin Hb. unfold bu_reuse. fold ii io is fs.
    set (ps := combine fs is).
    set (tw := fun k : var => match assoc_rev ps k with Some x => s1 x | None => a k end).
    assert (MS : map snd ps = is) by (unfold ps; apply map_snd_combine; apply len_is).
    assert (MF : map fst ps = fs) by (unfold ps; apply map_fst_combine; apply len_is).
    assert (NDs : NoDup (map snd ps)) by (rewrite MS; apply is_nodup).
    assert (TWin : forall x y, In (x, y) ps -> tw y = s1 x).
    { intros x y I. unfold tw. rewrite (assoc_rev_in ps x y NDs I). reflexivity. }
    assert (TWout : forall k, ~ In k is -> tw k = a k).
    { intros k NI. unfold tw. rewrite assoc_rev_none; auto. rewrite MS. exact NI. }
    assert (LOW : forall k, (k < voff)%N -> ~ In k is).
    { intros k L I. apply is_ge in I. lia. }
    assert (Fr : forall k, ~ In k outs -> b k = a k).
    { intros k NI. rewrite Hb. apply assign_outs_other. exact NI. }
    assert (Vout : forall o f, In (o, f) (combine outs fouts) -> b o = s1 f).
    { intros o f I. rewrite Hb. apply assign_outs_in; auto. }
    (* the caller side: the internal inputs receive the actual parameters *)
    assert (G1 : genv (assign_list (combine ii ins) caller) tw).
    { set (a2 := fun k : var => if vmem k is then tw k else a k).
      assert (Ga2 : genv caller a2).
      { apply G. intros k NI. unfold a2. apply vmem_false in NI. rewrite NI. reflexivity. }
      eapply genv_ext; [|apply assign_list_sound; exact Ga2].
      intros k. rewrite (aseq_spec tw).
      - destruct (vmem k (map fst (combine ii ins))); auto.
        unfold a2. destruct (vmem k is) eqn:V; auto. apply vmem_false in V. symmetry. apply TWout. exact V.
      - intros x y I J. apply in_combine_l in I.
        apply in_map_snd in J. destruct J as (x' & J).
        apply in_combine_r in J. apply Bi in J.
        assert (voff <= x)%N by (apply is_ge; unfold is; apply in_or_app; left; exact I). lia.
      - intros x y I.
        assert (NIy : ~ In y is) by (apply LOW; apply Bi; eapply in_combine_r; eauto).
        unfold a2. apply vmem_false in NIy. rewrite NIy.
        destruct (combine_mid ii fins ins x y len_ii Lin I) as (f & J1 & J2).
        rewrite (TWin f x).
        + symmetry. apply Vin. exact J2.
        + unfold ps, fs, is. apply in_combine_app_l; [symmetry; apply len_ii|]. apply in_combine_swap. exact J1. }
    (* the summary side: renamed to the internal names *)
    assert (G2 : genv (e_rename (e_project sum fs) fs is) tw).
    { apply (e_rename_sound_to tw _ fs is (fun k => if vmem k fs then s1 k else tw k));
        [|exact ND|apply is_nodup|apply len_is| | | |].
      - apply (e_project_sound _ _ s1); auto. intros k I. apply vmem_spec in I. rewrite I. reflexivity.
      - intros x I J. apply Bf in I. apply is_ge in J. lia.
      - intros k I. apply (e_project_at_other sum fs k s1 Gs). intros J. apply Bf in J. apply is_ge in I. lia.
      - intros x y I. rewrite (proj2 (vmem_spec x fs)) by (eapply in_combine_l; eauto). symmetry. apply TWin, I.
      - intros k NI _. apply vmem_false in NI. rewrite NI. reflexivity. }
    (* outputs, then the internal names are forgotten *)
    set (psO := combine outs io).
    assert (S3 : forall k, aseq psO tw k = if vmem k (map fst psO) then b k else tw k).
    { apply aseq_spec.
      - intros x y I J. apply in_combine_l in I. apply Bo in I.
        apply in_map_snd in J. destruct J as (x' & J).
        apply in_combine_r in J.
        assert (voff <= x)%N by (apply is_ge; unfold is; apply in_or_app; right; exact J). lia.
      - intros x y I.
        destruct (combine_mid outs fouts io x y (eq_sym Lout) (eq_sym len_io) I) as (f & J1 & J2).
        rewrite (TWin f y).
        + symmetry. apply Vout. exact J1.
        + unfold ps, fs, is. apply in_combine_app_r; [symmetry; apply len_ii|exact J2]. }
    apply (d_forget_sound _ _ (aseq psO tw)).
    { apply assign_list_sound. apply e_meet_sound; auto. }
    intros k NI. rewrite S3.
    destruct (vmem k (map fst psO)) eqn:W; auto.
    rewrite TWout by exact NI. apply Fr.
    intros I. apply vmem_false in W. apply W. unfold psO. rewrite map_fst_combine; auto.
    rewrite len_io. symmetry. exact Lout.
  Qed.

  Theorem bu_reuse_sound caller sum a s1 b :
    genv caller a -> genv sum s1 ->
    (forall f y, In (f, y) (combine fins ins) -> s1 f = a y) ->
    (forall k, b k = assign_outs a outs fouts s1 k) ->
    genv (bu_reuse voff outs ins fins fouts (d_forget is caller) (e_project sum fs)) b.
  Proof.
    intros G. apply bu_reuse_sound_free. intros a' H. apply (d_forget_sound _ _ a); auto.
  Qed.

  (* td_summ_abs_transformer::exec: the calling context of the callee contains its entry store *)
  Theorem bu_callee_ctx_sound caller a s0 :
    genv caller a -> bind_ins fins ins a s0 -> genv (bu_callee_ctx voff ins fins caller) s0.
  Proof using ND Lin Bf Bi.
    intros G B. unfold bu_callee_ctx. fold ii.
    assert (DJ : forall x, In x ii -> forall y, (y < voff)%N -> x <> y).
    { intros x I y L <-. apply (N.lt_irrefl x), (N.lt_le_trans _ _ _ L). apply is_ge, in_or_app. left. exact I. }
    assert (Bfi : forall x, In x fins -> (x < voff)%N) by (intros x I; apply Bf, in_or_app; left; exact I).
    assert (NDii : NoDup ii) by apply nodup_interns.
    assert (Lii : length ii = length ins) by (rewrite len_ii; exact Lin).
    set (a1 := aseq (combine ii ins) a).
    assert (G1 : genv (assign_list (combine ii ins) caller) a1) by (apply assign_list_sound, G).
    (* the internal inputs hold the actual parameters: the values of the formal inputs *)
    assert (V : forall x f, In (x, f) (combine ii fins) -> a1 x = s0 f).
    { intros x f I. destruct (combine_mid ii ins fins x f Lii (eq_sym Lin) I) as (y & J1 & J2).
      unfold a1. rewrite (aseq_in _ a x y); rewrite ?map_fst_combine, ?map_snd_combine by exact Lii;
        [|exact NDii| |exact J1].
      - symmetry. apply (Forall2_combine _ _ _ _ _ B). apply in_combine_swap, J2.
      - intros x' I' J'. exact (DJ x' I' x' (Bi x' J') eq_refl). }
    apply (e_rename_sound_to s0 _ ii fins (fun k => if vmem k ii then a1 k else s0 k));
      [|exact NDii|exact (nodup_app_l _ _ ND)|exact len_ii| | | |].
    - apply (e_project_sound _ _ a1 _ G1). intros k I. apply vmem_spec in I. rewrite I. reflexivity.
    - intros x I J. exact (DJ x I x (Bfi x J) eq_refl).
    - intros k I. apply (e_project_at_other _ ii k a1 G1). intros J. exact (DJ k J k (Bfi k I) eq_refl).
    - intros x y I. rewrite (proj2 (vmem_spec x ii)) by (eapply in_combine_l; eauto). apply V, I.
    - intros k NI _. apply vmem_false in NI. rewrite NI. reflexivity.
  Qed.
End ReuseSound.
