(* CrawlerCallSound.v — dependence semantics of a call statement and soundness of the
   call-site step of the assertion crawler (model: CrawlerCall.v).

   Stores are `var -> Z`.  A function f of the store DEPENDS ONLY ON V when two stores that
   agree on V give the same f.  The crawler's facts are of this kind: "the condition of
   assertion id, evaluated when the execution reaches it, is a function of the values that the
   variables of amd[id] have HERE".

   The callee.  A callee is a function `callee : store -> list Z` from its ENTRY store to the
   values of its formal outputs.  It is deterministic; non-determinism inside the callee (havoc,
   several successors) is covered by fixing the sequence of choices, exactly as the replay of the
   oracle of gen/intercrawl.py does: for every fixed choice sequence the outputs are a function of
   the entry store, and the theorems hold for each of them.  The entry store binds the k-th formal
   input to the value of the k-th actual; every other variable x of the callee is either a local
   of the callee with some fixed initial value (`loc x = Some z`, again a fixed choice) or is
   shared by name with the caller (`loc x = None`).  crab identifies variables by name, and a
   summary can mention variables of the callee that are not formal inputs (a formal output that
   the callee never assigns depends on itself, an uninitialised local, ...): callee_to_caller
   passes those names to the caller unchanged.  With `loc x = None` that is exactly what is
   needed; with `loc x = Some z` it only adds a superfluous name to the set.  So NO side
   condition on the summary's non-formal variables is needed for soundness (the price is
   precision only).  The special case of a callee that is a function
   `list Z -> list Z` of the values of its formal inputs is `callee_of_list`; there the formal
   inputs have to be pairwise distinct (NoDup fins), otherwise "the k-th formal" is not a
   variable of the callee and the first-match of std::find picks the wrong actual.

   The call statement.  `call_sem` writes the j-th result into outs_j and leaves every other
   variable unchanged (first match, as the C++ does); `call_seq` is the usual sequence of
   assignments outs_0 := r_0; outs_1 := r_1; ...; they coincide when the outs are pairwise
   distinct (call_seq_sem), which is the hypothesis NoDup outs of apply_set_sound_seq. *)
From Coq Require Import ZArith List Bool Lia.
From CrabV Require Import Ir.Syntax Ana.CfgSem Ana.CrawlerCall.
Import ListNotations.

Definition depends_only {A : Type} (f : store -> A) (V : vset) : Prop :=
  forall s s', agree V s s' -> f s = f s'.

Definition entry (fins ins : list N) (loc : N -> option Z) (s : store) : store :=
  fun x => match index_of x fins with
           | Some k => s (nth k ins x)
           | None => match loc x with Some z => z | None => s x end
           end.

Definition call_sem (outs fins ins : list N) (loc : N -> option Z)
           (callee : store -> list Z) (s : store) : store :=
  fun x => match index_of x outs with
           | Some j => nth j (callee (entry fins ins loc s)) 0%Z
           | None => s x
           end.

Definition assign_all (outs : list N) (vals : list Z) (s : store) : store :=
  fold_left (fun s ov => upd s (fst ov) (snd ov)) (combine outs vals) s.

Definition call_seq (outs fins ins : list N) (loc : N -> option Z)
           (callee : store -> list Z) (s : store) : store :=
  assign_all outs (callee (entry fins ins loc s)) s.

(* the j-th formal output is a function of the entry values of sdd[fouts_j] *)
Definition summary_ok (sdd : vmap) (fouts : list N) (callee : store -> list Z) : Prop :=
  forall j, (j < length fouts)%nat ->
            depends_only (fun e => nth j (callee e) 0%Z) (get (nth j fouts 0%N) sdd).

(* callee given as a function of the values of its formal inputs *)
Definition callee_of_list (fins : list N) (c : list Z -> list Z) : store -> list Z :=
  fun e => c (map e fins).
Definition summary_ok_list (sdd : vmap) (fins fouts : list N) (c : list Z -> list Z) : Prop :=
  forall j, (j < length fouts)%nat ->
  forall a a', length a = length fins -> length a' = length fins ->
    (forall k, (k < length fins)%nat -> In (nth k fins 0%N) (get (nth j fouts 0%N) sdd) ->
               nth k a 0%Z = nth k a' 0%Z) ->
    nth j (c a) 0%Z = nth j (c a') 0%Z.

Lemma index_of_lt x l j : index_of x l = Some j -> (j < length l)%nat /\ nth j l 0%N = x.
Proof.
  revert j. induction l as [|y r IH]; simpl; intros j H; [discriminate|].
  destruct (N.eqb_spec x y) as [->|NE].
  - injection H as <-. split; [lia|reflexivity].
  - destruct (index_of x r) as [k|]; [|discriminate]. injection H as <-.
    destruct (IH k eq_refl). split; [lia|assumption].
Qed.

Lemma index_of_None x l : index_of x l = None <-> ~ In x l.
Proof.
  induction l as [|y r IH]; simpl; [tauto|].
  destruct (N.eqb_spec x y) as [->|NE].
  - split; [discriminate|]. intros H. elim H. auto.
  - destruct (index_of x r); simpl; split; try discriminate; intuition congruence.
Qed.

Lemma index_of_nth_NoDup l k d :
  NoDup l -> (k < length l)%nat -> index_of (nth k l d) l = Some k.
Proof.
  intros ND. revert k. induction ND as [|y r NI ND IH]; simpl; intros k Hk; [lia|].
  destruct k as [|k]; [rewrite N.eqb_refl; reflexivity|].
  assert (Hk' : (k < length r)%nat) by lia.
  destruct (N.eqb_spec (nth k r d) y) as [E|_]; [|rewrite IH; auto].
  elim NI. rewrite <- E. apply nth_In, Hk'.
Qed.

(* callee_to_caller is the image under subst1, apply_set the union of the images *)
Lemma c2c_In x W fins ins :
  In x (callee_to_caller W fins ins) <-> exists v, In v W /\ x = subst1 fins ins v.
Proof.
  unfold callee_to_caller. induction W as [|w r IH]; simpl.
  - split; [tauto|]. intros [v [[] _]].
  - rewrite vadd_In, IH. split.
    + intros [H|[v [H1 H2]]]; [exists w; auto | exists v; auto].
    + intros [v [[H|H] H2]]; [subst; auto | right; exists v; auto].
Qed.

Lemma apply_set_In y sdd outs fouts fins ins V :
  In y (apply_set sdd outs fouts fins ins V) <->
  exists v, In v V /\
    In y (match index_of v outs with
          | None => [v]
          | Some j => callee_to_caller (get (nth j fouts 0%N) sdd) fins ins
          end).
Proof.
  rewrite <- in_flat_map. unfold apply_set. induction V as [|w r IH]; simpl; [tauto|].
  rewrite in_app_iff, <- IH. destruct (index_of w outs); [apply union_In|].
  rewrite vadd_In. simpl. split; [intros [->|H]; auto | intros [[->|[]]|H]; auto].
Qed.

(* a map over the values, the key in sight: apply_summary, rename_map, the first half of join *)
Lemma get_map (F : N -> vset -> vset) k m :
  haskey k m = true -> get k (map (fun kv => (fst kv, F (fst kv) (snd kv))) m) = F k (get k m).
Proof.
  induction m as [|[k' V] r IH]; simpl; [discriminate|].
  destruct (N.eqb_spec k k') as [->|NE]; simpl; auto.
Qed.

Lemma haskey_map (F : N -> vset -> vset) k m :
  haskey k (map (fun kv => (fst kv, F (fst kv) (snd kv))) m) = haskey k m.
Proof. induction m as [|[k' V] r IH]; simpl; [|rewrite IH]; reflexivity. Qed.

Lemma get_apply_summary k dpd sdd outs fouts fins ins :
  haskey k dpd = true ->
  get k (apply_summary dpd sdd outs fouts fins ins) = apply_set sdd outs fouts fins ins (get k dpd).
Proof. apply (get_map (fun _ => apply_set sdd outs fouts fins ins)). Qed.

Lemma haskey_apply_summary k dpd sdd outs fouts fins ins :
  haskey k (apply_summary dpd sdd outs fouts fins ins) = haskey k dpd.
Proof. apply (haskey_map (fun _ => apply_set sdd outs fouts fins ins)). Qed.

Lemma get_rename_map k m fins ins :
  haskey k m = true -> get k (rename_map m fins ins) = callee_to_caller (get k m) fins ins.
Proof. apply (get_map (fun _ V => callee_to_caller V fins ins)). Qed.

Lemma haskey_rename_map k m fins ins : haskey k (rename_map m fins ins) = haskey k m.
Proof. apply (haskey_map (fun _ V => callee_to_caller V fins ins)). Qed.

Lemma get_app k a c : get k (a ++ c) = if haskey k a then get k a else get k c.
Proof. induction a as [|[k' V] r IH]; simpl; [|destruct (N.eqb k k')]; auto. Qed.

Lemma haskey_app k a c : haskey k (a ++ c) = haskey k a || haskey k c.
Proof. induction a as [|[k' V] r IH]; simpl; [|rewrite IH, orb_assoc]; reflexivity. Qed.

Lemma get_nokey k m : haskey k m = false -> get k m = [].
Proof.
  induction m as [|[k' V] r IH]; simpl; auto.
  destruct (N.eqb k k'); simpl; [discriminate|auto].
Qed.

(* a filter on the keys that lets k through *)
Lemma filter_key (p : N -> bool) k m :
  p k = true ->
  get k (filter (fun kv : N * vset => p (fst kv)) m) = get k m /\
  haskey k (filter (fun kv : N * vset => p (fst kv)) m) = haskey k m.
Proof.
  intros H. induction m as [|[k' V] r [IH1 IH2]]; simpl; [auto|].
  destruct (N.eqb_spec k k') as [<-|NE].
  - rewrite H. simpl. rewrite N.eqb_refl. auto.
  - destruct (p k'); simpl; [apply N.eqb_neq in NE; rewrite NE|]; auto.
Qed.

(* the join of discrete_pair_domain is the pointwise union *)
Lemma join_In x k a b : In x (get k (join a b)) <-> In x (get k a) \/ In x (get k b).
Proof.
  unfold join. rewrite get_app, (haskey_map (fun k V => union V (get k b))).
  destruct (haskey k a) eqn:E.
  - rewrite (get_map (fun k V => union V (get k b))) by exact E. apply union_In.
  - destruct (filter_key (fun k => negb (haskey k a)) k b) as [G _]; [rewrite E; reflexivity|].
    rewrite G, (get_nokey k a E). simpl. tauto.
Qed.

Lemma haskey_join k a b : haskey k (join a b) = haskey k a || haskey k b.
Proof.
  unfold join. rewrite haskey_app, (haskey_map (fun k V => union V (get k b))).
  destruct (haskey k a) eqn:E; [reflexivity|].
  apply (filter_key (fun k => negb (haskey k a))). rewrite E. reflexivity.
Qed.

Lemma depends_only_mono {A} (f : store -> A) V V' :
  (forall x, In x V -> In x V') -> depends_only f V -> depends_only f V'.
Proof. intros H D s s' Ag. exact (D _ _ (agree_mono _ _ _ _ H Ag)). Qed.

Lemma entry_subst fins ins loc s x :
  entry fins ins loc s x = match index_of x fins with
                           | Some _ => s (subst1 fins ins x)
                           | None => match loc x with Some z => z | None => s (subst1 fins ins x) end
                           end.
Proof. unfold entry, subst1. destruct (index_of x fins); auto. Qed.

Lemma entry_agree W fins ins loc s s' :
  agree (callee_to_caller W fins ins) s s' ->
  agree W (entry fins ins loc s) (entry fins ins loc s').
Proof.
  intros Ag x Hx. rewrite !entry_subst.
  assert (E : s (subst1 fins ins x) = s' (subst1 fins ins x)).
  { apply Ag. apply c2c_In. exists x. auto. }
  destruct (index_of x fins); auto. destruct (loc x); auto.
Qed.

(* callee assertions: a condition of the callee that is a function of the entry values of W is,
   before the call, a function of the caller's values of callee_to_caller W *)
Theorem callee_to_caller_sound {A} (g : store -> A) W fins ins loc :
  depends_only g W ->
  depends_only (fun s => g (entry fins ins loc s)) (callee_to_caller W fins ins).
Proof. intros D s s' Ag. apply D. apply entry_agree. auto. Qed.

Theorem apply_set_sound {A} (f : store -> A) V sdd outs fouts fins ins loc callee :
  summary_ok sdd fouts callee ->
  length outs = length fouts ->
  depends_only f V ->
  depends_only (fun s => f (call_sem outs fins ins loc callee s))
               (apply_set sdd outs fouts fins ins V).
Proof.
  intros SO L D s s' Ag. apply D. intros x Hx. unfold call_sem.
  destruct (index_of x outs) as [j|] eqn:E.
  - destruct (index_of_lt _ _ _ E) as [Hj _]. rewrite L in Hj.
    apply (SO j Hj). apply entry_agree. intros y Hy. apply Ag.
    apply apply_set_In. exists x. rewrite E. auto.
  - apply Ag. apply apply_set_In. exists x. rewrite E. simpl. auto.
Qed.

Lemma assign_all_sem outs : forall vals s x,
  NoDup outs -> length vals = length outs ->
  assign_all outs vals s x = match index_of x outs with
                             | Some j => nth j vals 0%Z
                             | None => s x
                             end.
Proof.
  unfold assign_all. induction outs as [|o r IH]; intros vals s x ND L; simpl; auto.
  destruct vals as [|v vr]; [discriminate|]. apply NoDup_cons_iff in ND as [NI ND]. simpl.
  rewrite IH by (auto; simpl in L; lia). unfold upd.
  destruct (N.eqb_spec x o) as [->|NE].
  - apply index_of_None in NI. rewrite NI. reflexivity.
  - destruct (index_of x r); reflexivity.
Qed.

Lemma call_seq_sem outs fins ins loc callee s :
  NoDup outs -> length (callee (entry fins ins loc s)) = length outs ->
  forall x, call_seq outs fins ins loc callee s x = call_sem outs fins ins loc callee s x.
Proof. intros ND L x. unfold call_seq, call_sem. apply assign_all_sem; auto. Qed.

(* sequential assignment of pairwise distinct results *)
Theorem apply_set_sound_seq {A} (f : store -> A) V sdd outs fouts fins ins loc callee :
  summary_ok sdd fouts callee ->
  length outs = length fouts ->
  NoDup outs ->
  (forall e, length (callee e) = length fouts) ->
  depends_only f V ->
  depends_only (fun s => f (call_seq outs fins ins loc callee s))
               (apply_set sdd outs fouts fins ins V).
Proof.
  intros SO L ND LC D s s' Ag.
  assert (E : forall t, agree V (call_seq outs fins ins loc callee t) (call_sem outs fins ins loc callee t)).
  { intros t x _. apply call_seq_sem; auto. rewrite LC. auto. }
  rewrite (D _ _ (E s)), (D _ _ (E s')).
  apply (apply_set_sound f V sdd outs fouts fins ins loc callee SO L D). auto.
Qed.

(* callee as a function of the list of the values of its formal inputs *)
Lemma nth_map {A B} (f : A -> B) l k d d' :
  (k < length l)%nat -> nth k (map f l) d = f (nth k l d').
Proof. intros H. rewrite (nth_indep _ d (f d')) by (rewrite map_length; exact H). apply map_nth. Qed.

Lemma map_entry fins ins loc s :
  NoDup fins -> length ins = length fins -> map (entry fins ins loc s) fins = map s ins.
Proof.
  intros ND L. apply (nth_ext _ _ 0%Z 0%Z); rewrite !map_length; [auto|].
  intros k Hk. rewrite (nth_map _ fins k _ 0%N), (nth_map _ ins k _ 0%N) by (rewrite ?L; exact Hk).
  unfold entry. rewrite (index_of_nth_NoDup fins k 0%N ND Hk).
  f_equal. apply nth_indep. rewrite L. exact Hk.
Qed.

Lemma summary_ok_of_list sdd fins fouts c :
  summary_ok_list sdd fins fouts c -> summary_ok sdd fouts (callee_of_list fins c).
Proof.
  intros SO j Hj e e' Ag. unfold callee_of_list. apply SO; auto using map_length.
  intros k Hk Hin. rewrite !(nth_map _ fins k _ 0%N) by exact Hk. apply Ag, Hin.
Qed.

Definition call_list (outs ins : list N) (c : list Z -> list Z) (s : store) : store :=
  assign_all outs (c (map s ins)) s.

Theorem apply_set_sound_list {A} (f : store -> A) V sdd outs fouts fins ins c :
  summary_ok_list sdd fins fouts c ->
  length outs = length fouts -> length ins = length fins ->
  NoDup outs -> NoDup fins ->
  (forall a, length (c a) = length fouts) ->
  depends_only f V ->
  depends_only (fun s => f (call_list outs ins c s)) (apply_set sdd outs fouts fins ins V).
Proof.
  intros SO L1 L2 ND1 ND2 LC D.
  assert (E : forall s, call_list outs ins c s
                        = call_seq outs fins ins (fun _ => None) (callee_of_list fins c) s).
  { intros s. unfold call_list, call_seq, callee_of_list. rewrite map_entry; auto. }
  intros s s' Ag. rewrite !E.
  apply (apply_set_sound_seq f V sdd outs fouts fins ins (fun _ => None) (callee_of_list fins c)); auto.
  - apply summary_ok_of_list. auto.
  - intros e. apply LC.
Qed.

(* every fact of a map: the observation obs k depends only on the set bound to k *)
Definition facts_ok {A} (m : vmap) (obs : N -> store -> A) : Prop :=
  forall k, haskey k m = true -> depends_only (obs k) (get k m).

Theorem apply_summary_sound {A} (dpd : vmap) (obs : N -> store -> A) sdd outs fouts fins ins loc callee :
  summary_ok sdd fouts callee ->
  length outs = length fouts ->
  facts_ok dpd obs ->
  facts_ok (apply_summary dpd sdd outs fouts fins ins)
           (fun k s => obs k (call_sem outs fins ins loc callee s)).
Proof.
  intros SO L F k Hk. rewrite haskey_apply_summary in Hk.
  rewrite get_apply_summary by auto.
  apply (apply_set_sound (obs k)); auto.
Qed.

(* the caller's own summary dependencies: `rest` = the caller's outputs as a function of the store
   after the call; couts = the caller's formal outputs, the keys of sdm *)
Theorem caller_summary_compose sdm couts (rest : store -> list Z) sdd outs fouts fins ins loc callee :
  summary_ok sdd fouts callee ->
  length outs = length fouts ->
  (forall j, (j < length couts)%nat -> haskey (nth j couts 0%N) sdm = true) ->
  summary_ok sdm couts rest ->
  summary_ok (apply_summary sdm sdd outs fouts fins ins) couts
             (fun s => rest (call_sem outs fins ins loc callee s)).
Proof.
  intros SO L HK SR j Hj.
  rewrite get_apply_summary by auto.
  apply (apply_set_sound (fun e => nth j (rest e) 0%Z)); auto.
Qed.

(* the whole step.  obs k = condition of the caller's assertion k as a function of the store
   after the call; cobs k = condition of the callee's assertion k as a function of the callee's
   entry store.  An assertion id that is in both maps (the callee was already called further
   down) gets the union, which is sound for both readings. *)
Theorem callsite_step_sound {A} amd sdm camd csdd (obs cobs : N -> store -> A)
        couts (rest : store -> list Z) outs fouts fins ins loc callee :
  summary_ok csdd fouts callee ->
  length outs = length fouts ->
  facts_ok amd obs ->
  facts_ok camd cobs ->
  (forall j, (j < length couts)%nat -> haskey (nth j couts 0%N) sdm = true) ->
  summary_ok sdm couts rest ->
  let r := callsite_step (amd, sdm) (camd, csdd) outs fouts fins ins in
  (forall k, haskey k amd = true ->
             depends_only (fun s => obs k (call_sem outs fins ins loc callee s)) (get k (fst r))) /\
  (forall k, haskey k camd = true ->
             depends_only (fun s => cobs k (entry fins ins loc s)) (get k (fst r))) /\
  (forall k, haskey k (fst r) = true -> haskey k amd = true \/ haskey k camd = true) /\
  summary_ok (snd r) couts (fun s => rest (call_sem outs fins ins loc callee s)).
Proof.
  intros SO L F CF HK SR r. unfold r, callsite_step. simpl.
  split; [|split; [|split]].
  - intros k Hk.
    apply (depends_only_mono _ (get k (apply_summary amd csdd outs fouts fins ins))).
    + intros x Hx. apply join_In. auto.
    + apply (apply_summary_sound amd obs csdd outs fouts fins ins loc callee SO L F k).
      rewrite haskey_apply_summary. auto.
  - intros k Hk.
    apply (depends_only_mono _ (get k (rename_map camd fins ins))).
    + intros x Hx. apply join_In. auto.
    + rewrite get_rename_map by auto. apply callee_to_caller_sound. apply CF. auto.
  - intros k Hk. rewrite haskey_join, haskey_apply_summary, haskey_rename_map in Hk.
    apply orb_true_iff, Hk.
  - apply caller_summary_compose; auto.
Qed.

(* the defect inputs of e852a9c
   variables: p=1 q=2 r=3 a=4 x=5 o=6 i=7 *)
Example defect1_repaired :   (* f(p,q) returns (r): r := p - q;  main: (r) := f(q,p); assert(r >= 0) *)
  set_eqb (apply_set [(3, [1; 2])] [3] [3] [1; 2] [2; 1] [3])%N [1; 2]%N = true.
Proof. reflexivity. Qed.
Example defect1_old_refuted :
  mem 1%N (old_apply [(3, [1; 2])] [3] [3] [1; 2] [2; 1] [3])%N
  && mem 2%N (old_apply [(3, [1; 2])] [3] [3] [1; 2] [2; 1] [3])%N = false.
Proof. reflexivity. Qed.

Example defect2_repaired :   (* f(i) returns (o): o := i;  main: (x) := f(a); assert(x + o >= 0) *)
  set_eqb (apply_set [(6, [7])] [5] [6] [7] [4] [5; 6])%N [4; 6]%N = true.
Proof. reflexivity. Qed.
Example defect2_old_refuted :
  old_apply [(6, [7])]%N [5]%N [6]%N [7]%N [4]%N [5; 6]%N = [4]%N.
Proof. reflexivity. Qed.

Example defect3_repaired :   (* same f;  main: (x) := f(a); assert(x + i >= 0) *)
  set_eqb (apply_set [(6, [7])] [5] [6] [7] [4] [5; 7])%N [4; 7]%N = true.
Proof. reflexivity. Qed.
Example defect3_old_refuted :
  old_apply [(6, [7])]%N [5]%N [6]%N [7]%N [4]%N [5; 7]%N = [4]%N.
Proof. reflexivity. Qed.

(* the old answers are not sets the condition depends only on: semantic refutation on defect 1.
   callee r := p - q, condition r (its value), the two stores differ only outside the old set *)
Example defect1_old_unsound :
  let callee := fun e : store => [e 1%N - e 2%N]%Z in
  let f := fun s : store => s 3%N in
  let V := (old_apply [(3, [1; 2])] [3] [3] [1; 2] [2; 1] [3])%N in
  summary_ok [(3, [1; 2])]%N [3]%N callee /\ depends_only f [3]%N /\
  ~ depends_only (fun s => f (call_sem [3] [1; 2] [2; 1] (fun _ => None) callee s))%N V.
Proof.
  split; [|split].
  - intros j Hj e e' Ag. simpl in Hj. assert (j = 0)%nat by lia. subst. simpl.
    rewrite (Ag 1%N), (Ag 2%N); simpl; auto.
  - intros s s' Ag. apply Ag. simpl. auto.
  - intros D.
    assert (V0 : (old_apply [(3, [1; 2])] [3] [3] [1; 2] [2; 1] [3])%N = [1%N]) by (vm_compute; reflexivity).
    rewrite V0 in D.
    specialize (D (fun _ => 0%Z) (fun x => if N.eqb x 2 then 1%Z else 0%Z)).
    assert (Ag : agree [1%N] (fun _ : var => 0%Z) (fun x : var => if N.eqb x 2 then 1%Z else 0%Z)).
    { intros x [H|[]]. subst. reflexivity. }
    specialize (D Ag). vm_compute in D. discriminate.
Qed.

(* hypotheses are satisfiable by a non-trivial value: shared names and a permutation *)
Example callsite_step_example :
  (callsite_step ([(10, [3; 7])], [(3, [3])]) ([(20, [2; 9])], [(3, [1; 2])]) [3] [3] [1; 2] [2; 1])%N
  = ([(10, [2; 1; 7]); (20, [1; 9])], [(3, [2; 1])])%N.
Proof. reflexivity. Qed.
