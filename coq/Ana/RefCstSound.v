(* Proofs about Ana/RefCst.v: reference_constraint::negate() is the exact logical negation on every
   constraint the factory functions build (and on null < null / null <= null), it stays inside that
   set and is an involution on it; is_tautology / is_contradiction agree with the meaning; the rule
   of assert_property_checker::check(assert_ref_t&) is sound for every abstract domain whose
   ref_assume and is_bottom are sound.  Addresses are arbitrary integers, null = 0: no form is
   inexact (the unary forms p < null, p <= null, ... are negated into the complementary relation with the
   same operands, which is exact for any total order on addresses, signed or unsigned). *)
From Coq Require Import ZArith Bool List Lia ZifyBool.
From CrabV Require Import Ana.RefCst.
Import ListNotations.
Open Scope Z_scope.

(* the relation that holds exactly where k fails *)
Definition neg_kind (k : kind) : kind :=
  match k with
  | REF_EQ => REF_DISEQ | REF_DISEQ => REF_EQ
  | REF_LEQ => REF_GT | REF_LT => REF_GEQ | REF_GEQ => REF_LT | REF_GT => REF_LEQ
  end.

Lemma rel_negate k a b : rel (neg_kind k) a b = negb (rel k a b).
Proof. destruct k; cbn [rel neg_kind]; lia. Qed.

(* operands exchanged: the mirrored relation, the offset on the other side *)
Lemma rel_swap k a b o : rel (swap_operand k) b (a + - o) = rel k a (b + o).
Proof. destruct k; cbn [rel swap_operand]; lia. Qed.

(* the three shapes of a well-formed constraint; in the first, k is ==, !=, < or <= *)
Lemma wf_forms (P : refcst -> Prop) :
  (forall k, k <> REF_GT -> k <> REF_GEQ -> P (ctor None None 0 k)) ->
  (forall p k, P (ctor (Some p) None 0 k)) ->
  (forall p q o k, P (ctor (Some p) (Some q) o k)) ->
  forall c, wf c = true -> P c.
Proof.
  intros H0 H1 H2 [[p|] [q|] o k]; unfold wf; cbn [lhs rhs offset knd]; intros W.
  - apply H2.
  - apply Z.eqb_eq in W as ->. apply H1.
  - discriminate.
  - apply andb_prop in W as [W K2]. apply andb_prop in W as [W K1]. apply Z.eqb_eq in W as ->.
    apply H0; intros ->; discriminate.
Qed.

Lemma built_wf : forall c, built c -> wf c = true.
Proof. intros c []; reflexivity. Qed.

Lemma negate_defined : forall c, wf c = true -> negate_opt c = Some (negate c).
Proof. apply wf_forms; intros; destruct k; congruence || reflexivity. Qed.

Theorem negate_wf : forall c, wf c = true -> wf (negate c) = true.
Proof. apply wf_forms; intros; destruct k; congruence || reflexivity. Qed.

(* negate() in closed form on the unary and binary shapes: == and != are toggled in place, an
   ordering p REL q + k comes back as q REL' p - k *)
Lemma negate_unary p k : negate (ctor (Some p) None 0 k) = ctor (Some p) None 0 (neg_kind k).
Proof. destruct k; reflexivity. Qed.

Lemma negate_binary p q o k :
  negate (ctor (Some p) (Some q) o k) =
  match k with
  | REF_EQ | REF_DISEQ => ctor (Some p) (Some q) o (neg_kind k)
  | _ => ctor (Some q) (Some p) (- o) (swap_operand (neg_kind k))
  end.
Proof. destruct k; reflexivity. Qed.

Theorem negate_exact : forall rho c, wf c = true -> eval rho (negate c) = negb (eval rho c).
Proof.
  intros rho. apply wf_forms.
  - intros k K1 K2. destruct k; congruence || reflexivity.
  - intros p k. rewrite negate_unary. apply rel_negate.
  - intros p q o k. rewrite negate_binary.
    transitivity (eval rho (ctor (Some p) (Some q) o (neg_kind k))); [|apply rel_negate].
    destruct k; reflexivity || apply rel_swap.
Qed.

(* the one-sided consequence the checker needs *)
Corollary negate_covers : forall rho c, wf c = true -> eval rho c = false -> eval rho (negate c) = true.
Proof. intros rho c H E; rewrite negate_exact, E; auto. Qed.

Theorem negate_built : forall c, built c -> built (negate c).
Proof.
  intros c [].
  - apply b_false.
  - apply b_true.
  - rewrite negate_unary. apply b_unary.
  - rewrite negate_binary. destruct k; apply b_binary.
Qed.

Theorem negate_involutive : forall c, built c -> negate (negate c) = c.
Proof.
  intros c []; try reflexivity.
  - destruct k; reflexivity.
  - destruct k; unfold negate; cbn; rewrite ?Z.opp_involutive; reflexivity.
Qed.

Theorem tautology_sound : forall rho c, wf c = true -> is_tautology c = true -> eval rho c = true.
Proof.
  intros rho. apply (wf_forms (fun c => is_tautology c = true -> eval rho c = true)); try discriminate.
  intros k _ _. destruct k; discriminate || reflexivity.
Qed.

Theorem contradiction_sound : forall rho c, wf c = true -> is_contradiction c = true -> eval rho c = false.
Proof.
  intros rho. apply (wf_forms (fun c => is_contradiction c = true -> eval rho c = false)); try discriminate.
  intros k _ _. destruct k; discriminate || reflexivity.
Qed.

Theorem forms_partition : forall c, wf c = true ->
  match is_tautology c, is_contradiction c, is_unary c, is_binary c with
  | true, false, false, false | false, true, false, false
  | false, false, true, false | false, false, false, true => True
  | _, _, _, _ => False
  end.
Proof. apply wf_forms; intros; try exact I. destruct k; congruence || exact I. Qed.

Section Checker.
  Variable A : Type.
  Variable gamma : A -> (var -> Z) -> Prop.
  Variable ref_assume : A -> refcst -> A.
  Variable is_bottom : A -> bool.
  Hypothesis ref_assume_sound :
    forall a c rho, gamma a rho -> eval rho c = true -> gamma (ref_assume a c) rho.
  Hypothesis is_bottom_sound : forall a, is_bottom a = true -> forall rho, ~ gamma a rho.

  (* what the rule needs of negate: any `neg` that covers the complement is enough *)
  Theorem check_ref_with_safe_sound : forall neg a c,
    (forall rho, eval rho c = false -> eval rho (neg c) = true) ->
    check_ref_with neg is_bottom ref_assume a c = Safe -> forall rho, gamma a rho -> eval rho c = true.
  Proof.
    intros neg a c N H rho G. unfold check_ref_with in H.
    destruct (is_bottom a); try discriminate.
    destruct (is_bottom (ref_assume a (neg c))) eqn:B; try discriminate.
    destruct (eval rho c) eqn:E; auto.
    exfalso; apply (is_bottom_sound _ B rho). apply ref_assume_sound; auto.
  Qed.

  Theorem check_ref_safe_sound : forall a c, wf c = true ->
    check_ref is_bottom ref_assume a c = Safe -> forall rho, gamma a rho -> eval rho c = true.
  Proof.
    intros a c W. apply check_ref_with_safe_sound. intros rho. apply negate_covers, W.
  Qed.

  Theorem check_ref_unreach_sound : forall a c,
    check_ref is_bottom ref_assume a c = Unreach -> forall rho, ~ gamma a rho.
  Proof.
    intros a c H. unfold check_ref, check_ref_with in H.
    destruct (is_bottom a) eqn:B.
    - apply is_bottom_sound; auto.
    - destruct (is_bottom (ref_assume a (negate c))); discriminate.
  Qed.
End Checker.

(* the finite-list-of-stores domain of RefCst.v satisfies the hypotheses of the Section *)
Definition sd_gamma (a : sdom) (rho : var -> Z) : Prop :=
  exists s, In s a /\ forall v, s v = rho v.

Lemma eval_ext : forall s rho c, (forall v, s v = rho v) -> eval s c = eval rho c.
Proof.
  intros s rho [l r o k] H; unfold eval; cbn [lhs rhs offset knd].
  destruct l, r; cbn [val]; rewrite ?H; reflexivity.
Qed.

Lemma sd_assume_sound : forall a c rho, sd_gamma a rho -> eval rho c = true -> sd_gamma (sd_assume a c) rho.
Proof.
  intros a c rho (s & I & E) H. exists s; split; auto.
  apply filter_In; split; auto. rewrite (eval_ext s rho c E); exact H.
Qed.

Lemma sd_is_bottom_sound : forall a, sd_is_bottom a = true -> forall rho, ~ sd_gamma a rho.
Proof. intros [|s a] H rho (s' & I & _); [exact I | discriminate]. Qed.

Theorem sd_check_ref_safe_sound : forall a c, wf c = true ->
  check_ref sd_is_bottom sd_assume a c = Safe -> forall rho, sd_gamma a rho -> eval rho c = true.
Proof. exact (check_ref_safe_sound sdom sd_gamma sd_assume sd_is_bottom sd_assume_sound sd_is_bottom_sound). Qed.

(* p = variable 1, q = variable 2, every store has q = p + 4 *)
Definition st (p q : Z) : var -> Z := fun v => if N.eqb v 1 then p else if N.eqb v 2 then q else 0.
Definition vp : var := 1%N.
Definition vq : var := 2%N.
Definition q_is_p_plus_4 : sdom := [st 16 20; st 100 104; st 0 4; st (-8) (-4)].

Example ex_hyps_nontrivial : sd_gamma q_is_p_plus_4 (st 16 20) /\ wf (mk_ge vq vp 6) = true.
Proof. split; [exists (st 16 20); split; [left; reflexivity | reflexivity] | reflexivity]. Qed.

(* assert_ref(q >= p + 6) is a warning, assert_ref(q >= p + 2) is safe *)
Example ex_check_warning : check_ref sd_is_bottom sd_assume q_is_p_plus_4 (mk_ge vq vp 6) = Warning.
Proof. reflexivity. Qed.
Example ex_check_safe : check_ref sd_is_bottom sd_assume q_is_p_plus_4 (mk_ge vq vp 2) = Safe.
Proof. reflexivity. Qed.
Example ex_check_unreach : check_ref sd_is_bottom sd_assume [] (mk_ge vq vp 2) = Unreach.
Proof. reflexivity. Qed.
Example ex_negate_ge : negate (mk_ge vq vp 6) = MkCst (Some 1%N) (Some 2%N) (-6) REF_GT.
Proof. reflexivity. Qed.

(* the wrong negation `p >= q + k --> q > p + k` (sign of the offset dropped) is not a negation ... *)
Example negate_wrong_seeded_negation_refuted :
  exists rho c, wf c = true /\ eval rho (negate_wrong c) <> negb (eval rho c).
Proof. exists (st 0 4), (mk_ge vq vp 6); split; [reflexivity | vm_compute; discriminate]. Qed.

(* ... and with it the checker reports the false assertion q >= p + 6 safe *)
Example negate_wrong_seeded_checker_unsound :
  check_ref_with negate_wrong sd_is_bottom sd_assume q_is_p_plus_4 (mk_ge vq vp 6) = Safe /\
  sd_gamma q_is_p_plus_4 (st 16 20) /\ eval (st 16 20) (mk_ge vq vp 6) = false.
Proof.
  split; [vm_compute; reflexivity | split; [| vm_compute; reflexivity]].
  exists (st 16 20); split; [left; reflexivity | reflexivity].
Qed.
