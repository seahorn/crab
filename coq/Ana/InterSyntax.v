(* InterSyntax.v — programs with functions and callsites (the fragment of CrabIR used by the
   inter-procedural analyzers): a program is a list of functions (function i is called by
   index), each with formal inputs, formal outputs, a CFG whose entry is block 0 and an
   optional exit block; a statement is a statement of Ir/Cfg.v or a callsite
   (outs) := f(ins).

   Crab identifies variables by name across functions: all functions draw their variables
   from one name space [var], so caller and callee may use the same names.

   Well-formedness (iprog_wfb, the executable form of "well-formed functions"): formal inputs
   and outputs of a function are pairwise distinct (function_decl's constructor demands it);
   a function never assigns its formal inputs (the assumption stated at the top of
   top_down_inter_analyzer.hpp: inputs are read-only); a callsite has as many actual
   parameters / lhs variables as its callee has inputs / outputs (call_graph::type_check) and
   its lhs variables are pairwise distinct; the formal parameters and the variables of every
   callsite are below [voff], the first name used for the fresh copies of formal parameters
   (the variables of the other statements are not constrained). *)
From Coq Require Import ZArith NArith List Bool Arith Lia.
From CrabV Require Import Ir.Syntax Ir.Cfg Dom.ItvDomain Dom.ItvDomainSound Dom.ItvSolverSound Ana.Transformer.
Import ListNotations.

Inductive istmt :=
| IBase (s : stmt)
| ICall (outs : list var) (f : nat) (ins : list var).
Definition iblock := list istmt.

Record func := mkFunc {
  f_ins : list var; f_outs : list var;
  f_blocks : list iblock; f_edges : list (nat * nat); f_exit : option nat }.
Definition iprog := list func.

Definition dummy_func : func := mkFunc [] [] [] [] None.
Definition get_fn (p : iprog) (f : nat) : func := nth f p dummy_func.
Definition fn_block (fn : func) (n : nat) : iblock := nth n (f_blocks fn) [].
Definition fn_nblocks (fn : func) : nat := length (f_blocks fn).
Definition fn_formals (fn : func) : list var := f_ins fn ++ f_outs fn.

Definition vmem (x : var) (l : list var) : bool := existsb (N.eqb x) l.

Lemma vmem_spec x l : vmem x l = true <-> In x l.
Proof.
  unfold vmem. rewrite existsb_exists. split.
  - intros (y & I & E). apply N.eqb_eq in E. subst. exact I.
  - intros I. exists x. split; auto. apply N.eqb_refl.
Qed.
Lemma vmem_false x l : vmem x l = false <-> ~ In x l.
Proof.
  rewrite <- vmem_spec. destruct (vmem x l); split; congruence.
Qed.

(* variables assigned by a statement *)
Definition stmt_defs (s : stmt) : list var :=
  match s with
  | SAssign x _ | SArith _ x _ _ | SBit _ x _ _ | SHavoc x | SSelect x _ _ _ => [x]
  | _ => []
  end.
Definition istmt_defs (s : istmt) : list var :=
  match s with IBase s => stmt_defs s | ICall outs _ _ => outs end.

Fixpoint nodupb (l : list var) : bool :=
  match l with [] => true | x :: r => negb (vmem x r) && nodupb r end.
Lemma nodupb_sound l : nodupb l = true -> NoDup l.
Proof.
  induction l as [|x r IH]; simpl; intros H; [constructor|].
  apply andb_true_iff in H. destruct H as [H1 H2]. constructor; auto.
  apply negb_true_iff in H1. apply vmem_false in H1. exact H1.
Qed.

Definition below (voff : N) (l : list var) : bool := forallb (fun x => N.ltb x voff) l.
Lemma below_spec voff l : below voff l = true -> forall x, In x l -> (x < voff)%N.
Proof. unfold below. rewrite forallb_forall. intros H x I. apply N.ltb_lt. auto. Qed.

Definition istmt_wfb (p : iprog) (voff : N) (fn : func) (s : istmt) : bool :=
  match s with
  | IBase s => stmt_wfb s && forallb (fun x => negb (vmem x (f_ins fn))) (stmt_defs s)
  | ICall outs g ins =>
    (g <? length p) &&
    (length ins =? length (f_ins (get_fn p g))) && (length outs =? length (f_outs (get_fn p g))) &&
    forallb (fun x => negb (vmem x (f_ins fn))) outs && nodupb outs &&
    below voff ins && below voff outs
  end.

Definition func_wfb (p : iprog) (voff : N) (fn : func) : bool :=
  nodupb (fn_formals fn) && below voff (fn_formals fn) &&
  (0 <? fn_nblocks fn) &&
  forallb (fun e => (fst e <? fn_nblocks fn) && (snd e <? fn_nblocks fn)) (f_edges fn) &&
  forallb (fun b => forallb (istmt_wfb p voff fn) b) (f_blocks fn).

Definition iprog_wfb (p : iprog) (voff : N) : bool := forallb (func_wfb p voff) p.

Lemma get_fn_in p f : f < length p -> In (get_fn p f) p.
Proof. intros. unfold get_fn. apply nth_In. auto. Qed.

Lemma fn_block_in fn n s : In s (fn_block fn n) -> In (fn_block fn n) (f_blocks fn).
Proof.
  unfold fn_block. intros I. destruct (nth_in_or_default n (f_blocks fn) []) as [J|E]; auto.
  rewrite E in I. destruct I.
Qed.

Lemma wf_func p voff f : iprog_wfb p voff = true -> f < length p -> func_wfb p voff (get_fn p f) = true.
Proof. unfold iprog_wfb. rewrite forallb_forall. intros H L. apply H. apply get_fn_in. auto. Qed.

Lemma wf_istmt p voff fn n s : func_wfb p voff fn = true -> In s (fn_block fn n) -> istmt_wfb p voff fn s = true.
Proof.
  unfold func_wfb. intros H I. apply andb_true_iff in H. destruct H as [_ H].
  rewrite forallb_forall in H. specialize (H _ (fn_block_in _ _ _ I)). rewrite forallb_forall in H. auto.
Qed.
