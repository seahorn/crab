(* DceSound.v — dead-code elimination preserves behaviour.

   One round (dce_apply P m, m any solution of the liveness equations of P) and the whole loop
   (dce): every execution of the original from the entry has an execution of the transformed
   CFG with the SAME trace (branches, assume / assertion outcomes, outputs at the exit), ending
   in a configuration of the same kind (running at the same block / finished / failed); the
   removed statements are silent steps.  Conversely, provided no removed statement can fail
   (the proviso of the property: e.g. a removed division whose divisor may be 0), every
   execution of the transformed CFG comes from an execution of the original with the same
   trace.  The graph (blocks, edges, entry, exit, outputs) is unchanged. *)
From Coq Require Import ZArith List Bool Lia.
From CrabV Require Import Ir.Syntax Ana.CfgSem Ana.Liveness Ana.LivenessSound Ana.Dce.
Import ListNotations.

(* the sweep, statement by statement *)
Definition dce_run (ss : list stmt) (out : vset) : vset := snd (fst (dce_stmts ss out)).

Lemma dce_stmts_cons s r out :
  dce_stmts (s :: r) out =
  if dce_removes s (dce_run r out)
  then (dce_kept r out, dce_live s (dce_run r out), s :: dce_removed r out)
  else (s :: dce_kept r out, dce_live s (dce_run r out), dce_removed r out).
Proof.
  unfold dce_run, dce_kept, dce_removed. simpl.
  destruct (dce_stmts r out) as [[r' L] rm]. simpl. destruct (dce_removes s L); reflexivity.
Qed.

Lemma dce_kept_cons s r out :
  dce_kept (s :: r) out = if dce_removes s (dce_run r out) then dce_kept r out else s :: dce_kept r out.
Proof.
  unfold dce_kept at 1. rewrite dce_stmts_cons. destruct (dce_removes s (dce_run r out)); reflexivity.
Qed.
Lemma dce_removed_cons s r out :
  dce_removed (s :: r) out = if dce_removes s (dce_run r out) then s :: dce_removed r out else dce_removed r out.
Proof.
  unfold dce_removed at 1. rewrite dce_stmts_cons. destruct (dce_removes s (dce_run r out)); reflexivity.
Qed.
Lemma dce_run_cons s r out : dce_run (s :: r) out = dce_live s (dce_run r out).
Proof.
  unfold dce_run at 1. rewrite dce_stmts_cons. destruct (dce_removes s (dce_run r out)); reflexivity.
Qed.
Lemma dce_kept_nil out : dce_kept [] out = [].
Proof. reflexivity. Qed.

(* the running set of the sweep contains the live variables (it ignores `unreachable`) *)
Lemma dce_run_ge r out x : In x (live_stmts r out) -> In x (dce_run r out).
Proof.
  revert x. induction r as [|s r IH]; intros x; [auto|].
  rewrite dce_run_cons. simpl. unfold live_stmt, dce_live.
  destruct (is_unreach s); [simpl; tauto|].
  rewrite !union_In, !diff_In. intros [H|[H1 H2]]; auto.
Qed.

Lemma dce_removed_suffix pre rest out st :
  In st (dce_removed rest out) -> In st (dce_removed (pre ++ rest) out).
Proof.
  induction pre as [|p pre IH]; simpl; auto. intros H.
  rewrite dce_removed_cons. destruct (dce_removes p _); simpl; auto.
Qed.

Lemma exec_stmt_def s x st ev st' :
  defs s = [x] -> exec_stmt s st ev st' -> ev = [] /\ exists v, st' = upd st x v.
Proof. intros D X. destruct X; simpl in D; inversion D; subst; eauto. Qed.

(* a removed statement defines a variable that is not live after it *)
Lemma removed_shape s L :
  dce_removes s L = true -> exists x, defs s = [x] /\ ~ In x L /\ is_unreach s = false.
Proof.
  unfold dce_removes, included_defs. rewrite andb_true_iff, !negb_true_iff.
  intros [K I].
  destruct s; simpl in *; try discriminate;
    rewrite andb_true_r in I; apply mem_false in I; eauto.
Qed.

Section Round.
Variable P : cfg.
Variable m : lmap.
Hypothesis SOL : is_solution P m.

Let P' := dce_apply P m.

Lemma dce_get_block l :
  get_block P' l =
  match get_block P l with
  | Some b => Some (mkBlock (dce_kept (b_stmts b) (live_out P m l)) (b_prev b) (b_next b))
  | None => None
  end.
Proof.
  unfold get_block, P', dce_apply, dce_blocks. simpl.
  rewrite (lookup_map (fun lb => mkBlock (dce_kept (b_stmts (snd lb)) (live_out P m (fst lb)))
                                                (b_prev (snd lb)) (b_next (snd lb)))).
  destruct (lookup l (c_blocks P)); reflexivity.
Qed.

Lemma dce_succs l : succs P' l = succs P l.
Proof. unfold succs. rewrite dce_get_block. destruct (get_block P l); reflexivity. Qed.
Lemma dce_preds l : preds P' l = preds P l.
Proof. unfold preds. rewrite dce_get_block. destruct (get_block P l); reflexivity. Qed.
Lemma dce_stmts_of l : stmts_of P' l = dce_kept (stmts_of P l) (live_out P m l).
Proof. unfold stmts_of. rewrite dce_get_block. destruct (get_block P l); reflexivity. Qed.
Lemma dce_labels : labels P' = labels P.
Proof. unfold labels, P', dce_apply, dce_blocks. simpl. rewrite map_map. reflexivity. Qed.

(* original configuration ~ transformed configuration *)
Inductive rel : config -> config -> Prop :=
| RelRun l pre rest s s' :
    stmts_of P l = pre ++ rest ->
    agree (live_stmts rest (live_out P m l)) s s' ->
    rel (Run l rest s) (Run l (dce_kept rest (live_out P m l)) s')
| RelDone : rel Done Done
| RelErr : rel Err Err.

Lemma rel_init s : rel (init P s) (init P' s).
Proof.
  unfold init. change (c_entry P') with (c_entry P). rewrite dce_stmts_of.
  apply (RelRun _ []); [reflexivity|apply agree_refl].
Qed.

Lemma agree_after_removed st r out s s' x v :
  defs st = [x] -> is_unreach st = false -> ~ In x (live_stmts r out) ->
  agree (live_stmts (st :: r) out) s s' -> agree (live_stmts r out) (upd s x v) s'.
Proof.
  intros D U NX A y Hy. unfold upd. destruct (N.eqb_spec y x); [subst; contradiction|].
  apply A. simpl. unfold live_stmt. rewrite U, D. apply union_In. right. apply diff_In.
  split; auto. simpl. intros [?|[]]. congruence.
Qed.

Lemma goto_rel l l' b' s s' :
  In l' (succs P l) -> get_block P l' = Some b' -> agree (live_out P m l) s s' ->
  step P' (Run l [] s') [EvGoto l'] (Run l' (dce_kept (b_stmts b') (live_out P m l')) s') /\
  rel (Run l' (b_stmts b') s) (Run l' (dce_kept (b_stmts b') (live_out P m l')) s').
Proof.
  intros Hl Hb A. split.
  - set (nb := mkBlock (dce_kept (b_stmts b') (live_out P m l')) (b_prev b') (b_next b')).
    assert (G : get_block P' l' = Some nb) by (rewrite dce_get_block, Hb; reflexivity).
    change (dce_kept (b_stmts b') (live_out P m l')) with (b_stmts nb).
    apply (StGoto P' l l' nb s'); [rewrite dce_succs; auto|exact G].
  - apply (RelRun _ []); [unfold stmts_of; rewrite Hb; reflexivity|].
    intros x Hx. apply A. eapply live_in_succ; eauto.
Qed.

Lemma exit_step l s s' :
  c_exit P = Some l -> agree (live_out P m l) s s' ->
  step P' (Run l [] s') [EvExit (map s (c_outs P))] Done.
Proof.
  intros He A. rewrite (agree_exit_outs P m l s s' He A). apply (StExit P'). exact He.
Qed.

(* forward: a step of the original is matched by zero or one step of the transformed CFG *)
Lemma fwd_step c c' ev c1 :
  rel c c' -> step P c ev c1 ->
  (ev = [] /\ rel c1 c') \/ exists c1', step P' c' ev c1' /\ rel c1 c1'.
Proof.
  intros R St.
  destruct St as [l st r s ev s1 X | l c0 id r s F | l l' b' s Hl Hb | l s He];
    inversion R as [l0 pre rest0 s0 s' Hpre A| |]; subst.
  - (* statement *)
    rewrite dce_kept_cons.
    assert (Hpre' : stmts_of P l = (pre ++ [st]) ++ r) by (rewrite <- app_assoc; exact Hpre).
    destruct (dce_removes st (dce_run r (live_out P m l))) eqn:RM.
    + left. destruct (removed_shape _ _ RM) as [x [D [NX U]]].
      destruct (exec_stmt_def _ _ _ _ _ D X) as [-> [v ->]]. split; auto.
      apply (RelRun _ (pre ++ [st])); auto.
      eapply agree_after_removed; eauto. intros Hx. apply NX. apply dce_run_ge. exact Hx.
    + right. simpl in A. destruct (exec_stmt_agree _ _ _ _ _ _ A X) as [s1' [X' A']].
      exists (Run l (dce_kept r (live_out P m l)) s1'). split; [constructor; auto|].
      apply (RelRun _ (pre ++ [st])); auto.
  - (* failing assertion: kept *)
    right. rewrite dce_kept_cons.
    assert (RM : dce_removes (SAssert c0 id) (dce_run r (live_out P m l)) = false) by reflexivity.
    rewrite RM. simpl in A.
    assert (AU : agree (lc_vars c0) s s') by (apply (agree_live_uses (SAssert c0 id) _ _ _ eq_refl A)).
    exists Err. split; [|constructor]. constructor. rewrite <- (satb_agree c0 s s' AU). exact F.
  - (* goto *)
    right. rewrite dce_kept_nil. simpl in A.
    destruct (goto_rel l l' b' s s' Hl Hb A) as [S1 R1]. eauto.
  - (* exit *)
    right. rewrite dce_kept_nil. simpl in A. exists Done. split; [|constructor].
    apply exit_step; auto.
Qed.

Lemma fwd_star c c' tr c1 :
  rel c c' -> star P c tr c1 -> exists c1', star P' c' tr c1' /\ rel c1 c1'.
Proof.
  intros R St. revert c' R. induction St as [c|c ev c1 tr c2 S1 St IH]; intros c' R.
  - exists c'. split; [constructor|auto].
  - destruct (fwd_step _ _ _ _ R S1) as [[-> R1]|[c1' [S1' R1]]].
    + simpl. apply IH. exact R1.
    + destruct (IH _ R1) as [c2' [St' R2]]. exists c2'. split; auto. econstructor; eauto.
Qed.

(* the proviso: a statement that can always be executed *)
Definition no_fail (st : stmt) : Prop := forall s, exists s1, exec_stmt st s [] s1.

Definition removed_ok : Prop :=
  forall l b st, get_block P l = Some b ->
                 In st (dce_removed (b_stmts b) (live_out P m l)) -> no_fail st.

(* backward: a step of the transformed CFG is matched by the silent steps over the removed
   statements followed by the same step *)
Lemma bwd_step :
  removed_ok ->
  forall rest l pre s s' ev c1',
  stmts_of P l = pre ++ rest ->
  agree (live_stmts rest (live_out P m l)) s s' ->
  step P' (Run l (dce_kept rest (live_out P m l)) s') ev c1' ->
  exists c1, star P (Run l rest s) ev c1 /\ rel c1 c1'.
Proof.
  intros OK rest. induction rest as [|st r IH]; intros l pre s s' ev c1' Hpre A St.
  - rewrite dce_kept_nil in St. simpl in A.
    destruct (step_inv _ _ _ _ St) as [(l' & b'' & Hl' & Hb' & -> & ->)|(He' & -> & ->)].
    + (* goto *)
      rewrite dce_succs in Hl'. rewrite dce_get_block in Hb'.
      destruct (get_block P l') as [b|] eqn:Hb; [|discriminate]. inversion Hb'; subst. simpl.
      exists (Run l' (b_stmts b) s). split; [apply star_one; econstructor; eauto|].
      apply (goto_rel l l' b s s'); auto.
    + (* exit *)
      change (c_exit P') with (c_exit P) in He'. change (c_outs P') with (c_outs P).
      exists Done. split; [|constructor]. apply star_one.
      rewrite <- (agree_exit_outs P m l s s' He' A). apply StExit. exact He'.
  - assert (Hpre' : stmts_of P l = (pre ++ [st]) ++ r) by (rewrite <- app_assoc; exact Hpre).
    rewrite dce_kept_cons in St.
    destruct (dce_removes st (dce_run r (live_out P m l))) eqn:RM.
    + (* removed: the original executes it silently *)
      destruct (removed_shape _ _ RM) as [x [D [NX U]]].
      assert (NF : no_fail st).
      { unfold stmts_of in Hpre. destruct (get_block P l) as [b|] eqn:Hb.
        - apply (OK l b st Hb). rewrite Hpre. apply dce_removed_suffix.
          rewrite dce_removed_cons, RM. simpl; auto.
        - destruct pre; discriminate. }
      destruct (NF s) as [s1 X]. destruct (exec_stmt_def _ _ _ _ _ D X) as [_ [v ->]].
      assert (A1 : agree (live_stmts r (live_out P m l)) (upd s x v) s').
      { eapply agree_after_removed; eauto. intros Hx. apply NX. apply dce_run_ge. exact Hx. }
      destruct (IH l (pre ++ [st]) _ _ _ _ Hpre' A1 St) as [c1 [S1 R1]].
      exists c1. split; auto. change ev with ([] ++ ev). eapply StarStep; [|exact S1].
      constructor. exact X.
    + (* kept *)
      simpl in A. destruct (step_inv _ _ _ _ St) as [(s1' & X' & ->)|(c & id & -> & F' & -> & ->)].
      * destruct (exec_stmt_agree _ _ _ _ _ _ (agree_sym _ _ _ A) X') as [s1 [X A']].
        exists (Run l r s1). split; [apply star_one; constructor; auto|].
        apply (RelRun _ (pre ++ [st])); auto. apply agree_sym. exact A'.
      * assert (AU : agree (lc_vars c) s s') by (apply (agree_live_uses (SAssert c id) _ _ _ eq_refl A)).
        exists Err. split; [|constructor]. apply star_one. constructor.
        rewrite (satb_agree c s s' AU). auto.
Qed.

Lemma bwd_star c c' tr c1' :
  removed_ok -> rel c c' -> star P' c' tr c1' -> exists c1, star P c tr c1 /\ rel c1 c1'.
Proof.
  intros OK R St. revert c R. induction St as [c'|c' ev c1' tr c2' S1 St IH]; intros c R.
  - exists c. split; [constructor|auto].
  - assert (E : exists c1, star P c ev c1 /\ rel c1 c1').
    { inversion R as [l pre rest s s' Hpre A| |]; subst.
      - eapply bwd_step; eauto.
      - inversion S1.
      - inversion S1. }
    destruct E as [c1 [S0 R1]]. destruct (IH _ R1) as [c2 [S2 R2]].
    exists c2. split; auto. eapply star_trans; eauto.
Qed.

End Round.

Inductive outcome := ORunning | ODone | OErr.
Definition kind (c : config) : outcome :=
  match c with Run _ _ _ => ORunning | Done => ODone | Err => OErr end.

(* an execution from the entry with initial store s, trace tr, ending in a configuration of kind o *)
Definition beh (P : cfg) (s : store) (tr : list event) (o : outcome) : Prop :=
  exists c, star P (init P s) tr c /\ kind c = o.

Lemma rel_kind P m c c' : rel P m c c' -> kind c = kind c'.
Proof. destruct 1; reflexivity. Qed.

Theorem dce_round_forward P m s tr o :
  is_solution P m -> beh P s tr o -> beh (dce_apply P m) s tr o.
Proof.
  intros SOL [c [St K]].
  destruct (fwd_star P m SOL _ _ _ _ (rel_init P m s) St) as [c' [St' R]].
  exists c'. split; auto. rewrite <- (rel_kind _ _ _ _ R). exact K.
Qed.

Theorem dce_round_backward P m s tr o :
  is_solution P m -> removed_ok P m -> beh (dce_apply P m) s tr o -> beh P s tr o.
Proof.
  intros SOL OK [c' [St' K]].
  destruct (bwd_star P m SOL _ _ _ _ OK (rel_init P m s) St') as [c [St R]].
  exists c. split; auto. rewrite (rel_kind _ _ _ _ R). exact K.
Qed.

(* the proviso for all rounds: no statement removed in any round can fail *)
Fixpoint dce_provisos (n : nat) (P : cfg) : Prop :=
  match n with
  | O => True
  | S k => match liveness P with
           | None => True
           | Some m => removed_ok P m /\
                       (if nonempty (dce_round_removed P m) then dce_provisos k (dce_apply P m) else True)
           end
  end.

Lemma dce_loop_forward n P Q s tr o : dce_loop n P = Some Q -> beh P s tr o -> beh Q s tr o.
Proof.
  revert P. induction n as [|k IH]; simpl; intros P H B.
  - inversion H; subst; auto.
  - unfold dce_round in H. destruct (liveness P) as [m|] eqn:L; [|discriminate].
    pose proof (dce_round_forward P m s tr o (liveness_is_solution _ _ L) B) as B1.
    destruct (nonempty (dce_round_removed P m)).
    + eapply IH; eauto.
    + inversion H; subst; auto.
Qed.

Lemma dce_loop_backward n P Q s tr o :
  dce_loop n P = Some Q -> dce_provisos n P -> beh Q s tr o -> beh P s tr o.
Proof.
  revert P. induction n as [|k IH]; simpl; intros P H OK B.
  - inversion H; subst; auto.
  - unfold dce_round in H. destruct (liveness P) as [m|] eqn:L; [|discriminate].
    destruct OK as [OK1 OK2].
    apply (dce_round_backward P m s tr o (liveness_is_solution _ _ L) OK1).
    destruct (nonempty (dce_round_removed P m)).
    + eapply IH; eauto.
    + inversion H; subst; auto.
Qed.

Theorem dce_forward P Q s tr o : dce P = Some Q -> beh P s tr o -> beh Q s tr o.
Proof. apply dce_loop_forward. Qed.

Theorem dce_backward P Q s tr o : dce P = Some Q -> dce_provisos 10 P -> beh Q s tr o -> beh P s tr o.
Proof. apply dce_loop_backward. Qed.

(* the property's reading for the executions that end at the exit block *)
Theorem dce_preserves_exit_executions P Q :
  dce P = Some Q ->
  (forall s tr, star P (init P s) tr Done -> star Q (init Q s) tr Done) /\
  (dce_provisos 10 P -> forall s tr, star Q (init Q s) tr Done -> star P (init P s) tr Done).
Proof.
  intros H. split.
  - intros s tr St. destruct (dce_forward P Q s tr ODone H) as [c [St' K]].
    + exists Done. auto.
    + destruct c; try discriminate. exact St'.
  - intros OK s tr St. destruct (dce_backward P Q s tr ODone H OK) as [c [St' K]].
    + exists Done. auto.
    + destruct c; try discriminate. exact St'.
Qed.

Definition same_graph (P Q : cfg) : Prop :=
  c_entry Q = c_entry P /\ c_exit Q = c_exit P /\ c_outs Q = c_outs P /\ labels Q = labels P /\
  forall l, succs Q l = succs P l /\ preds Q l = preds P l.

Lemma same_graph_refl P : same_graph P P.
Proof. repeat split; auto. Qed.
Lemma same_graph_trans P Q R : same_graph P Q -> same_graph Q R -> same_graph P R.
Proof.
  intros (A1 & A2 & A3 & A4 & A5) (B1 & B2 & B3 & B4 & B5).
  repeat split; try congruence; destruct (A5 l), (B5 l); congruence.
Qed.
Lemma dce_apply_same_graph P m : same_graph P (dce_apply P m).
Proof.
  repeat split; auto.
  - apply dce_labels.
  - apply dce_succs.
  - apply dce_preds.
Qed.

Theorem dce_same_graph P Q : dce P = Some Q -> same_graph P Q.
Proof.
  unfold dce. generalize 10. intros n. revert P. induction n as [|k IH]; simpl; intros P H.
  - inversion H; subst. apply same_graph_refl.
  - unfold dce_round in H. destruct (liveness P) as [m|]; [|discriminate].
    destruct (nonempty (dce_round_removed P m)).
    + eapply same_graph_trans; [apply dce_apply_same_graph|apply IH; exact H].
    + inversion H; subst. apply dce_apply_same_graph.
Qed.

(* statements that cannot fail *)
Lemma no_fail_assign x e : no_fail (SAssign x e).
Proof. intros s. eexists. constructor. Qed.
Lemma no_fail_havoc x : no_fail (SHavoc x).
Proof. intros s. exists (upd s x 0%Z). constructor. Qed.
Lemma no_fail_select x c e1 e2 : no_fail (SSelect x c e1 e2).
Proof. intros s. eexists. constructor. Qed.
Lemma no_fail_add x y z : no_fail (SArith OpAdd x y z).
Proof. intros s. eexists. constructor. reflexivity. Qed.

Lemma removed_ok_round P m : (forall st, In st (dce_round_removed P m) -> no_fail st) -> removed_ok P m.
Proof.
  intros H l b st Hb Hin. apply H. unfold dce_round_removed. apply in_flat_map.
  exists (l, b). split; [apply lookup_In; exact Hb|exact Hin].
Qed.

(* b0: z := 7; x := 5; goto b1.   b1 (exit): y := x     (output y): z := 7 is removed *)
Definition ex_cfg : cfg :=
  mkCfg 0%N (Some 1%N)
        [(0%N, mkBlock [SAssign 2%N (mkLE [] 7%Z); SAssign 0%N (mkLE [] 5%Z)] [] [1%N]);
         (1%N, mkBlock [SAssign 1%N (mkLE [(1%Z, 0%N)] 0%Z)] [0%N] [])]
        [1%N].
Example ex_dce : exists Q, dce ex_cfg = Some Q /\
  stmts_of Q 0%N = [SAssign 0%N (mkLE [] 5%Z)] /\ stmts_of Q 1%N = stmts_of ex_cfg 1%N.
Proof. eexists. split; [vm_compute; reflexivity|]. vm_compute. auto. Qed.
Example ex_provisos : dce_provisos 10 ex_cfg.
Proof.
  assert (L : exists m, liveness ex_cfg = Some m /\ dce_round_removed ex_cfg m = [SAssign 2%N (mkLE [] 7%Z)]
                             /\ exists m2, liveness (dce_apply ex_cfg m) = Some m2 /\ dce_round_removed (dce_apply ex_cfg m) m2 = []).
  { eexists. split; [vm_compute; reflexivity|]. split; [vm_compute; reflexivity|].
    eexists. split; vm_compute; reflexivity. }
  destruct L as [m [L1 [L2 [m2 [L3 L4]]]]].
  cbn -[liveness dce_round_removed dce_apply nonempty removed_ok ex_cfg]. rewrite L1. split.
  - apply removed_ok_round. rewrite L2. intros st [<-|[]]. apply no_fail_assign.
  - rewrite L2. cbn -[liveness dce_round_removed dce_apply removed_ok ex_cfg]. rewrite L3.
    split; [|rewrite L4; simpl; auto].
    apply removed_ok_round. rewrite L4. intros st [].
Qed.

(* the proviso is necessary: b0 (entry and exit): x := y / z with x dead.  DCE removes the division;
   from a store with z = 0 the transformed CFG finishes, the original has no successor state *)
Definition ex_div : cfg :=
  mkCfg 0%N (Some 0%N) [(0%N, mkBlock [SArith OpSDiv 0%N 1%N (OVar 2%N)] [] [])] [].
Example ex_proviso_needed : exists Q, dce ex_div = Some Q /\
  star Q (init Q (fun _ => 0%Z)) [EvExit []] Done /\
  ~ star ex_div (init ex_div (fun _ => 0%Z)) [EvExit []] Done.
Proof.
  eexists. split; [vm_compute; reflexivity|]. split.
  - match goal with |- star ?Q _ _ _ =>
      change (star Q (Run 0%N [] (fun _ : var => 0%Z)) [EvExit (map (fun _ : var => 0%Z) (c_outs Q))] Done) end.
    apply star_one. apply StExit. reflexivity.
  - intros H. inversion H as [|c ev c1 tr c2 S1 St E1 E2 E3]; subst.
    inversion S1 as [l st r s ev0 s1 X | | |]; subst.
    inversion X; subst. simpl in *. discriminate.
Qed.
