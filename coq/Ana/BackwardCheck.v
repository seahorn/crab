(* BackwardCheck.v — block-level necessary preconditions and a verified checker for
   backward precondition tables (property C11 at the CFG level): tables that are
   backward-inductive for the modelled transformer contain every state, consistent with the
   supplied forward invariants, from which some execution goes on to violate an assertion
   (error mode) / to reach the exit block in one of the final states (good mode). *)
From Coq Require Import ZArith NArith List Bool Arith Lia.
From CrabV Require Import Base.ZInf Scalar.Itv Ir.Syntax Ir.Cfg Dom.ItvEnv Dom.ItvEnvSound Dom.ItvDomain
     Dom.ItvDomainSound Ana.Transformer Ana.FwdItv Ana.Backward Ana.BackwardSound.
Import ListNotations.

Definition block_bwd_ok (bl : block) : bool := forallb (fun s => bwd_stmt_ok s && stmt_wfb s) bl.

Lemma bwd_block_cons fresh good s r inv post :
  bwd_block fresh good (s :: r) inv post =
  bwd_stmt fresh good s inv (bwd_block fresh good r (tr_stmt s inv) post).
Proof. reflexivity. Qed.

Lemma block_bwd_ok_cons s r : block_bwd_ok (s :: r) = true ->
  bwd_stmt_ok s = true /\ stmt_wfb s = true /\ block_bwd_ok r = true.
Proof.
  unfold block_bwd_ok. cbn [forallb]. intros H.
  apply andb_prop in H. destruct H as [H OKr]. apply andb_prop in H. tauto.
Qed.

Theorem bwd_block_sound fresh good bl : forall inv post a b,
  block_bwd_ok bl = true -> bstep bl a b -> genv post b -> genv inv a ->
  genv (bwd_block fresh good bl inv post) a.
Proof.
  induction bl as [|s r IH]; intros inv post a b OK ST GP GI.
  - simpl in ST. subst. exact GP.
  - destruct (block_bwd_ok_cons s r OK) as (O1 & O2 & OKr). destruct ST as (m & S & B).
    rewrite bwd_block_cons. apply (bwd_stmt_sound fresh good s inv _ a m O1 S); [|exact GI].
    exact (IH _ post m b OKr B GP (tr_stmt_sound s inv a m (stmt_wfb_sound s O2) GI S)).
Qed.

Theorem bwd_block_error_sound fresh bl : forall inv post a id,
  block_bwd_ok bl = true -> bfails bl a id -> genv inv a ->
  genv (bwd_block fresh false bl inv post) a.
Proof.
  induction bl as [|s r IH]; intros inv post a id OK F GI; [destruct F|].
  destruct (block_bwd_ok_cons s r OK) as (O1 & O2 & OKr).
  rewrite bwd_block_cons. destruct F as [F|(m & S & F)].
  - destruct s; try contradiction. destruct F as [_ N].
    apply bwd_assert_error_sound; [exact O2|exact N].
  - apply (bwd_stmt_sound fresh false s inv _ a m O1 S); [|exact GI].
    exact (IH _ post m id OKr F (tr_stmt_sound s inv a m (stmt_wfb_sound s O2) GI S)).
Qed.

(* only an existing block has an assertion to fail *)
Lemma bfails_in_range p n a id : bfails (p_block p n) a id -> n < length (p_blocks p).
Proof.
  intros F. destruct (lt_dec n (length (p_blocks p))) as [L|L]; [exact L|exfalso].
  unfold p_block in F. rewrite nth_overflow in F by lia. exact F.
Qed.

Section Tables.
  Variable p : prog.
  Variable fresh : var.
  Variable good : bool.
  Variable exit_block : nat.
  Variable final : env.                 (* postcondition at the exit block (bottom in error mode) *)
  Variable finv : nat -> env.           (* forward invariants at block entries *)
  Variable pcond : nat -> env.          (* the precondition table *)

  Definition succ_join (n : nat) : env :=
    let v := fold_left (fun acc s => e_join acc (pcond s)) (p_succs p n) EBot in
    if Nat.eqb n exit_block then e_join v final else v.

  Definition bwd_inductive_ok : bool :=
    forallb block_bwd_ok (p_blocks p) &&
    forallb (fun n => e_leq (bwd_block fresh good (p_block p n) (finv n) (succ_join n)) (pcond n))
            (seq 0 (length (p_blocks p))).

  (* states from which an execution, consistent with the forward invariants at the block
     entries it visits, goes on to fail an assertion *)
  Inductive Bad : nat -> store -> Prop :=
  | Bad_here n a id : n < length (p_blocks p) -> genv (finv n) a -> bfails (p_block p n) a id -> Bad n a
  | Bad_later n a b s : n < length (p_blocks p) -> genv (finv n) a ->
      bstep (p_block p n) a b -> In s (p_succs p n) -> Bad s b -> Bad n a.

  (* states from which an execution reaches the exit block and ends in a final state *)
  Inductive Good : nat -> store -> Prop :=
  | Good_exit a b : exit_block < length (p_blocks p) -> genv (finv exit_block) a ->
      bstep (p_block p exit_block) a b -> genv final b -> Good exit_block a
  | Good_later n a b s : n < length (p_blocks p) -> genv (finv n) a ->
      bstep (p_block p n) a b -> In s (p_succs p n) -> Good s b -> Good n a.

  Lemma succ_join_sound n s b : In s (p_succs p n) -> genv (pcond s) b -> genv (succ_join n) b.
  Proof.
    intros I G. unfold succ_join.
    assert (H : forall l acc, (genv acc b \/ In s l) ->
                genv (fold_left (fun acc s => e_join acc (pcond s)) l acc) b).
    { induction l as [|q r IH]; simpl; intros acc X.
      - destruct X as [X|[]]; auto.
      - apply IH. destruct X as [X|[<-|X]].
        + left. apply e_join_sound; auto.
        + left. apply e_join_sound; auto.
        + right; auto. }
    destruct (Nat.eqb n exit_block); [apply e_join_sound; left|]; apply H; auto.
  Qed.

  Lemma blocks_ok n : forallb block_bwd_ok (p_blocks p) = true -> block_bwd_ok (p_block p n) = true.
  Proof.
    intros H. rewrite forallb_forall in H. unfold p_block.
    destruct (nth_in_or_default n (p_blocks p) []) as [J|E]; [apply H; auto|rewrite E; reflexivity].
  Qed.

  Lemma bwd_inductive_at n : bwd_inductive_ok = true -> n < length (p_blocks p) ->
    block_bwd_ok (p_block p n) = true /\
    e_leq (bwd_block fresh good (p_block p n) (finv n) (succ_join n)) (pcond n) = true.
  Proof.
    intros OK L. apply andb_prop in OK. destruct OK as [BO IN].
    split; [exact (blocks_ok n BO)|]. rewrite forallb_forall in IN. apply IN, in_seq. lia.
  Qed.

  (* one backward step of an accepted table *)
  Lemma bwd_inductive_step n a b : bwd_inductive_ok = true -> n < length (p_blocks p) ->
    genv (finv n) a -> bstep (p_block p n) a b -> genv (succ_join n) b -> genv (pcond n) a.
  Proof.
    intros OK L GI ST GS. destruct (bwd_inductive_at n OK L) as [BO LE].
    apply (e_leq_sound _ _ _ LE). exact (bwd_block_sound fresh good _ _ _ a b BO ST GS GI).
  Qed.

  Theorem bwd_tables_error_sound : good = false -> bwd_inductive_ok = true ->
    forall n a, Bad n a -> genv (pcond n) a.
  Proof.
    intros GM OK. induction 1 as [n a id L GI F|n a b s L GI ST I B IH].
    - destruct (bwd_inductive_at n OK L) as [BO LE]. apply (e_leq_sound _ _ _ LE). rewrite GM.
      exact (bwd_block_error_sound fresh _ _ _ a id BO F GI).
    - exact (bwd_inductive_step n a b OK L GI ST (succ_join_sound n s b I IH)).
  Qed.

  Theorem bwd_tables_good_sound : bwd_inductive_ok = true ->
    forall n a, Good n a -> genv (pcond n) a.
  Proof.
    intros OK. induction 1 as [a b L GI ST GF|n a b s L GI ST I B IH].
    - apply (bwd_inductive_step exit_block a b OK L GI ST).
      unfold succ_join. rewrite Nat.eqb_refl. apply e_join_sound. right. exact GF.
    - exact (bwd_inductive_step n a b OK L GI ST (succ_join_sound n s b I IH)).
  Qed.
End Tables.
