(* InterEngineSound.v — soundness of the state-threading fixpoint engine [srun] of Ana/InterTD.v
   (the copy of Fix/Engine.v whose block transformer reads and updates a global state: the
   context of the inter-procedural analysis).

   Generalisation of Fix/EngineSound.v: the transformer [analyze n a g] returns an abstract
   value and a new global state.  Nothing is assumed about it except
     - the global state only moves along a preorder [step];
     - "no error so far" ([Fin]) is downward closed along [step];
     - when the state it returns is error free, the transformer preserves the invariant [GI]
       of the global state, its abstract value is sound for the concrete block semantics, and
       a side condition [EffS n s g'] (anything monotone along [step]: here "the callees
       entered from state s of block n are covered by g'") holds for every concrete state s
       of its argument.
   Then a terminated run whose final state is error free, started with an ordering with
   distinct nodes, whose edges respect the ordering and which begins with the analysis
   entry, returns tables that contain the collecting semantics RPre / RPost of
   Fix/EngineCheck.v; the side condition holds at the end for every state of RPre, and the
   invariant holds for the final global state.  Any fuel, widening delay, number of
   descending iterations; no monotonicity, no checker. *)
From Coq Require Import List Bool Arith Lia.
From CrabV Require Import Fix.Wto Fix.WtoCheck Fix.WtoSound Fix.Engine Fix.EngineBelow Fix.EngineCheck
     Fix.EngineRel Ana.InterTD.
Import ListNotations.

Section StSound.
  Variables A G State : Type.
  Variable gamma : A -> State -> Prop.
  Variable OP : aops A.
  Hypothesis join_l : forall a b s, gamma a s -> gamma (o_join A OP a b) s.
  Hypothesis join_r : forall a b s, gamma b s -> gamma (o_join A OP a b) s.
  Hypothesis meet_s : forall a b s, gamma a s -> gamma b s -> gamma (o_meet A OP a b) s.
  Hypothesis narrow_s : forall a b s, gamma a s -> gamma b s -> gamma (o_narrow A OP a b) s.
  Hypothesis leq_s : forall a b s, o_leq A OP a b = true -> gamma a s -> gamma b s.

  Variable analyze : nat -> A -> G -> A * G.
  Variable bstep : nat -> State -> State -> Prop.

  Variable step : G -> G -> Prop.
  Hypothesis step_refl : forall g, step g g.
  Hypothesis step_trans : forall a b c, step a b -> step b c -> step a c.
  Hypothesis analyze_step : forall n a g, step g (snd (analyze n a g)).
  Variable Fin : G -> Prop.
  Hypothesis Fin_down : forall g g', step g g' -> Fin g' -> Fin g.
  Variable GI : G -> Prop.
  Variable EffS : nat -> State -> G -> Prop.
  Hypothesis EffS_mono : forall n s g g', step g g' -> EffS n s g -> EffS n s g'.
  Hypothesis analyze_s : forall n a g, Fin (snd (analyze n a g)) -> GI g ->
    GI (snd (analyze n a g)) /\
    forall s, gamma a s ->
      EffS n s (snd (analyze n a g)) /\ forall s', bstep n s s' -> gamma (fst (analyze n a g)) s'.

  Variable preds : nat -> list nat.
  Variable nest : nat -> list nat.
  Variable entry : nat.
  Variable delay descending : nat.
  Variable Init : State -> Prop.
  Variable fuel : nat.

  Notation pre := (se_pre A G).
  Notation post := (se_post A G).
  Notation skip := (se_skip A G).
  Notation sg := (se_g A G).
  Notation mkS := (mkSE A G).
  Notation tset := (tset A).
  Notation join_posts := (join_posts A OP).
  Notation head_inflow := (shead_inflow A G OP preds).
  Notation visit_vertex := (svisit_vertex A G OP analyze preds entry).
  Notation inc_loop := (sinc_loop A G OP analyze preds delay).
  Notation dec_loop := (sdec_loop A G OP analyze preds descending).
  Notation visit := (svisit A G OP analyze preds nest entry delay descending fuel).
  Notation visit_all := (svisit_all A G OP analyze preds nest entry delay descending fuel).
  Notation noasm := (fun _ : nat => @None A).
  Notation RRpre := (RRpre A State gamma bstep preds entry false noasm Init).
  Notation RRpost := (RRpost A State gamma bstep preds entry false noasm Init).
  Notation RPre := (RPre A State gamma bstep preds entry false noasm Init).
  Notation RPost := (RPost A State gamma bstep preds entry false noasm Init).
  Notation eok := (eok preds).
  Notation RR_decomp := (RR_decomp A State gamma bstep preds entry false noasm Init).
  Notation RR_mono := (RR_mono A State gamma bstep preds entry false noasm Init).
  Notation RRpre_in := (RRpre_in A State gamma bstep preds entry false noasm Init _ _ _ _).
  Notation RRpost_in := (RRpost_in A State gamma bstep preds entry false noasm Init _ _ _ _).

  Definition Ext_of (st : sest A G) : nat -> State -> Prop := fun p s => gamma (post st p) s.
  Definition EFalse : nat -> State -> Prop := fun _ _ => False.

  Definition SoundOn (C : list nat) (E : nat -> State -> Prop) (st : sest A G) : Prop :=
    (forall n s, RRpre C E n s -> gamma (pre st n) s /\ EffS n s (sg st)) /\
    (forall n s, RRpost C E n s -> gamma (post st n) s).
  Definition Frame (C : list nat) (st st' : sest A G) : Prop :=
    forall m, ~ In m C -> pre st' m = pre st m /\ post st' m = post st m.
  Definition VSpec (C : list nat) (v : sest A G -> option (sest A G)) : Prop :=
    forall st st', skip st = false -> v st = Some st' -> Fin (sg st') -> GI (sg st) ->
      skip st' = false /\ Frame C st st' /\ GI (sg st') /\ SoundOn C (Ext_of st) st'.
  Definition VStep (v : sest A G -> option (sest A G)) : Prop :=
    forall st st', v st = Some st' -> step (sg st) (sg st').

  Lemma tset_same (t : nat -> A) n v : tset t n v n = v.
  Proof. unfold Engine.tset. rewrite Nat.eqb_refl. reflexivity. Qed.
  Lemma tset_other (t : nat -> A) n v m : m <> n -> tset t n v m = t m.
  Proof. intros H. unfold Engine.tset. apply Nat.eqb_neq in H. rewrite H. reflexivity. Qed.

  Lemma Frame_refl C st : Frame C st st.
  Proof. intros m _. split; reflexivity. Qed.
  Lemma Frame_trans C st1 st2 st3 : Frame C st1 st2 -> Frame C st2 st3 -> Frame C st1 st3.
  Proof.
    intros F1 F2 m N. destruct (F1 m N) as [a b]. destruct (F2 m N) as [c d].
    split; congruence.
  Qed.

  Lemma Frame_incl C C' st st' : (forall x, In x C -> In x C') -> Frame C st st' -> Frame C' st st'.
  Proof. intros S F m N. apply F. intros X. apply N, S, X. Qed.
  Lemma Frame_head C st st' h : In h C ->
    (forall m, m <> h -> pre st' m = pre st m /\ post st' m = post st m) -> Frame C st st'.
  Proof. intros I H m N. apply H. intros ->. exact (N I). Qed.

  Lemma SoundOn_mono C (E E' : nat -> State -> Prop) st :
    (forall p s, ~ In p C -> E' p s -> E p s) -> SoundOn C E st -> SoundOn C E' st.
  Proof.
    intros H [S1 S2].
    destruct (RR_mono C E' E) as [M1 M2].
    - intros m p s _ _ N X. apply H; assumption.
    - split; intros n s R; [apply S1, M1, R|apply S2, M2, R].
  Qed.

  Lemma refine_s i a b s : gamma a s -> gamma b s -> gamma (refine A OP i a b) s.
  Proof. intros Ga Gb. unfold refine. destruct (Nat.eqb i 1); [apply meet_s|apply narrow_s]; assumption. Qed.

  Lemma head_inflow_s h ep st s :
    ((exists p, In p (preds h) /\ gamma (post st p) s) \/ (exists ip, ep = Some ip /\ gamma ip s)) ->
    gamma (head_inflow h ep st) s.
  Proof.
    intros H. unfold shead_inflow.
    destruct H as [[p [I Gp]]|[ip [-> Gi]]].
    - pose proof (join_posts_sound A State gamma OP join_l join_r (post st) p (preds h) s I Gp) as J.
      destruct ep; [apply join_l|]; exact J.
    - apply join_r. exact Gi.
  Qed.

  Lemma vertex_step n : VStep (fun st => Some (visit_vertex n st)).
  Proof.
    intros st st' V. inversion V as [V']. clear V V'. unfold svisit_vertex.
    destruct (if skip st && Nat.eqb n entry then false else skip st); cbn [se_g].
    - apply step_refl.
    - apply analyze_step.
  Qed.

  Lemma seq_step v1 v2 : VStep v1 -> VStep v2 ->
    VStep (fun st => match v1 st with None => None | Some s => v2 s end).
  Proof.
    intros V1 V2 st st' V. destruct (v1 st) as [s1|] eqn:E1; [|discriminate].
    eapply step_trans; [apply (V1 _ _ E1)|apply (V2 _ _ V)].
  Qed.

  Section CycleStep.
    Variable vbody : sest A G -> option (sest A G).
    Variable h : nat.
    Variable entry_pre : option A.
    Hypothesis VBS : VStep vbody.

    (* One pass over the cycle: the head is analysed from [a] and its post table updated (pre'
       is the pre table: updated at the head in the increasing phase only), then the body runs. *)
    Definition pass_st (st : sest A G) (a : A) (pre' : nat -> A) : sest A G :=
      mkS pre' (tset (post st) h (fst (analyze h a (sg st)))) (skip st) (snd (analyze h a (sg st))).

    Lemma pass_step st a pre' st2 : vbody (pass_st st a pre') = Some st2 -> step (sg st) (sg st2).
    Proof. intros V. exact (step_trans _ _ _ (analyze_step h a (sg st)) (VBS _ _ V)). Qed.

    (* one unfolding of each loop *)
    Lemma inc_loop_S f i p0 st p' st' : inc_loop vbody h entry_pre (S f) i p0 st = Some (p', st') ->
      exists st2, vbody (pass_st st p0 (tset (pre st) h p0)) = Some st2 /\
        let np := head_inflow h entry_pre st2 in
        (o_leq A OP np p0 = true /\ p' = np /\ st' = mkS (tset (pre st2) h np) (post st2) (skip st2) (sg st2)) \/
        inc_loop vbody h entry_pre f (S i) (extrapolate A OP delay h i p0 np) st2 = Some (p', st').
    Proof.
      cbn [sinc_loop]. intros H. destruct (vbody _) as [st2|]; [|discriminate].
      exists st2. split; [reflexivity|]. cbv zeta. destruct (o_leq A OP _ p0); [left|right; exact H].
      injection H as <- <-. auto.
    Qed.

    Lemma dec_loop_S f i p0 st st' : dec_loop vbody h entry_pre (S f) i p0 st = Some st' ->
      exists st2, vbody (pass_st st p0 (pre st)) = Some st2 /\
        (st' = st2 \/
         let p1 := refine A OP i p0 (head_inflow h entry_pre st2) in
         dec_loop vbody h entry_pre f (S i) p1 (mkS (tset (pre st2) h p1) (post st2) (skip st2) (sg st2)) = Some st').
    Proof.
      cbn [sdec_loop]. intros H. destruct (vbody _) as [st2|]; [|discriminate].
      exists st2. split; [reflexivity|].
      destruct (o_leq A OP p0 _); [left; congruence|]. destruct (descending <? i); [left; congruence|].
      right. exact H.
    Qed.

    Lemma inc_loop_step : forall f i p0 st p' st',
      inc_loop vbody h entry_pre f i p0 st = Some (p', st') -> step (sg st) (sg st').
    Proof.
      induction f as [|f IH]; intros i p0 st p' st' H; [discriminate|].
      destruct (inc_loop_S _ _ _ _ _ _ H) as (st2 & V & [(_ & _ & ->)|D]).
      - exact (pass_step _ _ _ _ V).
      - exact (step_trans _ _ _ (pass_step _ _ _ _ V) (IH _ _ _ _ _ D)).
    Qed.

    Lemma dec_loop_step : forall f i p0 st st',
      dec_loop vbody h entry_pre f i p0 st = Some st' -> step (sg st) (sg st').
    Proof.
      induction f as [|f IH]; intros i p0 st st' H; [discriminate|].
      destruct (dec_loop_S _ _ _ _ _ H) as (st2 & V & [->|D]).
      - exact (pass_step _ _ _ _ V).
      - exact (step_trans _ _ _ (pass_step _ _ _ _ V) (IH _ _ _ _ D)).
    Qed.

    Definition cyc_core (pre0 : A) (st0 : sest A G) : option (sest A G) :=
      match inc_loop vbody h entry_pre fuel 1 pre0 st0 with
      | None => None
      | Some (p, st') =>
        if Nat.eqb descending 0 then Some st'
        else dec_loop vbody h entry_pre fuel 1 p st'
      end.

    Lemma cyc_core_inv pre0 st st' : cyc_core pre0 st = Some st' ->
      exists p st1, inc_loop vbody h entry_pre fuel 1 pre0 st = Some (p, st1) /\
                    (st' = st1 \/ dec_loop vbody h entry_pre fuel 1 p st1 = Some st').
    Proof.
      unfold cyc_core. destruct (inc_loop _ _ _ _ _ _ _) as [[p st1]|]; [|discriminate].
      intros H. exists p, st1. split; [reflexivity|].
      destruct (Nat.eqb descending 0); [left; congruence|right; exact H].
    Qed.

    Lemma cyc_core_step pre0 : VStep (cyc_core pre0).
    Proof.
      intros st st' H. destruct (cyc_core_inv _ _ _ H) as (p & st1 & IL & [->|D]).
      - exact (inc_loop_step _ _ _ _ _ _ IL).
      - exact (step_trans _ _ _ (inc_loop_step _ _ _ _ _ _ IL) (dec_loop_step _ _ _ _ _ D)).
    Qed.
  End CycleStep.

  Lemma visit_cycle_eq h body st :
    visit (Cycle h body) st =
      let entry_in := skip st && comp_member entry (Cycle h body) in
      if skip st && negb entry_in then Some st
      else
        let st0 := mkS (pre st) (post st) false (sg st) in
        let entry_pre := if entry_in then Some (pre st0 entry) else None in
        let pre0 :=
          if entry_in then pre st0 entry
          else fold_left (fun acc q => if deeper (nest q) (nest h) then acc
                                       else o_join A OP acc (post st0 q)) (preds h) (o_bot A OP) in
        cyc_core (visit_all body) h entry_pre pre0 st0.
  Proof. reflexivity. Qed.

  Lemma list_step : forall l, Forall (fun c => VStep (visit c)) l -> VStep (visit_all l).
  Proof.
    induction 1 as [|c r Hc _ IH].
    - intros st st' V. inversion V; subst. apply step_refl.
    - exact (seq_step _ _ Hc IH).
  Qed.

  Lemma comp_step : forall c, VStep (visit c).
  Proof.
    induction c as [n|h body IH] using comp_ind'.
    - exact (vertex_step n).
    - intros st st' V. rewrite visit_cycle_eq in V. cbv zeta in V.
      destruct (skip st && negb (skip st && comp_member entry (Cycle h body))).
      + inversion V; subst. apply step_refl.
      + apply (cyc_core_step _ _ _ (list_step body IH)) in V. cbn [se_g] in V. exact V.
  Qed.

  Lemma visit_all_step l : VStep (visit_all l).
  Proof. apply list_step. apply Forall_forall. intros c _. apply comp_step. Qed.

  Lemma srun_step w i0 g e :
    srun A G OP analyze preds nest entry delay descending fuel w i0 g = Some e -> step g (sg e).
  Proof. unfold srun. intros H. apply visit_all_step in H. exact H. Qed.

  Lemma vertex_sound n v (E : nat -> State -> Prop) st : ~ In n (preds n) ->
    (n = entry -> forall s, Init s -> gamma v s) ->
    (forall p s, In p (preds n) -> E p s -> gamma v s) ->
    Fin (snd (analyze n v (sg st))) -> GI (sg st) ->
    let st' := mkS (tset (pre st) n v) (tset (post st) n (fst (analyze n v (sg st)))) false
                   (snd (analyze n v (sg st))) in
    Frame [n] st st' /\ GI (sg st') /\ SoundOn [n] E st'.
  Proof.
    intros NS HI HE FN GI0 st'. destruct (analyze_s n v (sg st) FN GI0) as [GI1 AS].
    assert (PRE : forall m s, RRpre [n] E m s -> m = n /\ gamma v s).
    { intros m s R. destruct (RRpre_in R) as [<-|[]]. split; [reflexivity|].
      inversion R as [s0 I1 I2|n0 p s0 I1 I2 I3 I4|n0 p s0 I1 I2 I3]; subst.
      - apply HI; auto.
      - eapply HE; eauto.
      - destruct I3 as [<-|[]]. contradiction. }
    split; [|split; [exact GI1|split]].
    - apply (Frame_head [n] st st' n (or_introl eq_refl)). intros m N.
      unfold st'. cbn [se_pre se_post]. rewrite !tset_other by exact N. split; reflexivity.
    - intros m s R. destruct (PRE m s R) as [-> Gv]. unfold st'. cbn [se_pre se_g].
      rewrite tset_same. split; [exact Gv|apply (AS s Gv)].
    - intros m s R. inversion R as [n0 s0 s1 R0 B]; subst.
      destruct (PRE m s0 R0) as [-> Gv]. unfold st'. cbn [se_post]. rewrite tset_same. apply (AS s0 Gv), B.
  Qed.

  Lemma vertex_spec n : n <> entry -> ~ In n (preds n) ->
    VSpec [n] (fun st => Some (visit_vertex n st)).
  Proof.
    intros NE NS st st' SK V FN GI0. injection V as <-. revert FN.
    unfold svisit_vertex. rewrite SK, (proj2 (Nat.eqb_neq n entry) NE). cbn [andb se_g se_skip]. intros FN.
    split; [reflexivity|]. apply vertex_sound; auto.
    - intros X. contradiction.
    - intros p s I X. eapply join_posts_sound; eauto.
  Qed.

  (* the semantics relative to C1 ++ C2 when no edge leads from C2 back into C1: C1 receives the
     same external inputs, C2 receives in addition what leaves C1 *)
  Lemma RR_seq C1 C2 (E E2 : nat -> State -> Prop) :
    (forall p n, In p C2 -> In n C1 -> ~ In p (preds n)) ->
    (forall p s, RRpost C1 E p s -> E2 p s) ->
    (forall p s, ~ In p (C1 ++ C2) -> E p s -> E2 p s) ->
    ((forall n s, RRpre (C1 ++ C2) E n s -> In n C1 -> RRpre C1 E n s) /\
     (forall n s, RRpost (C1 ++ C2) E n s -> In n C1 -> RRpost C1 E n s)) /\
    ((forall n s, RRpre (C1 ++ C2) E n s -> In n C2 -> RRpre C2 E2 n s) /\
     (forall n s, RRpost (C1 ++ C2) E n s -> In n C2 -> RRpost C2 E2 n s)).
  Proof.
    intros NB H1 H2.
    destruct (RR_decomp (C1 ++ C2) C1 E E) as [D1 D2].
    { intros x X. apply in_or_app. left. exact X. }
    { intros m p s Im Ip Ic Nc _. exfalso. apply in_app_or in Ic. destruct Ic as [Ic|Ic]; [contradiction|].
      exact (NB p m Ic Im Ip). }
    { intros m p s _ _ _ X. exact X. }
    split; [split; assumption|]. apply RR_decomp.
    - intros x X. apply in_or_app. right. exact X.
    - intros m p s Im Ip Ic Nc R. apply in_app_or in Ic. destruct Ic as [Ic|Ic]; [|contradiction].
      apply H1, D2; assumption.
    - intros m p s _ _ Nc X. apply H2; assumption.
  Qed.

  Lemma SoundOn_seq C1 C2 (E : nat -> State -> Prop) s1 st' :
    (forall x, In x C1 -> In x C2 -> False) ->
    (forall p n, In p C2 -> In n C1 -> ~ In p (preds n)) ->
    (forall p s, ~ In p (C1 ++ C2) -> E p s -> gamma (post s1 p) s) ->
    SoundOn C1 E s1 -> Frame C2 s1 st' -> step (sg s1) (sg st') -> SoundOn C2 (Ext_of s1) st' ->
    SoundOn (C1 ++ C2) E st'.
  Proof.
    intros DJ NB HE [P1 Q1] F2 ST2 [P2 Q2].
    destruct (RR_seq C1 C2 E (Ext_of s1) NB Q1 HE) as [[D1 D2] [D3 D4]].
    split; intros n s R.
    - pose proof (RRpre_in R) as I. apply in_app_or in I. destruct I as [I|I].
      + destruct (F2 n (DJ n I)) as [a _]. rewrite a.
        destruct (P1 n s (D1 n s R I)) as [X1 X2]. split; [exact X1|exact (EffS_mono _ _ _ _ ST2 X2)].
      + apply P2, D3; assumption.
    - pose proof (RRpost_in R) as I. apply in_app_or in I. destruct I as [I|I].
      + destruct (F2 n (DJ n I)) as [_ b]. rewrite b. apply Q1, D2; assumption.
      + apply Q2, D4; assumption.
  Qed.

  Lemma seq_spec C1 C2 v1 v2 : VSpec C1 v1 -> VSpec C2 v2 -> VStep v2 ->
    (forall x, In x C1 -> In x C2 -> False) ->
    (forall p n, In p C2 -> In n C1 -> ~ In p (preds n)) ->
    VSpec (C1 ++ C2) (fun st => match v1 st with None => None | Some s => v2 s end).
  Proof.
    intros V1 V2 VS2 DJ NB st st' SK V FN GI0.
    destruct (v1 st) as [s1|] eqn:E1; [|discriminate].
    pose proof (VS2 _ _ V) as ST2.
    destruct (V1 st s1 SK E1 (Fin_down _ _ ST2 FN) GI0) as [K1 [F1 [GI1 S1]]].
    destruct (V2 s1 st' K1 V FN GI1) as [K2 [F2 [GI2 S2]]].
    apply (Frame_incl C1 (C1 ++ C2)) in F1; [|intros x X; apply in_or_app; left; exact X].
    split; [exact K2|]. split; [|split; [exact GI2|]].
    - apply (Frame_trans _ st s1 st' F1). revert F2. apply Frame_incl.
      intros x X. apply in_or_app. right. exact X.
    - apply (SoundOn_seq C1 C2 (Ext_of st) s1 st' DJ NB); auto.
      intros p s N X. destruct (F1 p N) as [_ b]. rewrite b. exact X.
  Qed.

  Section CycleSound.
    Variable vbody : sest A G -> option (sest A G).
    Variable B : list nat.
    Variable h : nat.
    Variable entry_pre : option A.
    Hypothesis VB : VSpec B vbody.
    Hypothesis VBS : VStep vbody.
    Hypothesis HB : ~ In h B.
    Hypothesis EP : match entry_pre with
                    | Some ip => forall s, Init s -> gamma ip s
                    | None => h <> entry
                    end.
    Let C := h :: B.
    Notation pass_st := (pass_st h).

    Lemma inflow_covers st (E : nat -> State -> Prop) :
      (forall p s, ~ In p C -> E p s -> gamma (post st p) s) ->
      (forall p s, RRpost C E p s -> gamma (post st p) s) ->
      forall s, RRpre C E h s -> gamma (head_inflow h entry_pre st) s.
    Proof.
      intros HE HP s R.
      inversion R as [s0 I1 I2 I3 E1 E2|n0 p s0 I1 I2 I3 I4 I5 E1 E2|n0 p s0 I1 I2 I3 I4 I5 E1 E2]; subst.
      - apply head_inflow_s. right. destruct entry_pre as [ip|].
        + exists ip. split; [reflexivity|apply EP, I2].
        + exfalso. apply EP. reflexivity.
      - apply head_inflow_s. left. exists p. split; [exact I2|apply HE; assumption].
      - apply head_inflow_s. left. exists p. split; [exact I2|apply HP; assumption].
    Qed.

    Lemma pass_body st a pre' st2 :
      skip st = false -> (forall m, m <> h -> pre' m = pre st m) ->
      vbody (pass_st st a pre') = Some st2 -> Fin (sg st2) -> GI (sg st) ->
      (forall s, gamma a s -> EffS h s (sg st2) /\ forall s', bstep h s s' -> gamma (post st2 h) s') /\
      skip st2 = false /\ Frame C st st2 /\ GI (sg st2) /\ pre st2 h = pre' h /\
      post st2 h = fst (analyze h a (sg st)) /\ SoundOn B (Ext_of (pass_st st a pre')) st2.
    Proof.
      intros SK PRE' V FN GI0.
      pose proof (VBS _ _ V) as ST12. cbn [pass_st se_g] in ST12.
      destruct (analyze_s h a (sg st) (Fin_down _ _ ST12 FN) GI0) as [GI1 AS].
      destruct (VB (pass_st st a pre') st2 SK V FN GI1) as [K2 [F2 [GI2 S2]]].
      destruct (F2 h HB) as [PH QH]. cbn [pass_st se_pre se_post] in PH, QH. rewrite tset_same in QH.
      split; [|split; [exact K2|split; [|split; [exact GI2|split; [exact PH|split; [exact QH|exact S2]]]]]].
      - intros s Ga. destruct (AS s Ga) as [X Y]. rewrite QH. split; [exact (EffS_mono _ _ _ _ ST12 X)|exact Y].
      - apply (Frame_trans C st (pass_st st a pre') st2).
        + apply (Frame_head C _ _ h (or_introl eq_refl)). intros m N.
          cbn [pass_st se_pre se_post]. rewrite tset_other by exact N. split; [apply PRE', N|reflexivity].
        + revert F2. apply Frame_incl. intros x X. right. exact X.
    Qed.

    (* if the head value covers what enters the head, the tables after the pass are sound *)
    Lemma pass_sound (E : nat -> State -> Prop) st a pre' st2 :
      skip st = false -> (forall m, m <> h -> pre' m = pre st m) ->
      vbody (pass_st st a pre') = Some st2 -> Fin (sg st2) -> GI (sg st) ->
      (forall p s, ~ In p C -> E p s -> gamma (post st p) s) ->
      (forall s, RRpre C E h s -> gamma a s) ->
      (forall n s, RRpre C E n s -> (In n B -> gamma (pre st2 n) s) /\ EffS n s (sg st2)) /\
      (forall n s, RRpost C E n s -> gamma (post st2 n) s) /\
      (forall s, RRpre C E h s -> gamma (head_inflow h entry_pre st2) s).
    Proof.
      intros SK PRE' V FN GI0 HE HP.
      destruct (pass_body st a pre' st2 SK PRE' V FN GI0) as (AS & _ & F02 & _ & _ & QH & P2 & Q2).
      assert (POSTH : forall s, RRpost C E h s -> gamma (post st2 h) s).
      { intros s R. inversion R as [n0 s0 s1 R0 BS E1 E2]; subst. apply (AS s0 (HP s0 R0)), BS. }
      destruct (RR_decomp C B E (Ext_of (pass_st st a pre'))) as [D1 D2].
      { intros x X. right. exact X. }
      { intros m p s Im Ip Ic Nc R. destruct Ic as [<-|Ic]; [|contradiction].
        unfold Ext_of. cbn [pass_st se_post]. rewrite tset_same, <- QH. apply POSTH, R. }
      { intros m p s _ _ Nc X. assert (p <> h) by (intros ->; apply Nc; left; reflexivity).
        unfold Ext_of. cbn [pass_st se_post]. rewrite tset_other by assumption. apply HE; assumption. }
      assert (Q : forall n s, RRpost C E n s -> gamma (post st2 n) s).
      { intros n s R. destruct (RRpost_in R) as [<-|I]; [apply POSTH, R|apply Q2, D2; assumption]. }
      split; [|split; [exact Q|]].
      - intros n s R. destruct (RRpre_in R) as [<-|I].
        + split; [intros X; contradiction|apply (AS s (HP s R))].
        + destruct (P2 n s (D1 n s R I)) as [X Y]. split; [intros _; exact X|exact Y].
      - apply inflow_covers; [|exact Q].
        intros p s N X. destruct (F02 p N) as [_ b]. rewrite b. apply HE; assumption.
    Qed.

    (* a head value that contains the inflow computed after the pass covers what enters the head *)
    Lemma postfix_covers st a pre' st2 :
      skip st = false -> (forall m, m <> h -> pre' m = pre st m) ->
      vbody (pass_st st a pre') = Some st2 -> Fin (sg st2) -> GI (sg st) ->
      o_leq A OP (head_inflow h entry_pre st2) a = true ->
      forall s, RRpre C (Ext_of st) h s -> gamma a s.
    Proof.
      intros SK PRE' V FN GI0 LE.
      destruct (pass_body st a pre' st2 SK PRE' V FN GI0) as (AS & _ & F02 & _ & _ & QH & _ & Q2).
      set (st1 := pass_st st a pre') in *.
      assert (IN : forall s, (exists p, In p (preds h) /\ gamma (post st2 p) s) -> gamma a s).
      { intros s X. apply (leq_s _ _ _ LE), head_inflow_s. left. exact X. }
      assert (GG : (forall n s, RRpre C (Ext_of st) n s ->
                     (n = h -> gamma a s) /\ (In n B -> RRpre B (Ext_of st1) n s)) /\
                  (forall n s, RRpost C (Ext_of st) n s ->
                     (n = h -> gamma (post st2 h) s) /\ (In n B -> RRpost B (Ext_of st1) n s))).
      { apply (RR_mutind A State gamma bstep preds entry false noasm Init C (Ext_of st)
                 (fun n s => (n = h -> gamma a s) /\ (In n B -> RRpre B (Ext_of st1) n s))
                 (fun n s => (n = h -> gamma (post st2 h) s) /\ (In n B -> RRpost B (Ext_of st1) n s))).
        - intros s I1 I2 I3. split; [|intros X; apply RR_init; assumption].
          intros EH. apply (leq_s _ _ _ LE), head_inflow_s. right. destruct entry_pre as [ip|].
          + exists ip. split; [reflexivity|apply EP, I2].
          + exfalso. apply EP. symmetry. exact EH.
        - intros n p s I1 I2 I3 I4 I5. split.
          + intros ->. apply IN. exists p. split; [exact I2|]. destruct (F02 p I3) as [_ b]. rewrite b. exact I4.
          + intros X. apply RR_out with p; auto.
            * intros Y. apply I3. right. exact Y.
            * assert (p <> h) by (intros ->; apply I3; left; reflexivity).
              unfold Ext_of, st1. cbn [pass_st se_post]. rewrite tset_other by assumption. exact I4.
        - intros n p s I1 I2 I3 _ [Q1' Q2'] I5. split.
          + intros ->. apply IN. exists p. split; [exact I2|]. destruct I3 as [<-|I3].
            * apply Q1'. reflexivity.
            * apply Q2, Q2', I3.
          + intros X. destruct I3 as [<-|I3].
            * apply RR_out with h; auto. unfold Ext_of, st1. cbn [pass_st se_post]. rewrite tset_same, <- QH.
              apply Q1'. reflexivity.
            * apply RR_in with p; auto.
        - intros n s s' _ [P1' P2'] BS. split.
          + intros ->. apply (AS s (P1' eq_refl)), BS.
          + intros X. apply RR_step with s; auto. }
      intros s R. apply (proj1 GG h s R). reflexivity.
    Qed.

    (* the last pass of the increasing iteration *)
    Lemma inc_exit st pre_old st2 :
      skip st = false ->
      vbody (pass_st st pre_old (tset (pre st) h pre_old)) = Some st2 ->
      o_leq A OP (head_inflow h entry_pre st2) pre_old = true ->
      Fin (sg st2) -> GI (sg st) ->
      let st' := mkS (tset (pre st2) h (head_inflow h entry_pre st2)) (post st2) (skip st2) (sg st2) in
      skip st' = false /\ Frame C st st' /\ GI (sg st') /\ SoundOn C (Ext_of st) st'.
    Proof.
      intros SK V LE FN GI0 st'.
      assert (PRE' : forall m, m <> h -> tset (pre st) h pre_old m = pre st m) by (intros m N; apply tset_other, N).
      pose proof (postfix_covers st pre_old _ st2 SK PRE' V FN GI0 LE) as HP.
      destruct (pass_body st pre_old _ st2 SK PRE' V FN GI0) as (_ & K2 & F02 & GI2 & _).
      destruct (pass_sound (Ext_of st) st pre_old _ st2 SK PRE' V FN GI0 (fun p s _ X => X) HP) as (P & Q & NP).
      split; [exact K2|]. split; [|split; [exact GI2|split; [|exact Q]]].
      - apply (Frame_trans C st st2 st' F02), (Frame_head C st2 st' h (or_introl eq_refl)). intros m N.
        unfold st'. cbn [se_pre se_post]. rewrite tset_other by exact N. split; reflexivity.
      - intros n s R. destruct (P n s R) as [X Y]. split; [|exact Y]. unfold st'. cbn [se_pre].
        destruct (RRpre_in R) as [<-|I]; [rewrite tset_same; apply NP, R|].
        rewrite tset_other by (intros ->; contradiction). apply X, I.
    Qed.

    Lemma inc_loop_spec : forall f i p0 st p' st',
      skip st = false -> inc_loop vbody h entry_pre f i p0 st = Some (p', st') ->
      Fin (sg st') -> GI (sg st) ->
      skip st' = false /\ Frame C st st' /\ GI (sg st') /\ SoundOn C (Ext_of st) st' /\
      (forall s, RRpre C (Ext_of st) h s -> gamma p' s).
    Proof.
      induction f as [|f IH]; intros i p0 st p' st' SK H FN GI0; [discriminate|].
      destruct (inc_loop_S vbody h entry_pre _ _ _ _ _ _ H) as (st2 & V & [(LE & -> & ->)|D]); clear H.
      - destruct (inc_exit st p0 st2 SK V LE FN GI0) as [K [F [GI' S]]].
        split; [exact K|]. split; [exact F|]. split; [exact GI'|]. split; [exact S|].
        intros s R. destruct S as [S1 _]. destruct (S1 h s R) as [S1' _]. cbn [se_pre] in S1'.
        rewrite tset_same in S1'. exact S1'.
      - pose proof (inc_loop_step vbody h entry_pre VBS _ _ _ _ _ _ D) as ST2'.
        destruct (pass_body st p0 _ st2 SK (fun m N => tset_other (pre st) h p0 m N) V (Fin_down _ _ ST2' FN) GI0)
          as (_ & K2 & F02 & GI2 & _).
        destruct (IH _ _ _ _ _ K2 D FN GI2) as [K [F [GI' [S HP]]]].
        assert (EE : forall p s, ~ In p C -> Ext_of st p s -> Ext_of st2 p s).
        { intros p s N X. unfold Ext_of in *. destruct (F02 p N) as [_ b]. rewrite b. exact X. }
        split; [exact K|]. split; [exact (Frame_trans C st st2 st' F02 F)|]. split; [exact GI'|].
        split; [exact (SoundOn_mono C (Ext_of st2) (Ext_of st) st' EE S)|].
        intros s R. apply HP.
        destruct (RR_mono C (Ext_of st) (Ext_of st2)) as [M1 _]; [|apply M1, R].
        intros m p s0 _ _ N X. apply EE; assumption.
    Qed.

    (* one pass of the decreasing iteration keeps the tables sound *)
    Lemma dec_pass (E : nat -> State -> Prop) st p0 st2 :
      skip st = false -> SoundOn C E st ->
      (forall p s, ~ In p C -> E p s -> gamma (post st p) s) ->
      (forall s, RRpre C E h s -> gamma p0 s) ->
      vbody (pass_st st p0 (pre st)) = Some st2 ->
      Fin (sg st2) -> GI (sg st) ->
      skip st2 = false /\ Frame C st st2 /\ GI (sg st2) /\ SoundOn C E st2 /\
      (forall s, RRpre C E h s -> gamma (head_inflow h entry_pre st2) s).
    Proof.
      intros SK [S1 _] HE HP V FN GI0.
      destruct (pass_body st p0 (pre st) st2 SK (fun _ _ => eq_refl) V FN GI0) as (_ & K2 & F02 & GI2 & PH & _).
      destruct (pass_sound E st p0 (pre st) st2 SK (fun _ _ => eq_refl) V FN GI0 HE HP) as (P & Q & NP).
      split; [exact K2|]. split; [exact F02|]. split; [exact GI2|]. split; [split; [|exact Q]|exact NP].
      intros n s R. destruct (P n s R) as [X Y]. split; [|exact Y].
      destruct (RRpre_in R) as [<-|I]; [rewrite PH; apply S1, R|apply X, I].
    Qed.

    Lemma dec_loop_spec (E : nat -> State -> Prop) : forall f i p0 st st',
      skip st = false -> SoundOn C E st ->
      (forall p s, ~ In p C -> E p s -> gamma (post st p) s) ->
      (forall s, RRpre C E h s -> gamma p0 s) ->
      dec_loop vbody h entry_pre f i p0 st = Some st' ->
      Fin (sg st') -> GI (sg st) ->
      skip st' = false /\ Frame C st st' /\ GI (sg st') /\ SoundOn C E st'.
    Proof.
      induction f as [|f IH]; intros i p0 st st' SK SO HE HP H FN GI0; [discriminate|].
      destruct (dec_loop_S vbody h entry_pre _ _ _ _ _ H) as (st2 & V & D); clear H.
      assert (FN2 : Fin (sg st2)).
      { destruct D as [->|D]; [exact FN|]. exact (Fin_down _ _ (dec_loop_step vbody h entry_pre VBS _ _ _ _ _ D) FN). }
      destruct (dec_pass E st p0 st2 SK SO HE HP V FN2 GI0) as [K2 [F2 [GI2 [S2 NP]]]].
      destruct D as [->|H]; [exact (conj K2 (conj F2 (conj GI2 S2)))|].
      set (p1 := refine A OP i p0 (head_inflow h entry_pre st2)) in *.
      set (st3 := mkS (tset (pre st2) h p1) (post st2) (skip st2) (sg st2)) in *.
      assert (HP1 : forall s, RRpre C E h s -> gamma p1 s).
      { intros s R. unfold p1. apply refine_s; [apply HP, R|apply NP, R]. }
      assert (S3 : SoundOn C E st3).
      { destruct S2 as [X1 X2]. split; intros n s R; unfold st3; cbn [se_pre se_post se_g].
        - destruct (X1 n s R) as [Y1 Y2]. split; [|exact Y2].
          destruct (Nat.eq_dec n h) as [->|NE].
          + rewrite tset_same. apply HP1, R.
          + rewrite tset_other by assumption. exact Y1.
        - apply X2, R. }
      assert (HE3 : forall p s, ~ In p C -> E p s -> gamma (post st3 p) s).
      { intros p s N X. unfold st3. cbn [se_post]. destruct (F2 p N) as [_ b]. rewrite b. apply HE; assumption. }
      destruct (IH (S i) p1 st3 st' K2 S3 HE3 HP1 H FN GI2) as [K [F [GI' S']]].
      split; [exact K|]. split; [|split; [exact GI'|exact S']].
      apply (Frame_trans C st st2 st' F2), (Frame_trans C st2 st3 st'); [|exact F].
      apply (Frame_head C st2 st3 h (or_introl eq_refl)). intros m N.
      unfold st3. cbn [se_pre se_post]. rewrite tset_other by exact N. split; reflexivity.
    Qed.

    Lemma cyc_core_spec pre0 st0 st' : skip st0 = false ->
      cyc_core vbody h entry_pre pre0 st0 = Some st' -> Fin (sg st') -> GI (sg st0) ->
      skip st' = false /\ Frame C st0 st' /\ GI (sg st') /\ SoundOn C (Ext_of st0) st'.
    Proof.
      intros SK H FN GI0. destruct (cyc_core_inv vbody h entry_pre _ _ _ H) as (p & st1 & IL & D); clear H.
      assert (FN1 : Fin (sg st1)).
      { destruct D as [->|D]; [exact FN|]. exact (Fin_down _ _ (dec_loop_step vbody h entry_pre VBS _ _ _ _ _ D) FN). }
      destruct (inc_loop_spec fuel 1 pre0 st0 p st1 SK IL FN1 GI0) as [K1 [F1 [GI1 [S1 HP]]]].
      destruct D as [->|H]; [exact (conj K1 (conj F1 (conj GI1 S1)))|].
      assert (HE : forall q s, ~ In q C -> Ext_of st0 q s -> gamma (post st1 q) s).
      { intros q s N X. destruct (F1 q N) as [_ b]. rewrite b. exact X. }
      destruct (dec_loop_spec (Ext_of st0) fuel 1 p st1 st' K1 S1 HE HP H FN GI1) as [K [F [GI' S]]].
      split; [exact K|]. split; [exact (Frame_trans C st0 st1 st' F1 F)|]. split; [exact GI'|exact S].
    Qed.
  End CycleSound.

  Definition comp_ok (c : comp) : Prop :=
    NoDup (cnodes c) -> eok [c] -> ~ In entry (cnodes c) -> VSpec (cnodes c) (visit c).

  Lemma list_spec : forall l, Forall comp_ok l ->
    NoDup (flat l) -> eok l -> ~ In entry (flat l) -> VSpec (flat l) (visit_all l).
  Proof.
    induction l as [|c r IH]; intros FA ND EO NE.
    - intros st st' SK V FN GI0. cbn in V. inversion V; subst st'.
      split; [exact SK|]. split; [apply Frame_refl|]. split; [exact GI0|].
      split; intros n s R; exfalso;
        [exact (RRpre_in R)|exact (RRpost_in R)].
    - inversion FA as [|? ? OKc FAr]; subst.
      destruct (eok_cons preds c r ND EO) as [E1 [E2 E3]].
      cbn [flat] in ND, NE |- *.
      assert (V1 : VSpec (cnodes c) (visit c)).
      { apply OKc; [exact (nodup_app_left _ _ ND)|exact E1|].
        intros X. apply NE, in_or_app. left. exact X. }
      assert (V2 : VSpec (flat r) (visit_all r)).
      { apply IH; [exact FAr|exact (nodup_app_r _ _ ND)|exact E2|].
        intros X. apply NE, in_or_app. right. exact X. }
      exact (seq_spec (cnodes c) (flat r) (visit c) (visit_all r) V1 V2 (visit_all_step r)
               (fun x X Y => nodup_app_disj _ _ x ND X Y) E3).
  Qed.

  Lemma comp_spec : forall c, comp_ok c.
  Proof.
    induction c as [n|h body IH] using comp_ind'; intros ND EO NE.
    - cbn [cnodes] in *.
      apply (vertex_spec n); [intros ->; apply NE; left; reflexivity|exact (eok_vertex preds n EO)].
    - rewrite cnodes_cycle in *. inversion ND as [|? ? HB ND']; subst.
      assert (VB : VSpec (flat body) (visit_all body)).
      { apply list_spec; [exact IH|exact ND'|exact (eok_cycle preds h body ND EO)|].
        intros X. apply NE. right. exact X. }
      intros st st' SK V FN GI0. rewrite visit_cycle_eq, SK in V.
      exact (cyc_core_spec (visit_all body) (flat body) h None VB (visit_all_step body) HB
               (fun E : h = entry => NE (or_introl E)) _ (mkS (pre st) (post st) false (sg st)) st' eq_refl V FN GI0).
  Qed.

  Variable init : A.
  Hypothesis init_s : forall s, Init s -> gamma init s.

  Lemma first_spec c st st' :
    (c = Vertex entry \/ exists body, c = Cycle entry body) ->
    NoDup (cnodes c) -> eok [c] ->
    skip st = true -> pre st entry = init ->
    visit c st = Some st' -> Fin (sg st') -> GI (sg st) ->
    skip st' = false /\ Frame (cnodes c) st st' /\ GI (sg st') /\ SoundOn (cnodes c) EFalse st'.
  Proof.
    intros SH ND EO SK PI V FN GI0. destruct SH as [->|[body ->]].
    - injection V as <-. revert FN.
      unfold svisit_vertex. rewrite SK, Nat.eqb_refl, PI. cbn [andb se_g se_skip cnodes]. intros FN.
      split; [reflexivity|]. apply vertex_sound; auto.
      + exact (eok_vertex preds entry EO).
      + intros p s _ [].
    - rewrite cnodes_cycle in *. pose proof ND as ND0. apply NoDup_cons_iff in ND0. destruct ND0 as [HB ND'].
      assert (VB : VSpec (flat body) (visit_all body)).
      { apply list_spec; [|exact ND'|exact (eok_cycle preds entry body ND EO)|exact HB].
        apply Forall_forall. intros c' _. apply comp_spec. }
      assert (M : comp_member entry (Cycle entry body) = true).
      { apply comp_member_In. rewrite cnodes_cycle. left. reflexivity. }
      assert (EP : forall s, Init s -> gamma (pre st entry) s) by (rewrite PI; exact init_s).
      rewrite visit_cycle_eq, SK, M in V.
      destruct (cyc_core_spec (visit_all body) (flat body) entry (Some (pre st entry)) VB (visit_all_step body) HB EP
                  _ (mkS (pre st) (post st) false (sg st)) st' eq_refl V FN GI0) as [K [F [GI' S]]].
      split; [exact K|]. split; [exact F|]. split; [exact GI'|].
      revert S. apply SoundOn_mono. intros q s _ [].
  Qed.

  Section Main.
    Variable w : list comp.
    Hypothesis w_nodup : NoDup (flat w).
    Hypothesis w_edges : forall n p, In p (preds n) -> In p (flat w) -> In n (flat w) /\ lok w p n.
    Hypothesis w_first : starts_with entry w.

    Theorem srun_sound : forall g e,
      srun A G OP analyze preds nest entry delay descending fuel w init g = Some e ->
      Fin (sg e) -> GI g ->
      step g (sg e) /\ GI (sg e) /\
      (forall n s, RPre n s -> gamma (pre e n) s /\ EffS n s (sg e)) /\
      (forall n s, RPost n s -> gamma (post e n) s).
    Proof.
      intros g e RUN FN GI0.
      assert (EO : eok w).
      { intros p n Hp Hn He. apply (w_edges n p He Hp). }
      pose proof w_nodup as ND. pose proof w_edges as CL.
      destruct w_first as [c [r [EW SH]]]. rewrite EW in ND, EO, CL, RUN. clear EW.
      destruct (eok_cons preds c r ND EO) as [EOc [EOr NB]].
      cbn [flat] in ND, CL.
      unfold srun in RUN. cbn [svisit_all] in RUN.
      set (st0 := mkS (tset (fun _ => o_bot A OP) entry init) (fun _ => o_bot A OP) true g) in *.
      destruct (visit c st0) as [s1|] eqn:VC; [|discriminate].
      pose proof (visit_all_step r _ _ RUN) as ST2.
      pose proof (comp_step c _ _ VC) as ST1. cbn [se_g] in ST1.
      assert (IEc : In entry (cnodes c)).
      { destruct SH as [->|[body ->]]; [left; reflexivity|rewrite cnodes_cycle; left; reflexivity]. }
      pose proof (fun x => nodup_app_disj _ _ x ND) as DJ.
      destruct (first_spec c st0 s1 SH (nodup_app_left _ _ ND) EOc eq_refl (tset_same _ _ _) VC
                  (Fin_down _ _ ST2 FN) GI0) as [K1 [F1 [GI1 S1]]].
      assert (V2 : VSpec (flat r) (visit_all r)).
      { apply list_spec; [|exact (nodup_app_r _ _ ND)|exact EOr|exact (DJ entry IEc)].
        apply Forall_forall. intros c' _. apply comp_spec. }
      destruct (V2 s1 e K1 RUN FN GI1) as [K2 [F2 [GI2 S2]]].
      destruct (SoundOn_seq (cnodes c) (flat r) EFalse s1 e DJ NB (fun p s _ (X : EFalse p s) => match X with end)
                  S1 F2 ST2 S2) as [P Q].
      destruct (R_global_rel A State gamma bstep preds entry false noasm Init (cnodes c ++ flat r) EFalse)
        as [GL1 GL2].
      { apply in_or_app. left. exact IEc. }
      { intros n p He Hp. apply (CL n p He Hp). }
      split; [exact (step_trans _ _ _ ST1 ST2)|]. split; [exact GI2|].
      split; intros n s R; [apply P, GL1, R|apply Q, GL2, R].
    Qed.
  End Main.
End StSound.
