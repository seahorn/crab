(* InterBURecOrder.v — the orders used by the mirror Ana/InterBURec.v are the ones its comments
   claim: for a well-formed program the reverse finish order cg_rpost of the depth-first search
   of the call graph lists every function exactly once, and a function that is not recursive
   (cg_isrec = false) comes after all its callers.  Hence in bur_run a function is analysed either
   from the top context of its recursive component or from a call table to which ALL its callers
   have contributed: the defensive third case of bur_td_step (start from top) is never taken.
   Also: cg_isrec f = false implies that no chain of calls leads from f back to f.
   (Not needed for the soundness theorems of Ana/InterBURecSound.v, which hold for all orders.) *)
From Coq Require Import ZArith NArith List Bool Arith Lia Relations.
From CrabV Require Import Ir.Syntax Ir.Cfg Ana.InterSyntax Ana.InterSem Ana.InterTD Ana.InterTDSound Ana.InterBU
     Ana.InterTDModelSound Ana.InterTDRecset Ana.InterBUModelSound Ana.InterBURec.
Import ListNotations.

Lemma nodup_split_order {A : Type} (f h : A) : forall l1 l2 m1 m2,
  NoDup (l1 ++ f :: l2) -> l1 ++ f :: l2 = m1 ++ h :: m2 -> In f m2 -> In h l1.
Proof.
  induction l1 as [|a l1 IH]; intros l2 m1 m2 ND E I.
  - exfalso. cbn [app] in *. inversion ND as [|? ? NI _]; subst. destruct m1 as [|b m1]; cbn [app] in E; inversion E; subst.
    + apply NI, I.
    + apply NI. apply in_or_app. right. right. exact I.
  - cbn [app] in *. destruct m1 as [|b m1]; cbn [app] in E; inversion E; subst.
    + left. reflexivity.
    + right. inversion ND; subst. eapply IH; eauto.
Qed.

Section Order.
  Variable p : iprog.
  Notation n := (length p).
  Notation succs := (cg_succs p).
  Definition E (u v : nat) : Prop := In v (succs u).
  Notation reach := (clos_refl_trans nat E).
  Hypothesis W : forall u v, E u v -> v < n.

  Lemma insert_all_incl xs : forall l x, In x l -> In x (fold_right insert_nat l xs).
  Proof.
    induction xs as [|a xs IH]; intros l x I; cbn [fold_right]; [exact I|].
    apply insert_nat_In. right. apply IH, I.
  Qed.
  Lemma reach_iter_incl k : forall l x, In x l -> In x (iter k (cg_reach1 p) l).
  Proof. induction k as [|k IH]; intros l x I; cbn [iter]; [exact I|]. apply IH, insert_all_incl, I. Qed.

  Lemma isrec_false_no_cycle f : cg_isrec p f = false -> ~ clos_trans nat E f f.
  Proof.
    unfold cg_isrec. intros H. apply orb_false_iff in H. destruct H as [NM CL].
    apply negb_false_iff in CL. set (R := cg_reach_plus p f) in *.
    assert (ALL : forall y, clos_trans nat E f y -> In y R).
    { intros y T. apply clos_trans_tn1 in T. induction T as [y E1|y z E1 T IH].
      - unfold R, cg_reach_plus. apply reach_iter_incl. exact E1.
      - unfold cg_closed in CL. rewrite forallb_forall in CL. specialize (CL y IH).
        rewrite forallb_forall in CL. apply nmem_spec. apply CL. exact E1. }
    intros T. apply ALL in T. apply nmem_spec in T. rewrite T in NM. discriminate.
  Qed.

  (* V: discovered, P: finished (latest first), G: discovered and not finished (the stack) *)
  Record GInv (V P G : list nat) : Prop := mkGI {
    gi_v : forall x, In x V <-> In x P \/ In x G;
    gi_nd : NoDup P;
    gi_dis : forall x, In x P -> ~ In x G;
    gi_g : NoDup G;
    gi_lt : forall x, In x G -> x < n;
    gi_edge : forall l1 x l2 y, P = l1 ++ x :: l2 -> E x y ->
                In y l2 \/ y = x \/ ((In y l1 \/ In y G) /\ reach y x) }.

  (* the fuel bounds the depth of the search: the stack holds distinct functions *)
  Lemma stack_room V P G u : GInv V P G -> ~ In u V -> u < n -> S (length G) <= n.
  Proof.
    intros GI NU L. rewrite <- (seq_length n 0). apply (NoDup_incl_length (l := u :: G)).
    - constructor; [|apply (gi_g _ _ _ GI)]. intros I. apply NU, (gi_v _ _ _ GI). right. exact I.
    - intros x [<-|I]; apply in_seq; [|apply (gi_lt _ _ _ GI) in I]; lia.
  Qed.

  Definition dfs_ok (fuel : nat) : Prop :=
    forall u V P G, GInv V P G -> n < fuel + length G -> u < n -> (forall g, In g G -> reach g u) ->
      let st' := cg_dfs p fuel u (V, P) in
      GInv (fst st') (snd st') G /\ In u (fst st') /\ (forall x, In x V -> In x (fst st')).

  Lemma dfs_children k (IH : dfs_ok k) u G : (forall g, In g G -> reach g u) ->
    forall vs, (forall v, In v vs -> E u v) ->
    forall V P, GInv V P (u :: G) -> n < k + length (u :: G) ->
      let st' := fold_left (fun acc v => cg_dfs p k v acc) vs (V, P) in
      GInv (fst st') (snd st') (u :: G) /\ (forall v, In v vs -> In v (fst st')) /\ (forall x, In x V -> In x (fst st')).
  Proof.
    intros RG. induction vs as [|v vs IHv]; intros EV V P GI U; cbn [fold_left].
    - cbn [fst snd]. split; [exact GI|]. split; [intros v []|auto].
    - assert (Ev : E u v) by (apply EV; left; reflexivity).
      destruct (IH v V P (u :: G) GI U (W u v Ev)) as (GI1 & Iv & M1).
      { intros g [<-|Ig]; [apply rt_step, Ev|]. eapply rt_trans; [apply RG, Ig|apply rt_step, Ev]. }
      destruct (cg_dfs p k v (V, P)) as [V1 P1] eqn:D. cbn [fst snd] in *.
      destruct (IHv (fun v' I => EV v' (or_intror I)) V1 P1 GI1 U) as (GI2 & Ivs & M2).
      split; [exact GI2|]. split.
      + intros v' [<-|I]; [apply M2, Iv|apply Ivs, I].
      + intros x I. apply M2, M1, I.
  Qed.

  Lemma dfs_all : forall fuel, dfs_ok fuel.
  Proof.
    induction fuel as [|k IH]; intros u V P G GI U L RG; cbn [cg_dfs fst snd].
    - split; [exact GI|]. split; [|auto].
      destruct (in_dec Nat.eq_dec u V) as [I|NU]; [exact I|]. pose proof (stack_room V P G u GI NU L). lia.
    - destruct (nmem u V) eqn:MU; cbn [fst snd].
      { split; [exact GI|]. split; [apply nmem_spec, MU|auto]. }
      assert (NU : ~ In u V) by (intros I; apply nmem_spec in I; rewrite I in MU; discriminate).
      assert (NP : ~ In u P) by (intros I; apply NU; apply (gi_v _ _ _ GI); left; exact I).
      assert (NG : ~ In u G) by (intros I; apply NU; apply (gi_v _ _ _ GI); right; exact I).
      assert (GI0 : GInv (u :: V) P (u :: G)).
      { constructor.
        - intros x. cbn [In]. rewrite (gi_v _ _ _ GI x). tauto.
        - apply (gi_nd _ _ _ GI).
        - intros x I [<-|J]; [contradiction|]. exact (gi_dis _ _ _ GI x I J).
        - constructor; [exact NG|apply (gi_g _ _ _ GI)].
        - intros x [<-|I]; [exact L|apply (gi_lt _ _ _ GI), I].
        - intros l1 x l2 y EQ Exy. pose proof (gi_edge _ _ _ GI l1 x l2 y EQ Exy). cbn [In]. tauto. }
      assert (U0 : n < k + length (u :: G)) by (cbn [length]; lia).
      destruct (dfs_children k IH u G RG (succs u) (fun v I => I) (u :: V) P GI0 U0) as (GI1 & CH & M1).
      destruct (fold_left (fun acc v => cg_dfs p k v acc) (succs u) (u :: V, P)) as [V1 P1] eqn:FD.
      cbn [fst snd] in *.
      split; [|split; [apply M1; left; reflexivity|intros x I; apply M1; right; exact I]].
      assert (NP1 : ~ In u P1) by (intros I; apply (gi_dis _ _ _ GI1 u I); left; reflexivity).
      constructor.
      + intros x. rewrite (gi_v _ _ _ GI1 x). cbn [In]. tauto.
      + constructor; [exact NP1|apply (gi_nd _ _ _ GI1)].
      + intros x [<-|I] J; [contradiction|]. apply (gi_dis _ _ _ GI1 x I). right. exact J.
      + apply (gi_g _ _ _ GI).
      + apply (gi_lt _ _ _ GI).
      + intros l1 x l2 y EQ Exy. destruct l1 as [|a l1]; cbn [app] in EQ; inversion EQ; subst.
        * (* x = u is being finished: all its successors have been discovered *)
          pose proof (CH y Exy) as IV. apply (gi_v _ _ _ GI1) in IV. destruct IV as [IP|[<-|IG]].
          -- left. exact IP.
          -- right. left. reflexivity.
          -- right. right. split; [right; exact IG|apply RG, IG].
        * pose proof (gi_edge _ _ _ GI1 l1 x l2 y eq_refl Exy) as H. cbn [In] in *. tauto.
  Qed.

  (* the top level: sort<postorder_visitor>() *)
  Lemma dfs_roots : forall roots V P, (forall r, In r roots -> r < n) -> GInv V P [] ->
    let st' := fold_left (fun acc u => cg_dfs p (S n) u acc) roots (V, P) in
    GInv (fst st') (snd st') [] /\ (forall r, In r roots -> In r (fst st')) /\ (forall x, In x V -> In x (fst st')).
  Proof.
    induction roots as [|r roots IH]; intros V P LR GI; cbn [fold_left].
    - cbn [fst snd]. split; [exact GI|]. split; [intros r []|auto].
    - assert (U : n < S n + length (@nil nat)) by (cbn [length]; lia).
      destruct (dfs_all (S n) r V P [] GI U (LR r (or_introl eq_refl)) (fun g (F : In g []) => match F with end)) as (GI1 & Ir & M1).
      destruct (cg_dfs p (S n) r (V, P)) as [V1 P1]. cbn [fst snd] in *.
      destruct (IH V1 P1 (fun r' I => LR r' (or_intror I)) GI1) as (GI2 & Irs & M2).
      split; [exact GI2|]. split.
      + intros r' [<-|I]; [apply M2, Ir|apply Irs, I].
      + intros x I. apply M2, M1, I.
  Qed.

  Lemma roots_lt r : In r (cg_dfs_roots p) -> r < n.
  Proof.
    unfold cg_dfs_roots. intros I. apply in_app_or in I. destruct I as [I|I]; [|apply in_seq in I; lia].
    destruct (filter (cg_no_preds p) (seq 0 n)) as [|a l] eqn:F; [destruct I|].
    destruct I as [<-|[]]. assert (J : In a (filter (cg_no_preds p) (seq 0 n))) by (rewrite F; left; reflexivity).
    apply filter_In in J. destruct J as [J _]. apply in_seq in J. lia.
  Qed.

  Lemma rpost_inv :
    NoDup (cg_rpost p) /\ (forall f, f < n -> In f (cg_rpost p)) /\
    (forall l1 x l2 y, cg_rpost p = l1 ++ x :: l2 -> E x y -> In y l2 \/ y = x \/ (In y l1 /\ reach y x)).
  Proof.
    assert (G0 : GInv [] [] []).
    { constructor; [intros x; cbn; tauto|constructor|intros x []|constructor|intros x []|
                   intros l1 x l2 y EQ; destruct l1; discriminate]. }
    destruct (dfs_roots (cg_dfs_roots p) [] [] roots_lt G0) as (GI & IR & _).
    unfold cg_rpost. destruct (fold_left (fun acc u => cg_dfs p (S n) u acc) (cg_dfs_roots p) ([], [])) as [V P].
    cbn [fst snd] in *. split; [apply (gi_nd _ _ _ GI)|]. split.
    - intros f L. assert (I : In f V).
      { apply IR. unfold cg_dfs_roots. apply in_or_app. right. apply in_seq. lia. }
      apply (gi_v _ _ _ GI) in I. destruct I as [I|[]]. exact I.
    - intros l1 x l2 y EQ Exy. pose proof (gi_edge _ _ _ GI l1 x l2 y EQ Exy) as H. cbn [In] in H. tauto.
  Qed.

  Theorem rpost_callers_first l1 f l2 :
    cg_rpost p = l1 ++ f :: l2 -> cg_isrec p f = false -> forall h, In h (cg_preds p f) -> In h l1.
  Proof.
    intros EQ NR h Ih. destruct rpost_inv as (ND & ALL & ED).
    pose proof (isrec_false_no_cycle f NR) as NC.
    unfold cg_preds in Ih. apply filter_In in Ih. destruct Ih as [Ih Ehf]. apply in_seq in Ih.
    apply nmem_spec in Ehf. change (E h f) in Ehf.
    assert (Jh : In h (cg_rpost p)) by (apply ALL; lia).
    apply in_split in Jh. destruct Jh as (m1 & m2 & EQ2).
    destruct (ED m1 h m2 f EQ2 Ehf) as [H|[H|[_ R]]].
    - rewrite EQ in ND. rewrite EQ in EQ2. exact (nodup_split_order f h l1 l2 m1 m2 ND EQ2 H).
    - exfalso. subst h. apply NC. apply t_step. exact Ehf.
    - exfalso. apply NC. apply clos_rt_rtn1 in R. apply clos_rtn1_rt in R.
      apply clos_rt_t with h; [exact R|apply t_step; exact Ehf].
  Qed.
End Order.

Lemma wf_succs_lt p voff : iprog_wfb p voff = true -> forall u v, E p u v -> v < length p.
Proof.
  intros WF u v H. unfold E in H. apply cg_succs_In, cg_edge_callees in H.
  pose proof (cg_edge_lt p u v H) as Lu. destruct H as (n & outs & ins & I).
  destruct (fn_wf p voff WF u Lu) as (_ & _ & _ & _ & Wb).
  apply (call_wf p voff _ _ _ _ (Wb n _ I)).
Qed.

Lemma E_path p f g : cg_path p f g -> clos_trans nat (E p) f g.
Proof.
  intros T. induction T as [x y H|x y z _ IH1 _ IH2].
  - apply t_step. unfold E. apply cg_succs_In, cg_edge_callees, H.
  - eapply t_trans; eauto.
Qed.

(* the recursion test is complete: a function that it declares non-recursive is on no cycle of the
   call graph *)
Theorem cg_isrec_false_no_cycle p f : cg_isrec p f = false -> ~ cg_path p f f.
Proof. intros H T. exact (isrec_false_no_cycle p f H (E_path p f f T)). Qed.

(* the top-down order of the mirror: every function once, non-recursive functions after all their
   callers *)
Theorem cg_rpost_ok p voff : iprog_wfb p voff = true ->
  NoDup (cg_rpost p) /\ (forall f, f < length p -> In f (cg_rpost p)) /\
  (forall l1 f l2, cg_rpost p = l1 ++ f :: l2 -> cg_isrec p f = false ->
     forall h, In h (cg_preds p f) -> In h l1).
Proof.
  intros WF. pose proof (wf_succs_lt p voff WF) as W.
  destruct (rpost_inv p W) as (ND & ALL & _).
  split; [exact ND|]. split; [exact ALL|].
  intros l1 f l2 EQ NR h I. exact (rpost_callers_first p W l1 f l2 EQ NR h I).
Qed.

Corollary cg_post_ok p voff : iprog_wfb p voff = true ->
  NoDup (cg_post p) /\ (forall f, f < length p -> In f (cg_post p)).
Proof.
  intros WF. destruct (cg_rpost_ok p voff WF) as (ND & ALL & _). unfold cg_post. split.
  - apply NoDup_rev, ND.
  - intros f L. apply in_rev. rewrite rev_involutive. apply ALL, L.
Qed.

Section Dead.
  Variable p : iprog.
  Variable voff : N.
  Variables delay desc efuel : nat.
  Variable wtos : nat -> Wto.wto.
  Variable sums : nat -> option ItvEnv.env.
  Variable init : ItvEnv.env.
  Notation step := (bur_td_step p voff delay desc efuel wtos sums init).

  Lemma step_done acc f : In f (t_done (step acc f)) /\ forall x, In x (t_done acc) -> In x (t_done (step acc f)).
  Proof.
    unfold bur_td_step. destruct (nmem f (t_done acc)) eqn:M.
    - split; [apply nmem_spec, M|auto].
    - cbv zeta. match goal with |- context [match ?X with Some _ => _ | None => _ end] => destruct X end;
        cbn [t_done]; split; try (left; reflexivity); intros x I; right; exact I.
  Qed.

  Lemma fold_done : forall l acc x, In x l \/ In x (t_done acc) -> In x (t_done (fold_left step l acc)).
  Proof.
    induction l as [|f l IH]; intros acc x H; cbn [fold_left]; [destruct H as [[]|H]; exact H|].
    apply IH. destruct (step_done acc f) as [A B]. destruct H as [[<-|I]|I]; [right; exact A|left; exact I|right; apply B, I].
  Qed.

  (* whenever the top-down phase of bur_run reaches a non-recursive function, all its callers
     have been analysed: the function starts from the call table (or from init), never from the
     defensive top of bur_td_step *)
  Theorem bur_td_callers_done : iprog_wfb p voff = true ->
    forall l1 f l2 st0, cg_rpost p = l1 ++ f :: l2 -> cg_isrec p f = false ->
    all_in (cg_preds p f) (t_done (fold_left step l1 st0)) = true.
  Proof.
    intros WF l1 f l2 st0 EQ NR. destruct (cg_rpost_ok p voff WF) as (_ & _ & H).
    unfold all_in. apply forallb_forall. intros h I. apply nmem_spec. apply fold_done. left.
    exact (H l1 f l2 EQ NR h I).
  Qed.
End Dead.
