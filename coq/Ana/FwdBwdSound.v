(* FwdBwdSound.v — property C02 for the forward+backward analyzer model Ana/FwdBwd.v (mirror
   of intra_forward_backward_analyzer::run + intra_checker::run over intervals).

   For every program of the backward fragment (well-formed statements, in-range edges, the
   statements covered by Ana/BackwardSound.v), every set of initial states, every parameter
   setting (widening delay, descending iterations, max_refine_iterations,
   use_refined_invariants) and every fuel: if the model returns, then for every execution
   from the initial states that enters a block,
     (a) an assertion of the block that the execution reaches and that is reported SAFE
         holds there;
     (b) with use_refined_invariants = false, no assertion that the execution reaches is
         reported UNREACHABLE.
   With use_refined_invariants = true (b) is false, of the model and of the C++ (known
   finding): [fb_unreachable_refined_refuted].

   The proof follows the refinement loop.  Invariant of the loop: every execution from the
   initial states that goes on to violate some assertion satisfies, at every block entry,
   the current refined assumption of that block.  Hence the forward run restricted by the
   assumptions still contains these executions (soundness of the engine for any assumption
   map, Fix/EngineSound.v), the backward run from the error states with these forward
   invariants contains them too (Ana/BwdItvEngineSound.v; this is where the guard "every
   block with an assertion can reach the exit" is needed), and so does old && new.
   Discharge: if the refined assumption of u is bottom no violating execution enters u; if u
   strictly dominates m every execution that enters m entered u before, so no execution
   violates an assertion of m. *)
From Coq Require Import ZArith NArith List Bool Arith Lia.
From CrabV Require Import Base.ZInf Scalar.Itv Ir.Syntax Ir.Cfg Dom.ItvEnv Dom.ItvEnvSound Dom.ItvDomain
     Dom.ItvDomainSound
     Fix.Wto Fix.WtoCheck Fix.WtoSound Fix.WtoTotal Fix.WtoRoot Fix.Engine Fix.EngineCheck Fix.EngineSound
     Ana.Transformer Ana.FwdItv Ana.FwdItvSound Ana.FwdItvEngineSound
     Ana.Backward Ana.BackwardSound Ana.BackwardCheck Ana.BwdItv Ana.BwdItvEngineSound Ana.Checker Ana.FwdBwd.
Import ListNotations.

(* as sound_verdicts of Ana/Checker.v, for the checker with a proved set; [ur] = the
   'unreachable' verdicts are part of the claim *)
Fixpoint fb_sound_verdicts (ur : bool) (proved : bool) (bl : block) (inv : env) (a : store) : Prop :=
  match bl with
  | [] => True
  | s :: r =>
    (match s with
     | SAssert c _ =>
       (fb_verdict_of proved c inv = VSafe -> sat c a) /\
       (ur = true -> fb_verdict_of proved c inv = VUnreach -> False)
     | _ => True
     end) /\
    forall m, sstep s a m -> fb_sound_verdicts ur proved r (fb_next_inv proved s inv) m
  end.

(* not in the proved set: the rule of Checker.v *)
Lemma fb_sv_of_sound ur bl : forall inv a,
  sound_verdicts bl inv a -> fb_sound_verdicts ur false bl inv a.
Proof.
  induction bl as [|s r IH]; intros inv a H; [exact I|].
  cbn [sound_verdicts] in H. destruct H as [H1 H2]. cbn [fb_sound_verdicts]. split.
  - destruct s; auto. unfold fb_verdict_of. destruct H1 as [S U]. split; [exact S|].
    intros _. exact U.
  - intros m ST. unfold fb_next_inv. apply IH. apply H2. exact ST.
Qed.

(* in the proved set: no execution entering the block in state a fails one of its assertions *)
Lemma fb_sv_proved ur bl : forall inv a,
  (forall id, ~ bfails bl a id) -> fb_sound_verdicts ur true bl inv a.
Proof.
  induction bl as [|s r IH]; intros inv a NF; [exact I|].
  cbn [fb_sound_verdicts]. split.
  - destruct s; auto. unfold fb_verdict_of. split; [|discriminate].
    intros _. destruct (sat_dec c a) as [S|N]; [exact S|].
    exfalso. apply (NF id). cbn [bfails]. left. split; [reflexivity|exact N].
  - intros m ST. apply IH. intros id F. apply (NF id). cbn [bfails]. right. exists m. split; assumption.
Qed.

(* 'safe' verdicts from an invariant that is only known to contain the states from which the
   block fails an assertion *)
Lemma fb_sv_safe_under_fail bl : forall inv a, block_wf bl ->
  ((exists id, bfails bl a id) -> genv inv a) -> fb_sound_verdicts false false bl inv a.
Proof.
  induction bl as [|s r IH]; intros inv a W H; [exact I|].
  assert (Ws : stmt_wf s) by (apply W; left; reflexivity).
  assert (Wr : block_wf r) by (intros s' I'; apply W; right; exact I').
  cbn [fb_sound_verdicts]. split.
  - destruct s; auto. unfold fb_verdict_of. split; [|discriminate].
    intros V. destruct (sat_dec c a) as [S|N]; [exact S|].
    assert (G : genv inv a).
    { apply H. exists id. cbn [bfails]. left. split; [reflexivity|exact N]. }
    pose proof (check_block_sound (SAssert c id :: r) inv a W G) as SV.
    cbn [sound_verdicts] in SV. destruct SV as [[SV _] _]. exact (SV V).
  - intros m ST. unfold fb_next_inv. apply IH; [exact Wr|].
    intros [id F]. apply (next_inv_sound s inv a m Ws); [|exact ST].
    apply H. exists id. cbn [bfails]. right. exists m. split; assumption.
Qed.

(* the claim without the 'unreachable' verdicts *)
Lemma fb_sv_drop_unreach ur proved bl : forall inv a,
  fb_sound_verdicts ur proved bl inv a -> fb_sound_verdicts false proved bl inv a.
Proof.
  induction bl as [|s r IH]; intros inv a H; [exact I|].
  cbn [fb_sound_verdicts] in *. destruct H as [H1 H2]. split.
  - destruct s; auto. destruct H1 as [S _]. split; [exact S|discriminate].
  - intros m ST. apply IH. apply H2. exact ST.
Qed.

Lemma bfails_has_assert bl : forall a id, bfails bl a id -> has_assert bl = true.
Proof.
  induction bl as [|s r IH]; intros a id F; [destruct F|].
  unfold has_assert. cbn [existsb]. cbn [bfails] in F. destruct F as [F|[m [_ F]]].
  - destruct s; try contradiction. reflexivity.
  - apply orb_true_iff. right. exact (IH m id F).
Qed.

Lemma mem_nat_In x l : mem_nat x l = true <-> In x l.
Proof.
  unfold mem_nat. rewrite existsb_exists. split.
  - intros [y [I E]]. apply Nat.eqb_eq in E. subst. exact I.
  - intros I. exists x. split; [exact I|apply Nat.eqb_refl].
Qed.

Section FB.
  Variable p : prog.
  Hypothesis p_wf : prog_wfb p = true.
  Hypothesis p_ok : forallb block_bwd_ok (p_blocks p) = true.
  Variable entry : nat.
  Variable Init : store -> Prop.
  Variable init : env.
  Hypothesis init_s : forall s, Init s -> genv init s.

  (* an execution from the initial states enters block n with store a *)
  Definition Reach : nat -> store -> Prop := ReachPre p entry false (fun _ => None) Init.
  (* ... and from there some execution goes on to violate an assertion *)
  Definition Viol : nat -> store -> Prop := Bad p (fun _ => e_top).

  (* the same executions with their history: the block entries visited before, latest first *)
  Inductive Trace : nat -> store -> list (nat * store) -> Prop :=
  | T_init a : Init a -> Trace entry a []
  | T_step n a b s t : Trace n a t -> bstep (p_block p n) a b -> In s (p_succs p n) ->
      Trace s b ((n, a) :: t).

  Lemma preds_succs : forall n q, In q (p_preds p n) -> In n (p_succs p q).
  Proof. intros n q I. apply p_succs_edge. apply p_preds_edge. exact I. Qed.
  Lemma succs_preds : forall n q, In n (p_succs p q) -> In q (p_preds p n).
  Proof. intros n q I. apply p_preds_edge. apply p_succs_edge. exact I. Qed.

  Lemma reach_trace : forall n a, Reach n a -> exists t, Trace n a t.
  Proof.
    unfold Reach, ReachPre.
    apply (RPre_mut env store genv (fun n => bstep (p_block p n)) (p_preds p) entry false (fun _ => None) Init
             (fun n a _ => exists t, Trace n a t)
             (fun n b _ => exists a t, Trace n a t /\ bstep (p_block p n) a b)).
    - intros s I _. exists []. apply T_init. exact I.
    - intros n q s I _ [a [t [T B]]] _. exists ((q, a) :: t).
      apply T_step; [exact T|exact B|]. apply preds_succs. exact I.
    - intros n s s' _ [t T] B. exists s, t. split; assumption.
  Qed.

  Lemma viol_step : forall n a b s, bstep (p_block p n) a b -> In s (p_succs p n) -> Viol s b -> Viol n a.
  Proof.
    intros n a b s B I V. unfold Viol. apply Bad_later with b s; [|apply genv_top|exact B|exact I|exact V].
    exact (succs_src_in_range p p_wf n s I).
  Qed.

  Lemma bfails_viol : forall n a id, bfails (p_block p n) a id -> Viol n a.
  Proof.
    intros n a id F. exact (Bad_here p _ n a id (bfails_in_range p n a id F) (genv_top a) F).
  Qed.

  (* every earlier point of an execution that goes on to a violation is itself such a point *)
  Lemma trace_history : forall n a t, Trace n a t -> Viol n a ->
    forall m c, In (m, c) t -> Viol m c /\ exists t', Trace m c t'.
  Proof.
    induction 1 as [a I|n a b s t T IH B HI]; intros V m c HIn; [destruct HIn|].
    assert (Vn : Viol n a) by exact (viol_step n a b s B HI V).
    destruct HIn as [E|HIn].
    - inversion E; subst m c. split; [exact Vn|]. exists t. exact T.
    - exact (IH Vn m c HIn).
  Qed.

  Lemma trace_entry : forall n a t, Trace n a t -> Viol n a ->
    exists a0 t0, Trace entry a0 t0 /\ Viol entry a0.
  Proof.
    induction 1 as [a I|n a b s t T IH B HI]; intros V.
    - exists a, []. split; [apply T_init; exact I|exact V].
    - apply IH. exact (viol_step n a b s B HI V).
  Qed.

  (* a table that holds, at every block entry, of every execution that goes on to a violation *)
  Definition Covers (tab : nat -> env) : Prop :=
    forall n a t, Trace n a t -> Viol n a -> genv (tab n) a.
  (* the invariant: the refined assumptions are such a table *)
  Definition RefInv (ref : option (nat -> env)) : Prop :=
    match ref with Some tab => Covers tab | None => True end.

  (* so the violating executions are executions under the assumptions *)
  Lemma refinv_reach : forall ref, RefInv ref ->
    forall n a t, Trace n a t -> Viol n a -> ReachPre p entry (asm_use ref) (asm_of ref) Init n a.
  Proof.
    intros ref RI.
    assert (AH : forall n a t, Trace n a t -> Viol n a ->
                 asm_holds env store genv (asm_use ref) (asm_of ref) n a).
    { destruct ref as [tab|]; [exact RI|intros; exact I]. }
    induction 1 as [a I|n a b s t T IH B HI]; intros V.
    - apply RP_init; [exact I|]. apply (AH entry a []); [apply T_init; exact I|exact V].
    - apply RP_edge with n; [apply succs_preds; exact HI| |].
      + apply RPo with a; [|exact B]. apply IH. exact (viol_step n a b s B HI V).
      + apply (AH s b ((n, a) :: t)); [apply T_step; assumption|exact V].
  Qed.

  Variables delay desc fuel : nat.
  Variable e0 : nat.                   (* entry block of the CFG *)
  Variable w : wto.
  Hypothesis w_build : build (p_graph p) e0 = Some w.
  Hypothesis entry_in : In entry (flat w).
  Variable exit_block : nat.
  Variable wrev : wto.
  Hypothesis wrev_build : wto_build (p_rev_graph p) exit_block = Some wrev.
  Hypothesis guard : asserts_reach_exit p wrev = true.
  Variable fresh : var.

  Lemma assert_block_reaches_exit : forall n a id, bfails (p_block p n) a id ->
    reaches_exit p exit_block n.
  Proof.
    intros n a id F. pose proof (bfails_in_range p n a id F) as L.
    unfold wto_build in wrev_build.
    apply (wrev_reaches_exit p exit_block p_wf _ _ wrev (build_WF _ _ _ wrev_build)).
    apply wto_mem_In. unfold asserts_reach_exit in guard. rewrite forallb_forall in guard.
    assert (X := guard n ltac:(unfold all_blocks, nblocks; apply in_seq; lia)).
    rewrite (bfails_has_assert _ _ _ F) in X. exact X.
  Qed.

  (* one round: forward run under the assumptions, backward run from the error states, refine *)
  Lemma round_fwd : forall ref F, RefInv ref ->
    fwd_run p w entry delay desc (asm_use ref) (asm_of ref) fuel init = Some F ->
    Covers (e_pre env F).
  Proof.
    intros ref F RI RUN n a t T V.
    apply (fwd_run_sound_any_entry p p_wf _ _ Init init init_s delay desc fuel e0 entry w F w_build entry_in RUN).
    exact (refinv_reach ref RI n a t T V).
  Qed.

  Lemma round_badr : forall finv, Covers finv ->
    forall n a, Viol n a -> forall t, Trace n a t -> BadR p exit_block finv n a.
  Proof.
    intros finv FS. unfold Viol. induction 1 as [n a id L _ F|n a b s L _ B HI V IH]; intros t T.
    - apply BadR_here with id; [exact (assert_block_reaches_exit n a id F)| |exact F].
      apply (FS n a t T). exact (bfails_viol n a id F).
    - apply BadR_later with b s; [|exact B|exact HI|].
      + apply (FS n a t T). exact (viol_step n a b s B HI V).
      + apply (IH ((n, a) :: t)). apply T_step; assumption.
  Qed.

  Lemma round_bwd : forall finv bt, Covers finv ->
    bwd_run p wrev exit_block delay desc fuel fresh false finv EBot = Some bt -> Covers bt.
  Proof.
    intros finv bt FS RUN n a t T V.
    apply (bwd_run_error_sound p fresh exit_block EBot finv delay desc fuel wrev bt p_wf p_ok wrev_build RUN).
    exact (round_badr finv FS n a V t T).
  Qed.

  Lemma round_refine : forall ref bt, RefInv ref -> Covers bt ->
    RefInv (if snd (refine_tab p ref bt) then Some (fst (refine_tab p ref bt)) else ref).
  Proof.
    intros ref bt RI BS. destruct (snd (refine_tab p ref bt)); [|exact RI].
    destruct ref as [o|]; cbn [refine_tab fst RefInv]; [|exact BS].
    intros n a t T V. apply e_narrow_sound; [exact (RI n a t T V)|exact (BS n a t T V)].
  Qed.

  (* what a call of the loop does: one round, then either it stops or it goes on with the refined
     assumptions *)
  Lemma fb_loop_step : forall k ref r,
    fb_loop p w wrev entry exit_block delay desc fuel fresh init k ref = Some r ->
    exists F bt,
      fwd_run p w entry delay desc (asm_use ref) (asm_of ref) fuel init = Some F /\
      bwd_run p wrev exit_block delay desc fuel fresh false (e_pre env F) EBot = Some bt /\
      r_first r = e_pre env F /\
      let ref' := if snd (refine_tab p ref bt) then Some (fst (refine_tab p ref bt)) else ref in
      (r_last r = e_pre env F /\ r_ref r = ref') \/
      (exists k' r', k = S k' /\
         fb_loop p w wrev entry exit_block delay desc fuel fresh init k' ref' = Some r' /\
         r_last r = r_last r' /\ r_ref r = r_ref r').
  Proof.
    intros k ref r RUN. destruct k as [|k]; cbn [fb_loop] in RUN;
      destruct (fwd_run p w entry delay desc (asm_use ref) (asm_of ref) fuel init) as [F|]; try discriminate;
      destruct (bwd_run p wrev exit_block delay desc fuel fresh false (e_pre env F) EBot) as [bt|] eqn:BR;
      try discriminate; exists F, bt; (split; [reflexivity|]); (split; [exact BR|]); cbv zeta.
    - inversion RUN. auto.
    - destruct (snd (refine_tab p ref bt)).
      + destruct (fb_loop p w wrev entry exit_block delay desc fuel fresh init k (Some (fst (refine_tab p ref bt))))
          as [r'|] eqn:RL; [|discriminate].
        inversion RUN. split; [reflexivity|]. right. exists k, r'. auto.
      + inversion RUN. auto.
  Qed.

  Theorem fb_loop_inv : forall k ref r, RefInv ref ->
    fb_loop p w wrev entry exit_block delay desc fuel fresh init k ref = Some r ->
    RefInv (r_ref r) /\ Covers (r_last r).
  Proof.
    induction k as [k IH] using (well_founded_induction lt_wf). intros ref r RI RUN.
    destruct (fb_loop_step k ref r RUN) as (F & bt & FR & BR & _ & H). cbv zeta in H.
    pose proof (round_fwd ref F RI FR) as FS.
    pose proof (round_refine ref bt RI (round_bwd _ bt FS BR)) as RI'.
    destruct H as [[-> ->]|(k' & r' & -> & RL & -> & ->)]; [split; assumption|].
    exact (IH k' (Nat.lt_succ_diag_r k') _ r' RI' RL).
  Qed.

  Lemma fb_loop_first : forall k r,
    fb_loop p w wrev entry exit_block delay desc fuel fresh init k None = Some r ->
    exists F, fwd_run p w entry delay desc false (fun _ => None) fuel init = Some F /\ r_first r = e_pre env F.
  Proof.
    intros k r RUN. destruct (fb_loop_step k None r RUN) as (F & bt & FR & _ & E & _).
    exists F. exact (conj FR E).
  Qed.

  Lemma cut_succs : forall u q, q <> u -> q < length (p_blocks p) -> succs (p_graph_cut p u) q = p_succs p q.
  Proof.
    intros u q NE L. unfold p_graph_cut, all_blocks, nblocks.
    rewrite (succs_map_seq (fun q => if Nat.eqb q u then [] else p_succs p q)) by exact L.
    destruct (Nat.eqb_spec q u) as [E|_]; [contradiction|reflexivity].
  Qed.

  (* an execution entered u, or it runs inside the CFG without the edges leaving u *)
  Lemma trace_through : forall u n a t, Trace n a t ->
    (n = u \/ exists c, In (u, c) t) \/ reachable (p_graph_cut p u) entry n.
  Proof.
    intros u. induction 1 as [a I|n a b s t T IH B HI].
    - right. apply reach_refl.
    - destruct IH as [[E|[c HIn]]|R].
      + left. right. exists a. left. rewrite E. reflexivity.
      + left. right. exists c. right. exact HIn.
      + destruct (Nat.eq_dec n u) as [E|NE].
        * left. right. exists a. left. rewrite E. reflexivity.
        * right. apply reach_step with n; [exact R|].
          rewrite cut_succs; [exact HI|exact NE|exact (succs_src_in_range p p_wf n s HI)].
  Qed.

  Lemma sdom_sound : forall wd u m, sdom p wd entry u m = true ->
    forall a t, Trace m a t -> exists c, In (u, c) t.
  Proof.
    intros wd u m SD a t T. unfold sdom in SD.
    apply andb_true_iff in SD. destruct SD as [SD CUT]. apply andb_true_iff in SD. destruct SD as [NE _].
    apply negb_true_iff in NE. apply Nat.eqb_neq in NE.
    destruct (build (p_graph_cut p u) entry) as [w'|] eqn:BU; [|discriminate].
    apply negb_true_iff in CUT.
    destruct (trace_through u m a t T) as [[E|X]|R]; [congruence|exact X|exfalso].
    apply (wf_reach _ _ _ _ _ (build_WF _ _ _ BU)) in R. apply wto_mem_In in R. congruence.
  Qed.

  Theorem discharge_sound : forall wd ref m,
    Covers ref ->
    In m (discharge p wd entry ref) ->
    forall a, Reach m a -> forall id, ~ bfails (p_block p m) a id.
  Proof.
    intros wd ref m AI HIn a R id F.
    destruct (reach_trace m a R) as [t T].
    pose proof (bfails_viol m a id F) as V.
    unfold discharge in HIn. destruct (idom_empty p wd entry).
    - destruct (e_is_bot (ref entry)) eqn:B; [|destruct HIn].
      destruct (trace_entry m a t T V) as [a0 [t0 [T0 V0]]].
      apply (e_is_bot_sound _ a0 B). exact (AI entry a0 t0 T0 V0).
    - apply filter_In in HIn. destruct HIn as [_ EX]. apply existsb_exists in EX.
      destruct EX as [u [_ EX]]. apply andb_true_iff in EX. destruct EX as [B SD].
      destruct (sdom_sound wd u m SD a t T) as [c HC].
      destruct (trace_history m a t T V u c HC) as [Vu [t' Tu]].
      apply (e_is_bot_sound _ c B). exact (AI u c t' Tu Vu).
  Qed.
End FB.

Theorem fb_run_verdicts_sound :
  forall p, prog_wfb p = true -> forallb block_bwd_ok (p_blocks p) = true ->
  forall (Init : store -> Prop) init, (forall s, Init s -> genv init s) ->
  forall e0 entry exit_block delay desc fuel fresh use_refined maxref o,
  fb_run p e0 entry exit_block delay desc fuel fresh use_refined maxref init = Some o ->
  forall n a, ReachPre p entry false (fun _ => None) Init n a ->
  fb_sound_verdicts (negb use_refined) (mem_nat n (fb_proved o)) (p_block p n) (fb_inv o n) a.
Proof.
  intros p W OK Init init IS e0 entry exit_block delay desc fuel fresh use_refined maxref o RUN n a R.
  assert (BW : block_wf (p_block p n)).
  { unfold prog_wfb in W. apply andb_true_iff in W. destruct W as [WB _]. exact (blocks_wf p WB n). }
  unfold fb_run in RUN.
  destruct (build (p_graph p) e0) as [w|] eqn:BU; [|discriminate].
  destruct (wto_mem entry w) eqn:EI; cbn [negb] in RUN; [|discriminate].
  apply wto_mem_In in EI.
  (* the forward-only result *)
  assert (FO : match fwd_run p w entry delay desc false (fun _ => None) fuel init with
               | Some F => Some (mkFbOut (e_pre env F) [])
               | None => None
               end = Some o ->
               fb_sound_verdicts (negb use_refined) (mem_nat n (fb_proved o)) (p_block p n) (fb_inv o n) a).
  { intros H. destruct (fwd_run p w entry delay desc false (fun _ => None) fuel init) as [F|] eqn:FR; [|discriminate].
    inversion H; subst o. cbn [fb_proved fb_inv mem_nat existsb].
    destruct (fwd_run_sound_any_entry p W false (fun _ => None) Init init IS delay desc fuel e0 entry w F BU EI FR) as [S _].
    apply fb_sv_of_sound. apply check_block_sound; [exact BW|]. apply S. exact R. }
  destruct exit_block as [ex|]; [|exact (FO RUN)].
  destruct (wto_build (p_rev_graph p) ex) as [wrev|] eqn:BR; [|discriminate].
  destruct (asserts_reach_exit p wrev) eqn:G; cbn [negb] in RUN; [|exact (FO RUN)].
  destruct (no_asserts p); [exact (FO RUN)|].
  destruct (build (p_graph p) entry) as [wd|] eqn:BD; [|discriminate].
  destruct (fb_loop p w wrev entry ex delay desc fuel fresh init maxref None) as [r|] eqn:RL; [|discriminate].
  inversion RUN; subst o. cbn [fb_proved fb_inv]. clear RUN FO.
  destruct (fb_loop_inv p W OK entry Init init IS delay desc fuel e0 w BU EI ex wrev BR G fresh maxref None r
              I RL) as [AI LS].
  destruct (fb_loop_first p entry init delay desc fuel w ex wrev fresh maxref r RL) as [F [FR EF]].
  destruct (mem_nat n (match r_ref r with Some t => discharge p wd entry t | None => [] end)) eqn:PR.
  - (* the block is in the proved set *)
    apply fb_sv_proved. intros id.
    destruct (r_ref r) as [t|] eqn:ER; [|discriminate].
    apply mem_nat_In in PR.
    exact (discharge_sound p W entry Init wd t n AI PR a R id).
  - destruct use_refined; cbn [negb].
    + (* invariants of the last round: they contain the states from which the block fails *)
      apply fb_sv_safe_under_fail; [exact BW|]. intros [id FL].
      destruct (reach_trace p entry Init n a R) as [t T].
      exact (LS n a t T (bfails_viol p n a id FL)).
    + (* invariants of the first round: a plain forward analysis *)
      rewrite EF.
      destruct (fwd_run_sound_any_entry p W false (fun _ => None) Init init IS delay desc fuel e0 entry w F BU EI FR) as [S _].
      apply fb_sv_of_sound. apply check_block_sound; [exact BW|]. apply S. exact R.
Qed.

(* the two halves of the property, as the verdict list of the model reports them *)
Corollary fb_safe_verdicts_sound :
  forall p, prog_wfb p = true -> forallb block_bwd_ok (p_blocks p) = true ->
  forall (Init : store -> Prop) init, (forall s, Init s -> genv init s) ->
  forall e0 entry exit_block delay desc fuel fresh use_refined maxref o,
  fb_run p e0 entry exit_block delay desc fuel fresh use_refined maxref init = Some o ->
  forall n a, ReachPre p entry false (fun _ => None) Init n a ->
  fb_sound_verdicts false (mem_nat n (fb_proved o)) (p_block p n) (fb_inv o n) a.
Proof.
  intros p W OK Init init IS e0 entry ex delay desc fuel fresh ur maxref o RUN n a R.
  apply (fb_sv_drop_unreach (negb ur)).
  exact (fb_run_verdicts_sound p W OK Init init IS e0 entry ex delay desc fuel fresh ur maxref o RUN n a R).
Qed.

(* use_refined_invariants: 'unreachable' is not sound.  The claim (b) without the restriction
   use_refined_invariants = false *)
Definition fb_unreachable_statement : Prop :=
  forall p, prog_wfb p = true -> forallb block_bwd_ok (p_blocks p) = true ->
  forall (Init : store -> Prop) init, (forall s, Init s -> genv init s) ->
  forall e0 entry exit_block delay desc fuel fresh use_refined maxref o,
  fb_run p e0 entry exit_block delay desc fuel fresh use_refined maxref init = Some o ->
  forall n a, ReachPre p entry false (fun _ => None) Init n a ->
  fb_sound_verdicts true (mem_nat n (fb_proved o)) (p_block p n) (fb_inv o n) a.

(* the input of the known finding (known_findings.json, C02, stream fwd-bwd-verdicts-oracle):
   b0: x := 2; assert (x + 1 <> 0)   b1 (exit): assume (2x + 2 < 0); x := y - 7   edge b0 -> b1,
   delay 1, descending 1, max_refine_iterations 5, use_refined_invariants.  No violation is
   possible, the refined assumption of b0 is bottom, so is the exported invariant of b0, and the
   checker reports the assertion as unreachable although every execution reaches it.  (The
   C++ prints the same verdict U.) *)
Definition fb_known_finding_prog : prog :=
  mkProg [[SAssign 0%N (mkLE [] 2); SAssert (mkLC DISEQ (mkLE [(1%Z, 0%N)] 1)) 1];
          [SAssume (mkLC STRICT (mkLE [(2%Z, 0%N)] 2)); SAssign 0%N (mkLE [(1%Z, 1%N)] (-7))]]
         [(0, 1)].

Example fb_known_finding_verdicts :
  fb_analyze fb_known_finding_prog 0 0 (Some 1) 1 1 400 1002%N true 5 e_top = Some [(1, VUnreach)] /\
  fb_analyze fb_known_finding_prog 0 0 (Some 1) 1 1 400 1002%N false 5 e_top = Some [(1, VSafe)].
Proof. split; vm_compute; reflexivity. Qed.

Lemma fb_unreachable_refined_refuted : ~ fb_unreachable_statement.
Proof.
  intros ST.
  set (s1 := SAssign 0%N (mkLE [] 2)).
  set (c := mkLC DISEQ (mkLE [(1%Z, 0%N)] 1)).
  (* the run of the example and the verdict, read off the verdict list *)
  assert (RUN : exists o,
            fb_run fb_known_finding_prog 0 0 (Some 1) 1 1 400 1002%N true 5 e_top = Some o /\
            fb_verdict_of (mem_nat 0 (fb_proved o)) c
                          (fb_next_inv (mem_nat 0 (fb_proved o)) s1 (fb_inv o 0)) = VUnreach).
  { destruct fb_known_finding_verdicts as [V _]. unfold fb_analyze in V.
    destruct (fb_run fb_known_finding_prog 0 0 (Some 1) 1 1 400 1002%N true 5 e_top) as [o|]; [|discriminate].
    exists o. split; [reflexivity|]. injection V as V. exact V. }
  destruct RUN as [o [RUN U]].
  assert (W : prog_wfb fb_known_finding_prog = true) by (vm_compute; reflexivity).
  assert (OK : forallb block_bwd_ok (p_blocks fb_known_finding_prog) = true) by (vm_compute; reflexivity).
  pose proof (ST fb_known_finding_prog W OK (fun _ => True) e_top (fun s _ => genv_top s)
                 0 0 (Some 1) 1 1 400 1002%N true 5 o RUN 0 (fun _ => 0%Z)) as H.
  assert (R : ReachPre fb_known_finding_prog 0 false (fun _ => None) (fun _ => True) 0 (fun _ => 0%Z)).
  { apply RP_init; exact I. }
  specialize (H R).
  change (p_block fb_known_finding_prog 0) with [s1; SAssert c 1] in H.
  cbn [fb_sound_verdicts] in H. destruct H as [_ H].
  specialize (H _ eq_refl). cbn [fb_sound_verdicts] in H. destruct H as [[_ H] _].
  exact (H eq_refl U).
Qed.

(* non-vacuity: the backward refinement proves more.
   b0: y := x   b1 (exit): assume (x <= 0); assert (y <= 0)   edge b0 -> b1.  The forward
   interval analysis loses x = y and reports a warning; the backward run from the error states
   (y >= 1 and x <= 0 at b1) gives bottom at b0 (x = y), b0 strictly dominates b1, and the
   assertion is discharged.  The theorem applies: the assertion holds on every execution. *)
Definition fb_example_prog : prog :=
  mkProg [[SAssign 1%N (mkLE [(1%Z, 0%N)] 0)];
          [SAssume (mkLC INEQ (mkLE [(1%Z, 0%N)] 0)); SAssert (mkLC INEQ (mkLE [(1%Z, 1%N)] 0)) 1]]
         [(0, 1)].

Example fb_backward_proves_more_example :
  prog_wfb fb_example_prog = true /\ forallb block_bwd_ok (p_blocks fb_example_prog) = true /\
  (* forward analysis alone (no exit block: the backward refinement is skipped) *)
  fb_analyze fb_example_prog 0 0 None 1 1 400 1002%N false 5 e_top = Some [(1, VWarn)] /\
  (* forward + backward *)
  fb_analyze fb_example_prog 0 0 (Some 1) 1 1 400 1002%N false 5 e_top = Some [(1, VSafe)] /\
  exists o, fb_run fb_example_prog 0 0 (Some 1) 1 1 400 1002%N false 5 e_top = Some o /\
            fb_proved o = [1] /\
            forall a, ReachPre fb_example_prog 0 false (fun _ => None) (fun _ => True) 1 a ->
                      (a 0%N <= 0)%Z -> (a 1%N <= 0)%Z.
Proof.
  assert (W : prog_wfb fb_example_prog = true) by (vm_compute; reflexivity).
  assert (OK : forallb block_bwd_ok (p_blocks fb_example_prog) = true) by (vm_compute; reflexivity).
  split; [exact W|]. split; [exact OK|]. split; [vm_compute; reflexivity|]. split; [vm_compute; reflexivity|].
  assert (RUN : exists o, fb_run fb_example_prog 0 0 (Some 1) 1 1 400 1002%N false 5 e_top = Some o /\
                          fb_proved o = [1]).
  { eexists. split; vm_compute; reflexivity. }
  destruct RUN as [o [RUN PR]]. exists o. split; [exact RUN|]. split; [exact PR|].
  intros a R LE.
  pose proof (fb_run_verdicts_sound fb_example_prog W OK (fun _ => True) e_top (fun s _ => genv_top s)
                0 0 (Some 1) 1 1 400 1002%N false 5 o RUN 1 a R) as H.
  rewrite PR in H.
  change (p_block fb_example_prog 1)
    with [SAssume (mkLC INEQ (mkLE [(1%Z, 0%N)] 0)); SAssert (mkLC INEQ (mkLE [(1%Z, 1%N)] 0)) 1] in H.
  change (mem_nat 1 [1]) with true in H.
  cbn [fb_sound_verdicts] in H. destruct H as [_ H].
  assert (S0 : sat (mkLC INEQ (mkLE [(1%Z, 0%N)] 0)) a).
  { unfold sat, eval_le. cbn [lc_kind lc_exp le_terms le_cst eval_terms]. lia. }
  specialize (H a (conj S0 eq_refl)). cbn [fb_sound_verdicts] in H. destruct H as [[H _] _].
  specialize (H eq_refl). unfold sat, eval_le in H. cbn [lc_kind lc_exp le_terms le_cst eval_terms] in H. lia.
Qed.

(* analysis started at a block that is not the CFG entry.
   b0: x := 0   b1: skip   b2 (exit): assert (x >= 1)   edges b0 -> b1 -> b2; the analysis
   starts at b2 (run(entry = b2, init = top, ...)).  The execution that starts at b2 with x = 0
   violates the assertion.  The refined assumptions of b0 and b1 are bottom (the forward pass
   does not visit them) and b0, b1 dominate b2 on the paths from the CFG entry: the C++ before
   fixes/fwdbwd-2.diff reported the assertion SAFE.  The dominator tree must be rooted at the
   block where the executions start (here only b2 is reachable from it): warning. *)
Example fb_entry_not_cfg_entry_example :
  let p := mkProg [[SAssign 0%N (mkLE [] 0)]; []; [SAssert (mkLC INEQ (mkLE [((-1)%Z, 0%N)] 1)) 1]]
                  [(0, 1); (1, 2)] in
  fb_analyze p 0 2 (Some 2) 1 1 400 1001%N false 5 e_top = Some [(1, VWarn)] /\
  ReachPre p 2 false (fun _ => None) (fun _ => True) 2 (fun _ => 0%Z) /\
  bfails (p_block p 2) (fun _ => 0%Z) 1 /\
  (* dominance from the CFG entry would discharge it *)
  (exists w, build (p_graph p) 0 = Some w /\ sdom p w 0 0 2 = true).
Proof.
  cbv zeta. split; [vm_compute; reflexivity|]. split; [apply RP_init; exact I|]. split.
  - left. split; [reflexivity|]. unfold sat. vm_compute. intros H. apply H. reflexivity.
  - eexists. split; vm_compute; reflexivity.
Qed.
