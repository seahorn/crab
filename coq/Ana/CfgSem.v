(* CfgSem.v — CFGs of the modelled CrabIR fragment as cfg.hpp stores them (blocks with a
   statement list and insertion-ordered predecessor / successor vectors, an entry, an
   optional exit, the outputs of the function declaration), per-statement use / def sets
   exactly as the constructors of cfg.hpp's statement classes fill `live_t`, and a
   small-step trace semantics over mathematical integers.

   Semantic choices (DESIGN §4): division by zero and the operators outside the fragment
   with an unambiguous integer meaning have no successor state; `assume` filters;
   a failing `assert` goes to the error configuration and the execution stops; `havoc`
   and `goto` are non-deterministic; `unreachable` has no successor.  An execution that is
   at the end of the exit block may finish, emitting the values of the outputs. *)
From Coq Require Import ZArith List Bool Lia.
From CrabV Require Import Ir.Syntax.
Import ListNotations.
Local Open Scope Z_scope.

Definition label := N.
Inductive operand := OVar (v : var) | OCst (k : Z).

Inductive stmt :=
| SAssign (x : var) (e : linexp)
| SArith (op : arith_op) (x y : var) (z : operand)
| SBit (op : bit_op) (x y : var) (z : operand)
| SAssume (c : lincst)
| SAssert (c : lincst) (id : N)
| SHavoc (x : var)
| SSelect (x : var) (c : lincst) (e1 e2 : linexp)
| SUnreach.

Record block := mkBlock { b_stmts : list stmt; b_prev : list label; b_next : list label }.

Record cfg := mkCfg {
  c_entry : label;
  c_exit : option label;
  c_blocks : list (label * block);
  c_outs : list var            (* outputs of the function declaration ([] if none) *)
}.

(* finite sets of variables / labels as lists *)
Definition vset := list N.
Definition mem (x : N) (L : vset) : bool := existsb (N.eqb x) L.
Definition vadd (x : N) (L : vset) : vset := if mem x L then L else x :: L.
Definition union (A B : vset) : vset := fold_right vadd B A.
Definition diff (A B : vset) : vset := filter (fun x => negb (mem x B)) A.
Definition inter (A B : vset) : vset := filter (fun x => mem x B) A.
Definition subset (A B : vset) : bool := forallb (fun x => mem x B) A.
Definition is_empty (A : vset) : bool := match A with [] => true | _ => false end.

Lemma mem_In x L : mem x L = true <-> In x L.
Proof.
  unfold mem. rewrite existsb_exists. split.
  - intros [y [H1 H2]]. apply N.eqb_eq in H2. subst; auto.
  - intros H. exists x. split; auto. apply N.eqb_refl.
Qed.
Lemma mem_false x L : mem x L = false <-> ~ In x L.
Proof. rewrite <- mem_In. destruct (mem x L); split; congruence. Qed.
Lemma vadd_In x y L : In y (vadd x L) <-> y = x \/ In y L.
Proof.
  unfold vadd. destruct (mem x L) eqn:E.
  - apply mem_In in E. split; auto. intros [->|]; auto.
  - simpl. split; intros [H|H]; auto.
Qed.
Lemma union_In x A B : In x (union A B) <-> In x A \/ In x B.
Proof.
  induction A as [|a A IH]; simpl.
  - tauto.
  - rewrite vadd_In, IH. split; intros H; decompose [or] H; auto.
Qed.
Lemma diff_In x A B : In x (diff A B) <-> In x A /\ ~ In x B.
Proof. unfold diff. rewrite filter_In, negb_true_iff, mem_false. tauto. Qed.
Lemma inter_In x A B : In x (inter A B) <-> In x A /\ In x B.
Proof. unfold inter. rewrite filter_In, mem_In. tauto. Qed.
Lemma subset_spec A B : subset A B = true <-> (forall x, In x A -> In x B).
Proof.
  unfold subset. rewrite forallb_forall. split; intros H x Hx.
  - apply mem_In; auto.
  - apply mem_In; auto.
Qed.
Lemma is_empty_spec A : is_empty A = true <-> A = [].
Proof. destruct A; simpl; split; congruence. Qed.

Definition le_vars (e : linexp) : list var := map snd (le_terms e).
Definition operand_vars (o : operand) : list var := match o with OVar v => [v] | OCst _ => [] end.

Definition uses (s : stmt) : vset :=
  match s with
  | SAssign _ e => le_vars e
  | SArith _ _ y z | SBit _ _ y z => y :: operand_vars z
  | SAssume c | SAssert c _ => lc_vars c
  | SHavoc _ => []
  | SSelect _ c e1 e2 => lc_vars c ++ le_vars e1 ++ le_vars e2
  | SUnreach => []
  end.
Definition defs (s : stmt) : vset :=
  match s with
  | SAssign x _ | SArith _ x _ _ | SBit _ x _ _ | SHavoc x | SSelect x _ _ _ => [x]
  | SAssume _ | SAssert _ _ | SUnreach => []
  end.
Definition is_unreach (s : stmt) : bool := match s with SUnreach => true | _ => false end.

Fixpoint lookup {A} (l : label) (m : list (label * A)) : option A :=
  match m with
  | [] => None
  | (k, v) :: r => if N.eqb l k then Some v else lookup l r
  end.
Definition get_block (P : cfg) (l : label) : option block := lookup l (c_blocks P).
Definition stmts_of (P : cfg) (l : label) : list stmt :=
  match get_block P l with Some b => b_stmts b | None => [] end.
Definition succs (P : cfg) (l : label) : list label :=
  match get_block P l with Some b => b_next b | None => [] end.
Definition preds (P : cfg) (l : label) : list label :=
  match get_block P l with Some b => b_prev b | None => [] end.
Definition labels (P : cfg) : list label := map fst (c_blocks P).
Definition is_exit (P : cfg) (l : label) : bool :=
  match c_exit P with Some e => N.eqb l e | None => false end.

Lemma lookup_In {A} l (m : list (label * A)) v : lookup l m = Some v -> In (l, v) m.
Proof.
  induction m as [|[k w] r IH]; simpl; [discriminate|].
  destruct (N.eqb_spec l k); intros H.
  - inversion H; subst; auto.
  - auto.
Qed.
Lemma lookup_None {A} l (m : list (label * A)) : lookup l m = None <-> ~ In l (map fst m).
Proof.
  induction m as [|[k w] r IH]; simpl; [tauto|].
  destruct (N.eqb_spec l k).
  - subst. split; [discriminate|]. intros H; exfalso; auto.
  - rewrite IH. split; intros H; [intros [?|?]; auto; congruence | tauto].
Qed.
Lemma lookup_Some_In {A} l (m : list (label * A)) v : lookup l m = Some v -> In l (map fst m).
Proof. intros H. apply lookup_In in H. apply (in_map fst) in H. exact H. Qed.
Lemma lookup_NoDup {A} l (m : list (label * A)) v :
  NoDup (map fst m) -> In (l, v) m -> lookup l m = Some v.
Proof.
  induction m as [|[k w] r IH]; simpl; [tauto|].
  intros ND [H|H].
  - inversion H; subst. rewrite N.eqb_refl. auto.
  - inversion ND; subst. destruct (N.eqb_spec l k).
    + subst. exfalso. apply H2. apply (in_map fst) in H. exact H.
    + auto.
Qed.

Lemma lookup_map {A B} (f : label * A -> B) l (m : list (label * A)) :
  lookup l (map (fun kv => (fst kv, f kv)) m) =
  match lookup l m with Some v => Some (f (l, v)) | None => None end.
Proof.
  induction m as [|[k v] r IH]; simpl; auto.
  destruct (N.eqb_spec l k); subst; auto.
Qed.

Definition operand_val (o : operand) (s : store) : Z :=
  match o with OVar v => s v | OCst k => k end.

Inductive event :=
| EvAssume                          (* an assume was evaluated (and held) *)
| EvAssert (id : N) (ok : bool)     (* outcome of an assertion *)
| EvGoto (l : label)                (* branch taken *)
| EvExit (outs : list Z).           (* end of the exit block: values of the outputs *)

(* normal completion of one statement *)
Inductive exec_stmt : stmt -> store -> list event -> store -> Prop :=
| XAssign x e s : exec_stmt (SAssign x e) s [] (upd s x (eval_le e s))
| XArith op x y z s v : arith_sem op (s y) (operand_val z s) = Some v ->
                        exec_stmt (SArith op x y z) s [] (upd s x v)
| XBit op x y z s v : bit_sem op (s y) (operand_val z s) = Some v ->
                      exec_stmt (SBit op x y z) s [] (upd s x v)
| XAssume c s : satb c s = true -> exec_stmt (SAssume c) s [EvAssume] s
| XAssert c id s : satb c s = true -> exec_stmt (SAssert c id) s [EvAssert id true] s
| XHavoc x s v : exec_stmt (SHavoc x) s [] (upd s x v)
| XSelect x c e1 e2 s :
    exec_stmt (SSelect x c e1 e2) s [] (upd s x (if satb c s then eval_le e1 s else eval_le e2 s)).

Inductive config :=
| Run (l : label) (rest : list stmt) (s : store)
| Done
| Err.

Inductive step (P : cfg) : config -> list event -> config -> Prop :=
| StStmt l st r s ev s' : exec_stmt st s ev s' -> step P (Run l (st :: r) s) ev (Run l r s')
| StFail l c id r s : satb c s = false -> step P (Run l (SAssert c id :: r) s) [EvAssert id false] Err
| StGoto l l' b' s : In l' (succs P l) -> get_block P l' = Some b' ->
                     step P (Run l [] s) [EvGoto l'] (Run l' (b_stmts b') s)
| StExit l s : c_exit P = Some l -> step P (Run l [] s) [EvExit (map s (c_outs P))] Done.

Inductive star (P : cfg) : config -> list event -> config -> Prop :=
| StarRefl c : star P c [] c
| StarStep c ev c' tr c'' : step P c ev c' -> star P c' tr c'' -> star P c (ev ++ tr) c''.

Lemma star_one P c ev c' : step P c ev c' -> star P c ev c'.
Proof. intros H. rewrite <- (app_nil_r ev). eapply StarStep; eauto. constructor. Qed.
Lemma star_trans P c1 t1 c2 t2 c3 : star P c1 t1 c2 -> star P c2 t2 c3 -> star P c1 (t1 ++ t2) c3.
Proof.
  induction 1; simpl; auto. intros H2. rewrite <- app_assoc. eapply StarStep; eauto.
Qed.

(* inversion of a step by the shape of the configuration it starts from *)
Lemma step_inv P c ev c1 : step P c ev c1 ->
  match c with
  | Run l [] s =>
      (exists l' b', In l' (succs P l) /\ get_block P l' = Some b' /\ ev = [EvGoto l'] /\
                     c1 = Run l' (b_stmts b') s) \/
      (c_exit P = Some l /\ ev = [EvExit (map s (c_outs P))] /\ c1 = Done)
  | Run l (st :: r) s =>
      (exists s1, exec_stmt st s ev s1 /\ c1 = Run l r s1) \/
      (exists c id, st = SAssert c id /\ satb c s = false /\ ev = [EvAssert id false] /\ c1 = Err)
  | _ => False
  end.
Proof. destruct 1; [left|right|left|right]; eauto 8. Qed.

Definition init (P : cfg) (s : store) : config := Run (c_entry P) (stmts_of P (c_entry P)) s.
Definition at_end (l : label) (s : store) : config := Run l [] s.

Definition agree (L : vset) (s1 s2 : store) : Prop := forall x, In x L -> s1 x = s2 x.

Lemma agree_refl L s : agree L s s.
Proof. intros x _. auto. Qed.
Lemma agree_sym L s1 s2 : agree L s1 s2 -> agree L s2 s1.
Proof. intros H x Hx. symmetry. auto. Qed.
Lemma agree_mono L L' s1 s2 : (forall x, In x L' -> In x L) -> agree L s1 s2 -> agree L' s1 s2.
Proof. intros H A x Hx. auto. Qed.

Lemma eval_le_agree e s1 s2 : agree (le_vars e) s1 s2 -> eval_le e s1 = eval_le e s2.
Proof. intros H. apply eval_le_ext. intros c v I. apply H, (in_map snd _ _ I). Qed.
Lemma satb_agree c s1 s2 : agree (lc_vars c) s1 s2 -> satb c s1 = satb c s2.
Proof.
  intros H. unfold satb. rewrite (eval_le_agree (lc_exp c) s1 s2); auto.
Qed.
Lemma operand_val_agree z s1 s2 : agree (operand_vars z) s1 s2 -> operand_val z s1 = operand_val z s2.
Proof. destruct z; simpl; auto. intros H. apply H. simpl; auto. Qed.

Lemma agree_upd L s1 s2 x v :
  agree (diff L [x]) s1 s2 -> agree L (upd s1 x v) (upd s2 x v).
Proof.
  intros H y Hy. unfold upd. destruct (N.eqb_spec y x); auto.
  apply H. apply diff_In. split; auto. simpl. intros [?|[]]. congruence.
Qed.
