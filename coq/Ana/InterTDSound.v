(* InterTDSound.v — property C09 for the model of the top-down inter-procedural analyzer:
   (1) get_callee_entry / get_caller_continuation (as repaired: parallel propagation through
       fresh copies when caller and callee share names) are sound for arbitrary name sharing
       between caller and callee;
   (2) the certificate checker td_check: whatever produced the context-insensitive tables and
       the (pre, post) summaries, if the check passes then every state in which an execution
       started at an entry function reaches a block is inside the table entry of that block,
       and every summary relates the inputs and outputs of every concrete call whose inputs
       satisfy its precondition.  Recursive programs included (induction on executions). *)
From Coq Require Import ZArith NArith List Bool Arith Lia.
From CrabV Require Import Base.ZInf Scalar.Itv Ir.Syntax Ir.Cfg Dom.ItvEnv Dom.ItvEnvSound Dom.ItvDomain
     Dom.ItvDomainSound Ana.Transformer Ana.InterSyntax Ana.InterSem Ana.InterTD.
Import ListNotations.

Lemma asg_sound x y e s : genv e s -> genv (asg x y e) (upd s x (s y)).
Proof.
  intros G. unfold asg.
  pose proof (d_assign_sound x (mkLE [(1%Z, y)] 0%Z) e s G) as H.
  replace (eval_le (mkLE [(1%Z, y)] 0%Z) s) with (s y) in H; auto.
  unfold eval_le. cbn [eval_terms le_terms le_cst]. lia.
Qed.

Fixpoint aseq (ps : list (var * var)) (s : store) : store :=
  match ps with
  | [] => s
  | q :: r => aseq r (upd s (fst q) (s (snd q)))
  end.

Lemma assign_list_sound ps : forall e s, genv e s -> genv (assign_list ps e) (aseq ps s).
Proof.
  unfold assign_list. induction ps as [|q r IH]; simpl; intros e s G; auto.
  apply IH. apply asg_sound. exact G.
Qed.

(* writes disjoint from reads, all pairs consistent with a target store: the sequence behaves
   as the parallel assignment *)
Lemma aseq_spec (tgt : store) ps : forall s,
  (forall x y, In (x, y) ps -> ~ In x (map snd ps)) ->
  (forall x y, In (x, y) ps -> s y = tgt x) ->
  forall k, aseq ps s k = if vmem k (map fst ps) then tgt k else s k.
Proof.
  induction ps as [|[x y] r IH]; intros s D V k; auto.
  cbn [aseq fst snd map]. rewrite IH.
  - unfold vmem. cbn [existsb]. fold (vmem k (map fst r)).
    destruct (vmem k (map fst r)); [rewrite orb_true_r; reflexivity|].
    rewrite orb_false_r. unfold upd. destruct (N.eqb_spec k x) as [->|N]; auto.
    apply (V x y). left. reflexivity.
  - intros x' y' I J. apply (D x' y' (or_intror I)). cbn [map snd]. right. exact J.
  - intros x' y' I. rewrite upd_other.
    + apply V. right. exact I.
    + intros E. subst y'. apply (D x y (or_introl eq_refl)). cbn [map snd]. right.
      apply (in_map snd) in I. exact I.
Qed.

Lemma Forall2_combine {A B} (R : A -> B -> Prop) l1 l2 x y :
  Forall2 R l1 l2 -> In (x, y) (combine l1 l2) -> R x y.
Proof.
  intros F. induction F; simpl; intros I; [contradiction|].
  destruct I as [E|I]; auto. inversion E; subst. auto.
Qed.

Lemma Forall2_length' {A B} (R : A -> B -> Prop) l1 l2 : Forall2 R l1 l2 -> length l1 = length l2.
Proof. induction 1; simpl; auto. Qed.

Lemma in_combine_swap {A B} (l1 : list A) (l2 : list B) x y : In (x, y) (combine l1 l2) -> In (y, x) (combine l2 l1).
Proof.
  revert l2. induction l1 as [|a r IH]; intros [|b l2] I; simpl in *; try contradiction.
  destruct I as [E|I]; [inversion E; subst; auto|right; auto].
Qed.

Lemma in_combine_map_l {A B C} (f : A -> C) (l1 : list A) (l2 : list B) c y :
  In (c, y) (combine (map f l1) l2) -> exists x, c = f x /\ In (x, y) (combine l1 l2).
Proof.
  revert l2. induction l1 as [|a r IH]; intros [|b l2] I; simpl in *; try contradiction.
  destruct I as [E|I].
  - inversion E; subst. exists a. split; auto.
  - destruct (IH _ I) as (x & E & J). exists x. split; auto.
Qed.

Lemma in_combine_map_r {A B C} (f : B -> C) (l1 : list A) (l2 : list B) x c :
  In (x, c) (combine l1 (map f l2)) -> exists y, c = f y /\ In (x, y) (combine l1 l2).
Proof.
  intros I. apply in_combine_swap, in_combine_map_l in I. destruct I as (y & E & J).
  exists y. split; [exact E|apply in_combine_swap, J].
Qed.

Lemma in_combine_same {A} (l : list A) x y : In (x, y) (combine l l) -> x = y /\ In x l.
Proof.
  induction l as [|a r IH]; simpl; intros I; [contradiction|].
  destruct I as [E|I]; [inversion E; subst; auto|]. destruct (IH I). auto.
Qed.

Lemma in_combine_self {A} (l : list A) x : In x l -> In (x, x) (combine l l).
Proof. induction l as [|a r IH]; simpl; intros I; [contradiction|]. destruct I as [E|I]; subst; auto. Qed.

Lemma combine_in_exists_l {A B} (l1 : list A) (l2 : list B) x :
  length l1 = length l2 -> In x l1 -> exists y, In (x, y) (combine l1 l2).
Proof.
  revert l2. induction l1 as [|a r IH]; intros [|b l2] L I; simpl in *; try discriminate; try contradiction.
  destruct I as [E|I].
  - subst. exists b. auto.
  - destruct (IH l2 (eq_add_S _ _ L) I) as (y & J). exists y. auto.
Qed.

Lemma combine_in_exists_r {A B} (l1 : list A) (l2 : list B) y :
  length l1 = length l2 -> In y l2 -> exists x, In (x, y) (combine l1 l2).
Proof.
  intros L I. destruct (combine_in_exists_l l2 l1 y (eq_sym L) I) as (x & J).
  exists x. apply in_combine_swap, J.
Qed.

Lemma combine_fun_l {A B} (l1 : list A) (l2 : list B) x y y' :
  NoDup l1 -> In (x, y) (combine l1 l2) -> In (x, y') (combine l1 l2) -> y = y'.
Proof.
  revert l2. induction l1 as [|a r IH]; intros [|b l2] ND I J; simpl in *; try contradiction.
  inversion ND as [|? ? NI ND']; subst.
  destruct I as [E|I], J as [E'|J].
  - congruence.
  - inversion E; subst. exfalso. apply NI. eapply in_combine_l; eauto.
  - inversion E'; subst. exfalso. apply NI. eapply in_combine_l; eauto.
  - eapply IH; eauto.
Qed.

Lemma in_combine_map {A B} (f : A -> B) l x : In x l -> In (x, f x) (combine l (map f l)).
Proof. induction l as [|a r IH]; simpl; intros I; [contradiction|]. destruct I as [->|I]; auto. Qed.

Lemma map_fst_combine {A B} (l1 : list A) (l2 : list B) : length l1 = length l2 -> map fst (combine l1 l2) = l1.
Proof.
  revert l2. induction l1 as [|a r IH]; intros [|b l2] L; simpl in *; try discriminate; auto.
  f_equal. apply IH. congruence.
Qed.

Lemma in_map_fst {A B} (ps : list (A * B)) x : In x (map fst ps) -> exists y, In (x, y) ps.
Proof. intros I. apply in_map_iff in I. destruct I as ([x' y] & <- & I). exists y. exact I. Qed.
Lemma in_map_snd {A B} (ps : list (A * B)) y : In y (map snd ps) -> exists x, In (x, y) ps.
Proof. intros I. apply in_map_iff in I. destruct I as ([x y'] & <- & I). exists x. exact I. Qed.

Lemma in_neq_pairs ps x y : In (x, y) (filter neq_pair ps) <-> In (x, y) ps /\ x <> y.
Proof. rewrite filter_In. unfold neq_pair. cbn [fst snd]. rewrite negb_true_iff, N.eqb_neq. reflexivity. Qed.

Lemma cp_ge voff v : (voff <= cp voff v)%N.
Proof. unfold cp. lia. Qed.
Lemma cp_sub voff v : (cp voff v - voff)%N = v.
Proof. unfold cp. lia. Qed.
Lemma cp_inj voff a b : cp voff a = cp voff b -> a = b.
Proof. unfold cp. lia. Qed.

(* the copies of fs receive the values of ys, which are not copies *)
Lemma aseq_copies voff fs ys (tgt a : store) :
  length fs = length ys -> (forall y, In y ys -> (y < voff)%N) ->
  (forall f y, In (f, y) (combine fs ys) -> a y = tgt f) ->
  forall k, aseq (combine (map (cp voff) fs) ys) a k =
            if vmem k (map (cp voff) fs) then tgt (k - voff)%N else a k.
Proof.
  intros L B V k. rewrite (aseq_spec (fun k => tgt (k - voff)%N)).
  - rewrite map_fst_combine by (rewrite map_length; exact L). reflexivity.
  - intros x y I J. apply in_combine_map_l in I. destruct I as (f & -> & _).
    apply in_map_snd in J. destruct J as (x' & J). apply in_combine_r, B in J. pose proof (cp_ge voff f). lia.
  - intros x y I. apply in_combine_map_l in I. destruct I as (f & -> & I). rewrite cp_sub. apply V, I.
Qed.

Record clash_free (outs ins fins fouts : list var) : Prop := mkCF {
  cf_in : forall f a, In (f, a) (combine fins ins) -> In a fins -> a = f;
  cf_in_out : forall a, In a ins -> ~ In a fouts;
  cf_out : forall f o, In (f, o) (combine fouts outs) -> In o fouts -> o = f;
  cf_out_in : forall o, In o outs -> ~ In o fins }.

Lemma no_clash_spec outs ins fins fouts :
  no_clash outs ins fins fouts = true -> clash_free outs ins fins fouts.
Proof.
  unfold no_clash. rewrite !andb_true_iff, !forallb_forall. intros [[[H1 H2] H3] H4].
  assert (P : forall l (q : var * var),
            implb (vmem (snd q) l) (N.eqb (snd q) (fst q)) = true -> In (snd q) l -> snd q = fst q).
  { intros l q H J. apply vmem_spec in J. rewrite J in H. apply N.eqb_eq, H. }
  assert (Q : forall l a, negb (vmem a l) = true -> ~ In a l).
  { intros l a H. apply vmem_false, negb_true_iff, H. }
  constructor.
  - intros f a I. exact (P fins _ (H1 _ I)).
  - intros a I. exact (Q _ _ (H2 _ I)).
  - intros f o I. exact (P fouts _ (H3 _ I)).
  - intros o I. exact (Q _ _ (H4 _ I)).
Qed.

Lemma clash_free_copies voff outs ins fins fouts :
  (forall x, In x ins -> (x < voff)%N) -> (forall x, In x outs -> (x < voff)%N) ->
  clash_free outs ins (map (cp voff) fins) (map (cp voff) fouts).
Proof.
  intros Bi Bo.
  assert (X : forall x l, (x < voff)%N -> ~ In x (map (cp voff) l)).
  { intros x l L I. apply in_map_iff in I. destruct I as (y & E & _). pose proof (cp_ge voff y). lia. }
  constructor.
  - intros f a I J. exfalso. eapply X; [|exact J]. apply Bi. eapply in_combine_r; eauto.
  - intros a I. apply X. auto.
  - intros f o I J. exfalso. eapply X; [|exact J]. apply Bo. eapply in_combine_r; eauto.
  - intros o I. apply X. auto.
Qed.

Lemma nodup_map_cp voff l : NoDup l -> NoDup (map (cp voff) l).
Proof.
  induction l as [|x r IH]; simpl; intros H; [constructor|].
  inversion H; subst. constructor; auto. intros I. apply in_map_iff in I.
  destruct I as (y & E & I). apply cp_inj in E. subst. auto.
Qed.

Lemma nodup_app_l {A} (l1 l2 : list A) : NoDup (l1 ++ l2) -> NoDup l1.
Proof.
  induction l1 as [|a r IH]; simpl; intros H; [constructor|].
  inversion H; subst. constructor; auto. intros I. apply H2. apply in_or_app. left. exact I.
Qed.
Lemma nodup_app_r {A} (l1 l2 : list A) : NoDup (l1 ++ l2) -> NoDup l2.
Proof. induction l1 as [|a r IH]; simpl; intros H; auto. inversion H; subst. auto. Qed.
Lemma nodup_app_disj {A} (l1 l2 : list A) x : NoDup (l1 ++ l2) -> In x l1 -> In x l2 -> False.
Proof.
  induction l1 as [|a r IH]; simpl; intros H I J; [contradiction|].
  inversion H; subst. destruct I as [->|I].
  - apply H2. apply in_or_app. right. exact J.
  - eapply IH; eauto.
Qed.

Section Ops.
  Variable voff : N.
  Variables outs ins fins fouts : list var.
  Hypothesis ND : NoDup (fins ++ fouts).
  Hypothesis Lin : length fins = length ins.
  Hypothesis Lout : length fouts = length outs.
  Hypothesis NDo : NoDup outs.
  Hypothesis Bf : forall x, In x (fins ++ fouts) -> (x < voff)%N.
  Hypothesis Bi : forall x, In x ins -> (x < voff)%N.
  Hypothesis Bo : forall x, In x outs -> (x < voff)%N.

  Lemma ND_fins : NoDup fins.
  Proof. eapply nodup_app_l. exact ND. Qed.
  Lemma ND_fouts : NoDup fouts.
  Proof. eapply nodup_app_r. exact ND. Qed.
  Lemma ND_disj x : In x fins -> In x fouts -> False.
  Proof. intros. eapply nodup_app_disj; eauto. Qed.

  Theorem callee_entry_sound e a s0 :
    genv e a -> bind_ins fins ins a s0 -> genv (callee_entry voff outs ins fins fouts e) s0.
  Proof using Lin Lout Bf Bi.
    intros G B. unfold callee_entry. rewrite (genv_not_bot _ _ G).
    pose proof (fun f y => Forall2_combine _ _ _ f y B) as Bv. cbv beta in Bv.
    assert (FIN : forall e2 a2, genv e2 a2 -> (forall f, In f fins -> a2 f = s0 f) ->
                  genv (e_project (e_meet e_top e2) fins) s0).
    { intros e2 a2 G2 A. apply (e_project_sound _ _ a2).
      - apply e_meet_sound; auto. apply genv_top.
      - intros k I. symmetry. apply A. exact I. }
    destruct (no_clash outs ins fins fouts) eqn:NC; cbn [negb].
    - (* sequential unification is already parallel: a formal that is read is its own actual *)
      apply no_clash_spec in NC.
      set (ps := filter neq_pair (combine fins ins)).
      apply (FIN _ (aseq ps a)); [apply assign_list_sound; exact G|].
      intros f I. rewrite (aseq_spec s0 ps a).
      + destruct (vmem f (map fst ps)) eqn:W; [reflexivity|].
        destruct (combine_in_exists_l fins ins f Lin I) as (y & J). rewrite (Bv f y J).
        destruct (N.eq_dec f y) as [<-|NE]; [reflexivity|].
        apply vmem_false in W. destruct W. apply (in_map fst ps (f, y)), in_neq_pairs. auto.
      + intros x y Ix Jx. apply in_neq_pairs in Ix. destruct Ix as [Ix _].
        apply in_map_snd in Jx. destruct Jx as (x' & Jx). apply in_neq_pairs in Jx. destruct Jx as [Jx NE].
        apply NE. symmetry. apply (cf_in _ _ _ _ NC x' x Jx). eapply in_combine_l; eauto.
      + intros x y Ix. apply in_neq_pairs in Ix. symmetry. apply Bv, Ix.
    - (* through fresh copies: first cp f := actual, then f := cp f *)
      clear NC.
      set (ps1 := combine (map (cp voff) fins) ins).
      set (ps2 := filter neq_pair (combine fins (map (cp voff) fins))).
      apply (FIN _ (aseq ps2 (aseq ps1 a))).
      { apply assign_list_sound. apply assign_list_sound. exact G. }
      assert (Lf : forall f, In f fins -> (f < voff)%N) by (intros f I; apply Bf, in_or_app; left; exact I).
      intros f I. rewrite (aseq_spec s0 ps2).
      + assert (W : vmem f (map fst ps2) = true); [|rewrite W; reflexivity].
        apply vmem_spec, (in_map fst ps2 (f, cp voff f)), in_neq_pairs. split; [apply in_combine_map, I|].
        pose proof (cp_ge voff f). pose proof (Lf f I). lia.
      + intros x y Ix Jx. apply in_neq_pairs in Ix. destruct Ix as [Ix _]. apply in_combine_l, Lf in Ix.
        apply in_map_snd in Jx. destruct Jx as (x' & Jx). apply in_neq_pairs in Jx. destruct Jx as [Jx _].
        apply in_combine_r, in_map_iff in Jx. destruct Jx as (f' & <- & _). pose proof (cp_ge voff f'). lia.
      + intros x y Ix. apply in_neq_pairs in Ix. destruct Ix as [Ix _].
        apply in_combine_map_r in Ix. destruct Ix as (f' & -> & Ix). apply in_combine_same in Ix. destruct Ix as [<- Ix].
        unfold ps1. rewrite (aseq_copies voff fins ins s0 a Lin Bi), cp_sub.
        * rewrite (proj2 (vmem_spec _ _) (in_map (cp voff) _ _ Ix)). reflexivity.
        * intros f0 y J. symmetry. apply Bv, J.
  Qed.

  Lemma cont_tail_sound fins' fouts' sum (a b t2 : store) :
    NoDup (fins' ++ fouts') -> length fins' = length ins -> length fouts' = length outs ->
    clash_free outs ins fins' fouts' ->
    genv sum t2 ->
    (forall f y, In (f, y) (combine fins' ins) -> t2 f = a y) ->
    (forall o f, In (o, f) (combine outs fouts') -> b o = t2 f) ->
    (forall k, ~ In k outs -> b k = a k) ->
    (forall k, ~ In k (fins' ++ fouts') -> t2 k = b k) ->
    genv (cont_tail outs ins fins' fouts' sum) b.
  Proof.
    intros ND' Li Lo CF G Vin Vout Fr Oth. unfold cont_tail.
    set (psO := filter neq_pair (combine outs fouts')).
    set (wires := filter (fun q => negb (vmem (fst q) ins) && negb (vmem (snd q) outs)) (combine fins' ins)).
    set (psI := map (fun q : var * var => (snd q, fst q)) wires).
    assert (WI : forall x y, In (x, y) psI -> In (y, x) (combine fins' ins) /\ ~ In y ins /\ ~ In x outs).
    { intros x y I. apply in_map_iff in I. destruct I as ([f y0] & E & I). inversion E; subst y0 f.
      apply filter_In in I. destruct I as [I C]. apply andb_prop in C. cbn [fst snd] in C.
      split; [exact I|]. split; apply vmem_false, negb_true_iff, C. }
    assert (S3 : forall k, aseq psO t2 k = if vmem k (map fst psO) then b k else t2 k).
    { apply aseq_spec.
      - intros x y I J. apply in_neq_pairs in I. destruct I as [I NE].
        apply in_map_snd in J. destruct J as (x' & J). apply in_neq_pairs in J. destruct J as [J _].
        apply NE, (cf_out _ _ _ _ CF y x); [apply in_combine_swap, I|eapply in_combine_r, J].
      - intros x y I. apply in_neq_pairs in I. symmetry. apply Vout, I. }
    assert (S4 : forall k, aseq psI (aseq psO t2) k = if vmem k (map fst psI) then b k else aseq psO t2 k).
    { apply aseq_spec.
      - intros x y I J. apply WI in I. destruct I as (I & _).
        apply in_map_snd in J. destruct J as (x' & J). apply WI in J. destruct J as (_ & J & _).
        apply J. eapply in_combine_r, I.
      - intros x y I. apply WI in I. destruct I as (I & _ & C). rewrite S3.
        destruct (vmem y (map fst psO)) eqn:W.
        + exfalso. apply vmem_spec, in_map_fst in W. destruct W as (f & W). apply in_neq_pairs in W. destruct W as [W _].
          apply (cf_out_in _ _ _ _ CF y); [eapply in_combine_l, W|eapply in_combine_l, I].
        + rewrite (Vin _ _ I). symmetry. apply Fr, C. }
    apply (d_forget_sound _ _ (aseq psI (aseq psO t2))).
    { apply assign_list_sound. apply assign_list_sound. exact G. }
    intros k NL. rewrite S4. destruct (vmem k (map fst psI)); auto.
    rewrite S3. destruct (vmem k (map fst psO)); auto.
    destruct (in_dec N.eq_dec k (fins' ++ fouts')) as [IF|NF]; [|symmetry; apply Oth; exact NF].
    (* a parameter that is not forgotten: it is a variable of the callsite at its own position *)
    assert (K : In k (filter (fun f => vmem f ins) fins' ++ outs)).
    { destruct (vmem k (filter (fun f => vmem f ins) fins' ++ outs)) eqn:V; [apply vmem_spec; exact V|].
      exfalso. apply NL. apply filter_In. split; auto. rewrite V. reflexivity. }
    apply in_app_or in K. destruct K as [K|K].
    - apply filter_In in K. destruct K as [K1 K2]. apply vmem_spec in K2.
      destruct (combine_in_exists_l fins' ins k Li K1) as (y & J).
      destruct (combine_in_exists_r fins' ins k Li K2) as (f & J2).
      assert (k = f) by (apply (cf_in _ _ _ _ CF f k J2 K1)). subst f.
      assert (y = k) by (eapply (combine_fun_l fins' ins k y k); eauto; eapply nodup_app_l; eauto). subst y.
      rewrite (Vin _ _ J). apply Fr. intros I. apply (cf_out_in _ _ _ _ CF k I K1).
    - destruct (combine_in_exists_l outs fouts' k (eq_sym Lo) K) as (f & J).
      rewrite (Vout _ _ J).
      assert (IFo : In k fouts').
      { apply in_app_or in IF. destruct IF as [IF|IF]; auto. exfalso. apply (cf_out_in _ _ _ _ CF k K IF). }
      assert (k = f) by (apply (cf_out _ _ _ _ CF f k); [apply in_combine_swap; exact J|exact IFo]).
      subst f. reflexivity.
  Qed.

  Theorem cont_sound e sum a s1 b :
    genv e a -> genv sum s1 ->
    (forall f y, In (f, y) (combine fins ins) -> s1 f = a y) ->
    (forall k, b k = assign_outs a outs fouts s1 k) ->
    genv (cont voff outs ins fins fouts e (e_project sum (fins ++ fouts))) b.
  Proof.
    intros G Gs Vin Hb. unfold cont. rewrite (genv_not_bot _ _ G).
    set (fs := fins ++ fouts).
    set (t0 := fun k : var => if vmem k fs then s1 k else b k).
    assert (T0i : forall k, In k fs -> t0 k = s1 k).
    { intros k I. unfold t0. rewrite (proj2 (vmem_spec _ _) I). reflexivity. }
    assert (T0o : forall k, ~ In k fs -> t0 k = b k).
    { intros k I. unfold t0. rewrite (proj2 (vmem_false _ _) I). reflexivity. }
    assert (G0 : genv (e_project sum fs) t0) by (apply (e_project_sound _ _ s1); auto).
    rewrite (genv_not_bot _ _ G0).
    assert (Fr : forall k, ~ In k outs -> b k = a k).
    { intros k NI. rewrite Hb. apply assign_outs_other. exact NI. }
    assert (Vout : forall o f, In (o, f) (combine outs fouts) -> b o = s1 f).
    { intros o f I. rewrite Hb. apply assign_outs_in; auto. }
    apply e_meet_sound.
    { apply (d_forget_sound _ _ a); auto. }
    destruct (no_clash outs ins fins fouts) eqn:NC; cbn [negb].
    - apply no_clash_spec in NC.
      apply (cont_tail_sound fins fouts _ a b t0); auto.
      + intros f y I. rewrite T0i by (apply in_or_app; left; eapply in_combine_l, I). apply Vin, I.
      + intros o f I. rewrite T0i by (apply in_or_app; right; eapply in_combine_r, I). apply Vout, I.
    - clear NC.
      set (psA := combine (map (cp voff) fs) fs).
      set (t2 := fun k : var => if vmem k (map (cp voff) fs) then s1 (k - voff)%N else b k).
      assert (G2 : genv (d_forget fs (assign_list psA (e_project sum fs))) t2).
      { apply (d_forget_sound _ _ (aseq psA t0)); [apply assign_list_sound; exact G0|].
        intros k NI. unfold psA, t2. rewrite (aseq_copies voff fs fs s1 t0 eq_refl Bf), (T0o k NI); [reflexivity|].
        intros f y I. apply in_combine_same in I. destruct I as [<- I]. apply T0i, I. }
      assert (Vcp : forall f, In f fs -> t2 (cp voff f) = s1 f).
      { intros f I. unfold t2.
        assert (V : vmem (cp voff f) (map (cp voff) fs) = true) by (apply vmem_spec; apply in_map; exact I).
        rewrite V, cp_sub. reflexivity. }
      apply (cont_tail_sound (map (cp voff) fins) (map (cp voff) fouts) _ a b t2); auto.
      + rewrite <- map_app. apply nodup_map_cp. exact ND.
      + rewrite map_length. exact Lin.
      + rewrite map_length. exact Lout.
      + apply clash_free_copies; auto.
      + intros f y I. apply in_combine_map_l in I. destruct I as (f0 & -> & I).
        rewrite Vcp by (apply in_or_app; left; eapply in_combine_l; eauto). apply Vin. exact I.
      + intros o f I. apply in_combine_map_r in I. destruct I as (f0 & -> & I).
        rewrite Vcp by (apply in_or_app; right; eapply in_combine_r; eauto). apply Vout. exact I.
      + intros k NI. unfold t2. rewrite <- map_app in NI. fold fs in NI. apply vmem_false in NI. rewrite NI. reflexivity.
  Qed.
End Ops.

Section CheckSound.
  Variable p : iprog.
  Variable voff : N.
  Hypothesis WF : iprog_wfb p voff = true.
  Variable S : list summ.
  Variable scs : list cert.          (* the contexts that justify the summaries *)
  Hypothesis scs_ok : forall ct, In ct scs -> cert_ok p voff S None ct = true.
  Hypothesis summs_ok : forall sm, In sm S -> exists ct, In ct scs /\ summ_ok p sm ct = true.

  Lemma call_wf fn outs g ins : istmt_wfb p voff fn (ICall outs g ins) = true ->
    g < length p /\ length (f_ins (get_fn p g)) = length ins /\ length (f_outs (get_fn p g)) = length outs /\
    NoDup outs /\ (forall x, In x ins -> (x < voff)%N) /\ (forall x, In x outs -> (x < voff)%N).
  Proof.
    cbn [istmt_wfb]. intros W. repeat (apply andb_prop in W; destruct W as [W ?]).
    apply Nat.ltb_lt in W. apply Nat.eqb_eq in H4, H3.
    repeat split; auto using nodupb_sound; apply below_spec; assumption.
  Qed.

  Lemma fn_wf g : g < length p ->
    NoDup (fn_formals (get_fn p g)) /\ (forall x, In x (fn_formals (get_fn p g)) -> (x < voff)%N) /\
    0 < fn_nblocks (get_fn p g) /\
    (forall a b, In (a, b) (f_edges (get_fn p g)) -> a < fn_nblocks (get_fn p g) /\ b < fn_nblocks (get_fn p g)) /\
    (forall n st, In st (fn_block (get_fn p g) n) -> istmt_wfb p voff (get_fn p g) st = true).
  Proof.
    intros L. pose proof (wf_func p voff g WF L) as W0. pose proof W0 as W. unfold func_wfb in W.
    apply andb_prop in W. destruct W as [W _]. apply andb_prop in W. destruct W as [W W4].
    apply andb_prop in W. destruct W as [W W3]. apply andb_prop in W. destruct W as [W1 W2].
    split; [apply nodupb_sound, W1|]. split; [apply below_spec, W2|]. split; [apply Nat.ltb_lt, W3|]. split.
    - intros a b E. rewrite forallb_forall in W4. apply W4, andb_prop in E. cbn [fst snd] in E.
      split; apply Nat.ltb_lt, E.
    - intros n st I. eapply wf_istmt; eauto.
  Qed.

  Lemma fold_meet_sound (k : summ -> env) b r : forall acc,
    genv acc b -> (forall sm, In sm r -> genv (k sm) b) ->
    genv (fold_left (fun acc sm => e_meet acc (k sm)) r acc) b.
  Proof.
    induction r as [|x r IH]; simpl; intros acc G A; auto.
    apply IH.
    - apply e_meet_sound; auto.
    - intros sm I. apply A. right. exact I.
  Qed.

  Lemma chk_call_entry fn outs g ins e a s0 :
    istmt_wfb p voff fn (ICall outs g ins) = true -> genv e a ->
    bind_ins (f_ins (get_fn p g)) ins a s0 ->
    genv (callee_entry voff outs ins (f_ins (get_fn p g)) (f_outs (get_fn p g)) e) s0.
  Proof.
    intros W G B. destruct (call_wf _ _ _ _ W) as (Lg & Li & Lo & NDo & Bi & Bo).
    destruct (fn_wf g Lg) as (NDf & Bf & _).
    apply (callee_entry_sound voff outs ins _ _ Li Lo Bf Bi e a s0 G B).
  Qed.

  (* get_caller_continuation with a value that contains what the callee returns *)
  Lemma call_return_sound fn outs f ins e sum a s0 s1 b :
    istmt_wfb p voff fn (ICall outs f ins) = true -> genv e a ->
    bind_ins (f_ins (get_fn p f)) ins a s0 -> exec_fun p f s0 s1 ->
    (forall k, b k = assign_outs a outs (f_outs (get_fn p f)) s1 k) -> genv sum s1 ->
    genv (cont voff outs ins (f_ins (get_fn p f)) (f_outs (get_fn p f)) e
               (e_project sum (fn_formals (get_fn p f)))) b.
  Proof.
    intros W Ga B XF Hb Gs. destruct (call_wf _ _ _ _ W) as (Lf & Li & Lo & NDo & Bi & Bo).
    destruct (fn_wf f Lf) as (NDf & Bf & _).
    apply (cont_sound voff outs ins _ _ NDf Li Lo NDo Bf Bi Bo e sum a s1 b Ga Gs); [|exact Hb].
    intros x y J. rewrite (exec_fun_frame p voff WF f s0 s1 XF Lf) by (eapply in_combine_l; eauto).
    apply (Forall2_combine _ _ _ _ _ B J).
  Qed.

  (* the state after the call is inside the combination of the continuations of the selected
     summaries *)
  Lemma chk_call_sound cov fn outs g ins e e' a s0 s1 b :
    istmt_wfb p voff fn (ICall outs g ins) = true -> genv e a ->
    bind_ins (f_ins (get_fn p g)) ins a s0 -> exec_fun p g s0 s1 ->
    (forall k, b k = assign_outs a outs (f_outs (get_fn p g)) s1 k) ->
    (forall sm, In sm S -> s_fn sm = g -> genv (s_pre sm) s0 -> genv (s_post sm) s1) ->
    chk_call p voff S cov outs g ins e = Some e' -> genv e' b.
  Proof.
    intros W G B XF Hb IH C. pose proof (chk_call_entry _ _ _ _ _ _ _ W G B) as GE.
    destruct (exec_fun_exit p g s0 s1 XF) as [x Hx].
    unfold chk_call in C. rewrite (genv_not_bot _ _ G), Hx in C.
    set (fi := f_ins (get_fn p g)) in *. set (fo := f_outs (get_fn p g)) in *.
    set (ce := callee_entry voff outs ins fi fo e) in *.
    set (k := fun sm => if e_is_bot (e_meet ce (e_project (s_post sm) fi)) then EBot
                        else cont voff outs ins fi fo e (e_project (s_post sm) (fi ++ fo))) in C.
    match type of C with (if ?c then _ else _) = _ => destruct c; [|discriminate] end.
    assert (K : forall sm, In sm (filter (fun sm => Nat.eqb (s_fn sm) g && e_leq ce (s_pre sm)) S) -> genv (k sm) b).
    { intros sm I. apply filter_In in I. destruct I as [I C2]. apply andb_true_iff in C2.
      destruct C2 as [C2 C3]. apply Nat.eqb_eq in C2.
      assert (G1 : genv (s_post sm) s1) by (apply IH; auto; eapply e_leq_sound; eauto).
      assert (GM : genv (e_meet ce (e_project (s_post sm) fi)) s0).
      { apply e_meet_sound; auto. apply (e_project_sound _ _ s1); auto.
        intros k0 I0. symmetry. exact (exec_fun_frame p voff WF g s0 s1 XF (proj1 (call_wf _ _ _ _ W)) k0 I0). }
      unfold k. rewrite (genv_not_bot _ _ GM).
      exact (call_return_sound fn outs g ins e (s_post sm) a s0 s1 b W G B XF Hb G1). }
    destruct (filter _ S) as [|m r]; [discriminate|]. inversion C; subst e'.
    apply fold_meet_sound; [apply K; left; reflexivity|].
    intros sm I. apply K. right. exact I.
  Qed.

  Lemma chk_block_app cov l1 : forall l2 e e'',
    chk_block p voff S cov (l1 ++ l2) e = Some e'' ->
    exists e', chk_block p voff S cov l1 e = Some e' /\ chk_block p voff S cov l2 e' = Some e''.
  Proof.
    induction l1 as [|st r IH]; simpl; intros l2 e e'' H.
    - exists e. auto.
    - destruct (chk_stmt p voff S cov st e) as [e1|]; [|discriminate]. apply IH. exact H.
  Qed.

  Lemma cert_block cov ct n : cert_ok p voff S cov ct = true -> n < fn_nblocks (get_fn p (ct_fn ct)) ->
    exists e', chk_block p voff S cov (fn_block (get_fn p (ct_fn ct)) n) (ct_tpre ct n) = Some e' /\
               e_leq e' (ct_tpost ct n) = true.
  Proof.
    intros C L. unfold cert_ok in C.
    apply andb_true_iff in C. destruct C as [C _]. apply andb_true_iff in C. destruct C as [_ C].
    rewrite forallb_forall in C. specialize (C n).
    assert (J : In n (seq 0 (fn_nblocks (get_fn p (ct_fn ct))))) by (apply in_seq; lia).
    specialize (C J). destruct (chk_block p voff S cov _ _) as [e'|]; [|discriminate]. exists e'. auto.
  Qed.

  Lemma cert_edge cov ct a b : cert_ok p voff S cov ct = true -> In (a, b) (f_edges (get_fn p (ct_fn ct))) ->
    e_leq (ct_tpost ct a) (ct_tpre ct b) = true.
  Proof.
    intros C J. unfold cert_ok in C.
    apply andb_true_iff in C. destruct C as [_ C]. rewrite forallb_forall in C. apply (C _ J).
  Qed.

  Lemma cert_entry cov ct : cert_ok p voff S cov ct = true ->
    ct_fn ct < length p /\ e_leq (ct_pre ct) (ct_tpre ct 0) = true.
  Proof.
    intros C. unfold cert_ok in C.
    apply andb_true_iff in C. destruct C as [C _]. apply andb_true_iff in C. destruct C as [C _].
    apply andb_true_iff in C. destruct C as [C1 C2]. apply Nat.ltb_lt in C1. auto.
  Qed.

  (* summaries and blocks: induction on executions *)
  Definition P_stmt (st : istmt) (a b : store) : Prop :=
    forall cov fn, istmt_wfb p voff fn st = true ->
    forall e e', genv e a -> chk_stmt p voff S cov st e = Some e' -> genv e' b.
  Definition P_block (bl : iblock) (a b : store) : Prop :=
    forall cov fn, (forall st, In st bl -> istmt_wfb p voff fn st = true) ->
    forall e e', genv e a -> chk_block p voff S cov bl e = Some e' -> genv e' b.
  Definition P_from (g n : nat) (a c : store) : Prop :=
    g < length p -> n < fn_nblocks (get_fn p g) ->
    forall ct, In ct scs -> ct_fn ct = g -> genv (ct_tpre ct n) a ->
    exists x, f_exit (get_fn p g) = Some x /\ genv (ct_tpost ct x) c.
  Definition P_fun (g : nat) (s0 s1 : store) : Prop :=
    g < length p -> forall sm, In sm S -> s_fn sm = g -> genv (s_pre sm) s0 -> genv (s_post sm) s1.

  Lemma cert_post cov ct n a b : cert_ok p voff S cov ct = true -> n < fn_nblocks (get_fn p (ct_fn ct)) ->
    P_block (fn_block (get_fn p (ct_fn ct)) n) a b -> genv (ct_tpre ct n) a -> genv (ct_tpost ct n) b.
  Proof.
    intros OK L PB G. destruct (cert_block cov ct n OK L) as (e' & C & LE).
    destruct (fn_wf _ (proj1 (cert_entry cov ct OK))) as (_ & _ & _ & _ & Wb).
    eapply e_leq_sound; [exact LE|]. eapply PB; eauto.
  Qed.

  Lemma exec_sound :
    (forall st a b, exec_stmt p st a b -> P_stmt st a b) /\
    (forall bl a b, exec_block p bl a b -> P_block bl a b) /\
    (forall g n a c, exec_from p g n a c -> P_from g n a c) /\
    (forall g s0 s1, exec_fun p g s0 s1 -> P_fun g s0 s1).
  Proof.
    apply exec_mutind.
    - (* base statement *)
      intros s a b H cov fn W e e' G C. simpl in C. inversion C; subst e'.
      simpl in W. apply andb_true_iff in W. destruct W as [W _].
      eapply tr_stmt_sound; eauto. apply stmt_wfb_sound. exact W.
    - (* call *)
      intros outs g ins a s0 s1 b B X IH Hb cov fn W e e' G C. simpl in C.
      apply (chk_call_sound cov fn outs g ins e e' a s0 s1 b W G B X Hb); [|exact C].
      intros sm I F Gp. exact (IH (proj1 (call_wf _ _ _ _ W)) sm I F Gp).
    - intros a cov fn W e e' G C. simpl in C. inversion C; subst. exact G.
    - intros s r a m b X IHs Y IHr cov fn W e e' G C. simpl in C.
      destruct (chk_stmt p voff S cov s e) as [e1|] eqn:C1; [|discriminate].
      apply (IHr cov fn (fun st I => W st (or_intror I)) e1 e'); [|exact C].
      apply (IHs cov fn (W s (or_introl eq_refl)) e e1 G C1).
    - (* return at the end of the exit block *)
      intros g n a b E X IH Lg Ln ct I F G. subst g.
      exists n. split; [exact E|]. exact (cert_post None ct n a b (scs_ok ct I) Ln IH G).
    - (* step to a successor block *)
      intros g n m a b c X IH E Y IHf Lg Ln ct I F G. subst g.
      destruct (fn_wf (ct_fn ct) Lg) as (_ & _ & _ & We & _).
      apply IHf; auto; [apply (We _ _ E)|].
      eapply e_leq_sound; [apply (cert_edge None ct n m (scs_ok ct I) E)|].
      exact (cert_post None ct n a b (scs_ok ct I) Ln IH G).
    - (* function *)
      intros g s0 s1 X IH Lg sm I F G.
      destruct (summs_ok sm I) as (ct & J & OK). unfold summ_ok in OK.
      apply andb_true_iff in OK. destruct OK as [OK O3]. apply andb_true_iff in OK. destruct OK as [O1 O2].
      apply Nat.eqb_eq in O1. rewrite F in O1, O3.
      destruct (cert_entry None ct (scs_ok ct J)) as [_ L0].
      destruct (fn_wf g Lg) as (_ & _ & N0 & _).
      destruct (IH Lg N0 ct J O1) as (x & E & Gx).
      { eapply e_leq_sound; eauto. eapply e_leq_sound; eauto. }
      rewrite E in O3. eapply e_leq_sound; eauto.
      apply (e_project_sound _ _ s1); auto.
  Qed.

  (* reachability: the contexts rcs cover the executions *)
  Variable rcs : list cert.
  Hypothesis rcs_ok : forall ct, In ct rcs -> cert_ok p voff S (Some rcs) ct = true.
  Variable entries : list nat.
  Variable Init : store -> Prop.
  Variable init : env.
  Hypothesis init_s : forall s, Init s -> genv init s.
  Hypothesis roots_ok : forall f, In f entries ->
    exists ct, In ct rcs /\ ct_fn ct = f /\ e_leq init (ct_pre ct) = true.

  Definition Q_pre (f n : nat) (s : store) : Prop :=
    f < length p /\ n < fn_nblocks (get_fn p f) /\
    exists ct, In ct rcs /\ ct_fn ct = f /\ genv (ct_tpre ct n) s.
  Definition Q_post (f n : nat) (s : store) : Prop :=
    f < length p /\ n < fn_nblocks (get_fn p f) /\
    exists ct, In ct rcs /\ ct_fn ct = f /\ genv (ct_tpost ct n) s.

  Lemma reach_sound :
    (forall f n s, IRPre p entries Init f n s -> Q_pre f n s) /\
    (forall f n s, IRPost p entries Init f n s -> Q_post f n s).
  Proof.
    destruct exec_sound as (_ & XB & _ & _).
    apply IR_mutind.
    - intros f s I J. destruct (roots_ok f I) as (ct & K & F & L).
      destruct (cert_entry _ ct (rcs_ok ct K)) as [Lf L0]. rewrite F in Lf.
      destruct (fn_wf f Lf) as (_ & _ & N0 & _).
      split; auto. split; auto. exists ct. repeat split; auto.
      eapply e_leq_sound; eauto. eapply e_leq_sound; eauto.
    - intros f q n s E _ (Lf & Lq & ct & K & F & G).
      destruct (fn_wf f Lf) as (_ & _ & _ & We & _). destruct (We _ _ E) as [_ Ln].
      split; auto. split; auto. exists ct. repeat split; auto. subst f.
      eapply e_leq_sound; [apply (cert_edge _ ct q n (rcs_ok ct K) E)|exact G].
    - intros f n s l1 outs g ins l2 m s0 _ (Lf & Ln & ct & K & F & G) EB X B. subst f.
      destruct (cert_block _ ct n (rcs_ok ct K) Ln) as (e' & C & _). rewrite EB in C.
      destruct (chk_block_app _ _ _ _ _ C) as (e1 & C1 & C2).
      destruct (fn_wf (ct_fn ct) Lf) as (_ & _ & _ & _ & Wb).
      assert (W1 : forall st, In st l1 -> istmt_wfb p voff (get_fn p (ct_fn ct)) st = true).
      { intros st I. apply (Wb n). rewrite EB. apply in_or_app. left. exact I. }
      assert (Wc : istmt_wfb p voff (get_fn p (ct_fn ct)) (ICall outs g ins) = true).
      { apply (Wb n). rewrite EB. apply in_or_app. right. left. reflexivity. }
      pose proof (XB _ _ _ X _ _ W1 _ _ G C1) as G1.
      pose proof (chk_call_entry _ _ _ _ _ _ _ Wc G1 B) as GE.
      destruct (call_wf _ _ _ _ Wc) as (Lg & _).
      simpl in C2. destruct (chk_call p voff S (Some rcs) outs g ins e1) as [e2|] eqn:CC; [|discriminate].
      unfold chk_call in CC. rewrite (genv_not_bot _ _ G1) in CC.
      match type of CC with (if ?c then _ else _) = _ => destruct c eqn:COV; [|discriminate] end.
      apply existsb_exists in COV. destruct COV as (ct0 & J & M).
      apply andb_true_iff in M. destruct M as [M1 M2]. apply Nat.eqb_eq in M1.
      destruct (cert_entry _ ct0 (rcs_ok ct0 J)) as [_ L0].
      destruct (fn_wf g Lg) as (_ & _ & N0 & _).
      split; auto. split; auto. exists ct0. repeat split; auto.
      eapply e_leq_sound; eauto. eapply e_leq_sound; eauto.
    - intros f n s s' _ (Lf & Ln & ct & K & F & G) X. subst f.
      split; auto. split; auto. exists ct. repeat split; auto.
      exact (cert_post _ ct n s s' (rcs_ok ct K) Ln (XB _ _ _ X) G).
  Qed.
End CheckSound.

Theorem ig_check_sound p voff entries init tpre tpost rcerts scerts :
  ig_check p voff entries init tpre tpost rcerts scerts = true ->
  forall Init : store -> Prop, (forall s, Init s -> genv init s) ->
  (forall f n s, IRPre p entries Init f n s -> genv (tpre f n) s) /\
  (forall f n s, IRPost p entries Init f n s -> genv (tpost f n) s) /\
  (forall sm, In sm (map fst scerts) ->
     forall s0 s1, genv (s_pre sm) s0 -> exec_fun p (s_fn sm) s0 s1 -> genv (s_post sm) s1).
Proof.
  unfold ig_check. intros H Init HI.
  apply andb_true_iff in H. destruct H as [H HT].
  apply andb_true_iff in H. destruct H as [H HR].
  apply andb_true_iff in H. destruct H as [H HS].
  apply andb_true_iff in H. destruct H as [H HC2].
  apply andb_true_iff in H. destruct H as [WF HC].
  set (S := map fst scerts) in *. set (scs := map snd scerts) in *.
  rewrite forallb_forall in HC, HC2, HS, HR, HT.
  assert (summs : forall sm, In sm S -> exists ct, In ct scs /\ summ_ok p sm ct = true).
  { intros sm I. unfold S in I. apply in_map_iff in I. destruct I as ([sm' ct] & E & I). simpl in E. subst sm'.
    exists ct. split.
    - unfold scs. apply in_map_iff. exists (sm, ct). auto.
    - apply (HS _ I). }
  assert (rootsok : forall f, In f entries -> exists ct, In ct rcerts /\ ct_fn ct = f /\ e_leq init (ct_pre ct) = true).
  { intros f I. specialize (HR _ I). apply existsb_exists in HR. destruct HR as (ct & J & K).
    apply andb_true_iff in K. destruct K as [K1 K2]. apply Nat.eqb_eq in K1.
    exists ct. repeat split; auto. }
  destruct (reach_sound p voff WF S scs HC summs rcerts HC2 entries Init init HI rootsok) as [R1 R2].
  destruct (exec_sound p voff WF S scs HC summs) as (_ & _ & _ & XF).
  assert (TB : forall ct n, In ct rcerts -> n < fn_nblocks (get_fn p (ct_fn ct)) ->
               e_leq (ct_tpre ct n) (tpre (ct_fn ct) n) = true /\ e_leq (ct_tpost ct n) (tpost (ct_fn ct) n) = true).
  { intros ct n I L. specialize (HT _ I). rewrite forallb_forall in HT.
    assert (J : In n (seq 0 (fn_nblocks (get_fn p (ct_fn ct))))) by (apply in_seq; lia).
    specialize (HT _ J). apply andb_true_iff in HT. exact HT. }
  split; [|split].
  - intros f n s R. destruct (R1 _ _ _ R) as (_ & Ln & ct & I & F & G). subst f.
    eapply e_leq_sound; [apply (TB ct n I Ln)|exact G].
  - intros f n s R. destruct (R2 _ _ _ R) as (_ & Ln & ct & I & F & G). subst f.
    eapply e_leq_sound; [apply (TB ct n I Ln)|exact G].
  - intros sm I s0 s1 G X. destruct (summs sm I) as (ct & J & OK).
    assert (L : s_fn sm < length p).
    { unfold summ_ok in OK. apply andb_true_iff in OK. destruct OK as [OK _].
      apply andb_true_iff in OK. destruct OK as [O1 _]. apply Nat.eqb_eq in O1. rewrite <- O1.
      apply (cert_entry p voff S None ct (HC ct J)). }
    apply (XF _ _ _ X L sm I eq_refl G).
Qed.

Theorem td_check_sound p voff entries init tpre tpost roots scerts :
  td_check p voff entries init tpre tpost roots scerts = true ->
  forall Init : store -> Prop, (forall s, Init s -> genv init s) ->
  (forall f n s, IRPre p entries Init f n s -> genv (tpre f n) s) /\
  (forall f n s, IRPost p entries Init f n s -> genv (tpost f n) s) /\
  (forall sm, In sm (map fst scerts) ->
     forall s0 s1, genv (s_pre sm) s0 -> exec_fun p (s_fn sm) s0 s1 -> genv (s_post sm) s1).
Proof. unfold td_check. apply ig_check_sound. Qed.

Theorem td_validate_sound p voff entries init tpre tpost S delay desc efuel wtos :
  td_validate p voff entries init tpre tpost S delay desc efuel wtos = true ->
  forall Init : store -> Prop, (forall s, Init s -> genv init s) ->
  (forall f n s, IRPre p entries Init f n s -> genv (tpre f n) s) /\
  (forall f n s, IRPost p entries Init f n s -> genv (tpost f n) s) /\
  (forall sm, In sm S ->
     forall s0 s1, genv (s_pre sm) s0 -> exec_fun p (s_fn sm) s0 s1 -> genv (s_post sm) s1).
Proof.
  unfold td_validate. intros H Init HI.
  destruct (td_check_sound _ _ _ _ _ _ _ _ H Init HI) as (A & B & C).
  split; auto. split; auto. intros sm I. apply C.
  rewrite map_map. cbn [fst]. rewrite map_id. apply in_or_app. left. exact I.
Qed.

Theorem td_bottom_never_entered p voff entries init tpre tpost S delay desc efuel wtos :
  td_validate p voff entries init tpre tpost S delay desc efuel wtos = true ->
  forall Init : store -> Prop, (forall s, Init s -> genv init s) ->
  forall f n, e_is_bot (tpre f n) = true -> forall s, ~ IRPre p entries Init f n s.
Proof.
  intros H Init HI f n B s R. destruct (td_validate_sound _ _ _ _ _ _ _ _ _ _ _ H Init HI) as (A & _).
  eapply e_is_bot_sound; eauto.
Qed.

(* Known finding: default_context_sensitivity_policy::add joins the two oldest calling contexts when there are
   more than max_call_contexts: (pre1 | pre2, post1 | post2) is stored and reused as a summary,
   but it is not one.  The model mirrors the code as it is; here is an input on which the
   stored summary is wrong (replayed on the implementation by the check). *)
Definition gammab (i : itv) (x : Z) : bool := ble (lb i) (Fin x) && ble (Fin x) (ub i).
Definition menv (e : env) (s : store) : bool :=
  match e with EBot => false | EMap m => forallb (fun k => gammab (get m k) (s k)) (keys m) end.

Lemma menv_true e s : menv e s = true -> genv e s.
Proof.
  destruct e as [|m]; simpl; [discriminate|]. intros H k. rewrite forallb_forall in H.
  destruct (in_dec N.eq_dec k (keys m)) as [I|NI].
  - specialize (H _ I). unfold gammab in H. apply andb_true_iff in H. exact H.
  - rewrite get_not_key by exact NI. apply Scalar.ItvSound.gamma_top.
Qed.

Lemma menv_false e s : menv e s = false -> ~ genv e s.
Proof.
  destruct e as [|m]; simpl; auto. intros H G.
  assert (X : forallb (fun k => gammab (get m k) (s k)) (keys m) = true).
  { apply forallb_forall. intros k _. unfold gammab. apply andb_true_iff. apply G. }
  congruence.
Qed.

Definition jc_prog : iprog :=
  [mkFunc [] [] [[IBase (SAssign 2%N (mkLE [] 0%Z)); ICall [3%N] 1 [2%N];
                  IBase (SAssign 2%N (mkLE [] 2%Z)); ICall [3%N] 1 [2%N];
                  IBase (SAssign 2%N (mkLE [] 7%Z)); ICall [3%N] 1 [2%N];
                  IBase (SAssign 2%N (mkLE [] 1%Z)); ICall [3%N] 1 [2%N]]] [] (Some 0);
   mkFunc [0%N] [1%N]
          [[IBase (SSelect 1%N (mkLC EQ (mkLE [(1%Z, 0%N)] (-1)%Z)) (mkLE [] 100%Z) (mkLE [(1%Z, 0%N)] 0%Z))]]
          [] (Some 0)].

Theorem joined_contexts_refuted :
  exists w0 w1 rs sm s0 s1,
    Fix.Wto.build (fn_graph (get_fn jc_prog 0)) 0 = Some w0 /\
    Fix.Wto.build (fn_graph (get_fn jc_prog 1)) 0 = Some w1 /\
    cg_recset jc_prog = Some rs /\
    let wtos := fun f => if Nat.eqb f 0 then w0 else w1 in
    (* max_call_contexts = 1 *)
    let g := td_run jc_prog (prog_voff jc_prog) (Some 1) true 2 2 100 wtos rs 5 (cg_entries jc_prog) e_top in
    g_err g = false /\ In sm (g_summaries jc_prog g) /\
    genv (s_pre sm) s0 /\ exec_fun jc_prog (s_fn sm) s0 s1 /\ ~ genv (s_post sm) s1.
Proof.
  set (s0 := fun k : var => if N.eqb k 0 then 1%Z else 0%Z).
  exists [Fix.Wto.Vertex 0], [Fix.Wto.Vertex 0], []. eexists. exists s0, (upd s0 1%N 100%Z).
  do 3 (split; [reflexivity|]). intros wtos g.
  split; [vm_compute; reflexivity|].
  split; [vm_compute; left; reflexivity|].
  split; [apply menv_true; vm_compute; reflexivity|].
  split.
  - constructor. apply XF_exit; [reflexivity|].
    eapply XB_cons; [|apply XB_nil]. apply XS_base. reflexivity.
  - apply menv_false. vm_compute. reflexivity.
Qed.
