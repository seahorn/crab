(* CrawlerCdg.v — property C18: what the control-dependence graph [cdg_of] of the
   assertion-crawler model (Crawler.v) computes, in terms of the runner loop of
   graph_algo_impl::dominance on the reversed graph.

   cdg.hpp: control_dep_graph inverts the post-dominance frontier; post_dominance returns
   WITHOUT computing anything when the CFG has no exit (`if (!g.has_exit()) return;`), so the
   graph is then empty; otherwise, for every block n and every successor s of n, the runner
   climbs the immediate post-dominators from s until it meets ipdom(n) (or n, or a block
   without immediate post-dominator) and every block r it visits gets n in its frontier,
   i.e. r is control dependent on n.

   The statement C18_crawler_control_statement of Props/Properties_C18.v omits the has_exit
   guard: it is false for a CFG without exit ([cdg_statement_refuted]); with the guard it is
   an equivalence ([cdg_of_runner], [cdg_of_runner_exit], [cdg_of_no_exit]). *)
From Coq Require Import ZArith NArith List Bool.
From CrabV Require Import Ir.Syntax Ana.CfgSem Ana.Crawler.
Import ListNotations.

Lemma In_fold_union {A} (f : A -> vset) r : forall l,
  In r (fold_right (fun s acc => union (f s) acc) [] l) <-> exists s, In s l /\ In r (f s).
Proof.
  induction l as [|a l IH]; cbn [fold_right].
  - split; [intros []|intros (s & [] & _)].
  - rewrite union_In, IH. split.
    + intros [H|(s & I & H)]; [exists a|exists s]; cbn [In]; auto.
    + intros (s & [<-|I] & H); [left; exact H|right; exists s; auto].
Qed.

Lemma lookup_map_labels {A} (f : label -> A) n ls :
  lookup n (map (fun l => (l, f l)) ls) = if mem n ls then Some (f n) else None.
Proof.
  induction ls as [|a ls IH]; cbn [map lookup mem existsb]; [reflexivity|].
  destruct (N.eqb_spec n a) as [->|NE]; [reflexivity|exact IH].
Qed.

Lemma succs_not_label P n : ~ In n (labels P) -> succs P n = [].
Proof.
  intros H. unfold succs, get_block. apply lookup_None in H. rewrite H. reflexivity.
Qed.

(* the runner expression of the statement *)
Definition runner_children (P : cfg) (n r : label) : Prop :=
  exists s, In s (succs P n) /\
    In r (runner_walk (pdoms P) n (ipdom (pdoms P) n) (S (length (c_blocks P))) (Some s)).

(* no exit: cdg.hpp computes nothing *)
Theorem cdg_of_no_exit P n : c_exit P = None -> cdg_get (cdg_of P) n = [].
Proof. intros E. unfold cdg_of. rewrite E. reflexivity. Qed.

(* with an exit: the statement, for every n (a block or not) and every r *)
Theorem cdg_of_runner_exit P n r :
  c_exit P <> None -> (In r (cdg_get (cdg_of P) n) <-> runner_children P n r).
Proof.
  intros E. unfold cdg_of, runner_children. destruct (c_exit P) as [e|]; [clear E|congruence].
  cbv zeta. unfold cdg_get.
  rewrite lookup_map_labels. destruct (mem n (labels P)) eqn:M.
  - apply In_fold_union.
  - rewrite (succs_not_label P n (proj1 (mem_false _ _) M)).
    split; [intros []|intros (s & [] & _)].
Qed.

(* the exact relationship *)
Theorem cdg_of_runner P n r :
  In r (cdg_get (cdg_of P) n) <-> c_exit P <> None /\ runner_children P n r.
Proof.
  destruct (c_exit P) as [e|] eqn:E.
  - assert (X : c_exit P <> None) by congruence.
    rewrite (cdg_of_runner_exit P n r X). split; [intros H; split; [congruence|exact H]|intros [_ H]; exact H].
  - rewrite (cdg_of_no_exit P n E). split; [intros []|intros [H _]; congruence].
Qed.

(* the statement without the guard fails on a CFG without exit: block 0 -> block 1, no exit;
   the runner started at the successor 1 of block 0 visits 1, the model (as cdg.hpp) has an
   empty graph *)
Definition noexit_cfg : cfg :=
  mkCfg 0%N None
        [(0%N, mkBlock [] [] [1%N]); (1%N, mkBlock [] [0%N] [1%N])] [].

Theorem cdg_statement_refuted :
  ~ (forall P n r, In r (cdg_get (cdg_of P) n) <->
       exists s, In s (succs P n) /\
         In r (runner_walk (pdoms P) n (ipdom (pdoms P) n) (S (length (c_blocks P))) (Some s))).
Proof.
  intros H. destruct (H noexit_cfg 0%N 1%N) as [_ H2].
  assert (X : In 1%N (cdg_get (cdg_of noexit_cfg) 0%N)).
  { apply H2. exists 1%N. vm_compute. auto. }
  vm_compute in X. exact X.
Qed.

(* the guarded statement is not vacuous: a diamond with exit 3, where the branches 1 and 2
   are control dependent on block 0 and the join 3 is not *)
Definition diamond_cfg : cfg :=
  mkCfg 0%N (Some 3%N)
        [(0%N, mkBlock [] [] [1%N; 2%N]); (1%N, mkBlock [] [0%N] [3%N]);
         (2%N, mkBlock [] [0%N] [3%N]); (3%N, mkBlock [] [1%N; 2%N] [])] [].
Example diamond_cdg :
  c_exit diamond_cfg <> None /\
  cdg_of diamond_cfg = [(0%N, [1%N; 2%N]); (1%N, []); (2%N, []); (3%N, [])].
Proof. split; [discriminate|vm_compute; reflexivity]. Qed.
