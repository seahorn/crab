(* SimplifySound.v — what cfg::simplify and lower_safe_assertions are proved to preserve.

   Structure: wf (labels without duplicates, entry / exit are blocks, successor and predecessor
   vectors mention blocks only and are symmetric; decidable, wfb); keeps (the entry label, the
   outputs and having / not having an exit are kept); same_shape (only statements differ).
   Behaviour: the observation of an execution is its trace without the goto events (evaluated
   conditions, assertion outcomes, outputs at the exit); beh_eq P Q: the executions of P and Q that
   finish at the exit have the same observations, in both directions.

   cfg::simplify never looks inside a statement: its theorems are proved once for every statement
   language (Ana/SimplifyGen.v) and brought here in Ana/SimplifyGenInst.v.  Lowering does look
   inside, and is proved below. *)
From Coq Require Import ZArith List Bool Lia.
From CrabV Require Import Ir.Syntax Ana.CfgSem Ana.Simplify.
From CrabV Require Ana.SimplifyGen.
Import ListNotations.

Lemma get_block_map_block f P l :
  get_block (map_block f P) l = match get_block P l with Some b => Some (f l b) | None => None end.
Proof. apply (lookup_map (fun lb => f (fst lb) (snd lb))). Qed.
Lemma labels_map_block f P : labels (map_block f P) = labels P.
Proof. unfold labels, map_block. simpl. rewrite map_map. reflexivity. Qed.

Lemma succs_In_labels P l l' : In l' (succs P l) -> In l (labels P).
Proof.
  unfold succs. destruct (get_block P l) eqn:E; [|simpl; tauto]. intros _.
  eapply lookup_Some_In; eauto.
Qed.
Lemma preds_In_labels P l l' : In l' (preds P l) -> In l (labels P).
Proof.
  unfold preds. destruct (get_block P l) eqn:E; [|simpl; tauto]. intros _.
  eapply lookup_Some_In; eauto.
Qed.

Definition wf (P : cfg) : Prop :=
  NoDup (labels P) /\ In (c_entry P) (labels P) /\
  (forall e, c_exit P = Some e -> In e (labels P)) /\
  (forall l l', In l' (succs P l) -> In l' (labels P) /\ In l (preds P l')) /\
  (forall l l', In l (preds P l') -> In l (labels P) /\ In l' (succs P l)).

Definition same_shape (P Q : cfg) : Prop :=
  labels Q = labels P /\ c_entry Q = c_entry P /\ c_exit Q = c_exit P /\
  (forall l, succs Q l = succs P l) /\ (forall l, preds Q l = preds P l).

Lemma wf_same_shape P Q : same_shape P Q -> wf P -> wf Q.
Proof.
  intros (L & E & X & S & Pr) (W1 & W2 & W3 & W4 & W5). unfold wf.
  rewrite L, E, X. repeat split; auto.
  - rewrite S in H. apply (W4 _ _ H).
  - rewrite S in H. rewrite Pr. apply (W4 _ _ H).
  - rewrite Pr in H. apply (W5 _ _ H).
  - rewrite Pr in H. rewrite S. apply (W5 _ _ H).
Qed.

Definition keeps (P Q : cfg) : Prop :=
  c_entry Q = c_entry P /\ c_outs Q = c_outs P /\ (c_exit P = None <-> c_exit Q = None).

Lemma keeps_refl P : keeps P P.
Proof. repeat split; auto. Qed.
Lemma keeps_trans P Q R : keeps P Q -> keeps Q R -> keeps P R.
Proof. intros (A1 & A2 & A3) (B1 & B2 & B3). repeat split; try congruence; tauto. Qed.

(* CFGs built with basic_block::operator>> satisfy wf *)
Fixpoint nodupb (ls : list label) : bool :=
  match ls with [] => true | a :: r => negb (mem a r) && nodupb r end.
Lemma nodupb_spec ls : nodupb ls = true -> NoDup ls.
Proof.
  induction ls as [|a r IH]; simpl; [constructor|]. rewrite andb_true_iff, negb_true_iff, mem_false.
  intros [H1 H2]. constructor; auto.
Qed.

Definition wfb (P : cfg) : bool :=
  let ls := labels P in
  nodupb ls && mem (c_entry P) ls
  && match c_exit P with Some e => mem e ls | None => true end
  && forallb (fun l => forallb (fun l' => mem l' ls && mem l (preds P l')) (succs P l)) ls
  && forallb (fun l' => forallb (fun l => mem l ls && mem l' (succs P l)) (preds P l')) ls.

Lemma wfb_sound P : wfb P = true -> wf P.
Proof.
  unfold wfb. rewrite !andb_true_iff. intros [[[[H1 H2] H3] H4] H5].
  rewrite forallb_forall in H4, H5. unfold wf. split; [apply nodupb_spec; auto|].
  split; [apply mem_In; auto|]. split; [|split].
  - intros e E. rewrite E in H3. apply mem_In; auto.
  - intros l l' H. pose proof (succs_In_labels _ _ _ H) as Hl. specialize (H4 l Hl).
    rewrite forallb_forall in H4. specialize (H4 l' H). apply andb_true_iff in H4.
    destruct H4 as [A B]. split; apply mem_In; auto.
  - intros l l' H. pose proof (preds_In_labels _ _ _ H) as Hl. specialize (H5 l' Hl).
    rewrite forallb_forall in H5. specialize (H5 l H). apply andb_true_iff in H5.
    destruct H5 as [A B]. split; apply mem_In; auto.
Qed.

Definition is_goto (e : event) : bool := match e with EvGoto _ => true | _ => false end.
(* evaluated conditions, assertion outcomes, outputs at the exit *)
Definition obs (tr : list event) : list event := filter (fun e => negb (is_goto e)) tr.
Lemma obs_app t1 t2 : obs (t1 ++ t2) = obs t1 ++ obs t2.
Proof. unfold obs. apply filter_app. Qed.

(* observations of the executions from the entry that finish at the exit block *)
Definition exit_obs (P : cfg) (s : store) (t : list event) : Prop :=
  exists tr, star P (init P s) tr Done /\ obs tr = t.
Definition beh_eq (P Q : cfg) : Prop := forall s t, exit_obs P s t <-> exit_obs Q s t.

Lemma beh_eq_refl P : beh_eq P P.
Proof. intros s t. tauto. Qed.
Lemma beh_eq_trans P Q R : beh_eq P Q -> beh_eq Q R -> beh_eq P R.
Proof. intros H1 H2 s t. rewrite (H1 s t). apply H2. Qed.

Lemma no_step_Err P ev c : ~ step P Err ev c.
Proof. exact (step_inv P Err ev c). Qed.
Lemma no_step_Done P ev c : ~ step P Done ev c.
Proof. exact (step_inv P Done ev c). Qed.
Lemma star_Err_inv P tr c : star P Err tr c -> c = Err /\ tr = [].
Proof. intros H. inversion H; subst; auto. exfalso. eapply no_step_Err; eauto. Qed.

Lemma fold_union_elem (f : label -> vset) B L l x :
  In l L -> In x (f l) -> In x (fold_right (fun l acc => union (f l) acc) B L).
Proof. apply SimplifyGen.fold_union_elem. Qed.

Lemma is_exit_copy_back P p ss l : is_exit (copy_back P p ss) l = is_exit P l.
Proof. reflexivity. Qed.

Lemma same_shape_lower safe P : same_shape P (lower safe P).
Proof.
  unfold lower. repeat split.
  - apply labels_map_block.
  - intros l. unfold succs. rewrite get_block_map_block. destruct (get_block P l); reflexivity.
  - intros l. unfold preds. rewrite get_block_map_block. destruct (get_block P l); reflexivity.
Qed.
Theorem lower_wf safe P : wf P -> wf (lower safe P) /\ same_shape P (lower safe P).
Proof. intros W. split; [eapply wf_same_shape; eauto|]; apply same_shape_lower. Qed.

Definition lower_ev (safe : vset) (e : event) : event :=
  match e with
  | EvAssert a true => if mem a safe then EvAssume else e
  | _ => e
  end.
Definition lower_tr (safe : vset) (tr : list event) : list event := map (lower_ev safe) tr.
Definition lc (safe : vset) (c : config) : config :=
  match c with Run l rest s => Run l (map (lower_stmt safe) rest) s | x => x end.

Lemma lower_tr_app safe a b : lower_tr safe (a ++ b) = lower_tr safe a ++ lower_tr safe b.
Proof. apply map_app. Qed.
Lemma obs_lower_tr safe tr : obs (lower_tr safe tr) = lower_tr safe (obs tr).
Proof.
  induction tr as [|e r IH]; simpl; auto.
  assert (E : is_goto (lower_ev safe e) = is_goto e).
  { destruct e; simpl; auto. destruct ok; auto. destruct (mem id safe); auto. }
  rewrite E. destruct (is_goto e); simpl; rewrite IH; reflexivity.
Qed.

Lemma lower_exec safe st s ev s1 :
  exec_stmt st s ev s1 -> exec_stmt (lower_stmt safe st) s (lower_tr safe ev) s1.
Proof.
  intros X. destruct X; simpl; try (constructor; auto; fail).
  destruct (mem id safe); constructor; auto.
Qed.
(* a statement that lowering leaves alone emits no event that lowering changes *)
Lemma lower_tr_fixed safe st s ev s1 :
  exec_stmt st s ev s1 -> lower_stmt safe st = st -> lower_tr safe ev = ev.
Proof.
  intros X. destruct X; simpl; try reflexivity. destruct (mem id safe); [discriminate|reflexivity].
Qed.
Lemma lower_exec_inv safe st s ev' s1 :
  exec_stmt (lower_stmt safe st) s ev' s1 -> exists ev, exec_stmt st s ev s1 /\ lower_tr safe ev = ev'.
Proof.
  destruct st; try (intros X; exists ev'; split; [exact X|exact (lower_tr_fixed _ _ _ _ _ X eq_refl)]).
  simpl. destruct (mem id safe) eqn:M; intros X.
  - inversion X; subst. exists [EvAssert id true]. split; [constructor; auto|]. simpl. rewrite M. reflexivity.
  - exists ev'. split; [exact X|]. apply (lower_tr_fixed safe _ _ _ _ X). simpl. rewrite M. reflexivity.
Qed.

Section Lower.
Variable safe : vset.
Variable P : cfg.
Let Q := lower safe P.

Lemma lower_get_block l :
  get_block Q l = match get_block P l with
                  | Some b => Some (mkBlock (map (lower_stmt safe) (b_stmts b)) (b_prev b) (b_next b))
                  | None => None end.
Proof. unfold Q, lower. rewrite get_block_map_block. reflexivity. Qed.
Lemma lower_succs l : succs Q l = succs P l.
Proof. unfold succs. rewrite lower_get_block. destruct (get_block P l); reflexivity. Qed.
Lemma lower_init s : init Q s = lc safe (init P s).
Proof.
  unfold init. simpl. change (c_entry Q) with (c_entry P). unfold stmts_of. rewrite lower_get_block.
  destruct (get_block P (c_entry P)); reflexivity.
Qed.

Lemma lower_step_fwd c ev c1 :
  step P c ev c1 -> c1 <> Err -> step Q (lc safe c) (lower_tr safe ev) (lc safe c1).
Proof.
  intros St NErr. destruct St as [l st r s ev s1 X | l c0 id r s F | l l' b' s Hl Hb | l s He]; simpl.
  - constructor. apply lower_exec. exact X.
  - congruence.
  - set (nb := mkBlock (map (lower_stmt safe) (b_stmts b')) (b_prev b') (b_next b')).
    change (map (lower_stmt safe) (b_stmts b')) with (b_stmts nb).
    apply (StGoto Q l l' nb s); [rewrite lower_succs; auto|]. rewrite lower_get_block, Hb. reflexivity.
  - apply (StExit Q l s). exact He.
Qed.

Lemma lower_star_fwd c tr :
  star P c tr Done -> star Q (lc safe c) (lower_tr safe tr) Done.
Proof.
  intros St. remember Done as d eqn:D. induction St as [c|c ev c1 tr c2 S1 St IH]; subst; [constructor|].
  rewrite lower_tr_app. econstructor; [|apply IH; reflexivity].
  apply lower_step_fwd; auto. intros ->. destruct (star_Err_inv _ _ _ St). discriminate.
Qed.

Lemma lower_step_bwd c ev' c1' :
  step Q (lc safe c) ev' c1' ->
  exists ev c1, step P c ev c1 /\ lower_tr safe ev = ev' /\ lc safe c1 = c1'.
Proof.
  destruct c as [l [|st r] s| |]; simpl; intros St; [| |destruct (step_inv _ _ _ _ St)..].
  - destruct (step_inv _ _ _ _ St) as [(l' & b'' & Hl' & Hb' & -> & ->)|(He' & -> & ->)].
    + rewrite lower_succs in Hl'. rewrite lower_get_block in Hb'.
      destruct (get_block P l') as [b0|] eqn:G; [|discriminate]. inversion Hb'; subst. simpl.
      exists [EvGoto l'], (Run l' (b_stmts b0) s). split; [econstructor; eauto|]. split; reflexivity.
    + exists [EvExit (map s (c_outs P))], Done. split; [apply StExit; exact He'|]. split; reflexivity.
  - destruct (step_inv _ _ _ _ St) as [(s1 & X & ->)|(c0 & id & E & F & -> & ->)].
    + destruct (lower_exec_inv _ _ _ _ _ X) as [ev [X0 E]].
      exists ev, (Run l r s1). split; [constructor; auto|]. split; auto.
    + destruct st; simpl in E; try discriminate. destruct (mem id0 safe); [discriminate|].
      inversion E; subst. eexists [EvAssert _ false], Err. split; [constructor; eauto|]. split; reflexivity.
Qed.

Lemma lower_star_bwd c' tr' c1' :
  star Q c' tr' c1' -> forall c, lc safe c = c' ->
  exists tr c1, star P c tr c1 /\ lower_tr safe tr = tr' /\ lc safe c1 = c1'.
Proof.
  induction 1 as [c'|c' ev' c1' tr' c2' S1 St IH]; intros c E; subst.
  - exists [], c. split; [constructor|]. split; reflexivity.
  - destruct (lower_step_bwd _ _ _ S1) as [ev [c1 [S0 [E1 E2]]]].
    destruct (IH c1 E2) as [tr [c2 [St0 [E3 E4]]]].
    exists (ev ++ tr), c2. split; [econstructor; eauto|]. split; auto.
    rewrite lower_tr_app. congruence.
Qed.

(* exit-reaching executions of the lowered CFG = those of the original, with the outcome
   "assertion a holds" of the listed assertions turned into "assume holds" *)
Theorem lower_beh s t :
  exit_obs Q s t <-> exists t0, exit_obs P s t0 /\ lower_tr safe t0 = t.
Proof.
  unfold exit_obs. split.
  - intros [tr' [St O]]. rewrite lower_init in St.
    destruct (lower_star_bwd _ _ _ St _ eq_refl) as [tr [c1 [St0 [E1 E2]]]].
    destruct c1; simpl in E2; try discriminate.
    exists (obs tr). split; [exists tr; auto|]. rewrite <- obs_lower_tr, E1. exact O.
  - intros [t0 [[tr [St O]] E]]. exists (lower_tr safe tr). split.
    + rewrite lower_init. apply (lower_star_fwd _ _ St).
    + rewrite obs_lower_tr, O. exact E.
Qed.
End Lower.

(* b0: x := 1; goto b1.  b1: assert(x <= 5) [3]; goto b2, b4.  b2: y := x; goto b3.  b3 (exit).
   b4: goto b4 (cannot reach the exit).  b5: goto b1 (not reachable from the entry). *)
Definition ex_cfg : cfg :=
  mkCfg 0%N (Some 3%N)
        [(0%N, mkBlock [SAssign 0%N (mkLE [] 1%Z)] [] [1%N]);
         (1%N, mkBlock [SAssert (mkLC INEQ (mkLE [(1%Z, 0%N)] (-5)%Z)) 3%N] [0%N; 5%N] [2%N; 4%N]);
         (2%N, mkBlock [SAssign 1%N (mkLE [(1%Z, 0%N)] 0%Z)] [1%N] [3%N]);
         (3%N, mkBlock [] [2%N] []);
         (4%N, mkBlock [] [1%N; 4%N] [4%N]);
         (5%N, mkBlock [] [] [1%N])]
        [1%N].
Example ex_wf : wf ex_cfg.
Proof. apply wfb_sound. vm_compute. reflexivity. Qed.
Example ex_simplify : exists Q, simplify ex_cfg = Some Q /\ labels Q = [0%N; 3%N] /\ c_exit Q = Some 3%N /\
  stmts_of Q 0%N = [SAssign 0%N (mkLE [] 1%Z); SAssert (mkLC INEQ (mkLE [(1%Z, 0%N)] (-5)%Z)) 3%N;
                    SAssign 1%N (mkLE [(1%Z, 0%N)] 0%Z)] /\
  succs Q 0%N = [3%N].
Proof. eexists. split; [vm_compute; reflexivity|]. vm_compute. auto. Qed.
