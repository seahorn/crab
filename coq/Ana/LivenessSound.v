(* LivenessSound.v — the result of Liveness.liveness is the least solution of the backward
   equations, and non-interference: a variable that is not live at the end of a block can
   be changed there without changing the rest of any execution. *)
From Coq Require Import ZArith List Bool Lia.
From CrabV Require Import Ir.Syntax Ana.CfgSem Ana.Liveness.
Import ListNotations.

(* statement-wise form of analyze *)
Definition live_stmt (st : stmt) (L : vset) : vset :=
  if is_unreach st then [] else union (uses st) (diff L (defs st)).
Fixpoint live_stmts (ss : list stmt) (out : vset) : vset :=
  match ss with
  | [] => out
  | st :: r => live_stmt st (live_stmts r out)
  end.

Lemma analyze_nil out x : In x (analyze [] out) <-> In x out.
Proof.
  change (analyze [] out) with (union [] (diff out [])).
  rewrite union_In, diff_In. simpl. tauto.
Qed.

Lemma analyze_cons st r out x :
  In x (analyze (st :: r) out) <-> In x (live_stmt st (analyze r out)).
Proof.
  unfold analyze, live_stmt. cbn [killgen]. destruct (killgen r) as [[u k] g].
  destruct (is_unreach st) eqn:U; cbv beta iota.
  - simpl. tauto.
  - destruct u.
    + tauto.
    + repeat (rewrite union_In || rewrite diff_In). tauto.
Qed.

Lemma live_stmt_ext st L L' x :
  (forall y, In y L <-> In y L') -> In x (live_stmt st L) <-> In x (live_stmt st L').
Proof.
  intros H. unfold live_stmt. destruct (is_unreach st); [tauto|].
  rewrite !union_In, !diff_In, H. tauto.
Qed.

Lemma analyze_spec ss out x : In x (analyze ss out) <-> In x (live_stmts ss out).
Proof.
  revert x. induction ss as [|st r IH]; intros x.
  - apply analyze_nil.
  - rewrite analyze_cons. simpl. apply live_stmt_ext. exact IH.
Qed.

Lemma live_stmt_mono st L L' x :
  (forall y, In y L -> In y L') -> In x (live_stmt st L) -> In x (live_stmt st L').
Proof.
  intros H. unfold live_stmt. destruct (is_unreach st); [tauto|].
  rewrite !union_In, !diff_In. intros [?|[? ?]]; auto.
Qed.
Lemma live_stmts_mono ss L L' x :
  (forall y, In y L -> In y L') -> In x (live_stmts ss L) -> In x (live_stmts ss L').
Proof.
  revert x. induction ss as [|st r IH]; simpl; intros x H; auto.
  apply live_stmt_mono. intros y. apply IH. exact H.
Qed.
Lemma analyze_mono ss L L' x :
  (forall y, In y L -> In y L') -> In x (analyze ss L) -> In x (analyze ss L').
Proof. rewrite !analyze_spec. apply live_stmts_mono. Qed.

Definition le_fun (A B : lmap) : Prop := forall l x, In x (in_of A l) -> In x (in_of B l).

Lemma leq_map_le_fun A B : leq_map A B = true -> le_fun A B.
Proof.
  unfold leq_map, le_fun, in_of. rewrite forallb_forall. intros H l x.
  destruct (lookup l A) as [s|] eqn:E; [|simpl; tauto].
  apply lookup_In in E. specialize (H _ E). simpl in H.
  rewrite subset_spec in H. apply H.
Qed.

Lemma big_union_In f ls x : In x (big_union f ls) <-> exists l, In l ls /\ In x (f l).
Proof.
  induction ls as [|a r IH]; simpl.
  - split; [tauto|]. intros [l [[] _]].
  - rewrite union_In, IH. split.
    + intros [H|[l [H1 H2]]]; [exists a; auto | exists l; auto].
    + intros [l [[->|H1] H2]]; [auto | right; exists l; auto].
Qed.

Lemma live_out_In P m l x :
  In x (live_out P m l) <->
  (is_exit P l = true /\ In x (c_outs P)) \/ exists l', In l' (succs P l) /\ In x (in_of m l').
Proof.
  unfold live_out. rewrite union_In, big_union_In.
  destruct (is_exit P l); simpl; intuition congruence.
Qed.

Lemma agree_exit_outs P m l s1 s2 :
  c_exit P = Some l -> agree (live_out P m l) s1 s2 -> map s1 (c_outs P) = map s2 (c_outs P).
Proof.
  intros He A. apply map_ext_in. intros x Hx. apply A. apply live_out_In. left.
  split; auto. unfold is_exit. rewrite He. apply N.eqb_refl.
Qed.

Lemma live_out_mono P A B l x : le_fun A B -> In x (live_out P A l) -> In x (live_out P B l).
Proof.
  intros H. rewrite !live_out_In. intros [?|[l' [H1 H2]]]; auto.
  right. exists l'. split; auto.
Qed.

Lemma in_of_step_in P m l :
  in_of (step_in P m) l =
  match get_block P l with Some b => analyze (b_stmts b) (live_out P m l) | None => [] end.
Proof.
  unfold in_of, step_in, get_block.
  rewrite (lookup_map (fun lb => analyze (b_stmts (snd lb)) (live_out P m (fst lb)))).
  destruct (lookup l (c_blocks P)); auto.
Qed.

Lemma step_in_mono P A B : le_fun A B -> le_fun (step_in P A) (step_in P B).
Proof.
  intros H l x. rewrite !in_of_step_in. destruct (get_block P l); auto.
  apply analyze_mono. intros y. apply live_out_mono. exact H.
Qed.

Lemma in_of_bottom P l : in_of (bottom_map P) l = [].
Proof.
  unfold in_of, bottom_map. rewrite (lookup_map (fun _ => @nil N)).
  destruct (lookup l (c_blocks P)); auto.
Qed.

(* a (post-)solution of the liveness equations *)
Definition is_solution (P : cfg) (m : lmap) : Prop := le_fun (step_in P m) m.

Lemma solve_sound P fuel m r : solve P fuel m = Some r -> is_solution P r.
Proof.
  revert m. induction fuel as [|f IH]; simpl; intros m; [discriminate|].
  destruct (leq_map (step_in P m) m) eqn:E.
  - intros H; inversion H; subst. apply leq_map_le_fun. exact E.
  - apply IH.
Qed.

Lemma solve_least P S fuel m r :
  is_solution P S -> le_fun m S -> solve P fuel m = Some r -> le_fun r S.
Proof.
  intros HS. revert m. induction fuel as [|f IH]; simpl; intros m Hm; [discriminate|].
  destruct (leq_map (step_in P m) m).
  - intros H; inversion H; subst; auto.
  - apply IH. intros l x Hx. apply HS. revert Hx. apply step_in_mono. exact Hm.
Qed.

Theorem liveness_is_solution P m : liveness P = Some m -> is_solution P m.
Proof. apply solve_sound. Qed.

Theorem liveness_least P m S : liveness P = Some m -> is_solution P S -> le_fun m S.
Proof.
  intros H HS. apply (solve_least P S (fuel_for P) (bottom_map P) m HS); [|exact H].
  intros l x. rewrite in_of_bottom. simpl. tauto.
Qed.

Theorem liveness_least_solution P m :
  liveness P = Some m -> is_solution P m /\ forall S, is_solution P S -> le_fun m S.
Proof.
  intros H. split; [exact (liveness_is_solution P m H)|exact (fun S => liveness_least P m S H)].
Qed.

Lemma agree_app_l A B s1 s2 : agree (A ++ B) s1 s2 -> agree A s1 s2.
Proof. intros H x Hx. apply H. apply in_or_app; auto. Qed.
Lemma agree_app_r A B s1 s2 : agree (A ++ B) s1 s2 -> agree B s1 s2.
Proof. intros H x Hx. apply H. apply in_or_app; auto. Qed.

Lemma agree_live_uses st L s1 s2 :
  is_unreach st = false -> agree (live_stmt st L) s1 s2 -> agree (uses st) s1 s2.
Proof.
  intros U H x Hx. apply H. unfold live_stmt. rewrite U. apply union_In. auto.
Qed.
Lemma agree_live_rest st L s1 s2 :
  is_unreach st = false -> agree (live_stmt st L) s1 s2 -> agree (diff L (defs st)) s1 s2.
Proof.
  intros U H x Hx. apply H. unfold live_stmt. rewrite U. apply union_In. auto.
Qed.

Lemma binop_agree y z s1 s2 :
  agree (y :: operand_vars z) s1 s2 -> s1 y = s2 y /\ operand_val z s1 = operand_val z s2.
Proof.
  intros A. split; [apply A; simpl; auto|]. apply operand_val_agree. intros w Hw. apply A. simpl; auto.
Qed.

Lemma exec_stmt_agree st L s1 s2 ev s1' :
  agree (live_stmt st L) s1 s2 -> exec_stmt st s1 ev s1' ->
  exists s2', exec_stmt st s2 ev s2' /\ agree L s1' s2'.
Proof.
  intros A X.
  assert (U : is_unreach st = false) by (destruct X; reflexivity).
  pose proof (agree_live_uses st L s1 s2 U A) as AU.
  pose proof (agree_live_rest st L s1 s2 U A) as AR.
  destruct X; simpl in AU, AR.
  - (* assign *)
    eexists. split; [constructor|].
    rewrite (eval_le_agree e s s2 AU). apply agree_upd. exact AR.
  - (* arith *)
    destruct (binop_agree _ _ _ _ AU) as [E1 E2].
    exists (upd s2 x v). split; [constructor; rewrite <- E1, <- E2; auto|].
    apply agree_upd. exact AR.
  - (* bit *)
    destruct (binop_agree _ _ _ _ AU) as [E1 E2].
    exists (upd s2 x v). split; [constructor; rewrite <- E1, <- E2; auto|].
    apply agree_upd. exact AR.
  - (* assume *)
    exists s2. split; [constructor; rewrite <- (satb_agree c s s2 AU); auto|].
    intros x Hx. apply AR. apply diff_In. simpl. tauto.
  - (* assert *)
    exists s2. split; [constructor; rewrite <- (satb_agree c s s2 AU); auto|].
    intros x Hx. apply AR. apply diff_In. simpl. tauto.
  - (* havoc *)
    exists (upd s2 x v). split; [constructor|]. apply agree_upd. exact AR.
  - (* select *)
    eexists. split; [constructor|].
    pose proof (agree_app_l _ _ _ _ AU) as A1. pose proof (agree_app_r _ _ _ _ AU) as A23.
    pose proof (agree_app_l _ _ _ _ A23) as A2. pose proof (agree_app_r _ _ _ _ A23) as A3.
    rewrite (satb_agree c s s2 A1), (eval_le_agree e1 s s2 A2), (eval_le_agree e2 s s2 A3).
    apply agree_upd. exact AR.
Qed.

Definition live_at (P : cfg) (m : lmap) (l : label) (rest : list stmt) : vset :=
  live_stmts rest (live_out P m l).

Inductive sim (P : cfg) (m : lmap) : config -> config -> Prop :=
| SimRun l rest s1 s2 : agree (live_at P m l rest) s1 s2 -> sim P m (Run l rest s1) (Run l rest s2)
| SimDone : sim P m Done Done
| SimErr : sim P m Err Err.

Lemma live_in_succ P m l l' b' x :
  is_solution P m -> In l' (succs P l) -> get_block P l' = Some b' ->
  In x (live_at P m l' (b_stmts b')) -> In x (live_out P m l).
Proof.
  intros HS Hl Hb Hx. apply live_out_In. right. exists l'. split; auto.
  apply HS. rewrite in_of_step_in, Hb. apply analyze_spec. exact Hx.
Qed.

Lemma step_sim P m c1 c2 ev c1' :
  is_solution P m -> sim P m c1 c2 -> step P c1 ev c1' ->
  exists c2', step P c2 ev c2' /\ sim P m c1' c2'.
Proof.
  intros HS S St. destruct St as [l st r s ev s' X | l c id r s F | l l' b' s Hl Hb | l s He];
    inversion S as [l0 rest0 s1 s2 A| |]; subst; unfold live_at in A; simpl in A.
  - (* statement *)
    destruct (exec_stmt_agree _ _ _ _ _ _ A X) as [s2' [X2 A2]].
    exists (Run l r s2'). split; constructor; auto.
  - (* failing assertion *)
    assert (AU : agree (lc_vars c) s s2) by (apply (agree_live_uses (SAssert c id) _ _ _ eq_refl A)).
    exists Err. split; constructor. rewrite <- (satb_agree c s s2 AU). auto.
  - (* goto *)
    exists (Run l' (b_stmts b') s2). split; [constructor; auto|]. constructor.
    intros x Hx. apply A. eapply live_in_succ; eauto.
  - (* exit *)
    exists Done. split; [|constructor].
    rewrite (agree_exit_outs P m l s s2 He A). constructor. auto.
Qed.

Lemma star_sim P m c1 c2 tr c1' :
  is_solution P m -> sim P m c1 c2 -> star P c1 tr c1' ->
  exists c2', star P c2 tr c2' /\ sim P m c1' c2'.
Proof.
  intros HS S St. revert c2 S. induction St; intros c2 S.
  - exists c2. split; auto. constructor.
  - destruct (step_sim _ _ _ _ _ _ HS S H) as [c2' [St2 S2]].
    destruct (IHSt _ S2) as [c2'' [St3 S3]].
    exists c2''. split; auto. econstructor; eauto.
Qed.

Lemma sim_sym P m c1 c2 : sim P m c1 c2 -> sim P m c2 c1.
Proof. intros H. inversion H; subst; constructor. apply agree_sym. auto. Qed.

Lemma agree_upd_dead L s x v : ~ In x L -> agree L s (upd s x v).
Proof. intros H y Hy. unfold upd. destruct (N.eqb_spec y x); auto. subst. contradiction. Qed.

(* Non-interference: x not live at the end of b; changing x there gives, for every execution,
   an execution with the same branches, assume / assertion outcomes and outputs at exit
   that ends in a configuration of the same kind (same point, stores equal on the live variables). *)
Theorem liveness_noninterference P m b x v s tr c1 :
  liveness P = Some m -> ~ In x (live_get P m b) ->
  star P (at_end b s) tr c1 ->
  exists c2, star P (at_end b (upd s x v)) tr c2 /\ sim P m c1 c2.
Proof.
  intros HL Hx St. apply liveness_is_solution in HL.
  eapply star_sim; eauto. constructor. unfold live_at; simpl. apply agree_upd_dead. exact Hx.
Qed.

(* both directions: the two stores have exactly the same observable behaviours *)
Theorem liveness_same_traces P m b x v s tr :
  liveness P = Some m -> ~ In x (live_get P m b) ->
  ((exists c, star P (at_end b s) tr c) <-> (exists c, star P (at_end b (upd s x v)) tr c)) /\
  (star P (at_end b s) tr Done <-> star P (at_end b (upd s x v)) tr Done) /\
  (star P (at_end b s) tr Err <-> star P (at_end b (upd s x v)) tr Err).
Proof.
  intros HL Hx. pose proof (liveness_is_solution _ _ HL) as HS.
  assert (S0 : sim P m (at_end b s) (at_end b (upd s x v))).
  { constructor. unfold live_at; simpl. apply agree_upd_dead. exact Hx. }
  pose proof (sim_sym _ _ _ _ S0) as S1.
  repeat split.
  - intros [c St]. destruct (star_sim _ _ _ _ _ _ HS S0 St) as [c2 [? _]]. eauto.
  - intros [c St]. destruct (star_sim _ _ _ _ _ _ HS S1 St) as [c2 [? _]]. eauto.
  - intros St. destruct (star_sim _ _ _ _ _ _ HS S0 St) as [c2 [? Sc]]. inversion Sc; subst; auto.
  - intros St. destruct (star_sim _ _ _ _ _ _ HS S1 St) as [c2 [? Sc]]. inversion Sc; subst; auto.
  - intros St. destruct (star_sim _ _ _ _ _ _ HS S0 St) as [c2 [? Sc]]. inversion Sc; subst; auto.
  - intros St. destruct (star_sim _ _ _ _ _ _ HS S1 St) as [c2 [? Sc]]. inversion Sc; subst; auto.
Qed.

(* what dead_exit reports is not live *)
Lemma dead_exit_not_live P m b x : In x (dead_exit P m b) -> ~ In x (live_get P m b).
Proof.
  unfold dead_exit, live_get. destruct (is_empty (live_out P m b)); simpl; [tauto|].
  rewrite diff_In. tauto.
Qed.

Theorem dead_exit_noninterference P m b x v s tr c1 :
  liveness P = Some m -> In x (dead_exit P m b) ->
  star P (at_end b s) tr c1 ->
  exists c2, star P (at_end b (upd s x v)) tr c2 /\ sim P m c1 c2.
Proof.
  intros HL Hx. eapply liveness_noninterference; eauto. apply dead_exit_not_live. exact Hx.
Qed.

(* b0: x := 5; goto b1, b2.   b1: assert(x <= 0); unreachable.   b2 (exit): y := x   (output y) *)
Definition ex_cfg : cfg :=
  mkCfg 0%N (Some 2%N)
        [(0%N, mkBlock [SAssign 0%N (mkLE [] 5%Z)] [] [1%N; 2%N]);
         (1%N, mkBlock [SAssert (mkLC INEQ (mkLE [(1%Z, 0%N)] 0%Z)) 1%N; SUnreach] [0%N] []);
         (2%N, mkBlock [SAssign 1%N (mkLE [(1%Z, 0%N)] 0%Z)] [0%N] [])]
        [1%N].

Example ex_liveness_defined : exists m, liveness ex_cfg = Some m /\
  live_get ex_cfg m 0%N = [0%N] /\          (* x is live at the end of b0 (the assertion of b1 reads it) *)
  live_get ex_cfg m 2%N = [1%N] /\          (* the output is live at the end of the exit block *)
  dead_exit ex_cfg m 2%N = [0%N] /\         (* x is dead there *)
  ~ In 0%N (live_get ex_cfg m 2%N).
Proof.
  eexists. split; [vm_compute; reflexivity|]. vm_compute.
  repeat split; auto. intros [H|[]]. discriminate.
Qed.

(* the hypotheses of the theorem are met by an execution that really continues: from the end of
   b0 with x = 5 the execution goes to the exit block and returns y = 5 *)
Example ex_execution :
  star ex_cfg (at_end 0%N (fun _ => 5%Z)) [EvGoto 2%N; EvExit [5%Z]] Done.
Proof.
  change [EvGoto 2%N; EvExit [5%Z]] with ([EvGoto 2%N] ++ [] ++ [EvExit [5%Z]] ++ []).
  eapply StarStep.
  - eapply (StGoto ex_cfg 0%N 2%N); [vm_compute; auto|vm_compute; reflexivity].
  - simpl b_stmts. eapply StarStep; [apply StStmt; apply XAssign|].
    eapply StarStep; [|apply StarRefl].
    assert (E : [5%Z] = map (upd (fun _ : var => 5%Z) 1%N (eval_le (mkLE [(1%Z, 0%N)] 0%Z) (fun _ => 5%Z))) (c_outs ex_cfg))
      by (vm_compute; reflexivity).
    rewrite E. apply StExit. reflexivity.
Qed.
