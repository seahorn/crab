(* CrawlerSound.v — soundness of the assertion crawler model for data dependences.

   Paths: [spath P l rest pi] says that the statement sequence pi can be traversed in the CFG
   from the program point "block l, remaining statements rest" (falling through the end of a
   block into any successor).  [run_path pi hv s] executes such a sequence on store s as pure
   data flow: assume / assert do not filter (so every graph path is covered, feasible or not),
   havoc takes its values from the list hv, division by zero and `unreachable` have no result.

   Theorem: if the sequence pi ++ [assert(c) a] can be traversed from the entry of block l and pi
   contains no `unreachable`, then assertion a is listed at l, and two stores that agree on the
   variables listed for a give, along pi with the same havoc values, the same value of c.
   Hence every variable whose value at the entry of l can flow into the condition is listed.
   Control dependences only add variables (the proof uses nothing else about them). *)
From Coq Require Import ZArith List Bool Lia.
From CrabV Require Import Ir.Syntax Ana.CfgSem Ana.Crawler.
Import ListNotations.

Inductive spath (P : cfg) : label -> list stmt -> list stmt -> Prop :=
| sp_nil l rest : spath P l rest []
| sp_stmt l st rest pi : spath P l rest pi -> spath P l (st :: rest) (st :: pi)
| sp_goto l l' b' pi : In l' (succs P l) -> get_block P l' = Some b' ->
                       spath P l' (b_stmts b') pi -> spath P l [] pi.

Definition run_stmt (st : stmt) (hv : list Z) (s : store) : option (store * list Z) :=
  match st with
  | SAssign x e => Some (upd s x (eval_le e s), hv)
  | SArith op x y z => match arith_sem op (s y) (operand_val z s) with
                       | Some v => Some (upd s x v, hv) | None => None end
  | SBit op x y z => match bit_sem op (s y) (operand_val z s) with
                     | Some v => Some (upd s x v, hv) | None => None end
  | SAssume _ | SAssert _ _ => Some (s, hv)
  | SHavoc x => match hv with v :: r => Some (upd s x v, r) | [] => None end
  | SSelect x c e1 e2 => Some (upd s x (if satb c s then eval_le e1 s else eval_le e2 s), hv)
  | SUnreach => None
  end.

Fixpoint run_path (pi : list stmt) (hv : list Z) (s : store) : option store :=
  match pi with
  | [] => Some s
  | st :: r => match run_stmt st hv s with
               | Some (s', hv') => run_path r hv' s'
               | None => None
               end
  end.

Definition fle (A B : fmap) : Prop :=
  forall a V, lookup a A = Some V -> exists W, lookup a B = Some W /\ incl V W.

Lemma fle_refl A : fle A A.
Proof. intros a V H. exists V. split; [exact H|apply incl_refl]. Qed.
Lemma fle_trans A B C : fle A B -> fle B C -> fle A C.
Proof.
  intros H1 H2 a V H. destruct (H1 _ _ H) as [W [HW I1]]. destruct (H2 _ _ HW) as [U [HU I2]].
  exists U. split; [exact HU|exact (incl_tran I1 I2)].
Qed.

Lemma lookup_fadd_same a v m :
  lookup a (fadd a v m) = Some (match lookup a m with Some w => union v w | None => v end).
Proof.
  induction m as [|[k w] r IH]; simpl.
  - rewrite N.eqb_refl. auto.
  - destruct (N.eqb_spec a k); simpl.
    + subst. rewrite N.eqb_refl. auto.
    + destruct (N.eqb_spec a k); [contradiction|]. exact IH.
Qed.
Lemma lookup_fadd_other a b v m : a <> b -> lookup b (fadd a v m) = lookup b m.
Proof.
  intros Hab. induction m as [|[k w] r IH]; simpl.
  - destruct (N.eqb_spec b a); [congruence|auto].
  - destruct (N.eqb_spec a k); simpl.
    + subst. destruct (N.eqb_spec b k); [congruence|auto].
    + destruct (N.eqb_spec b k); auto.
Qed.

Lemma fle_fadd a v m : fle m (fadd a v m).
Proof.
  intros b V H. destruct (N.eq_dec a b) as [->|Hab].
  - rewrite lookup_fadd_same, H. eexists. split; [reflexivity|]. intros x Hx. apply union_In; auto.
  - rewrite lookup_fadd_other by auto. exists V. split; [exact H|apply incl_refl].
Qed.

Lemma fle_fjoin_r A B : fle B (fjoin A B).
Proof.
  induction A as [|[k v] A IH]; simpl; [apply fle_refl|].
  eapply fle_trans; [exact IH|apply fle_fadd].
Qed.
Lemma fle_fjoin_l A B : fle A (fjoin A B).
Proof.
  induction A as [|[k v] A IH]; intros a V H; simpl in *; [discriminate|].
  destruct (N.eqb_spec a k) as [->|NE].
  - injection H as ->. rewrite lookup_fadd_same. eexists. split; [reflexivity|]. intros x Hx.
    destruct (lookup k (fjoin A B)); [apply union_In|]; auto.
  - rewrite lookup_fadd_other by auto. exact (IH _ _ H).
Qed.

Lemma fleq_fle A B : fleq A B = true -> fle A B.
Proof.
  unfold fleq. rewrite forallb_forall. intros H a V E.
  apply lookup_In in E. specialize (H _ E). simpl in H.
  destruct (lookup a B) as [w|]; [|discriminate]. exists w. split; [reflexivity|].
  exact (proj1 (subset_spec _ _) H).
Qed.

Lemma lookup_map_key (g : N * vset -> N * vset) (a : N) (m : list (N * vset)) :
  (forall kv, fst (g kv) = fst kv) ->
  lookup a (map g m) = match lookup a m with Some v => Some (snd (g (a, v))) | None => None end.
Proof.
  intros Hg. induction m as [|[k w] r IH]; [reflexivity|].
  cbn [map lookup]. pose proof (Hg (k, w)) as E.
  destruct (g (k, w)) as [k' w'] eqn:G. simpl in E. subst k'.
  destruct (N.eqb_spec a k) as [e|e]; [|exact IH]. subst a. cbv beta iota. rewrite G. reflexivity.
Qed.

Lemma lookup_map_vals f a m :
  lookup a (map_vals f m) = match lookup a m with Some v => Some (f v) | None => None end.
Proof.
  unfold map_vals. rewrite (lookup_map_key (fun kv => (fst kv, f (snd kv)))); auto.
Qed.

Lemma crawl_out_ge P m l l' : In l' (succs P l) -> fle (cin_of m l') (crawl_out P m l).
Proof.
  unfold crawl_out. induction (succs P l) as [|a r IH]; simpl; [tauto|].
  intros [->|H].
  - apply fle_fjoin_l.
  - eapply fle_trans; [apply IH; auto|apply fle_fjoin_r].
Qed.

Lemma intersects_spec A B : intersects A B = true <-> exists x, In x A /\ In x B.
Proof.
  unfold intersects. rewrite negb_true_iff. split.
  - intros H. destruct (inter A B) as [|x r] eqn:E; [discriminate|].
    exists x. apply inter_In. rewrite E. simpl; auto.
  - intros [x Hx]. apply inter_In in Hx. destruct (inter A B); [contradiction|auto].
Qed.

(* what add_data_deps keeps and what it adds, for any uses u and defs d: a listed variable that
   is not defined stays, and a listed variable that is defined brings in all of u *)
Lemma data_deps_spec u d v x :
  In x v -> (~ In x d -> In x (data_deps u d v)) /\ (In x d -> incl u (data_deps u d v)).
Proof.
  intros Hx. unfold data_deps.
  set (v1 := if is_empty d && negb (is_empty u) && intersects u v then union v u else v).
  assert (H1 : In x v1) by (unfold v1; destruct (_ && _); [apply union_In|]; auto).
  split; intros Hd.
  - destruct (intersects v1 d); [apply union_In; left; apply diff_In|]; auto.
  - assert (I : intersects v1 d = true) by (apply intersects_spec; eauto).
    rewrite I. intros y Hy. apply union_In; auto.
Qed.

Lemma remove_deps_keeps x v y : In y v -> y <> x -> In y (remove_deps x v).
Proof.
  intros Hy NE. unfold remove_deps. destruct (intersects v [x]); [apply diff_In|]; auto.
  split; [exact Hy|]. intros [E|[]]. congruence.
Qed.

Lemma ctrl_deps_ge cx prevs u m : fle m (ctrl_deps cx prevs u m).
Proof.
  unfold ctrl_deps. revert m. induction prevs as [|p r IH]; simpl; intros m; [apply fle_refl|].
  destruct (is_empty (cdg_get (x_cdg cx) p)); [apply IH|].
  eapply fle_trans; [|apply IH]. intros a V H.
  rewrite lookup_map_key, H.
  - eexists. split; [reflexivity|]. simpl.
    destruct (x_ablk cx a); [|apply incl_refl]. destruct (mem _ _); [|apply incl_refl].
    intros x Hx. apply union_In; auto.
  - intros kv. destruct (x_ablk cx (fst kv)); [|reflexivity]. destruct (mem _ _); reflexivity.
Qed.

(* the havoc values left after a statement *)
Definition hv_after (st : stmt) (hv : list Z) : list Z :=
  match st, hv with SHavoc _, _ :: r => r | _, _ => hv end.

(* a statement writes its defs only *)
Lemma run_stmt_frame st hv s s' h :
  run_stmt st hv s = Some (s', h) -> h = hv_after st hv /\ forall x, ~ In x (defs st) -> s' x = s x.
Proof.
  assert (U : forall y v x, ~ In x [y] -> upd s y v x = s x).
  { intros y v x N. unfold upd. destruct (N.eqb_spec x y); [subst; exfalso; apply N; left|]; auto. }
  destruct st; cbn [run_stmt defs hv_after].
  - intros [= <- <-]. auto.
  - destruct (arith_sem _ _ _); [|discriminate]. intros [= <- <-]. auto.
  - destruct (bit_sem _ _ _); [|discriminate]. intros [= <- <-]. auto.
  - intros [= <- <-]. auto.
  - intros [= <- <-]. auto.
  - destruct hv; [discriminate|]. intros [= <- <-]. auto.
  - intros [= <- <-]. auto.
  - discriminate.
Qed.

Lemma agree_upd_same x s1 s2 v : agree [x] (upd s1 x v) (upd s2 x v).
Proof. intros y [<-|[]]. unfold upd. rewrite N.eqb_refl. reflexivity. Qed.

(* what it writes depends on its uses only *)
Lemma run_stmt_defs st hv s1 s2 s1' s2' h1 h2 :
  agree (uses st) s1 s2 ->
  run_stmt st hv s1 = Some (s1', h1) -> run_stmt st hv s2 = Some (s2', h2) -> agree (defs st) s1' s2'.
Proof.
  intros A. destruct st; cbn [run_stmt uses defs] in *.
  - rewrite <- (eval_le_agree e s1 s2 A). intros [= <- _] [= <- _]. apply agree_upd_same.
  - rewrite <- (A y (or_introl eq_refl)), <- (operand_val_agree z s1 s2 (fun w Hw => A w (or_intror Hw))).
    destruct (arith_sem _ _ _); [|discriminate]. intros [= <- _] [= <- _]. apply agree_upd_same.
  - rewrite <- (A y (or_introl eq_refl)), <- (operand_val_agree z s1 s2 (fun w Hw => A w (or_intror Hw))).
    destruct (bit_sem _ _ _); [|discriminate]. intros [= <- _] [= <- _]. apply agree_upd_same.
  - intros _ _ x [].
  - intros _ _ x [].
  - destruct hv; [discriminate|]. intros [= <- _] [= <- _]. apply agree_upd_same.
  - rewrite <- (satb_agree c s1 s2), <- (eval_le_agree e1 s1 s2), <- (eval_le_agree e2 s1 s2)
      by (intros w Hw; apply A; rewrite !in_app_iff; auto).
    intros [= <- _] [= <- _]. apply agree_upd_same.
  - discriminate.
Qed.

Definition step_ok (st : stmt) (V V1 : vset) : Prop :=
  forall s1 s2 hv s1' s2' h1 h2,
    agree V s1 s2 -> run_stmt st hv s1 = Some (s1', h1) -> run_stmt st hv s2 = Some (s2', h2) ->
    agree V1 s1' s2' /\ h1 = h2.

(* V is enough before st for V1 after it when it holds the undefined variables of V1 and, if a
   variable of V1 is defined, the uses of st *)
Lemma step_ok_deps st V V1 :
  (forall x, In x V1 -> (~ In x (defs st) -> In x V) /\ (In x (defs st) -> incl (uses st) V)) ->
  step_ok st V V1.
Proof.
  intros I s1 s2 hv s1' s2' h1 h2 A R1 R2.
  destruct (run_stmt_frame _ _ _ _ _ R1) as [-> F1]. destruct (run_stmt_frame _ _ _ _ _ R2) as [-> F2].
  split; [|reflexivity].
  intros x Hx. destruct (I x Hx) as [I1 I2]. destruct (in_dec N.eq_dec x (defs st)) as [d|nd].
  - refine (run_stmt_defs _ _ _ _ _ _ _ _ _ R1 R2 x d). intros y Hy. apply A. exact (I2 d y Hy).
  - rewrite (F1 x nd), (F2 x nd). auto.
Qed.

Lemma step_ok_mono st V W V1 : incl V W -> step_ok st V V1 -> step_ok st W V1.
Proof. intros I OK s1 s2 hv s1' s2' h1 h2 A. exact (OK _ _ _ _ _ _ _ (agree_mono _ _ _ _ I A)). Qed.

Lemma crawl_stmt_step cx prevs st m a V1 :
  st <> SUnreach -> lookup a m = Some V1 ->
  exists V, lookup a (crawl_stmt cx prevs st m) = Some V /\ step_ok st V V1.
Proof.
  intros NU H.
  assert (D : exists V, lookup a (map_vals (data_deps (uses st) (defs st)) m) = Some V /\ step_ok st V V1).
  { rewrite lookup_map_vals, H. eexists. split; [reflexivity|].
    apply step_ok_deps. intros x. apply data_deps_spec. }
  destruct st; try exact D.
  - (* assume: the control dependences only add *)
    destruct D as [V [HV OK]]. destruct (ctrl_deps_ge cx prevs (lc_vars c) _ _ _ HV) as [W [HW I]].
    exists W. split; [exact HW|exact (step_ok_mono _ _ _ _ I OK)].
  - (* assert *)
    destruct (fle_fadd id (lc_vars c) m _ _ H) as [W [HW I]].
    exists W. split; [exact HW|]. apply step_ok_deps. intros x Hx. split; [intros _; exact (I x Hx)|intros []].
  - (* havoc *)
    simpl. rewrite lookup_map_vals, H. eexists. split; [reflexivity|].
    apply step_ok_deps. intros y Hy. split; [|intros _ z []].
    intros N. apply remove_deps_keeps; [exact Hy|]. intros ->. apply N. left. reflexivity.
  - congruence.
Qed.

Definition cpost (P : cfg) (cx : ctx) (m : cmap) : Prop :=
  forall l b, get_block P l = Some b ->
              fle (crawl_stmts cx (preds P l) (b_stmts b) (crawl_out P m l)) (cin_of m l).

Definition relevant (V : vset) (pi : list stmt) (c : lincst) : Prop :=
  forall s1 s2 hv s1' s2',
    agree V s1 s2 -> run_path pi hv s1 = Some s1' -> run_path pi hv s2 = Some s2' ->
    eval_le (lc_exp c) s1' = eval_le (lc_exp c) s2'.

Lemma relevant_mono V W pi c : incl V W -> relevant V pi c -> relevant W pi c.
Proof. intros I R s1 s2 hv s1' s2' A. exact (R _ _ _ _ _ (agree_mono _ _ _ _ I A)). Qed.

Lemma relevant_cons st V V1 pi c : step_ok st V V1 -> relevant V1 pi c -> relevant V (st :: pi) c.
Proof.
  intros OK R s1 s2 hv s1' s2' A X1 X2. simpl in X1, X2.
  destruct (run_stmt st hv s1) as [[t1 h1]|] eqn:E1; [|discriminate].
  destruct (run_stmt st hv s2) as [[t2 h2]|] eqn:E2; [|discriminate].
  destruct (OK _ _ _ _ _ _ _ A E1 E2) as [A' ->]. exact (R _ _ _ _ _ A' X1 X2).
Qed.

Lemma crawl_path P cx m :
  cpost P cx m ->
  forall l rest pi', spath P l rest pi' ->
  forall pi c a, pi' = pi ++ [SAssert c a] -> ~ In SUnreach pi ->
  exists V, lookup a (crawl_stmts cx (preds P l) rest (crawl_out P m l)) = Some V /\ relevant V pi c.
Proof.
  intros HP l rest pi' SP. induction SP as [l rest | l st rest pi0 SP IH | l l' b' pi0 Hl Hb SP IH];
    intros pi c a E NU.
  - destruct pi; discriminate.
  - destruct pi as [|st' pi1]; simpl in E; inversion E; subst.
    + (* the assertion itself *)
      simpl. rewrite lookup_fadd_same. eexists. split; [reflexivity|].
      intros s1 s2 hv s1' s2' A R1 R2. simpl in R1, R2. inversion R1; inversion R2; subst.
      apply eval_le_agree. intros x Hx. apply A.
      destruct (lookup a _); [apply union_In; left|]; exact Hx.
    + destruct (IH pi1 c a eq_refl) as [V1 [H1 R1]].
      { intros X. apply NU. simpl; auto. }
      assert (N1 : st' <> SUnreach) by (intros ->; apply NU; simpl; auto).
      destruct (crawl_stmt_step cx (preds P l) st' _ a V1 N1 H1) as [V [HV OK]].
      exists V. split; [exact HV|exact (relevant_cons _ _ _ _ _ OK R1)].
  - destruct (IH pi c a E NU) as [V1 [H1 R1]].
    destruct (HP _ _ Hb _ _ H1) as [W1 [HW1 I1]].
    destruct (crawl_out_ge P m l l' Hl _ _ HW1) as [W [HW I2]].
    exists W. split; [exact HW|]. exact (relevant_mono _ _ _ _ (incl_tran I1 I2) R1).
Qed.

Lemma csolve_post P cx fuel m0 m : csolve P cx fuel m0 = Some m -> cpost P cx m.
Proof.
  revert m0. induction fuel as [|f IH]; simpl; intros m0; [discriminate|].
  destruct (cleq (crawl_step P cx m0) m0) eqn:E; [|apply IH].
  intros H; inversion H; subst. intros l b Hb.
  unfold preds. rewrite Hb. apply fleq_fle. unfold cleq, crawl_step in E. rewrite forallb_forall in E.
  apply lookup_In in Hb.
  specialize (E (l, crawl_stmts cx (b_prev b) (b_stmts b) (crawl_out P m l))).
  apply E. apply (in_map (fun lb => (fst lb, crawl_stmts cx (b_prev (snd lb)) (b_stmts (snd lb)) (crawl_out P m (fst lb)))) _ _ Hb).
Qed.

(* Every assertion reachable from the entry of block l is listed at l, with (at least) the
   variables on which the value of its condition depends along the path. *)
Theorem crawler_sound P control nvars m l b pi c a :
  crawler P control nvars = Some m ->
  get_block P l = Some b ->
  spath P l (b_stmts b) (pi ++ [SAssert c a]) -> ~ In SUnreach pi ->
  exists V, lookup a (cin_of m l) = Some V /\ relevant V pi c.
Proof.
  intros HC Hb SP NU. apply csolve_post in HC.
  destruct (crawl_path P _ m HC _ _ _ SP pi c a eq_refl NU) as [V1 [H1 R1]].
  destruct (HC _ _ Hb _ _ H1) as [W [HW I]].
  exists W. split; [exact HW|exact (relevant_mono _ _ _ _ I R1)].
Qed.

(* a variable whose entry value changes the condition is listed *)
Corollary crawler_lists_flowing_variable P control nvars m l b pi c a V x s v hv s1 s2 :
  crawler P control nvars = Some m -> get_block P l = Some b ->
  spath P l (b_stmts b) (pi ++ [SAssert c a]) -> ~ In SUnreach pi ->
  lookup a (cin_of m l) = Some V ->
  run_path pi hv s = Some s1 -> run_path pi hv (upd s x v) = Some s2 ->
  eval_le (lc_exp c) s1 <> eval_le (lc_exp c) s2 -> In x V.
Proof.
  intros HC Hb SP NU HV R1 R2 NE.
  destruct (crawler_sound _ _ _ _ _ _ _ _ _ HC Hb SP NU) as [W [HW R]].
  rewrite HV in HW. injection HW as <-.
  destruct (in_dec N.eq_dec x V) as [i|n]; [exact i|]. exfalso. apply NE.
  apply (R s (upd s x v) hv s1 s2); auto.
  intros y Hy. unfold upd. destruct (N.eqb_spec y x); [subst; contradiction|reflexivity].
Qed.

(* b0: havoc z; goto b1.   b1: x := y + 1; assert(x <= 0) [id 7]; goto b0 *)
Definition ex_cfg : cfg :=
  mkCfg 0%N None
        [(0%N, mkBlock [SHavoc 2%N] [1%N] [1%N]);
         (1%N, mkBlock [SAssign 0%N (mkLE [(1%Z, 1%N)] 1%Z); SAssert (mkLC INEQ (mkLE [(1%Z, 0%N)] 0%Z)) 7%N] [0%N] [0%N])]
        [].

Example ex_crawler_defined : exists m, crawler ex_cfg true 3 = Some m /\
  cin_of m 0%N = [(7%N, [1%N])] /\ cin_of m 1%N = [(7%N, [1%N])].
Proof. eexists. split; [vm_compute; reflexivity|]. vm_compute. auto. Qed.

Example ex_spath : spath ex_cfg 0%N (stmts_of ex_cfg 0%N)
  ([SHavoc 2%N; SAssign 0%N (mkLE [(1%Z, 1%N)] 1%Z)] ++ [SAssert (mkLC INEQ (mkLE [(1%Z, 0%N)] 0%Z)) 7%N]).
Proof.
  vm_compute stmts_of. simpl app. apply sp_stmt.
  eapply (sp_goto ex_cfg 0%N 1%N); [vm_compute; auto|vm_compute; reflexivity|].
  simpl b_stmts. apply sp_stmt. apply sp_stmt. apply sp_nil.
Qed.
