(* SimplifyGen.v — cfg::simplify for an ARBITRARY statement language.

   cfg::simplify (cfg/cfg.hpp) never looks inside a statement: it only moves statement lists
   between blocks and edits the edge vectors.  This file gives the model of Ana/Simplify.v and
   proves its theorems (well-formedness and behaviour are preserved) inside a Section whose only
   parameters are

     stmt, store, sev, out, odecl : Type          statements, stores, statement events,
                                                  value observed at the exit, outputs declaration
     exec : stmt -> store -> list sev -> option store -> Prop
                                                  one statement: events emitted and either the next
                                                  store (Some) or the error configuration (None)
     obs_out : odecl -> store -> out              what is observed at the end of the exit block

   and NO hypothesis about them (no determinism, no totality, no frame property).  The
   structural part (CFG record, the passes, wf, keeps) depends on stmt and odecl only.
   Ana/SimplifyGenInst.v shows that Ana/Simplify.v is the instance at the numeric language of
   Ana/CfgSem.v and obtains the theorems about it from the ones below. *)
From Coq Require Import ZArith List Bool Lia.
From CrabV Require Import Ir.Syntax Ana.CfgSem.
Import ListNotations.

(* Only label, vset, mem, union, subset, lookup (and their lemmas) of CfgSem are used below; every
   other name of CfgSem (block, cfg, succs, step, ...) is shadowed by its generic version. *)

Section Gen.
Variables stmt store sev out odecl : Type.
Variable exec : stmt -> store -> list sev -> option store -> Prop.
Variable obs_out : odecl -> store -> out.

Record block := mkBlock { b_stmts : list stmt; b_prev : list label; b_next : list label }.

Record cfg := mkCfg {
  c_entry : label;
  c_exit : option label;
  c_blocks : list (label * block);
  c_outs : odecl               (* outputs of the function declaration *)
}.

Definition get_block (P : cfg) (l : label) : option block := lookup l (c_blocks P).
Definition stmts_of (P : cfg) (l : label) : list stmt :=
  match get_block P l with Some b => b_stmts b | None => [] end.
Definition succs (P : cfg) (l : label) : list label :=
  match get_block P l with Some b => b_next b | None => [] end.
Definition preds (P : cfg) (l : label) : list label :=
  match get_block P l with Some b => b_prev b | None => [] end.
Definition labels (P : cfg) : list label := map fst (c_blocks P).
Definition is_exit (P : cfg) (l : label) : bool :=
  match c_exit P with Some e => N.eqb l e | None => false end.

(* the passes (as Ana/Simplify.v) *)
Definition remove_adjacent (c : list label) (e : label) : list label :=
  filter (fun x => negb (N.eqb x e)) c.
Definition insert_adjacent (c : list label) (e : label) : list label :=
  if mem e c then c else c ++ [e].

Definition map_block (f : label -> block -> block) (P : cfg) : cfg :=
  mkCfg (c_entry P) (c_exit P) (map (fun lb => (fst lb, f (fst lb) (snd lb))) (c_blocks P)) (c_outs P).

(* cfg::remove(b), b neither entry nor exit *)
Definition remove_block (P : cfg) (b : label) : cfg :=
  mkCfg (c_entry P) (c_exit P)
        (map (fun lb => (fst lb, mkBlock (b_stmts (snd lb)) (remove_adjacent (b_prev (snd lb)) b)
                                         (remove_adjacent (b_next (snd lb)) b)))
             (filter (fun lb => negb (N.eqb (fst lb) b)) (c_blocks P)))
        (c_outs P).

(* a >> b *)
Definition add_edge (P : cfg) (a b : label) : cfg :=
  map_block (fun l blk =>
    mkBlock (b_stmts blk)
            (if N.eqb l b then insert_adjacent (b_prev blk) a else b_prev blk)
            (if N.eqb l a then insert_adjacent (b_next blk) b else b_next blk)) P.

(* parent.copy_back(cur) *)
Definition copy_back (P : cfg) (parent : label) (ss : list stmt) : cfg :=
  map_block (fun l blk => if N.eqb l parent then mkBlock (b_stmts blk ++ ss) (b_prev blk) (b_next blk) else blk) P.

Definition set_exit (P : cfg) (e : label) : cfg := mkCfg (c_entry P) (Some e) (c_blocks P) (c_outs P).

(* the folding step of merge_blocks_rec *)
Definition fold_into_parent (P : cfg) (cur parent child : label) (cb : block) : cfg :=
  let P1 := copy_back P parent (b_stmts cb) in
  let P2 := if is_exit P1 cur then set_exit P1 parent else P1 in
  let P3 := remove_block P2 cur in
  add_edge P3 parent child.

Definition has_one (c : list label) : bool := match c with [_] => true | _ => false end.

(* for (n : cur.next_blocks()) rec(n) *)
Fixpoint visit_list (rec : cfg -> vset -> label -> option (cfg * vset)) (ns : list label)
         (st : cfg * vset) : option (cfg * vset) :=
  match ns with
  | [] => Some st
  | n :: r => match rec (fst st) (snd st) n with
              | None => None
              | Some st' => visit_list rec r st'
              end
  end.

Fixpoint merge_rec (fuel : nat) (P : cfg) (visited : vset) (cur : label) {struct fuel}
  : option (cfg * vset) :=
  match fuel with
  | O => None
  | S f =>
    if mem cur visited then Some (P, visited)
    else
      let visited := cur :: visited in
      match get_block P cur with
      | None => None
      | Some cb =>
        let visit_children := visit_list (merge_rec f) (b_next cb) (P, visited) in
        match b_next cb, b_prev cb with
        | [child], [parent] =>
          match get_block P parent with
          | None => None
          | Some pb =>
            if negb (N.eqb cur (c_entry P)) && negb (is_exit P parent) && has_one (b_next pb) then
              merge_rec f (fold_into_parent P cur parent child cb)
                        (remove_adjacent visited cur) child
            else visit_children
          end
        | _, _ => visit_children
        end
      end
  end.

Definition merge_fuel (P : cfg) : nat := S (S (2 * length (c_blocks P))).

Definition merge_blocks (P : cfg) : option cfg :=
  match merge_rec (merge_fuel P) P [] (c_entry P) with
  | Some (P', _) => Some P'
  | None => None
  end.

(* mark_alive_blocks: reachability through `next` from a root *)
Fixpoint closure (next : label -> list label) (fuel : nat) (S : vset) : vset :=
  match fuel with
  | O => S
  | Datatypes.S n => closure next n (fold_right (fun l acc => union (next l) acc) S S)
  end.

(* the fuel (number of blocks) always suffices; the model validates the result (closed under
   `next`) so that the theorems need no counting argument: should the validation fail (it never
   does) every block counts as marked and nothing is removed *)
Definition closedb (next : label -> list label) (S : vset) : bool :=
  forallb (fun l => subset (next l) S) S.
Definition marked (P : cfg) (next : label -> list label) (root : label) : vset :=
  let S := closure next (length (c_blocks P)) [root] in
  if closedb next S then S else root :: labels P.

Definition alive (P : cfg) : vset := marked P (succs P) (c_entry P).
Definition useful (P : cfg) (e : label) : vset := marked P (preds P) e.

Definition remove_all (P : cfg) (bs : list label) : cfg := fold_left remove_block bs P.

Definition remove_unreachable_blocks (P : cfg) : cfg :=
  let al := alive P in
  remove_all P (filter (fun l => negb (mem l al) && negb (is_exit P l)) (labels P)).

Definition remove_useless_blocks (P : cfg) : cfg :=
  match c_exit P with
  | None => P
  | Some e =>
    let us := useful P e in
    remove_all P (filter (fun l => negb (mem l us) && negb (N.eqb l (c_entry P))) (labels P))
  end.

Definition simplify (P : cfg) : option cfg :=
  match merge_blocks P with
  | None => None
  | Some P1 => merge_blocks (remove_useless_blocks (remove_unreachable_blocks P1))
  end.

Inductive event :=
| EvStmt (e : sev)                  (* event of a statement (condition evaluated, assertion outcome, ...) *)
| EvGoto (l : label)                (* branch taken *)
| EvExit (o : out).                 (* end of the exit block: the observation of the final store *)

Inductive config :=
| Run (l : label) (rest : list stmt) (s : store)
| Done
| Err.

Inductive step (P : cfg) : config -> list event -> config -> Prop :=
| StStmt l st r s ev s' : exec st s ev (Some s') -> step P (Run l (st :: r) s) (map EvStmt ev) (Run l r s')
| StFail l st r s ev : exec st s ev None -> step P (Run l (st :: r) s) (map EvStmt ev) Err
| StGoto l l' b' s : In l' (succs P l) -> get_block P l' = Some b' ->
                     step P (Run l [] s) [EvGoto l'] (Run l' (b_stmts b') s)
| StExit l s : c_exit P = Some l -> step P (Run l [] s) [EvExit (obs_out (c_outs P) s)] Done.

Inductive star (P : cfg) : config -> list event -> config -> Prop :=
| StarRefl c : star P c [] c
| StarStep c ev c' tr c'' : step P c ev c' -> star P c' tr c'' -> star P c (ev ++ tr) c''.

Lemma star_one P c ev c' : step P c ev c' -> star P c ev c'.
Proof. intros H. rewrite <- (app_nil_r ev). eapply StarStep; eauto. constructor. Qed.
Lemma star_trans P c1 t1 c2 t2 c3 : star P c1 t1 c2 -> star P c2 t2 c3 -> star P c1 (t1 ++ t2) c3.
Proof.
  induction 1; simpl; auto. intros H2. rewrite <- app_assoc. eapply StarStep; eauto.
Qed.

(* for building executions of concrete CFGs *)
Lemma star_stmt P l st r s ev s' tr c :
  exec st s ev (Some s') -> star P (Run l r s') tr c ->
  star P (Run l (st :: r) s) (map EvStmt ev ++ tr) c.
Proof. intros X. apply StarStep. apply StStmt. exact X. Qed.
Lemma star_goto P l l' b' s tr c :
  In l' (succs P l) -> get_block P l' = Some b' -> star P (Run l' (b_stmts b') s) tr c ->
  star P (Run l [] s) (EvGoto l' :: tr) c.
Proof. intros H1 H2. apply (StarStep P _ [EvGoto l']). apply StGoto; auto. Qed.

Definition init (P : cfg) (s : store) : config := Run (c_entry P) (stmts_of P (c_entry P)) s.

Lemma remove_adjacent_In c e x : In x (remove_adjacent c e) <-> In x c /\ x <> e.
Proof.
  unfold remove_adjacent. rewrite filter_In, negb_true_iff, N.eqb_neq. tauto.
Qed.
Lemma insert_adjacent_In c e x : In x (insert_adjacent c e) <-> In x c \/ x = e.
Proof.
  unfold insert_adjacent. destruct (mem e c) eqn:M.
  - apply mem_In in M. split; auto. intros [?| ->]; auto.
  - rewrite in_app_iff. simpl. split; intros [?|?]; auto. destruct H; auto. contradiction.
Qed.
Lemma remove_adjacent_notin c e : ~ In e c -> remove_adjacent c e = c.
Proof.
  unfold remove_adjacent. induction c as [|a r IH]; simpl; auto. intros H.
  destruct (N.eqb_spec a e); [subst; exfalso; auto|]. simpl. f_equal. auto.
Qed.

Lemma get_block_In_labels P l b : get_block P l = Some b -> In l (labels P).
Proof. apply lookup_Some_In. Qed.
Lemma labels_get_block P l : In l (labels P) -> exists b, get_block P l = Some b.
Proof.
  unfold get_block, labels. intros H. destruct (lookup l (c_blocks P)) eqn:E; eauto.
  apply lookup_None in E. contradiction.
Qed.
Lemma succs_In_labels P l l' : In l' (succs P l) -> In l (labels P).
Proof.
  unfold succs. destruct (get_block P l) eqn:E; [|simpl; tauto]. intros _.
  eapply get_block_In_labels; eauto.
Qed.
Lemma preds_In_labels P l l' : In l' (preds P l) -> In l (labels P).
Proof.
  unfold preds. destruct (get_block P l) eqn:E; [|simpl; tauto]. intros _.
  eapply get_block_In_labels; eauto.
Qed.

Lemma is_exit_false P l : is_exit P l = false -> c_exit P <> Some l.
Proof. unfold is_exit. intros X E. rewrite E, N.eqb_refl in X. discriminate. Qed.

Lemma get_block_map_block f P l :
  get_block (map_block f P) l = match get_block P l with Some b => Some (f l b) | None => None end.
Proof.
  unfold get_block, map_block. simpl.
  rewrite (lookup_map (fun lb => f (fst lb) (snd lb))). reflexivity.
Qed.
Lemma labels_map_block f P : labels (map_block f P) = labels P.
Proof. unfold labels, map_block. simpl. rewrite map_map. reflexivity. Qed.

Definition strip (b : label) (blk : block) : block :=
  mkBlock (b_stmts blk) (remove_adjacent (b_prev blk) b) (remove_adjacent (b_next blk) b).

Lemma get_block_remove_block P b l :
  get_block (remove_block P b) l =
  if N.eqb l b then None else match get_block P l with Some blk => Some (strip b blk) | None => None end.
Proof.
  unfold get_block, remove_block. simpl. induction (c_blocks P) as [|[k blk] r IH]; simpl.
  - destruct (N.eqb l b); reflexivity.
  - destruct (N.eqb_spec k b); simpl.
    + subst k. destruct (N.eqb_spec l b); [exact IH|exact IH].
    + destruct (N.eqb_spec l k).
      * subst l. destruct (N.eqb_spec k b); [contradiction|reflexivity].
      * exact IH.
Qed.
Lemma labels_remove_block P b :
  labels (remove_block P b) = remove_adjacent (labels P) b.
Proof.
  unfold labels, remove_block. simpl. induction (c_blocks P) as [|[k blk] r IH]; simpl; auto.
  destruct (N.eqb k b); simpl; [exact IH|f_equal; exact IH].
Qed.

Lemma succs_remove_block P b l :
  succs (remove_block P b) l = if N.eqb l b then [] else remove_adjacent (succs P l) b.
Proof.
  unfold succs. rewrite get_block_remove_block. destruct (N.eqb l b); auto.
  destruct (get_block P l); reflexivity.
Qed.
Lemma preds_remove_block P b l :
  preds (remove_block P b) l = if N.eqb l b then [] else remove_adjacent (preds P l) b.
Proof.
  unfold preds. rewrite get_block_remove_block. destruct (N.eqb l b); auto.
  destruct (get_block P l); reflexivity.
Qed.
Lemma succs_remove_In P b l l' :
  In l' (succs (remove_block P b) l) <-> In l' (succs P l) /\ l <> b /\ l' <> b.
Proof.
  rewrite succs_remove_block. destruct (N.eqb_spec l b); [simpl; tauto|]. rewrite remove_adjacent_In. tauto.
Qed.
Lemma preds_remove_In P b l l' :
  In l (preds (remove_block P b) l') <-> In l (preds P l') /\ l <> b /\ l' <> b.
Proof.
  rewrite preds_remove_block. destruct (N.eqb_spec l' b); [simpl; tauto|]. rewrite remove_adjacent_In. tauto.
Qed.
Lemma stmts_remove_block P b l : l <> b -> stmts_of (remove_block P b) l = stmts_of P l.
Proof.
  intros H. unfold stmts_of. rewrite get_block_remove_block.
  destruct (N.eqb_spec l b); [contradiction|]. destruct (get_block P l); reflexivity.
Qed.

Lemma succs_add_edge P a b l :
  succs (add_edge P a b) l =
  if N.eqb l a then (match get_block P l with Some _ => insert_adjacent (succs P l) b | None => [] end)
  else succs P l.
Proof.
  unfold succs, add_edge. rewrite get_block_map_block. destruct (get_block P l); simpl.
  - destruct (N.eqb l a); reflexivity.
  - destruct (N.eqb l a); reflexivity.
Qed.
Lemma preds_add_edge P a b l :
  preds (add_edge P a b) l =
  if N.eqb l b then (match get_block P l with Some _ => insert_adjacent (preds P l) a | None => [] end)
  else preds P l.
Proof.
  unfold preds, add_edge. rewrite get_block_map_block. destruct (get_block P l); simpl.
  - destruct (N.eqb l b); reflexivity.
  - destruct (N.eqb l b); reflexivity.
Qed.
Lemma stmts_add_edge P a b l : stmts_of (add_edge P a b) l = stmts_of P l.
Proof.
  unfold stmts_of, add_edge. rewrite get_block_map_block. destruct (get_block P l); reflexivity.
Qed.

Lemma succs_copy_back P p ss l : succs (copy_back P p ss) l = succs P l.
Proof.
  unfold succs, copy_back. rewrite get_block_map_block. destruct (get_block P l); auto.
  destruct (N.eqb l p); reflexivity.
Qed.
Lemma preds_copy_back P p ss l : preds (copy_back P p ss) l = preds P l.
Proof.
  unfold preds, copy_back. rewrite get_block_map_block. destruct (get_block P l); auto.
  destruct (N.eqb l p); reflexivity.
Qed.
Lemma stmts_copy_back P p ss l :
  stmts_of (copy_back P p ss) l =
  if N.eqb l p then (match get_block P l with Some _ => stmts_of P l ++ ss | None => [] end) else stmts_of P l.
Proof.
  unfold stmts_of, copy_back. rewrite get_block_map_block. destruct (get_block P l); simpl.
  - destruct (N.eqb l p); reflexivity.
  - destruct (N.eqb l p); reflexivity.
Qed.

Definition wf (P : cfg) : Prop :=
  NoDup (labels P) /\ In (c_entry P) (labels P) /\
  (forall e, c_exit P = Some e -> In e (labels P)) /\
  (forall l l', In l' (succs P l) -> In l' (labels P) /\ In l (preds P l')) /\
  (forall l l', In l (preds P l') -> In l (labels P) /\ In l' (succs P l)).

(* same labels / edges / entry / exit: only statements differ *)
Definition same_shape (P Q : cfg) : Prop :=
  labels Q = labels P /\ c_entry Q = c_entry P /\ c_exit Q = c_exit P /\
  (forall l, succs Q l = succs P l) /\ (forall l, preds Q l = preds P l).

Lemma wf_same_shape P Q : same_shape P Q -> wf P -> wf Q.
Proof.
  intros (L & E & X & S & Pr) (W1 & W2 & W3 & W4 & W5). unfold wf.
  rewrite L, E, X. repeat split; auto.
  - rewrite S in H. apply (W4 _ _ H).
  - rewrite S in H. rewrite Pr. apply (W4 _ _ H).
  - rewrite Pr in H. apply (W5 _ _ H).
  - rewrite Pr in H. rewrite S. apply (W5 _ _ H).
Qed.

Lemma same_shape_copy_back P p ss : same_shape P (copy_back P p ss).
Proof.
  repeat split.
  - apply labels_map_block.
  - apply succs_copy_back.
  - apply preds_copy_back.
Qed.

Lemma wf_set_exit P e : wf P -> In e (labels P) -> wf (set_exit P e).
Proof.
  intros (W1 & W2 & W3 & W4 & W5) He. repeat split; auto.
  - simpl. intros e' H. inversion H; subst. exact He.
  - apply (W4 _ _ H).
  - apply (W4 _ _ H).
  - apply (W5 _ _ H).
  - apply (W5 _ _ H).
Qed.

Lemma wf_remove_block P b :
  wf P -> b <> c_entry P -> c_exit P <> Some b -> wf (remove_block P b).
Proof.
  intros (W1 & W2 & W3 & W4 & W5) Hen Hex. unfold wf. rewrite labels_remove_block.
  split; [apply NoDup_filter; auto|]. split; [apply remove_adjacent_In; auto|]. split; [|split].
  - simpl. intros e He. apply remove_adjacent_In. split; auto. congruence.
  - intros l l' H. apply succs_remove_In in H. destruct H as (H & Hl & Hl'). destruct (W4 _ _ H).
    rewrite remove_adjacent_In, preds_remove_In. auto.
  - intros l l' H. apply preds_remove_In in H. destruct H as (H & Hl & Hl'). destruct (W5 _ _ H).
    rewrite remove_adjacent_In, succs_remove_In. auto.
Qed.

Lemma succs_add_In P a b l l' : In a (labels P) ->
  (In l' (succs (add_edge P a b) l) <-> In l' (succs P l) \/ (l = a /\ l' = b)).
Proof.
  intros Ha. destruct (labels_get_block _ _ Ha) as [ba Ga]. rewrite succs_add_edge.
  destruct (N.eqb_spec l a) as [->|NE]; [rewrite Ga, insert_adjacent_In|]; tauto.
Qed.
Lemma preds_add_In P a b l l' : In b (labels P) ->
  (In l (preds (add_edge P a b) l') <-> In l (preds P l') \/ (l = a /\ l' = b)).
Proof.
  intros Hb. destruct (labels_get_block _ _ Hb) as [bb Gb]. rewrite preds_add_edge.
  destruct (N.eqb_spec l' b) as [->|NE]; [rewrite Gb, insert_adjacent_In|]; tauto.
Qed.

Lemma wf_add_edge P a b : wf P -> In a (labels P) -> In b (labels P) -> wf (add_edge P a b).
Proof.
  intros (W1 & W2 & W3 & W4 & W5) Ha Hb. unfold wf.
  replace (labels (add_edge P a b)) with (labels P) by (symmetry; apply labels_map_block).
  split; [exact W1|]. split; [exact W2|]. split; [exact W3|]. split; intros l l'.
  - intros H. apply succs_add_In in H; [|exact Ha]. rewrite preds_add_In by exact Hb.
    destruct H as [H|[-> ->]]; [destruct (W4 _ _ H)|]; auto.
  - intros H. apply preds_add_In in H; [|exact Hb]. rewrite succs_add_In by exact Ha.
    destruct H as [H|[-> ->]]; [destruct (W5 _ _ H)|]; auto.
Qed.

Lemma fold_union_base (f : label -> vset) B L x :
  In x B -> In x (fold_right (fun l acc => union (f l) acc) B L).
Proof. intros H. induction L as [|a r IH]; simpl; auto. apply union_In. auto. Qed.
Lemma fold_union_elem (f : label -> vset) B L l x :
  In l L -> In x (f l) -> In x (fold_right (fun l acc => union (f l) acc) B L).
Proof.
  intros Hl Hx. induction L as [|a r IH]; simpl; [contradiction|]. apply union_In.
  destruct Hl as [->|Hl]; auto.
Qed.
Lemma closure_root next n S x : In x S -> In x (closure next n S).
Proof.
  revert S. induction n as [|k IH]; simpl; intros S H; auto. apply IH.
  apply fold_union_base. exact H.
Qed.
Lemma marked_root P next root : In root (marked P next root).
Proof.
  unfold marked. destruct (closedb next _); [|simpl; auto]. apply closure_root. simpl; auto.
Qed.

(* what a transformation of simplify keeps *)
Definition keeps (P Q : cfg) : Prop :=
  c_entry Q = c_entry P /\ c_outs Q = c_outs P /\ (c_exit P = None <-> c_exit Q = None).

Lemma keeps_refl P : keeps P P.
Proof. repeat split; auto. Qed.
Lemma keeps_trans P Q R : keeps P Q -> keeps Q R -> keeps P R.
Proof. intros (A1 & A2 & A3) (B1 & B2 & B3). repeat split; try congruence; tauto. Qed.

(* facts available when merge_blocks_rec folds cur into parent *)
Record fold_pre (P : cfg) (cur parent child : label) (cb pb : block) : Prop := {
  fp_cb : get_block P cur = Some cb;
  fp_next : b_next cb = [child];
  fp_prev : b_prev cb = [parent];
  fp_pb : get_block P parent = Some pb;
  fp_entry : cur <> c_entry P;
  fp_exit : is_exit P parent = false;
  fp_one : has_one (b_next pb) = true
}.

Lemma fold_pre_edges P cur parent child cb pb :
  wf P -> fold_pre P cur parent child cb pb ->
  succs P cur = [child] /\ preds P cur = [parent] /\ succs P parent = [cur] /\
  In child (labels P) /\ In parent (labels P) /\ In cur (labels P).
Proof.
  intros (W1 & W2 & W3 & W4 & W5) F. destruct F.
  assert (S1 : succs P cur = [child]) by (unfold succs; rewrite fp_cb0; auto).
  assert (S2 : preds P cur = [parent]) by (unfold preds; rewrite fp_cb0; auto).
  assert (I1 : In parent (preds P cur)) by (rewrite S2; simpl; auto).
  destruct (W5 _ _ I1) as [Hp Hc].
  assert (S3 : succs P parent = [cur]).
  { unfold succs in *. rewrite fp_pb0 in *. destruct (b_next pb) as [|x [|y r]]; try discriminate.
    destruct Hc as [->|[]]. reflexivity. }
  assert (I2 : In child (succs P cur)) by (rewrite S1; simpl; auto).
  destruct (W4 _ _ I2) as [Hch _].
  repeat split; auto. eapply get_block_In_labels; eauto.
Qed.

Lemma is_exit_copy_back P p ss l : is_exit (copy_back P p ss) l = is_exit P l.
Proof. reflexivity. Qed.

(* a block whose only predecessor and successor is itself (never reached by the DFS of
   merge_blocks_rec, but the test of the code does not exclude it): folding it into itself just
   removes it *)
Lemma fold_self P cur cb : is_exit P cur = false -> fold_into_parent P cur cur cur cb = remove_block P cur.
Proof.
  intros X. unfold fold_into_parent. cbv zeta. rewrite is_exit_copy_back, X.
  unfold add_edge, copy_back, map_block, remove_block. simpl. f_equal.
  induction (c_blocks P) as [|[k b] r IH]; simpl; auto.
  destruct (N.eqb_spec k cur) as [E|E]; simpl; [exact IH|].
  apply N.eqb_neq in E. rewrite E, IH. reflexivity.
Qed.

Lemma fold_pre_self P cur parent child cb pb :
  wf P -> fold_pre P cur parent child cb pb -> parent = cur -> child = cur.
Proof.
  intros W F ->. destruct (fold_pre_edges _ _ _ _ _ _ W F) as (S1 & _ & S3 & _). congruence.
Qed.

Lemma keeps_fold P cur parent child cb : keeps P (fold_into_parent P cur parent child cb).
Proof.
  unfold keeps, fold_into_parent. cbv zeta. rewrite is_exit_copy_back.
  destruct (is_exit P cur) eqn:X; simpl; repeat split; auto; try discriminate.
  intros E. unfold is_exit in X. rewrite E in X. discriminate.
Qed.

Lemma wf_fold P cur parent child cb pb :
  wf P -> fold_pre P cur parent child cb pb -> wf (fold_into_parent P cur parent child cb).
Proof.
  intros W F. destruct (N.eq_dec parent cur) as [EQ|NPC].
  { pose proof (fold_pre_self _ _ _ _ _ _ W F EQ). subst parent child. destruct F.
    rewrite fold_self by assumption. apply wf_remove_block; auto. apply is_exit_false; assumption. }
  destruct (fold_pre_edges _ _ _ _ _ _ W F) as (S1 & S2 & S3 & Hch & Hp & Hc).
  pose proof (wf_same_shape _ _ (same_shape_copy_back P parent (b_stmts cb)) W) as W1.
  unfold fold_into_parent. cbv zeta. rewrite is_exit_copy_back.
  set (P1 := copy_back P parent (b_stmts cb)) in *.
  assert (L1 : labels P1 = labels P) by apply labels_map_block.
  set (P2 := if is_exit P cur then set_exit P1 parent else P1).
  assert (H2 : wf P2 /\ labels P2 = labels P /\ c_entry P2 = c_entry P /\ c_exit P2 <> Some cur).
  { unfold P2. destruct (is_exit P cur) eqn:X.
    - split; [apply wf_set_exit; auto; rewrite L1; auto|]. simpl. repeat split; auto. congruence.
    - split; [exact W1|]. repeat split; auto. exact (is_exit_false P cur X). }
  destruct H2 as (W2 & L2 & E2 & X2).
  assert (NE : cur <> c_entry P2) by (rewrite E2; destruct F; auto).
  assert (L3 : forall x, In x (labels P) -> x <> cur -> In x (labels (remove_block P2 cur))).
  { intros x H N. rewrite labels_remove_block, remove_adjacent_In, L2. auto. }
  apply wf_add_edge; [apply wf_remove_block; auto|apply L3; auto|apply L3; auto].
  intros ->. assert (H : In cur (succs P cur)) by (rewrite S1; simpl; auto).
  destruct W as (_ & _ & _ & W4 & _). destruct (W4 _ _ H) as [_ H2]. rewrite S2 in H2.
  destruct H2 as [H2|[]]. congruence.
Qed.

(* induction principle for merge_blocks_rec *)
Section MergeInd.
Variable Inv : cfg -> Prop.
Variable Rel : cfg -> cfg -> Prop.
Hypothesis Rel_refl : forall P, Rel P P.
Hypothesis Rel_trans : forall P Q R, Rel P Q -> Rel Q R -> Rel P R.
Hypothesis fold_ok : forall P cur parent child cb pb,
  Inv P -> fold_pre P cur parent child cb pb ->
  Inv (fold_into_parent P cur parent child cb) /\ Rel P (fold_into_parent P cur parent child cb).

Lemma visit_list_ind (rec : cfg -> vset -> label -> option (cfg * vset)) :
  (forall P vis n P' vis', rec P vis n = Some (P', vis') -> Inv P -> Inv P' /\ Rel P P') ->
  forall ns P vis P' vis', visit_list rec ns (P, vis) = Some (P', vis') -> Inv P -> Inv P' /\ Rel P P'.
Proof.
  intros Hrec ns. induction ns as [|n r IH]; simpl; intros P vis P' vis' H I.
  - inversion H; subst. auto.
  - destruct (rec P vis n) as [[P1 v1]|] eqn:E; [|discriminate].
    destruct (Hrec _ _ _ _ _ E I) as [I1 R1]. destruct (IH _ _ _ _ H I1) as [I2 R2].
    split; auto. eapply Rel_trans; eauto.
Qed.

Lemma merge_rec_ind fuel : forall P vis cur P' vis',
  merge_rec fuel P vis cur = Some (P', vis') -> Inv P -> Inv P' /\ Rel P P'.
Proof.
  induction fuel as [|f IH]; intros P vis cur P' vis' H I; [discriminate|].
  cbn [merge_rec] in H.
  destruct (mem cur vis); [inversion H; subst; auto|].
  destruct (get_block P cur) as [cb|] eqn:Gc; [|discriminate].
  assert (VC : forall st, visit_list (merge_rec f) (b_next cb) (P, cur :: vis) = Some st ->
                          Inv (fst st) /\ Rel P (fst st)).
  { intros [Q v] Hv. simpl. eapply (visit_list_ind (merge_rec f)); eauto. }
  destruct (b_next cb) as [|child [|c2 r2]] eqn:Nx; try (apply (VC (P', vis')); exact H).
  destruct (b_prev cb) as [|parent [|p2 r3]] eqn:Pv; try (apply (VC (P', vis')); exact H).
  destruct (get_block P parent) as [pb|] eqn:Gp; [|discriminate].
  destruct (negb (N.eqb cur (c_entry P)) && negb (is_exit P parent) && has_one (b_next pb)) eqn:C;
    [|apply (VC (P', vis')); exact H].
  apply andb_true_iff in C. destruct C as [C C3]. apply andb_true_iff in C. destruct C as [C1 C2].
  apply negb_true_iff in C1. apply negb_true_iff in C2. apply N.eqb_neq in C1.
  assert (F : fold_pre P cur parent child cb pb) by (constructor; auto).
  destruct (fold_ok _ _ _ _ _ _ I F) as [I1 R1].
  destruct (IH _ _ _ _ _ H I1) as [I2 R2]. split; auto. eapply Rel_trans; eauto.
Qed.

Lemma merge_blocks_ind P Q : merge_blocks P = Some Q -> Inv P -> Inv Q /\ Rel P Q.
Proof.
  unfold merge_blocks. destruct (merge_rec (merge_fuel P) P [] (c_entry P)) as [[P' v]|] eqn:E; [|discriminate].
  intros H I. inversion H; subst. eapply merge_rec_ind; eauto.
Qed.
End MergeInd.

Theorem merge_blocks_wf P Q : merge_blocks P = Some Q -> wf P -> wf Q /\ keeps P Q.
Proof.
  apply (merge_blocks_ind wf keeps keeps_refl keeps_trans). intros. split; [eapply wf_fold; eauto|apply keeps_fold].
Qed.

Lemma remove_all_wf bs : forall P,
  wf P -> (forall b, In b bs -> b <> c_entry P /\ c_exit P <> Some b) ->
  wf (remove_all P bs) /\ keeps P (remove_all P bs).
Proof.
  unfold remove_all. induction bs as [|b r IH]; simpl; intros P W H.
  - split; auto. apply keeps_refl.
  - destruct (H b (or_introl eq_refl)) as [H1 H2].
    pose proof (wf_remove_block P b W H1 H2) as W1.
    destruct (IH (remove_block P b) W1) as [W2 K2].
    { intros b' Hb'. simpl. apply H. auto. }
    split; [exact W2|exact K2].
Qed.

(* both passes remove the blocks that fail two tests *)
Lemma filter_neither_In (f g : label -> bool) ls b :
  In b (filter (fun l => negb (f l) && negb (g l)) ls) -> f b = false /\ g b = false.
Proof. rewrite filter_In, andb_true_iff, !negb_true_iff. tauto. Qed.

Lemma remove_unreachable_wf P : wf P -> wf (remove_unreachable_blocks P) /\ keeps P (remove_unreachable_blocks P).
Proof.
  intros W. unfold remove_unreachable_blocks. apply remove_all_wf; auto.
  intros b Hb. apply filter_neither_In in Hb. destruct Hb as [Ha Hx]. split.
  - intros ->. apply mem_false in Ha. apply Ha. unfold alive. apply marked_root.
  - apply is_exit_false. exact Hx.
Qed.

Lemma remove_useless_wf P : wf P -> wf (remove_useless_blocks P) /\ keeps P (remove_useless_blocks P).
Proof.
  intros W. unfold remove_useless_blocks. destruct (c_exit P) as [e|] eqn:X; [|split; auto; apply keeps_refl].
  apply remove_all_wf; auto.
  intros b Hb. apply filter_neither_In in Hb. destruct Hb as [Ha Hx]. apply N.eqb_neq in Hx. split; auto.
  rewrite X. intros E. inversion E; subst. apply mem_false in Ha. apply Ha. unfold useful. apply marked_root.
Qed.

Theorem simplify_wf P Q : simplify P = Some Q -> wf P -> wf Q /\ keeps P Q.
Proof.
  unfold simplify. destruct (merge_blocks P) as [P1|] eqn:M1; [|discriminate]. intros M2 W.
  destruct (merge_blocks_wf _ _ M1 W) as [W1 K1].
  destruct (remove_unreachable_wf _ W1) as [W2 K2].
  destruct (remove_useless_wf _ W2) as [W3 K3].
  destruct (merge_blocks_wf _ _ M2 W3) as [W4 K4].
  split; auto. eapply keeps_trans; [exact K1|]. eapply keeps_trans; [exact K2|].
  eapply keeps_trans; [exact K3|exact K4].
Qed.

Definition is_goto (e : event) : bool := match e with EvGoto _ => true | _ => false end.
(* evaluated conditions, assertion outcomes, outputs at the exit *)
Definition obs (tr : list event) : list event := filter (fun e => negb (is_goto e)) tr.
Lemma obs_app t1 t2 : obs (t1 ++ t2) = obs t1 ++ obs t2.
Proof. unfold obs. apply filter_app. Qed.

(* observations of the executions from the entry that finish at the exit block *)
Definition exit_obs (P : cfg) (s : store) (t : list event) : Prop :=
  exists tr, star P (init P s) tr Done /\ obs tr = t.
Definition beh_eq (P Q : cfg) : Prop := forall s t, exit_obs P s t <-> exit_obs Q s t.

Lemma beh_eq_refl P : beh_eq P P.
Proof. intros s t. tauto. Qed.
Lemma beh_eq_trans P Q R : beh_eq P Q -> beh_eq Q R -> beh_eq P R.
Proof. intros H1 H2 s t. rewrite (H1 s t). apply H2. Qed.

(* inversion of a step by the shape of the configuration it starts from *)
Lemma step_inv P c ev c1 : step P c ev c1 ->
  match c with
  | Run l [] s =>
      (exists l' b', In l' (succs P l) /\ get_block P l' = Some b' /\ ev = [EvGoto l'] /\
                     c1 = Run l' (b_stmts b') s) \/
      (c_exit P = Some l /\ ev = [EvExit (obs_out (c_outs P) s)] /\ c1 = Done)
  | Run l (st :: r) s =>
      exists es o, exec st s es o /\ ev = map EvStmt es /\
                   c1 = match o with Some s' => Run l r s' | None => Err end
  | _ => False
  end.
Proof. destruct 1; [| |left|right]; eauto 8. Qed.

Lemma no_step_Err P ev c : ~ step P Err ev c.
Proof. exact (step_inv P Err ev c). Qed.
Lemma no_step_Done P ev c : ~ step P Done ev c.
Proof. exact (step_inv P Done ev c). Qed.
Lemma star_Err_inv P tr c : star P Err tr c -> c = Err /\ tr = [].
Proof. intros H. inversion H; subst; auto. exfalso. eapply no_step_Err; eauto. Qed.

(* a simulation of the steps of A by executions of B, up to goto events, extends to executions *)
Lemma sim_star (A B : cfg) (R : config -> config -> Prop) :
  (forall c c' ev c1, R c c' -> step A c ev c1 ->
     exists tr' c1', star B c' tr' c1' /\ obs tr' = obs ev /\ R c1 c1') ->
  forall c tr c1, star A c tr c1 -> forall c', R c c' ->
     exists tr' c1', star B c' tr' c1' /\ obs tr' = obs tr /\ R c1 c1'.
Proof.
  intros HS c tr c1 St. induction St as [c|c ev c1 tr c2 S1 St IH]; intros c' Rc.
  - exists [], c'. split; [constructor|auto].
  - destruct (HS _ _ _ _ Rc S1) as (t1 & c1' & St1 & O1 & R1).
    destruct (IH _ R1) as (t2 & c2' & St2 & O2 & R2).
    exists (t1 ++ t2), c2'. split; [eapply star_trans; eauto|]. split; auto.
    rewrite !obs_app. congruence.
Qed.

Definition lab_in (U : vset) (c : config) : Prop :=
  match c with Run l _ _ => In l U | _ => True end.

Section Remove.
Variable P : cfg.
Variable b : label.
Hypothesis NE : b <> c_entry P.
Let P' := remove_block P b.

Lemma init_remove s : init P' s = init P s.
Proof.
  unfold init. change (c_entry P') with (c_entry P). unfold P'.
  rewrite stmts_remove_block; auto.
Qed.

Lemma step_remove_bwd c ev c1 : step P' c ev c1 -> step P c ev c1.
Proof.
  intros St. destruct St as [l st r s ev s1 X | l st r s ev F | l l' b' s Hl Hb | l s He].
  - constructor; auto.
  - constructor; auto.
  - unfold P' in Hl, Hb. apply succs_remove_In in Hl. destruct Hl as [Hl _].
    rewrite get_block_remove_block in Hb. destruct (N.eqb l' b); [discriminate|].
    destruct (get_block P l') as [blk|] eqn:G; [|discriminate]. inversion Hb; subst. simpl.
    apply (StGoto P l l' blk s); auto.
  - apply (StExit P l s). exact He.
Qed.

Definition avoid (c : config) : Prop := match c with Run l _ _ => l <> b | _ => True end.

Lemma step_remove_fwd c ev c1 : step P c ev c1 -> avoid c -> avoid c1 -> step P' c ev c1.
Proof.
  intros St L0 L1. destruct St as [l st r s ev s1 X | l st r s ev F | l l' b' s Hl Hb | l s He].
  - constructor; auto.
  - constructor; auto.
  - simpl in L0, L1.
    change (b_stmts b') with (b_stmts (strip b b')).
    apply (StGoto P' l l' (strip b b') s).
    + unfold P'. rewrite succs_remove_block. destruct (N.eqb_spec l b); [contradiction|].
      apply remove_adjacent_In. split; auto.
    + unfold P'. rewrite get_block_remove_block, Hb.
      destruct (N.eqb_spec l' b); [contradiction|reflexivity].
  - apply (StExit P' l s). exact He.
Qed.

Lemma star_remove_bwd c tr c1 : star P' c tr c1 -> star P c tr c1.
Proof.
  induction 1; [constructor|]. econstructor; eauto. apply step_remove_bwd; auto.
Qed.

(* an execution to the end that stays inside a set of labels without b survives the removal *)
Lemma star_remove_within (S : vset) c tr :
  ~ In b S ->
  (forall c ev c1 tr, step P c ev c1 -> star P c1 tr Done -> lab_in S c -> lab_in S c1) ->
  star P c tr Done -> lab_in S c -> star P' c tr Done.
Proof.
  intros Hb HS St. remember Done as d eqn:D.
  induction St as [c|c ev c1 tr c2 S1 St IH]; subst; intros L; [constructor|].
  assert (L1 : lab_in S c1) by (eapply HS; eauto).
  econstructor; [|apply IH; auto].
  apply step_remove_fwd; auto; [destruct c|destruct c1]; simpl in *; auto; intros ->; contradiction.
Qed.

Lemma remove_within_beh (S : vset) :
  ~ In b S ->
  (forall c ev c1 tr, step P c ev c1 -> star P c1 tr Done -> lab_in S c -> lab_in S c1) ->
  (forall s tr, star P (init P s) tr Done -> lab_in S (init P s)) ->
  beh_eq P P'.
Proof.
  intros Hb HS HI s t. unfold exit_obs. rewrite init_remove.
  split; intros [tr [St O]]; exists tr; split; auto.
  - eapply star_remove_within; eauto.
  - apply star_remove_bwd. exact St.
Qed.

(* A: b lies outside a set S that contains the entry and is closed under successors *)
Theorem remove_unreachable_block_beh (S : vset) :
  In (c_entry P) S -> ~ In b S -> (forall l l', In l S -> In l' (succs P l) -> In l' S) ->
  beh_eq P P'.
Proof.
  intros He Hb HS. apply (remove_within_beh S Hb); [|intros; exact He].
  intros c ev c1 tr S1 _ L. destruct S1; simpl in *; eauto.
Qed.

(* B: b lies outside a set U that contains the exit and is closed under predecessors *)
Lemma reaches_done_in (U : vset) c tr :
  wf P -> (forall e, c_exit P = Some e -> In e U) ->
  (forall l l', In l' U -> In l (preds P l') -> In l U) ->
  star P c tr Done -> lab_in U c.
Proof.
  intros W HE HU St. remember Done as d eqn:D. induction St as [c|c ev c1 tr c2 S1 St IH]; subst.
  - simpl. auto.
  - specialize (IH eq_refl).
    destruct S1 as [l st r s ev s1 X | l st r s ev F | l l' b' s Hl Hb | l s He]; simpl in *; auto.
    + destruct (star_Err_inv _ _ _ St) as [E _]. discriminate.
    + destruct W as (_ & _ & _ & W4 & _). destruct (W4 _ _ Hl) as [_ Hp]. eapply HU; eauto.
Qed.

Theorem remove_useless_block_beh (U : vset) :
  wf P -> ~ In b U -> (forall e, c_exit P = Some e -> In e U) ->
  (forall l l', In l' U -> In l (preds P l') -> In l U) ->
  beh_eq P P'.
Proof.
  intros W Hb HE HU. apply (remove_within_beh U Hb); intros; eapply reaches_done_in; eauto.
Qed.
End Remove.

Lemma remove_all_closed_beh (S : vset) bs : forall P,
  In (c_entry P) S -> (forall l l', In l S -> In l' (succs P l) -> In l' S) ->
  (forall b, In b bs -> ~ In b S) -> beh_eq P (remove_all P bs).
Proof.
  unfold remove_all. induction bs as [|b r IH]; simpl; intros P He HS Hb; [apply beh_eq_refl|].
  assert (NB : ~ In b S) by (apply Hb; auto).
  eapply beh_eq_trans.
  - apply (remove_unreachable_block_beh P b) with (S := S); auto. intros ->. contradiction.
  - apply IH; auto. intros l l' Hl Hl'. apply succs_remove_In in Hl'. destruct Hl'. eauto.
Qed.

Lemma remove_all_useless_beh (U : vset) bs : forall P,
  wf P -> (forall e, c_exit P = Some e -> In e U) ->
  (forall l l', In l' U -> In l (preds P l') -> In l U) ->
  (forall b, In b bs -> ~ In b U /\ b <> c_entry P) -> beh_eq P (remove_all P bs).
Proof.
  unfold remove_all. induction bs as [|b r IH]; simpl; intros P W HE HU Hb; [apply beh_eq_refl|].
  destruct (Hb b (or_introl eq_refl)) as [NB NE].
  assert (NX : c_exit P <> Some b) by (intros E; apply NB; apply HE; exact E).
  eapply beh_eq_trans.
  - apply (remove_useless_block_beh P b NE U); auto.
  - apply IH; auto.
    + apply wf_remove_block; auto.
    + intros l l' Hl Hl'. apply preds_remove_In in Hl'. destruct Hl'. eauto.
Qed.

Lemma closedb_spec next S : closedb next S = true -> forall l l', In l S -> In l' (next l) -> In l' S.
Proof.
  unfold closedb. rewrite forallb_forall. intros H l l' Hl Hl'.
  specialize (H l Hl). rewrite subset_spec in H. auto.
Qed.
Lemma marked_closed P next root :
  (forall l l', In l' (next l) -> In l' (labels P)) ->
  forall l l', In l (marked P next root) -> In l' (next l) -> In l' (marked P next root).
Proof.
  intros HN l l'. unfold marked. destruct (closedb next _) eqn:C.
  - apply closedb_spec. exact C.
  - intros _ H. simpl. right. eapply HN; eauto.
Qed.

Theorem remove_unreachable_beh P : wf P -> beh_eq P (remove_unreachable_blocks P).
Proof.
  intros W. unfold remove_unreachable_blocks.
  apply (remove_all_closed_beh (alive P)); unfold alive.
  - apply marked_root.
  - apply marked_closed. intros l l' H. destruct W as (_ & _ & _ & W4 & _). apply (W4 _ _ H).
  - intros b Hb. apply filter_neither_In in Hb. apply mem_false. apply Hb.
Qed.

Theorem remove_useless_beh P : wf P -> beh_eq P (remove_useless_blocks P).
Proof.
  intros W. unfold remove_useless_blocks. destruct (c_exit P) as [e|] eqn:X; [|apply beh_eq_refl].
  apply (remove_all_useless_beh (useful P e)); auto; unfold useful.
  - intros e' H. rewrite X in H. inversion H; subst. apply marked_root.
  - intros l l' Hl' Hl. eapply (marked_closed P (preds P) e); eauto.
    intros a a' H. destruct W as (_ & _ & _ & _ & W5). apply (W5 _ _ H).
  - intros b Hb. apply filter_neither_In in Hb. destruct Hb as [Ha Hx].
    split; [apply mem_false; exact Ha|apply N.eqb_neq; exact Hx].
Qed.

Lemma step_end_intro P l l' s :
  In l' (succs P l) -> In l' (labels P) -> step P (Run l [] s) [EvGoto l'] (Run l' (stmts_of P l') s).
Proof.
  intros H1 H2. destruct (labels_get_block _ _ H2) as [b' G]. unfold stmts_of. rewrite G.
  apply (StGoto P l l' b' s); auto.
Qed.
Lemma step_end_inv P l s ev c1 :
  step P (Run l [] s) ev c1 ->
  (exists l', ev = [EvGoto l'] /\ In l' (succs P l) /\ In l' (labels P) /\ c1 = Run l' (stmts_of P l') s) \/
  (c_exit P = Some l /\ ev = [EvExit (obs_out (c_outs P) s)] /\ c1 = Done).
Proof.
  intros St. destruct (step_inv _ _ _ _ St) as [(l' & b' & Hl' & Hb' & -> & ->)|H]; [left|right; exact H].
  exists l'. repeat split; auto; [eapply get_block_In_labels; eauto|].
  unfold stmts_of. rewrite Hb'. reflexivity.
Qed.

Section Merge.
Variables (P : cfg) (cur parent child : label) (cb pb : block).
Hypothesis W : wf P.
Hypothesis F : fold_pre P cur parent child cb pb.
Hypothesis NPC : parent <> cur.
Let Q := fold_into_parent P cur parent child cb.
Let SC := stmts_of P cur.

Lemma m_edges : succs P cur = [child] /\ preds P cur = [parent] /\ succs P parent = [cur] /\
                In child (labels P) /\ In parent (labels P) /\ In cur (labels P).
Proof. eapply fold_pre_edges; eauto. Qed.

Lemma m_cur_not_succ l : l <> parent -> ~ In cur (succs P l).
Proof.
  intros Hl H. destruct W as (_ & _ & _ & W4 & _). destruct (W4 _ _ H) as [_ H2].
  destruct m_edges as (_ & S2 & _). rewrite S2 in H2. destruct H2 as [H2|[]]. congruence.
Qed.

Lemma m_SC : SC = b_stmts cb.
Proof. unfold SC, stmts_of. destruct F. rewrite fp_cb0. reflexivity. Qed.

Lemma m_exit_parent : c_exit P <> Some parent.
Proof. apply is_exit_false. apply F. Qed.

(* Where a configuration of P is found in Q: the folded block runs inside its parent, and the
   parent carries the statements of the folded block after its own. *)
Definition mlab (l : label) : label := if N.eqb l cur then parent else l.
Definition mtail (l : label) : list stmt := if N.eqb l parent then SC else [].
Definition mconf (c : config) : config :=
  match c with Run l rest s => Run (mlab l) (rest ++ mtail l) s | Done => Done | Err => Err end.

Lemma mlab_cur : mlab cur = parent.
Proof. unfold mlab. rewrite N.eqb_refl. reflexivity. Qed.
Lemma mlab_other l : l <> cur -> mlab l = l.
Proof. unfold mlab. destruct (N.eqb_spec l cur); congruence. Qed.
Lemma mtail_parent : mtail parent = SC.
Proof. unfold mtail. rewrite N.eqb_refl. reflexivity. Qed.
Lemma mtail_other l : l <> parent -> mtail l = [].
Proof. unfold mtail. destruct (N.eqb_spec l parent); congruence. Qed.

(* the goto from the parent into the folded block is not seen in Q *)
Lemma mconf_enter s : mconf (Run parent [] s) = mconf (Run cur SC s).
Proof.
  simpl. rewrite mlab_cur, mlab_other, mtail_parent, mtail_other, app_nil_r by auto. reflexivity.
Qed.

(* the intermediate CFG before the removal *)
Let P1 := copy_back P parent (b_stmts cb).
Let P2 := if is_exit P1 cur then set_exit P1 parent else P1.

Lemma m_P2_blocks l : get_block P2 l = get_block P1 l.
Proof. unfold P2. destruct (is_exit P1 cur); reflexivity. Qed.
Lemma m_P2_succs l : succs P2 l = succs P l.
Proof. unfold succs. rewrite m_P2_blocks. apply succs_copy_back. Qed.
Lemma m_P2_stmts l : stmts_of P2 l = stmts_of P1 l.
Proof. unfold stmts_of. rewrite m_P2_blocks. reflexivity. Qed.
Lemma m_P2_labels : labels P2 = labels P.
Proof. unfold P2. destruct (is_exit P1 cur); apply labels_map_block. Qed.

Lemma m_Q_def : Q = add_edge (remove_block P2 cur) parent child.
Proof. reflexivity. Qed.

Lemma m_labels l : In l (labels Q) <-> In l (labels P) /\ l <> cur.
Proof.
  rewrite m_Q_def. unfold add_edge.
  rewrite labels_map_block, labels_remove_block, remove_adjacent_In, m_P2_labels. reflexivity.
Qed.

Lemma m_stmts l : l <> cur -> stmts_of Q l = stmts_of P l ++ mtail l.
Proof.
  intros NC. rewrite m_Q_def, stmts_add_edge, stmts_remove_block, m_P2_stmts by auto.
  unfold P1. rewrite stmts_copy_back. unfold mtail.
  destruct (N.eqb_spec l parent); [|rewrite app_nil_r; reflexivity].
  subst. destruct F. rewrite fp_pb0, m_SC. reflexivity.
Qed.

Lemma m_succs l : l <> parent -> succs Q (mlab l) = succs P l.
Proof.
  destruct m_edges as (S1 & S2 & S3 & Hch & Hp & Hc).
  intros NP. rewrite m_Q_def, succs_add_edge, succs_remove_block, m_P2_succs.
  destruct (N.eq_dec l cur) as [->|NC].
  - rewrite mlab_cur, N.eqb_refl, get_block_remove_block, m_P2_blocks.
    destruct (N.eqb_spec parent cur); [contradiction|].
    unfold P1, copy_back. rewrite get_block_map_block. destruct F. rewrite fp_pb0, S3, S1.
    simpl. rewrite N.eqb_refl. reflexivity.
  - rewrite mlab_other by auto.
    destruct (N.eqb_spec l parent); [contradiction|]. destruct (N.eqb_spec l cur); [contradiction|].
    apply remove_adjacent_notin. apply m_cur_not_succ. auto.
Qed.

Lemma m_exit : c_exit Q = if is_exit P cur then Some parent else c_exit P.
Proof.
  rewrite m_Q_def. simpl. unfold P2. change (is_exit P1 cur) with (is_exit P cur).
  destruct (is_exit P cur); reflexivity.
Qed.
Lemma m_outs : c_outs Q = c_outs P.
Proof. rewrite m_Q_def. simpl. unfold P2. destruct (is_exit P1 cur); reflexivity. Qed.
Lemma m_entry : c_entry Q = c_entry P.
Proof. rewrite m_Q_def. simpl. unfold P2. destruct (is_exit P1 cur); reflexivity. Qed.

Lemma m_exit_mlab l : l <> parent -> (c_exit Q = Some (mlab l) <-> c_exit P = Some l).
Proof.
  intros H. rewrite m_exit. unfold is_exit. pose proof m_exit_parent as NX.
  destruct (N.eq_dec l cur) as [->|NC].
  - rewrite mlab_cur. destruct (c_exit P) as [e|]; [|split; discriminate].
    destruct (N.eqb_spec cur e); split; congruence.
  - rewrite mlab_other by auto. destruct (c_exit P) as [e|]; [|tauto].
    destruct (N.eqb_spec cur e); [|tauto]. split; congruence.
Qed.

Lemma m_init s : init Q s = mconf (init P s).
Proof.
  assert (NE : c_entry P <> cur) by (destruct F; auto).
  unfold init. rewrite m_entry. simpl. rewrite mlab_other, m_stmts by auto. reflexivity.
Qed.

(* a step of P is a step of Q, except the goto from the parent into the folded block *)
Lemma m_fwd c c' ev c1 :
  c' = mconf c -> step P c ev c1 ->
  exists tr' c1', star Q c' tr' c1' /\ obs tr' = obs ev /\ c1' = mconf c1.
Proof.
  destruct m_edges as (S1 & S2 & S3 & Hch & Hp & Hc).
  intros -> St. destruct c as [l [|st r] s| |]; [ | |destruct (step_inv _ _ _ _ St)..].
  - destruct (step_end_inv _ _ _ _ _ St) as [[l' (-> & H1 & H2 & ->)]|(He & -> & ->)].
    + destruct (N.eq_dec l parent) as [->|NP].
      * rewrite S3 in H1. destruct H1 as [<-|[]]. exists [], (mconf (Run cur SC s)).
        split; [|auto]. rewrite mconf_enter. constructor.
      * assert (NC : l' <> cur) by (intros ->; eapply m_cur_not_succ; eauto).
        exists [EvGoto l'], (mconf (Run l' (stmts_of P l') s)). split; [|auto]. apply star_one.
        simpl. rewrite (mlab_other l'), (mtail_other l), <- m_stmts by auto.
        apply step_end_intro; [rewrite m_succs; auto|apply m_labels; auto].
    + assert (NP : l <> parent) by (intros ->; apply m_exit_parent; exact He).
      exists [EvExit (obs_out (c_outs P) s)], Done. split; [|auto]. apply star_one.
      simpl. rewrite mtail_other, <- m_outs by auto. apply StExit. apply m_exit_mlab; auto.
  - destruct (step_inv _ _ _ _ St) as (es & [s1|] & X & -> & ->);
      eexists _, _; (split; [apply star_one; constructor; exact X|auto]).
Qed.

(* unless the configuration is the parent at its end, a step of Q from its image is a step of P *)
Lemma m_bwd_step l rest s ev c1' :
  l <> parent \/ rest <> [] -> step Q (mconf (Run l rest s)) ev c1' ->
  exists c1, step P (Run l rest s) ev c1 /\ c1' = mconf c1.
Proof.
  intros NPE St. destruct rest as [|st r].
  - assert (NP : l <> parent) by tauto.
    simpl in St. rewrite mtail_other in St by auto.
    destruct (step_end_inv _ _ _ _ _ St) as [[l' (-> & H1 & H2 & ->)]|(He & -> & ->)].
    + rewrite m_succs in H1 by auto. apply m_labels in H2. destruct H2 as [H2 NC].
      exists (Run l' (stmts_of P l') s). split; [apply step_end_intro; auto|].
      simpl. rewrite mlab_other, m_stmts by auto. reflexivity.
    + exists Done. split; [|reflexivity]. rewrite m_outs. apply StExit. apply m_exit_mlab; auto.
  - destruct (step_inv _ _ _ _ St) as (es & [s1|] & X & -> & ->);
      eexists; (split; [constructor; exact X|reflexivity]).
Qed.

(* at the end of the parent, P first enters the folded block *)
Lemma m_bwd c' c ev' c1' :
  c' = mconf c -> step Q c' ev' c1' ->
  exists tr c1, star P c tr c1 /\ obs tr = obs ev' /\ c1' = mconf c1.
Proof.
  intros -> St. destruct c as [l rest s| |]; [|destruct (step_inv _ _ _ _ St)..].
  destruct (N.eq_dec l parent) as [->|NP]; [destruct rest as [|st r]|].
  - rewrite mconf_enter in St. destruct (m_bwd_step _ _ _ _ _ (or_introl (not_eq_sym NPC)) St) as (c1 & S1 & E1).
    exists ([EvGoto cur] ++ ev'), c1. split; [|auto].
    eapply StarStep; [|apply star_one; exact S1]. apply step_end_intro; [|apply m_edges].
    destruct m_edges as (_ & _ & -> & _). simpl; auto.
  - destruct (m_bwd_step parent (st :: r) s ev' c1') as (c1 & S1 & E1); [right; discriminate|exact St|].
    exists ev', c1. split; [apply star_one; exact S1|auto].
  - destruct (m_bwd_step _ _ _ _ _ (or_introl NP) St) as (c1 & S1 & E1).
    exists ev', c1. split; [apply star_one; exact S1|auto].
Qed.

Theorem merge_step_beh : beh_eq P Q.
Proof.
  intros s t. unfold exit_obs. rewrite m_init. split; intros [tr [St O]].
  - destruct (sim_star P Q (fun c c' => c' = mconf c) m_fwd _ _ _ St _ eq_refl) as (tr' & c1' & St' & O' & ->).
    exists tr'. split; [exact St'|congruence].
  - destruct (sim_star Q P (fun c' c => c' = mconf c) m_bwd _ _ _ St _ eq_refl) as (tr' & c1 & St' & O' & E).
    destruct c1; try discriminate. exists tr'. split; [exact St'|congruence].
Qed.
End Merge.

Lemma fold_self_beh P cur cb pb :
  wf P -> fold_pre P cur cur cur cb pb -> beh_eq P (fold_into_parent P cur cur cur cb).
Proof.
  intros W F. destruct (fold_pre_edges _ _ _ _ _ _ W F) as (_ & S2 & _).
  destruct F. rewrite fold_self by assumption.
  apply (remove_unreachable_block_beh P cur fp_entry0 (remove_adjacent (labels P) cur)).
  - apply remove_adjacent_In. split; [destruct W as (_ & W2 & _); exact W2|auto].
  - rewrite remove_adjacent_In. tauto.
  - intros l l'. rewrite !remove_adjacent_In. intros [Hl Hn] Hl'.
    destruct W as (_ & _ & _ & W4 & _). destruct (W4 _ _ Hl') as [H1 H2]. split; auto.
    intros ->. rewrite S2 in H2. destruct H2 as [H2|[]]. congruence.
Qed.

Theorem fold_beh P cur parent child cb pb :
  wf P -> fold_pre P cur parent child cb pb ->
  wf (fold_into_parent P cur parent child cb) /\ beh_eq P (fold_into_parent P cur parent child cb).
Proof.
  intros W F. split; [exact (wf_fold _ _ _ _ _ _ W F)|].
  destruct (N.eq_dec parent cur) as [E|NE].
  - pose proof (fold_pre_self _ _ _ _ _ _ W F E). subst parent child. eapply fold_self_beh; eauto.
  - eapply merge_step_beh; eauto.
Qed.

Theorem merge_blocks_beh P Q : merge_blocks P = Some Q -> wf P -> wf Q /\ beh_eq P Q.
Proof.
  apply (merge_blocks_ind wf beh_eq beh_eq_refl beh_eq_trans). intros. eapply fold_beh; eauto.
Qed.

(* cfg::simplify preserves the observations of the executions that finish at the exit *)
Theorem simplify_beh P Q : simplify P = Some Q -> wf P -> beh_eq P Q.
Proof.
  unfold simplify. destruct (merge_blocks P) as [P1|] eqn:M1; [|discriminate]. intros M2 W.
  destruct (merge_blocks_beh _ _ M1 W) as [W1 B1].
  destruct (remove_unreachable_wf _ W1) as [W2 _]. pose proof (remove_unreachable_beh _ W1) as B2.
  destruct (remove_useless_wf _ W2) as [W3 _]. pose proof (remove_useless_beh _ W2) as B3.
  destruct (merge_blocks_beh _ _ M2 W3) as [_ B4].
  eapply beh_eq_trans; [exact B1|]. eapply beh_eq_trans; [exact B2|].
  eapply beh_eq_trans; [exact B3|exact B4].
Qed.

(* CFGs built with basic_block::operator>> satisfy wf *)
Fixpoint nodupb (ls : list label) : bool :=
  match ls with [] => true | a :: r => negb (mem a r) && nodupb r end.
Lemma nodupb_spec ls : nodupb ls = true -> NoDup ls.
Proof.
  induction ls as [|a r IH]; simpl; [constructor|]. rewrite andb_true_iff, negb_true_iff, mem_false.
  intros [H1 H2]. constructor; auto.
Qed.

Definition wfb (P : cfg) : bool :=
  let ls := labels P in
  nodupb ls && mem (c_entry P) ls
  && match c_exit P with Some e => mem e ls | None => true end
  && forallb (fun l => forallb (fun l' => mem l' ls && mem l (preds P l')) (succs P l)) ls
  && forallb (fun l' => forallb (fun l => mem l ls && mem l' (succs P l)) (preds P l')) ls.

Lemma wfb_sound P : wfb P = true -> wf P.
Proof.
  unfold wfb. rewrite !andb_true_iff. intros [[[[H1 H2] H3] H4] H5].
  rewrite forallb_forall in H4, H5. unfold wf. split; [apply nodupb_spec; auto|].
  split; [apply mem_In; auto|]. split; [|split].
  - intros e E. rewrite E in H3. apply mem_In; auto.
  - intros l l' H. pose proof (succs_In_labels _ _ _ H) as Hl. specialize (H4 l Hl).
    rewrite forallb_forall in H4. specialize (H4 l' H). apply andb_true_iff in H4.
    destruct H4 as [A B]. split; apply mem_In; auto.
  - intros l l' H. pose proof (preds_In_labels _ _ _ H) as Hl. specialize (H5 l' Hl).
    rewrite forallb_forall in H5. specialize (H5 l H). apply andb_true_iff in H5.
    destruct H5 as [A B]. split; apply mem_In; auto.
Qed.

End Gen.

Arguments mkBlock {stmt} b_stmts b_prev b_next.
Arguments b_stmts {stmt} b.
Arguments b_prev {stmt} b.
Arguments b_next {stmt} b.
Arguments mkCfg {stmt odecl} c_entry c_exit c_blocks c_outs.
Arguments c_entry {stmt odecl} c.
Arguments c_exit {stmt odecl} c.
Arguments c_blocks {stmt odecl} c.
Arguments c_outs {stmt odecl} c.
Arguments get_block {stmt odecl} P l.
Arguments stmts_of {stmt odecl} P l.
Arguments succs {stmt odecl} P l.
Arguments preds {stmt odecl} P l.
Arguments labels {stmt odecl} P.
Arguments is_exit {stmt odecl} P l.
Arguments merge_blocks {stmt odecl} P.
Arguments remove_unreachable_blocks {stmt odecl} P.
Arguments remove_useless_blocks {stmt odecl} P.
Arguments simplify {stmt odecl} P.
Arguments wf {stmt odecl} P.
Arguments wfb {stmt odecl} P.
Arguments keeps {stmt odecl} P Q.
Arguments EvStmt {sev out} e.
Arguments EvGoto {sev out} l.
Arguments EvExit {sev out} o.
Arguments Run {stmt store} l rest s.
Arguments Done {stmt store}.
Arguments Err {stmt store}.
Arguments step {stmt store sev out odecl} exec obs_out P _ _ _.
Arguments star {stmt store sev out odecl} exec obs_out P _ _ _.
Arguments star_stmt {stmt store sev out odecl exec obs_out P l st r s ev s' tr c} _ _.
Arguments star_goto {stmt store sev out odecl exec obs_out P l l' b' s tr c} _ _ _.
Arguments init {stmt store odecl} P s.
Arguments obs {sev out} tr.
Arguments exit_obs {stmt store sev out odecl} exec obs_out P s t.
Arguments beh_eq {stmt store sev out odecl} exec obs_out P Q.
