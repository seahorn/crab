(* FwdItvFullSound.v — properties C01 and C05 for the forward interval analyzer model in ALL
   configurations of intra_fwd_analyzer (Ana/FwdItvLive.v): widening delay, descending
   iterations, assumption maps, alternative entry blocks, widening with the thresholds that
   wto_thresholds collects (any max_thresholds), liveness pruning.

   Soundness (instance of Fix/EngineSound.v): whenever the model terminates, its tables contain
   every state with which an execution from the initial states enters / leaves each block.
   Nothing is assumed about the thresholds (widening is not used by the proof) nor about the
   dead sets (forgetting ANY set of variables at the end of a block is sound: the proof does
   not depend on the liveness analysis being right).

   Termination (instance of Fix/EngineTerm.v): for every program, ordering, entry, parameters,
   max_thresholds and liveness switch there is a fuel for which the model answers; more fuel
   never changes the answer.  The per-head thresholds computed by the mirror of wto_thresholds
   always have the shape that the termination of widening_thresholds needs
   (WtoThresholds.wto_thr_wf), so the theorem has no hypothesis about them. *)
From Coq Require Import ZArith NArith List Bool Arith Lia.
From CrabV Require Import Base.ZInf Scalar.Itv Ir.Syntax Ir.Cfg Dom.ItvEnv Dom.ItvEnvSound Dom.ItvDomain
     Dom.ItvDomainSound Dom.ItvEnvWiden
     Fix.Wto Fix.WtoCheck Fix.WtoSound Fix.WtoRoot Fix.Engine Fix.EngineBelow Fix.EngineCheck Fix.EngineRel
     Fix.EngineFS Fix.EngineSound Fix.EngineTerm Fix.Thresholds Fix.ThresholdsSound Fix.WtoThresholds
     Ana.Transformer Ana.FwdItv Ana.FwdItvSound Ana.FwdItvEngineSound Ana.FwdItvTerm Ana.FwdItvLive.
Import ListNotations.

Lemma tr_block_pruned_sound dead bl e a b :
  block_wf bl -> genv e a -> bstep bl a b -> genv (tr_block_pruned dead bl e) b.
Proof.
  intros W G B. unfold tr_block_pruned.
  apply (d_forget_sound dead (tr_block bl e) b b); [|reflexivity].
  exact (tr_block_sound bl e a b W G B).
Qed.

Lemma fold_forget_ok vs : forall e, env_ok e -> env_ok (fold_left e_forget vs e).
Proof.
  induction vs as [|v r IH]; cbn [fold_left]; intros e OK; [exact OK|].
  apply IH. apply env_ok_forget. exact OK.
Qed.
Lemma d_forget_ok vs e : env_ok e -> env_ok (d_forget vs e).
Proof.
  intros OK. unfold d_forget. destruct (e_is_bot e || e_is_top e); [exact OK|].
  apply fold_forget_ok. exact OK.
Qed.
Lemma tr_block_pruned_ok dead b e : env_ok e -> env_ok (tr_block_pruned dead b e).
Proof. intros OK. apply d_forget_ok, tr_block_ok, OK. Qed.

Section FullSound.
  Variable p : prog.
  Hypothesis p_wf : prog_wfb p = true.
  Variable use_asm : bool.
  Variable asm : nat -> option env.
  Variable Init : store -> Prop.
  Variable init : env.
  Hypothesis init_s : forall s, Init s -> genv init s.
  Variables delay desc fuel : nat.

  (* any thresholds, any dead sets, any ordering satisfying property C07, any start block *)
  Theorem fwd_run_gen_sound_WF : forall use_thr t dead e0 nst dom w entry e,
    WF (p_graph p) e0 w nst dom ->
    In entry (flat w) ->
    fwd_run_gen use_thr t dead p w entry delay desc use_asm asm fuel init = Some e ->
    (forall n s, ReachPre p entry use_asm asm Init n s -> genv (e_pre env e n) s) /\
    (forall n s, ReachPost p entry use_asm asm Init n s -> genv (e_post env e n) s).
  Proof.
    intros use_thr t dead.
    apply (itv_run_sound_WF p p_wf use_asm asm Init init init_s delay desc fuel
             (o_widen env (itv_ops_gen use_thr t))).
    intros n e a b. apply tr_block_pruned_sound, prog_wfb_blocks, p_wf.
  Qed.

  (* the analyzer as configured by the C++: ordering built by the model of wto.hpp from e0 (the
     CFG entry), analysis started at any block of it, thresholds of wto_thresholds for
     max_thresholds = maxthr, pruning with the liveness of the CFG if live *)
  Theorem fwd_run_full_sound : forall maxthr live ex e0 entry w e,
    build (p_graph p) e0 = Some w -> In entry (flat w) ->
    fwd_run_full p w entry delay desc maxthr live ex use_asm asm fuel init = Some e ->
    (forall n s, ReachPre p entry use_asm asm Init n s -> genv (e_pre env e n) s) /\
    (forall n s, ReachPost p entry use_asm asm Init n s -> genv (e_post env e n) s).
  Proof.
    intros maxthr live ex e0 entry w e BU.
    exact (fwd_run_gen_sound_WF _ _ _ e0 _ _ w entry e (build_WF _ _ _ BU)).
  Qed.

  Corollary fwd_run_full_bottom_unreachable : forall maxthr live ex e0 entry w e,
    build (p_graph p) e0 = Some w -> In entry (flat w) ->
    fwd_run_full p w entry delay desc maxthr live ex use_asm asm fuel init = Some e ->
    forall n, e_is_bot (e_pre env e n) = true -> forall s, ~ ReachPre p entry use_asm asm Init n s.
  Proof.
    intros maxthr live ex e0 entry w e BU IE RUN n Bn s R. apply (e_is_bot_sound _ s Bn).
    exact (proj1 (fwd_run_full_sound maxthr live ex e0 entry w e BU IE RUN) n s R).
  Qed.

  (* tables accepted by the checker for the pruned transformer *)
  Theorem fwd_check_gen_sound : forall dead entry pre post,
    fwd_check_gen dead p entry use_asm asm init pre post = true ->
    (forall n s, ReachPre p entry use_asm asm Init n s -> genv (pre n) s) /\
    (forall n s, ReachPost p entry use_asm asm Init n s -> genv (post n) s).
  Proof.
    intros dead entry pre post H. unfold fwd_check_gen in H.
    apply andb_prop in H. destruct H as [H OK]. apply andb_prop in H. destruct H as [H EN].
    apply andb_prop in H. destruct H as [WF ED].
    refine (itv_check_sound p entry use_asm asm Init init init_s pre post _ _ ED EN OK).
    intros n e a b. apply tr_block_pruned_sound, blocks_wf, WF.
  Qed.

  Corollary fwd_check_full_sound : forall live ex entry pre post,
    fwd_check_full live ex p entry use_asm asm init pre post = true ->
    (forall n s, ReachPre p entry use_asm asm Init n s -> genv (pre n) s) /\
    (forall n s, ReachPost p entry use_asm asm Init n s -> genv (post n) s).
  Proof. intros live ex. apply fwd_check_gen_sound. Qed.
End FullSound.

Theorem fwd_run_gen_fuel_mono use_thr t dead p w entry delay desc use_asm asm init fuel fuel' e :
  fwd_run_gen use_thr t dead p w entry delay desc use_asm asm fuel init = Some e -> fuel <= fuel' ->
  fwd_run_gen use_thr t dead p w entry delay desc use_asm asm fuel' init = Some e.
Proof. unfold fwd_run_gen. apply run_mono. Qed.

Theorem fwd_run_gen_terminates use_thr t dead p w entry delay desc use_asm asm init :
  (use_thr = true -> forall h, wf_thr (t h)) ->
  env_ok init -> (forall n a, use_asm = true -> asm n = Some a -> env_ok a) ->
  exists fuel e, fwd_run_gen use_thr t dead p w entry delay desc use_asm asm fuel init = Some e.
Proof.
  intros WT. unfold fwd_run_gen.
  destruct use_thr; [apply (thr_run_total t); [exact (WT eq_refl)|]|apply plain_run_total];
    intros n a; apply tr_block_pruned_ok.
Qed.

Theorem fwd_run_full_fuel_mono p w entry delay desc maxthr live ex use_asm asm init fuel fuel' e :
  fwd_run_full p w entry delay desc maxthr live ex use_asm asm fuel init = Some e -> fuel <= fuel' ->
  fwd_run_full p w entry delay desc maxthr live ex use_asm asm fuel' init = Some e.
Proof. unfold fwd_run_full. apply fwd_run_gen_fuel_mono. Qed.

(* no hypothesis on the thresholds: those of wto_thresholds are always well formed *)
Theorem fwd_run_full_terminates p w entry delay desc maxthr live ex use_asm asm init :
  env_ok init -> (forall n a, use_asm = true -> asm n = Some a -> env_ok a) ->
  exists fuel e, fwd_run_full p w entry delay desc maxthr live ex use_asm asm fuel init = Some e.
Proof.
  intros OKi OKa. unfold fwd_run_full. apply fwd_run_gen_terminates; [|exact OKi|exact OKa].
  intros _ h. unfold prog_thr. apply wto_thr_wf.
Qed.

Corollary fwd_run_full_deterministic p w entry delay desc maxthr live ex use_asm asm init f1 f2 e1 e2 :
  fwd_run_full p w entry delay desc maxthr live ex use_asm asm f1 init = Some e1 ->
  fwd_run_full p w entry delay desc maxthr live ex use_asm asm f2 init = Some e2 -> e1 = e2.
Proof.
  apply (fuel_mono_deterministic
           (fun fuel => fwd_run_full p w entry delay desc maxthr live ex use_asm asm fuel init)).
  intros n n' e. apply fwd_run_full_fuel_mono.
Qed.

Theorem fwd_run_full_ok p w entry delay desc maxthr live ex use_asm asm init fuel e :
  env_ok init -> (forall n a, use_asm = true -> asm n = Some a -> env_ok a) ->
  fwd_run_full p w entry delay desc maxthr live ex use_asm asm fuel init = Some e ->
  forall n, env_ok (e_pre env e n) /\ env_ok (e_post env e n).
Proof.
  intros OKi OKa.
  apply (itv_run_ok (o_widen env (itv_ops_gen (negb (maxthr =? 0)%N) (prog_thr maxthr p w))));
    [|intros n a; apply tr_block_pruned_ok|exact OKi|exact OKa].
  intros h a b. cbn [o_widen itv_ops_gen]. destruct (negb _); [apply env_ok_widen_thr|apply env_ok_widen].
Qed.

(* (1) thresholds:  x := 0; while (nondet) { if (x <= 9) x := x + 1 else skip }
     b0: x := 0   b1 (head)   b2: assume x <= 9; x := x + 1   b3: skip   b4: exit
     edges 0->1, 1->2, 2->1, 1->3, 3->1, 1->4.
   Plain widening leaves x in [0,+oo] at the loop head, and the descending iteration does not
   help (the branch b3 feeds the head invariant back).  With max_thresholds = 10 the cycle has
   the threshold 10 (= 9 + 1, from `assume x <= 9`) and the head invariant is [0,10].  Both runs
   are covered by the theorems. *)
Definition ex_thr_prog : prog :=
  mkProg [ [SAssign ex_i (mkLE [] 0)];
           [];
           [SAssume (mkLC INEQ (mkLE [(1%Z, ex_i)] (-9))); SArith OpAdd ex_i ex_i (OCst 1)];
           [];
           [] ]
         [(0, 1); (1, 2); (2, 1); (1, 3); (3, 1); (1, 4)].

Example fwd_run_full_thresholds_example :
  let p := ex_thr_prog in
  prog_wfb p = true /\
  exists w e0 e10, build (p_graph p) 0 = Some w /\
    prog_thr 10 p w 1 = [MInf; Fin 0; Fin 10; PInf] /\
    fwd_run_full p w 0 1 1 0 false None false (fun _ => None) 100 e_top = Some e0 /\
    fwd_run_full p w 0 1 1 10 false None false (fun _ => None) 100 e_top = Some e10 /\
    e_at (e_pre env e0 1) ex_i = mkI (Fin 0) PInf /\
    e_at (e_pre env e10 1) ex_i = mkI (Fin 0) (Fin 10) /\
    e_at (e_pre env e10 4) ex_i = mkI (Fin 0) (Fin 10) /\
    forall s, ReachPre p 0 false (fun _ => None) (fun _ => True) 4 s -> genv (e_pre env e10 4) s.
Proof.
  cbv zeta. apply conj_keep; [vm_compute; reflexivity|intros W].
  eexists. evar (e0 : est env). exists e0. evar (e10 : est env). exists e10.
  apply conj_keep; [vm_compute; reflexivity|intros BU].
  split; [vm_compute; reflexivity|]. split; [vm_compute; reflexivity|].
  apply conj_keep; [vm_compute; reflexivity|intros RUN].
  split; [vm_compute; reflexivity|]. split; [vm_compute; reflexivity|].
  split; [vm_compute; reflexivity|]. clearbody e10.
  refine (proj1 (fwd_run_full_sound ex_thr_prog W false (fun _ => None) (fun _ => True) e_top
                   (fun s _ => genv_top s) 1 1 100 10%N false None 0 0 _ e10 BU _ RUN) 4).
  vm_compute; tauto.
Qed.

(* (2) pruning: b0: x := 5; y := x + 1   b1: y := y + 1  (exit).  x is dead at the end of b0
   (used or defined in b0, not live-out), y is live: with live = true the analyzer forgets x there
   and keeps y; without, x = 5 is kept.  b1's live-out set is empty: nothing is pruned there. *)
Definition ex_live_prog : prog :=
  mkProg [ [SAssign 0%N (mkLE [] 5); SArith OpAdd 1%N 0%N (OCst 1)];
           [SArith OpAdd 1%N 1%N (OCst 1)] ]
         [(0, 1)].

Example fwd_run_full_pruning_example :
  let p := ex_live_prog in
  prog_wfb p = true /\
  prog_dead true p (Some 1) 0 = [0%N] /\ prog_dead true p (Some 1) 1 = [] /\
  exists w e el, build (p_graph p) 0 = Some w /\
    fwd_run_full p w 0 2 1 0 false (Some 1) false (fun _ => None) 10 e_top = Some e /\
    fwd_run_full p w 0 2 1 0 true (Some 1) false (fun _ => None) 10 e_top = Some el /\
    e_at (e_post env e 0) 0%N = mkI (Fin 5) (Fin 5) /\
    e_at (e_post env el 0) 0%N = itop /\
    e_at (e_post env el 0) 1%N = mkI (Fin 6) (Fin 6) /\
    e_at (e_post env el 1) 1%N = mkI (Fin 7) (Fin 7) /\
    forall s, ReachPost p 0 false (fun _ => None) (fun _ => True) 1 s -> genv (e_post env el 1) s.
Proof.
  cbv zeta. apply conj_keep; [vm_compute; reflexivity|intros W].
  split; [vm_compute; reflexivity|]. split; [vm_compute; reflexivity|].
  eexists. evar (e : est env). exists e. evar (el : est env). exists el.
  apply conj_keep; [vm_compute; reflexivity|intros BU].
  split; [vm_compute; reflexivity|].
  apply conj_keep; [vm_compute; reflexivity|intros RUN].
  split; [vm_compute; reflexivity|]. split; [vm_compute; reflexivity|].
  split; [vm_compute; reflexivity|]. split; [vm_compute; reflexivity|]. clearbody el.
  refine (proj2 (fwd_run_full_sound ex_live_prog W false (fun _ => None) (fun _ => True) e_top
                   (fun s _ => genv_top s) 2 1 10 0%N true (Some 1) 0 0 _ el BU _ RUN) 1).
  vm_compute; tauto.
Qed.
