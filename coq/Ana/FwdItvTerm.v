(* FwdItvTerm.v — every run of the forward interval analyzer model terminates (property C05
   for the engine): for every program, weak topological order, entry block, widening delay,
   number of descending iterations and assumption map there is a fuel for which [fwd_run]
   answers, and more fuel never changes the answer.

   Hypothesis: the initial value and the assumptions satisfy the representation invariant
   [env_ok] of separate_domain (no key bound to the bottom interval); every value built
   with the operations of the domain from top or bottom does (lemmas below).

   Also: the same engine with widening with thresholds (one threshold set per cycle head,
   each of the shape that thresholds::add maintains). *)
From Coq Require Import ZArith NArith List Bool Arith Lia.
From CrabV Require Import Base.ZInf Scalar.Itv Ir.Syntax Ir.Cfg Dom.ItvEnv Dom.ItvEnvSound Dom.ItvSolver Dom.ItvSolverInv
     Dom.ItvDomain Dom.ItvEnvWiden Fix.Wto Fix.Engine Fix.EngineFS Fix.EngineTerm Fix.Thresholds Fix.ThresholdsSound
     Ana.Transformer Ana.FwdItv.
Import ListNotations.

(* the solver only writes through put, and never a bottom interval *)
Lemma s_refine_ok v i st : map_ok (s_map st) -> holds map_ok True (s_refine v i st).
Proof.
  intros OK. unfold s_refine. destruct (is_bot _) eqn:B; [exact I|].
  destruct (negb _); [apply map_ok_put; assumption|exact OK].
Qed.

Lemma propagate_term_ok cst c pivot st :
  map_ok (s_map st) -> holds map_ok True (propagate_term cst c pivot st).
Proof.
  intros OK. unfold propagate_term. destruct (compute_residual cst pivot st) as [res ops]. cbv zeta.
  destruct (lc_kind cst).
  - apply s_refine_ok; exact OK.
  - destruct (is_bot _) eqn:B; [exact I|]. destruct (negb _); [apply map_ok_put; assumption|exact OK].
  - destruct (0 <? c)%Z; apply s_refine_ok; exact OK.
  - exact OK.
Qed.

Lemma propagate_ok cst st : map_ok (s_map st) -> holds map_ok True (propagate cst st).
Proof.
  unfold propagate. generalize (le_terms (lc_exp cst)) as ts. intros ts. revert st.
  induction ts as [|[c v] r IH]; simpl; intros st OK; [exact OK|].
  pose proof (propagate_term_ok cst c v st OK) as P.
  destruct (propagate_term cst c v st); auto.
Qed.

Lemma solve_ok cs mc m m' : map_ok m -> solve cs mc m = Some m' -> map_ok m'.
Proof.
  intros OK S.
  pose proof (solve_inv map_ok True (fun _ => True) cs mc m (fun c st _ => propagate_ok c st)
                (fun _ => I) (fun _ _ => I) OK) as X.
  rewrite S in X. exact X.
Qed.

Lemma d_add_ok cs e : env_ok e -> env_ok (d_add cs e).
Proof.
  destruct e as [|m]; unfold d_add; [auto|]. intros OK. cbv zeta.
  destruct (solve _ _ m) as [m'|] eqn:E; [|exact I]. exact (solve_ok _ _ _ _ OK E).
Qed.

Lemma d_assign_ok x ex e : env_ok e -> env_ok (d_assign x ex e).
Proof. intros OK. unfold d_assign. destruct (le_get_variable ex); apply env_ok_set; exact OK. Qed.

Lemma d_select_ok x c e1 e2 e : env_ok e -> env_ok (d_select x c e1 e2 e).
Proof.
  intros OK. unfold d_select. destruct (e_is_bot e); [exact OK|].
  destruct (e_is_bot (d_add [c] e)); [apply d_assign_ok; exact OK|].
  destruct (e_is_bot (d_add [lc_negate c] e)); [apply d_assign_ok; exact OK|].
  apply env_ok_set; exact OK.
Qed.

Lemma tr_stmt_ok s e : env_ok e -> env_ok (tr_stmt s e).
Proof.
  intros OK. destruct s; cbn [tr_stmt].
  - apply d_assign_ok; exact OK.
  - apply env_ok_set; exact OK.
  - apply env_ok_set; exact OK.
  - apply d_add_ok; exact OK.
  - apply d_add_ok; exact OK.
  - apply env_ok_forget; exact OK.
  - apply d_select_ok; exact OK.
  - exact I.
Qed.

Lemma tr_block_ok b : forall e, env_ok e -> env_ok (tr_block b e).
Proof.
  unfold tr_block. induction b as [|s r IH]; cbn [fold_left]; intros e OK; [exact OK|].
  apply IH. apply tr_stmt_ok; exact OK.
Qed.

(* the interval instance of Fix/EngineTerm.v: any widening operator that keeps env_ok, any
   block transformer that keeps it *)
Section ItvEngineTerm.
  Variable widen : nat -> env -> env -> env.
  Hypothesis widen_ok : forall h a b, env_ok a -> env_ok b -> env_ok (widen h a b).
  Variable analyze : nat -> env -> env.
  Hypothesis analyze_ok : forall n a, env_ok a -> env_ok (analyze n a).
  Variables preds nest : nat -> list nat.
  Variables entry delay desc : nat.
  Variable use_asm : bool.
  Variable asm : nat -> option env.
  Variable init : env.
  Hypothesis init_ok : env_ok init.
  Hypothesis asm_ok : forall n a, use_asm = true -> asm n = Some a -> env_ok a.

  (* every table entry of the answer satisfies the invariant *)
  Theorem itv_run_ok w fuel e :
    run env (mkOps env EBot e_top e_join e_meet widen e_narrow e_leq) analyze preds nest entry
        delay desc use_asm asm init fuel w = Some e ->
    forall n, env_ok (e_pre env e n) /\ env_ok (e_post env e n).
  Proof.
    intros H.
    destruct (run_SInv env (mkOps env EBot e_top e_join e_meet widen e_narrow e_leq) analyze preds nest entry delay desc use_asm asm init env_ok
                I env_ok_join env_ok_meet widen_ok env_ok_narrow analyze_ok asm_ok init_ok w fuel e H)
      as [P Q].
    intros n. split; [apply P|apply Q].
  Qed.

  (* ... and there is an answer, if each needed widening step descends in a well-founded order
     (one order per cycle head) *)
  Theorem itv_run_total (R : nat -> env -> env -> Prop) w :
    (forall h, well_founded (R h)) ->
    (forall h a b, env_ok a -> env_ok b -> e_leq b a = false -> R h (widen h a b) a) ->
    exists fuel e,
      run env (mkOps env EBot e_top e_join e_meet widen e_narrow e_leq) analyze preds nest entry
          delay desc use_asm asm init fuel w = Some e.
  Proof.
    intros R_wf progress.
    exact (run_total env (mkOps env EBot e_top e_join e_meet widen e_narrow e_leq) analyze preds nest entry delay desc use_asm asm init env_ok
             I env_ok_join env_ok_meet widen_ok env_ok_narrow analyze_ok asm_ok init_ok R R_wf progress w).
  Qed.

End ItvEngineTerm.

Definition itv_ops_thr (t : nat -> thr) : aops env :=
  mkOps env EBot e_top e_join e_meet
        (fun h => e_widen_thr (thr_prev (t h)) (thr_next (t h))) e_narrow e_leq.

(* the two widenings of the analyzer *)
Lemma plain_run_total analyze preds nest entry delay desc use_asm asm init w :
  (forall n a, env_ok a -> env_ok (analyze n a)) ->
  env_ok init -> (forall n a, use_asm = true -> asm n = Some a -> env_ok a) ->
  exists fuel e, run env itv_ops analyze preds nest entry delay desc use_asm asm init fuel w = Some e.
Proof.
  intros AO OKi OKa.
  exact (itv_run_total (fun _ => e_widen) (fun _ => env_ok_widen) analyze AO preds nest entry delay desc
           use_asm asm init OKi OKa (fun _ => e_lt) w (fun _ => e_lt_wf) (fun _ => e_widen_progress)).
Qed.

Lemma thr_run_total t analyze preds nest entry delay desc use_asm asm init w :
  (forall h, wf_thr (t h)) -> (forall n a, env_ok a -> env_ok (analyze n a)) ->
  env_ok init -> (forall n a, use_asm = true -> asm n = Some a -> env_ok a) ->
  exists fuel e,
    run env (itv_ops_thr t) analyze preds nest entry delay desc use_asm asm init fuel w = Some e.
Proof.
  intros WT AO OKi OKa.
  exact (itv_run_total _ (fun h => env_ok_widen_thr _ _) analyze AO preds nest entry delay desc
           use_asm asm init OKi OKa (fun h => e_lt_thr (t h)) w (fun h => e_lt_thr_wf (t h))
           (fun h => e_widen_thr_progress (t h) (WT h))).
Qed.

(* an answer that more fuel never changes does not depend on the fuel *)
Lemma fuel_mono_deterministic {A} (f : nat -> option A) :
  (forall n n' e, f n = Some e -> n <= n' -> f n' = Some e) ->
  forall n1 n2 e1 e2, f n1 = Some e1 -> f n2 = Some e2 -> e1 = e2.
Proof.
  intros M n1 n2 e1 e2 H1 H2.
  pose proof (M _ (Nat.max n1 n2) _ H1 (Nat.le_max_l _ _)) as A1.
  pose proof (M _ (Nat.max n1 n2) _ H2 (Nat.le_max_r _ _)) as A2. congruence.
Qed.

Theorem fwd_run_fuel_mono p w entry delay desc use_asm asm init fuel fuel' e :
  fwd_run p w entry delay desc use_asm asm fuel init = Some e -> fuel <= fuel' ->
  fwd_run p w entry delay desc use_asm asm fuel' init = Some e.
Proof. unfold fwd_run. apply run_mono. Qed.

Theorem fwd_run_terminates p w entry delay desc use_asm asm init :
  env_ok init -> (forall n a, use_asm = true -> asm n = Some a -> env_ok a) ->
  exists fuel e, fwd_run p w entry delay desc use_asm asm fuel init = Some e.
Proof. apply plain_run_total. intros n a. apply tr_block_ok. Qed.

Theorem fwd_run_ok p w entry delay desc use_asm asm init fuel e :
  env_ok init -> (forall n a, use_asm = true -> asm n = Some a -> env_ok a) ->
  fwd_run p w entry delay desc use_asm asm fuel init = Some e ->
  forall n, env_ok (e_pre env e n) /\ env_ok (e_post env e n).
Proof.
  intros OKi OKa. apply (itv_run_ok (fun _ => e_widen) (fun _ => env_ok_widen)); [|exact OKi|exact OKa].
  intros n a. apply tr_block_ok.
Qed.

Corollary fwd_run_deterministic p w entry delay desc use_asm asm init f1 f2 e1 e2 :
  fwd_run p w entry delay desc use_asm asm f1 init = Some e1 ->
  fwd_run p w entry delay desc use_asm asm f2 init = Some e2 -> e1 = e2.
Proof.
  apply (fuel_mono_deterministic (fun fuel => fwd_run p w entry delay desc use_asm asm fuel init)).
  intros n n' e. apply fwd_run_fuel_mono.
Qed.

Definition fwd_run_thr (t : nat -> thr) (p : prog) (w : wto) (entry delay desc : nat) (use_asm : bool)
           (asm : nat -> option env) (fuel : nat) (init : env) : option (est env) :=
  run env (itv_ops_thr t) (fun n e => tr_block (p_block p n) e) (p_preds p) (nest_of w) entry
      delay desc use_asm asm init fuel w.

Theorem fwd_run_thr_fuel_mono t p w entry delay desc use_asm asm init fuel fuel' e :
  fwd_run_thr t p w entry delay desc use_asm asm fuel init = Some e -> fuel <= fuel' ->
  fwd_run_thr t p w entry delay desc use_asm asm fuel' init = Some e.
Proof. unfold fwd_run_thr. apply run_mono. Qed.

Theorem fwd_run_thr_terminates t p w entry delay desc use_asm asm init :
  (forall h, wf_thr (t h)) ->
  env_ok init -> (forall n a, use_asm = true -> asm n = Some a -> env_ok a) ->
  exists fuel e, fwd_run_thr t p w entry delay desc use_asm asm fuel init = Some e.
Proof. intros WT. apply (thr_run_total t _ _ _ _ _ _ _ _ _ _ WT). intros n a. apply tr_block_ok. Qed.

(* example: the loop
     bb0: i := 0            bb1 (head): assume true     bb2: assume i <= 9; i := i + 1
     bb3: assume i >= 10    edges 0->1, 1->2, 2->1, 1->3 *)
Definition ex_i : var := 0%N.
Definition ex_prog : prog :=
  mkProg [ [SAssign ex_i (mkLE [] 0)];
           [];
           [SAssume (mkLC INEQ (mkLE [(1%Z, ex_i)] (-9))); SArith OpAdd ex_i ex_i (OCst 1)];
           [SAssume (mkLC INEQ (mkLE [((-1)%Z, ex_i)] 10))] ]
         [(0, 1); (1, 2); (2, 1); (1, 3)].
Definition ex_wto : wto := [Vertex 0; Cycle 1 [Vertex 2]; Vertex 3].

Example fwd_run_example :
  env_ok e_top /\
  (exists e, fwd_run ex_prog ex_wto 0 1 2 false (fun _ => None) 3 e_top = Some e /\
             e_at (e_post env e 3) ex_i = mkI (Fin 10) (Fin 10) /\
             e_at (e_pre env e 1) ex_i = mkI (Fin 0) (Fin 10)) /\
  fwd_run ex_prog ex_wto 0 1 2 false (fun _ => None) 2 e_top = None.
Proof.
  split; [exact env_ok_top|]. split; [|vm_compute; reflexivity].
  eexists. split; [vm_compute; reflexivity|]. split; vm_compute; reflexivity.
Qed.
