(* InterBURecSound.v — property C10 for the model of the bottom-up inter-procedural analyzer on
   ANY call graph (Ana/InterBURec.v: bur_run, and its general form bur_run_ord over arbitrary
   orders of the two phases), directly and without the certificate checker.  Whenever the model
   returns without error flag (the flag is raised by fuel exhaustion only),
     - every summary of the bottom-up phase contains the final store of every terminating
       concrete execution of its function, whatever the inputs (a callsite whose callee has no
       summary yet - the function itself, a later member of its recursive component - forgets its
       lhs variables);
     - the tables of the top-down phase contain every state with which an execution started at
       an entry function (a function without callers or a member of a recursive component)
       from an initial state enters / leaves a block, in any frame of the call stack, recursive
       activations included (a member of a recursive component is ANALYSED from top, so for it
       the hypothesis on the initial states is not used).
   The proof does not depend on the orders: the summaries are sound whatever the order; a function
   that is analysed from the call table must come after all its callers (tested by the model
   itself: all_in (cg_preds p f) done), any other function is analysed from top.  No property of
   the depth-first search or of the reachability test of the call graph is needed.
   The invariant of the top-down phase and its preservation by the analysis of one more function
   are those of Ana/InterBUModelSound.v (TI, TI_step); what is added here is the top calling
   context of a recursive function. *)
From Coq Require Import ZArith NArith List Bool Arith Lia Relations.
From CrabV Require Import Base.ZInf Scalar.Itv Ir.Syntax Ir.Cfg Dom.ItvEnv Dom.ItvEnvSound Dom.ItvDomain
     Dom.ItvDomainSound Fix.Wto Fix.WtoCheck Fix.WtoSound Fix.WtoRoot Fix.Engine Fix.EngineCheck Fix.EngineRel
     Fix.EngineFS Fix.EngineSound Ana.CfgSem Ana.Transformer Ana.FwdItv Ana.FwdItvEngineSound
     Ana.InterSyntax Ana.InterSem Ana.InterTD Ana.InterTDSound Ana.InterBU Ana.InterBUSound
     Ana.InterEngineSound Ana.InterTDModelSound Ana.InterTDRecset Ana.InterBUModelSound Ana.InterBURec.
Import ListNotations.

Section BURecModel.
  Variable p : iprog.
  Variable voff : N.
  Hypothesis WF : iprog_wfb p voff = true.
  Hypothesis LOW : iprog_lowb p voff = true.
  Variables delay desc efuel : nat.
  Variable wtos : nat -> wto.
  Hypothesis WTO : forall f, f < length p -> build (fn_graph (get_fn p f)) 0 = Some (wtos f).

  Notation gL := (genvL voff).

  Lemma bur_bu_inv ord : SInv p (fst (bur_bu p voff delay desc efuel wtos ord)).
  Proof.
    unfold bur_bu. apply (fold_left_inv (fun acc => SInv p (fst acc))); [|apply SInv_none].
    intros acc f _ SI. unfold bur_bu_step.
    destruct (bu_summary p voff delay desc efuel wtos (fst acc) f) as [r|] eqn:BS; cbn [fst]; [|exact SI].
    exact (bu_summary_inv p voff WF LOW delay desc efuel wtos WTO (fst acc) SI f r BS).
  Qed.

  Lemma exec_fun_lt g s0 s1 : exec_fun p g s0 s1 -> g < length p.
  Proof.
    intros X. destruct (exec_fun_exit p g s0 s1 X) as (x & E).
    destruct (Nat.lt_ge_cases g (length p)) as [L|G]; [exact L|].
    unfold get_fn in E. rewrite nth_overflow in E by exact G. cbn in E. discriminate.
  Qed.

  Section TopDown.
    Variable sums : nat -> option env.
    Hypothesis SI : SInv p sums.
    Variable entries : list nat.
    Variable Init : store -> Prop.
    Variable init : env.
    Hypothesis HInit : forall s, Init s -> gL init s.
    Hypothesis HE : forall f, In f entries -> f < length p /\ (cg_preds p f = [] \/ cg_isrec p f = true).

    Notation CT := (CT voff sums).
    Notation TI := (TI p voff sums entries Init).

    (* m_call_tbl.insert(fdecl, make_td_top()) *)
    Lemma ctab_insert_top_get ct f s : gL (ctab_get (ctab_insert ct f e_top) f) s.
    Proof.
      unfold ctab_get, ctab_insert, fupd. rewrite Nat.eqb_refl.
      destruct (ct f) as [old|]; [apply e_join_soundL_r|]; apply genvL_top.
    Qed.

    Lemma ctab_insert_top_CT ct f : CT ct -> CT (ctab_insert ct f e_top).
    Proof.
      intros C0 g SN c E s. unfold ctab_insert, fupd in E. destruct (Nat.eqb_spec g f) as [->|N].
      - destruct (ct f) as [old|]; inversion E; subst c; [apply e_join_soundL_r|]; apply genvL_top.
      - exact (C0 g SN c E s).
    Qed.

    Lemma bur_td_step_inv acc f : TI acc -> TI (bur_td_step p voff delay desc efuel wtos sums init acc f).
    Proof.
      intros HT. unfold bur_td_step.
      destruct (nmem f (t_done acc)) eqn:ND; [exact HT|]. cbv zeta.
      set (ct1 := if cg_isrec p f then ctab_insert (t_ct acc) f e_top else t_ct acc).
      match goal with |- TI (match ?X with _ => _ end) => destruct X as [r|] eqn:RUN end;
        intros E; [|discriminate E].
      refine (TI_step p voff WF LOW delay desc efuel wtos WTO sums SI entries Init (fun f I => proj1 (HE f I))
                acc f ct1 _ r HT E ND _ _ _ RUN E); unfold ct1; destruct (cg_isrec p f) eqn:RC.
      - apply ctab_insert_step.
      - apply ctstep_refl.
      - apply ctab_insert_top_CT, (HT E).
      - apply (HT E).
      - intros s0 _. apply ctab_insert_top_get.
      - intros s0 ES. destruct (all_in (cg_preds p f) (t_done acc)) eqn:AI; [|apply genvL_top].
        destruct (entry_state_cases p voff sums entries Init acc f s0 HT E AI ES) as [[Ie Is]|[NP Gs]].
        + destruct (HE f Ie) as [_ [CP|RC']]; [|rewrite RC in RC'; discriminate].
          rewrite CP. apply HInit, Is.
        + destruct (cg_preds p f); [contradiction|exact Gs].
    Qed.
  End TopDown.

  Theorem bur_run_ord_sound obu otd entries init :
    (forall f, In f entries -> f < length p /\ (cg_preds p f = [] \/ cg_isrec p f = true)) ->
    let r := bur_run_ord p voff delay desc efuel wtos obu otd init in
    b_err r = false ->
    forall Init : store -> Prop, (forall s, Init s -> gL init s) ->
    (forall f n s, IRPre p entries Init f n s -> genv (b_pre r f n) s) /\
    (forall f n s, IRPost p entries Init f n s -> genv (b_post r f n) s) /\
    (forall sm, In sm (bu_summaries p (b_sum r)) ->
       forall s0 s1, genv (s_pre sm) s0 -> exec_fun p (s_fn sm) s0 s1 -> genv (s_post sm) s1).
  Proof.
    intros HE. cbv zeta. unfold bur_run_ord.
    destruct (cg_no_edges p) eqn:NE.
    - (* the call graph has no edges: bu_run *)
      intros FN Init HI.
      apply (bu_run_sound p voff WF LOW delay desc efuel wtos WTO entries init); [|exact FN|exact HI].
      intros f I. split; [apply HE, I|apply no_edges_no_preds, NE].
    - pose proof (bur_bu_inv obu) as SIf.
      destruct (bur_bu p voff delay desc efuel wtos obu) as [sums err].
      cbn [fst snd] in *. cbn [b_err b_pre b_post b_sum]. intros FN Init HI.
      destruct (TI_tables p voff sums entries Init (bur_td p voff delay desc efuel wtos sums init otd)) as [TA TB].
      + unfold bur_td. apply fold_left_inv; [|apply TI_init].
        intros acc f _. apply (bur_td_step_inv sums SIf entries Init init HI HE).
      + match goal with |- ?X = false => destruct X; [|reflexivity] end.
        rewrite orb_true_r in FN. discriminate FN.
      + split; [exact TA|]. split; [exact TB|apply SInv_summaries, SIf].
  Qed.

  (* run(init) with the orders of the code *)
  Theorem bur_run_sound entries init :
    (forall f, In f entries -> f < length p /\ (cg_preds p f = [] \/ cg_isrec p f = true)) ->
    let r := bur_run p voff delay desc efuel wtos init in
    b_err r = false ->
    forall Init : store -> Prop, (forall s, Init s -> gL init s) ->
    (forall f n s, IRPre p entries Init f n s -> genv (b_pre r f n) s) /\
    (forall f n s, IRPost p entries Init f n s -> genv (b_post r f n) s) /\
    (forall sm, In sm (bu_summaries p (b_sum r)) ->
       forall s0 s1, genv (s_pre sm) s0 -> exec_fun p (s_fn sm) s0 s1 -> genv (s_post sm) s1).
  Proof. intros HE. exact (bur_run_ord_sound (cg_post p) (cg_rpost p) entries init HE). Qed.
End BURecModel.

Lemma bur_entries_ok p f : In f (bur_entries p) -> f < length p /\ (cg_preds p f = [] \/ cg_isrec p f = true).
Proof.
  unfold bur_entries. intros I. apply filter_In in I. destruct I as [I H]. apply in_seq in I.
  split; [lia|]. apply orb_true_iff in H. destruct H as [H|H]; [left|right; exact H].
  unfold cg_no_preds in H. destruct (cg_preds p f); [reflexivity|discriminate].
Qed.

Theorem bur_model_sound p delay desc efuel wtos init :
  let voff := prog_voff p in
  iprog_wfb p voff = true ->
  (forall f, f < length p -> build (fn_graph (get_fn p f)) 0 = Some (wtos f)) ->
  let r := bur_run p voff delay desc efuel wtos init in
  b_err r = false ->
  forall Init : store -> Prop,
  (forall s s', Init s -> (forall k, (k < voff)%N -> s' k = s k) -> genv init s') ->
  (forall f n s, IRPre p (bur_entries p) Init f n s -> genv (b_pre r f n) s) /\
  (forall f n s, IRPost p (bur_entries p) Init f n s -> genv (b_post r f n) s) /\
  (forall sm, In sm (bu_summaries p (b_sum r)) ->
     forall s0 s1, genv (s_pre sm) s0 -> exec_fun p (s_fn sm) s0 s1 -> genv (s_post sm) s1).
Proof.
  intros voff WF WTO r FN Init HI.
  apply (bur_run_sound p voff WF (prog_voff_low p) delay desc efuel wtos WTO (bur_entries p) init
           (bur_entries_ok p) FN Init).
  intros s Is s' A. apply (HI s s' Is A).
Qed.

Corollary bur_model_summary_any_input p delay desc efuel wtos init :
  let voff := prog_voff p in
  iprog_wfb p voff = true ->
  (forall f, f < length p -> build (fn_graph (get_fn p f)) 0 = Some (wtos f)) ->
  let r := bur_run p voff delay desc efuel wtos init in
  b_err r = false ->
  forall f sum, f < length p -> b_sum r f = Some sum ->
  forall s0 s1, exec_fun p f s0 s1 -> genv sum s1.
Proof.
  intros voff WF WTO r FN. apply bu_summaries_any_input.
  apply (bur_model_sound p delay desc efuel wtos init WF WTO FN (fun _ => False)). intros s s' [].
Qed.
