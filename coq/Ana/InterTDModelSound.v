(* InterTDModelSound.v — property C09 for the MODEL of the top-down inter-procedural analyzer
   (Ana/InterTD.v, td_run), directly and without the certificate checker: whenever the model
   returns without having run out of fuel anywhere (g_err = false), with max_call_contexts
   unbounded,
     - the context-insensitive tables contain every state with which an execution started at
       an entry function enters / leaves a block, in any frame of the call stack;
     - every stored (precondition, postcondition) summary relates the inputs and outputs of
       every concrete call whose inputs satisfy the precondition.
   For every well-formed program and call graph (direct and mutual recursion included: the
   recursive calls are replaced by top, analyze_recursive_functions = false), every
   exact_summary_reuse, widening delay, number of descending iterations, engine fuel and depth
   fuel, provided
     - the ordering of each CFG is the one computed by the model of wto.hpp from block 0;
     - the recursive set contains every function reachable from an entry that lies on a call
       graph cycle (Ana/InterTDRecset.v: the model's cg_recset does)
   (an entry function of the recursive set is analysed from top: fixes/inter-6).
   The proof instantiates Ana/InterEngineSound.v for the body of each function, by induction on
   the depth fuel; the invariant of the global state says that every stored calling context is
   a summary and that its tables cover the intra-procedural executions from its precondition,
   the callee entries reached from them being covered by a stored context, by a function
   of the recursive set whose analysis is running (it started from top), or by a finished
   entry function. *)
From Coq Require Import ZArith NArith List Bool Arith Lia Relations.
From CrabV Require Import Base.ZInf Scalar.Itv Ir.Syntax Ir.Cfg Dom.ItvEnv Dom.ItvEnvSound Dom.ItvDomain
     Dom.ItvDomainSound Fix.Wto Fix.WtoCheck Fix.WtoSound Fix.WtoRoot Fix.Engine Fix.EngineCheck Fix.EngineRel
     Fix.EngineFS Ana.Transformer Ana.FwdItv Ana.FwdItvEngineSound Ana.InterSyntax Ana.InterSem Ana.InterTD
     Ana.InterTDSound Ana.InterEngineSound.
Import ListNotations.

Lemma fn_preds_edge : forall fn n q, In q (fn_preds fn n) <-> In (q, n) (f_edges fn).
Proof.
  intros fn n q. unfold fn_preds. rewrite in_map_iff. split.
  - intros [[a b] [E I]]. apply filter_In in I. destruct I as [I F]. cbn [fst snd] in *.
    apply Nat.eqb_eq in F. subst. exact I.
  - intros I. exists (q, n). split; [reflexivity|]. apply filter_In. split; [exact I|].
    cbn [snd]. apply Nat.eqb_refl.
Qed.
Lemma fn_succs_edge : forall fn q n, In n (fn_succs fn q) <-> In (q, n) (f_edges fn).
Proof.
  intros fn q n. unfold fn_succs. rewrite dedup_In, in_map_iff. split.
  - intros [[a b] [E I]]. apply filter_In in I. destruct I as [I F]. cbn [fst snd] in *.
    apply Nat.eqb_eq in F. subst. exact I.
  - intros I. exists (q, n). split; [reflexivity|]. apply filter_In. split; [exact I|].
    cbn [fst]. apply Nat.eqb_refl.
Qed.
Lemma fn_graph_succs : forall fn q, q < fn_nblocks fn -> succs (fn_graph fn) q = fn_succs fn q.
Proof.
  intros fn q L. unfold succs, fn_graph.
  rewrite (nth_indep _ [] (fn_succs fn 0)) by (rewrite map_length, seq_length; exact L).
  rewrite map_nth, seq_nth by exact L. reflexivity.
Qed.

Lemma nmem_spec x l : nmem x l = true <-> In x l.
Proof.
  unfold nmem. rewrite existsb_exists. split.
  - intros (y & I & E). apply Nat.eqb_eq in E. subst. exact I.
  - intros I. exists x. split; auto. apply Nat.eqb_refl.
Qed.

Lemma is_subsumed_leq c d x : is_subsumed c d x = true -> e_leq d (c_pre c) = true.
Proof.
  unfold is_subsumed. destruct (c_exact c && x); auto.
  intros H. apply andb_true_iff in H. tauto.
Qed.

Definition cg_edge (p : iprog) (f g : nat) : Prop :=
  exists n outs ins, In (ICall outs g ins) (fn_block (get_fn p f) n).
Definition cg_path (p : iprog) : nat -> nat -> Prop := clos_trans nat (cg_edge p).
Definition cg_reach (p : iprog) (entries : list nat) (f : nat) : Prop :=
  exists e, In e entries /\ clos_refl_trans nat (cg_edge p) e f.

(* order on global states *)
Record gstep (g g' : gst) : Prop := mkGS {
  gs_err : g_err g = true -> g_err g' = true;
  gs_cc : forall f c, In c (g_cc g f) -> In c (g_cc g' f);
  gs_pre : forall f n s, genv (g_pre g f n) s -> genv (g_pre g' f n) s;
  gs_post : forall f n s, genv (g_post g f n) s -> genv (g_post g' f n) s;
  gs_stack : g_stack g' = g_stack g }.

Lemma gstep_refl g : gstep g g.
Proof. constructor; auto. Qed.
Lemma gstep_trans a b c : gstep a b -> gstep b c -> gstep a c.
Proof.
  intros [A1 A2 A3 A4 A5] [B1 B2 B3 B4 B5]. constructor; auto. congruence.
Qed.
Lemma gstep_fin g g' : gstep g g' -> g_err g' = false -> g_err g = false.
Proof.
  intros S F. destruct (g_err g) eqn:E; auto. rewrite (gs_err _ _ S E) in F. discriminate.
Qed.

Lemma in_add_ctx g f c f' c' :
  In c' (g_cc (add_ctx None g f c) f') <-> In c' (g_cc g f') \/ f' = f /\ c' = c.
Proof.
  cbn. unfold fupd. destruct (Nat.eqb_spec f' f) as [->|N]; [rewrite in_app_iff; cbn|]; intuition congruence.
Qed.

Lemma pop_add_step g f g2 c : gstep (push f g) g2 -> gstep g (add_ctx None (pop g2) f c).
Proof.
  intros [A1 A2 A3 A4 A5]. constructor; [exact A1| |exact A3|exact A4|].
  - intros f0 c0 I. apply in_add_ctx. left. exact (A2 f0 c0 I).
  - cbn. rewrite A5. apply removelast_last.
Qed.

Section Model.
  Variable p : iprog.
  Variable voff : N.
  Hypothesis WF : iprog_wfb p voff = true.
  Variable exact_reuse : bool.
  Variables delay desc efuel : nat.
  Variable wtos : nat -> wto.
  Variable recset : list nat.
  Hypothesis WTO : forall f, f < length p -> build (fn_graph (get_fn p f)) 0 = Some (wtos f).
  (* the functions that the analysis can reach *)
  Variable Reach : nat -> Prop.
  Hypothesis Reach_edge : forall f g, Reach f -> cg_edge p f g -> Reach g.
  Hypothesis REC : forall f, Reach f -> cg_path p f f -> In f recset.

  Definition bstepf (f n : nat) : store -> store -> Prop := exec_block p (fn_block (get_fn p f) n).
  Definition IPre (f : nat) (S0 : store -> Prop) : nat -> store -> Prop :=
    RPre env store genv (bstepf f) (fn_preds (get_fn p f)) 0 false (fun _ : nat => @None env) S0.
  Definition IPost (f : nat) (S0 : store -> Prop) : nat -> store -> Prop :=
    RPost env store genv (bstepf f) (fn_preds (get_fn p f)) 0 false (fun _ : nat => @None env) S0.

  Lemma IPre_init f (S0 : store -> Prop) s : S0 s -> IPre f S0 0 s.
  Proof. intros H. apply RP_init; [exact H|exact I]. Qed.
  Lemma IPre_edge f S0 q n s : In (q, n) (f_edges (get_fn p f)) -> IPost f S0 q s -> IPre f S0 n s.
  Proof. intros E H. apply RP_edge with q; [apply fn_preds_edge; exact E|exact H|exact I]. Qed.
  Lemma IPost_step f S0 n s s' : IPre f S0 n s -> exec_block p (fn_block (get_fn p f) n) s s' -> IPost f S0 n s'.
  Proof. intros H B. apply RPo with s; assumption. Qed.

  Lemma exec_from_intra S0 g n a b : exec_from p g n a b -> IPre g S0 n a ->
    exists x, f_exit (get_fn p g) = Some x /\ IPost g S0 x b.
  Proof.
    induction 1 as [g n a b E B | g n m a b c B I F IH]; intros R.
    - exists n. split; [exact E|]. eapply IPost_step; eauto.
    - apply IH. eapply IPre_edge; eauto. eapply IPost_step; eauto.
  Qed.

  Definition stmt_ok (fcur : nat) (st : istmt) : Prop :=
    istmt_wfb p voff (get_fn p fcur) st = true /\
    forall outs f ins, st = ICall outs f ins -> cg_edge p fcur f.

  Lemma block_stmt_ok f n : f < length p -> forall st, In st (fn_block (get_fn p f) n) -> stmt_ok f st.
  Proof.
    intros Lf st I. destruct (fn_wf p voff WF f Lf) as (_ & _ & _ & _ & Wb).
    split; [exact (Wb n st I)|]. intros outs f' ins ->. exists n, outs, ins. exact I.
  Qed.

  (* the entry state s0 of a callee g0 is accounted for: by a stored context, because g0 is a
     function of the recursive set under analysis, or by R (finished entry functions and their
     entry states) *)
  Definition gcov (R : nat -> store -> Prop) (g : gst) (g0 : nat) (s0 : store) : Prop :=
    (exists c, In c (g_cc g g0) /\ genv (c_pre c) s0) \/ (In g0 (g_stack g) /\ In g0 recset) \/ R g0 s0.

  Definition CallCov (cov : nat -> store -> Prop) (st : istmt) (s : store) : Prop :=
    forall outs g0 ins s0, st = ICall outs g0 ins -> bind_ins (f_ins (get_fn p g0)) ins s s0 -> cov g0 s0.
  Definition CallsCov (cov : nat -> store -> Prop) (bl : iblock) (s : store) : Prop :=
    forall l1 st l2 mid, bl = l1 ++ st :: l2 -> exec_block p l1 s mid -> CallCov cov st mid.

  Lemma CallsCov_nil cov s : CallsCov cov [] s.
  Proof. intros [|? ?] st l2 mid E; discriminate. Qed.
  Lemma CallsCov_cons cov st r s :
    CallCov cov st s -> (forall m, exec_stmt p st s m -> CallsCov cov r m) -> CallsCov cov (st :: r) s.
  Proof.
    intros H T [|st' l1] st0 l2 mid E X; inversion E; subst; inversion X; subst; [exact H|].
    eapply T; eauto.
  Qed.
  Lemma CallsCov_mono (cov cov' : nat -> store -> Prop) bl s :
    (forall g0 s0, cov g0 s0 -> cov' g0 s0) -> CallsCov cov bl s -> CallsCov cov' bl s.
  Proof. intros M H l1 st l2 mid E X outs g0 ins s0 Es B. eapply M, H; eauto. Qed.

  (* the tables of f cover the intra-procedural executions from S0 and the callee entries
     reached from them are accounted for *)
  Definition gctx R (g : gst) (f : nat) (S0 : store -> Prop) : Prop :=
    (forall n s, IPre f S0 n s ->
       genv (g_pre g f n) s /\ CallsCov (gcov R g) (fn_block (get_fn p f) n) s) /\
    (forall n s, IPost f S0 n s -> genv (g_post g f n) s).

  Definition SummOK (f : nat) (c : ctx) : Prop :=
    exists sum, c_post c = e_project sum (fn_formals (get_fn p f)) /\
                forall s0, genv (c_pre c) s0 -> forall s1, exec_fun p f s0 s1 -> genv sum s1.
  Definition ctx_ok R (g : gst) (f : nat) (c : ctx) : Prop :=
    f < length p /\ SummOK f c /\ gctx R g f (genv (c_pre c)).
  Definition GI R (g : gst) : Prop := forall f c, In c (g_cc g f) -> ctx_ok R g f c.

  (* what gctx and ctx_ok are monotone in *)
  Record gle R (g : gst) R' (g' : gst) : Prop := mkGle {
    gl_pre : forall f n s, genv (g_pre g f n) s -> genv (g_pre g' f n) s;
    gl_post : forall f n s, genv (g_post g f n) s -> genv (g_post g' f n) s;
    gl_cov : forall g0 s0, gcov R g g0 s0 -> gcov R' g' g0 s0 }.

  Lemma gle_trans R1 g1 R2 g2 R3 g3 : gle R1 g1 R2 g2 -> gle R2 g2 R3 g3 -> gle R1 g1 R3 g3.
  Proof. intros [A1 A2 A3] [B1 B2 B3]. constructor; auto. Qed.

  Lemma gctx_mono R g R' g' f S0 : gle R g R' g' -> gctx R g f S0 -> gctx R' g' f S0.
  Proof.
    intros [L1 L2 L3] [A B]. split.
    - intros n s X. destruct (A n s X) as [X1 X2]. split; [apply L1, X1|]. revert X2. apply CallsCov_mono, L3.
    - intros n s X. apply L2, B, X.
  Qed.
  Lemma ctx_ok_mono R g R' g' f c : gle R g R' g' -> ctx_ok R g f c -> ctx_ok R' g' f c.
  Proof. intros L (Lf & SO & CC). split; [exact Lf|]. split; [exact SO|]. revert CC. apply gctx_mono, L. Qed.
  Lemma GI_mono R g R' g' : gle R g R' g' -> g_cc g' = g_cc g -> GI R g -> GI R' g'.
  Proof. intros L E H f c I. rewrite E in I. exact (ctx_ok_mono _ _ _ _ _ _ L (H f c I)). Qed.

  Lemma gstep_gle R g g' : gstep g g' -> gle R g R g'.
  Proof.
    intros [_ S2 S3 S4 S5]. constructor; [exact S3|exact S4|]. unfold gcov. rewrite S5.
    intros g0 s0 [(c & I & Gc)|H]; [left; exists c; auto|right; exact H].
  Qed.
  Lemma push_gle R f g : gle R g R (push f g).
  Proof.
    constructor; auto. intros g0 s0 [H|[[I J]|H]]; [left; exact H| |right; right; exact H].
    right. left. split; [apply in_or_app; left; exact I|exact J].
  Qed.
  (* f leaves the stack; if it is in the recursive set, its entry states are accounted for otherwise *)
  Lemma pop_gle (R R' : nat -> store -> Prop) g g' f :
    g_pre g' = g_pre g -> g_post g' = g_post g -> g_stack g = g_stack g' ++ [f] ->
    (forall h c, In c (g_cc g h) -> In c (g_cc g' h)) -> (forall h s, R h s -> R' h s) ->
    (In f recset -> forall s, gcov R' g' f s) -> gle R g R' g'.
  Proof.
    intros E1 E2 EK CC RR TOP. constructor; [rewrite E1; auto|rewrite E2; auto|].
    intros g0 s0 [(c & I & Gc)|[[I J]|H]].
    - left. exists c. auto.
    - rewrite EK in I. apply in_app_or in I. destruct I as [I|[<-|[]]]; [right; left; auto|apply TOP, J].
    - right. right. auto.
  Qed.

  Lemma GI_push R f g : GI R g -> GI R (push f g).
  Proof. apply GI_mono; [apply push_gle|reflexivity]. Qed.

  (* the stack is a call chain that ends at the function under analysis *)
  Definition StackInv (K : list nat) (f : nat) : Prop :=
    Reach f /\ forall h, In h K -> clos_refl_trans nat (cg_edge p) h f.

  Lemma StackInv_push K f g : StackInv K f -> cg_edge p f g -> StackInv (K ++ [g]) g.
  Proof.
    intros [R H] E. split; [exact (Reach_edge f g R E)|].
    intros h I. apply in_app_or in I. destruct I as [I|[<-|[]]]; [|apply rt_refl].
    eapply rt_trans; [exact (H h I)|apply rt_step, E].
  Qed.
  Lemma StackInv_hit K f g : StackInv K f -> cg_edge p f g -> In g K -> In g recset.
  Proof.
    intros [R H] E I. apply REC; [exact (Reach_edge f g R E)|].
    eapply clos_rt_t; [exact (H g I)|apply t_step, E].
  Qed.

  Definition exit_of (f : nat) (tq : nat -> env) : env :=
    match f_exit (get_fn p f) with Some x => tq x | None => EBot end.

  Section Spec.
    Variable Root : nat -> store -> Prop.

    (* while function f is analysed *)
    Definition Inv (f : nat) (g : gst) : Prop := GI Root g /\ StackInv (g_stack g) f.

    (* r is a sound result of the abstract execution of X from the value e and the global
       state g, in function f; C says which callee entries X goes through (the shape of
       analyze_s in InterEngineSound) *)
    Definition tr_ok (f : nat) (C : (nat -> store -> Prop) -> store -> Prop) (X : store -> store -> Prop)
               (e : env) (g : gst) (r : env * gst) : Prop :=
      g_err (snd r) = false -> Inv f g ->
      Inv f (snd r) /\
      forall a, genv e a -> C (gcov Root (snd r)) a /\ forall b, X a b -> genv (fst r) b.

    Definition td_spec (td : nat -> env -> gst -> (nat -> env) * (nat -> env) * gst) : Prop :=
      forall f entry g,
        gstep g (snd (td f entry g)) /\
        (g_err (snd (td f entry g)) = false -> Inv f g -> f < length p ->
         GI Root (snd (td f entry g)) /\
         gctx Root (snd (td f entry g)) f (genv entry) /\
         (forall s0, genv entry s0 ->
            forall s1, exec_fun p f s0 s1 -> genv (exit_of f (snd (fst (td f entry g)))) s1)).

    Variable td : nat -> env -> gst -> (nat -> env) * (nat -> env) * gst.
    Hypothesis TD : td_spec td.

    Notation trc := (tr_call p voff None exact_reuse recset td).

    (* the second half of tr_call: the summary of f for the entry value ce (reused, top for a
       function under analysis, or computed), and the global state *)
    Definition callee_summary (f : nat) (ce : env) (g : gst) : env * gst :=
      match find (fun c => is_subsumed c ce exact_reuse) (g_cc g f) with
      | Some c => (c_post c, g)
      | None =>
        if nmem f (g_stack g) then (e_project e_top (fn_formals (get_fn p f)), g)
        else
          let r := td f ce (push f g) in
          let post := e_project (exit_of f (snd (fst r))) (fn_formals (get_fn p f)) in
          (post, add_ctx None (pop (snd r)) f (mkCtx ce post true))
      end.

    Lemma tr_call_eq outs f ins e g :
      trc outs f ins e g =
      if e_is_bot e then (e, g)
      else
        let fn := get_fn p f in
        let q := callee_summary f (if nmem f recset then e_top
                                   else callee_entry voff outs ins (f_ins fn) (f_outs fn) e) g in
        (cont voff outs ins (f_ins fn) (f_outs fn) e (fst q), snd q).
    Proof.
      unfold tr_call, callee_summary. destruct (e_is_bot e); [reflexivity|].
      destruct (find _ _); [reflexivity|]. destruct (nmem f (g_stack g)); reflexivity.
    Qed.

    Lemma callee_summary_step f ce g : gstep g (snd (callee_summary f ce g)).
    Proof.
      unfold callee_summary. destruct (find _ _); [apply gstep_refl|].
      destruct (nmem f (g_stack g)); [apply gstep_refl|]. apply pop_add_step, TD.
    Qed.

    Lemma callee_summary_sound fcur f ce g :
      f < length p -> cg_edge p fcur f -> (In f recset -> ce = e_top) ->
      g_err (snd (callee_summary f ce g)) = false -> Inv fcur g ->
      GI Root (snd (callee_summary f ce g)) /\
      exists sum, fst (callee_summary f ce g) = e_project sum (fn_formals (get_fn p f)) /\
        forall s0, genv ce s0 ->
          gcov Root (snd (callee_summary f ce g)) f s0 /\ forall s1, exec_fun p f s0 s1 -> genv sum s1.
    Proof.
      intros Lf CE TOP FN [GI0 SI]. unfold callee_summary in *.
      destruct (find _ _) as [c|] eqn:FD.
      { apply find_some in FD. destruct FD as [IC SUB]. apply is_subsumed_leq in SUB.
        destruct (GI0 f c IC) as (_ & (sum & EQ & SS) & _).
        split; [exact GI0|]. exists sum. split; [exact EQ|]. intros s0 G0.
        pose proof (e_leq_sound _ _ _ SUB G0) as Gc. split; [left; exists c; auto|exact (SS s0 Gc)]. }
      destruct (nmem f (g_stack g)) eqn:NM.
      { apply nmem_spec in NM. split; [exact GI0|]. exists e_top. split; [reflexivity|]. intros s0 _.
        split; [|intros; apply genv_top]. right. left. split; [exact NM|]. eapply StackInv_hit; eauto. }
      destruct (TD f ce (push f g)) as [ST SP]. destruct (td f ce (push f g)) as [[tp tq] g2].
      cbn [fst snd] in *. set (sum := exit_of f tq) in *.
      set (cnew := mkCtx ce (e_project sum (fn_formals (get_fn p f))) true) in *.
      set (g' := add_ctx None (pop g2) f cnew) in *.
      destruct (SP FN (conj (GI_push Root f g GI0) (StackInv_push _ _ _ SI CE)) Lf) as (GI2 & CC2 & EXIT).
      assert (CN : forall s0, genv ce s0 -> gcov Root g' f s0).
      { intros s0 G0. left. exists cnew. split; [apply in_add_ctx; auto|exact G0]. }
      assert (LE : gle Root g2 Root g').
      { apply pop_gle with f; auto.
        - cbn. rewrite (gs_stack _ _ ST). cbn. rewrite removelast_last. reflexivity.
        - intros h c I. apply in_add_ctx. left. exact I.
        - intros J s. apply CN. rewrite (TOP J). apply genv_top. }
      split.
      - intros f' c IC. apply in_add_ctx in IC. destruct IC as [IC|[-> ->]].
        + exact (ctx_ok_mono _ _ _ _ _ _ LE (GI2 f' c IC)).
        + split; [exact Lf|]. split; [exists sum; split; [reflexivity|exact EXIT]|].
          revert CC2. apply gctx_mono, LE.
      - exists sum. split; [reflexivity|]. intros s0 G0. split; [apply CN, G0|exact (EXIT s0 G0)].
    Qed.

    Lemma tr_call_step outs f ins e g : gstep g (snd (trc outs f ins e g)).
    Proof.
      rewrite tr_call_eq. destruct (e_is_bot e); [apply gstep_refl|apply callee_summary_step].
    Qed.

    Lemma tr_call_sound fcur outs f ins e g : stmt_ok fcur (ICall outs f ins) ->
      tr_ok fcur (fun cov => CallCov cov (ICall outs f ins)) (exec_stmt p (ICall outs f ins)) e g
            (trc outs f ins e g).
    Proof.
      intros [W CE] FN I0. pose proof (tr_call_step outs f ins e g) as ST. rewrite tr_call_eq in ST, FN |- *.
      destruct (e_is_bot e) eqn:EB.
      { split; [exact I0|]. intros a Ga. rewrite (genv_not_bot _ _ Ga) in EB. discriminate. }
      cbn [fst snd] in ST, FN |- *.
      set (ce := if nmem f recset then e_top else _) in *.
      destruct (call_wf _ _ _ _ _ _ W) as (Lf & _).
      destruct (callee_summary_sound fcur f ce g Lf (CE _ _ _ eq_refl)) as (GI1 & sum & EQ & HS); auto.
      { intros J. apply nmem_spec in J. unfold ce. rewrite J. reflexivity. }
      split; [split; [exact GI1|rewrite (gs_stack _ _ ST); apply I0]|]. intros a Ga.
      assert (CEs : forall s0, bind_ins (f_ins (get_fn p f)) ins a s0 -> genv ce s0).
      { intros s0 B. unfold ce. destruct (nmem f recset); [apply genv_top|].
        eapply (chk_call_entry p voff WF); eauto. }
      split.
      - intros outs' f' ins' s0 E B. inversion E; subst. apply HS, CEs, B.
      - intros b X. rewrite EQ. inversion X as [|? ? ? ? s0 s1 ? B XF Hb]; subst.
        eapply call_return_sound; eauto. apply (HS s0 (CEs s0 B)), XF.
    Qed.

    Lemma tr_istmt_step st e g : gstep g (snd (tr_istmt trc st e g)).
    Proof. destruct st as [s|outs f ins]; [apply gstep_refl|apply tr_call_step]. Qed.

    Lemma tr_iblock_step : forall bl e g, gstep g (snd (tr_iblock trc bl e g)).
    Proof.
      induction bl as [|st r IH]; intros e g; cbn [tr_iblock]; [apply gstep_refl|].
      eapply gstep_trans; [apply tr_istmt_step|apply IH].
    Qed.

    Lemma tr_istmt_sound fcur st e g : stmt_ok fcur st ->
      tr_ok fcur (fun cov => CallCov cov st) (exec_stmt p st) e g (tr_istmt trc st e g).
    Proof.
      destruct st as [s|outs f ins]; [|apply tr_call_sound].
      intros [W _] _ I0. split; [exact I0|]. intros a Ga. split; [intros ? ? ? ? E; discriminate|].
      intros b X. inversion X; subst. cbn in W. apply andb_true_iff in W.
      eapply tr_stmt_sound; eauto. apply stmt_wfb_sound, W.
    Qed.

    Lemma tr_iblock_sound fcur : forall bl e g, (forall st, In st bl -> stmt_ok fcur st) ->
      tr_ok fcur (fun cov => CallsCov cov bl) (exec_block p bl) e g (tr_iblock trc bl e g).
    Proof.
      induction bl as [|st r IH]; intros e g OK FN I0; cbn [tr_iblock] in *.
      - split; [exact I0|]. intros a Ga. split; [apply CallsCov_nil|].
        intros b X. inversion X; subst. exact Ga.
      - set (q := tr_istmt trc st e g) in *.
        pose proof (tr_iblock_step r (fst q) (snd q)) as STr.
        destruct (tr_istmt_sound fcur st e g (OK st (or_introl eq_refl)) (gstep_fin _ _ STr FN) I0) as [I1 HS].
        destruct (IH (fst q) (snd q) (fun st' I => OK st' (or_intror I)) FN I1) as [I2 HB].
        split; [exact I2|]. intros a Ga. destruct (HS a Ga) as [HS1 HS2]. split.
        + apply CallsCov_cons.
          * intros outs g0 ins s0 E B. apply (gl_cov _ _ _ _ (gstep_gle Root _ _ STr)). eapply HS1; eauto.
          * intros m XS. apply (HB m (HS2 m XS)).
        + intros b X. inversion X as [|? ? ? m ? XS XR]; subst. apply (HB m (HS2 m XS)), XR.
    Qed.
  End Spec.

  Lemma wto_ok f : f < length p ->
    NoDup (flat (wtos f)) /\
    (forall n q, In q (fn_preds (get_fn p f) n) -> In q (flat (wtos f)) ->
                 In n (flat (wtos f)) /\ lok (wtos f) q n) /\
    starts_with 0 (wtos f).
  Proof.
    intros L. pose proof (WTO f L) as BU. pose proof (build_WF _ _ _ BU) as W.
    split; [exact (wf_nodup _ _ _ _ _ W)|]. split; [|exact (build_starts_with _ _ _ BU)].
    intros n q I J.
    pose proof (proj1 (wf_reach _ _ _ _ _ W q) J) as RP.
    apply fn_preds_edge in I.
    destruct (fn_wf p voff WF f L) as (_ & _ & _ & We & _). destruct (We _ _ I) as [Lq _].
    assert (HS : In n (succs (fn_graph (get_fn p f)) q)).
    { rewrite fn_graph_succs by exact Lq. apply fn_succs_edge. exact I. }
    split.
    - apply (wf_reach _ _ _ _ _ W). apply reach_step with q; assumption.
    - exact (wf_edge _ _ _ _ _ W q n RP HS).
  Qed.

  Lemma set_err_step g : gstep g (set_err g).
  Proof. constructor; cbn; auto. Qed.
  Lemma join_tables_step f tp tq g : gstep g (join_tables f tp tq g).
  Proof.
    constructor; cbn; auto; intros f0 n s Gs; unfold fupd;
      destruct (Nat.eqb_spec f0 f) as [->|N]; auto; apply e_join_sound; left; exact Gs.
  Qed.
  Lemma join_tables_pre f tp tq g n s : genv (tp n) s -> genv (g_pre (join_tables f tp tq g) f n) s.
  Proof. intros H. cbn. unfold fupd. rewrite Nat.eqb_refl. apply e_join_sound. right. exact H. Qed.
  Lemma join_tables_post f tp tq g n s : genv (tq n) s -> genv (g_post (join_tables f tp tq g) f n) s.
  Proof. intros H. cbn. unfold fupd. rewrite Nat.eqb_refl. apply e_join_sound. right. exact H. Qed.

  Notation tdf := (td_fun p voff None exact_reuse delay desc efuel wtos recset).

  Lemma td_fun_spec Root : forall d, td_spec Root (tdf d).
  Proof.
    induction d as [|d IH]; intros f entry g; cbn [td_fun].
    { split; [apply set_err_step|]. intros FN. discriminate. }
    set (an := fun n e g => tr_iblock _ (fn_block (get_fn p f) n) e g).
    destruct (srun env gst itv_ops an _ _ 0 delay desc efuel (wtos f) entry g) as [st|] eqn:RUN.
    2: { split; [apply set_err_step|]. intros FN. discriminate. }
    cbn [fst snd].
    pose proof (fun n a g1 => tr_iblock_step Root _ IH (fn_block (get_fn p f) n) a g1) as AST.
    pose proof (join_tables_step f (se_pre env gst st) (se_post env gst st) (se_g env gst st)) as JS.
    split.
    { eapply gstep_trans; [|exact JS].
      exact (srun_step env gst itv_ops an gstep gstep_refl gstep_trans AST _ _ _ _ _ _ _ _ _ _ RUN). }
    intros FN I0 Lf.
    destruct (wto_ok f Lf) as (WN & WE & WS).
    destruct (srun_sound env gst store genv itv_ops
                (fun a b s H => e_join_sound a b s (or_introl H))
                (fun a b s H => e_join_sound a b s (or_intror H))
                e_meet_sound e_narrow_sound e_leq_sound
                an (bstepf f) gstep gstep_refl gstep_trans AST
                (fun g1 => g_err g1 = false) gstep_fin (Inv Root f)
                (fun n s g1 => CallsCov (gcov Root g1) (fn_block (get_fn p f) n) s)
                (fun n s g1 g2 S12 => CallsCov_mono _ _ _ s (gl_cov _ _ _ _ (gstep_gle Root g1 g2 S12)))
                (fun n a g1 => tr_iblock_sound Root _ IH f _ a g1 (block_stmt_ok f n Lf))
                (fn_preds (get_fn p f)) (nest_of (wtos f)) 0 delay desc (genv entry) efuel entry
                (fun s H => H) (wtos f) WN WE WS g st RUN FN I0)
      as (_ & [GI1 _] & HP & HQ).
    pose proof (gstep_gle Root _ _ JS) as LE.
    split; [|split].
    - exact (GI_mono _ _ _ _ LE eq_refl GI1).
    - split.
      + intros n s R. destruct (HP n s R) as [X Y]. split; [apply join_tables_pre, X|].
        revert Y. apply CallsCov_mono, LE.
      + intros n s R. apply join_tables_post, HQ, R.
    - intros s0 G0 s1 XF. inversion XF as [? ? ? XFR]; subst.
      destruct (exec_from_intra (genv entry) f 0 s0 s1 XFR (IPre_init f _ s0 G0)) as (x & EX & R).
      unfold exit_of. rewrite EX. apply HQ, R.
  Qed.

  (* the value from which an entry function is analysed *)
  Definition entry_of (init : env) (f : nat) : env := if nmem f recset then e_top else init.

  Lemma entry_of_init init f s : genv init s -> genv (entry_of init f) s.
  Proof. unfold entry_of. destruct (nmem f recset); [intros _; apply genv_top|auto]. Qed.

  Definition RootOf (done : list nat) (init : env) : nat -> store -> Prop :=
    fun g0 s0 => In g0 done /\ genv (entry_of init g0) s0.

  Definition run_inv (init : env) (done : list nat) (g : gst) : Prop :=
    g_err g = false ->
    g_stack g = [] /\ GI (RootOf done init) g /\
    forall f, In f done -> gctx (RootOf done init) g f (genv (entry_of init f)).

  Notation runf depth init :=
    (fun g f => pop (snd (tdf depth f (if nmem f recset then e_top else init) (push f g)))).

  Lemma run_one depth init done g f :
    run_inv init done g -> f < length p -> Reach f -> run_inv init (f :: done) (runf depth init g f).
  Proof.
    intros INV Lf Rf FN. cbv beta in *. fold (entry_of init f) in *.
    destruct (td_fun_spec (RootOf done init) depth f (entry_of init f) (push f g)) as [ST SP].
    set (r := tdf depth f (entry_of init f) (push f g)) in *.
    destruct (INV (gstep_fin _ _ ST FN)) as (SK & GI0 & RC).
    destruct (SP FN) as (GI2 & CC2 & _); [|exact Lf|].
    { split; [apply GI_push, GI0|]. cbn. rewrite SK. split; [exact Rf|]. intros h [<-|[]]. apply rt_refl. }
    assert (STK : g_stack (snd r) = [f]) by (rewrite (gs_stack _ _ ST); cbn; rewrite SK; reflexivity).
    assert (LE : gle (RootOf done init) (snd r) (RootOf (f :: done) init) (pop (snd r))).
    { apply pop_gle with f; auto.
      - cbn. rewrite STK. reflexivity.
      - intros h s [I G]. split; [right; exact I|exact G].
      - intros J s. right. right. split; [left; reflexivity|].
        unfold entry_of. apply nmem_spec in J. rewrite J. apply genv_top. }
    split; [cbn; rewrite STK; reflexivity|]. split.
    - exact (GI_mono _ _ _ _ LE eq_refl GI2).
    - intros f' [<-|I]; [revert CC2; apply gctx_mono, LE|].
      generalize (RC f' I). apply gctx_mono.
      exact (gle_trans _ _ _ _ _ _ (push_gle _ f g) (gle_trans _ _ _ _ _ _ (gstep_gle _ _ _ ST) LE)).
  Qed.

  Lemma run_all depth init : forall l done g,
    run_inv init done g -> (forall f, In f l -> f < length p /\ Reach f) ->
    run_inv init (rev l ++ done) (fold_left (runf depth init) l g).
  Proof.
    induction l as [|f l IH]; intros done g INV H; cbn [fold_left rev app]; [exact INV|].
    rewrite <- app_assoc. apply IH; [apply run_one; auto; apply H; left; reflexivity|].
    intros f' I. apply H. right. exact I.
  Qed.

  (* every reachable state belongs to the intra-procedural executions from the precondition of a
     stored context or from the entry value of an entry function *)
  Lemma run_inv_covers init done g entries (Init : store -> Prop) :
    run_inv init done g -> g_err g = false ->
    (forall f, In f entries -> In f done) -> (forall s, Init s -> genv init s) ->
    (forall f n s, IRPre p entries Init f n s ->
       exists S0, gctx (RootOf done init) g f S0 /\ IPre f S0 n s) /\
    (forall f n s, IRPost p entries Init f n s ->
       exists S0, gctx (RootOf done init) g f S0 /\ IPost f S0 n s).
  Proof.
    intros INV FN HD HI. destruct (INV FN) as (SK & GIf & RC). apply IR_mutind.
    - intros f s I J. exists (genv (entry_of init f)).
      split; [apply RC, HD, I|apply IPre_init, entry_of_init, HI, J].
    - intros f q n s E _ (S0 & CC & R0). exists S0. split; [exact CC|]. eapply IPre_edge; eauto.
    - intros f n s l1 outs g1 ins l2 m s0 _ (S0 & [CA _] & R0) EB X B.
      destruct (proj2 (CA n s R0) l1 _ l2 m EB X outs g1 ins s0 eq_refl B) as [(c & I & Gc)|[[I J]|[I J]]].
      + exists (genv (c_pre c)). split; [apply (GIf g1 c I)|apply IPre_init, Gc].
      + rewrite SK in I. destruct I.
      + exists (genv (entry_of init g1)). split; [apply RC, I|apply IPre_init, J].
    - intros f n s s' _ (S0 & CC & R0) X. exists S0. split; [exact CC|]. eapply IPost_step; eauto.
  Qed.
End Model.

Theorem td_model_sound p voff exact_reuse delay desc efuel wtos recset depth entries init :
  iprog_wfb p voff = true ->
  (forall f, f < length p -> build (fn_graph (get_fn p f)) 0 = Some (wtos f)) ->
  (forall f, In f entries -> f < length p) ->
  (forall f, cg_reach p entries f -> cg_path p f f -> In f recset) ->
  let g := td_run p voff None exact_reuse delay desc efuel wtos recset depth entries init in
  g_err g = false ->
  forall Init : store -> Prop, (forall s, Init s -> genv init s) ->
  (forall f n s, IRPre p entries Init f n s -> genv (g_pre g f n) s) /\
  (forall f n s, IRPost p entries Init f n s -> genv (g_post g f n) s) /\
  (forall sm, In sm (g_summaries p g) ->
     forall s0 s1, genv (s_pre sm) s0 -> exec_fun p (s_fn sm) s0 s1 -> genv (s_post sm) s1).
Proof.
  intros WF WTO HL REC g FN Init HI.
  assert (INV : run_inv p recset init (rev entries ++ []) g).
  { apply (run_all p voff WF exact_reuse delay desc efuel wtos recset WTO (cg_reach p entries)); auto.
    - intros f h (e & I & P) E. exists e. split; [exact I|]. eapply rt_trans; [exact P|apply rt_step, E].
    - intros _. split; [reflexivity|]. split; [intros f c []|intros f []].
    - intros f I. split; [apply HL, I|]. exists f. split; [exact I|apply rt_refl]. }
  destruct (run_inv_covers _ _ _ _ _ entries Init INV FN) as [QA QB]; [|exact HI|].
  { intros f I. apply in_or_app. left. apply in_rev in I. exact I. }
  split; [|split].
  - intros f n s X. destruct (QA f n s X) as (S0 & [CA _] & R0). apply (CA n s R0).
  - intros f n s X. destruct (QB f n s X) as (S0 & [_ CB] & R0). apply (CB n s R0).
  - intros sm I s0 s1 G0 XF. unfold g_summaries in I. apply in_flat_map in I.
    destruct I as (f & _ & I). apply in_map_iff in I. destruct I as (c & <- & IC).
    cbn [s_fn s_pre s_post] in *.
    destruct (INV FN) as (_ & GIf & _). destruct (GIf f c IC) as (_ & (sum & EQ & SS) & _). rewrite EQ.
    apply (e_project_sound _ _ s1); [exact (SS s0 G0 s1 XF)|auto].
Qed.
