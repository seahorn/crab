(* InterBUModelSound.v — property C10 for the MODEL of the bottom-up inter-procedural analyzer
   (Ana/InterBU.v, bu_run), directly and without the certificate checker: whenever the model
   returns without error flag (no fuel exhausted, every function processed: in particular the
   call graph has no cycle),
     - every summary of the bottom-up phase contains the final store of every terminating
       concrete execution of its function, whatever the inputs;
     - the tables of the top-down phase contain every state with which an execution started at
       an entry function (a function without callers) enters / leaves a block, in any frame of
       the call stack.
   Every well-formed program whose variables are below voff (the first internal name), every
   widening delay, number of descending iterations and fuel; the orderings of the CFGs are
   those computed by the model of wto.hpp; the initial value does not constrain the internal
   names.
   Bottom-up phase: instance of Fix/EngineSound.v; top-down phase: instance of
   Ana/InterEngineSound.v (the threaded state is the call-context table).  The abstract values
   are read through a concretization that is closed under changes of the internal names: this
   is the invariant "the analyzer forgets the internal names after every callsite".
   The invariant of the top-down phase (TI) and its preservation when one more function is
   analysed (TI_step) do not depend on the order of the functions: Ana/InterBURecSound.v uses
   them for the model with recursive components. *)
From Coq Require Import ZArith NArith List Bool Arith Lia Relations.
From CrabV Require Import Base.ZInf Scalar.Itv Ir.Syntax Ir.Cfg Dom.ItvEnv Dom.ItvEnvSound Dom.ItvDomain
     Dom.ItvDomainSound Fix.Wto Fix.WtoCheck Fix.WtoSound Fix.WtoRoot Fix.Engine Fix.EngineCheck Fix.EngineRel
     Fix.EngineFS Fix.EngineSound Ana.CfgSem Ana.Transformer Ana.FwdItv Ana.FwdItvEngineSound
     Ana.InterSyntax Ana.InterSem Ana.InterTD Ana.InterTDSound Ana.InterBU Ana.InterBUSound
     Ana.InterEngineSound Ana.InterTDModelSound Ana.InterTDRecset Ana.InterBURec.
Import ListNotations.
Local Notation upd := Syntax.upd.

Definition agree_low (voff : N) (s s' : store) : Prop := forall k, (k < voff)%N -> s' k = s k.
Definition mix (voff : N) (s t : store) : store := fun k => if (k <? voff)%N then s k else t k.
(* the concretization closed under changes of the variables >= voff *)
Definition genvL (voff : N) (e : env) (s : store) : Prop := forall s', agree_low voff s s' -> genv e s'.

Lemma agree_low_refl voff s : agree_low voff s s.
Proof. intros k _. reflexivity. Qed.
Lemma agree_low_trans voff a b c : agree_low voff a b -> agree_low voff b c -> agree_low voff a c.
Proof. intros H1 H2 k L. rewrite (H2 k L). apply H1, L. Qed.
Lemma agree_low_sym voff a b : agree_low voff a b -> agree_low voff b a.
Proof. intros H k L. symmetry. apply H, L. Qed.
Lemma mix_low voff s t k : (k < voff)%N -> mix voff s t k = s k.
Proof. intros L. unfold mix. apply N.ltb_lt in L. rewrite L. reflexivity. Qed.
Lemma mix_high voff s t k : ~ (k < voff)%N -> mix voff s t k = t k.
Proof. intros L. unfold mix. destruct (N.ltb_spec k voff); [contradiction|reflexivity]. Qed.
Lemma mix_agree voff s t : agree_low voff s (mix voff s t).
Proof. intros k L. apply mix_low, L. Qed.
Lemma genvL_genv voff e s : genvL voff e s -> genv e s.
Proof. intros H. apply H, agree_low_refl. Qed.
Lemma genvL_agree voff e s s' : genvL voff e s -> agree_low voff s s' -> genvL voff e s'.
Proof. intros H A t B. apply H. eapply agree_low_trans; eauto. Qed.
Lemma genvL_top voff s : genvL voff e_top s.
Proof. intros s' _. apply genv_top. Qed.

(* the lattice operations respect the closed concretization *)
Section LatticeL.
  Variable voff : N.
  Notation gL := (genvL voff).
  Lemma e_join_soundL_l a b s : gL a s -> gL (e_join a b) s.
  Proof. intros H s' A. apply e_join_sound. left. apply H, A. Qed.
  Lemma e_join_soundL_r a b s : gL b s -> gL (e_join a b) s.
  Proof. intros H s' A. apply e_join_sound. right. apply H, A. Qed.
  Lemma e_meet_soundL a b s : gL a s -> gL b s -> gL (e_meet a b) s.
  Proof. intros Ha Hb s' A. apply e_meet_sound; [apply Ha|apply Hb]; exact A. Qed.
  Lemma e_narrow_soundL a b s : gL a s -> gL b s -> gL (e_narrow a b) s.
  Proof. intros Ha Hb s' A. apply e_narrow_sound; [apply Ha|apply Hb]; exact A. Qed.
  Lemma e_leq_soundL a b s : e_leq a b = true -> gL a s -> gL b s.
  Proof. intros L H s' A. exact (e_leq_sound a b s' L (H s' A)). Qed.
End LatticeL.

Definition belowP (voff : N) (l : list var) : Prop := forall x, In x l -> (x < voff)%N.

(* a statement whose variables are below voff does not see the other variables *)
Lemma sstep_low voff st s s' t' : belowP voff (stmt_vars st) -> sstep st s s' -> agree_low voff s' t' ->
  exists t'', sstep st (mix voff s t') t'' /\ forall k, t'' k = t' k.
Proof.
  intros B H A. set (m := mix voff s t').
  assert (ML : forall l, (forall v, In v l -> In v (stmt_vars st)) -> agree l m s).
  { intros l Bl x I. apply mix_low. apply B, Bl, I. }
  assert (UPD : forall x v, In x (stmt_vars st) -> s' = upd s x v -> forall k, upd m x v k = t' k).
  { intros x v Ix E k. unfold upd. destruct (N.eqb_spec k x) as [->|N].
    - rewrite (A x (B x Ix)), E. symmetry. apply Syntax.upd_same.
    - unfold m, mix. destruct (N.ltb_spec k voff) as [L|L]; [|reflexivity].
      rewrite (A k L), E. symmetry. apply Syntax.upd_other, N. }
  assert (SAME : s' = s -> forall k, m k = t' k).
  { intros E k. unfold m, mix. destruct (N.ltb_spec k voff) as [L|L]; [|reflexivity].
    rewrite (A k L), E. reflexivity. }
  assert (OPD : forall y (z : ItvDomain.operand), (forall v, In v (y :: match z with ItvDomain.OVar v => [v] | ItvDomain.OCst _ => [] end) -> In v (stmt_vars st)) ->
                m y = s y /\ ItvDomainSound.operand_val z m = ItvDomainSound.operand_val z s).
  { intros y z Bz. split; [apply (ML _ Bz); left; reflexivity|].
    destruct z as [v|c]; [|reflexivity]. apply (ML _ Bz). right. left. reflexivity. }
  destruct st as [x e|op x y z|op x y z|c|c i|x|x c e1 e2|]; cbn [sstep stmt_vars] in *.
  - exists (upd m x (eval_le e m)). split; [reflexivity|].
    rewrite (eval_le_agree e m s) by (apply ML; intros v I; right; exact I).
    apply UPD; [left; reflexivity|exact H].
  - destruct H as (v & Hv & E). destruct (OPD y z) as [My Mz]; [intros w I; right; exact I|].
    exists (upd m x v). split; [exists v; rewrite My, Mz; auto|apply UPD; [left; reflexivity|exact E]].
  - destruct H as (v & Hv & E). destruct (OPD y z) as [My Mz]; [intros w I; right; exact I|].
    exists (upd m x v). split; [exists v; rewrite My, Mz; auto|apply UPD; [left; reflexivity|exact E]].
  - destruct H as [Hs E]. exists m. split; [|apply SAME, E]. split; [|reflexivity].
    apply satb_spec. rewrite (satb_agree c m s) by (apply ML; auto). apply satb_spec, Hs.
  - destruct H as [Hs E]. exists m. split; [|apply SAME, E]. split; [|reflexivity].
    apply satb_spec. rewrite (satb_agree c m s) by (apply ML; auto). apply satb_spec, Hs.
  - destruct H as (v & E). exists (upd m x v). split; [exists v; reflexivity|].
    apply UPD; [left; reflexivity|exact E].
  - exists (upd m x (if satb c m then eval_le e1 m else eval_le e2 m)). split; [reflexivity|].
    rewrite (satb_agree c m s), (eval_le_agree e1 m s), (eval_le_agree e2 m s)
      by (apply ML; intros v I; right; auto using in_or_app).
    apply UPD; [left; reflexivity|exact H].
  - destruct H.
Qed.

Lemma tr_stmt_soundL voff st e a b : stmt_wf st -> belowP voff (stmt_vars st) ->
  genvL voff e a -> sstep st a b -> genvL voff (tr_stmt st e) b.
Proof.
  intros W B Ga H t' A.
  destruct (sstep_low voff st a b t' B H A) as (t'' & H' & E).
  apply (genv_ext _ t''); [exact E|].
  eapply tr_stmt_sound; eauto. apply Ga, mix_agree.
Qed.

Lemma havoc_list_sound vs : forall e s s', genv e s -> (forall k, ~ In k vs -> s' k = s k) -> genv (havoc_list vs e) s'.
Proof.
  unfold havoc_list. induction vs as [|v r IH]; cbn [fold_left]; intros e s s' Gs H.
  - apply (genv_ext _ s); [|exact Gs]. intros k. symmetry. apply H. intros [].
  - apply (IH (e_forget e v) (upd s v (s' v)) s'); [apply e_forget_sound, Gs|].
    intros k NI. unfold upd. destruct (N.eqb_spec k v) as [->|N]; [reflexivity|].
    apply H. intros [E|I]; [apply N; symmetry; exact E|contradiction].
Qed.

(* the collecting semantics of Fix/EngineCheck.v does not depend on the concretization when there
   are no assumptions *)
Lemma RP_gamma_irrel (A State : Type) (g1 g2 : A -> State -> Prop) bstep preds entry asm Init :
  (forall n s, RPre A State g1 bstep preds entry false asm Init n s ->
               RPre A State g2 bstep preds entry false asm Init n s) /\
  (forall n s, RPost A State g1 bstep preds entry false asm Init n s ->
               RPost A State g2 bstep preds entry false asm Init n s).
Proof.
  apply (R_mutind A State g1 bstep preds entry false asm Init
           (fun n s _ => RPre A State g2 bstep preds entry false asm Init n s)
           (fun n s _ => RPost A State g2 bstep preds entry false asm Init n s)).
  - intros s i _. apply RP_init; [exact i|exact I].
  - intros n q s i _ R _. apply RP_edge with q; [exact i|exact R|exact I].
  - intros n s s' _ R b. apply RPo with s; assumption.
Qed.

(* every variable of the program is below voff *)
Definition iprog_lowb (p : iprog) (voff : N) : bool :=
  forallb (fun fn => forallb (fun b => forallb (fun st => InterSyntax.below voff (istmt_vars st)) b) (f_blocks fn)) p.

Lemma fold_left_inv {A B : Type} (P : A -> Prop) (step : A -> B -> A) : forall l acc,
  (forall acc x, In x l -> P acc -> P (step acc x)) -> P acc -> P (fold_left step l acc).
Proof.
  induction l as [|x l IH]; intros acc H H0; cbn [fold_left]; [exact H0|].
  apply IH; [intros acc' y I; apply H; right; exact I|apply H; [left; reflexivity|exact H0]].
Qed.
Lemma iter_inv {A : Type} (P : A -> Prop) (f : A -> A) : (forall x, P x -> P (f x)) ->
  forall n x, P x -> P (iter n f x).
Proof. intros H. induction n as [|n IH]; intros x Hx; cbn [iter]; auto. Qed.

Lemma filter_nil {A : Type} (P : A -> bool) l : (forall x, In x l -> P x = false) -> filter P l = [].
Proof.
  induction l as [|x l IH]; intros H; cbn [filter]; [reflexivity|].
  rewrite (H x (or_introl eq_refl)). apply IH. intros y I. apply H. right. exact I.
Qed.

Lemma cg_preds_in p h f : cg_edge p h f -> In h (cg_preds p f).
Proof.
  intros E. unfold cg_preds. apply filter_In. split.
  - apply in_seq. pose proof (cg_edge_lt p h f E). lia.
  - apply nmem_spec. apply cg_succs_In, cg_edge_callees, E.
Qed.

Lemma no_edges_no_preds p : cg_no_edges p = true -> forall f, cg_preds p f = [].
Proof.
  intros NE f. unfold cg_preds. apply filter_nil. intros g I.
  unfold cg_no_edges in NE. rewrite forallb_forall in NE. specialize (NE g I).
  destruct (cg_succs p g); [reflexivity|discriminate].
Qed.

Lemma bind_ins_agree fins ins a s0 s0' :
  bind_ins fins ins a s0 -> (forall f, In f fins -> s0' f = s0 f) -> bind_ins fins ins a s0'.
Proof.
  unfold bind_ins. intros B. induction B as [|x y l l' H B IH]; intros A; constructor.
  - rewrite A by (left; reflexivity). exact H.
  - apply IH. intros f I. apply A. right. exact I.
Qed.

Section BUModel.
  Variable p : iprog.
  Variable voff : N.
  Hypothesis WF : iprog_wfb p voff = true.
  Hypothesis LOW : iprog_lowb p voff = true.
  Variables delay desc efuel : nat.
  Variable wtos : nat -> wto.
  Hypothesis WTO : forall f, f < length p -> build (fn_graph (get_fn p f)) 0 = Some (wtos f).

  Notation gL := (genvL voff).

  Definition stmt_okL (fcur : nat) (st : istmt) : Prop :=
    istmt_wfb p voff (get_fn p fcur) st = true /\ belowP voff (istmt_vars st).

  Lemma block_okL f n : f < length p -> forall st, In st (fn_block (get_fn p f) n) -> stmt_okL f st.
  Proof.
    intros L st I. destruct (fn_wf p voff WF f L) as (_ & _ & _ & _ & Wb). split; [exact (Wb n st I)|].
    unfold iprog_lowb in LOW. rewrite forallb_forall in LOW.
    specialize (LOW _ (get_fn_in p f L)). rewrite forallb_forall in LOW.
    specialize (LOW _ (fn_block_in _ _ _ I)). rewrite forallb_forall in LOW.
    exact (below_spec _ _ (LOW _ I)).
  Qed.

  Definition SumOK (g : nat) (sum : env) : Prop :=
    exists X, sum = e_project X (fn_formals (get_fn p g)) /\ forall s0 s1, exec_fun p g s0 s1 -> genv X s1.
  Definition SInv (sums : nat -> option env) : Prop := forall g sum, sums g = Some sum -> SumOK g sum.

  Lemma SInv_none : SInv (fun _ => None).
  Proof. intros g sum E. discriminate. Qed.

  Lemma SInv_summaries sums : SInv sums -> forall sm, In sm (bu_summaries p sums) ->
    forall s0 s1, genv (s_pre sm) s0 -> exec_fun p (s_fn sm) s0 s1 -> genv (s_post sm) s1.
  Proof.
    intros SI sm I s0 s1 _ XF. unfold bu_summaries in I. apply in_flat_map in I. destruct I as (f & _ & I).
    destruct (sums f) as [sum|] eqn:SF; [|destruct I]. destruct I as [<-|[]]. cbn [s_fn s_post] in *.
    destruct (SI f sum SF) as (X & EQ & SS). rewrite EQ.
    apply (e_project_sound _ _ s1); [apply (SS s0 s1 XF)|auto].
  Qed.

  Section Stmt.
    Variable sums : nat -> option env.
    Hypothesis SI : SInv sums.

    Lemma call_frame fcur outs g ins a s0 s1 b t' :
      istmt_wfb p voff (get_fn p fcur) (ICall outs g ins) = true ->
      bind_ins (f_ins (get_fn p g)) ins a s0 -> exec_fun p g s0 s1 ->
      (forall k, b k = assign_outs a outs (f_outs (get_fn p g)) s1 k) -> agree_low voff b t' ->
      (forall f y, In (f, y) (combine (f_ins (get_fn p g)) ins) -> s1 f = mix voff a t' y) /\
      (forall k, t' k = assign_outs (mix voff a t') outs (f_outs (get_fn p g)) s1 k) /\
      (forall k, ~ In k outs -> t' k = mix voff a t' k).
    Proof.
      intros W B XF Hb A.
      destruct (call_wf _ _ _ _ _ _ W) as (Lg & Li & Lo & NDo & Bi & Bo).
      assert (OUT : forall k, ~ In k outs -> t' k = mix voff a t' k).
      { intros k NI. unfold mix. destruct (N.ltb_spec k voff) as [L|L]; [|reflexivity].
        rewrite (A k L), Hb. apply assign_outs_other. exact NI. }
      split; [|split; [|exact OUT]].
      - intros f y J. rewrite (exec_fun_frame p voff WF g s0 s1 XF Lg) by (eapply in_combine_l; eauto).
        rewrite (Forall2_combine _ _ _ _ _ B J). symmetry. apply mix_low. apply Bi. eapply in_combine_r; eauto.
      - intros k. destruct (in_dec N.eq_dec k outs) as [I|NI].
        + destruct (combine_in_exists_l outs (f_outs (get_fn p g)) k (eq_sym Lo) I) as (f & J).
          rewrite (assign_outs_in _ _ _ _ k f NDo J). rewrite (A k (Bo k I)), Hb.
          apply (assign_outs_in _ _ _ _ k f NDo J).
        + rewrite assign_outs_other by exact NI. apply OUT, NI.
    Qed.

    Lemma bu_stmt_soundL fcur st e a b : stmt_okL fcur st ->
      gL e a -> exec_stmt p st a b -> gL (bu_stmt p voff sums st e) b.
    Proof.
      intros [W B] Ga X. destruct st as [s|outs g ins]; cbn [bu_stmt].
      - inversion X; subst. cbn in W. apply andb_true_iff in W. destruct W as [W _].
        eapply tr_stmt_soundL; eauto. apply stmt_wfb_sound. exact W.
      - inversion X as [|outs' g' ins' a' s0 s1 b' Bd XF Hb]; subst.
        intros t' A.
        destruct (call_frame fcur outs g ins a s0 s1 b t' W Bd XF Hb A) as (Vin & Hb' & OUT).
        destruct (call_wf _ _ _ _ _ _ W) as (Lg & Li & Lo & NDo & Bi & Bo).
        destruct (fn_wf p voff WF g Lg) as (NDf & Bf & _).
        destruct (sums g) as [sum|] eqn:SG.
        + destruct (SI g sum SG) as (X0 & EQ & SS). rewrite EQ.
          apply (bu_reuse_sound_free voff outs ins _ _ NDf Li Lo NDo Bf Bi Bo e X0 (mix voff a t') s1 t').
          * intros a' HA. apply Ga. intros k L. rewrite HA.
            -- apply mix_low, L.
            -- intros I. apply (is_ge voff) in I. lia.
          * apply (SS s0 s1 XF).
          * exact Vin.
          * exact Hb'.
        + apply (havoc_list_sound outs e (mix voff a t') t'); [apply Ga, mix_agree|exact OUT].
    Qed.

    Lemma bu_block_soundL fcur : forall bl e a b, (forall st, In st bl -> stmt_okL fcur st) ->
      gL e a -> exec_block p bl a b -> gL (bu_block p voff sums bl e) b.
    Proof.
      unfold bu_block. induction bl as [|st r IH]; intros e a b OK Ga X; cbn [fold_left].
      - inversion X; subst. exact Ga.
      - inversion X as [|? ? ? m ? XS XR]; subst.
        apply (IH _ m); [intros st' I; apply OK; right; exact I| |exact XR].
        eapply bu_stmt_soundL; eauto. apply OK. left. reflexivity.
    Qed.

    (* an index outside the program stands for the dummy function, which has no outputs *)
    Lemma bu_summary_ok f sum : bu_summary p voff delay desc efuel wtos sums f = Some (Some sum) -> SumOK f sum.
    Proof.
      intros H. unfold bu_summary in H.
      destruct (Nat.eqb f 0); [discriminate|].
      destruct (f_outs (get_fn p f)) as [|o os] eqn:FO.
      { inversion H; subst sum. exists e_top. split; [reflexivity|]. intros. apply genv_top. }
      assert (L : f < length p).
      { destruct (Nat.lt_ge_cases f (length p)) as [L|G]; [exact L|].
        unfold get_fn in FO. rewrite nth_overflow in FO by exact G. discriminate. }
      destruct (f_exit (get_fn p f)) as [x|] eqn:FX; [|discriminate].
      destruct (run _ _ _ _ _ _ _ _ _ _ _ _ _) as [st|] eqn:RUN; [|discriminate].
      inversion H; subst sum. clear H.
      exists (e_post env st x). split; [reflexivity|].
      intros s0 s1 XF.
      destruct (wto_ok p voff WF wtos WTO f L) as (WN & WE & WS).
      destruct (engine_sound env store gL itv_ops (e_join_soundL_l voff) (e_join_soundL_r voff)
                  (e_meet_soundL voff) (e_narrow_soundL voff) (e_leq_soundL voff)
                  (fun n e => bu_block p voff sums (fn_block (get_fn p f) n) e) (bstepf p f)
                  (fun n a s s' Ga B => bu_block_soundL f _ a s s' (block_okL f n L) Ga B)
                  (fn_preds (get_fn p f)) (nest_of (wtos f)) 0 delay desc false (fun _ => None)
                  (fun _ => True) e_top (fun s _ => genvL_top voff s) efuel (wtos f) WN WE
                  (starts_with_in _ _ WS) st RUN) as [_ HQ].
      inversion XF as [? ? ? XFR]; subst.
      destruct (exec_from_intra p (fun _ => True) f 0 s0 s1 XFR (IPre_init p f _ s0 I)) as (x' & EX' & R).
      rewrite FX in EX'. inversion EX'; subst x'.
      apply (genvL_genv voff). apply HQ.
      apply (proj2 (RP_gamma_irrel env store genv gL _ _ _ _ _)). exact R.
    Qed.

    Lemma bu_summary_inv f r : bu_summary p voff delay desc efuel wtos sums f = Some r -> SInv (fupd sums f r).
    Proof.
      intros BS g sum E. unfold fupd in E. destruct (Nat.eqb_spec g f) as [->|N]; [|exact (SI g sum E)].
      subst r. exact (bu_summary_ok f sum BS).
    Qed.
  End Stmt.

  Lemma bu_sweep_inv st : SInv (fst (fst st)) -> SInv (fst (fst (bu_sweep p voff delay desc efuel wtos st))).
  Proof.
    unfold bu_sweep. apply (fold_left_inv (fun acc => SInv (fst (fst acc)))).
    intros [[sums done] err] f _ SI. cbn [fst] in *.
    destruct (nmem f done); [exact SI|].
    destruct (all_in (cg_succs p f) done); [|exact SI].
    destruct (bu_summary p voff delay desc efuel wtos sums f) as [r|] eqn:BS; cbn [fst]; [|exact SI].
    exact (bu_summary_inv sums SI f r BS).
  Qed.

  Section Entry.
    Variable entries : list nat.
    Variable Init : store -> Prop.

    (* the states at the entry of a function *)
    Definition EntryState (f : nat) (s0 : store) : Prop :=
      (In f entries /\ Init s0) \/
      exists h m sm l1 outs ins l2 mid,
        IRPre p entries Init h m sm /\ fn_block (get_fn p h) m = l1 ++ ICall outs f ins :: l2 /\
        exec_block p l1 sm mid /\ bind_ins (f_ins (get_fn p f)) ins mid s0.

    (* one frame of the call stack: the inter-procedural reachability, seen from f, is the
       intra-procedural one started at the entry states of f *)
    Lemma frame :
      (forall f n s, IRPre p entries Init f n s -> IPre p f (EntryState f) n s) /\
      (forall f n s, IRPost p entries Init f n s -> IPost p f (EntryState f) n s).
    Proof.
      apply IR_mutind.
      - intros f s I J. apply IPre_init. left. auto.
      - intros f q n s E _ IH. eapply IPre_edge; eauto.
      - intros f n s l1 outs g ins l2 m s0 R _ EB X B. apply IPre_init. right.
        exists f, n, s, l1, outs, ins, l2, m. auto.
      - intros f n s s' _ IH X. eapply IPost_step; eauto.
    Qed.
  End Entry.

  (* the top-down phase: one function after the other, the call-context table being threaded
     through the analyses *)
  Section TopDown.
    Variable sums : nat -> option env.
    Hypothesis SI : SInv sums.
    Variable entries : list nat.
    Variable Init : store -> Prop.
    Hypothesis HL : forall f, In f entries -> f < length p.
    Notation EntryState := (EntryState entries Init).

    (* the call-context table only grows *)
    Definition ctstep (ct ct' : ctab) : Prop :=
      forall g c, ct g = Some c -> exists c', ct' g = Some c' /\ forall s, gL c s -> gL c' s.
    Lemma ctstep_refl ct : ctstep ct ct.
    Proof. intros g c E. exists c. auto. Qed.
    Lemma ctstep_trans a b c : ctstep a b -> ctstep b c -> ctstep a c.
    Proof.
      intros H1 H2 g x E. destruct (H1 g x E) as (y & E1 & L1). destruct (H2 g y E1) as (z & E2 & L2).
      exists z. auto.
    Qed.
    (* a function without summary has only calling contexts that contain every state (the top
       context of a recursive main or of a recursive function without exit block) *)
    Definition CT (ct : ctab) : Prop := forall g, sums g = None -> forall c, ct g = Some c -> forall s, gL c s.
    Definition CovCT (ct : ctab) (g : nat) (s0 : store) : Prop :=
      sums g = None \/ exists c, ct g = Some c /\ gL c s0.
    Definition CallsCovCT (ct : ctab) (f n : nat) (s : store) : Prop :=
      forall l1 outs g ins l2 mid s0, fn_block (get_fn p f) n = l1 ++ ICall outs g ins :: l2 ->
        exec_block p l1 s mid -> bind_ins (f_ins (get_fn p g)) ins mid s0 -> CovCT ct g s0.

    Lemma CT_none : CT (fun _ => None).
    Proof. intros g _ c E. discriminate. Qed.
    Lemma CovCT_step ct ct' g s0 : ctstep ct ct' -> CovCT ct g s0 -> CovCT ct' g s0.
    Proof.
      intros S [H|(c & E & Gc)]; [left; exact H|]. right.
      destruct (S g c E) as (c' & E' & L). exists c'. auto.
    Qed.
    Lemma CallsCovCT_step ct ct' f n s : ctstep ct ct' -> CallsCovCT ct f n s -> CallsCovCT ct' f n s.
    Proof. intros S H l1 outs g ins l2 mid s0 E X B. eapply CovCT_step; eauto. Qed.
    (* the value from which a called function is analysed contains the covered entry states *)
    Lemma CovCT_get ct g s0 : CT ct -> CovCT ct g s0 -> gL (match ct g with Some c => c | None => e_top end) s0.
    Proof.
      intros C [SN|(c & E & Gc)]; [|rewrite E; exact Gc].
      destruct (ct g) as [c|] eqn:E; [exact (C g SN c E s0)|apply genvL_top].
    Qed.

    Notation td2s := (td2_stmt p voff sums).
    Notation td2b := (td2_block p voff sums).

    Lemma td2_stmt_fst st e ct : fst (td2s st e ct) = bu_stmt p voff sums st e.
    Proof. destruct st as [s|outs g ins]; cbn [td2_stmt bu_stmt fst]; [reflexivity|]. destruct (sums g); reflexivity. Qed.
    Lemma td2_block_fst : forall bl e ct, fst (td2b bl e ct) = bu_block p voff sums bl e.
    Proof.
      induction bl as [|st r IH]; intros e ct; cbn [td2_block bu_block fold_left]; [reflexivity|].
      rewrite IH, td2_stmt_fst. reflexivity.
    Qed.

    Lemma ctab_insert_step ct g inv : ctstep ct (ctab_insert ct g inv).
    Proof.
      intros g0 c E. unfold ctab_insert, fupd. destruct (Nat.eqb_spec g0 g) as [->|N].
      - rewrite E. exists (e_join c inv). split; [reflexivity|apply e_join_soundL_l].
      - exists c. auto.
    Qed.
    Lemma td2_stmt_step st e ct : ctstep ct (snd (td2s st e ct)).
    Proof.
      destruct st as [s|outs g ins]; cbn [td2_stmt snd]; [apply ctstep_refl|].
      destruct (sums g); cbn [snd]; [apply ctab_insert_step|apply ctstep_refl].
    Qed.
    Lemma td2_block_step : forall bl e ct, ctstep ct (snd (td2b bl e ct)).
    Proof.
      induction bl as [|st r IH]; intros e ct; cbn [td2_block]; [apply ctstep_refl|].
      eapply ctstep_trans; [apply td2_stmt_step|apply IH].
    Qed.

    (* only functions with a summary get a calling context *)
    Lemma td2_stmt_CT st e ct : CT ct -> CT (snd (td2s st e ct)).
    Proof.
      intros C0. destruct st as [s|outs g ins]; cbn [td2_stmt snd]; [exact C0|].
      destruct (sums g) eqn:SG; cbn [snd]; [|exact C0].
      intros g0 E0 c. unfold ctab_insert, fupd. destruct (Nat.eqb_spec g0 g) as [->|N]; [|apply C0, E0].
      rewrite SG in E0. discriminate.
    Qed.
    Lemma td2_block_CT : forall bl e ct, CT ct -> CT (snd (td2b bl e ct)).
    Proof.
      induction bl as [|st r IH]; intros e ct C0; cbn [td2_block]; [exact C0|].
      apply IH. apply td2_stmt_CT, C0.
    Qed.

    (* a callsite stores a calling context that contains the entry store of the callee *)
    Lemma td2_call_cov fcur outs g ins e ct a s0 : stmt_okL fcur (ICall outs g ins) -> gL e a ->
      bind_ins (f_ins (get_fn p g)) ins a s0 -> CovCT (snd (td2s (ICall outs g ins) e ct)) g s0.
    Proof.
      intros [W _] Ga B. cbn [td2_stmt].
      destruct (call_wf _ _ _ _ _ _ W) as (Lg & Li & Lo & NDo & Bi & Bo).
      destruct (fn_wf p voff WF g Lg) as (NDf & Bf & _).
      destruct (sums g) eqn:SG; cbn [snd]; [|left; exact SG]. right.
      set (ctx := bu_callee_ctx voff ins (f_ins (get_fn p g)) e).
      assert (GC : gL ctx s0).
      { intros s0' A. apply (bu_callee_ctx_sound voff ins _ _ NDf Li Bf Bi e a s0' (genvL_genv _ _ _ Ga)).
        apply (bind_ins_agree _ _ _ s0); [exact B|].
        intros f I. apply A. apply Bf. apply in_or_app. left. exact I. }
      unfold ctab_insert, fupd. rewrite Nat.eqb_refl. destruct (ct g) as [old|].
      - exists (e_join old ctx). split; [reflexivity|]. apply e_join_soundL_r, GC.
      - exists ctx. split; [reflexivity|exact GC].
    Qed.

    Lemma td2_block_cov fcur : forall l1 bl e ct a outs g ins l2 mid s0, (forall st, In st bl -> stmt_okL fcur st) ->
      gL e a -> bl = l1 ++ ICall outs g ins :: l2 -> exec_block p l1 a mid ->
      bind_ins (f_ins (get_fn p g)) ins mid s0 -> CovCT (snd (td2b bl e ct)) g s0.
    Proof.
      induction l1 as [|st l1 IH]; intros bl e ct a outs g ins l2 mid s0 OK Ga -> X B;
        cbn [app td2_block]; inversion X as [|? ? ? m ? XS XR]; subst.
      - eapply CovCT_step; [apply td2_block_step|]. eapply td2_call_cov; eauto. apply OK. left. reflexivity.
      - apply (IH _ _ _ m outs g ins l2 mid s0); auto.
        + intros st' I. apply OK. right. exact I.
        + rewrite td2_stmt_fst. eapply bu_stmt_soundL; eauto. apply OK. left. reflexivity.
    Qed.

    Lemma IRPre_lt : (forall f n s, IRPre p entries Init f n s -> f < length p) /\
                     (forall f n s, IRPost p entries Init f n s -> f < length p).
    Proof.
      apply (IR_mutind p entries Init (fun f _ _ => f < length p) (fun f _ _ => f < length p)).
      - intros f s I _. apply HL, I.
      - intros f q n s _ _ IH. exact IH.
      - intros f n s l1 outs g ins l2 m s0 _ IH EB _ _.
        destruct (fn_wf p voff WF f IH) as (_ & _ & _ & _ & Wb).
        apply (call_wf p voff (get_fn p f) outs g ins). apply (Wb n).
        rewrite EB. apply in_or_app. right. left. reflexivity.
      - intros f n s s' _ IH _. exact IH.
    Qed.

    (* one function, analysed from a value that contains its entry states.  (An index outside the
       program stands for the dummy function: no execution reaches it.) *)
    Lemma td2_fun f ct init_inv r : CT ct ->
      (forall s0, EntryState f s0 -> gL init_inv s0) ->
      srun env ctab itv_ops (fun n e ct => td2b (fn_block (get_fn p f) n) e ct) (fn_preds (get_fn p f))
           (nest_of (wtos f)) 0 delay desc efuel (wtos f) init_inv ct = Some r ->
      ctstep ct (se_g env ctab r) /\ CT (se_g env ctab r) /\
      (forall n s, IRPre p entries Init f n s -> gL (se_pre env ctab r n) s /\ CallsCovCT (se_g env ctab r) f n s) /\
      (forall n s, IRPost p entries Init f n s -> gL (se_post env ctab r n) s).
    Proof.
      intros C0 HI RUN.
      set (an := fun (n : nat) (e : env) (ct : ctab) => td2b (fn_block (get_fn p f) n) e ct) in *.
      destruct (Nat.lt_ge_cases f (length p)) as [L|G].
      - destruct (wto_ok p voff WF wtos WTO f L) as (WN & WE & WS).
        assert (ANS : forall (n : nat) (a : env) (g : ctab), True -> CT g ->
                  CT (snd (an n a g)) /\
                  forall s, gL a s -> CallsCovCT (snd (an n a g)) f n s /\
                                      forall s', bstepf p f n s s' -> gL (fst (an n a g)) s').
        { intros n a g _ Cg. unfold an. split; [apply td2_block_CT, Cg|]. intros s Gs. split.
          - intros l1 outs g0 ins l2 mid s0 E XB B. eapply td2_block_cov; eauto using block_okL.
          - intros s' X. rewrite td2_block_fst. eapply bu_block_soundL; eauto using block_okL. }
        destruct (srun_sound env ctab store gL itv_ops (e_join_soundL_l voff) (e_join_soundL_r voff)
                    (e_meet_soundL voff) (e_narrow_soundL voff) (e_leq_soundL voff)
                    an (bstepf p f) ctstep ctstep_refl ctstep_trans
                    (fun n a g => td2_block_step _ a g)
                    (fun _ => True) (fun _ _ _ _ => I) CT
                    (fun n s g => CallsCovCT g f n s)
                    (fun n s g g' S H => CallsCovCT_step g g' f n s S H) ANS
                    (fn_preds (get_fn p f)) (nest_of (wtos f)) 0 delay desc (EntryState f) efuel init_inv HI
                    (wtos f) WN WE WS ct r RUN I C0) as (ST & C1 & HP & HQ).
        destruct (frame entries Init) as [FA FB].
        split; [exact ST|]. split; [exact C1|]. split.
        + intros n s R. apply HP. apply (proj1 (RP_gamma_irrel env store genv gL _ _ _ _ _)). apply FA, R.
        + intros n s R. apply HQ. apply (proj2 (RP_gamma_irrel env store genv gL _ _ _ _ _)). apply FB, R.
      - destruct IRPre_lt as [LA LB].
        split; [|split; [|split; intros n s R; exfalso; [pose proof (LA _ _ _ R)|pose proof (LB _ _ _ R)]; lia]].
        + exact (srun_step env ctab itv_ops an ctstep ctstep_refl ctstep_trans
                   (fun n a g => td2_block_step _ a g) _ _ _ _ _ _ _ _ _ _ RUN).
        + exact (srun_step env ctab itv_ops an (fun g g' => CT g -> CT g') (fun g H => H)
                   (fun a b c H1 H2 H => H2 (H1 H)) (fun n a g => td2_block_CT _ a g) _ _ _ _ _ _ _ _ _ _ RUN C0).
    Qed.

    Definition Cov (st : tdst) (f : nat) : Prop :=
      (forall n s, IRPre p entries Init f n s -> gL (t_pre st f n) s /\ CallsCovCT (t_ct st) f n s) /\
      (forall n s, IRPost p entries Init f n s -> gL (t_post st f n) s).
    Definition TI (st : tdst) : Prop :=
      t_err st = false ->
      CT (t_ct st) /\ (forall f, In f (t_done st) -> Cov st f) /\
      (forall f, ~ In f (t_done st) -> forall n s, genv (t_pre st f n) s /\ genv (t_post st f n) s).

    Lemma TI_init : TI (mkTS (fun _ => None) (fun _ _ => e_top) (fun _ _ => e_top) [] false).
    Proof.
      intros _. cbn [t_ct t_done t_pre t_post]. split; [exact CT_none|].
      split; [intros f []|]. intros f _ m s. split; apply genv_top.
    Qed.

    Lemma TI_tables st : TI st -> t_err st = false ->
      (forall f n s, IRPre p entries Init f n s -> genv (t_pre st f n) s) /\
      (forall f n s, IRPost p entries Init f n s -> genv (t_post st f n) s).
    Proof.
      intros HT E. destruct (HT E) as (_ & DN & UD).
      split; intros f n s R; (destruct (in_dec Nat.eq_dec f (t_done st)) as [I|NI]; [|apply (UD f NI)]);
        apply (genvL_genv voff); apply (DN f I), R.
    Qed.

    (* an entry state that is not initial comes from a callsite: it is covered by the table once all
       the callers are done *)
    Lemma entry_state_cases acc f s0 : TI acc -> t_err acc = false ->
      all_in (cg_preds p f) (t_done acc) = true -> EntryState f s0 ->
      (In f entries /\ Init s0) \/
      (cg_preds p f <> [] /\ gL (match t_ct acc f with Some c => c | None => e_top end) s0).
    Proof.
      intros HT E AI [H|(h & m & sm & l1 & outs & ins & l2 & mid & R & EB & XB & B)]; [left; exact H|right].
      destruct (HT E) as (C0 & DN & _).
      assert (IP : In h (cg_preds p f)).
      { apply cg_preds_in. exists m, outs, ins. rewrite EB. apply in_or_app. right. left. reflexivity. }
      split; [intros EQ; rewrite EQ in IP; destruct IP|]. apply (CovCT_get _ _ _ C0).
      unfold all_in in AI. rewrite forallb_forall in AI. specialize (AI h IP). apply nmem_spec in AI.
      exact (proj2 (proj1 (DN h AI) m sm R) l1 outs f ins l2 mid s0 EB XB B).
    Qed.

    (* the next function is analysed, from a table that is at least the current one *)
    Lemma TI_step acc f ct1 init_inv r : TI acc -> t_err acc = false -> nmem f (t_done acc) = false ->
      ctstep (t_ct acc) ct1 -> CT ct1 -> (forall s0, EntryState f s0 -> gL init_inv s0) ->
      srun env ctab itv_ops (fun n e ct => td2b (fn_block (get_fn p f) n) e ct) (fn_preds (get_fn p f))
           (nest_of (wtos f)) 0 delay desc efuel (wtos f) init_inv ct1 = Some r ->
      TI (mkTS (se_g env ctab r) (fupd (t_pre acc) f (se_pre env ctab r))
               (fupd (t_post acc) f (se_post env ctab r)) (f :: t_done acc) (t_err acc)).
    Proof.
      intros HT E ND ST1 C1 HI RUN _. destruct (HT E) as (_ & DN & UD).
      destruct (td2_fun f ct1 init_inv r C1 HI RUN) as (ST & C2 & HP & HQ).
      pose proof (ctstep_trans _ _ _ ST1 ST) as ST2.
      cbn [t_ct t_pre t_post t_done]. split; [exact C2|]. split.
      - intros h [<-|Ih].
        + split; intros n s R; cbn [t_ct t_pre t_post]; unfold fupd; rewrite Nat.eqb_refl; [apply HP, R|apply HQ, R].
        + assert (NE : h <> f).
          { intros ->. apply nmem_spec in Ih. rewrite Ih in ND. discriminate. }
          destruct (DN h Ih) as [A B].
          split; intros n s R; cbn [t_ct t_pre t_post]; unfold fupd;
            (destruct (Nat.eqb_spec h f) as [EQ|_]; [contradiction|]).
          * destruct (A n s R) as [X Y]. split; [exact X|]. eapply CallsCovCT_step; eauto.
          * apply B, R.
      - intros h NI n s. assert (NE : h <> f) by (intros ->; apply NI; left; reflexivity).
        unfold fupd. destruct (Nat.eqb_spec h f) as [EQ|_]; [contradiction|].
        apply UD. intros I. apply NI. right. exact I.
    Qed.

    Variable init : env.
    Hypothesis HInit : forall s, Init s -> gL init s.
    Hypothesis HE : forall f, In f entries -> cg_preds p f = [].

    Lemma td2_sweep_inv st : TI st -> TI (td2_sweep p voff delay desc efuel wtos sums init st).
    Proof.
      unfold td2_sweep. apply (fold_left_inv TI). intros acc f _ HT. cbv beta zeta.
      destruct (nmem f (t_done acc)) eqn:ND; [exact HT|].
      destruct (all_in (cg_preds p f) (t_done acc)) eqn:AI; [|exact HT].
      match goal with |- TI (match ?X with _ => _ end) => destruct X as [r|] eqn:RUN end;
        intros E; [|discriminate E].
      refine (TI_step acc f _ _ r HT E ND (ctstep_refl _) (proj1 (HT E)) _ RUN E).
      intros s0 ES. destruct (entry_state_cases acc f s0 HT E AI ES) as [[Ie Is]|[NP Gs]].
      - rewrite (HE f Ie). apply HInit, Is.
      - destruct (cg_preds p f); [contradiction|exact Gs].
    Qed.
  End TopDown.

  Theorem bu_run_sound entries init :
    (forall f, In f entries -> f < length p /\ cg_preds p f = []) ->
    let r := bu_run p voff delay desc efuel wtos init in
    b_err r = false ->
    forall Init : store -> Prop, (forall s, Init s -> gL init s) ->
    (forall f n s, IRPre p entries Init f n s -> genv (b_pre r f n) s) /\
    (forall f n s, IRPost p entries Init f n s -> genv (b_post r f n) s) /\
    (forall sm, In sm (bu_summaries p (b_sum r)) ->
       forall s0 s1, genv (s_pre sm) s0 -> exec_fun p (s_fn sm) s0 s1 -> genv (s_post sm) s1).
  Proof.
    intros HE. cbv zeta. unfold bu_run. fold (cg_no_edges p).
    assert (HL : forall f, In f entries -> f < length p) by (intros f I; apply HE, I).
    destruct (cg_no_edges p) eqn:NE.
    - (* the call graph has no edges: main alone, from init *)
      match goal with |- b_err (match ?X with _ => _ end) = false -> _ => destruct X as [r|] eqn:RUN end;
        cbn [b_err b_pre b_post b_sum]; intros FN Init HI; [|discriminate].
      assert (HI0 : forall s0, EntryState entries Init 0 s0 -> gL init s0).
      { intros s0 [[_ Is]|(h & m & sm & l1 & outs & ins & l2 & mid & _ & EB & _)]; [apply HI, Is|].
        assert (IP : In h (cg_preds p 0)).
        { apply cg_preds_in. exists m, outs, ins. rewrite EB. apply in_or_app. right. left. reflexivity. }
        rewrite (no_edges_no_preds p NE) in IP. destruct IP. }
      (* the tables are those of the first step of a top-down phase without summaries *)
      destruct (TI_tables _ entries Init _ (TI_step _ SInv_none entries Init HL _ 0 _ init r
                  (TI_init _ entries Init) eq_refl eq_refl (ctstep_refl _) (CT_none _) HI0 RUN) eq_refl) as [TA TB].
      split; [exact TA|]. split; [exact TB|apply SInv_summaries, SInv_none].
    - (* bottom-up phase, then top-down phase *)
      assert (SIf : SInv (fst (fst (iter (length p) (bu_sweep p voff delay desc efuel wtos) (fun _ => None, [], false))))).
      { apply (iter_inv (fun st => SInv (fst (fst st)))); [exact bu_sweep_inv|exact SInv_none]. }
      destruct (iter (length p) (bu_sweep p voff delay desc efuel wtos) (fun _ => None, [], false))
        as [[sums done] err].
      cbn [fst] in SIf. cbn [b_err b_pre b_post b_sum]. intros FN Init HI.
      destruct (TI_tables sums entries Init
                  (iter (length p) (td2_sweep p voff delay desc efuel wtos sums init)
                        (mkTS (fun _ => None) (fun _ _ => e_top) (fun _ _ => e_top) [] false))) as [TA TB].
      + apply (iter_inv (TI sums entries Init)); [|apply TI_init].
        intros st. apply (td2_sweep_inv sums SIf entries Init HL init HI). intros f I. apply HE, I.
      + match goal with |- ?X = false => destruct X; [|reflexivity] end.
        rewrite orb_true_r in FN. discriminate FN.
      + split; [exact TA|]. split; [exact TB|apply SInv_summaries, SIf].
  Qed.
End BUModel.

(* call_graph::entries() tests for callers *)
Lemma called_iff p f : nmem f (flat_map (cg_succs p) (seq 0 (length p))) = true <-> cg_preds p f <> [].
Proof.
  unfold cg_preds. rewrite nmem_spec, in_flat_map. split.
  - intros (g & I & J) E.
    assert (X : In g (filter (fun g => nmem f (cg_succs p g)) (seq 0 (length p)))).
    { apply filter_In. split; [exact I|apply nmem_spec, J]. }
    rewrite E in X. destruct X.
  - intros NE. destruct (filter _ _) as [|g l] eqn:E; [contradiction|].
    assert (X : In g (g :: l)) by (left; reflexivity). rewrite <- E in X. apply filter_In in X.
    exists g. split; [apply X|apply nmem_spec, X].
Qed.

(* when every function has a caller nothing is ever processed by the top-down phase *)
Lemma td2_sweep_stuck p voff delay desc efuel wtos sums init st :
  (forall f, f < length p -> cg_preds p f <> []) -> t_done st = [] ->
  t_done (td2_sweep p voff delay desc efuel wtos sums init st) = [].
Proof.
  intros H. unfold td2_sweep. apply (fold_left_inv (fun acc => t_done acc = [])).
  intros acc f If E. cbv beta zeta. rewrite E. cbn [nmem existsb].
  apply in_seq in If. destruct (cg_preds p f) as [|x xs] eqn:CP; [exfalso; apply (H f); [lia|exact CP]|].
  cbn [all_in forallb nmem existsb andb]. exact E.
Qed.

(* call_graph::entries(): the functions without callers; all the functions when there is none *)
Lemma cg_entries_cases p :
  (forall f, In f (cg_entries p) -> cg_preds p f = []) \/ (forall f, f < length p -> cg_preds p f <> []).
Proof.
  unfold cg_entries. cbv zeta.
  destruct (filter _ (seq 0 (length p))) as [|x l] eqn:FE; [right|left]; intros f I.
  - apply called_iff. destruct (nmem f _) eqn:E; [reflexivity|].
    assert (X : In f []); [|destruct X].
    rewrite <- FE. apply filter_In. split; [apply in_seq; lia|rewrite E; reflexivity].
  - rewrite <- FE in I. apply filter_In in I. destruct I as [_ I]. apply negb_true_iff in I.
    destruct (cg_preds p f) eqn:CP; [reflexivity|].
    rewrite (proj2 (called_iff p f)) in I by (rewrite CP; discriminate). discriminate I.
Qed.

Lemma bu_run_entries p voff delay desc efuel wtos init :
  b_err (bu_run p voff delay desc efuel wtos init) = false ->
  forall f, In f (cg_entries p) -> f < length p /\ cg_preds p f = [].
Proof.
  intros FN f I. pose proof (cg_entries_lt p f I) as Lf. split; [exact Lf|].
  destruct (cg_entries_cases p) as [H|ALL]; [exact (H f I)|exfalso].
  (* every function has a caller: the top-down phase processes nothing and the error flag is raised *)
  unfold bu_run in FN. fold (cg_no_edges p) in FN. destruct (cg_no_edges p) eqn:NE.
  - exact (ALL f Lf (no_edges_no_preds p NE f)).
  - destruct (iter (length p) (bu_sweep p voff delay desc efuel wtos) (fun _ => None, [], false)) as [[sums done] err].
    cbn [b_err] in FN.
    assert (TD : t_done (iter (length p) (td2_sweep p voff delay desc efuel wtos sums init)
                              (mkTS (fun _ => None) (fun _ _ => e_top) (fun _ _ => e_top) [] false)) = []).
    { apply (iter_inv (fun st => t_done st = [])); [|reflexivity].
      intros st. apply td2_sweep_stuck. exact ALL. }
    rewrite TD in FN. cbn [length] in FN.
    destruct (length p) as [|k]; [lia|]. cbn in FN. rewrite !orb_true_r in FN. discriminate.
Qed.

Lemma lmax_ge : forall l acc, (acc <= fold_left N.max l acc)%N /\ forall x, In x l -> (x <= fold_left N.max l acc)%N.
Proof.
  induction l as [|y l IH]; intros acc; cbn [fold_left].
  - split; [lia|intros x []].
  - destruct (IH (N.max acc y)) as [A B]. split; [lia|].
    intros x [<-|I]; [lia|apply B, I].
Qed.

Lemma prog_voff_low p : iprog_lowb p (prog_voff p) = true.
Proof.
  unfold iprog_lowb. apply forallb_forall. intros fn If. apply forallb_forall. intros b Ib.
  apply forallb_forall. intros st Ist. unfold InterSyntax.below. apply forallb_forall. intros x Ix.
  apply N.ltb_lt. unfold prog_voff, lmax.
  match goal with |- (x < N.succ (fold_left N.max ?l 0%N))%N => destruct (lmax_ge l 0%N) as [_ H]; specialize (H x) end.
  assert (J : (x <= fold_left N.max
                     (flat_map (fun fn => fn_formals fn ++ flat_map (fun b => flat_map istmt_vars b) (f_blocks fn)) p) 0%N)%N).
  { apply H. apply in_flat_map. exists fn. split; [exact If|]. apply in_or_app. right.
    apply in_flat_map. exists b. split; [exact Ib|]. apply in_flat_map. exists st. split; [exact Ist|exact Ix]. }
  lia.
Qed.

Theorem bu_model_sound p delay desc efuel wtos init :
  let voff := prog_voff p in
  iprog_wfb p voff = true ->
  (forall f, f < length p -> build (fn_graph (get_fn p f)) 0 = Some (wtos f)) ->
  let r := bu_run p voff delay desc efuel wtos init in
  b_err r = false ->
  forall Init : store -> Prop,
  (forall s s', Init s -> (forall k, (k < voff)%N -> s' k = s k) -> genv init s') ->
  (forall f n s, IRPre p (cg_entries p) Init f n s -> genv (b_pre r f n) s) /\
  (forall f n s, IRPost p (cg_entries p) Init f n s -> genv (b_post r f n) s) /\
  (forall sm, In sm (bu_summaries p (b_sum r)) ->
     forall s0 s1, genv (s_pre sm) s0 -> exec_fun p (s_fn sm) s0 s1 -> genv (s_post sm) s1).
Proof.
  intros voff WF WTO r FN Init HI.
  apply (bu_run_sound p voff WF (prog_voff_low p) delay desc efuel wtos WTO (cg_entries p) init
           (bu_run_entries p voff delay desc efuel wtos init FN) FN Init).
  intros s Is s' A. apply (HI s s' Is A).
Qed.

Corollary bu_model_summary_any_input p delay desc efuel wtos init :
  let voff := prog_voff p in
  iprog_wfb p voff = true ->
  (forall f, f < length p -> build (fn_graph (get_fn p f)) 0 = Some (wtos f)) ->
  let r := bu_run p voff delay desc efuel wtos init in
  b_err r = false ->
  forall f sum, f < length p -> b_sum r f = Some sum ->
  forall s0 s1, exec_fun p f s0 s1 -> genv sum s1.
Proof.
  intros voff WF WTO r FN. apply bu_summaries_any_input.
  apply (bu_model_sound p delay desc efuel wtos init WF WTO FN (fun _ => False)). intros s s' [].
Qed.
