(* CheckerEngine.v — verdicts of the assertion checker model (Ana/Checker.v) on the tables
   computed by the engine model itself: the soundness of the engine (Ana/FwdItvEngineSound.v)
   replaces the "tables accepted by the verified checker" hypothesis of C02. *)
From Coq Require Import ZArith List Bool Arith.
From CrabV Require Import Base.ZInf Scalar.Itv Ir.Syntax Ir.Cfg Dom.ItvEnv Dom.ItvEnvSound Dom.ItvDomain
     Fix.Wto Fix.WtoCheck Fix.Engine Ana.Transformer Ana.FwdItv Ana.FwdItvSound Ana.Checker Ana.FwdItvEngineSound.
Import ListNotations.

Theorem engine_verdicts_sound :
  forall p, prog_wfb p = true ->
  forall use_asm asm (Init : store -> Prop) init, (forall s, Init s -> genv init s) ->
  forall delay desc fuel e0 entry w e,
  build (p_graph p) e0 = Some w -> In entry (flat w) ->
  fwd_run p w entry delay desc use_asm asm fuel init = Some e ->
  forall n a, ReachPre p entry use_asm asm Init n a -> sound_verdicts (p_block p n) (e_pre env e n) a.
Proof.
  intros p W use_asm asm Init init IS delay desc fuel e0 entry w e BU IE RUN n a R.
  apply check_block_sound; [exact (prog_wfb_blocks p W n)|].
  exact (proj1 (fwd_run_sound_any_entry p W use_asm asm Init init IS delay desc fuel e0 entry w e BU IE RUN) n a R).
Qed.
