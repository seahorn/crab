(* FwdItvEngineSound.v — property C01 for the forward interval analyzer model, WITHOUT a
   checker: whenever the engine model terminates on the weak topological ordering computed
   by the model of wto.hpp, its invariant tables contain every state with which an execution
   from the initial states enters / leaves each block.  All programs with well-formed
   statements and in-range edges, all fixpoint parameters, fuels and assumption maps.
   Instance of Fix/EngineSound.v. *)
From Coq Require Import ZArith List Bool Arith Lia.
From CrabV Require Import Base.ZInf Scalar.Itv Ir.Syntax Ir.Cfg Dom.ItvEnv Dom.ItvEnvSound Dom.ItvDomain
     Fix.Wto Fix.WtoCheck Fix.WtoSound Fix.WtoRoot Fix.Engine Fix.EngineBelow Fix.EngineCheck Fix.EngineRel Fix.EngineFS
     Fix.EngineFS Fix.EngineSound Ana.Transformer Ana.FwdItv Ana.FwdItvSound.
Import ListNotations.

(* the syntactic conditions also tested by fwd_check: statements well formed, edges between
   existing blocks *)
Definition prog_wfb (p : prog) : bool :=
  forallb (fun b => forallb stmt_wfb b) (p_blocks p) &&
  forallb (fun e => (fst e <? length (p_blocks p)) && (snd e <? length (p_blocks p))) (p_edges p).

Lemma prog_wfb_blocks p : prog_wfb p = true -> forall n, block_wf (p_block p n).
Proof. intros W. exact (blocks_wf p (proj1 (andb_prop _ _ W))). Qed.

Lemma prog_wfb_edge p : prog_wfb p = true ->
  forall q n, In (q, n) (p_edges p) -> q < length (p_blocks p) /\ n < length (p_blocks p).
Proof. intros W. exact (edges_in_range p (proj2 (andb_prop _ _ W))). Qed.

Lemma dedup_In : forall l x, In x (dedup l) <-> In x l.
Proof.
  induction l as [|h t IH]; intros x; cbn [dedup]; [tauto|].
  cbn [In]. rewrite filter_In, IH, negb_true_iff, Nat.eqb_neq.
  destruct (Nat.eq_dec h x) as [E|N]; [tauto|]. split; [tauto|]. intros [H|H]; [tauto|]. auto.
Qed.

Lemma p_succs_edge : forall p q n, In n (p_succs p q) <-> In (q, n) (p_edges p).
Proof.
  intros p q n. unfold p_succs. rewrite dedup_In, in_map_iff. split.
  - intros [[a b] [E I]]. apply filter_In in I. destruct I as [I F]. cbn [fst snd] in *.
    apply Nat.eqb_eq in F. subst. exact I.
  - intros I. exists (q, n). split; [reflexivity|]. apply filter_In. split; [exact I|].
    cbn [fst]. apply Nat.eqb_refl.
Qed.
(* the successor lists of a graph given block by block *)
Lemma succs_map_seq (f : nat -> list nat) n q : q < n -> succs (map f (seq 0 n)) q = f q.
Proof.
  intros L. unfold succs.
  rewrite (nth_indep _ [] (f 0)) by (rewrite map_length, seq_length; exact L).
  rewrite map_nth, seq_nth by exact L. reflexivity.
Qed.
Lemma p_graph_succs : forall p q, q < length (p_blocks p) -> succs (p_graph p) q = p_succs p q.
Proof. intros p q. apply succs_map_seq. Qed.

(* the predecessor lists of the analyzer and the successor lists of the graph given to the
   WTO construction describe the same edges *)
Lemma preds_in_graph : forall p, prog_wfb p = true ->
  forall n q, In q (p_preds p n) -> In n (succs (p_graph p) q).
Proof.
  intros p W n q I. apply p_preds_edge in I.
  rewrite p_graph_succs by apply (prog_wfb_edge p W q n I). apply p_succs_edge. exact I.
Qed.

Section FwdSound.
  Variable p : prog.
  Hypothesis p_wf : prog_wfb p = true.
  Variable use_asm : bool.
  Variable asm : nat -> option env.
  Variable Init : store -> Prop.
  Variable init : env.
  Hypothesis init_s : forall s, Init s -> genv init s.
  Variables delay desc fuel : nat.

  (* The interval instance of Fix/EngineSound.v: any widening operator, any block transformer
     that is sound for the blocks of p, any ordering satisfying property C07 for the graph of
     p, any start block of the ordering (also strictly inside loops). *)
  Theorem itv_run_sound_WF widen analyze :
    (forall n e a b, genv e a -> bstep (p_block p n) a b -> genv (analyze n e) b) ->
    forall e0 nst dom w entry e,
    WF (p_graph p) e0 w nst dom ->
    In entry (flat w) ->
    run env (mkOps env EBot e_top e_join e_meet widen e_narrow e_leq) analyze (p_preds p) (nest_of w)
        entry delay desc use_asm asm init fuel w = Some e ->
    (forall n s, ReachPre p entry use_asm asm Init n s -> genv (e_pre env e n) s) /\
    (forall n s, ReachPost p entry use_asm asm Init n s -> genv (e_post env e n) s).
  Proof.
    intros AS e0 nst dom w entry e W IE RUN.
    exact (engine_sound_WF env store genv (mkOps env EBot e_top e_join e_meet widen e_narrow e_leq)
             (fun a b s H => e_join_sound a b s (or_introl H))
             (fun a b s H => e_join_sound a b s (or_intror H))
             e_meet_sound e_narrow_sound e_leq_sound
             analyze (fun n => bstep (p_block p n)) AS
             (p_preds p) (nest_of w) entry delay desc use_asm asm Init init init_s fuel
             (p_graph p) e0 nst dom w W
             (fun n q I _ => preds_in_graph p p_wf n q I) IE e RUN).
  Qed.

  Theorem fwd_run_sound_WF : forall e0 nst dom w entry e,
    WF (p_graph p) e0 w nst dom ->
    In entry (flat w) ->
    fwd_run p w entry delay desc use_asm asm fuel init = Some e ->
    (forall n s, ReachPre p entry use_asm asm Init n s -> genv (e_pre env e n) s) /\
    (forall n s, ReachPost p entry use_asm asm Init n s -> genv (e_post env e n) s).
  Proof.
    apply (itv_run_sound_WF (fun _ => e_widen)).
    intros n e a b. apply tr_block_sound, prog_wfb_blocks, p_wf.
  Qed.

  (* the ordering computed by the model of wto.hpp from a block e0 (the CFG entry); the
     analysis starts at any block of that ordering: crab's run(entry, init, assumptions) *)
  Theorem fwd_run_sound_any_entry : forall e0 entry w e,
    build (p_graph p) e0 = Some w -> In entry (flat w) ->
    fwd_run p w entry delay desc use_asm asm fuel init = Some e ->
    (forall n s, ReachPre p entry use_asm asm Init n s -> genv (e_pre env e n) s) /\
    (forall n s, ReachPost p entry use_asm asm Init n s -> genv (e_post env e n) s).
  Proof. intros e0 entry w e BU. exact (fwd_run_sound_WF e0 _ _ w entry e (build_WF _ _ _ BU)). Qed.

  (* ... from the block the ordering was built from: crab's run(init) *)
  Theorem fwd_run_sound : forall entry w e,
    build (p_graph p) entry = Some w ->
    fwd_run p w entry delay desc use_asm asm fuel init = Some e ->
    (forall n s, ReachPre p entry use_asm asm Init n s -> genv (e_pre env e n) s) /\
    (forall n s, ReachPost p entry use_asm asm Init n s -> genv (e_post env e n) s).
  Proof.
    intros entry w e BU. destruct (build_entry_ok _ _ _ BU) as [_ [IE _]].
    exact (fwd_run_sound_any_entry entry entry w e BU IE).
  Qed.

  (* a bottom invariant means that the block is never entered *)
  Corollary fwd_run_bottom_unreachable : forall e0 entry w e,
    build (p_graph p) e0 = Some w -> In entry (flat w) ->
    fwd_run p w entry delay desc use_asm asm fuel init = Some e ->
    forall n, e_is_bot (e_pre env e n) = true -> forall s, ~ ReachPre p entry use_asm asm Init n s.
  Proof.
    intros e0 entry w e BU IE RUN n Bn s R. apply (e_is_bot_sound _ s Bn).
    exact (proj1 (fwd_run_sound_any_entry e0 entry w e BU IE RUN) n s R).
  Qed.
End FwdSound.

(* non-vacuity: x := 0; while (x <= 9) x := x + 1 — the hypotheses hold, the run terminates
   and the theorem bounds x at the loop exit *)
Example fwd_run_sound_example :
  let x := 0%N in
  let p := mkProg [[SAssign x (mkLE [] 0)];
                   [];
                   [SAssume (mkLC INEQ (mkLE [(1%Z, x)] (-9))); SArith OpAdd x x (OCst 1)];
                   [SAssume (mkLC INEQ (mkLE [((-1)%Z, x)] 10))]]
                  [(0,1); (1,2); (2,1); (1,3)] in
  prog_wfb p = true /\
  exists w e, build (p_graph p) 0 = Some w /\
    fwd_run p w 0 2 1 false (fun _ => None) 100 e_top = Some e /\
    e_at (e_post env e 3) x = mkI (Fin 10) (Fin 10) /\
    forall s, ReachPost p 0 false (fun _ => None) (fun _ => True) 3 s -> genv (e_post env e 3) s.
Proof.
  cbv zeta. apply conj_keep; [vm_compute; reflexivity|intros W].
  eexists. evar (e : est env). exists e.
  apply conj_keep; [vm_compute; reflexivity|intros BU].
  apply conj_keep; [vm_compute; reflexivity|intros RUN].
  split; [vm_compute; reflexivity|]. clearbody e.
  exact (proj2 (fwd_run_sound _ W false (fun _ => None) (fun _ => True) e_top (fun s _ => genv_top s)
                              2 1 100 0 _ _ BU RUN) 3).
Qed.

(* the analysis starts strictly inside a loop: b0: x := 5; b1: loop head; b2: x := x + 1;
   b3: exit; the ordering is built from b0, the analysis starts at the body block b2 with
   x = 0.  The initial value is joined with what comes around the loop: pre(b2) = [0,+oo],
   pre(b1) = [1,+oo] (as printed by the repaired C++), and the theorem applies *)
Example fwd_run_entry_in_loop_example :
  let x := 0%N in
  let p := mkProg [[SAssign x (mkLE [] 5)];
                   [];
                   [SArith OpAdd x x (OCst 1)];
                   []]
                  [(0,1); (1,2); (2,1); (1,3)] in
  let init := e_set e_top x (mkI (Fin 0) (Fin 0)) in
  let Init := fun s : store => s x = 0%Z in
  prog_wfb p = true /\ (forall s, Init s -> genv init s) /\
  exists w e, build (p_graph p) 0 = Some w /\ In 2 (flat w) /\ entry_ok 2 w = false /\
    fwd_run p w 2 1 1 false (fun _ => None) 100 init = Some e /\
    e_at (e_pre env e 2) x = mkI (Fin 0) PInf /\
    e_at (e_pre env e 1) x = mkI (Fin 1) PInf /\
    (forall n s, ReachPre p 2 false (fun _ => None) Init n s -> genv (e_pre env e n) s) /\
    (forall s, Init s -> genv (e_pre env e 2) s).
Proof.
  cbv zeta. apply conj_keep; [vm_compute; reflexivity|intros W].
  apply conj_keep; [|intros IS].
  { intros s H. apply e_set_same_sound; [apply genv_top|]. rewrite H. split; vm_compute; reflexivity. }
  eexists. evar (e : est env). exists e.
  apply conj_keep; [vm_compute; reflexivity|intros BU].
  apply conj_keep; [vm_compute; tauto|intros IE].
  split; [vm_compute; reflexivity|].
  apply conj_keep; [vm_compute; reflexivity|intros RUN].
  split; [vm_compute; reflexivity|]. split; [vm_compute; reflexivity|]. clearbody e.
  apply conj_keep; [|intros S1].
  - exact (proj1 (fwd_run_sound_any_entry _ W false (fun _ => None) _ _ IS 1 1 100 0 2 _ e BU IE RUN)).
  - intros s H. apply S1. apply RP_init; [exact H|exact I].
Qed.
