(* CfgSemExt.v — an extended statement language for the generic CFG semantics of Ana/SimplifyGen.v:
   the numeric statements of Ana/CfgSem.v + the boolean statements + the array statements of
   CrabIR (element size 1), with a concrete step relation.  The meaning follows the independent
   python interpreter of the oracle streams transforms-bool / transforms-array
   (/verif/gen/transforms.py, step_stmt):

   * a store = integer valuation, boolean valuation, array valuation (var -> Z -> option Z;
     None = undefined cell);
   * numeric statements act on the integer valuation exactly as CfgSem.exec_stmt;
   * b := (c); b := b'; b := not b'; b := b1 and/or/xor b2; b := select(c, b1, b2);
     assume(b) / assume(not b) filter and emit EvAssume; assert(b) [id] emits EvAssert id true or
     ends the execution in the error configuration with EvAssert id false; havoc(b);
     x := zext(b) (0 or 1);
   * array_init(a, lb, ub, v): cells lb, lb+1, ..., ub hold v, EVERY other cell is undefined;
     array_store(a, i, v): one cell; array_store_range(a, lb, ub, v): cells lb..ub, the others are
     kept; x := array_load(a, i): the value of the cell, an ARBITRARY value if it is undefined;
     array_assign(a, a'): copy of the whole array.
     (The interpreter additionally gives up on ranges of more than 4096 cells; such runs are not
     compared by the oracle.  The relation below has no such bound.)

   The generic theorems are instantiated at this language at the end (simplify_wf_ext,
   simplify_beh_ext, ...), and ex_chain is a 4-block chain with a range store in a middle block:
   simplify merges it into one block, whose statement list is displayed. *)
From Coq Require Import ZArith List Bool Lia.
From CrabV Require Import Ir.Syntax Ana.CfgSem.
From CrabV Require Ana.SimplifyGen.
Import ListNotations.
Local Open Scope Z_scope.
Module G := SimplifyGen.

Definition bvar := N.
Definition avar := N.
Inductive bool_op := BAnd | BOr | BXor.

Inductive xstmt :=
| XNum (st : stmt)                                     (* the statements of CfgSem.v *)
| XBAssign (b : bvar) (c : lincst)                     (* b := (c) *)
| XBCopy (b b1 : bvar)                                 (* b := b1 *)
| XBNot (b b1 : bvar)                                  (* b := not b1 *)
| XBBin (op : bool_op) (b b1 b2 : bvar)                (* b := b1 op b2 *)
| XBSelect (b c b1 b2 : bvar)                          (* b := c ? b1 : b2 *)
| XBAssume (b : bvar)                                  (* assume(b) *)
| XBNAssume (b : bvar)                                 (* assume(not b) *)
| XBAssert (b : bvar) (id : N)                         (* assert(b) *)
| XBHavoc (b : bvar)
| XBZext (x : var) (b : bvar)                          (* x := zext(b) *)
| XAInit (a : avar) (lb ub v : linexp)                 (* array_init(a, 1, lb, ub, v) *)
| XAStore (a : avar) (i v : linexp)                    (* array_store(a, 1, i, v) *)
| XAStoreRange (a : avar) (lb ub v : linexp)           (* array_store_range(a, 1, lb, ub, v) *)
| XALoad (x : var) (a : avar) (i : linexp)             (* x := array_load(a, 1, i) *)
| XAAssign (a a1 : avar).                              (* a := a1 *)

Definition array := Z -> option Z.
Record xstore := mkX { x_int : store; x_bool : bvar -> bool; x_arr : avar -> array }.

Definition set_int (s : xstore) (i : store) : xstore := mkX i (x_bool s) (x_arr s).
Definition upd_int (s : xstore) (x : var) (v : Z) : xstore := set_int s (upd (x_int s) x v).
Definition upd_bool (s : xstore) (b : bvar) (v : bool) : xstore :=
  mkX (x_int s) (fun y => if N.eqb y b then v else x_bool s y) (x_arr s).
Definition upd_arr (s : xstore) (a : avar) (m : array) : xstore :=
  mkX (x_int s) (x_bool s) (fun y => if N.eqb y a then m else x_arr s y).

Definition in_range (l u i : Z) : bool := (l <=? i) && (i <=? u).
(* cells l, l+1, ..., u := v *)
Definition write_range (m : array) (l u v : Z) : array :=
  fun i => if in_range l u i then Some v else m i.
Definition write_cell (m : array) (i v : Z) : array :=
  fun j => if j =? i then Some v else m j.
Definition undef_array : array := fun _ => None.

Definition bool_sem (op : bool_op) (x y : bool) : bool :=
  match op with BAnd => x && y | BOr => x || y | BXor => xorb x y end.

(* events: CfgSem.event (only EvAssume and EvAssert are emitted by statements);
   [Some s'] = normal completion, [None] = the error configuration *)
Inductive exec_x : xstmt -> xstore -> list event -> option xstore -> Prop :=
| XxNum st s ev i' : exec_stmt st (x_int s) ev i' -> exec_x (XNum st) s ev (Some (set_int s i'))
| XxNumFail c id s : satb c (x_int s) = false -> exec_x (XNum (SAssert c id)) s [EvAssert id false] None
| XxBAssign b c s : exec_x (XBAssign b c) s [] (Some (upd_bool s b (satb c (x_int s))))
| XxBCopy b b1 s : exec_x (XBCopy b b1) s [] (Some (upd_bool s b (x_bool s b1)))
| XxBNot b b1 s : exec_x (XBNot b b1) s [] (Some (upd_bool s b (negb (x_bool s b1))))
| XxBBin op b b1 b2 s :
    exec_x (XBBin op b b1 b2) s [] (Some (upd_bool s b (bool_sem op (x_bool s b1) (x_bool s b2))))
| XxBSelect b c b1 b2 s :
    exec_x (XBSelect b c b1 b2) s [] (Some (upd_bool s b (if x_bool s c then x_bool s b1 else x_bool s b2)))
| XxBAssume b s : x_bool s b = true -> exec_x (XBAssume b) s [EvAssume] (Some s)
| XxBNAssume b s : x_bool s b = false -> exec_x (XBNAssume b) s [EvAssume] (Some s)
| XxBAssert b id s : x_bool s b = true -> exec_x (XBAssert b id) s [EvAssert id true] (Some s)
| XxBAssertFail b id s : x_bool s b = false -> exec_x (XBAssert b id) s [EvAssert id false] None
| XxBHavoc b s v : exec_x (XBHavoc b) s [] (Some (upd_bool s b v))
| XxBZext x b s : exec_x (XBZext x b) s [] (Some (upd_int s x (if x_bool s b then 1 else 0)))
| XxAInit a lb ub v s :
    exec_x (XAInit a lb ub v) s []
           (Some (upd_arr s a (write_range undef_array (eval_le lb (x_int s)) (eval_le ub (x_int s))
                                           (eval_le v (x_int s)))))
| XxAStore a i v s :
    exec_x (XAStore a i v) s []
           (Some (upd_arr s a (write_cell (x_arr s a) (eval_le i (x_int s)) (eval_le v (x_int s)))))
| XxAStoreRange a lb ub v s :
    exec_x (XAStoreRange a lb ub v) s []
           (Some (upd_arr s a (write_range (x_arr s a) (eval_le lb (x_int s)) (eval_le ub (x_int s))
                                           (eval_le v (x_int s)))))
| XxALoad x a i s v :
    x_arr s a (eval_le i (x_int s)) = Some v -> exec_x (XALoad x a i) s [] (Some (upd_int s x v))
| XxALoadUndef x a i s v :
    x_arr s a (eval_le i (x_int s)) = None -> exec_x (XALoad x a i) s [] (Some (upd_int s x v))
| XxAAssign a a1 s : exec_x (XAAssign a a1) s [] (Some (upd_arr s a (x_arr s a1))).

(* outputs of the function declaration: integer or boolean variables (a boolean is observed as 0 / 1) *)
Inductive xvar := IVar (x : var) | BVar (b : bvar).
Definition xval (s : xstore) (o : xvar) : Z :=
  match o with IVar x => x_int s x | BVar b => if x_bool s b then 1 else 0 end.
Definition obs_x (outs : list xvar) (s : xstore) : list Z := map (xval s) outs.

Definition xblock := G.block xstmt.
Definition xcfg := G.cfg xstmt (list xvar).
Definition xevent := G.event event (list Z).

Definition step_x : xcfg -> G.config xstmt xstore -> list xevent -> G.config xstmt xstore -> Prop :=
  G.step exec_x obs_x.
Definition star_x : xcfg -> G.config xstmt xstore -> list xevent -> G.config xstmt xstore -> Prop :=
  G.star exec_x obs_x.
Definition exit_obs_x : xcfg -> xstore -> list xevent -> Prop := G.exit_obs exec_x obs_x.
Definition beh_eq_x : xcfg -> xcfg -> Prop := G.beh_eq exec_x obs_x.

Lemma write_range_in m l u v i : l <= i <= u -> write_range m l u v i = Some v.
Proof.
  intros H. unfold write_range, in_range.
  destruct (Z.leb_spec l i); [|lia]. destruct (Z.leb_spec i u); [|lia]. reflexivity.
Qed.
Lemma write_range_out m l u v i : i < l \/ u < i -> write_range m l u v i = m i.
Proof.
  intros H. unfold write_range, in_range.
  destruct (Z.leb_spec l i); destruct (Z.leb_spec i u); simpl; auto; lia.
Qed.
Lemma write_range_spec m l u v i :
  (l <= i <= u -> write_range m l u v i = Some v) /\ ((i < l \/ u < i) -> write_range m l u v i = m i).
Proof. split; [apply write_range_in|apply write_range_out]. Qed.
Lemma write_range_empty m l u v i : u < l -> write_range m l u v i = m i.
Proof. intros H. apply write_range_out. lia. Qed.

Theorem simplify_wf_ext (P Q : xcfg) : G.simplify P = Some Q -> G.wf P -> G.wf Q /\ G.keeps P Q.
Proof. apply G.simplify_wf. Qed.
Theorem simplify_beh_ext (P Q : xcfg) : G.simplify P = Some Q -> G.wf P -> beh_eq_x P Q.
Proof. apply G.simplify_beh. Qed.
Theorem merge_blocks_beh_ext (P Q : xcfg) : G.merge_blocks P = Some Q -> G.wf P -> G.wf Q /\ beh_eq_x P Q.
Proof. apply G.merge_blocks_beh. Qed.
Theorem remove_unreachable_beh_ext (P : xcfg) : G.wf P -> beh_eq_x P (G.remove_unreachable_blocks P).
Proof. apply G.remove_unreachable_beh. Qed.
Theorem remove_useless_beh_ext (P : xcfg) : G.wf P -> beh_eq_x P (G.remove_useless_blocks P).
Proof. apply G.remove_useless_beh. Qed.

(* b0: a0 := array_init(0..9, 0); goto b1.
   b1: b0 := (x0 <= 5);           goto b2.
   b2: array_store_range(a0, 2..4, 7); assert(b0) [1]; goto b3.
   b3 (exit): x1 := array_load(a0, 3).          outputs: x1, b0
   (a chain of four blocks) *)
Definition cst (k : Z) : linexp := mkLE [] k.
Definition ex_chain : xcfg :=
  G.mkCfg 0%N (Some 3%N)
    [(0%N, G.mkBlock [XAInit 0%N (cst 0) (cst 9) (cst 0)] [] [1%N]);
     (1%N, G.mkBlock [XBAssign 0%N (mkLC INEQ (mkLE [(1, 0%N)] (-5)))] [0%N] [2%N]);
     (2%N, G.mkBlock [XAStoreRange 0%N (cst 2) (cst 4) (cst 7); XBAssert 0%N 1%N] [1%N] [3%N]);
     (3%N, G.mkBlock [XALoad 1%N 0%N (cst 3)] [2%N] [])]
    [IVar 1%N; BVar 0%N].

Example ex_chain_wf : G.wf ex_chain.
Proof. apply G.wfb_sound. vm_compute. reflexivity. Qed.

(* b1 and b2 are folded into the entry block (the exit block has no successor, so
   merge_blocks_rec leaves it alone) *)
Definition ex_chain_simplified : xcfg :=
  G.mkCfg 0%N (Some 3%N)
    [(0%N, G.mkBlock [XAInit 0%N (cst 0) (cst 9) (cst 0);
                      XBAssign 0%N (mkLC INEQ (mkLE [(1, 0%N)] (-5)));
                      XAStoreRange 0%N (cst 2) (cst 4) (cst 7); XBAssert 0%N 1%N] [] [3%N]);
     (3%N, G.mkBlock [XALoad 1%N 0%N (cst 3)] [0%N] [])]
    [IVar 1%N; BVar 0%N].
Example ex_chain_simplify : G.simplify ex_chain = Some ex_chain_simplified.
Proof. vm_compute. reflexivity. Qed.
Example ex_chain_merged_block :
  exists Q, G.simplify ex_chain = Some Q /\ G.labels Q = [0%N; 3%N] /\ G.succs Q 0%N = [3%N] /\
  G.stmts_of Q 0%N = [XAInit 0%N (cst 0) (cst 9) (cst 0);
                      XBAssign 0%N (mkLC INEQ (mkLE [(1, 0%N)] (-5)));
                      XAStoreRange 0%N (cst 2) (cst 4) (cst 7); XBAssert 0%N 1%N].
Proof. exists ex_chain_simplified. split; [exact ex_chain_simplify|]. repeat split; reflexivity. Qed.

Definition ex_store : xstore := mkX (fun _ => 0) (fun _ => false) (fun _ => undef_array).

(* an execution of the chain that ends at the exit: the load reads the 7 written by the range store *)
Example ex_chain_runs :
  exit_obs_x ex_chain ex_store [G.EvStmt (EvAssert 1%N true); G.EvExit [7; 1]].
Proof.
  exists [G.EvGoto 1%N; G.EvGoto 2%N; G.EvStmt (EvAssert 1%N true); G.EvGoto 3%N; G.EvExit [7; 1]].
  split; [|reflexivity]. unfold G.init. simpl.
  apply (G.star_stmt (XxAInit _ _ _ _ _)).
  eapply G.star_goto; [simpl; auto|reflexivity|]. simpl.
  apply (G.star_stmt (XxBAssign _ _ _)).
  eapply G.star_goto; [simpl; auto|reflexivity|]. simpl.
  apply (G.star_stmt (XxAStoreRange _ _ _ _ _)).
  eapply (G.star_stmt (ev := [EvAssert 1%N true])); [apply XxBAssert; reflexivity|].
  eapply G.star_goto; [simpl; auto|reflexivity|]. simpl.
  eapply (G.star_stmt (ev := [])); [apply (XxALoad _ _ _ _ 7); reflexivity|].
  apply G.star_one. apply G.StExit. reflexivity.
Qed.
(* ... hence, by the theorem, the simplified CFG has an execution with the same observations *)
Example ex_chain_simplified_runs :
  exit_obs_x ex_chain_simplified ex_store [G.EvStmt (EvAssert 1%N true); G.EvExit [7; 1]].
Proof.
  apply (simplify_beh_ext ex_chain ex_chain_simplified ex_chain_simplify ex_chain_wf). exact ex_chain_runs.
Qed.
Example ex_chain_both_run :
  exit_obs_x ex_chain ex_store [G.EvStmt (EvAssert 1%N true); G.EvExit [7; 1]] /\
  exit_obs_x ex_chain_simplified ex_store [G.EvStmt (EvAssert 1%N true); G.EvExit [7; 1]].
Proof. exact (conj ex_chain_runs ex_chain_simplified_runs). Qed.

(* conservative extension: on the numeric statements
   exec_x is the concrete relation of Ana/SimplifyGenInst.v acting on the integer valuation *)
From CrabV Require Ana.SimplifyGenInst.
Lemma exec_x_num st s ev o :
  exec_x (XNum st) s ev o <->
  exists oi, SimplifyGenInst.exec_c st (x_int s) ev oi /\ o = option_map (set_int s) oi.
Proof.
  split.
  - intros X. inversion X; subst.
    + exists (Some i'). split; [constructor; auto|reflexivity].
    + exists None. split; [constructor; auto|reflexivity].
  - intros [oi [X ->]]. inversion X; subst; simpl.
    + constructor. auto.
    + constructor. auto.
Qed.
