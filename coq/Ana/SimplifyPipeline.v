(* SimplifyPipeline.v — the usual sequence of transformations: lower_safe_assertions; dce; simplify. *)
From Coq Require Import ZArith List Bool.
From CrabV Require Import Ir.Syntax Ana.CfgSem Ana.Dce Ana.DceSound Ana.Simplify Ana.SimplifySound
     Ana.SimplifyGenInst.
Import ListNotations.

Lemma wf_same_graph P Q : same_graph P Q -> wf P -> wf Q.
Proof.
  intros (E1 & E2 & E3 & E4 & E5). apply wf_same_shape. repeat split; auto; intros l; apply E5.
Qed.

Theorem dce_wf P Q : dce P = Some Q -> wf P -> wf Q.
Proof. intros H. apply wf_same_graph. apply dce_same_graph. exact H. Qed.

Theorem dce_exit_obs P Q :
  dce P = Some Q ->
  (forall s t, exit_obs P s t -> exit_obs Q s t) /\
  (dce_provisos 10 P -> forall s t, exit_obs Q s t -> exit_obs P s t).
Proof.
  intros H. destruct (dce_preserves_exit_executions P Q H) as [A B]. split.
  - intros s t [tr [St O]]. exists tr. split; auto.
  - intros OK s t [tr [St O]]. exists tr. split; auto.
Qed.

Theorem pipeline_beh safe P P1 Q :
  dce (lower safe P) = Some P1 -> simplify P1 = Some Q -> wf P ->
  wf Q /\
  (forall s t0, exit_obs P s t0 -> exit_obs Q s (lower_tr safe t0)) /\
  (dce_provisos 10 (lower safe P) ->
   forall s t, exit_obs Q s t -> exists t0, exit_obs P s t0 /\ lower_tr safe t0 = t).
Proof.
  intros HD HS W. destruct (lower_wf safe P W) as [W0 _].
  pose proof (dce_wf _ _ HD W0) as W1.
  destruct (simplify_wf _ _ HS W1) as [W2 _]. pose proof (simplify_beh _ _ HS W1) as B2.
  destruct (dce_exit_obs _ _ HD) as [D1 D2].
  split; auto. split.
  - intros s t0 H. apply B2. apply D1. apply lower_beh. eauto.
  - intros OK s t H. apply lower_beh. apply D2; auto. apply B2. exact H.
Qed.
