(* InterTDRecBase.v — auxiliary definitions for Ana/InterTDRecSound.v: the fixpoint table, the order
   on global states, the stratified collecting semantics of a function body and the coverage operator
   (greatest set of covered function entries relative to a set of promised ones). *)
From Coq Require Import ZArith NArith List Bool Arith Lia Relations.
From CrabV Require Import Base.ZInf Scalar.Itv Ir.Syntax Ir.Cfg Dom.ItvEnv Dom.ItvEnvSound Dom.ItvDomain
     Dom.ItvDomainSound Fix.Wto Fix.WtoCheck Fix.WtoSound Fix.WtoRoot Fix.Engine Fix.EngineCheck Fix.EngineRel
     Fix.EngineFS Ana.Transformer Ana.FwdItv Ana.FwdItvEngineSound Ana.InterSyntax Ana.InterSem Ana.InterSemIdx
     Ana.InterTD Ana.InterTDSound Ana.InterEngineSound Ana.InterTDModelSound Ana.InterTDRec.
Import ListNotations.

Definition keys (t : fixtab) : list nat := map fst t.

Lemma fix_find_some f t v : fix_find f t = Some v -> In f (keys t).
Proof.
  unfold fix_find. destruct (find _ t) as [q|] eqn:F; [|discriminate]. intros _.
  apply find_some in F. destruct F as [I E]. apply Nat.eqb_eq in E. subst f.
  unfold keys. apply in_map. exact I.
Qed.
Lemma fix_find_none f t : fix_find f t = None <-> ~ In f (keys t).
Proof.
  unfold fix_find, keys. split.
  - destruct (find _ t) as [q|] eqn:F; [discriminate|]. intros _ I.
    apply in_map_iff in I. destruct I as (q & E & I).
    pose proof (find_none _ _ F q I) as N. cbv beta in N. rewrite E, Nat.eqb_refl in N. discriminate.
  - intros N. destruct (find _ t) as [q|] eqn:F; [|reflexivity]. exfalso. apply N.
    apply find_some in F. destruct F as [I E]. apply Nat.eqb_eq in E. subst f. apply in_map. exact I.
Qed.
Lemma fix_find_in f t : In f (keys t) -> exists v, fix_find f t = Some v.
Proof.
  intros I. destruct (fix_find f t) as [v|] eqn:E; [eauto|]. apply fix_find_none in E. contradiction.
Qed.
Lemma fix_mem_spec f t : fix_mem f t = true <-> In f (keys t).
Proof.
  unfold fix_mem. split.
  - destruct (fix_find f t) eqn:E; [|discriminate]. intros _. eapply fix_find_some; eauto.
  - intros I. destruct (fix_find_in _ _ I) as [v ->]. reflexivity.
Qed.
Lemma keys_set f v t : keys (fix_set f v t) = keys t.
Proof.
  unfold keys, fix_set. rewrite map_map. apply map_ext_in. intros q _.
  destruct (Nat.eqb_spec (fst q) f) as [->|]; reflexivity.
Qed.
Lemma fix_find_set_same f v t : In f (keys t) -> fix_find f (fix_set f v t) = Some v.
Proof.
  unfold fix_find, fix_set, keys. induction t as [|q t IH]; cbn [map In find]; [intros []|].
  intros I. destruct (Nat.eqb_spec (fst q) f) as [E|N].
  - cbn [fst]. rewrite Nat.eqb_refl. reflexivity.
  - destruct (Nat.eqb_spec (fst q) f); [contradiction|]. apply IH. destruct I as [I|I]; [contradiction|exact I].
Qed.
Lemma fix_find_set_other f v t h : h <> f -> fix_find h (fix_set f v t) = fix_find h t.
Proof.
  intros N. unfold fix_find, fix_set. induction t as [|q t IH]; cbn [map find]; [reflexivity|].
  destruct (Nat.eqb_spec (fst q) f) as [E|E].
  - cbn [fst]. destruct (Nat.eqb_spec f h); [congruence|].
    destruct (Nat.eqb_spec (fst q) h); [congruence|]. exact IH.
  - destruct (Nat.eqb (fst q) h); [reflexivity|exact IH].
Qed.
Lemma keys_app t f v : keys (t ++ [(f, v)]) = keys t ++ [f].
Proof. unfold keys. rewrite map_app. reflexivity. Qed.
Lemma fix_find_app_same t f v : ~ In f (keys t) -> fix_find f (t ++ [(f, v)]) = Some v.
Proof.
  intros N. unfold fix_find. induction t as [|q t IH]; cbn [app find fst].
  - rewrite Nat.eqb_refl. reflexivity.
  - destruct (Nat.eqb_spec (fst q) f) as [E|E].
    + exfalso. apply N. left. exact E.
    + apply IH. intros I. apply N. right. exact I.
Qed.
Lemma fix_find_app_other t f v h : h <> f -> fix_find h (t ++ [(f, v)]) = fix_find h t.
Proof.
  intros N. unfold fix_find. induction t as [|q t IH]; cbn [app find fst].
  - destruct (Nat.eqb_spec f h); [congruence|reflexivity].
  - destruct (Nat.eqb (fst q) h); [reflexivity|exact IH].
Qed.
Lemma keys_erase f t : keys (fix_erase f t) = filter (fun k => negb (Nat.eqb k f)) (keys t).
Proof.
  unfold keys, fix_erase. induction t as [|q t IH]; cbn [filter map]; [reflexivity|].
  destruct (Nat.eqb (fst q) f); cbn [negb map]; [exact IH|f_equal; exact IH].
Qed.
Lemma filter_notin (l : list nat) f : ~ In f l -> filter (fun k => negb (Nat.eqb k f)) l = l.
Proof.
  induction l as [|a l IH]; cbn [filter]; [reflexivity|]. intros N.
  destruct (Nat.eqb_spec a f) as [E|E]; [exfalso; apply N; left; exact E|].
  cbn [negb]. f_equal. apply IH. intros I. apply N. right. exact I.
Qed.
Lemma keys_erase_last f t K : keys t = K ++ [f] -> ~ In f K -> keys (fix_erase f t) = K.
Proof.
  intros E N. rewrite keys_erase, E, filter_app. cbn [filter]. rewrite Nat.eqb_refl. cbn [negb].
  rewrite app_nil_r. apply filter_notin. exact N.
Qed.
Lemma fix_find_erase_other f t h : h <> f -> fix_find h (fix_erase f t) = fix_find h t.
Proof.
  intros N. unfold fix_find, fix_erase. induction t as [|q t IH]; cbn [filter find]; [reflexivity|].
  destruct (Nat.eqb_spec (fst q) f) as [E|E]; cbn [negb find].
  - destruct (Nat.eqb_spec (fst q) h); [congruence|]. exact IH.
  - destruct (Nat.eqb (fst q) h); [reflexivity|exact IH].
Qed.
Lemma fix_empty_keys t : fix_empty t = true <-> keys t = [].
Proof. destruct t; cbn; split; intros; (reflexivity || discriminate). Qed.

Definition stk (g : rgst) : list nat := g_stack (r_g g).
Definition fx (g : rgst) : fixtab := r_fix g.
Definition rcc (g : rgst) : nat -> list ctx := g_cc (r_g g).
Definition rerr (g : rgst) : bool := g_err (r_g g).

Record rstep (g g' : rgst) : Prop := mkRS {
  rs_base : gstep (r_g g) (r_g g');
  rs_keys : keys (fx g') = keys (fx g);
  rs_fix : forall h E X, fix_find h (fx g) = Some (E, X) ->
             exists E', fix_find h (fx g') = Some (E', X) /\ forall s, genv E s -> genv E' s }.

Lemma rstep_refl g : rstep g g.
Proof. constructor; [apply gstep_refl|reflexivity|]. intros h E X H. exists E. auto. Qed.
Lemma rstep_trans a b c : rstep a b -> rstep b c -> rstep a c.
Proof.
  intros [A1 A2 A3] [B1 B2 B3]. constructor; [eapply gstep_trans; eauto|congruence|].
  intros h E X H. destruct (A3 h E X H) as (E' & H' & S1). destruct (B3 h E' X H') as (E'' & H'' & S2).
  exists E''. split; auto.
Qed.
Lemma rstep_stk g g' : rstep g g' -> stk g' = stk g.
Proof. intros S. exact (gs_stack _ _ (rs_base _ _ S)). Qed.
Lemma rstep_err g g' : rstep g g' -> rerr g' = false -> rerr g = false.
Proof. intros S. exact (gstep_fin _ _ (rs_base _ _ S)). Qed.
Lemma rstep_lift (h : gst -> gst) g : (forall g0, gstep g0 (h g0)) -> rstep g (r_lift h g).
Proof.
  intros H. constructor; cbn; [apply H|reflexivity|]. intros k E X F. exists E. auto.
Qed.

Lemma RP_mono (A State : Type) (gamma : A -> State -> Prop) (b b' : nat -> State -> State -> Prop)
      (preds : nat -> list nat) (entry : nat) (Init Init' : State -> Prop) :
  (forall n s s', b n s s' -> b' n s s') -> (forall s, Init s -> Init' s) ->
  (forall n s, RPre A State gamma b preds entry false (fun _ => None) Init n s ->
               RPre A State gamma b' preds entry false (fun _ => None) Init' n s) /\
  (forall n s, RPost A State gamma b preds entry false (fun _ => None) Init n s ->
               RPost A State gamma b' preds entry false (fun _ => None) Init' n s).
Proof.
  intros HB HI.
  destruct (R_mutind A State gamma b preds entry false (fun _ => None) Init
              (fun n s _ => RPre A State gamma b' preds entry false (fun _ => None) Init' n s)
              (fun n s _ => RPost A State gamma b' preds entry false (fun _ => None) Init' n s)) as [H1 H2].
  - intros s I a. apply RP_init; [apply HI; exact I|exact a].
  - intros n q s I _ R a. eapply RP_edge; eauto.
  - intros n s s' _ R B. eapply RPo; eauto.
  - split; intros n s R; [exact (H1 n s R)|exact (H2 n s R)].
Qed.

Section Cov.
  Variable p : iprog.
  Variable n : nat.                    (* the level: calls are interpreted by xfun p n *)

  Definition bsn (f blk : nat) : store -> store -> Prop := gblock p (xfun p n) (fn_block (get_fn p f) blk).
  Definition IPren (f : nat) (S0 : store -> Prop) : nat -> store -> Prop :=
    RPre env store genv (bsn f) (fn_preds (get_fn p f)) 0 false (fun _ : nat => @None env) S0.
  Definition IPostn (f : nat) (S0 : store -> Prop) : nat -> store -> Prop :=
    RPost env store genv (bsn f) (fn_preds (get_fn p f)) 0 false (fun _ : nat => @None env) S0.

  Lemma IPren_init f (S0 : store -> Prop) s : S0 s -> IPren f S0 0 s.
  Proof. intros H. apply RP_init; [exact H|exact I]. Qed.
  Lemma IPren_edge f S0 q blk s : In (q, blk) (f_edges (get_fn p f)) -> IPostn f S0 q s -> IPren f S0 blk s.
  Proof. intros E H. apply RP_edge with q; [apply fn_preds_edge; exact E|exact H|exact I]. Qed.
  Lemma IPostn_step f S0 blk s s' : IPren f S0 blk s -> bsn f blk s s' -> IPostn f S0 blk s'.
  Proof. intros H B. apply RPo with s; assumption. Qed.
  Lemma IPn_mono f (S0 S0' : store -> Prop) : (forall s, S0 s -> S0' s) ->
    (forall blk s, IPren f S0 blk s -> IPren f S0' blk s) /\ (forall blk s, IPostn f S0 blk s -> IPostn f S0' blk s).
  Proof. intros H. apply RP_mono; auto. Qed.

  Lemma gfrom_intra S0 g blk a b : gfrom p (xfun p n) g blk a b -> IPren g S0 blk a ->
    exists x, f_exit (get_fn p g) = Some x /\ IPostn g S0 x b.
  Proof.
    induction 1 as [g k a b E B | g k m a b c B I F IH]; intros R.
    - exists k. split; [exact E|]. eapply IPostn_step; eauto.
    - apply IH. eapply IPren_edge; eauto. eapply IPostn_step; eauto.
  Qed.

  Definition CallsCovn (cov : nat -> store -> Prop) (f blk : nat) (s : store) : Prop :=
    forall l1 outs g0 ins l2 mid s0,
      fn_block (get_fn p f) blk = l1 ++ ICall outs g0 ins :: l2 ->
      gblock p (xfun p n) l1 s mid -> bind_ins (f_ins (get_fn p g0)) ins mid s0 -> cov g0 s0.

  Definition CtxCovn (tp tq : nat -> nat -> env) (cov : nat -> store -> Prop) (f : nat) (S0 : store -> Prop) : Prop :=
    (forall blk s, IPren f S0 blk s -> genv (tp f blk) s /\ CallsCovn cov f blk s) /\
    (forall blk s, IPostn f S0 blk s -> genv (tq f blk) s).

  Lemma CtxCovn_mono (tp tq tp' tq' : nat -> nat -> env) (cov cov' : nat -> store -> Prop) f (S0 S0' : store -> Prop) :
    (forall blk s, genv (tp f blk) s -> genv (tp' f blk) s) ->
    (forall blk s, genv (tq f blk) s -> genv (tq' f blk) s) ->
    (forall g0 s0, cov g0 s0 -> cov' g0 s0) -> (forall s, S0' s -> S0 s) ->
    CtxCovn tp tq cov f S0 -> CtxCovn tp' tq' cov' f S0'.
  Proof.
    intros H1 H2 H3 H4 [A B]. destruct (IPn_mono f S0' S0 H4) as [M1 M2]. split.
    - intros blk s R. destruct (A blk s (M1 _ _ R)) as [X Y]. split; [apply H1, X|].
      intros l1 outs g0 ins l2 mid s0 E1 E2 E3. apply H3. eapply Y; eauto.
    - intros blk s R. apply H2, B, M2, R.
  Qed.

  (* the coverage operator: C is closed relative to the promised entries P when the tables contain
     the states reached from every entry of C and the callee entries reached from them are in C or
     promised; GG P is the greatest such set *)
  Section Op.
    Variables tp tq : nat -> nat -> env.
    Definition Cl (C P : nat -> store -> Prop) : Prop :=
      forall f s0, C f s0 -> CtxCovn tp tq (fun h s => C h s \/ P h s) f (eq s0).
    Definition GG (P : nat -> store -> Prop) (f : nat) (s0 : store) : Prop :=
      exists C, Cl C P /\ C f s0.

    Lemma GG_cl P : Cl (GG P) P.
    Proof.
      intros f s0 (C & HC & I). eapply CtxCovn_mono; [| | | |exact (HC f s0 I)]; auto.
      intros g0 s1 [X|X]; [left; exists C; split; assumption|right; exact X].
    Qed.
    Lemma GG_intro P f (S : store -> Prop) :
      (forall s0, S s0 -> CtxCovn tp tq (fun h s => (GG P h s \/ (h = f /\ S s)) \/ P h s) f (eq s0)) ->
      forall s0, S s0 -> GG P f s0.
    Proof.
      intros H s0 I. exists (fun h s => GG P h s \/ (h = f /\ S s)). split; [|right; split; [reflexivity|exact I]].
      intros h s [X|[-> X]].
      - eapply CtxCovn_mono; [| | | |exact (GG_cl P h s X)]; auto.
        intros g0 s1 [Y|Y]; [left; left; exact Y|right; exact Y].
      - apply H. exact X.
    Qed.
    (* promises Q that are covered relative to all the promises P are discharged *)
    Lemma GG_cut (P P' Q : nat -> store -> Prop) :
      (forall h s, P h s -> P' h s \/ Q h s) -> (forall h s, Q h s -> GG P h s) ->
      forall f s, GG P f s -> GG P' f s.
    Proof.
      intros HP HQ f s I. exists (GG P). split; [|exact I].
      intros h s1 X. eapply CtxCovn_mono; [| | | |exact (GG_cl _ h s1 X)]; auto.
      intros g0 s2 [Y|Y]; [left; exact Y|].
      destruct (HP _ _ Y) as [Z|Z]; [right; exact Z|left; apply HQ; exact Z].
    Qed.
    Lemma GG_sub (P P' : nat -> store -> Prop) :
      (forall h s, P h s -> P' h s) -> forall f s, GG P f s -> GG P' f s.
    Proof. intros H. apply (GG_cut P P' (fun _ _ => False)); [auto|intros h s []]. Qed.
    (* the entries S of f are covered relative to P when the calls reached from them are covered
       relative to promises P1 that are in P or are these entries themselves *)
    Lemma GG_intro_self (P P1 : nat -> store -> Prop) f (S : store -> Prop) :
      (forall h s, P1 h s -> P h s \/ (h = f /\ S s)) ->
      (forall s0, S s0 -> CtxCovn tp tq (fun h s => GG P1 h s \/ P1 h s) f (eq s0)) ->
      forall s0, S s0 -> GG P f s0.
    Proof.
      intros H1 H2.
      assert (G1 : forall s0, S s0 -> GG P1 f s0).
      { apply GG_intro. intros s0 I0. eapply CtxCovn_mono; [| | | |exact (H2 s0 I0)]; auto.
        intros g0 s1 [Y|Y]; auto. }
      intros s0 I0. apply (GG_cut P1 P (fun h s => h = f /\ S s) H1); [intros h s [-> X]|]; auto.
    Qed.
  End Op.

  Lemma GG_mono (tp tq tp' tq' : nat -> nat -> env) (P P' : nat -> store -> Prop) :
    (forall f blk s, genv (tp f blk) s -> genv (tp' f blk) s) ->
    (forall f blk s, genv (tq f blk) s -> genv (tq' f blk) s) ->
    (forall h s, P h s -> P' h s) ->
    forall f s, GG tp tq P f s -> GG tp' tq' P' f s.
  Proof.
    intros H1 H2 H3 f s (C & HC & I). exists C. split; [|exact I].
    intros h s1 X. eapply CtxCovn_mono; [| | | |exact (HC h s1 X)]; auto.
    intros g0 s2 [Y|Y]; [left; exact Y|right; apply H3; exact Y].
  Qed.

  (* without promises, coverage of the initial states of the entry functions accounts for every
     state that an execution of level n reaches from them: each belongs to the body of a covered
     function entry, hence to the tables *)
  Lemma GG_tables tp tq entries (Init : store -> Prop) :
    (forall f s, In f entries -> Init s -> GG tp tq (fun _ _ => False) f s) ->
    (forall f blk s, GIRPre p (xfun p n) entries Init f blk s -> genv (tp f blk) s) /\
    (forall f blk s, GIRPost p (xfun p n) entries Init f blk s -> genv (tq f blk) s).
  Proof.
    intros H0.
    destruct (GIR_mutind p (xfun p n) entries Init
                (fun f blk s => exists s0, GG tp tq (fun _ _ => False) f s0 /\ IPren f (eq s0) blk s)
                (fun f blk s => exists s0, GG tp tq (fun _ _ => False) f s0 /\ IPostn f (eq s0) blk s)) as [HP HQ].
    - intros f s If Is. exists s. split; [apply H0; assumption|apply IPren_init; reflexivity].
    - intros f q blk s E _ (s0 & C0 & R0). exists s0. split; [exact C0|]. eapply IPren_edge; eauto.
    - intros f blk s l1 outs g1 ins l2 m s1 _ (s0 & C0 & R0) EB X B.
      destruct (GG_cl _ _ _ f s0 C0) as [CA _]. destruct (CA blk s R0) as [_ CV].
      destruct (CV l1 outs g1 ins l2 m s1 EB X B) as [Y|[]].
      exists s1. split; [exact Y|apply IPren_init; reflexivity].
    - intros f blk s s' _ (s0 & C0 & R0) X. exists s0. split; [exact C0|]. eapply IPostn_step; eauto.
    - split; intros f blk s X.
      + destruct (HP f blk s X) as (s0 & C0 & R0). destruct (GG_cl _ _ _ f s0 C0) as [CA _]. apply (CA blk s R0).
      + destruct (HQ f blk s X) as (s0 & C0 & R0). destruct (GG_cl _ _ _ f s0 C0) as [_ CB]. apply (CB blk s R0).
  Qed.
End Cov.

Lemma IPn_level p n m f S0 : n <= m ->
  (forall blk s, IPren p n f S0 blk s -> IPren p m f S0 blk s) /\
  (forall blk s, IPostn p n f S0 blk s -> IPostn p m f S0 blk s).
Proof.
  intros L. apply RP_mono; auto. intros blk s s'. unfold bsn. apply gblock_mono. apply xfun_le. exact L.
Qed.

(* the engine writes the pre-invariant of a block only when it visits the component of that block *)
Section SFrame.
  Variables A G : Type.
  Variable OP : aops A.
  Variable analyze : nat -> A -> G -> A * G.
  Variables preds nest : nat -> list nat.
  Variables entry delay descending fuel : nat.
  Notation visit := (svisit A G OP analyze preds nest entry delay descending fuel).
  Notation visit_all := (svisit_all A G OP analyze preds nest entry delay descending fuel).

  Definition PFrame (C : list nat) (v : sest A G -> option (sest A G)) : Prop :=
    forall st st', v st = Some st' -> forall m, ~ In m C -> se_pre A G st' m = se_pre A G st m.

  Section Cyc.
    Variable vbody : sest A G -> option (sest A G).
    Variable C : list nat.
    Variable h : nat.
    Variable entry_pre : option A.
    Hypothesis VB : PFrame C vbody.

    (* each pass of a loop writes the head, then runs the body *)
    Lemma inc_frame : forall f i p0 st p' st',
      sinc_loop A G OP analyze preds delay vbody h entry_pre f i p0 st = Some (p', st') ->
      forall m, m <> h -> ~ In m C -> se_pre A G st' m = se_pre A G st m.
    Proof.
      induction f as [|f IH]; intros i p0 st p' st' H m Nh NC; [discriminate|].
      destruct (inc_loop_S _ _ _ _ _ _ _ _ _ _ _ _ _ _ _ H) as (st2 & V & D).
      pose proof (VB _ _ V m NC) as F2. cbn [pass_st se_pre] in F2. rewrite tset_other in F2 by exact Nh.
      destruct D as [(_ & _ & ->)|D].
      - cbn [se_pre]. rewrite tset_other by exact Nh. exact F2.
      - rewrite (IH _ _ _ _ _ D m Nh NC). exact F2.
    Qed.
    Lemma dec_frame : forall f i p0 st st',
      sdec_loop A G OP analyze preds descending vbody h entry_pre f i p0 st = Some st' ->
      forall m, m <> h -> ~ In m C -> se_pre A G st' m = se_pre A G st m.
    Proof.
      induction f as [|f IH]; intros i p0 st st' H m Nh NC; [discriminate|].
      destruct (dec_loop_S _ _ _ _ _ _ _ _ _ _ _ _ _ _ H) as (st2 & V & D).
      pose proof (VB _ _ V m NC) as F2. cbn [pass_st se_pre] in F2.
      destruct D as [->|D]; [exact F2|].
      rewrite (IH _ _ _ _ D m Nh NC). cbn [se_pre]. rewrite tset_other by exact Nh. exact F2.
    Qed.
    Lemma cyc_frame pre0 : PFrame (h :: C) (cyc_core A G OP analyze preds delay descending fuel vbody h entry_pre pre0).
    Proof.
      intros st st' H m NM.
      assert (Nh : m <> h) by (intros ->; apply NM; left; reflexivity).
      assert (NC : ~ In m C) by (intros X; apply NM; right; exact X).
      destruct (cyc_core_inv _ _ _ _ _ _ _ _ _ _ _ _ _ _ H) as (q & st1 & IL & [->|D]).
      - exact (inc_frame _ _ _ _ _ _ IL m Nh NC).
      - rewrite (dec_frame _ _ _ _ _ D m Nh NC). exact (inc_frame _ _ _ _ _ _ IL m Nh NC).
    Qed.
  End Cyc.

  Lemma list_frame : forall l, Forall (fun c => PFrame (cnodes c) (visit c)) l -> PFrame (flat l) (visit_all l).
  Proof.
    induction l as [|c r IH]; intros FA st st' V m NM.
    - cbn in V. inversion V; subst. reflexivity.
    - inversion FA as [|? ? Hc Hr]; subst. cbn [svisit_all] in V. cbn [flat] in NM.
      destruct (visit c st) as [s1|] eqn:E1; [|discriminate].
      rewrite (IH Hr _ _ V m) by (intros X; apply NM, in_or_app; right; exact X).
      apply (Hc _ _ E1). intros X. apply NM, in_or_app. left. exact X.
  Qed.
  Lemma comp_frame : forall c, PFrame (cnodes c) (visit c).
  Proof.
    induction c as [k|h body IH] using comp_ind'.
    - intros st st' V m NM. cbn [svisit] in V. inversion V; subst st'. unfold svisit_vertex.
      destruct (if (se_skip A G st && Nat.eqb k entry)%bool then false else se_skip A G st); cbn [se_pre]; [reflexivity|].
      apply tset_other. intros ->. apply NM. left. reflexivity.
    - intros st st' V m NM. rewrite visit_cycle_eq in V. cbv zeta in V. rewrite cnodes_cycle in NM.
      destruct (se_skip A G st && negb (se_skip A G st && comp_member entry (Cycle h body)))%bool.
      + inversion V; subst. reflexivity.
      + apply (cyc_frame _ (flat body) h _ (list_frame body IH) _ _ _ V m) in NM. cbn [se_pre] in NM. exact NM.
  Qed.
  Lemma visit_all_frame l : PFrame (flat l) (visit_all l).
  Proof. apply list_frame. apply Forall_forall. intros c _. apply comp_frame. Qed.

  (* the entry block is a vertex: its pre-invariant is the initial value *)
  Lemma srun_entry_pre r init g e : ~ In entry (flat r) ->
    srun A G OP analyze preds nest entry delay descending fuel (Vertex entry :: r) init g = Some e ->
    se_pre A G e entry = init.
  Proof.
    intros NI RUN. unfold srun in RUN. cbn [svisit_all svisit] in RUN.
    rewrite (visit_all_frame r _ _ RUN entry NI). unfold svisit_vertex. cbn [se_skip se_pre se_g].
    rewrite Nat.eqb_refl. cbn [andb se_pre]. unfold tset. rewrite Nat.eqb_refl. reflexivity.
  Qed.
End SFrame.
