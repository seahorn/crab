(* LinExprSound.v — linear expressions: canonical-form invariant, evaluation is a
   homomorphism for every operation, syntactic equality of canonical forms coincides
   with semantic equality. *)
From Coq Require Import ZArith Bool List Lia.
From CrabV Require Import Lin.LinExpr.
Import ListNotations.
Local Open Scope Z_scope.

Lemma fold_left_invariant (A B : Type) (P : A -> Prop) (f : A -> B -> A) l :
  (forall a b, In b l -> P a -> P (f a b)) -> forall a, P a -> P (fold_left f l a).
Proof.
  induction l as [|b t IH]; intros Hf a Ha; cbn [fold_left]; [exact Ha|].
  apply IH; [intros a' b' Hb'; apply Hf; right; exact Hb' | apply Hf; [left; reflexivity | exact Ha]].
Qed.

Definition head_above (x : var) (l : terms) : Prop :=
  match l with [] => True | (y, _) :: _ => x < y end.

Inductive wf_terms : terms -> Prop :=
| wf_nil : wf_terms []
| wf_cons x c t : c <> 0 -> head_above x t -> wf_terms t -> wf_terms ((x, c) :: t).

Definition wf (e : linexpr) : Prop := wf_terms (lterms e).

Lemma head_above_trans lo x l : lo < x -> head_above x l -> head_above lo l.
Proof. destruct l as [|[y c] t]; cbn; [auto | lia]. Qed.

Lemma wf_all_above x l : wf_terms l -> head_above x l -> forall y c, In (y, c) l -> x < y.
Proof.
  intros Hw. revert x. induction Hw as [|z d t Hd Hh Hw IH]; intros x Hx y c Hin; [destruct Hin|].
  destruct Hin as [[= <- <-]|Hin].
  - exact Hx.
  - apply (IH x (head_above_trans _ _ _ Hx Hh) _ _ Hin).
Qed.

Lemma lookup_hd x c t : lookup x ((x, c) :: t) = c.
Proof. cbn [lookup]. rewrite Z.eqb_refl. reflexivity. Qed.

Lemma lookup_tl x y c t : x <> y -> lookup x ((y, c) :: t) = lookup x t.
Proof. intros H. cbn [lookup]. rewrite (proj2 (Z.eqb_neq x y) H). reflexivity. Qed.

Lemma lookup_above x l : wf_terms l -> head_above x l -> lookup x l = 0.
Proof.
  intros Hw Hx. induction Hw as [|z d t Hd Hh Hw IH]; [reflexivity|]. cbn in Hx.
  rewrite lookup_tl by lia. apply IH, (head_above_trans _ _ _ Hx Hh).
Qed.

Lemma lookup_in l : wf_terms l -> forall x c, In (x, c) l -> lookup x l = c.
Proof.
  intros Hw. induction Hw as [|z d t Hd Hh Hw IH]; intros x c Hin; [destruct Hin|].
  destruct Hin as [[= <- <-]|Hin].
  - apply lookup_hd.
  - pose proof (wf_all_above _ _ Hw Hh _ _ Hin). rewrite lookup_tl by lia. apply IH, Hin.
Qed.

Lemma add_term_wf x n l : wf_terms l -> wf_terms (add_term x n l) /\
  (forall lo, lo < x -> head_above lo l -> head_above lo (add_term x n l)).
Proof.
  intros Hw. induction Hw as [|z d t Hd Hh Hw [IH1 IH2]]; cbn [add_term].
  - destruct (Z.eqb_spec n 0); split; repeat constructor; auto.
  - destruct (Z.ltb_spec x z) as [Hlt|Hge].
    { destruct (Z.eqb_spec n 0); split; repeat constructor; auto. }
    destruct (Z.eqb_spec x z) as [->|Hne].
    + destruct (Z.eqb_spec (d + n) 0); split; try (constructor; assumption); auto.
      intros lo Hlo _. apply (head_above_trans _ _ _ Hlo Hh).
    + split; [|auto]. constructor; auto. apply IH2; [lia | exact Hh].
Qed.

Lemma wf_add_term x n l : wf_terms l -> wf_terms (add_term x n l).
Proof. intros H. apply add_term_wf, H. Qed.

Lemma scale_terms_wf n l : wf_terms l -> wf_terms (scale_terms n l) /\
  (forall lo, head_above lo l -> head_above lo (scale_terms n l)).
Proof.
  intros Hw. induction Hw as [|z d t Hd Hh Hw [IH1 IH2]]; cbn [scale_terms]; [split; [constructor|auto]|].
  destruct (Z.eqb_spec (n * d) 0); split; try (constructor; auto); auto.
  intros lo Hlo. apply IH2, (head_above_trans _ _ _ Hlo Hh).
Qed.

Theorem wf_le_zero : wf le_zero.                      Proof. constructor. Qed.
Theorem wf_le_const n : wf (le_const n).              Proof. constructor. Qed.
Theorem wf_le_term n x : wf (le_term n x).
Proof. unfold wf, le_term. cbn [lterms]. destruct (Z.eqb_spec n 0); repeat constructor; auto. Qed.
Theorem wf_le_var x : wf (le_var x).                  Proof. apply (wf_le_term 1). Qed.
Theorem wf_le_addk e n : wf e -> wf (le_addk e n).    Proof. auto. Qed.
Theorem wf_le_subk e n : wf e -> wf (le_subk e n).    Proof. auto. Qed.
Theorem wf_le_addv e x : wf e -> wf (le_addv e x).    Proof. apply wf_add_term. Qed.
Theorem wf_le_subv e x : wf e -> wf (le_subv e x).    Proof. apply wf_add_term. Qed.
Theorem wf_le_add e1 e2 : wf e1 -> wf (le_add e1 e2).
Proof. apply (fold_left_invariant _ _ wf_terms). intros. apply wf_add_term. assumption. Qed.
Theorem wf_le_sub e1 e2 : wf e1 -> wf (le_sub e1 e2).
Proof. apply (fold_left_invariant _ _ wf_terms). intros. apply wf_add_term. assumption. Qed.
Theorem wf_le_scale n e : wf e -> wf (le_scale n e).
Proof.
  intros H. unfold wf, le_scale. destruct (n =? 0); [constructor|]. apply scale_terms_wf, H.
Qed.
Theorem wf_le_neg e : wf e -> wf (le_neg e).          Proof. apply wf_le_scale. Qed.
Theorem wf_le_rename m e : wf (le_rename m e).
Proof.
  unfold le_rename. apply fold_left_invariant; [intros; apply wf_le_add; assumption | constructor].
Qed.

Lemma eval_add_term s x n l : eval_terms s (add_term x n l) = eval_terms s l + n * s x.
Proof.
  induction l as [|[y c] t IH]; cbn [add_term eval_terms].
  - destruct (Z.eqb_spec n 0) as [->|]; cbn [eval_terms]; lia.
  - destruct (x <? y); [destruct (Z.eqb_spec n 0) as [->|]; cbn [eval_terms]; lia|].
    destruct (Z.eqb_spec x y) as [->|]; [|cbn [eval_terms]; rewrite IH; lia].
    destruct (Z.eqb_spec (c + n) 0) as [E|]; cbn [eval_terms]; [|lia].
    replace n with (- c) by lia. lia.
Qed.

(* adding the terms of l2 one by one, each coefficient through a linear f *)
Lemma eval_fold_add s f k (Hf : forall c, f c = k * c) l2 : forall l1,
  eval_terms s (fold_left (fun acc t => add_term (fst t) (f (snd t)) acc) l2 l1) =
  eval_terms s l1 + k * eval_terms s l2.
Proof.
  induction l2 as [|[y c] t IH]; intros l1; cbn [fold_left eval_terms fst snd]; [lia|].
  rewrite IH, eval_add_term, Hf. lia.
Qed.

Theorem eval_le_const s n : eval s (le_const n) = n.              Proof. reflexivity. Qed.
Theorem eval_le_zero s : eval s le_zero = 0.                      Proof. reflexivity. Qed.
Theorem eval_le_term s n x : eval s (le_term n x) = n * s x.
Proof.
  unfold eval, le_term. cbn [lterms lcst]. destruct (Z.eqb_spec n 0) as [->|]; cbn [eval_terms]; lia.
Qed.
Theorem eval_le_var s x : eval s (le_var x) = s x.
Proof. rewrite <- (Z.mul_1_l (s x)). apply (eval_le_term s 1). Qed.
Theorem eval_le_addk s e n : eval s (le_addk e n) = eval s e + n.
Proof. unfold eval. cbn [le_addk lterms lcst]. lia. Qed.
Theorem eval_le_subk s e n : eval s (le_subk e n) = eval s e - n.
Proof. unfold le_subk. rewrite eval_le_addk. lia. Qed.
Theorem eval_le_addv s e x : eval s (le_addv e x) = eval s e + s x.
Proof. unfold eval, le_addv. cbn [lterms lcst]. rewrite eval_add_term. lia. Qed.
Theorem eval_le_subv s e x : eval s (le_subv e x) = eval s e - s x.
Proof. unfold eval, le_subv. cbn [lterms lcst]. rewrite eval_add_term. lia. Qed.
Theorem eval_le_add s e1 e2 : eval s (le_add e1 e2) = eval s e1 + eval s e2.
Proof.
  unfold eval, le_add. cbn [lterms lcst].
  rewrite (eval_fold_add s (fun c => c) 1) by (intros; lia). lia.
Qed.
Theorem eval_le_sub s e1 e2 : eval s (le_sub e1 e2) = eval s e1 - eval s e2.
Proof.
  unfold eval, le_sub. cbn [lterms lcst].
  rewrite (eval_fold_add s Z.opp (-1)) by (intros; lia). lia.
Qed.
Lemma eval_scale_terms s n l : eval_terms s (scale_terms n l) = n * eval_terms s l.
Proof.
  induction l as [|[y c] t IH]; cbn [scale_terms eval_terms]; [lia|].
  destruct (Z.eqb_spec (n * c) 0) as [E|]; cbn [eval_terms]; rewrite IH, Z.mul_add_distr_l, Z.mul_assoc;
    [rewrite E|]; lia.
Qed.
Theorem eval_le_scale s n e : eval s (le_scale n e) = n * eval s e.
Proof.
  unfold eval, le_scale. destruct (Z.eqb_spec n 0) as [->|]; [reflexivity|].
  cbn [lterms lcst]. rewrite eval_scale_terms. lia.
Qed.
Theorem eval_le_neg s e : eval s (le_neg e) = - eval s e.
Proof. unfold le_neg. rewrite eval_le_scale. lia. Qed.

Theorem eval_le_rename s m e : wf e ->
  eval s (le_rename m e) = eval (fun v => s (rename_var m v)) e.
Proof.
  intros Hw. unfold le_rename, le_variables, le_coef.
  assert (G : forall suf acc, (forall p, In p suf -> In p (lterms e)) ->
     eval s (fold_left (fun acc v => le_add acc (le_term (lookup v (lterms e)) (rename_var m v)))
                       (map fst suf) acc)
     = eval s acc + eval_terms (fun v => s (rename_var m v)) suf).
  { induction suf as [|[y c] t IH]; intros acc Hin; cbn [map fold_left eval_terms fst]; [lia|].
    rewrite IH by (intros p Hp; apply Hin; right; auto).
    rewrite eval_le_add, eval_le_term.
    rewrite (lookup_in _ Hw y c) by (apply Hin; left; auto). lia. }
  rewrite G by auto. unfold eval. cbn [le_const lterms lcst eval_terms]. lia.
Qed.

(* the coefficient of x is read off by evaluating at the valuation that is 1 on x and 0
   elsewhere, so the laws for coefficients follow from those for evaluation *)
Definition delta (x : var) : var -> Z := fun v => if v =? x then 1 else 0.

Lemma eval_delta x l : wf_terms l -> eval_terms (delta x) l = lookup x l.
Proof.
  intros Hw. induction Hw as [|z d t Hd Hh Hw IH]; [reflexivity|].
  cbn [eval_terms lookup]. unfold delta at 1. rewrite (Z.eqb_sym z x), IH.
  destruct (Z.eqb_spec x z) as [->|]; [rewrite (lookup_above z t) by assumption|]; lia.
Qed.

Lemma coef_eval e x : wf e -> le_coef e x = eval (delta x) e - lcst e.
Proof. intros Hw. unfold le_coef, eval. rewrite eval_delta by exact Hw. lia. Qed.

Theorem coef_le_add e1 e2 x : wf e1 -> wf e2 ->
  le_coef (le_add e1 e2) x = le_coef e1 x + le_coef e2 x.
Proof.
  intros H1 H2. rewrite !coef_eval by auto using wf_le_add. rewrite eval_le_add. cbn [le_add lcst]. lia.
Qed.
Theorem coef_le_sub e1 e2 x : wf e1 -> wf e2 ->
  le_coef (le_sub e1 e2) x = le_coef e1 x - le_coef e2 x.
Proof.
  intros H1 H2. rewrite !coef_eval by auto using wf_le_sub. rewrite eval_le_sub. cbn [le_sub lcst]. lia.
Qed.
Theorem coef_le_scale n e x : wf e -> le_coef (le_scale n e) x = n * le_coef e x.
Proof.
  intros Hw. rewrite !coef_eval by auto using wf_le_scale. rewrite eval_le_scale.
  unfold le_scale. destruct (Z.eqb_spec n 0) as [->|]; cbn [le_zero lcst]; lia.
Qed.

Lemma terms_eqb_refl l : terms_eqb l l = true.
Proof. induction l as [|[x c] t IH]; cbn [terms_eqb]; auto. rewrite !Z.eqb_refl. cbn. auto. Qed.

Lemma terms_eqb_eq l1 : forall l2, length l1 = length l2 -> terms_eqb l1 l2 = true -> l1 = l2.
Proof.
  induction l1 as [|[x c] t1 IH]; intros [|[y d] t2] Hlen H; cbn in *; try discriminate; auto.
  destruct (Z.eqb_spec c d) as [->|], (Z.eqb_spec x y) as [->|]; try discriminate H.
  f_equal. apply IH; auto.
Qed.

Theorem le_equal_iff e1 e2 : le_equal e1 e2 = true <-> e1 = e2.
Proof.
  destruct e1 as [l1 k1], e2 as [l2 k2]. unfold le_equal, le_is_constant, le_constant, le_size.
  cbn [lterms lcst]. split.
  - destruct l1 as [|p1 t1]; [destruct l2; [intros ->%Z.eqb_eq; reflexivity | discriminate]|].
    destruct (Z.eqb_spec k1 k2) as [->|]; [|discriminate].
    destruct (Z.eqb_spec (Z.of_nat (length (p1 :: t1))) (Z.of_nat (length l2))) as [El|]; [|discriminate].
    cbn [negb]. intros H. f_equal. apply terms_eqb_eq; [apply Nat2Z.inj, El | exact H].
  - intros [= -> ->]. destruct l2; rewrite ?Z.eqb_refl; [reflexivity|]. apply terms_eqb_refl.
Qed.

Lemma eval_zero l : eval_terms (fun _ => 0) l = 0.
Proof. induction l as [|[y c] t IH]; cbn [eval_terms]; lia. Qed.

(* a well-formed list is determined by its coefficients: the heads must be the same
   variable, since the smaller one would have a zero coefficient in the other list *)
Lemma wf_lookup_ext l1 : wf_terms l1 -> forall l2, wf_terms l2 ->
  (forall x, lookup x l1 = lookup x l2) -> l1 = l2.
Proof.
  intros H1. induction H1 as [|x c t1 Hc Hh1 Hw1 IH]; intros l2 H2 Hext;
    destruct H2 as [|y d t2 Hd Hh2 Hw2]; [reflexivity | | |].
  - specialize (Hext y). rewrite lookup_hd in Hext. symmetry in Hext. contradiction.
  - specialize (Hext x). rewrite lookup_hd in Hext. contradiction.
  - assert (x = y) as <-.
    { destruct (Z.lt_trichotomy x y) as [Hlt|[E|Hgt]]; [exfalso | exact E | exfalso].
      - apply Hc. rewrite <- (lookup_hd x c t1), Hext. apply lookup_above; [constructor|]; assumption.
      - apply Hd. rewrite <- (lookup_hd y d t2), <- Hext. apply lookup_above; [constructor|]; assumption. }
    pose proof (Hext x) as Hx. rewrite !lookup_hd in Hx. subst d. f_equal. apply IH; [exact Hw2|].
    intros z. destruct (Z.eq_dec z x) as [->|Hz]; [rewrite !lookup_above by assumption; reflexivity|].
    specialize (Hext z). rewrite !lookup_tl in Hext by exact Hz. exact Hext.
Qed.

Theorem canonical_form_unique e1 e2 : wf e1 -> wf e2 ->
  (forall s, eval s e1 = eval s e2) -> e1 = e2.
Proof.
  intros H1 H2 Hs. destruct e1 as [l1 k1], e2 as [l2 k2]. unfold wf, eval in *. cbn [lterms lcst] in *.
  assert (Hk : k1 = k2). { specialize (Hs (fun _ => 0)). rewrite !eval_zero in Hs. lia. }
  subst k2. f_equal. apply wf_lookup_ext; auto. intros x.
  specialize (Hs (delta x)). rewrite !eval_delta in Hs by auto. lia.
Qed.

Corollary le_equal_semantic e1 e2 : wf e1 -> wf e2 ->
  (le_equal e1 e2 = true <-> forall s, eval s e1 = eval s e2).
Proof.
  intros H1 H2. rewrite le_equal_iff. split; [intros ->; auto | apply canonical_form_unique; auto].
Qed.

Theorem le_is_constant_spec e : le_is_constant e = true -> forall s, eval s e = le_constant e.
Proof. destruct e as [[|p t] k]; cbn; [intros _ s; reflexivity | discriminate]. Qed.
Theorem le_get_variable_spec e x : le_get_variable e = Some x -> forall s, eval s e = s x.
Proof.
  unfold le_get_variable, le_is_constant, le_constant, le_size.
  destruct e as [[|[y c] [|p t]] k]; cbn [lterms lcst length]; try discriminate.
  - destruct (Z.eqb_spec k 0) as [->|]; [|discriminate].
    destruct (Z.eqb_spec c 1) as [->|]; [|discriminate]. intros [= <-] s.
    unfold eval. cbn [lterms lcst eval_terms]. lia.
  - rewrite (proj2 (Z.eqb_neq _ 1)), andb_false_r by lia. discriminate.
Qed.

Example wf_example :
  let e := le_add (le_term 3 1) (le_add (le_term (-2) 4) (le_const 7)) in
  wf e /\ le_sub e e = le_const 0 /\ le_coef (le_scale 5 e) 4 = -10.
Proof. cbn. repeat split; auto. repeat constructor; cbn; lia. Qed.
