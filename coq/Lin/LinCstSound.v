(* LinCstSound.v — linear constraints over the integers: negate is the exact
   complement, the tautology / contradiction tests are sound and exact on constant
   constraints, the comparison operators build what they say. *)
From Coq Require Import ZArith Bool List Lia.
From CrabV Require Import Lin.LinExpr Lin.LinExprSound Lin.LinCst.
Import ListNotations.
Local Open Scope Z_scope.

Definition wf_cst (c : lincst) : Prop := wf (cexpr c).

(* the tests answer true exactly for a constant expression whose constant decides the
   constraint *)
Lemma is_tautology_iff c :
  is_tautology c = true <-> le_is_constant (cexpr c) = true /\ forall s, sat s c.
Proof.
  unfold is_tautology, sat. destruct (le_is_constant (cexpr c)) eqn:Hc; cbn [andb].
  - pose proof (le_is_constant_spec _ Hc) as E.
    destruct (ckind c); rewrite ?negb_true_iff, ?Z.eqb_eq, ?Z.eqb_neq, ?Z.leb_le, ?Z.ltb_lt;
      (split; [intros H; split; [reflexivity | intros s; rewrite E; exact H]
              | intros [_ H]; rewrite <- (E (fun _ => 0)); apply H]).
  - split; [destruct (ckind c); discriminate | intros [H _]; discriminate H].
Qed.

Lemma is_contradiction_iff c :
  is_contradiction c = true <-> le_is_constant (cexpr c) = true /\ forall s, ~ sat s c.
Proof.
  unfold is_contradiction, sat. destruct (le_is_constant (cexpr c)) eqn:Hc; cbn [andb].
  - pose proof (le_is_constant_spec _ Hc) as E.
    destruct (ckind c); rewrite ?negb_true_iff, ?Z.eqb_eq, ?Z.eqb_neq, ?Z.leb_le, ?Z.ltb_lt;
      (split; [intros H; split; [reflexivity | intros s; rewrite E; lia]
              | intros [_ H]; specialize (H (fun _ => 0)); rewrite E in H; lia]).
  - split; [destruct (ckind c); discriminate | intros [H _]; discriminate H].
Qed.

Theorem is_tautology_sound c : is_tautology c = true -> forall s, sat s c.
Proof. intros H. apply is_tautology_iff, H. Qed.

Theorem is_contradiction_sound c : is_contradiction c = true -> forall s, ~ sat s c.
Proof. intros H. apply is_contradiction_iff, H. Qed.

Theorem is_tautology_exact c : le_is_constant (cexpr c) = true ->
  (is_tautology c = true <-> forall s, sat s c).
Proof. intros Hc. rewrite is_tautology_iff. tauto. Qed.

Theorem is_contradiction_exact c : le_is_constant (cexpr c) = true ->
  (is_contradiction c = true <-> forall s, ~ sat s c).
Proof. intros Hc. rewrite is_contradiction_iff. tauto. Qed.

(* a well-formed expression is constant as a function iff it has no terms, so for
   well-formed constraints "constant" may be read semantically *)
Theorem wf_constant_iff e : wf e ->
  (le_is_constant e = true <-> forall s1 s2, eval s1 e = eval s2 e).
Proof.
  intros Hw. split.
  - intros Hc s1 s2. rewrite !(le_is_constant_spec _ Hc). reflexivity.
  - intros H. destruct e as [[|[x c] t] k]; [reflexivity|]. exfalso.
    unfold wf in Hw. cbn [lterms] in Hw. inversion Hw; subst.
    specialize (H (delta x) (fun _ => 0)). unfold eval in H. cbn [lterms lcst] in H.
    rewrite eval_delta, eval_zero in H by auto. cbn [lookup] in H. rewrite Z.eqb_refl in H. lia.
Qed.

(* the same, with "constant" read semantically, for well-formed constraints *)
Theorem is_tautology_exact_semantic c : wf_cst c ->
  (forall s1 s2, eval s1 (cexpr c) = eval s2 (cexpr c)) ->
  (is_tautology c = true <-> forall s, sat s c).
Proof. intros Hw Hc. apply is_tautology_exact. apply wf_constant_iff; auto. Qed.
Theorem is_contradiction_exact_semantic c : wf_cst c ->
  (forall s1 s2, eval s1 (cexpr c) = eval s2 (cexpr c)) ->
  (is_contradiction c = true <-> forall s, ~ sat s c).
Proof. intros Hw Hc. apply is_contradiction_exact. apply wf_constant_iff; auto. Qed.

Theorem negate_exact c s : sat s (negate c) <-> ~ sat s c.
Proof.
  unfold negate. destruct (is_tautology c) eqn:Et.
  - pose proof (is_tautology_sound c Et s). unfold sat at 1. cbn. split; [lia | tauto].
  - destruct (is_contradiction c) eqn:Ec.
    + pose proof (is_contradiction_sound c Ec s). unfold sat at 1. cbn. tauto.
    + unfold sat. destruct (ckind c); cbn [ckind cexpr].
      * lia.
      * lia.
      * rewrite eval_le_neg, eval_le_subk. lia.
      * rewrite eval_le_neg. lia.
Qed.

Theorem negate_wf c : wf_cst c -> wf_cst (negate c).
Proof.
  unfold wf_cst, negate. intros H. destruct (is_tautology c); [constructor|].
  destruct (is_contradiction c); [constructor|].
  destruct (ckind c); cbn [cexpr]; auto; apply wf_le_neg; auto.
Qed.

Theorem negate_involutive_sem c s : sat s (negate (negate c)) <-> sat s c.
Proof.
  rewrite !negate_exact. unfold sat. destruct (ckind c); lia.
Qed.

Theorem strict_to_non_strict_exact c c' s :
  strict_to_non_strict c = Some c' -> (sat s c' <-> sat s c).
Proof.
  unfold strict_to_non_strict, sat. destruct (ckind c) eqn:K; try discriminate.
  intros [= <-]. cbn [ckind cexpr]. rewrite eval_le_addk. lia.
Qed.
Lemma strict_to_non_strict_defined c :
  ckind c = STRICT_INEQUALITY -> strict_to_non_strict c <> None.
Proof. unfold strict_to_non_strict. intros ->. discriminate. Qed.

Theorem mk_ops_spec e1 e2 s :
  (sat s (mk_le e1 e2) <-> eval s e1 <= eval s e2) /\
  (sat s (mk_ge e1 e2) <-> eval s e1 >= eval s e2) /\
  (sat s (mk_lt e1 e2) <-> eval s e1 < eval s e2) /\
  (sat s (mk_gt e1 e2) <-> eval s e1 > eval s e2) /\
  (sat s (mk_eq e1 e2) <-> eval s e1 = eval s e2) /\
  (sat s (mk_ne e1 e2) <-> eval s e1 <> eval s e2).
Proof. unfold sat; cbn [mk_le mk_ge mk_lt mk_gt mk_eq mk_ne ckind cexpr]. rewrite !eval_le_sub. lia. Qed.

Theorem lc_rename_sat m c s : wf_cst c ->
  (sat s (lc_rename m c) <-> sat (fun v => s (rename_var m v)) c).
Proof.
  intros H. unfold sat, lc_rename. cbn [ckind cexpr]. rewrite eval_le_rename by auto. tauto.
Qed.

Lemma kind_eqb_eq a b : kind_eqb a b = true <-> a = b.
Proof. destruct a, b; cbn; split; intros H; try discriminate; auto. Qed.
Theorem lc_equal_iff c1 c2 : lc_equal c1 c2 = true <-> c1 = c2.
Proof.
  unfold lc_equal. rewrite andb_true_iff, kind_eqb_eq, le_equal_iff.
  destruct c1 as [e1 k1], c2 as [e2 k2]; cbn [ckind cexpr]. split; [intros [-> ->]; auto | intros E; inversion E; auto].
Qed.

Theorem lc_constant_spec c s : eval s (cexpr c) = eval_terms s (lterms (cexpr c)) - lc_constant c.
Proof. unfold eval, lc_constant, le_constant. lia. Qed.

Example negate_examples :
  negate (mkLC (le_add (le_term 2 1) (le_const (-3))) INEQUALITY)
    = mkLC (le_add (le_term (-2) 1) (le_const 4)) INEQUALITY /\
  negate (mkLC (le_const 5) STRICT_INEQUALITY) = lc_true /\
  negate (mkLC (le_term 1 2) STRICT_INEQUALITY) = mkLC (le_term (-1) 2) INEQUALITY.
Proof. vm_compute. auto. Qed.
