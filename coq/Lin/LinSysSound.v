(* LinSysSound.v — constraint systems: += adds exactly one constraint (up to
   syntactic duplicates), normalize() preserves the solution set, is_false is sound. *)
From Coq Require Import ZArith Bool List Lia PeanoNat.
From CrabV Require Import Lin.LinExpr Lin.LinExprSound Lin.LinCst Lin.LinCstSound Lin.LinSys.
Import ListNotations.
Local Open Scope Z_scope.

Lemma sys_mem_iff s c : existsb (fun c1 => lc_equal c1 c) s = true <-> In c s.
Proof.
  rewrite existsb_exists. split.
  - intros (c1 & Hin & ->%lc_equal_iff). exact Hin.
  - intros H. exists c. split; [exact H | apply lc_equal_iff; reflexivity].
Qed.

Lemma in_sys_add s c x : In x (sys_add s c) <-> (In x s \/ x = c).
Proof.
  unfold sys_add. destruct (existsb _ s) eqn:E.
  - apply sys_mem_iff in E. split; [auto | intros [H| ->]; assumption].
  - rewrite in_app_iff. cbn [In]. split; [intros [H|[H|[]]]; auto | intros [H| ->]; auto].
Qed.

Theorem sys_add_sat s c v : sat_all v (sys_add s c) <-> (sat_all v s /\ sat v c).
Proof.
  unfold sat_all. split.
  - intros H. split; [intros x Hx | ]; apply H; apply in_sys_add; auto.
  - intros [H1 H2] x Hx. apply in_sys_add in Hx. destruct Hx as [Hx| ->]; auto.
Qed.

Lemma in_sys_add_sys s2 : forall s x, In x (sys_add_sys s s2) <-> (In x s \/ In x s2).
Proof.
  unfold sys_add_sys. induction s2 as [|c t IH]; intros s x; cbn [fold_left In]; [tauto|].
  rewrite IH, in_sys_add. intuition (subst; auto).
Qed.

Theorem sys_add_sys_sat s s2 v : sat_all v (sys_add_sys s s2) <-> (sat_all v s /\ sat_all v s2).
Proof.
  unfold sat_all. split.
  - intros H. split; intros x Hx; apply H; apply in_sys_add_sys; auto.
  - intros [H1 H2] x Hx. apply in_sys_add_sys in Hx. destruct Hx; auto.
Qed.

Theorem sys_plus_sat a b v : sat_all v (sys_plus a b) <-> (sat_all v a /\ sat_all v b).
Proof.
  unfold sys_plus. rewrite !sys_add_sys_sat. unfold sat_all at 1. cbn [In]. tauto.
Qed.

Theorem sys_of_list_sat cs v : sat_all v (sys_of_list cs) <-> (forall c, In c cs -> sat v c).
Proof.
  unfold sys_of_list. rewrite sys_add_sys_sat. unfold sat_all at 1. cbn [In].
  split; [intros [_ H]; exact H | intros H; split; [intros c [] | exact H]].
Qed.

Lemma nodup_snoc (A : Type) (l : list A) (x : A) : NoDup l -> ~ In x l -> NoDup (l ++ [x]).
Proof. intros Hn Hx. apply (NoDup_Add (Add_app x l [])). rewrite app_nil_r. auto. Qed.
Lemma sys_add_nodup s c : NoDup s -> NoDup (sys_add s c).
Proof.
  intros H. unfold sys_add. destruct (existsb _ s) eqn:E; [exact H|].
  apply nodup_snoc; [exact H|]. rewrite <- sys_mem_iff, E. discriminate.
Qed.
Theorem sys_of_list_nodup cs : NoDup (sys_of_list cs).
Proof.
  unfold sys_of_list, sys_add_sys.
  apply fold_left_invariant; [intros; apply sys_add_nodup; assumption | constructor].
Qed.

Theorem sys_is_false_sound s : sys_is_false s = true -> forall v, ~ sat_all v s.
Proof.
  unfold sys_is_false. destruct s as [|c0 t]; [discriminate|]. intros H v Hs.
  apply existsb_exists in H. destruct H as (c & Hin & Hc).
  apply (is_contradiction_sound c Hc v). apply Hs. exact Hin.
Qed.
Theorem sys_is_true_sound s : sys_is_true s = true -> forall v, sat_all v s.
Proof. destruct s; [|discriminate]. intros _ v c []. Qed.

Lemma index_from_spec l : forall k i c,
  In (i, c) (index_from k l) <-> exists n, i = (k + n)%nat /\ nth_error l n = Some c.
Proof.
  induction l as [|c0 t IH]; intros k i c; cbn [index_from In].
  - split; [intros [] | intros ([|n] & _ & H); discriminate H].
  - rewrite IH. split.
    + intros [[= <- <-] | (n & -> & H)]; [exists 0%nat | exists (S n)]; split; auto; lia.
    + intros ([|n] & -> & H);
        [left; injection H as <-; f_equal; lia | right; exists n; split; [lia | exact H]].
Qed.

Lemma index_from_unique l k i c c' :
  In (i, c) (index_from k l) -> In (i, c') (index_from k l) -> c = c'.
Proof.
  intros (n & -> & H)%index_from_spec (n' & E & H')%index_from_spec.
  replace n' with n in H' by lia. congruence.
Qed.
Lemma index_from_in l k i c : In (i, c) (index_from k l) -> In c l.
Proof. intros (n & _ & H)%index_from_spec. eapply nth_error_In, H. Qed.
Lemma in_index_from l k c : In c l -> exists i, In (i, c) (index_from k l).
Proof. intros (n & H)%In_nth_error. exists (k + n)%nat. apply index_from_spec. eauto. Qed.

Lemma seen_find_in e seen j : seen_find e seen = Some j -> In (e, j) seen.
Proof.
  induction seen as [|[e1 i] t IH]; cbn [seen_find]; [discriminate|].
  destruct (le_equal e1 e) eqn:E.
  - intros [= <-]. apply le_equal_iff in E. subst. left; auto.
  - intros H. right; auto.
Qed.

Section Normalize.
  Variable cs : linsys.
  Let ics := index_from 0 cs.

  (* the state of the first loop: seen holds inequalities of cs with their indexes,
     out follows from cs, and every constraint at a removed index follows from out *)
  Definition inv (st : list (linexpr * nat) * list nat * linsys) : Prop :=
    let '(seen, rem, out) := st in
    (forall e j, In (e, j) seen -> In (j, mkLC e INEQUALITY) ics) /\
    (forall v, sat_all v cs -> sat_all v out) /\
    (forall v, sat_all v out -> forall i, In i rem -> forall c, In (i, c) ics -> sat v c).

  Lemma norm_step_inv st i c : In (i, c) ics -> inv st -> inv (norm_step st (i, c)).
  Proof.
    destruct st as [[seen rem] out], c as [e k]. intros Hic (Ha & Hb & Hc). unfold norm_step.
    destruct (lc_is_inequality _) eqn:Ek; [|repeat split; assumption].
    assert (k = INEQUALITY) as -> by (destruct k; (reflexivity || discriminate Ek)).
    cbn [cexpr]. destruct (seen_find (le_neg e) seen) as [j|] eqn:Ef.
    - apply seen_find_in, Ha in Ef.
      set (E := if negb _ then e else le_neg e).
      (* e <= 0 and -e <= 0 together say e = 0, which either choice of E expresses *)
      assert (HE : forall v, sat v (mkLC E EQUALITY) <->
                             sat v (mkLC e INEQUALITY) /\ sat v (mkLC (le_neg e) INEQUALITY)).
      { intros v. unfold sat, E. cbn [ckind cexpr]. destruct (negb _); rewrite ?eval_le_neg; lia. }
      split; [exact Ha|]. split.
      + intros v Hv. apply sys_add_sat. split; [apply Hb, Hv|].
        apply HE. split; apply Hv; eapply index_from_in; eassumption.
      + intros v [Hv [H1 H2]%HE]%sys_add_sat k [<-|[<-|Hk]] x Hx.
        * rewrite (index_from_unique _ _ _ _ _ Hx Hic). exact H1.
        * rewrite (index_from_unique _ _ _ _ _ Hx Ef). exact H2.
        * eapply Hc; eassumption.
    - split; [|split; assumption]. intros e' j Hin. unfold seen_insert in Hin.
      destruct (seen_find e seen); [auto|].
      apply in_app_iff in Hin. destruct Hin as [Hin|[[= <- <-]|[]]]; auto.
  Qed.

  (* the second loop adds, in order, the constraints whose index was not removed *)
  Lemma second_loop rem l : forall out,
    fold_left (fun out ic => if existsb (Nat.eqb (fst ic)) rem then out else sys_add out (snd ic)) l out
    = sys_add_sys out (map snd (filter (fun ic => negb (existsb (Nat.eqb (fst ic)) rem)) l)).
  Proof.
    induction l as [|[i c] t IH]; intros out; cbn [fold_left filter fst snd]; [reflexivity|].
    destruct (existsb (Nat.eqb i) rem); cbn [negb map]; apply IH.
  Qed.

  Theorem normalize_sat v : sat_all v (normalize cs) <-> sat_all v cs.
  Proof.
    unfold normalize. fold ics.
    assert (Hinv : inv (fold_left norm_step ics ([], [], []))).
    { apply fold_left_invariant; [intros st [i c] Hin; apply norm_step_inv, Hin|].
      split; [intros e j [] | split; [intros v' _ c [] | intros v' _ i []]]. }
    destruct (fold_left norm_step ics ([], [], [])) as [[seen rem] out].
    destruct Hinv as (_ & Hb & Hc). rewrite second_loop, sys_add_sys_sat. split.
    - intros [Ho Hk] c Hin. destruct (in_index_from cs 0%nat c Hin) as [i Hi]. fold ics in Hi.
      destruct (existsb (Nat.eqb i) rem) eqn:E.
      + apply existsb_exists in E. destruct E as (k & Hk' & <-%Nat.eqb_eq). eapply Hc; eassumption.
      + apply Hk, in_map_iff. exists (i, c). split; [reflexivity|].
        apply filter_In. cbn [fst]. rewrite E. auto.
    - intros H. split; [apply Hb, H|]. intros x ([i c] & <- & Hi%filter_In)%in_map_iff.
      apply H. eapply index_from_in, Hi.
  Qed.
End Normalize.

Example normalize_example :
  let e := le_add (le_term 1 1) (le_term (-1) 2) in
  normalize [mkLC e INEQUALITY; mkLC (le_term 1 3) INEQUALITY; mkLC (le_neg e) INEQUALITY]
  = [mkLC (le_neg e) EQUALITY; mkLC (le_term 1 3) INEQUALITY].
Proof. vm_compute. reflexivity. Qed.
