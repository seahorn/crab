(* WrapintSound.v — crab::wrapint (model Num/Wrapint.v) is arithmetic modulo 2^w.
   For every operation: the representation invariant [wf] (1 <= width <= 64 and
   0 <= n < 2^width) is preserved and the unsigned reading of the result is the
   specification applied to the readings of the operands, reduced modulo 2^w; signed
   operations are specified through the signed reading [to_sZ]. *)
From Coq Require Import ZArith Lia Bool.
From CrabV Require Import Num.Wrapint.
Local Open Scope Z_scope.

Definition wf (a : wrapint) : Prop := 1 <= ww a <= 64 /\ 0 <= wn a < 2 ^ ww a.

Definition to_Z (a : wrapint) : Z := wn a.
Definition signed_of (w n : Z) : Z := if n <? 2 ^ (w - 1) then n else n - 2 ^ w.
Definition to_sZ (a : wrapint) : Z := signed_of (ww a) (wn a).
(* the element of Z/2^w represented by the integer z *)
Definition wrap (w z : Z) : Z := z mod 2 ^ w.

Lemma two64_eq : two64 = 2 ^ 64.
Proof. reflexivity. Qed.

Lemma pow2_pos w : 0 <= w -> 0 < 2 ^ w.
Proof. intros; apply Z.pow_pos_nonneg; lia. Qed.

Lemma pow2_le_64 w : 0 <= w <= 64 -> 2 ^ w <= 2 ^ 64.
Proof. intros; apply Z.pow_le_mono_r; lia. Qed.

Lemma pow2_split w : 1 <= w -> 2 ^ w = 2 * 2 ^ (w - 1).
Proof. intros. rewrite <- Z.pow_succ_r by lia. f_equal; lia. Qed.

Lemma mod_range w x : 0 <= w -> 0 <= x mod 2 ^ w < 2 ^ w.
Proof. intros. apply Z.mod_pos_bound, pow2_pos; lia. Qed.

Lemma mod_mod_pow2 x a b : 0 <= a <= b -> (x mod 2 ^ b) mod 2 ^ a = x mod 2 ^ a.
Proof.
  intros H. apply Z.bits_inj'. intros i Hi. rewrite !Z.testbit_mod_pow2 by lia.
  destruct (Z.ltb_spec i a); [|reflexivity]. destruct (Z.ltb_spec i b); [reflexivity|lia].
Qed.

Lemma sub_pow2_mod n w : 0 <= n < 2 ^ w -> (n - 2 ^ w) mod 2 ^ w = n.
Proof. intros Hn. symmetry. apply (Z.mod_unique _ _ (-1)); [left; exact Hn|ring]. Qed.

Lemma u64_mod x w : 0 <= w <= 64 -> u64 x mod 2 ^ w = x mod 2 ^ w.
Proof. intros. apply (mod_mod_pow2 x w 64); lia. Qed.

Lemma u64_range x : 0 <= u64 x < 2 ^ 64.
Proof. apply (mod_range 64). discriminate. Qed.

Lemma u64_small x : 0 <= x < 2 ^ 64 -> u64 x = x.
Proof. apply Z.mod_small. Qed.

Lemma wmod_eq w : 0 <= w < 64 -> wmod w = 2 ^ w.
Proof.
  intros H. unfold wmod. destruct (Z.eqb_spec w 64); [lia|].
  rewrite Z.shiftl_1_l. apply u64_small. split; [apply Z.lt_le_incl, pow2_pos; lia|].
  apply Z.pow_lt_mono_r; lia.
Qed.

Lemma wrap_res_spec w x : 1 <= w <= 64 -> wrap_res w (u64 x) = x mod 2 ^ w.
Proof.
  intros H. unfold wrap_res. destruct (Z.eqb_spec w 64) as [->|N].
  - reflexivity.
  - rewrite wmod_eq by lia. apply u64_mod; lia.
Qed.

Lemma wrap_res_small w r : 1 <= w <= 64 -> 0 <= r < 2 ^ w -> wrap_res w r = r.
Proof.
  intros H Hr. unfold wrap_res. destruct (Z.eqb_spec w 64); [reflexivity|].
  rewrite wmod_eq by lia. apply Z.mod_small, Hr.
Qed.

(* the constructors' [if (_width < 64) _n %= _mod] is the operators' [wrap_res] *)
Lemma reduce_eq n w : w <= 64 -> reduce n w = wrap_res w n.
Proof.
  intros H. unfold reduce, wrap_res.
  destruct (Z.ltb_spec w 64), (Z.eqb_spec w 64); reflexivity || lia.
Qed.

Lemma range_bits_high n w i : 0 <= n < 2 ^ w -> 0 <= w <= i -> Z.testbit n i = false.
Proof.
  intros Hn Hi. rewrite <- (Z.mod_small n (2 ^ w)) by exact Hn.
  apply Z.mod_pow2_bits_high, Hi.
Qed.

Lemma bits_range n w : 0 <= w -> (forall i, w <= i -> Z.testbit n i = false) -> 0 <= n < 2 ^ w.
Proof.
  intros Hw H.
  assert (0 <= n) as Hn by (apply Z.bits_iff_nonneg_ex; exists w; intros; apply H; lia).
  split; [exact Hn|].
  destruct (Z.eq_dec n 0) as [->|N]; [apply pow2_pos, Hw|].
  apply Z.log2_lt_pow2; [lia|].
  destruct (Z.lt_ge_cases (Z.log2 n) w) as [L|L]; [exact L|].
  specialize (H _ L). rewrite Z.bit_log2 in H by lia. discriminate.
Qed.

(* land, lor, lxor: [0, 2^w) is closed under every bitwise operation that maps (0, 0) to 0 *)
Lemma bitop_range op f :
  (forall x y i, Z.testbit (op x y) i = f (Z.testbit x i) (Z.testbit y i)) -> f false false = false ->
  forall w a b, 0 <= w -> 0 <= a < 2 ^ w -> 0 <= b < 2 ^ w -> 0 <= op a b < 2 ^ w.
Proof.
  intros Sp F w a b Hw Ha Hb. apply bits_range; [exact Hw|]. intros i Hi.
  rewrite Sp, (range_bits_high a w i Ha (conj Hw Hi)), (range_bits_high b w i Hb (conj Hw Hi)). exact F.
Qed.

Lemma neg_bits_high x w i : - 2 ^ w <= x < 0 -> 0 <= w <= i -> Z.testbit x i = true.
Proof.
  intros Hx Hi.
  replace x with (- (- x)) by lia. rewrite Z.bits_opp by lia.
  rewrite (range_bits_high (Z.pred (- x)) w) by lia. reflexivity.
Qed.

Lemma testbit_msb n w : 1 <= w -> 0 <= n < 2 ^ w -> Z.testbit n (w - 1) = (2 ^ (w - 1) <=? n).
Proof.
  intros Hw Hn. rewrite Z.testbit_eqb by lia.
  pose proof (pow2_split w Hw) as E. pose proof (pow2_pos (w - 1)) as P.
  destruct (Z.leb_spec (2 ^ (w - 1)) n).
  - assert (n / 2 ^ (w - 1) = 1) as ->; [|reflexivity].
    symmetry. apply (Z.div_unique n (2 ^ (w - 1)) 1 (n - 2 ^ (w - 1))); lia.
  - rewrite Z.div_small by lia. reflexivity.
Qed.

Lemma land_pow2 n k : 0 <= k -> Z.land n (2 ^ k) = if Z.testbit n k then 2 ^ k else 0.
Proof.
  intros Hk. apply Z.bits_inj'. intros i Hi. rewrite Z.land_spec, Z.pow2_bits_eqb by exact Hk.
  destruct (Z.testbit n k) eqn:E; rewrite ?Z.pow2_bits_eqb, ?Z.bits_0 by exact Hk;
    destruct (Z.eqb_spec k i) as [<-|]; rewrite ?E, ?andb_false_r; reflexivity.
Qed.

Lemma all_ones_eq w : 0 <= w <= 64 -> all_ones w = Z.ones w.
Proof.
  intros H. unfold all_ones. rewrite Z.ones_equiv, Z.shiftl_1_l.
  destruct (Z.ltb_spec w 64); [lia|]. replace w with 64 by lia. reflexivity.
Qed.

Lemma msb_spec a : wf a -> msb a = (2 ^ (ww a - 1) <=? wn a).
Proof.
  intros [Hw Hn]. unfold msb. rewrite Z.shiftl_1_l, land_pow2 by lia.
  rewrite <- testbit_msb by lia.
  pose proof (pow2_pos (ww a - 1)).
  destruct (Z.testbit (wn a) (ww a - 1)).
  - destruct (Z.eqb_spec (2 ^ (ww a - 1)) 0); [lia|reflexivity].
  - reflexivity.
Qed.

Lemma to_sZ_msb a : wf a -> to_sZ a = if msb a then to_Z a - 2 ^ ww a else to_Z a.
Proof.
  intros W. rewrite msb_spec by exact W. unfold to_sZ, signed_of, to_Z.
  destruct (Z.leb_spec (2 ^ (ww a - 1)) (wn a)), (Z.ltb_spec (wn a) (2 ^ (ww a - 1))); reflexivity || lia.
Qed.

Lemma signed_of_range w n : 1 <= w -> 0 <= n < 2 ^ w ->
  - 2 ^ (w - 1) <= signed_of w n < 2 ^ (w - 1).
Proof.
  intros Hw Hn. unfold signed_of. pose proof (pow2_split w Hw).
  destruct (Z.ltb_spec n (2 ^ (w - 1))); lia.
Qed.

Lemma signed_of_mod w n : 1 <= w -> 0 <= n < 2 ^ w -> signed_of w n mod 2 ^ w = n.
Proof.
  intros Hw Hn. unfold signed_of.
  destruct (Z.ltb_spec n (2 ^ (w - 1))); [apply Z.mod_small|apply sub_pow2_mod]; exact Hn.
Qed.

Lemma signed_of_unique w z : 1 <= w -> - 2 ^ (w - 1) <= z < 2 ^ (w - 1) ->
  signed_of w (z mod 2 ^ w) = z.
Proof.
  intros Hw Hz. pose proof (pow2_split w Hw) as E. unfold signed_of.
  destruct (Z_lt_le_dec z 0).
  - assert (z mod 2 ^ w = z + 2 ^ w) as ->.
    { symmetry. apply (Z.mod_unique z (2 ^ w) (-1)); lia. }
    destruct (Z.ltb_spec (z + 2 ^ w) (2 ^ (w - 1))); lia.
  - rewrite Z.mod_small by lia. destruct (Z.ltb_spec z (2 ^ (w - 1))); lia.
Qed.

Lemma wf_width a : wf a -> 1 <= ww a <= 64.
Proof. intros [H _]; exact H. Qed.

Lemma wf_range64 a : wf a -> 0 <= wn a < 2 ^ 64.
Proof.
  intros [Hw [Hn Hn']]. split; [exact Hn|].
  apply Z.lt_le_trans with (1 := Hn'), pow2_le_64. lia.
Qed.

Lemma wf_mk n w : 1 <= w <= 64 -> 0 <= n < 2 ^ w -> wf (mkW n w).
Proof. intros Hw Hn; exact (conj Hw Hn). Qed.

(* the shape of most results: the representative of z at width w *)
Lemma mk_mod_spec z w : 1 <= w <= 64 ->
  let r := mkW (z mod 2 ^ w) w in wf r /\ ww r = w /\ to_Z r = wrap w z.
Proof. intros H. split; [apply wf_mk; [exact H|apply mod_range; lia]|split; reflexivity]. Qed.

Lemma wrap_res_mk_spec x w : 1 <= w <= 64 ->
  let r := mkW (wrap_res w (u64 x)) w in wf r /\ ww r = w /\ to_Z r = wrap w x.
Proof. intros H. rewrite wrap_res_spec by exact H. apply mk_mod_spec, H. Qed.

Lemma between_spec a z b : (a <=? z) && (z <=? b) = true <-> a <= z <= b.
Proof. rewrite andb_true_iff, !Z.leb_le. reflexivity. Qed.

Lemma valid_width_spec w : valid_width w = true <-> 1 <= w <= 64.
Proof. apply between_spec. Qed.

Lemma wmk_spec n w : 1 <= w <= 64 -> 0 <= n < 2 ^ 64 ->
  wf (wmk n w) /\ ww (wmk n w) = w /\ to_Z (wmk n w) = wrap w n.
Proof.
  intros Hw Hn. pose proof (wrap_res_mk_spec n w Hw) as S.
  rewrite (u64_small n Hn), <- reduce_eq in S by lia. exact S.
Qed.

Lemma of_u64_eq n w : 1 <= w <= 64 -> of_u64 n w = Some (wmk n w).
Proof. intros H. unfold of_u64. apply valid_width_spec in H. rewrite H. reflexivity. Qed.

Lemma of_u64_spec n w : 0 <= n < 2 ^ 64 ->
  match of_u64 n w with
  | Some r => 1 <= w <= 64 /\ wf r /\ ww r = w /\ to_Z r = wrap w n
  | None => ~ (1 <= w <= 64)
  end.
Proof.
  intros Hn. unfold of_u64. destruct (valid_width_spec w) as [V1 V2]. destruct (valid_width w).
  - split; [exact (V1 eq_refl)|]. apply wmk_spec; [exact (V1 eq_refl)|exact Hn].
  - intros H. discriminate (V2 H).
Qed.

Lemma fits_int64_spec z : fits_int64 z = true <-> - 2 ^ 63 <= z <= 2 ^ 63 - 1.
Proof. apply between_spec. Qed.

Lemma of_z_spec z w :
  match of_z z w with
  | Some r => 1 <= w <= 64 /\ - 2 ^ 63 <= z <= 2 ^ 63 - 1 /\ wf r /\ ww r = w /\ to_Z r = wrap w z
  | None => ~ (1 <= w <= 64 /\ - 2 ^ 63 <= z <= 2 ^ 63 - 1)
  end.
Proof.
  unfold of_z. destruct (valid_width_spec w) as [V1 V2], (fits_int64_spec z) as [F1 F2].
  destruct (valid_width w); [destruct (fits_int64 z)|].
  - split; [exact (V1 eq_refl)|]. split; [exact (F1 eq_refl)|]. apply wrap_res_mk_spec, V1, eq_refl.
  - intros [_ H]. discriminate (F2 H).
  - intros [H _]. discriminate (V2 H).
Qed.

Lemma of_z_eq z w : 1 <= w <= 64 -> fits_int64 z = true -> of_z z w = Some (mkW (z mod 2 ^ w) w).
Proof.
  intros Hw F. unfold of_z. rewrite F, (proj2 (valid_width_spec w) Hw).
  change (if w =? 64 then _ else _) with (wrap_res w (u64 z)).
  rewrite wrap_res_spec by exact Hw. reflexivity.
Qed.

Lemma fits_int64_signed z w : w <= 64 -> - 2 ^ (w - 1) <= z < 2 ^ (w - 1) -> fits_int64 z = true.
Proof.
  intros Hw Hz. apply fits_int64_spec. pose proof (Z.pow_le_mono_r 2 (w - 1) 63) as P. revert P.
  generalize (2 ^ 63). lia.
Qed.

Lemma q_round_to_upper_spec num den : 0 < den ->
  let c := q_round_to_upper num den in c * den - den < num <= c * den.
Proof.
  intros Hd. unfold q_round_to_upper.
  pose proof (Z.quot_rem' num den) as E.
  destruct (Z.eqb_spec (Z.rem num den) 0) as [R0|R0]; simpl.
  - lia.
  - destruct (Z.ltb_spec num 0).
    + pose proof (Z.rem_bound_pos_neg num den Hd ltac:(lia)). simpl. lia.
    + pose proof (Z.rem_bound_pos num den ltac:(lia) Hd). simpl. lia.
Qed.

Lemma fits_wrapint_spec z w :
  fits_wrapint z w = true <-> (w <= 64 /\ - 2 ^ 63 <= z <= 2 ^ 63 - 1).
Proof.
  unfold fits_wrapint. destruct (Z.ltb_spec 64 w) as [L|L].
  - split; [discriminate|lia].
  - split; [intros F; split; [exact L|apply fits_int64_spec, F]|intros [_ F]; apply fits_int64_spec, F].
Qed.

Lemma wmk_small_spec n w : 1 <= w <= 64 -> 0 <= n < 2 ^ w ->
  wf (wmk n w) /\ ww (wmk n w) = w /\ to_Z (wmk n w) = n.
Proof.
  intros Hw Hn. unfold wmk. rewrite reduce_eq, wrap_res_small by (assumption || apply Hw).
  split; [apply wf_mk; assumption|split; reflexivity].
Qed.

Lemma get_signed_max_spec w : 1 <= w <= 64 ->
  wf (get_signed_max w) /\ ww (get_signed_max w) = w /\ to_Z (get_signed_max w) = 2 ^ (w - 1) - 1.
Proof.
  intros Hw. unfold get_signed_max. rewrite Z.shiftl_1_l.
  pose proof (pow2_pos (w - 1)). pose proof (pow2_split w). apply wmk_small_spec; lia.
Qed.

Lemma get_signed_min_spec w : 1 <= w <= 64 ->
  wf (get_signed_min w) /\ ww (get_signed_min w) = w /\ to_Z (get_signed_min w) = 2 ^ (w - 1).
Proof.
  intros Hw. unfold get_signed_min. rewrite Z.shiftl_1_l.
  pose proof (pow2_pos (w - 1)). pose proof (pow2_split w). apply wmk_small_spec; lia.
Qed.

Lemma get_unsigned_max_spec w : 1 <= w <= 64 ->
  wf (get_unsigned_max w) /\ ww (get_unsigned_max w) = w /\ to_Z (get_unsigned_max w) = 2 ^ w - 1.
Proof.
  intros Hw. assert (get_unsigned_max w = wmk (2 ^ w - 1) w) as ->.
  { unfold get_unsigned_max. destruct (Z.eqb_spec w 64) as [->|]; [|rewrite Z.shiftl_1_l]; reflexivity. }
  pose proof (pow2_pos w). apply wmk_small_spec; lia.
Qed.

Lemma get_unsigned_min_spec w : 1 <= w <= 64 ->
  wf (get_unsigned_min w) /\ ww (get_unsigned_min w) = w /\ to_Z (get_unsigned_min w) = 0.
Proof. intros Hw. pose proof (pow2_pos w). apply wmk_small_spec; lia. Qed.

Lemma bitop_wf op f :
  (forall x y i, Z.testbit (op x y) i = f (Z.testbit x i) (Z.testbit y i)) -> f false false = false ->
  forall a b, wf a -> wf b -> ww a = ww b -> wf (mkW (op (wn a) (wn b)) (ww a)).
Proof.
  intros Sp F a b [Wa Na] [_ Nb] E. rewrite <- E in Nb.
  apply wf_mk; [exact Wa|apply (bitop_range op f Sp F); assumption || lia].
Qed.

Lemma wand_spec a b : wf a -> wf b -> ww a = ww b ->
  wf (wand a b) /\ ww (wand a b) = ww a /\ to_Z (wand a b) = Z.land (to_Z a) (to_Z b).
Proof. split; [apply (bitop_wf Z.land andb Z.land_spec eq_refl); assumption|split; reflexivity]. Qed.

Lemma wor_spec a b : wf a -> wf b -> ww a = ww b ->
  wf (wor a b) /\ ww (wor a b) = ww a /\ to_Z (wor a b) = Z.lor (to_Z a) (to_Z b).
Proof. split; [apply (bitop_wf Z.lor orb Z.lor_spec eq_refl); assumption|split; reflexivity]. Qed.

Lemma wxor_spec a b : wf a -> wf b -> ww a = ww b ->
  wf (wxor a b) /\ ww (wxor a b) = ww a /\ to_Z (wxor a b) = Z.lxor (to_Z a) (to_Z b).
Proof. split; [apply (bitop_wf Z.lxor xorb Z.lxor_spec eq_refl); assumption|split; reflexivity]. Qed.

Lemma lxor_ones n w : 0 <= w -> 0 <= n < 2 ^ w -> Z.lxor n (2 ^ w - 1) = 2 ^ w - 1 - n.
Proof.
  intros Hw Hn.
  replace (2 ^ w - 1) with (Z.ones w) by (rewrite Z.ones_equiv; lia).
  assert (Z.land n (Z.lxor n (Z.ones w)) = 0) as D.
  { apply Z.bits_inj'. intros i Hi. rewrite Z.land_spec, Z.lxor_spec, Z.bits_0.
    rewrite Z.testbit_ones_nonneg by lia.
    destruct (Z.ltb_spec i w).
    - destruct (Z.testbit n i); reflexivity.
    - rewrite (range_bits_high n w) by lia. reflexivity. }
  apply Z.add_nocarry_lxor in D.
  rewrite <- Z.lxor_assoc, Z.lxor_nilpotent, Z.lxor_0_l in D.
  rewrite Z.ones_equiv in *. lia.
Qed.

Lemma get_signed_bignum_spec a : wf a -> get_signed_bignum a = to_sZ a.
Proof.
  intros W. rewrite to_sZ_msb by exact W. unfold get_signed_bignum. destruct (msb a); [|reflexivity].
  destruct W as [Hw Hn]. destruct (get_unsigned_max_spec (ww a) Hw) as (_ & _ & C).
  unfold get_unsigned_bignum, get_bitwidth, wxor, to_Z in *. cbn [wn]. rewrite C, lxor_ones by lia. lia.
Qed.

Lemma to_sZ_range a : wf a -> - 2 ^ (ww a - 1) <= to_sZ a < 2 ^ (ww a - 1).
Proof. intros [Hw Hn]. apply signed_of_range; lia. Qed.

Lemma to_sZ_wrap a : wf a -> wrap (ww a) (to_sZ a) = to_Z a.
Proof. intros [Hw Hn]. apply (signed_of_mod (ww a) (wn a)); lia. Qed.

Lemma wadd_spec a b : wf a -> wf b -> ww a = ww b ->
  wf (wadd a b) /\ ww (wadd a b) = ww a /\ to_Z (wadd a b) = wrap (ww a) (to_Z a + to_Z b).
Proof. intros [Wa _] _ _. exact (wrap_res_mk_spec _ _ Wa). Qed.

Lemma wsub_spec a b : wf a -> wf b -> ww a = ww b ->
  wf (wsub a b) /\ ww (wsub a b) = ww a /\ to_Z (wsub a b) = wrap (ww a) (to_Z a - to_Z b).
Proof. intros [Wa _] _ _. exact (wrap_res_mk_spec _ _ Wa). Qed.

Lemma wmul_spec a b : wf a -> wf b -> ww a = ww b ->
  wf (wmul a b) /\ ww (wmul a b) = ww a /\ to_Z (wmul a b) = wrap (ww a) (to_Z a * to_Z b).
Proof. intros [Wa _] _ _. exact (wrap_res_mk_spec _ _ Wa). Qed.

Lemma wneg_spec a : wf a ->
  wf (wneg a) /\ ww (wneg a) = ww a /\ to_Z (wneg a) = wrap (ww a) (- to_Z a).
Proof. intros [Wa _]. exact (wrap_res_mk_spec _ _ Wa). Qed.

(* the compound assignments and ++/-- compute the same values *)
Lemma wadd_assign_eq a b : wf a -> wadd_assign a b = wadd a b.
Proof. intros [Wa _]. unfold wadd_assign. rewrite reduce_eq by apply Wa. reflexivity. Qed.
Lemma wsub_assign_eq a b : wf a -> wsub_assign a b = wsub a b.
Proof. intros [Wa _]. unfold wsub_assign. rewrite reduce_eq by apply Wa. reflexivity. Qed.
Lemma wmul_assign_eq a b : wf a -> wmul_assign a b = wmul a b.
Proof. intros [Wa _]. unfold wmul_assign. rewrite reduce_eq by apply Wa. reflexivity. Qed.

Lemma wpreinc_spec a : wf a ->
  wf (wpreinc a) /\ ww (wpreinc a) = ww a /\ to_Z (wpreinc a) = wrap (ww a) (to_Z a + 1).
Proof. intros [Wa _]. unfold wpreinc. rewrite reduce_eq by apply Wa. exact (wrap_res_mk_spec _ _ Wa). Qed.

Lemma wpredec_spec a : wf a ->
  wf (wpredec a) /\ ww (wpredec a) = ww a /\ to_Z (wpredec a) = wrap (ww a) (to_Z a - 1).
Proof. intros [Wa _]. unfold wpredec. rewrite reduce_eq by apply Wa. exact (wrap_res_mk_spec _ _ Wa). Qed.

Lemma weq_spec a b : weq a b = (to_Z a =? to_Z b). Proof. reflexivity. Qed.
Lemma wne_spec a b : wne a b = negb (to_Z a =? to_Z b). Proof. reflexivity. Qed.
Lemma wlt_spec a b : wlt a b = (to_Z a <? to_Z b). Proof. reflexivity. Qed.
Lemma wle_spec a b : wle a b = (to_Z a <=? to_Z b). Proof. reflexivity. Qed.
Lemma wgt_spec a b : wgt a b = (to_Z b <? to_Z a). Proof. reflexivity. Qed.
Lemma wge_spec a b : wge a b = (to_Z b <=? to_Z a). Proof. reflexivity. Qed.

Lemma wrapint_eq a b : ww a = ww b -> wn a = wn b -> a = b.
Proof. destruct a, b; simpl; congruence. Qed.

Lemma weq_true a b : ww a = ww b -> weq a b = true -> a = b.
Proof. intros E H. apply wrapint_eq, Z.eqb_eq, H. exact E. Qed.

Lemma is_zero_spec a : is_zero a = (to_Z a =? 0). Proof. reflexivity. Qed.

Lemma div_range n d w : 0 <= n < 2 ^ w -> 0 < d -> 0 <= n / d < 2 ^ w.
Proof.
  intros Hn Hd. split; [apply Z.div_pos; lia|].
  apply Z.le_lt_trans with n; [|lia]. apply Z.div_le_upper_bound; nia.
Qed.

Lemma wudiv_spec a b : wf a -> wf b -> ww a = ww b ->
  match wudiv a b with
  | Some r => to_Z b <> 0 /\ wf r /\ ww r = ww a /\ to_Z r = to_Z a / to_Z b
  | None => to_Z b = 0
  end.
Proof.
  intros [Wa Na] [Wb Nb] E. unfold wudiv, is_zero, to_Z.
  destruct (Z.eqb_spec (wn b) 0) as [Z0|NZ]; [exact Z0|].
  pose proof (div_range (wn a) (wn b) (ww a) Na ltac:(lia)) as R.
  rewrite wrap_res_small by assumption.
  split; [exact NZ|]. split; [apply wf_mk; assumption|split; reflexivity].
Qed.

Lemma wurem_spec a b : wf a -> wf b -> ww a = ww b ->
  match wurem a b with
  | Some r => to_Z b <> 0 /\ wf r /\ ww r = ww a /\ to_Z r = to_Z a mod to_Z b
  | None => to_Z b = 0
  end.
Proof.
  intros [Wa Na] [Wb Nb] E. rewrite <- E in Nb. unfold wurem, is_zero, to_Z.
  destruct (Z.eqb_spec (wn b) 0) as [Z0|NZ]; [exact Z0|].
  assert (0 <= wn a mod wn b < 2 ^ ww a) as R by (pose proof (Z.mod_pos_bound (wn a) (wn b)); lia).
  rewrite wrap_res_small by assumption.
  split; [exact NZ|]. split; [apply wf_mk; assumption|split; reflexivity].
Qed.

(* truncated division leaves a symmetric range only for min / -1 *)
Lemma quot_bound x y M : - M <= x < M -> y <> 0 -> ~ (x = - M /\ y = -1) ->
  - M <= Z.quot x y < M.
Proof.
  intros Hx Hy NO.
  destruct (Z.eq_dec y 1) as [->|]; [rewrite Z.quot_1_r; exact Hx|].
  destruct (Z.eq_dec y (-1)) as [->|].
  { change (-1) with (- (1)). rewrite Z.quot_opp_r, Z.quot_1_r by discriminate. lia. }
  destruct (Z.eq_dec x 0) as [->|]; [rewrite Z.quot_0_l by exact Hy; lia|].
  assert (Z.abs (Z.quot x y) < Z.abs x) as L.
  { rewrite <- Z.quot_abs by exact Hy. apply Z.quot_lt; lia. }
  clear - L Hx. lia.
Qed.

Lemma rem_bound x y M : - M <= x < M -> y <> 0 -> - M <= Z.rem x y < M.
Proof.
  intros Hx Hy.
  assert (Z.abs (Z.rem x y) <= Z.abs x) as L.
  { rewrite <- Z.rem_abs by exact Hy. apply Z.rem_le; lia. }
  pose proof (Z.rem_nonpos x y Hy). clear Hy. lia.
Qed.

Lemma signed_of_special w n : 1 <= w -> 0 <= n < 2 ^ w ->
  (signed_of w n = 0 <-> n = 0) /\ (signed_of w n = -1 <-> n = 2 ^ w - 1) /\
  (signed_of w n = - 2 ^ (w - 1) <-> n = 2 ^ (w - 1)).
Proof.
  intros Hw Hn. pose proof (pow2_pos (w - 1)). pose proof (pow2_split w). unfold signed_of.
  destruct (Z.ltb_spec n (2 ^ (w - 1))); lia.
Qed.

Lemma to_sZ_zero a : wf a -> (to_sZ a = 0 <-> to_Z a = 0).
Proof. intros [Hw Hn]. apply signed_of_special; [apply Hw|exact Hn]. Qed.

Lemma wsdiv_spec a b : wf a -> wf b -> ww a = ww b ->
  match wsdiv a b with
  | Some r => to_Z b <> 0 /\ wf r /\ ww r = ww a /\
              to_Z r = wrap (ww a) (Z.quot (to_sZ a) (to_sZ b))
  | None => to_Z b = 0
  end.
Proof.
  intros Wfa Wfb E. pose proof Wfa as [Wa Na]. pose proof Wfb as [_ Nb]. rewrite <- E in Nb.
  unfold wsdiv, is_zero.
  destruct (Z.eqb_spec (wn b) 0) as [Z0|NZ]; [exact Z0|].
  rewrite !get_signed_bignum_spec by assumption.
  destruct (signed_of_special (ww a) (wn a) (proj1 Wa) Na) as (_ & _ & Ga).
  destruct (signed_of_special (ww a) (wn b) (proj1 Wa) Nb) as (_ & Gb & _).
  assert (~ (wn a = 2 ^ (ww a - 1) /\ wn b = 2 ^ ww a - 1) ->
          fits_int64 (Z.quot (to_sZ a) (to_sZ b)) = true) as F.
  { intros NO. apply (fits_int64_signed _ (ww a) (proj2 Wa)), quot_bound.
    - apply to_sZ_range, Wfa.
    - rewrite to_sZ_zero; assumption.
    - unfold to_sZ. rewrite <- E. intros [Sa Sb]. apply NO. split; [apply Ga, Sa|apply Gb, Sb]. }
  destruct (get_signed_min_spec (ww a) Wa) as (_ & _ & Cmin).
  destruct (get_unsigned_max_spec (ww a) Wa) as (_ & _ & Cmax).
  unfold weq. fold (to_Z (get_signed_min (ww a))) (to_Z (get_unsigned_max (ww a))). rewrite Cmin, Cmax.
  destruct (_ && _) eqn:OV.
  - (* signed_min / -1 *)
    apply andb_prop in OV as [O1%Z.eqb_eq O2%Z.eqb_eq].
    unfold to_sZ. rewrite <- E, (proj2 Ga O1), (proj2 Gb O2).
    change (-1) with (- (1)). rewrite Z.quot_opp_r, Z.quot_opp_l, Z.quot_1_r, Z.opp_involutive by discriminate.
    split; [exact NZ|]. split; [exact Wfa|]. split; [reflexivity|]. symmetry. rewrite <- O1. apply Z.mod_small, Na.
  - rewrite of_z_eq; [split; [exact NZ|apply mk_mod_spec, Wa]|exact Wa|apply F].
    intros [O1 O2]. rewrite O1, O2, !Z.eqb_refl in OV. discriminate.
Qed.

Lemma wsrem_spec a b : wf a -> wf b -> ww a = ww b ->
  match wsrem a b with
  | Some r => to_Z b <> 0 /\ wf r /\ ww r = ww a /\
              to_Z r = wrap (ww a) (Z.rem (to_sZ a) (to_sZ b))
  | None => to_Z b = 0
  end.
Proof.
  intros Wfa Wfb E. pose proof Wfa as [Wa _]. unfold wsrem, is_zero.
  destruct (Z.eqb_spec (wn b) 0) as [Z0|NZ]; [exact Z0|].
  rewrite !get_signed_bignum_spec by assumption.
  rewrite of_z_eq; [split; [exact NZ|apply mk_mod_spec, Wa]|exact Wa|].
  apply (fits_int64_signed _ (ww a) (proj2 Wa)), rem_bound; [apply to_sZ_range, Wfa|].
  rewrite to_sZ_zero; assumption.
Qed.

Lemma wshl_spec a k : wf a -> wf k -> ww a = ww k -> to_Z k < 64 ->
  exists r, wshl a k = Some r /\ wf r /\ ww r = ww a /\
            to_Z r = wrap (ww a) (to_Z a * 2 ^ to_Z k).
Proof.
  intros [Wa _] [_ [Nk _]] _ K. unfold wshl, to_Z in *. apply Z.ltb_lt in K as ->.
  eexists; split; [reflexivity|]. rewrite Z.shiftl_mul_pow2 by exact Nk.
  exact (wrap_res_mk_spec _ _ Wa).
Qed.

Lemma wshl_ub a k : to_Z k < 64 <-> wshl a k <> None.
Proof. unfold wshl, to_Z. destruct (Z.ltb_spec (wn k) 64); split; intros; try lia; congruence. Qed.

Lemma shiftr_range n w k : 0 <= n < 2 ^ w -> 0 <= k -> 0 <= Z.shiftr n k < 2 ^ w.
Proof. intros Hn Hk. rewrite Z.shiftr_div_pow2 by exact Hk. apply div_range, pow2_pos; assumption. Qed.

Lemma wlshr_spec a k : wf a -> wf k -> ww a = ww k -> to_Z k < 64 ->
  exists r, wlshr a k = Some r /\ wf r /\ ww r = ww a /\ to_Z r = to_Z a / 2 ^ to_Z k.
Proof.
  intros [Wa Na] [_ [Nk _]] _ K. unfold wlshr, to_Z in *. apply Z.ltb_lt in K as ->.
  eexists; split; [reflexivity|].
  split; [apply wf_mk; [exact Wa|apply shiftr_range; assumption]|].
  split; [reflexivity|]. apply Z.shiftr_div_pow2, Nk.
Qed.

(* bits of n - 2^w for n in the upper half: the low w bits are those of n, all others 1 *)
Lemma sub_pow2_bits n w j : 0 <= w -> 0 <= n < 2 ^ w -> 0 <= j ->
  Z.testbit (n - 2 ^ w) j = if j <? w then Z.testbit n j else true.
Proof.
  intros Hw Hn Hj. destruct (Z.ltb_spec j w).
  - rewrite <- (Z.mod_pow2_bits_low (n - 2 ^ w) w j), sub_pow2_mod by assumption. reflexivity.
  - apply (neg_bits_high _ w); lia.
Qed.

Lemma ashr_bits n w k : 0 <= w -> 0 <= n < 2 ^ w -> 0 <= k ->
  Z.lor (Z.lxor (Z.ones w) (Z.shiftr (Z.ones w) k)) (Z.shiftr n k) = ((n - 2 ^ w) / 2 ^ k) mod 2 ^ w.
Proof.
  intros Hw Hn Hk. apply Z.bits_inj'. intros i Hi.
  rewrite Z.lor_spec, Z.lxor_spec, !Z.shiftr_spec by lia.
  rewrite !Z.testbit_ones_nonneg by lia.
  rewrite Z.testbit_mod_pow2, Z.div_pow2_bits, sub_pow2_bits by lia.
  destruct (Z.ltb_spec i w); destruct (Z.ltb_spec (i + k) w); simpl; try lia; try reflexivity.
  rewrite (range_bits_high n w) by lia. reflexivity.
Qed.

Lemma washr_spec a k : wf a -> wf k -> ww a = ww k -> to_Z k < 64 ->
  exists r, washr a k = Some r /\ wf r /\ ww r = ww a /\
            to_Z r = wrap (ww a) (to_sZ a / 2 ^ to_Z k).
Proof.
  intros Wfa [_ [Nk _]] _ K. pose proof Wfa as [Wa Na]. unfold washr, to_Z in *. apply Z.ltb_lt in K as ->.
  rewrite to_sZ_msb by exact Wfa.
  destruct (msb a); eexists; (split; [reflexivity|]).
  - rewrite all_ones_eq, ashr_bits by (assumption || lia). apply mk_mod_spec, Wa.
  - pose proof (shiftr_range (wn a) (ww a) (wn k) Na Nk) as R.
    split; [apply wf_mk; assumption|]. split; [reflexivity|].
    unfold wrap, to_Z. rewrite <- Z.shiftr_div_pow2 by exact Nk. symmetry. apply Z.mod_small, R.
Qed.

Lemma sext_bits n w nw : 0 <= w <= nw -> nw <= 64 -> 0 <= n < 2 ^ w ->
  Z.lor n (u64 (Z.shiftl (Z.ones nw) w)) mod 2 ^ nw = (n - 2 ^ w) mod 2 ^ nw.
Proof.
  intros Hw Hnw Hn. apply Z.bits_inj'. intros i Hi.
  rewrite !Z.testbit_mod_pow2 by lia. rewrite Z.lor_spec, sub_pow2_bits by lia.
  unfold u64. rewrite two64_eq, Z.testbit_mod_pow2, Z.shiftl_spec by lia.
  destruct (Z.ltb_spec i nw); simpl; [|reflexivity].
  destruct (Z.ltb_spec i 64); [|lia]. simpl.
  destruct (Z.ltb_spec i w).
  - rewrite (Z.testbit_neg_r (Z.ones nw) (i - w)) by lia. apply orb_false_r.
  - rewrite Z.testbit_ones_nonneg by lia. destruct (Z.ltb_spec (i - w) nw); [|lia]. apply orb_true_r.
Qed.

Lemma wsext_spec a k : wf a -> 0 <= k ->
  match wsext a k with
  | Some r => ww a + k <= 64 /\ wf r /\ ww r = ww a + k /\ to_Z r = wrap (ww a + k) (to_sZ a)
  | None => 64 < ww a + k
  end.
Proof.
  intros Wfa Hk. pose proof Wfa as [Wa Na]. pose proof (wf_range64 a Wfa) as N64. unfold wsext.
  destruct (Z.ltb_spec 64 (ww a + k)) as [L|L]; [exact L|].
  assert (1 <= ww a + k <= 64) as Wk by lia.
  destruct (Z.eqb_spec k 0) as [->|K0].
  - rewrite Z.add_0_r, to_sZ_wrap by exact Wfa. split; [apply Wa|]. split; [exact Wfa|split; reflexivity].
  - rewrite to_sZ_msb by exact Wfa. destruct (msb a); rewrite of_u64_eq by exact Wk; (split; [exact L|]).
    + (* negative *)
      rewrite all_ones_eq by lia.
      destruct (wmk_spec (Z.lor (wn a) (u64 (Z.shiftl (Z.ones (ww a + k)) (ww a)))) (ww a + k) Wk)
        as (Wr & Er & Vr).
      { apply (bitop_range Z.lor orb Z.lor_spec eq_refl); [discriminate|exact N64|apply u64_range]. }
      split; [exact Wr|]. split; [exact Er|]. rewrite Vr. apply sext_bits; lia || assumption.
    + apply wmk_spec; assumption.
Qed.

Lemma wzext_spec a k : wf a -> 0 <= k ->
  match wzext a k with
  | Some r => ww a + k <= 64 /\ wf r /\ ww r = ww a + k /\ to_Z r = to_Z a
  | None => 64 < ww a + k
  end.
Proof.
  intros [Wa Na] Hk. unfold wzext.
  destruct (Z.ltb_spec 64 (ww a + k)) as [L|L]; [exact L|].
  rewrite of_u64_eq by lia. split; [exact L|].
  apply wmk_small_spec; [lia|]. split; [apply Na|].
  apply Z.lt_le_trans with (1 := proj2 Na), Z.pow_le_mono_r; lia.
Qed.

Lemma wkeep_lower_spec a k : wf a -> 0 <= k ->
  match wkeep_lower a k with
  | Some r => wf r /\ ((ww a <= k /\ r = a) \/
                       (1 <= k < ww a /\ ww r = k /\ to_Z r = wrap k (to_Z a)))
  | None => k = 0
  end.
Proof.
  intros Wfa Hk. pose proof Wfa as [Wa Na]. unfold wkeep_lower.
  destruct (Z.leb_spec (ww a) k) as [L|L]; [auto|].
  destruct (Z.eq_dec k 0) as [->|K]; [reflexivity|].
  rewrite of_u64_eq, Z.shiftl_1_l, Z.sub_1_r, <- Z.ones_equiv, Z.land_ones by lia.
  destruct (wmk_small_spec (wn a mod 2 ^ k) k) as (Wr & Er & Vr); [lia|apply mod_range, Hk|].
  split; [exact Wr|]. right. split; [lia|]. split; assumption.
Qed.

Lemma of_z_signed_roundtrip a : wf a -> of_z (get_signed_bignum a) (ww a) = Some a.
Proof.
  intros Wfa. pose proof (to_sZ_range a Wfa) as R. pose proof Wfa as [Wa _].
  rewrite get_signed_bignum_spec, of_z_eq by (assumption || apply (fits_int64_signed _ (ww a)); tauto).
  f_equal. apply wrapint_eq; [reflexivity|apply to_sZ_wrap, Wfa].
Qed.

Lemma of_z_unsigned_roundtrip a : wf a -> to_Z a < 2 ^ 63 ->
  of_z (get_unsigned_bignum a) (ww a) = Some a.
Proof.
  intros [Wa Na] H63. unfold get_unsigned_bignum, to_Z in *.
  rewrite of_z_eq by (exact Wa || apply fits_int64_spec; lia).
  f_equal. apply wrapint_eq; [reflexivity|apply Z.mod_small, Na].
Qed.

(* the class documents the limited precision: values of 2^63 and above are rejected *)
Lemma of_z_unsigned_roundtrip_limit a : wf a -> 2 ^ 63 <= to_Z a ->
  of_z (get_unsigned_bignum a) (ww a) = None.
Proof.
  intros Wfa H63. unfold get_unsigned_bignum, to_Z in *.
  pose proof (of_z_spec (wn a) (ww a)) as S.
  destruct (of_z (wn a) (ww a)) as [r|]; [|reflexivity]. lia.
Qed.

Lemma signed_bignum_of_z z w r : of_z z w = Some r -> - 2 ^ (w - 1) <= z < 2 ^ (w - 1) ->
  get_signed_bignum r = z.
Proof.
  intros H R. pose proof (of_z_spec z w) as S. rewrite H in S.
  destruct S as (Hw & _ & Wr & Er & Vr). rewrite get_signed_bignum_spec by exact Wr.
  unfold to_sZ. unfold to_Z in Vr. rewrite Vr, Er. apply signed_of_unique; lia.
Qed.

Lemma unsigned_bignum_of_z z w r : of_z z w = Some r -> get_unsigned_bignum r = wrap w z.
Proof.
  intros H. pose proof (of_z_spec z w) as S. rewrite H in S. apply S.
Qed.

Lemma to_sZ_congr a : wf a -> (to_sZ a - to_Z a) mod 2 ^ ww a = 0.
Proof.
  intros W. rewrite to_sZ_msb by exact W. destruct (msb a).
  - replace (to_Z a - 2 ^ ww a - to_Z a) with ((-1) * 2 ^ ww a) by lia. apply Z_mod_mult.
  - rewrite Z.sub_diag. apply Zmod_0_l.
Qed.

Example wf_example : wf (mkW 200 8) /\ to_sZ (mkW 200 8) = -56.
Proof. split; [split; simpl; lia|reflexivity]. Qed.

Example ashr_example : washr (mkW 128 8) (mkW 1 8) = Some (mkW 192 8).
Proof. reflexivity. Qed.

Example ashr64_example :
  washr (mkW (2 ^ 63) 64) (mkW 0 64) = Some (mkW (2 ^ 63) 64).
Proof. vm_compute. reflexivity. Qed.

Example sdiv_overflow_example :
  wsdiv (mkW (2 ^ 63) 64) (mkW (2 ^ 64 - 1) 64) = Some (mkW (2 ^ 63) 64).
Proof. vm_compute. reflexivity. Qed.

Example keep_lower_example :
  wkeep_lower (mkW (2 ^ 64 - 1) 64) 63 = Some (mkW (2 ^ 63 - 1) 63).
Proof. vm_compute. reflexivity. Qed.

Example sext0_example : wsext (mkW (2 ^ 63) 64) 0 = Some (mkW (2 ^ 63) 64).
Proof. reflexivity. Qed.
