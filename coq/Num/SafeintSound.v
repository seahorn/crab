(* SafeintSound.v — checked 64-bit arithmetic never wraps silently. *)
From Coq Require Import ZArith Bool Lia.
From CrabV Require Import Num.Safeint.
Local Open Scope Z_scope.

Lemma pow2_double w : 0 < w -> 2 ^ w = 2 * 2 ^ (w - 1).
Proof. intros Hw. rewrite <- Z.pow_succ_r by lia. f_equal. lia. Qed.

Lemma wrap_id w x : 0 < w -> - 2 ^ (w - 1) <= x < 2 ^ (w - 1) -> wrap w x = x.
Proof.
  intros Hw Hx. unfold wrap. rewrite Z.mod_small by (rewrite (pow2_double w Hw); lia). lia.
Qed.

Lemma wrap_range w x : 0 < w -> - 2 ^ (w - 1) <= wrap w x < 2 ^ (w - 1).
Proof.
  intros Hw. unfold wrap. pose proof (pow2_double w Hw).
  assert (0 < 2 ^ (w - 1)) by (apply Z.pow_pos_nonneg; lia).
  pose proof (Z.mod_pos_bound (x + 2 ^ (w - 1)) (2 ^ w)). lia.
Qed.

Lemma wrap_congr w x : 0 < w -> exists k, wrap w x = x + k * 2 ^ w.
Proof.
  intros Hw. unfold wrap. exists (- ((x + 2 ^ (w - 1)) / 2 ^ w)).
  assert (0 < 2 ^ w) by (apply Z.pow_pos_nonneg; lia).
  pose proof (Z.div_mod (x + 2 ^ (w - 1)) (2 ^ w)). lia.
Qed.

(* Arithmetic on the bounds is done with a variable m in place of 2^63 (and 2 * (m * m)
   in place of 2^127): lia and nia would otherwise compute with the numerals. *)
Lemma in_i64_iff x : in_i64 x <-> - 2 ^ 63 <= x < 2 ^ 63.
Proof. unfold in_i64, i64_min, i64_max. generalize (2 ^ 63). intros m. lia. Qed.

Lemma in_i64_0 : in_i64 0.
Proof. split; discriminate. Qed.

Lemma wrap64_id x : in_i64 x -> wrap 64 x = x.
Proof. intros H. apply wrap_id; [lia | apply in_i64_iff, H]. Qed.

Lemma narrow_ok lr : snd (narrow lr) = false <-> in_i64 lr.
Proof. unfold narrow, in_i64. cbn [snd]. rewrite orb_false_iff, !Z.ltb_ge. tauto. Qed.

Lemma narrow_flag lr : snd (narrow lr) = true <-> ~ in_i64 lr.
Proof. rewrite <- narrow_ok. destruct (snd (narrow lr)); split; congruence. Qed.

Lemma narrow_spec lr r :
  narrow lr = (r, false) <-> (in_i64 lr /\ r = lr).
Proof.
  split.
  - intros E. assert (H : in_i64 lr) by (apply narrow_ok; rewrite E; reflexivity).
    apply (f_equal fst) in E. cbn [fst narrow] in E. rewrite wrap64_id in E by exact H. auto.
  - intros [H ->]. unfold narrow. f_equal; [apply wrap64_id, H | apply narrow_ok, H].
Qed.

(* the 128-bit intermediate is exact for every result the four operations can
   produce from 64-bit operands *)
Lemma sum_fits m a b :
  - m <= a < m -> - m <= b < m -> - (2 * (m * m)) <= a + b < 2 * (m * m).
Proof. nia. Qed.
Lemma diff_fits m a b :
  - m <= a < m -> - m <= b < m -> - (2 * (m * m)) <= a - b < 2 * (m * m).
Proof. nia. Qed.
Lemma prod_fits m a b :
  - m <= a < m -> - m <= b < m -> - (2 * (m * m)) <= a * b < 2 * (m * m).
Proof. nia. Qed.

(* in magnitude, a quotient times a lower bound of the divisor is at most the dividend *)
Lemma quot_abs_le a b c : 0 < c <= Z.abs b -> c * Z.abs (Z.quot a b) <= Z.abs a.
Proof.
  intros H. rewrite <- Z.quot_abs, Z.quot_div_nonneg by lia.
  apply Z.le_trans with (Z.abs b * (Z.abs a / Z.abs b)); [|apply Z.mul_div_le; lia].
  apply Z.mul_le_mono_nonneg_r; [apply Z.div_pos; lia | lia].
Qed.

(* Z.quot is generalised away before lia and nia, which would bring in its definition *)
Lemma quot_fits m a b :
  - m <= a < m -> - m <= b < m -> - (2 * (m * m)) <= Z.quot a b < 2 * (m * m).
Proof.
  intros Ha _. destruct (Z.eq_dec b 0) as [->|Hb]; [rewrite Z.quot_0_r_ext by reflexivity; nia|].
  pose proof (quot_abs_le a b 1 ltac:(lia)) as H. revert H. generalize (Z.quot a b). intros q H. nia.
Qed.

Lemma wide_exact x : - 2 ^ 127 <= x < 2 ^ 127 -> wide x = x.
Proof. intros H. apply wrap_id; [lia | exact H]. Qed.

(* the four lemmas above at m = 2^63 *)
Lemma wide_fits (op : Z -> Z -> Z) :
  (forall m a b, - m <= a < m -> - m <= b < m -> - (2 * (m * m)) <= op a b < 2 * (m * m)) ->
  forall a b, in_i64 a -> in_i64 b -> wide (op a b) = op a b.
Proof.
  intros Hop a b Ha%in_i64_iff Hb%in_i64_iff. apply wide_exact.
  change (2 ^ 127) with (2 * (2 ^ 63 * 2 ^ 63)). apply Hop; assumption.
Qed.

Definition add_wide := wide_fits Z.add sum_fits.
Definition sub_wide := wide_fits Z.sub diff_fits.
Definition mul_wide := wide_fits Z.mul prod_fits.
Definition div_wide := wide_fits Z.quot quot_fits.

Theorem checked_add_spec a b r : in_i64 a -> in_i64 b ->
  (checked_add a b = (r, false) <-> (in_i64 (a + b) /\ r = a + b)).
Proof. intros Ha Hb. unfold checked_add. rewrite add_wide by auto. apply narrow_spec. Qed.
Theorem checked_sub_spec a b r : in_i64 a -> in_i64 b ->
  (checked_sub a b = (r, false) <-> (in_i64 (a - b) /\ r = a - b)).
Proof. intros Ha Hb. unfold checked_sub. rewrite sub_wide by auto. apply narrow_spec. Qed.
Theorem checked_mul_spec a b r : in_i64 a -> in_i64 b ->
  (checked_mul a b = (r, false) <-> (in_i64 (a * b) /\ r = a * b)).
Proof. intros Ha Hb. unfold checked_mul. rewrite mul_wide by auto. apply narrow_spec. Qed.
Theorem checked_div_spec a b r : in_i64 a -> in_i64 b -> b <> 0 ->
  (checked_div a b = Some (r, false) <-> (in_i64 (Z.quot a b) /\ r = Z.quot a b)).
Proof.
  intros Ha Hb Hb0. unfold checked_div. rewrite (proj2 (Z.eqb_neq b 0) Hb0), div_wide by auto.
  rewrite <- narrow_spec. split; [intros [= E1 E2]; unfold narrow; f_equal; assumption | intros ->; reflexivity].
Qed.

Theorem checked_add_flag a b : in_i64 a -> in_i64 b ->
  (snd (checked_add a b) = true <-> ~ in_i64 (a + b)).
Proof. intros Ha Hb. unfold checked_add. rewrite add_wide by auto. apply narrow_flag. Qed.
Theorem checked_sub_flag a b : in_i64 a -> in_i64 b ->
  (snd (checked_sub a b) = true <-> ~ in_i64 (a - b)).
Proof. intros Ha Hb. unfold checked_sub. rewrite sub_wide by auto. apply narrow_flag. Qed.
Theorem checked_mul_flag a b : in_i64 a -> in_i64 b ->
  (snd (checked_mul a b) = true <-> ~ in_i64 (a * b)).
Proof. intros Ha Hb. unfold checked_mul. rewrite mul_wide by auto. apply narrow_flag. Qed.
Theorem checked_div_flag a b : in_i64 a -> in_i64 b -> b <> 0 ->
  exists rf, checked_div a b = Some rf /\ (snd rf = true <-> ~ in_i64 (Z.quot a b)).
Proof.
  intros Ha Hb Hb0. unfold checked_div. rewrite (proj2 (Z.eqb_neq b 0) Hb0), div_wide by auto.
  eexists; split; [reflexivity | apply narrow_flag].
Qed.

(* the only overflowing quotient is INT64_MIN / -1 *)
Lemma quot_overflow m a b : - m <= a < m -> b <> 0 ->
  (~ (- m <= Z.quot a b < m) <-> (a = - m /\ b = -1)).
Proof.
  intros Ha Hb. destruct (Z.eq_dec b (-1)) as [->|Hb1].
  - change (-1) with (- (1)). rewrite Z.quot_opp_r, Z.quot_1_r by discriminate. lia.
  - destruct (Z.eq_dec b 1) as [->|Hb2]; [rewrite Z.quot_1_r; lia|].
    pose proof (quot_abs_le a b 2 ltac:(lia)) as H. revert H. generalize (Z.quot a b). intros q H. lia.
Qed.

Theorem div_overflow_iff a b : in_i64 a -> in_i64 b -> b <> 0 ->
  (~ in_i64 (Z.quot a b) <-> (a = - 2 ^ 63 /\ b = -1)).
Proof. intros Ha%in_i64_iff _ Hb0. rewrite in_i64_iff. apply quot_overflow; assumption. Qed.

(* the public operators: a value is returned only if it is the mathematical result and
   fits; every other case is a loud failure (None = CRAB_ERROR) *)
Lemma guard_some rf r : guard rf = Some r <-> rf = (r, false).
Proof. unfold guard. destruct rf as [x [|]]; cbn; split; intros H; inversion H; auto. Qed.
Lemma guard_none rf : guard rf = None <-> snd rf = true.
Proof. unfold guard. destruct rf as [x [|]]; cbn; split; intros H; auto; discriminate. Qed.

Lemma guard_narrow x :
  (forall r, guard (narrow x) = Some r <-> (in_i64 x /\ r = x)) /\
  (guard (narrow x) = None <-> ~ in_i64 x).
Proof.
  split; [intros r; rewrite guard_some; apply narrow_spec | rewrite guard_none; apply narrow_flag].
Qed.

Theorem safe_add_spec a b : in_i64 a -> in_i64 b ->
  (forall r, safe_add a b = Some r <-> (in_i64 (a + b) /\ r = a + b)) /\
  (safe_add a b = None <-> ~ in_i64 (a + b)).
Proof.
  intros Ha Hb. unfold safe_add, checked_add. rewrite add_wide by auto. apply guard_narrow.
Qed.
Theorem safe_sub_spec a b : in_i64 a -> in_i64 b ->
  (forall r, safe_sub a b = Some r <-> (in_i64 (a - b) /\ r = a - b)) /\
  (safe_sub a b = None <-> ~ in_i64 (a - b)).
Proof.
  intros Ha Hb. unfold safe_sub, checked_sub. rewrite sub_wide by auto. apply guard_narrow.
Qed.
Theorem safe_mul_spec a b : in_i64 a -> in_i64 b ->
  (forall r, safe_mul a b = Some r <-> (in_i64 (a * b) /\ r = a * b)) /\
  (safe_mul a b = None <-> ~ in_i64 (a * b)).
Proof.
  intros Ha Hb. unfold safe_mul, checked_mul. rewrite mul_wide by auto. apply guard_narrow.
Qed.
Theorem safe_div_spec a b : in_i64 a -> in_i64 b -> b <> 0 ->
  (forall r, safe_div a b = Some r <-> (in_i64 (Z.quot a b) /\ r = Z.quot a b)) /\
  (safe_div a b = None <-> ~ in_i64 (Z.quot a b)).
Proof.
  intros Ha Hb Hb0. unfold safe_div, checked_div.
  rewrite (proj2 (Z.eqb_neq b 0) Hb0), div_wide by auto. apply guard_narrow.
Qed.
Theorem safe_neg_spec a : in_i64 a ->
  (forall r, safe_neg a = Some r <-> (in_i64 (- a) /\ r = - a)) /\
  (safe_neg a = None <-> a = - 2 ^ 63).
Proof.
  intros Ha. unfold safe_neg. destruct (safe_sub_spec 0 a in_i64_0 Ha) as [H1 H2].
  rewrite Z.sub_0_l in H1, H2. split; [exact H1|].
  rewrite H2, in_i64_iff. apply in_i64_iff in Ha. revert Ha. generalize (2 ^ 63). intros m Ha. lia.
Qed.

Lemma fits_i64_iff n : fits_i64 n = true <-> in_i64 n.
Proof. unfold fits_i64, in_i64. rewrite andb_true_iff, !Z.leb_le. reflexivity. Qed.

Theorem safe_of_z_spec n : (forall r, safe_of_z n = Some r <-> (in_i64 n /\ r = n)) /\
                           (safe_of_z n = None <-> ~ in_i64 n).
Proof.
  unfold safe_of_z. pose proof (fits_i64_iff n) as [E1 E2]. destruct (fits_i64 n).
  - specialize (E1 eq_refl).
    split; [intros r; split; [intros [= <-]; auto | intros [_ ->]; reflexivity]
           | split; [discriminate | intros H; destruct (H E1)]].
  - assert (Hn : ~ in_i64 n) by (intros H; discriminate (E2 H)).
    split; [intros r; split; [discriminate | intros [H _]; destruct (Hn H)] | split; auto].
Qed.

Corollary safe_results_fit a b r : in_i64 a -> in_i64 b ->
  (safe_add a b = Some r \/ safe_sub a b = Some r \/ safe_mul a b = Some r \/
   (b <> 0 /\ safe_div a b = Some r)) -> in_i64 r.
Proof.
  intros Ha Hb [H|[H|[H|[Hb0 H]]]].
  - apply (proj1 (safe_add_spec a b Ha Hb)) in H. destruct H as [H ->]; auto.
  - apply (proj1 (safe_sub_spec a b Ha Hb)) in H. destruct H as [H ->]; auto.
  - apply (proj1 (safe_mul_spec a b Ha Hb)) in H. destruct H as [H ->]; auto.
  - apply (proj1 (safe_div_spec a b Ha Hb Hb0)) in H. destruct H as [H ->]; auto.
Qed.

Example safe_mul_overflows : safe_mul (2 ^ 32) (2 ^ 31) = None /\ safe_mul (2 ^ 31) (2 ^ 31) = Some (2 ^ 62)
                             /\ safe_div (- 2 ^ 63) (-1) = None /\ safe_add (2 ^ 63 - 1) 1 = None.
Proof. vm_compute. auto. Qed.
