(* BignumSound.v — the operators of the z_number model agree with mathematical
   integer arithmetic: characterisations that pin each result uniquely. *)
From Coq Require Import ZArith Zquot Bool List Lia.
From CrabV Require Import Num.Bignum.
Import ListNotations.
Local Open Scope Z_scope.

(* truncating division: a = b*q + r, |r| < |b|, r is zero or has the sign of a *)
Definition trunc_divmod (a b q r : Z) : Prop :=
  a = b * q + r /\ Z.abs r < Z.abs b /\ 0 <= r * a.

Lemma quot_rem_trunc a b : b <> 0 -> trunc_divmod a b (Z.quot a b) (Z.rem a b).
Proof.
  intros Hb. split; [apply Z.quot_rem' | split; [apply Z.rem_bound_abs | apply Z.rem_sign_mul]]; exact Hb.
Qed.

(* the last two conjuncts say that r is a remainder in the sense of Zquot, which has
   the uniqueness of quotient and remainder *)
Lemma trunc_divmod_quot_rem a b q r :
  trunc_divmod a b q r -> q = Z.quot a b /\ r = Z.rem a b.
Proof.
  intros (E & B & S). apply Zquot_mod_unique_full; [|exact E]. unfold Remainder. nia.
Qed.

Theorem zdiv_zrem_spec a b :
  b <> 0 ->
  exists q r, zdiv a b = Some q /\ zrem a b = Some r /\ trunc_divmod a b q r /\
              (forall q' r', trunc_divmod a b q' r' -> q' = q /\ r' = r).
Proof.
  intros Hb. exists (Z.quot a b), (Z.rem a b). unfold zdiv, zrem.
  rewrite (proj2 (Z.eqb_neq b 0) Hb).
  split; [reflexivity|]. split; [reflexivity|].
  split; [apply quot_rem_trunc, Hb | intros q' r'; apply trunc_divmod_quot_rem].
Qed.

Lemma zdiv_by_zero a : zdiv a 0 = None /\ zrem a 0 = None.
Proof. split; reflexivity. Qed.

Lemma shift_ok_range k : shift_ok k = true -> 0 <= k.
Proof. unfold shift_ok. rewrite andb_true_iff, Z.leb_le. tauto. Qed.

Theorem zshr_div a k r : zshr a k = Some r -> r = a / 2 ^ k.
Proof.
  unfold zshr. destruct (shift_ok k) eqn:E; [|discriminate]. intros [= <-].
  apply Z.shiftr_div_pow2, shift_ok_range, E.
Qed.

Theorem zshl_mul a k r : zshl a k = Some r -> r = a * 2 ^ k.
Proof.
  unfold zshl. destruct (shift_ok k) eqn:E; [|discriminate]. intros [= <-].
  apply Z.shiftl_mul_pow2, shift_ok_range, E.
Qed.

(* a >> k is the floor of a / 2^k: the unique r with 2^k * r <= a < 2^k * (r+1) *)
Theorem zshr_floor a k r :
  zshr a k = Some r -> 2 ^ k * r <= a < 2 ^ k * (r + 1).
Proof.
  intros H. rewrite (zshr_div a k r H).
  assert (0 < 2 ^ k).
  { unfold zshr in H. destruct (shift_ok k) eqn:E; [|discriminate].
    apply Z.pow_pos_nonneg; [lia | apply shift_ok_range, E]. }
  split; [apply Z.mul_div_le | apply Z.mul_succ_div_gt]; assumption.
Qed.

Lemma zshift_defined a k : 0 <= k <= shift_limit -> zshl a k <> None /\ zshr a k <> None.
Proof.
  intros [H1 H2]. apply Z.leb_le in H1, H2. unfold zshl, zshr, shift_ok. rewrite H1, H2.
  split; discriminate.
Qed.

Theorem zand_bits a b n : Z.testbit (zand a b) n = Z.testbit a n && Z.testbit b n.
Proof. apply Z.land_spec. Qed.
Theorem zor_bits a b n : Z.testbit (zor a b) n = Z.testbit a n || Z.testbit b n.
Proof. apply Z.lor_spec. Qed.
Theorem zxor_bits a b n : Z.testbit (zxor a b) n = xorb (Z.testbit a n) (Z.testbit b n).
Proof. apply Z.lxor_spec. Qed.
(* the bits are those of infinite two's complement: a negative number has all bits
   set from some position on *)
Lemma twos_complement_sign a : a < 0 <-> exists k, forall n, k <= n -> Z.testbit a n = true.
Proof.
  split.
  - intros H. exists (Z.log2 (Z.pred (- a)) + 1). intros n Hn.
    apply Z.bits_above_log2_neg; lia.
  - intros (k & Hk). destruct (Z_lt_le_dec a 0) as [|Hge]; auto. exfalso.
    set (n := Z.max k (Z.log2 a + 1)).
    assert (Z.testbit a n = false) by (apply Z.bits_above_log2; unfold n; lia).
    rewrite Hk in H; [discriminate | unfold n; lia].
Qed.

Lemma fill_loop_stop fuel x r : x <= r -> fill_loop fuel x r = r.
Proof. intros H. apply Z.ltb_ge in H. destruct fuel; cbn [fill_loop]; rewrite H; reflexivity. Qed.

(* the accumulator runs through 2^j - 1 and stops at the first j with x <= 2^j - 1,
   which is log2 x + 1; the bits of x are fuel enough *)
Lemma fill_loop_closed x (Hx : 0 < x) :
  forall fuel j, 1 <= j <= Z.log2 x + 1 ->
    Z.log2 x + 1 - j <= Z.pos (Pos.size fuel) ->
    fill_loop fuel x (2 ^ j - 1) = 2 ^ (Z.log2 x + 1) - 1.
Proof.
  assert (Hcmp : forall j, 0 <= j -> 2 ^ j - 1 < x <-> j <= Z.log2 x).
  { intros j Hj. rewrite <- (Z.log2_le_pow2 x j) by lia. lia. }
  induction fuel as [f IH | f IH |]; intros j Hj Hf;
    (destruct (Z.eq_dec j (Z.log2 x + 1)) as [->|Hne];
     [apply fill_loop_stop; pose proof (Hcmp (Z.log2 x + 1)); lia |]).
  all: cbn [fill_loop Pos.size] in *; rewrite (proj2 (Z.ltb_lt _ _)) by (apply Hcmp; lia).
  all: replace (2 * (2 ^ j - 1) + 1) with (2 ^ (j + 1) - 1) by (rewrite Z.pow_add_r; lia).
  1, 2: apply IH; lia.
  replace (j + 1) with (Z.log2 x + 1) by lia. reflexivity.
Qed.

Lemma pos_size_log2 p : Z.pos (Pos.size p) = Z.log2 (Z.pos p) + 1.
Proof. destruct p; cbn [Pos.size Z.log2]; lia. Qed.

Theorem fill_ones_closed x :
  fill_ones x = if x <? 0 then None else if x =? 0 then Some 0 else Some (Z.ones (Z.log2 x + 1)).
Proof.
  destruct x as [|p|p]; try reflexivity.
  cbn [fill_ones Z.ltb Z.eqb Z.compare]. f_equal. rewrite Z.ones_equiv.
  pose proof (Z.log2_nonneg (Z.pos p)).
  apply (fill_loop_closed (Z.pos p) eq_refl p 1); [|rewrite pos_size_log2]; lia.
Qed.

(* what the closed form means: the smallest 2^k - 1 that is >= x *)
Theorem fill_ones_least x r :
  0 < x -> fill_ones x = Some r ->
  x <= r /\ (exists k, 0 <= k /\ r = 2 ^ k - 1) /\
  (forall k, 0 <= k -> x <= 2 ^ k - 1 -> r <= 2 ^ k - 1).
Proof.
  intros Hx. rewrite fill_ones_closed.
  rewrite (proj2 (Z.ltb_ge x 0)), (proj2 (Z.eqb_neq x 0)) by lia.
  intros [= <-]. rewrite Z.ones_equiv. pose proof (Z.log2_nonneg x).
  split; [|split; [exists (Z.log2 x + 1); split; [lia | reflexivity]|]].
  - assert (x < 2 ^ (Z.log2 x + 1)) by (apply Z.log2_lt_pow2; lia). lia.
  - intros k Hk Hxk. assert (2 ^ (Z.log2 x + 1) <= 2 ^ k); [|lia].
    apply Z.pow_le_mono_r; [lia|]. enough (Z.log2 x < k) by lia. apply Z.log2_lt_pow2; lia.
Qed.

(* an export or import guarded by a range test *)
Lemma some_if_iff (c : bool) (x y : Z) :
  (if c then Some x else None) = Some y <-> c = true /\ y = x.
Proof.
  destruct c; split;
    [intros [= <-]; auto | intros [_ ->]; reflexivity | discriminate | intros [H _]; discriminate H].
Qed.

Lemma fits_int64_iff a : fits_int64 a = true <-> - 2 ^ 63 <= a <= 2 ^ 63 - 1.
Proof. unfold fits_int64. rewrite andb_true_iff, !Z.leb_le. reflexivity. Qed.

Theorem to_int64_spec a n : to_int64 a = Some n <-> (- 2 ^ 63 <= a <= 2 ^ 63 - 1 /\ n = a).
Proof. unfold to_int64. rewrite some_if_iff, fits_int64_iff. reflexivity. Qed.
Theorem to_int64_overflow a : to_int64 a = None <-> ~ (- 2 ^ 63 <= a <= 2 ^ 63 - 1).
Proof. rewrite <- fits_int64_iff. unfold to_int64. destruct (fits_int64 a); split; congruence. Qed.
Theorem int64_round_trip n z : of_int64 n = Some z -> to_int64 z = Some n /\ fits_int64 z = true.
Proof.
  unfold of_int64, to_int64. intros H. apply some_if_iff in H. destruct H as [E ->].
  rewrite E. auto.
Qed.
Theorem uint64_import n z : of_uint64 n = Some z <-> (0 <= n <= 2 ^ 64 - 1 /\ z = n).
Proof.
  unfold of_uint64, fits_uint64. rewrite some_if_iff, andb_true_iff, !Z.leb_le. reflexivity.
Qed.

Lemma digits_loop_value b (Hb : 2 <= b) :
  forall f n acc, 0 <= n ->
    of_digits b (digits_loop f b n acc) = fold_left (fun a d => a * b + d) acc n.
Proof.
  induction f as [|f IH]; intros n acc Hn; cbn [digits_loop]; [reflexivity|].
  destruct (n <? b); [reflexivity|].
  rewrite IH by (apply Z.div_pos; lia). cbn [fold_left]. f_equal.
  rewrite (Z.div_mod n b) at 3 by lia. lia.
Qed.

Theorem of_to_digits b n : 2 <= b -> 0 <= n -> of_digits b (to_digits b n) = n.
Proof. intros Hb Hn. unfold to_digits. rewrite digits_loop_value by auto. reflexivity. Qed.

(* fuel f is enough for numbers below 2^(f+1), since each division at least halves *)
Lemma digits_loop_range b (Hb : 2 <= b) :
  forall f n acc, 0 <= n < 2 ^ (Z.of_nat f + 1) ->
    Forall (fun d => 0 <= d < b) acc -> Forall (fun d => 0 <= d < b) (digits_loop f b n acc).
Proof.
  induction f as [|f IH]; intros n acc Hn Hacc; cbn [digits_loop].
  - constructor; [change (2 ^ (Z.of_nat 0 + 1)) with 2 in Hn; lia | exact Hacc].
  - destruct (Z.ltb_spec n b) as [Hlt|Hge]; [constructor; [lia | exact Hacc]|].
    apply IH; [|constructor; [apply Z.mod_pos_bound; lia | exact Hacc]].
    split; [apply Z.div_pos; lia|]. apply Z.div_lt_upper_bound; [lia|].
    rewrite Nat2Z.inj_succ, Z.add_succ_l, Z.pow_succ_r in Hn by lia. nia.
Qed.

Theorem to_digits_range b n : 2 <= b -> 0 <= n -> Forall (fun d => 0 <= d < b) (to_digits b n).
Proof.
  intros Hb Hn. apply digits_loop_range; [exact Hb | | constructor].
  rewrite Z2Nat.id by apply Z.log2_nonneg. split; [exact Hn|].
  destruct (Z.eq_dec n 0) as [->|]; [reflexivity | apply Z.log2_lt_pow2; lia].
Qed.

Lemma digits_loop_nonempty b : forall f n acc, digits_loop f b n acc <> [].
Proof.
  induction f as [|f IH]; intros n acc; cbn [digits_loop].
  - intro H; discriminate H.
  - destruct (n <? b); [intro H; discriminate H | apply IH].
Qed.
Lemma to_digits_nonempty b n : to_digits b n <> [].
Proof. unfold to_digits. apply digits_loop_nonempty. Qed.

(* string round trip: parsing what get_str prints gives the number back, in any base *)
Theorem z_str_round_trip b a neg ds :
  z_get_str b a = Some (neg, ds) -> z_of_str b neg ds = Some a.
Proof.
  unfold z_get_str, z_of_str. destruct (base_ok b) eqn:Eb; [|discriminate]. intros [= <- <-].
  assert (Hb : 2 <= b) by (unfold base_ok in Eb; rewrite andb_true_iff, Z.leb_le in Eb; tauto).
  pose proof (Z.abs_nonneg a) as Ha.
  replace (forallb _ _) with true.
  - rewrite of_to_digits by assumption. pose proof (to_digits_nonempty b (Z.abs a)).
    destruct (to_digits b (Z.abs a)); [congruence|]. cbn [negb andb].
    destruct (Z.ltb_spec a 0); f_equal; lia.
  - symmetry. apply forallb_forall. intros d Hd.
    apply (proj1 (Forall_forall _ _) (to_digits_range b _ Hb Ha)) in Hd.
    apply andb_true_intro. split; [apply Z.leb_le | apply Z.ltb_lt]; lia.
Qed.

Lemma of_digits_snoc b ds d : of_digits b (ds ++ [d]) = of_digits b ds * b + d.
Proof. unfold of_digits. rewrite fold_left_app. reflexivity. Qed.

Theorem z_get_str_defined b a : 2 <= b <= 36 -> z_get_str b a <> None.
Proof.
  intros [H1 H2]. unfold z_get_str, base_ok. apply Z.leb_le in H1, H2. rewrite H1, H2. discriminate.
Qed.

(* raw words: import of the export is the magnitude, with the sign reported *)
Theorem words_round_trip order a :
  let (sign, ws) := to_words order a in
  of_words order ws = Z.abs a /\ sign = (0 <=? a) /\ Forall (fun w => 0 <= w < 2 ^ 64) ws.
Proof.
  unfold to_words, of_words. destruct (Z.eqb_spec a 0) as [->|_].
  - destruct order; cbn; auto.
  - assert (Hb : 2 <= word_base) by discriminate.
    pose proof (of_to_digits word_base _ Hb (Z.abs_nonneg a)) as Hv.
    pose proof (to_digits_range word_base _ Hb (Z.abs_nonneg a)) as Hr.
    destruct order; [|rewrite rev_involutive; apply Forall_rev in Hr]; auto.
Qed.
