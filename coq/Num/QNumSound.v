(* QNumSound.v — q_number model: results are canonical and equal to the mathematical
   value; round_to_lower / round_to_upper are floor and ceiling. *)
From Coq Require Import ZArith QArith Qreduction Qround Bool Lia.
From CrabV Require Import Num.Bignum Num.QNum.
Local Open Scope Z_scope.

Definition canonical (q : Q) : Prop := Z.gcd (Qnum q) (Z.pos (Qden q)) = 1.

(* Qred divides numerator and denominator by their gcd *)
Lemma Qred_factor q :
  let g := Z.gcd (Qnum q) (Z.pos (Qden q)) in
  Qnum q = g * Qnum (Qred q) /\ Z.pos (Qden q) = g * Z.pos (Qden (Qred q)).
Proof.
  destruct q as [a b]. unfold Qred. cbn [Qnum Qden].
  pose proof (Z.gcd_nonneg a (Z.pos b)) as Hg. rewrite <- Z.ggcd_gcd in *.
  pose proof (Z.ggcd_correct_divisors a (Z.pos b)) as Hd.
  destruct (Z.ggcd a (Z.pos b)) as (g, (aa, bb)). cbn [fst snd Qnum Qden] in *.
  destruct Hd as [Ha Hb]. split; [exact Ha|]. rewrite Z2Pos.id; [exact Hb | nia].
Qed.

Lemma Qred_canonical q : canonical (Qred q).
Proof.
  destruct (Qred_factor q) as [Hn Hd]. unfold canonical.
  pose proof (Z.gcd_nonneg (Qnum q) (Z.pos (Qden q))) as Hg.
  pose proof (Z.gcd_mul_mono_l_nonneg (Qnum (Qred q)) (Z.pos (Qden (Qred q))) _ Hg) as E.
  rewrite <- Hn, <- Hd in E. nia.
Qed.

Lemma Qred_of_canonical q : canonical q -> Qred q = q.
Proof.
  intros Hc. destruct (Qred_factor q) as [Hn Hd]. rewrite Hc, Z.mul_1_l in Hn, Hd.
  destruct q as [a b], (Qred _) as [a' b']. cbn in Hn, Hd. congruence.
Qed.

Theorem canonical_unique p q : canonical p -> canonical q -> p == q -> p = q.
Proof.
  intros Hp Hq E. rewrite <- (Qred_of_canonical p Hp), <- (Qred_of_canonical q Hq).
  apply Qred_complete. exact E.
Qed.

Lemma inject_Z_canonical n : canonical (inject_Z n).
Proof. unfold canonical, inject_Z. cbn [Qnum Qden]. apply Z.gcd_1_r. Qed.

Theorem q_make_spec n d :
  (d = 0 -> q_make n d = None) /\
  (d <> 0 -> exists q, q_make n d = Some q /\ canonical q /\ (q * inject_Z d == inject_Z n)%Q).
Proof.
  unfold q_make. split.
  - intros ->. reflexivity.
  - intros Hd. rewrite (proj2 (Z.eqb_neq d 0) Hd).
    eexists; split; [reflexivity|]. split; [apply Qred_canonical|].
    rewrite Qred_correct. unfold Qeq, Qmult, inject_Z. cbn [Qnum Qden].
    rewrite Pos.mul_1_r, Z.mul_1_r. rewrite Z2Pos.id by lia.
    pose proof (Z.abs_sgn d). nia.
Qed.

Theorem qadd_spec a b : canonical (qadd a b) /\ (qadd a b == a + b)%Q.
Proof. unfold qadd. split; [apply Qred_canonical | apply Qred_correct]. Qed.
Theorem qsub_spec a b : canonical (qsub a b) /\ (qsub a b == a - b)%Q.
Proof. unfold qsub. split; [apply Qred_canonical | apply Qred_correct]. Qed.
Theorem qmul_spec a b : canonical (qmul a b) /\ (qmul a b == a * b)%Q.
Proof. unfold qmul. split; [apply Qred_canonical | apply Qred_correct]. Qed.
Theorem qneg_spec a : canonical (qneg a) /\ (qneg a == - a)%Q.
Proof. unfold qneg. split; [apply Qred_canonical | apply Qred_correct]. Qed.
Theorem qdiv_spec a b :
  (b == 0 -> qdivide a b = None) /\
  (~ b == 0 -> exists q, qdivide a b = Some q /\ canonical q /\ (q * b == a)%Q).
Proof.
  unfold qdivide. assert (Hz : b == 0 <-> Qnum b = 0).
  { unfold Qeq. cbn. rewrite Z.mul_1_r. tauto. }
  split.
  - intros H. apply Hz in H. rewrite H. reflexivity.
  - intros H. rewrite (proj2 (Z.eqb_neq (Qnum b) 0)) by tauto.
    eexists; split; [reflexivity|]. split; [apply Qred_canonical|].
    rewrite Qred_correct. rewrite Qmult_comm. apply Qmult_div_r. exact H.
Qed.
Theorem qinc_qdec_spec a : (qinc a == a + 1)%Q /\ (qdec a == a - 1)%Q /\ canonical (qinc a) /\ canonical (qdec a).
Proof. unfold qinc, qdec. repeat split; try apply Qred_correct; apply Qred_canonical. Qed.

Theorem qcmp_spec a b : (qeq a b = true <-> a == b) /\ (qle a b = true <-> (a <= b)%Q) /\
                        (qlt a b = true <-> (a < b)%Q).
Proof.
  unfold qeq, qle, qlt. split; [apply Qeq_bool_iff|]. split; [apply Qle_bool_iff|].
  rewrite negb_true_iff, <- not_true_iff_false, Qle_bool_iff.
  split; [apply Qnot_le_lt | apply Qlt_not_le].
Qed.

(* n / d with the remainder made non-negative is the floor; the C++ gets there from the
   truncating quotient by stepping down when the remainder is negative *)
Lemma round_to_lower_floor a : round_to_lower a = Qfloor a.
Proof.
  destruct a as [n d]. unfold round_to_lower, numerator, denominator, Qfloor. cbn [Qnum Qden].
  pose proof (Z.quot_rem' n (Z.pos d)) as E.
  destruct (Z.eqb_spec (Z.rem n (Z.pos d)) 0) as [Hr|Hr]; cbn [orb].
  - apply Z.div_unique_pos with 0; lia.
  - destruct (Z.ltb_spec 0 n).
    + pose proof (Z.rem_bound_pos n (Z.pos d)).
      apply Z.div_unique_pos with (Z.rem n (Z.pos d)); lia.
    + pose proof (Z.rem_bound_pos_neg n (Z.pos d)).
      apply Z.div_unique_pos with (Z.rem n (Z.pos d) + Z.pos d); lia.
Qed.

(* the ceiling of a is minus the floor of -a, and the C++ of round_to_upper is that of
   round_to_lower under this symmetry *)
Lemma round_to_upper_opp a : round_to_upper a = - round_to_lower (- a).
Proof.
  destruct a as [n d]. unfold round_to_upper, round_to_lower, numerator, denominator, Qopp.
  cbn [Qnum Qden]. rewrite Z.quot_opp_l, Z.rem_opp_l by discriminate.
  destruct (Z.eqb_spec (Z.rem n (Z.pos d)) 0), (Z.eqb_spec (- Z.rem n (Z.pos d)) 0),
    (Z.ltb_spec n 0), (Z.ltb_spec 0 (- n)); cbn [orb]; lia.
Qed.

Lemma round_to_upper_ceiling a : round_to_upper a = Qceiling a.
Proof. rewrite round_to_upper_opp, round_to_lower_floor. reflexivity. Qed.

Theorem round_to_lower_spec a :
  (inject_Z (round_to_lower a) <= a)%Q /\ (a < inject_Z (round_to_lower a + 1))%Q.
Proof. rewrite round_to_lower_floor. split; [apply Qfloor_le | apply Qlt_floor]. Qed.
Theorem round_to_upper_spec a :
  (inject_Z (round_to_upper a - 1) < a)%Q /\ (a <= inject_Z (round_to_upper a))%Q.
Proof. rewrite round_to_upper_ceiling. split; [apply Qceiling_lt | apply Qle_ceiling]. Qed.

Lemma inject_Z_lt_inv x y : (inject_Z x < inject_Z y)%Q -> x < y.
Proof. unfold Qlt, inject_Z. cbn. lia. Qed.

Theorem floor_unique a r : (inject_Z r <= a)%Q -> (a < inject_Z (r + 1))%Q -> r = round_to_lower a.
Proof.
  intros H1 H2. destruct (round_to_lower_spec a) as [H3 H4].
  assert (r < round_to_lower a + 1) by (apply inject_Z_lt_inv; eapply Qle_lt_trans; eauto).
  assert (round_to_lower a < r + 1) by (apply inject_Z_lt_inv; eapply Qle_lt_trans; eauto).
  lia.
Qed.
Theorem ceiling_unique a r : (inject_Z (r - 1) < a)%Q -> (a <= inject_Z r)%Q -> r = round_to_upper a.
Proof.
  intros H1 H2. destruct (round_to_upper_spec a) as [H3 H4].
  assert (r - 1 < round_to_upper a) by (apply inject_Z_lt_inv; eapply Qlt_le_trans; eauto).
  assert (round_to_upper a - 1 < r) by (apply inject_Z_lt_inv; eapply Qlt_le_trans; eauto).
  lia.
Qed.

Theorem round_of_integer n : round_to_lower (q_of_z n) = n /\ round_to_upper (q_of_z n) = n.
Proof.
  unfold q_of_z. rewrite round_to_lower_floor, round_to_upper_ceiling.
  split; [apply Qfloor_Z | apply Qceiling_Z].
Qed.

Theorem qshl_spec a k q : qshl a k = Some q ->
  exists s, 0 <= s /\ k == inject_Z s /\ canonical q /\ (q == a * inject_Z (2 ^ s))%Q.
Proof.
  unfold qshl. set (s := Z.quot (numerator k) (denominator k)).
  destruct (Z.rem _ _ =? 0) eqn:Er; [|discriminate].
  destruct (shift_ok s) eqn:Es; [|discriminate]. intros H.
  assert (Hq : q = Qred (a * inject_Z (2 ^ s))) by congruence. clear H.
  exists s. split.
  - unfold shift_ok in Es. apply andb_prop in Es. destruct Es as [E _]. apply Z.leb_le in E. auto.
  - split; [|rewrite Hq; split; [apply Qred_canonical | apply Qred_correct]].
    apply Z.eqb_eq in Er. pose proof (Z.quot_rem' (numerator k) (denominator k)).
    unfold numerator, denominator in *. unfold Qeq, inject_Z. cbn [Qnum Qden]. fold s in H. lia.
Qed.

Theorem q_of_m2e_spec m e :
  canonical (q_of_m2e m e) /\
  (0 <= e -> q_of_m2e m e == inject_Z (m * 2 ^ e)) /\
  (e < 0 -> (q_of_m2e m e * inject_Z (2 ^ (- e)) == inject_Z m)%Q).
Proof.
  unfold q_of_m2e. destruct (0 <=? e) eqn:E.
  - apply Z.leb_le in E. split; [apply inject_Z_canonical|]. split; [reflexivity | lia].
  - apply Z.leb_gt in E. split; [apply Qred_canonical|]. split; [lia|]. intros _.
    rewrite Qred_correct. unfold Qeq, Qmult, inject_Z. cbn [Qnum Qden].
    assert (0 < 2 ^ (- e)) by (apply Z.pow_pos_nonneg; lia).
    rewrite Pos.mul_1_r, Z2Pos.id by auto. lia.
Qed.

Example rounding_negative :
  round_to_lower (-7 # 2) = -4 /\ round_to_upper (-7 # 2) = -3 /\
  round_to_lower (7 # 2) = 3 /\ round_to_upper (7 # 2) = 4 /\
  q_make 1 (-2) = Some (-1 # 2) /\ q_make 6 (-4) = Some (-3 # 2).
Proof. vm_compute. auto 10. Qed.
